(* C15_Properties.v — property theorems of C15 (range split).  Each proof is `exact`
   of a lemma of C15_Proofs / C15_ProofsGeneric, a generic theorem applied to the
   splitter's split_hyps (fixed_hyps, p2_hyps, vi_hyps), or a few lines from those;
   the examples are computed.
   Vocabulary (C15_Spec.v): tiles, div_spec, split_hyps, whole_blocks, opt_part,
   parts_tile_stmt, classification_stmt, enclose_stmt, empty_stmt,
   fixed_guard, is_pow2_64, kp_ok, vi_guard. *)
From Coq Require Import ZArith List Lia.
From PV Require Import Base.U64 C15.C15_Model C15.C15_Spec C15.C15_ProofsGeneric C15.C15_Proofs.
Import ListNotations.
Local Open Scope Z_scope.

(* any splitter whose divide() is correct at `begin` and `end` w.r.t. a block
   layout B/L (split_hyps) tiles a non-empty range exactly, block by block *)
Theorem parts_tile_generic : forall B L divide lo hi offset length,
  split_hyps B L divide lo hi offset length -> 0 < length ->
  let r := init divide L offset length in
  exists l, all_parts L r (Z.to_nat (r_aend r - r_abegin r)) = Some l /\ l <> [] /\
            tiles B L offset (offset + length) (r_abegin r) l.
Proof. intros B L divide lo hi offset length H Hl. exact (parts_tile_generic_stmt _ _ _ _ _ _ _ H Hl _ (le_n _)). Qed.
Print Assumptions parts_tile_generic.

Theorem parts_tile_generic_anyfuel : forall B L divide lo hi offset length,
  split_hyps B L divide lo hi offset length -> 0 < length ->
  parts_tile_stmt B L divide offset length.
Proof. exact parts_tile_generic_stmt. Qed.
Print Assumptions parts_tile_generic_anyfuel.

(* consequences of `tiles`: the lengths add up to the range, indices count up *)
Theorem tiles_total_length : forall B L l start stop i,
  tiles B L start stop i l -> start + sum_len l = stop.
Proof. exact tiles_sum. Qed.
Print Assumptions tiles_total_length.

Theorem tiles_consecutive_indices : forall B L l start stop i,
  tiles B L start stop i l ->
  forall k, (k < length l)%nat -> s_i (nth k l sub0) = i + Z.of_nat k.
Proof. exact tiles_indices. Qed.
Print Assumptions tiles_consecutive_indices.

(* in absolute byte offsets: the parts cover exactly [start, stop) ... *)
Theorem tiles_cover_exactly : forall B L l start stop i,
  tiles B L start stop i l ->
  start <= stop /\
  forall x, start <= x < stop <->
            exists p, In p l /\ B (s_i p) + s_off p <= x < B (s_i p) + s_off p + s_len p.
Proof. exact tiles_cover. Qed.
Print Assumptions tiles_cover_exactly.

(* ... are ordered and pairwise disjoint ... *)
Theorem tiles_parts_disjoint : forall B L l start stop i,
  tiles B L start stop i l ->
  forall k1 k2 p1 p2, (k1 < k2)%nat ->
    nth_error l k1 = Some p1 -> nth_error l k2 = Some p2 ->
    B (s_i p1) + s_off p1 + s_len p1 <= B (s_i p2) + s_off p2.
Proof. exact tiles_disjoint. Qed.
Print Assumptions tiles_parts_disjoint.

(* ... and each is non-empty and inside its own block *)
Theorem tiles_parts_inside_block : forall B L l start stop i,
  tiles B L start stop i l ->
  Forall (fun p => 0 <= s_off p /\ 0 < s_len p /\ s_off p + s_len p <= L (s_i p)) l.
Proof. exact tiles_inside_block. Qed.
Print Assumptions tiles_parts_inside_block.

Theorem classification_consistent_generic : forall B L divide lo hi offset length,
  split_hyps B L divide lo hi offset length -> 0 < length ->
  classification_stmt L divide offset length.
Proof. exact C15_ProofsGeneric.classification_consistent_generic. Qed.
Print Assumptions classification_consistent_generic.

Theorem aligned_enclose_generic : forall B L divide lo hi offset length,
  split_hyps B L divide lo hi offset length ->
  enclose_stmt B L divide offset length.
Proof. exact C15_ProofsGeneric.aligned_enclose_generic. Qed.
Print Assumptions aligned_enclose_generic.

Theorem empty_range_generic : forall B L divide lo hi offset,
  split_hyps B L divide lo hi offset 0 -> empty_stmt L divide offset.
Proof. exact empty_generic_stmt. Qed.
Print Assumptions empty_range_generic.

Example split_hyps_nonvacuous :
  split_hyps (fun i => i * 4) (getlen_fixed 4) (divide_fixed 4) 0 W64 5 10.
Proof. exact (fixed_hyps _ _ _ (proj1 fixed_guard_ex)). Qed.

Theorem parts_tile_fixed : forall offset length iv,
  fixed_guard offset length iv -> 0 < length ->
  parts_tile_stmt (fun i => i * iv) (getlen_fixed iv) (divide_fixed iv) offset length.
Proof. exact (fun o l iv G => parts_tile_generic_anyfuel _ _ _ _ _ _ _ (fixed_hyps o l iv G)). Qed.
Print Assumptions parts_tile_fixed.

Theorem classification_consistent_fixed : forall offset length iv,
  fixed_guard offset length iv -> 0 < length ->
  classification_stmt (getlen_fixed iv) (divide_fixed iv) offset length.
Proof. exact (fun o l iv G => classification_consistent_generic _ _ _ _ _ _ _ (fixed_hyps o l iv G)). Qed.
Print Assumptions classification_consistent_fixed.

(* stated on multiply() itself, i.e. on aligned_begin_offset()/aligned_end_offset() *)
Theorem aligned_enclose_fixed : forall offset length iv,
  fixed_guard offset length iv ->
  enclose_stmt (mult_fixed iv) (getlen_fixed iv) (divide_fixed iv) offset length.
Proof. exact (fun o l iv G => enclose_mult _ _ _ _ G (fixed_hyps o l iv G)). Qed.
Print Assumptions aligned_enclose_fixed.

Theorem empty_range_fixed : forall offset iv,
  fixed_guard offset 0 iv -> empty_stmt (getlen_fixed iv) (divide_fixed iv) offset.
Proof. exact (fun o iv G => empty_range_generic _ _ _ _ _ _ (fixed_hyps o 0 iv G)). Qed.
Print Assumptions empty_range_fixed.

Example fixed_guard_nonvacuous :
  fixed_guard 5 10 4 /\ 0 < 10 /\ fixed_guard (W64 - 4096) 4095 1 /\ fixed_guard 7 0 3.
Proof. exact fixed_guard_ex. Qed.

Example parts_tile_fixed_instance :
  all_parts (getlen_fixed 4) (init (divide_fixed 4) (getlen_fixed 4) 5 10) 3
  = Some [mkSub 1 1 3; mkSub 2 0 4; mkSub 3 0 3].
Proof. vm_compute. reflexivity. Qed.

(* the shift/mask arithmetic is the / and % arithmetic, for every x *)
Theorem power2_divide_is_fixed : forall k x, 0 <= k < 64 ->
  divide_p2 (2 ^ k) x = divide_fixed (2 ^ k) x.
Proof. exact divide_p2_fixed. Qed.
Print Assumptions power2_divide_is_fixed.

Theorem power2_run_is_fixed : forall fuel offset length iv, is_pow2_64 iv ->
  run_p2 fuel offset length iv = run_fixed fuel offset length iv.
Proof.
  intros fuel offset length iv P. unfold run_p2, run_fixed. rewrite (init_p2_fixed _ _ _ P).
  destruct P as (k & Hk & ->). rewrite !mult_p2_fixed by exact Hk. reflexivity.
Qed.
Print Assumptions power2_run_is_fixed.

Theorem parts_tile_power2 : forall offset length iv,
  fixed_guard offset length iv -> is_pow2_64 iv -> 0 < length ->
  parts_tile_stmt (fun i => i * iv) (getlen_fixed iv) (divide_p2 iv) offset length.
Proof. exact (fun o l iv G P => parts_tile_generic_anyfuel _ _ _ _ _ _ _ (p2_hyps o l iv G P)). Qed.
Print Assumptions parts_tile_power2.

Theorem classification_consistent_power2 : forall offset length iv,
  fixed_guard offset length iv -> is_pow2_64 iv -> 0 < length ->
  classification_stmt (getlen_fixed iv) (divide_p2 iv) offset length.
Proof. exact (fun o l iv G P => classification_consistent_generic _ _ _ _ _ _ _ (p2_hyps o l iv G P)). Qed.
Print Assumptions classification_consistent_power2.

Theorem aligned_enclose_power2 : forall offset length iv,
  fixed_guard offset length iv -> is_pow2_64 iv ->
  enclose_stmt (mult_p2 iv) (getlen_fixed iv) (divide_p2 iv) offset length.
Proof.
  intros offset length iv G P. pose proof (enclose_mult _ _ _ _ G (p2_hyps _ _ _ G P)) as E.
  destruct P as (k & Hk & ->). unfold enclose_stmt in *. rewrite !mult_p2_fixed by exact Hk. exact E.
Qed.
Print Assumptions aligned_enclose_power2.

Theorem empty_range_power2 : forall offset iv,
  fixed_guard offset 0 iv -> is_pow2_64 iv ->
  empty_stmt (getlen_fixed iv) (divide_p2 iv) offset.
Proof. exact (fun o iv G P => empty_range_generic _ _ _ _ _ _ (p2_hyps o 0 iv G P)). Qed.
Print Assumptions empty_range_power2.

Example power2_guard_nonvacuous :
  fixed_guard 5 10 4 /\ is_pow2_64 4 /\ is_pow2_64 1 /\ is_pow2_64 9223372036854775808.
Proof.
  split; [exact (proj1 fixed_guard_ex)|].
  split; [exists 2|split; [exists 0|exists 63]]; (split; [lia|reflexivity]).
Qed.

Theorem parts_tile_vi : forall kp, kp_ok kp -> forall offset length,
  vi_guard offset length -> 0 < length ->
  parts_tile_stmt (kp_nth kp) (getlen_vi kp) (divide_vi kp) offset length.
Proof. exact (fun kp K o l G => parts_tile_generic_anyfuel _ _ _ _ _ _ _ (vi_hyps kp K o l G)). Qed.
Print Assumptions parts_tile_vi.

Theorem classification_consistent_vi : forall kp, kp_ok kp -> forall offset length,
  vi_guard offset length -> 0 < length ->
  classification_stmt (getlen_vi kp) (divide_vi kp) offset length.
Proof. exact (fun kp K o l G => classification_consistent_generic _ _ _ _ _ _ _ (vi_hyps kp K o l G)). Qed.
Print Assumptions classification_consistent_vi.

Theorem aligned_enclose_vi : forall kp, kp_ok kp -> forall offset length,
  vi_guard offset length ->
  enclose_stmt (mult_vi kp) (getlen_vi kp) (divide_vi kp) offset length.
Proof. exact (fun kp K o l G => aligned_enclose_generic _ _ _ _ _ _ _ (vi_hyps kp K o l G)). Qed.
Print Assumptions aligned_enclose_vi.

Theorem empty_range_vi : forall kp, kp_ok kp -> forall offset,
  vi_guard offset 0 -> empty_stmt (getlen_vi kp) (divide_vi kp) offset.
Proof. exact (fun kp K o G => empty_range_generic _ _ _ _ _ _ (vi_hyps kp K o 0 G)). Qed.
Print Assumptions empty_range_vi.

Example vi_guard_nonvacuous :
  kp_ok [0; 3; 7; 8; 20; MAX64] /\ vi_guard 2 9 /\ 0 < 9 /\ vi_guard 5 0.
Proof. unfold kp_ok, vi_guard. cbn [ascending]. unfold MAX64. repeat split; lia. Qed.

(* known finding F15: beyond fixed_guard the parts do not tile the range.  One witness:
   offset+length+interval-1 = 2^64+3945, aend = 0 although abegin = 2^52-1, and
   all_parts() does not finish within any realistic number of steps. *)
Theorem f15_refuted :
  let offset := W64 - 100 in let length := 50 in let iv := 4096 in
  let r := init (divide_fixed iv) (getlen_fixed iv) offset length in
  in_u64 offset /\ in_u64 (offset + length) /\ 0 < length /\ ~ fixed_guard offset length iv /\
  r_abegin r = 2 ^ 52 - 1 /\ r_aend r = 0 /\
  (forall fuel, Z.of_nat fuel < 2 ^ 63 -> all_parts (getlen_fixed iv) r fuel = None) /\
  ~ parts_tile_stmt (fun i => i * iv) (getlen_fixed iv) (divide_fixed iv) offset length.
Proof.
  cbv zeta.
  assert (N : in_u64 (W64 - 100) /\ in_u64 (W64 - 100 + 50) /\ 0 < 50 /\ ~ fixed_guard (W64 - 100) 50 4096)
    by (unfold in_u64, fixed_guard, W64; lia).
  destruct N as (N1 & N2 & N3 & N4). destruct f15_class_ex as (C1 & C2 & C3 & C4 & C5 & _).
  destruct (f15_class_l _ _ _ C1 C2 C3 C4 C5) as (E & A & R & T).
  refine (conj N1 (conj N2 (conj N3 (conj N4 (conj A (conj E (conj _ T))))))).
  intros fuel Hf. rewrite R; [reflexivity|].
  change ((W64 - 100) / 4096) with (2 ^ 52 - 1). unfold W64. lia.
Qed.
Print Assumptions f15_refuted.

(* the class of F15 is exact: EVERY range_split input with a representable `end`
   beyond the guard has aend = 0 and does not tile (so known_class hides nothing
   that would hold) *)
Theorem f15_class_exact : forall offset length iv,
  0 <= offset -> 0 < length -> 0 < iv < W64 -> offset + length < W64 ->
  W64 <= offset + length + iv - 1 ->
  let r := init (divide_fixed iv) (getlen_fixed iv) offset length in
  r_aend r = 0 /\ r_abegin r = offset / iv /\
  (forall fuel, offset / iv + Z.of_nat fuel < W64 ->
     all_parts (getlen_fixed iv) r fuel = if offset / iv =? 0 then Some [] else None) /\
  ~ parts_tile_stmt (fun i => i * iv) (getlen_fixed iv) (divide_fixed iv) offset length.
Proof. exact f15_class_l. Qed.
Print Assumptions f15_class_exact.

Theorem f15_class_exact_power2 : forall offset length iv,
  0 <= offset -> 0 < length -> is_pow2_64 iv -> offset + length < W64 ->
  W64 <= offset + length + iv - 1 ->
  ~ parts_tile_stmt (fun i => i * iv) (getlen_fixed iv) (divide_p2 iv) offset length.
Proof.
  intros offset length iv Ho Hl P He Hg. unfold parts_tile_stmt. rewrite (init_p2_fixed _ _ _ P).
  destruct P as (k & Hk & ->). pose proof (pow2_lt_W64 k Hk).
  apply (f15_class_l offset length (2 ^ k)); assumption.
Qed.
Print Assumptions f15_class_exact_power2.

Example f15_class_nonvacuous :
  0 <= W64 - 100 /\ 0 < 50 /\ 0 < 4096 < W64 /\ W64 - 100 + 50 < W64 /\
  W64 <= W64 - 100 + 50 + 4096 - 1 /\ is_pow2_64 4096.
Proof. exact f15_class_ex. Qed.

(* F19 (repaired by commit 744eaa1): empty_range_fixed was false for the
   pre-fix aligned_parts_t::end() *)
Theorem empty_range_prefix_refuted :
  let r := init (divide_fixed 2) (getlen_fixed 2) 1 0 in
  fixed_guard 1 0 2 /\
  (forall fuel, Z.of_nat fuel < W64 - 1 -> aligned_parts_prefix (getlen_fixed 2) r fuel = None) /\
  (forall fuel, aligned_parts (getlen_fixed 2) r fuel = Some []).
Proof. exact empty_range_prefix_refuted_l. Qed.
Print Assumptions empty_range_prefix_refuted.

(* the class of F19 is exact as well: with the pre-fix end() EVERY empty range whose
   offset is not on a block boundary made aligned_parts() run away *)
Theorem f19_prefix_class_generic : forall B L divide lo hi offset,
  split_hyps B L divide lo hi offset 0 -> d_rem (divide offset) <> 0 ->
  let r := init divide L offset 0 in
  forall fuel, d_down (divide offset) + 1 + Z.of_nat fuel < W64 ->
  aligned_parts_prefix L r fuel = None.
Proof. exact f19_class_generic_l. Qed.
Print Assumptions f19_prefix_class_generic.

Theorem f19_prefix_class_fixed : forall offset iv,
  fixed_guard offset 0 iv -> offset mod iv <> 0 ->
  let r := init (divide_fixed iv) (getlen_fixed iv) offset 0 in
  forall fuel, offset / iv + 1 + Z.of_nat fuel < W64 ->
  aligned_parts_prefix (getlen_fixed iv) r fuel = None.
Proof. exact (fun o iv G => f19_prefix_class_generic _ _ _ _ _ _ (fixed_hyps o 0 iv G)). Qed.
Print Assumptions f19_prefix_class_fixed.
