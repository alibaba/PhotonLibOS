(* C15_ProofsGeneric.v — the range-split theorems over an abstract block layout
   (B i = absolute start of block i, L i = its length) and an abstract
   Derived::divide that is only described at the two points begin and end.
   Everything about all_parts() is read off its exact shape after init():
   one part if the range touches one block (all_parts_one), else
   first part, whole blocks, optional postface (all_parts_many). *)
From Coq Require Import ZArith List Bool Lia.
From PV Require Import Base.U64 C15.C15_Model C15.C15_Spec.
Import ListNotations.
Local Open Scope Z_scope.

Lemma W64_gt1 : 1 < W64. Proof. reflexivity. Qed.

Lemma wrap_succ_neq x : 0 <= x < W64 -> wrap (x + 1) <> x.
Proof.
  intros Hx. pose proof W64_gt1.
  destruct (Z.eq_dec (x + 1) W64); [rewrite wrap_over_small|rewrite wrap_small]; lia.
Qed.

(* how init() compares an index with its rounded-up neighbour *)
Lemma eqb_up_l x (c : bool) : (x =? (if c then x else x + 1)) = c.
Proof. destruct c; [apply Z.eqb_refl|apply Z.eqb_neq; lia]. Qed.

Lemma eqb_up_r x (c : bool) : ((if c then x else x + 1) =? x) = c.
Proof. rewrite Z.eqb_sym. apply eqb_up_l. Qed.

Lemma steps_mono (f : Z -> Z) lo hi : (forall i, lo <= i < hi -> f i <= f (i + 1)) ->
  forall i j, lo <= i <= j -> j <= hi -> f i <= f j.
Proof.
  intros Hs i j Hij. replace j with (i + Z.of_nat (Z.to_nat (j - i))) by lia.
  induction (Z.to_nat (j - i)) as [|n IH]; intros Hj.
  - rewrite Z.add_0_r. lia.
  - rewrite Nat2Z.inj_succ in *. unfold Z.succ in *. rewrite Z.add_assoc in *.
    specialize (Hs (i + Z.of_nat n)). lia.
Qed.

Section Tiles.
  Variables B L : Z -> Z.
  Local Notation abs_begin p := (B (s_i p) + s_off p).
  Local Notation abs_end p := (B (s_i p) + s_off p + s_len p).

  Lemma tiles_sum : forall l start stop i,
    tiles B L start stop i l -> start + sum_len l = stop.
  Proof.
    induction l as [|p l IH]; intros start stop i Ht; cbn [tiles sum_len fold_right] in *.
    - lia.
    - destruct Ht as (_ & _ & _ & _ & _ & Ht). apply IH in Ht. unfold sum_len in Ht. lia.
  Qed.

  Lemma tiles_indices : forall l start stop i,
    tiles B L start stop i l ->
    forall k, (k < length l)%nat -> s_i (nth k l sub0) = i + Z.of_nat k.
  Proof.
    induction l as [|p l IH]; intros start stop i Ht k Hk; cbn [length] in Hk; [lia|].
    cbn [tiles] in Ht. destruct Ht as (Hi & _ & _ & _ & _ & Ht).
    destruct k as [|k]; cbn [nth].
    - lia.
    - rewrite (IH _ _ _ Ht k) by lia. lia.
  Qed.

  Lemma tiles_cover : forall l start stop i,
    tiles B L start stop i l ->
    start <= stop /\
    forall x, start <= x < stop <-> exists p, In p l /\ abs_begin p <= x < abs_end p.
  Proof.
    induction l as [|p l IH]; intros start stop i Ht; cbn [tiles] in Ht.
    - split; [lia|]. intros x. split; [lia|]. intros (p & [] & _).
    - destruct Ht as (Hi & Ho & Hs & Hl & Hb & Ht).
      destruct (IH _ _ _ Ht) as (Hle & Hiff). split; [lia|].
      intros x. split.
      + intros Hx. destruct (Z.lt_ge_cases x (start + s_len p)) as [Lt|Ge].
        * exists p. split; [left; reflexivity|]. rewrite Hi. lia.
        * destruct (proj1 (Hiff x) ltac:(lia)) as (q & Hq & Hqx).
          exists q. split; [right; exact Hq|exact Hqx].
      + intros (q & [Hq|Hq] & Hqx).
        * subst q. rewrite Hi in Hqx. lia.
        * pose proof (proj2 (Hiff x) (ex_intro _ q (conj Hq Hqx))). lia.
  Qed.

  Lemma tiles_inside_block : forall l start stop i,
    tiles B L start stop i l ->
    Forall (fun p => 0 <= s_off p /\ 0 < s_len p /\ s_off p + s_len p <= L (s_i p)) l.
  Proof.
    induction l as [|p l IH]; intros start stop i Ht; cbn [tiles] in Ht; constructor.
    - destruct Ht as (Hi & Ho & Hs & Hl & Hb & _). rewrite Hi. lia.
    - destruct Ht as (_ & _ & _ & _ & _ & Ht). eapply IH; eassumption.
  Qed.

  Lemma tiles_after_start : forall l start stop i,
    tiles B L start stop i l -> forall p, In p l -> start <= abs_begin p /\ abs_end p <= stop.
  Proof.
    induction l as [|p l IH]; intros start stop i Ht q Hq; [destruct Hq|].
    cbn [tiles] in Ht. destruct Ht as (Hi & Ho & Hs & Hl & Hb & Ht).
    destruct (tiles_cover _ _ _ _ Ht) as (Hle & _).
    destruct Hq as [Hq|Hq].
    - subst q. rewrite Hi. lia.
    - destruct (IH _ _ _ Ht q Hq). lia.
  Qed.

  Lemma tiles_disjoint : forall l start stop i,
    tiles B L start stop i l ->
    forall k1 k2 p1 p2, (k1 < k2)%nat ->
      nth_error l k1 = Some p1 -> nth_error l k2 = Some p2 -> abs_end p1 <= abs_begin p2.
  Proof.
    induction l as [|p l IH]; intros start stop i Ht k1 k2 p1 p2 Hk H1 H2.
    - destruct k1; discriminate H1.
    - cbn [tiles] in Ht. destruct Ht as (Hi & Ho & Hs & Hl & Hb & Ht).
      destruct k2 as [|k2]; [lia|]. cbn [nth_error] in H2.
      destruct k1 as [|k1]; cbn [nth_error] in H1.
      + injection H1 as <-. apply nth_error_In in H2.
        destruct (tiles_after_start _ _ _ _ Ht p2 H2). rewrite Hi. lia.
      + eapply IH; [exact Ht| |exact H1|exact H2]. lia.
  Qed.

  Lemma tiles_whole_blocks stop rest : forall n i,
    (forall j, i <= j < i + Z.of_nat n -> 0 < L j /\ B (j + 1) = B j + L j) ->
    tiles B L (B (i + Z.of_nat n)) stop (i + Z.of_nat n) rest ->
    tiles B L (B i) stop i (whole_blocks L i n ++ rest).
  Proof.
    induction n as [|n IH]; intros i Hb Hr.
    - rewrite Z.add_0_r in Hr. exact Hr.
    - destruct (Hb i ltac:(lia)) as [Hp Hs].
      cbn [whole_blocks app tiles s_i s_off s_len]. repeat split; try lia.
      rewrite <- Hs. apply IH.
      + intros j Hj. apply Hb. lia.
      + replace (i + 1 + Z.of_nat n) with (i + Z.of_nat (S n)) by lia. exact Hr.
  Qed.
End Tiles.

Lemma opt_part_nonempty s : 0 < s_len s -> opt_part s = [s].
Proof. intros Hs. unfold opt_part, sub_nonempty. rewrite (proj2 (Z.ltb_lt _ _) Hs). reflexivity. Qed.

Lemma aligned_from_ok L stop : stop < W64 ->
  forall n fuel i, (n <= fuel)%nat -> 0 <= i -> i + Z.of_nat n = stop ->
  aligned_parts_from L stop fuel i = Some (whole_blocks L i n).
Proof.
  intros Hs. induction n as [|n IH]; intros fuel i Hf Hi Hn.
  - assert (E : i =? stop = true) by (apply Z.eqb_eq; lia).
    destruct fuel; cbn [aligned_parts_from whole_blocks]; rewrite E; reflexivity.
  - destruct fuel as [|fuel]; [lia|].
    cbn [aligned_parts_from whole_blocks].
    destruct (Z.eqb_spec i stop) as [E|E]; [lia|].
    rewrite wrap_small by lia. rewrite IH by lia. reflexivity.
Qed.

Lemma whole_blocks_whole L n : forall i, Forall (whole_block L) (whole_blocks L i n).
Proof.
  induction n as [|n IH]; intros i; cbn [whole_blocks]; constructor.
  - split; reflexivity.
  - apply IH.
Qed.

Lemma whole_blocks_nil L i j : j <= i -> whole_blocks L i (Z.to_nat (j - i)) = [].
Proof. intros Hj. replace (Z.to_nat (j - i)) with 0%nat by lia. reflexivity. Qed.

Lemma whole_blocks_cons L i j : i < j ->
  whole_blocks L i (Z.to_nat (j - i)) = mkSub i 0 (L i) :: whole_blocks L (i + 1) (Z.to_nat (j - (i + 1))).
Proof.
  intros Hj. replace (Z.to_nat (j - i)) with (S (Z.to_nat (j - (i + 1)))) by lia. reflexivity.
Qed.

(* started above its stop index an iterator can only reach it by wrapping through 2^64 *)
Lemma aligned_from_runaway L stop : 0 <= stop -> forall fuel i,
  stop < i -> i + Z.of_nat fuel < W64 -> aligned_parts_from L stop fuel i = None.
Proof.
  intros Hs0. induction fuel as [|fuel IH]; intros i Hi Hf; cbn [aligned_parts_from];
    (destruct (Z.eqb_spec i stop) as [E|E]; [lia|]); [reflexivity|].
  rewrite wrap_small by lia. rewrite IH by lia. reflexivity.
Qed.

Lemma all_parts_from_runaway L r : 0 <= r_aend r -> forall fuel cur,
  r_aend r < s_i cur -> s_i cur + Z.of_nat fuel < W64 -> all_parts_from L r fuel cur = None.
Proof.
  intros H0. induction fuel as [|fuel IH]; intros cur Hi Hf; cbn [all_parts_from];
    (destruct (Z.eqb_spec (s_i cur) (r_aend r)) as [E|E]; [lia|]); [reflexivity|].
  rewrite IH; [reflexivity| |]; cbn [s_i]; rewrite wrap_small by lia; lia.
Qed.

Lemma all_parts_from_end L r : forall n cur,
  s_i cur = r_aend r -> all_parts_from L r n cur = Some [].
Proof.
  intros n cur E. destruct n; cbn [all_parts_from]; rewrite E, Z.eqb_refl; reflexivity.
Qed.

Lemma all_parts_single L r fuel :
  s_i (r_first r) <> r_aend r -> wrap (s_i (r_first r) + 1) = r_aend r ->
  all_parts L r (S fuel) = Some [r_first r].
Proof.
  intros N W. unfold all_parts. cbn [all_parts_from].
  rewrite (proj2 (Z.eqb_neq _ _) N), all_parts_from_end; [reflexivity|exact W].
Qed.

(* all_parts() on any record whose postface is the rest e of block pe, if any *)
Section Iter.
  Variables (L : Z -> Z) (r : rs) (pe e : Z).
  Hypothesis Hpost : r_postface r = (if e =? 0 then sub0 else mkSub pe 0 e).
  Hypothesis He : 0 <= e.

  Lemma opt_postface : opt_part (r_postface r) = (if e =? 0 then [] else [mkSub pe 0 e]).
  Proof.
    rewrite Hpost. destruct (Z.eqb_spec e 0); [reflexivity|].
    apply opt_part_nonempty. cbn [s_len]. lia.
  Qed.

  (* what operator++ yields at block i *)
  Local Notation cur_at i :=
    (mkSub i 0 (if sub_nonempty (r_postface r) && (s_i (r_postface r) =? i)
                then s_len (r_postface r) else L i)).

  Lemma cur_at_eq i : cur_at i = mkSub i 0 (if negb (e =? 0) && (pe =? i) then e else L i).
  Proof.
    rewrite Hpost. unfold sub_nonempty. destruct (Z.eqb_spec e 0); [reflexivity|].
    cbn [s_len s_i negb]. rewrite (proj2 (Z.ltb_lt 0 e)) by lia. reflexivity.
  Qed.

  Hypothesis Hae : r_aend r = (if e =? 0 then pe else pe + 1).
  Hypothesis Hw : r_aend r < W64.

  Lemma all_parts_from_blocks : forall n fuel i,
    (n <= fuel)%nat -> Z.of_nat n = r_aend r - i -> 0 <= i < r_aend r ->
    all_parts_from L r fuel (cur_at i) =
      Some (whole_blocks L i (Z.to_nat (pe - i)) ++ opt_part (r_postface r)).
  Proof.
    rewrite opt_postface.
    assert (G : pe <= r_aend r <= pe + 1) by (rewrite Hae; destruct (e =? 0); lia).
    induction n as [|n IH]; intros fuel i Hf Hn Hi; [lia|].
    destruct fuel as [|fuel]; [lia|].
    cbn [all_parts_from s_i s_len]. rewrite (cur_at_eq i), wrap_small by lia.
    destruct (Z.eqb_spec i (r_aend r)) as [E|E]; [lia|].
    destruct (Z.eqb_spec (i + 1) (r_aend r)) as [E1|E1].
    - (* the last part: the postface if there is one, else a whole block *)
      rewrite all_parts_from_end by exact E1. rewrite Hae in E1.
      destruct (Z.eqb_spec e 0); cbn [negb andb].
      + rewrite whole_blocks_cons, whole_blocks_nil by lia. reflexivity.
      + rewrite whole_blocks_nil by lia.
        replace i with pe by lia. rewrite Z.eqb_refl. reflexivity.
    - rewrite IH, (whole_blocks_cons L i) by lia.
      replace (pe =? i) with false by (symmetry; apply Z.eqb_neq; lia).
      rewrite andb_false_r. reflexivity.
  Qed.

  Lemma all_parts_cons fuel : let i := s_i (r_first r) in
    0 <= i -> i + 1 < r_aend r -> (Z.to_nat (r_aend r - i) <= fuel)%nat ->
    all_parts L r fuel =
      Some (r_first r :: whole_blocks L (i + 1) (Z.to_nat (pe - (i + 1))) ++ opt_part (r_postface r)).
  Proof.
    intros i Hi Hlt Hf. unfold all_parts. destruct fuel as [|fuel]; [lia|].
    cbn [all_parts_from]. fold i. rewrite wrap_small by lia.
    destruct (Z.eqb_spec i (r_aend r)); [lia|]. destruct (Z.eqb_spec (i + 1) (r_aend r)); [lia|].
    rewrite (all_parts_from_blocks (Z.to_nat (r_aend r - (i + 1)))) by lia. reflexivity.
  Qed.
End Iter.

(* the four indices init() stores, for any divide *)
Lemma init_indices d L offset length : let r := init d L offset length in
  r_abegin r = d_down (d offset) /\ r_apbegin r = d_up (d offset) /\
  r_apend r = d_down (d (wrap (offset + length))) /\ r_aend r = d_up (d (wrap (offset + length))).
Proof.
  unfold init. destruct (_ =? _); [destruct (negb _), (negb _)|];
    exact (conj eq_refl (conj eq_refl (conj eq_refl eq_refl))).
Qed.

Section Generic.
  Variables (B L : Z -> Z) (divide : Z -> divr) (lo hi offset length : Z).
  Hypothesis H : split_hyps B L divide lo hi offset length.

  Local Notation eoff := (offset + length).
  Local Notation abegin := (d_down (divide offset)).
  Local Notation brem := (d_rem (divide offset)).
  Local Notation apbegin := (d_up (divide offset)).
  Local Notation apend := (d_down (divide (offset + length))).
  Local Notation erem := (d_rem (divide (offset + length))).
  Local Notation aend := (d_up (divide (offset + length))).
  Local Notation r := (init divide L offset length).

  (* the two roundings up, kept out of the context that lia sees: it would split on each `if` *)
  Lemma up_b : apbegin = (if brem =? 0 then abegin else abegin + 1).
  Proof. apply H. Qed.
  Lemma up_e : aend = (if erem =? 0 then apend else apend + 1).
  Proof. apply H. Qed.

  (* unpack the rest of H *)
  Ltac facts :=
    pose proof H as H';
    destruct H' as [Hoff Hlen Hend Hlo Hstep Hpos [Hb1 [Hb2 _]] [He1 [He2 _]] Hbi Hei Hnw];
    pose proof W64_gt1 as HW.

  Lemma wrap_e : wrap eoff = eoff.
  Proof. facts. apply wrap_small. lia. Qed.

  Lemma init_abegin : r_abegin r = abegin.
  Proof using H. apply init_indices. Qed.
  Lemma init_aend : r_aend r = aend.
  Proof. rewrite <- wrap_e at 1. apply init_indices. Qed.
  Lemma init_apbegin : r_apbegin r = apbegin.
  Proof using H. apply init_indices. Qed.
  Lemma init_apend : r_apend r = apend.
  Proof. rewrite <- wrap_e at 1. apply init_indices. Qed.

  Lemma B_le i j : lo <= i <= j -> j <= hi + 1 -> B i <= B j.
  Proof.
    facts. apply steps_mono. intros k Hk. rewrite Hstep by lia. pose proof (Hpos k). lia.
  Qed.

  (* order of the four indices, and the enclosure of the range *)
  Lemma geom :
    abegin <= apend /\ apend <= aend <= apend + 1 /\ abegin <= apbegin <= abegin + 1 /\
    eoff <= B aend /\ B aend - L apend < eoff /\ (0 < length -> abegin < aend) /\ apbegin <= aend.
  Proof.
    facts. pose proof (Hstep apend Hei) as Hs. pose proof (Hpos apend Hei) as Hp.
    assert (O1 : abegin <= apend).
    { destruct (Z.le_gt_cases abegin apend) as [|G]; [assumption|exfalso].
      pose proof (B_le (apend + 1) abegin). lia. }
    assert (O2 : abegin = apend -> erem = brem + length) by (intros Q; rewrite Q in *; lia).
    rewrite up_e, up_b.
    destruct (Z.eqb_spec erem 0); destruct (Z.eqb_spec brem 0); rewrite ?Hs; lia.
  Qed.

  (* the classified members in the one-block case *)
  Lemma init_small : wrap (abegin + 1) = aend ->
    let first := mkSub abegin brem length in
    r_first r = first /\
    r_small r = (if negb (brem =? 0) && negb (erem =? 0) then first else sub0) /\
    r_preface r = (if negb (brem =? 0) && (erem =? 0) then first else sub0) /\
    r_postface r = (if (brem =? 0) && negb (erem =? 0) then first else sub0).
  Proof.
    intros Hw. unfold init. rewrite wrap_e, Hw, Z.eqb_refl, up_b, up_e, eqb_up_l, eqb_up_r.
    generalize (brem =? 0), (erem =? 0).
    intros [] []; exact (conj eq_refl (conj eq_refl (conj eq_refl eq_refl))).
  Qed.

  (* the classified members in the several-blocks (or empty aligned) case *)
  Lemma init_big : wrap (abegin + 1) <> aend ->
    r_small r = sub0 /\
    r_preface r = (if brem =? 0 then sub0 else mkSub abegin brem (L abegin - brem)) /\
    r_first r = mkSub abegin brem (L abegin - brem) /\
    r_postface r = (if erem =? 0 then sub0 else mkSub apend 0 erem).
  Proof.
    facts. intros Hw. unfold init.
    rewrite wrap_e, (proj2 (Z.eqb_neq _ _) Hw), up_b, up_e, eqb_up_l, eqb_up_r.
    cbn [r_small r_preface r_first r_postface].
    pose proof (Hpos abegin Hbi) as Hp. destruct (Z.eqb_spec brem 0) as [E|E].
    - rewrite E, Z.sub_0_r. exact (conj eq_refl (conj eq_refl (conj eq_refl eq_refl))).
    - rewrite wrap_small by lia. unfold sub_nonempty. cbn [s_len].
      rewrite (proj2 (Z.ltb_lt _ _)) by lia. exact (conj eq_refl (conj eq_refl (conj eq_refl eq_refl))).
  Qed.

  (* one block or not: the test of init(), without the wrap *)
  Lemma one_block_cases :
    abegin + 1 = aend /\ wrap (abegin + 1) = aend \/ abegin + 1 <> aend /\ wrap (abegin + 1) <> aend.
  Proof.
    facts. destruct geom as (G1 & G2 & _).
    destruct (Z.eq_dec (abegin + 1) W64); [rewrite wrap_over_small|rewrite wrap_small]; lia.
  Qed.

  Lemma all_parts_one : wrap (abegin + 1) = aend -> forall fuel,
    all_parts L r (S fuel) = Some [mkSub abegin brem length].
  Proof.
    facts. intros HS fuel. destruct (init_small HS) as (F & _). rewrite <- F.
    apply all_parts_single; rewrite F, init_aend; [|exact HS].
    cbn [s_i]. rewrite <- HS. apply not_eq_sym, wrap_succ_neq. destruct geom. lia.
  Qed.

  Lemma postface_big : wrap (abegin + 1) <> aend ->
    opt_part (r_postface r) = (if erem =? 0 then [] else [mkSub apend 0 erem]).
  Proof.
    facts. intros Hw. apply opt_postface; [apply (init_big Hw)|lia].
  Qed.

  Lemma all_parts_many : wrap (abegin + 1) <> aend -> abegin < aend ->
    forall fuel, (Z.to_nat (aend - abegin) <= fuel)%nat ->
    all_parts L r fuel =
      Some (mkSub abegin brem (L abegin - brem) ::
            whole_blocks L (abegin + 1) (Z.to_nat (apend - (abegin + 1))) ++ opt_part (r_postface r)).
  Proof.
    facts. intros HS Hlt fuel Hf. destruct one_block_cases as [[_ Q]|[N _]]; [contradiction|].
    destruct (init_big HS) as (_ & _ & F & P).
    pose proof (all_parts_cons L r apend erem) as A. rewrite F, init_aend in A.
    apply A; try assumption; try apply up_e; cbn [s_i]; lia.
  Qed.

  Lemma small_nonempty_order : sub_nonempty (r_small r) = true -> apend < apbegin.
  Proof.
    facts. intros Hs. destruct geom as (G1 & _).
    destruct one_block_cases as [[HS HS']|[_ HS']].
    - destruct (init_small HS') as (_ & Sm & _). rewrite Sm in Hs.
      pose proof up_b as Ub. pose proof up_e as Ue.
      destruct (Z.eqb_spec brem 0); destruct (Z.eqb_spec erem 0); try discriminate Hs. lia.
    - destruct (init_big HS') as (Sm & _). rewrite Sm in Hs. discriminate Hs.
  Qed.

  Lemma aligned_ok : forall fuel, (Z.to_nat (apend - apbegin) <= fuel)%nat ->
    aligned_parts L r fuel = Some (whole_blocks L apbegin (Z.to_nat (apend - apbegin))).
  Proof.
    facts. intros fuel Hf. destruct geom as (G1 & G2 & G3 & _ & _ & _ & G7).
    pose proof small_nonempty_order as SO.
    unfold aligned_parts, aligned_stop. rewrite init_apbegin, init_apend.
    apply aligned_from_ok; try lia;
      (destruct (sub_nonempty (r_small r)); [specialize (SO eq_refl)|];
       cbn [orb]; [|destruct (Z.ltb_spec apend apbegin)]; lia).
  Qed.

  Theorem parts_tile_generic_stmt : 0 < length -> parts_tile_stmt B L divide offset length.
  Proof.
    facts. intros Hl. unfold parts_tile_stmt. cbv zeta. rewrite init_abegin, init_aend.
    intros fuel Hf. destruct geom as (G1 & G2 & G3 & G4 & G5 & G6 & _). specialize (G6 Hl).
    pose proof (Hstep abegin Hbi) as Hsa. pose proof (Hpos abegin Hbi) as Hpa.
    destruct one_block_cases as [[HS HS']|[HS HS']].
    - destruct fuel as [|fuel]; [lia|]. rewrite (all_parts_one HS').
      eexists. split; [reflexivity|]. split; [discriminate|].
      cbn [tiles s_i s_off s_len]. rewrite <- HS in G4. repeat split; lia.
    - rewrite (all_parts_many HS' G6) by lia.
      eexists. split; [reflexivity|]. split; [discriminate|].
      cbn [tiles s_i s_off s_len]. repeat split; try lia.
      replace (offset + (L abegin - brem)) with (B (abegin + 1)) by lia.
      apply tiles_whole_blocks.
      + intros j Hj. split; [apply Hpos|apply Hstep]; lia.
      + replace (abegin + 1 + Z.of_nat (Z.to_nat (apend - (abegin + 1)))) with apend by lia.
        rewrite (postface_big HS').
        destruct (Z.eqb_spec erem 0); cbn [tiles s_i s_off s_len]; lia.
  Qed.

  Theorem classification_consistent_generic : 0 < length -> classification_stmt L divide offset length.
  Proof.
    facts. intros Hl. unfold classification_stmt. cbv zeta.
    rewrite init_abegin, init_aend, init_apbegin, init_apend. intros fuel Hf.
    destruct geom as (G1 & G2 & G3 & G4 & G5 & G6 & _). specialize (G6 Hl).
    split; [apply aligned_ok; lia|]. split; [apply whole_blocks_whole|].
    pose proof (Hstep abegin Hbi) as Hsa. pose proof up_e as Ue. rewrite up_b.
    destruct one_block_cases as [[HS HS']|[HS HS']].
    - (* one block: the part is small_note, preface, postface or the one aligned block *)
      destruct fuel as [|fuel]; [lia|]. rewrite (all_parts_one HS').
      destruct (init_small HS') as (_ & -> & -> & ->).
      assert (NE : sub_nonempty (mkSub abegin brem length) = true) by (apply Z.ltb_lt; exact Hl).
      destruct (Z.eqb_spec brem 0) as [E|E]; destruct (Z.eqb_spec erem 0) as [E'|E'];
        cbn [negb andb]; unfold opt_part; rewrite ?NE; change (sub_nonempty sub0) with false; cbv iota.
      + rewrite whole_blocks_cons, whole_blocks_nil by lia.
        rewrite <- Ue, <- HS in He1. cbn [app]. do 3 f_equal; lia.
      + rewrite whole_blocks_nil by lia. reflexivity.
      + rewrite whole_blocks_nil by lia. reflexivity.
      + rewrite whole_blocks_nil by lia. split; reflexivity.
    - (* several blocks: the first part is the preface or the first aligned block *)
      rewrite (all_parts_many HS' G6) by lia.
      destruct (init_big HS') as (-> & -> & _).
      change (sub_nonempty sub0) with false. cbv iota.
      pose proof (Hpos abegin Hbi) as Hpa.
      destruct (Z.eqb_spec brem 0) as [E|E].
      + rewrite (whole_blocks_cons L abegin) by lia. change (opt_part sub0) with (@nil sub).
        cbn [app]. do 3 f_equal; lia.
      + rewrite (opt_part_nonempty (mkSub abegin brem (L abegin - brem))) by (cbn [s_len]; lia).
        reflexivity.
  Qed.

  Theorem aligned_enclose_generic : enclose_stmt B L divide offset length.
  Proof.
    facts. destruct geom as (G1 & G2 & G3 & G4 & G5 & G6 & _).
    unfold enclose_stmt. cbv zeta. rewrite init_abegin, init_aend, init_apend.
    repeat split; try lia.
    intros Hl. specialize (G6 Hl). rewrite up_e in *.
    destruct (Z.eqb_spec erem 0) as [E|E].
    - pose proof (Hpos (apend - 1)). lia.
    - replace (apend + 1 - 1) with apend by lia. lia.
  Qed.

  (* empty_range: nothing (aligned offset) or the one part of length 0 *)
  Lemma empty_anyfuel : length = 0 ->
    (forall fuel, (Z.to_nat (r_aend r - r_abegin r) <= fuel)%nat ->
       all_parts L r fuel =
         Some (if brem =? 0 then [] else [mkSub (r_abegin r) brem 0])) /\
    (forall fuel, aligned_parts L r fuel = Some []) /\
    sub_nonempty (r_small r) = false /\ sub_nonempty (r_preface r) = false /\
    sub_nonempty (r_postface r) = false.
  Proof.
    facts. intros L0.
    assert (Heq : apend = abegin /\ erem = brem /\ aend = apbegin)
      by (rewrite L0, Z.add_0_r; repeat split; reflexivity).
    destruct Heq as (Q1 & Q2 & Q3). pose proof up_b as Ub.
    assert (AO : forall fuel, aligned_parts L r fuel = Some []).
    { intros fuel. destruct geom as (_ & _ & G3 & _).
      rewrite aligned_ok, whole_blocks_nil by (rewrite ?whole_blocks_nil; lia). reflexivity. }
    rewrite init_abegin, init_aend.
    destruct (Z.eqb_spec brem 0) as [E|E]; destruct one_block_cases as [[HS HS']|[HS HS']]; try lia.
    - (* aligned empty range: no part at all *)
      destruct (init_big HS') as (-> & -> & F & ->).
      rewrite Q2, (proj2 (Z.eqb_eq _ _) E). repeat split; try reflexivity; [|exact AO].
      intros fuel _. apply all_parts_from_end. rewrite F, init_aend. cbn [s_i]. lia.
    - (* un-aligned empty range: one part of length 0 (F19 lived here) *)
      destruct (init_small HS') as (_ & -> & -> & ->).
      rewrite Q2, (proj2 (Z.eqb_neq _ _) E). cbn [negb andb].
      repeat split; try reflexivity; [|exact AO|].
      + intros [|fuel] Hf; [lia|]. rewrite (all_parts_one HS'), L0. reflexivity.
      + unfold sub_nonempty. cbn [s_len]. rewrite L0. reflexivity.
  Qed.

  Theorem empty_range_generic : length = 0 ->
    all_parts L r (Z.to_nat (r_aend r - r_abegin r)) =
      Some (if d_rem (divide offset) =? 0 then [] else [mkSub (r_abegin r) (d_rem (divide offset)) 0]) /\
    (forall fuel, aligned_parts L r fuel = Some []) /\
    sub_nonempty (r_small r) = false /\ sub_nonempty (r_preface r) = false /\
    sub_nonempty (r_postface r) = false.
  Proof.
    intros L0. destruct (empty_anyfuel L0) as (Ha & Hr). split; [apply Ha; lia|exact Hr].
  Qed.
End Generic.

Theorem empty_generic_stmt B L divide lo hi offset :
  split_hyps B L divide lo hi offset 0 -> empty_stmt L divide offset.
Proof. intros H. exact (empty_anyfuel B L divide lo hi offset 0 H eq_refl). Qed.

(* the class of F19: with the pre-fix end() EVERY empty un-aligned range made
   aligned_parts() run away *)
Lemma f19_class_generic_l B L divide lo hi offset :
  split_hyps B L divide lo hi offset 0 -> d_rem (divide offset) <> 0 ->
  let r := init divide L offset 0 in
  forall fuel, d_down (divide offset) + 1 + Z.of_nat fuel < W64 ->
  aligned_parts_prefix L r fuel = None.
Proof.
  intros H Hr. cbv zeta. intros fuel Hf.
  destruct (empty_generic_stmt _ _ _ _ _ _ H) as (_ & _ & Hs & _).
  unfold aligned_parts_prefix, aligned_stop_prefix. rewrite Hs.
  rewrite (init_apbegin _ _ _ _ _ _ _ H), (init_apend _ _ _ _ _ _ _ H).
  destruct H as [_ _ _ Hlo _ _ (_ & _ & Hb3) _ Hbi _ _].
  rewrite Z.add_0_r, Hb3, (proj2 (Z.eqb_neq _ _) Hr).
  apply aligned_from_runaway; lia.
Qed.
