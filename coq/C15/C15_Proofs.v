(* C15_Proofs.v — the three concrete splitters as instances of the generic
   theorems of C15_ProofsGeneric.v (each through one lemma *_hyps that
   establishes split_hyps under the splitter's guard; the power-of-two splitter
   through divide_p2_fixed / mult_p2_fixed / init_p2_fixed), the class of finding
   F15 (f15_class_l) and a witness of the pre-fix F19. *)
From Coq Require Import ZArith List Bool Lia.
From PV Require Import Base.U64 C15.C15_Model C15.C15_Spec C15.C15_ProofsGeneric.
Import ListNotations.
Local Open Scope Z_scope.

Lemma div_le_self x iv : 0 <= x -> 0 < iv -> 0 <= x / iv <= x.
Proof.
  intros Hx Hiv. split; [apply Z.div_pos; lia|].
  apply Z.div_le_upper_bound; [lia|]. nia.
Qed.

Lemma div_fixed_spec iv x : 0 < iv -> 0 <= x -> x + iv - 1 < W64 ->
  div_spec (fun i => i * iv) (getlen_fixed iv) x (divide_fixed iv x).
Proof.
  intros Hiv Hx Hg. unfold div_spec, divide_fixed, getlen_fixed. cbn [d_down d_rem d_up].
  pose proof (Z.div_mod x iv ltac:(lia)) as DM.
  pose proof (Z.mod_pos_bound x iv Hiv) as MB.
  split; [lia|]. split; [exact MB|].
  rewrite wrap_small by lia.
  destruct (Z.eqb_spec (x mod iv) 0) as [E|E]; symmetry.
  - apply (Z.div_unique _ _ _ (iv - 1)); lia.
  - apply (Z.div_unique _ _ _ (x mod iv - 1)); lia.
Qed.

Lemma fixed_hyps offset length iv : fixed_guard offset length iv ->
  split_hyps (fun i => i * iv) (getlen_fixed iv) (divide_fixed iv) 0 W64 offset length.
Proof.
  intros (Ho & Hl & Hiv & Hg). pose proof W64_gt1 as HW.
  pose proof (div_le_self offset iv Ho Hiv) as D1.
  pose proof (div_le_self (offset + length) iv ltac:(lia) Hiv) as D2.
  constructor; try (apply div_fixed_spec; lia); try (intros i _; unfold getlen_fixed);
    cbn [divide_fixed d_down d_up]; try lia.
  rewrite wrap_small by lia.
  pose proof (div_le_self (offset + length + iv - 1) iv ltac:(lia) Hiv). lia.
Qed.

(* aligned_enclose on multiply() itself: i * iv does not wrap at abegin and aend
   under the guard, whatever divide() the layout i * iv is correct for *)
Lemma enclose_mult d offset length iv : fixed_guard offset length iv ->
  split_hyps (fun i => i * iv) (getlen_fixed iv) d 0 W64 offset length ->
  enclose_stmt (mult_fixed iv) (getlen_fixed iv) d offset length.
Proof.
  intros (Ho & Hl & Hiv & Hg) H.
  pose proof (aligned_enclose_generic _ _ _ _ _ _ _ H) as E.
  pose proof (sh_bidx _ _ _ _ _ _ _ H) as A0. rewrite <- (init_abegin _ _ _ _ _ _ _ H) in A0.
  unfold enclose_stmt, mult_fixed, getlen_fixed in *. cbv zeta beta in *.
  pose proof (Z.mul_nonneg_nonneg _ iv (proj1 A0) ltac:(lia)).
  rewrite !wrap_small by lia. exact E.
Qed.

Lemma ctz_pow2 k : 0 <= k -> ctz (2 ^ k) = k.
Proof.
  revert k. apply natlike_ind; [reflexivity|]. intros k Hk IH.
  rewrite Z.pow_succ_r by exact Hk.
  pose proof (Z.pow_pos_nonneg 2 k ltac:(lia) Hk) as P. revert IH P.
  destruct (2 ^ k) as [|p|p]; intros IH P; try lia.
  change (2 * Z.pos p) with (Z.pos p~0). cbn [ctz ctz_pos] in *. lia.
Qed.

Lemma pow2_lt_W64 k : 0 <= k < 64 -> 0 < 2 ^ k < W64.
Proof.
  intros Hk. split; [apply Z.pow_pos_nonneg; lia|].
  rewrite W64_eq. apply Z.pow_lt_mono_r; lia.
Qed.

(* the shift/mask divide IS the / and % divide, at every x *)
Lemma divide_p2_fixed k x : 0 <= k < 64 -> divide_p2 (2 ^ k) x = divide_fixed (2 ^ k) x.
Proof.
  intros Hk. pose proof (pow2_lt_W64 k Hk) as P.
  unfold divide_p2, divide_fixed. rewrite ctz_pow2 by lia.
  rewrite (wrap_small (2 ^ k - 1)) by lia.
  rewrite !Z.shiftr_div_pow2 by lia.
  replace (2 ^ k - 1) with (Z.ones k) by (rewrite Z.ones_equiv; lia).
  rewrite Z.land_ones by lia.
  rewrite Z.ones_equiv. replace (x + Z.pred (2 ^ k)) with (x + 2 ^ k - 1) by lia.
  reflexivity.
Qed.

Lemma mult_p2_fixed k i : 0 <= k < 64 -> mult_p2 (2 ^ k) i = mult_fixed (2 ^ k) i.
Proof.
  intros Hk. unfold mult_p2, mult_fixed. rewrite ctz_pow2 by lia.
  rewrite Z.shiftl_mul_pow2 by lia. reflexivity.
Qed.

Lemma init_p2_fixed iv offset length : is_pow2_64 iv ->
  init (divide_p2 iv) (getlen_fixed iv) offset length =
  init (divide_fixed iv) (getlen_fixed iv) offset length.
Proof. intros (k & Hk & ->). unfold init. rewrite !divide_p2_fixed by exact Hk. reflexivity. Qed.

Lemma p2_hyps offset length iv : fixed_guard offset length iv -> is_pow2_64 iv ->
  split_hyps (fun i => i * iv) (getlen_fixed iv) (divide_p2 iv) 0 W64 offset length.
Proof.
  intros G (k & Hk & ->). destruct (fixed_hyps _ _ _ G).
  constructor; rewrite ?divide_p2_fixed by exact Hk; assumption.
Qed.

Lemma kp_nth_0 a kp : kp_nth (a :: kp) 0 = a.
Proof. reflexivity. Qed.

Lemma kp_nth_S a kp i : 0 < i -> kp_nth (a :: kp) i = kp_nth kp (i - 1).
Proof.
  intros Hi. unfold kp_nth. replace (Z.to_nat i) with (S (Z.to_nat (i - 1))) by lia. reflexivity.
Qed.

Lemma ascending_tail a kp : ascending (a :: kp) -> ascending kp.
Proof. destruct kp as [|b kp]; cbn [ascending]; tauto. Qed.

Lemma ascending_step : forall kp, ascending kp ->
  forall i, 0 <= i -> i + 1 < Z.of_nat (length kp) -> kp_nth kp i < kp_nth kp (i + 1).
Proof.
  induction kp as [|a kp IH]; intros Ha i Hi Hn; cbn [length] in Hn; [lia|].
  destruct (Z.eq_dec i 0) as [E|E].
  - subst i. destruct kp as [|b kp]; cbn [length] in Hn; [lia|].
    change (kp_nth (a :: b :: kp) (0 + 1)) with b. rewrite kp_nth_0.
    cbn [ascending] in Ha. tauto.
  - rewrite !kp_nth_S by lia. replace (i + 1 - 1) with (i - 1 + 1) by lia.
    apply IH; [eapply ascending_tail; eassumption|lia|lia].
Qed.

Lemma ascending_le kp i j : ascending kp -> 0 <= i <= j -> j < Z.of_nat (length kp) ->
  kp_nth kp i <= kp_nth kp j.
Proof.
  intros Ha Hij Hj. apply (steps_mono (kp_nth kp) 0 (Z.of_nat (length kp) - 1)); try lia.
  intros k Hk. apply Z.lt_le_incl, ascending_step; [exact Ha|lia|lia].
Qed.

Lemma ub_spec : forall kp x,
  0 <= upper_bound kp x <= Z.of_nat (length kp) /\
  (forall j, 0 <= j < upper_bound kp x -> kp_nth kp j <= x) /\
  (upper_bound kp x < Z.of_nat (length kp) -> x < kp_nth kp (upper_bound kp x)).
Proof.
  induction kp as [|a kp IH]; intros x; cbn [upper_bound length].
  - split; [lia|]. split; intros; lia.
  - destruct (Z.ltb_spec x a) as [Lt|Ge].
    + split; [lia|]. split; [intros; lia|]. intros _. rewrite kp_nth_0. exact Lt.
    + destruct (IH x) as (I1 & I2 & I3).
      split; [lia|]. split.
      * intros j Hj. destruct (Z.eq_dec j 0) as [E|E].
        -- subst j. rewrite kp_nth_0. exact Ge.
        -- rewrite kp_nth_S by lia. apply I2. lia.
      * intros Hu. rewrite kp_nth_S by lia.
        replace (1 + upper_bound kp x - 1) with (upper_bound kp x) by lia. apply I3. lia.
Qed.

Section VI.
  Variable kp : list Z.
  Hypothesis Hkp : kp_ok kp.
  Local Notation n := (Z.of_nat (length kp)).

  Lemma kp_len : 2 <= n <= W64.
  Proof.
    destruct Hkp as (Ha & H0 & Hl). split.
    - destruct kp as [|a [|b l]]; cbn [length] in *.
      + cbv in Hl. discriminate Hl.
      + change (Z.of_nat 1 - 1) with 0 in Hl. rewrite H0 in Hl. discriminate Hl.
      + lia.
    - assert (Hn : 0 < n).
      { destruct kp; cbn [length]; [cbv in Hl; discriminate Hl|lia]. }
      (* strictly ascending integers: i -> kp[i] - i is monotone, so n-1 <= kp[n-1] = MAX64 *)
      pose proof (steps_mono (fun i => kp_nth kp i - i) 0 (n - 1)) as G. cbv beta in G.
      specialize (G (fun i Hi => ltac:(pose proof (ascending_step kp Ha i); lia)) 0 (n - 1)).
      rewrite H0, Hl, MAX64_eq in G. lia.
  Qed.

  Lemma kp_range i : 0 <= i < n -> 0 <= kp_nth kp i <= MAX64.
  Proof.
    intros Hi. destruct Hkp as (Ha & H0 & Hl). pose proof kp_len as Hn.
    pose proof (ascending_le kp 0 i Ha ltac:(lia) ltac:(lia)).
    pose proof (ascending_le kp i (n - 1) Ha ltac:(lia) ltac:(lia)). lia.
  Qed.

  Lemma getlen_vi_exact i : 0 <= i <= n - 2 ->
    getlen_vi kp i = kp_nth kp (i + 1) - kp_nth kp i /\ 0 < getlen_vi kp i <= W64.
  Proof.
    intros Hi. destruct Hkp as (Ha & H0 & Hl). unfold getlen_vi.
    pose proof (ascending_step kp Ha i ltac:(lia) ltac:(lia)).
    pose proof (kp_range i ltac:(lia)). pose proof (kp_range (i + 1) ltac:(lia)).
    rewrite MAX64_eq in *. rewrite wrap_small by lia. lia.
  Qed.

  Lemma div_vi_spec x : 0 <= x < MAX64 ->
    div_spec (kp_nth kp) (getlen_vi kp) x (divide_vi kp x) /\
    0 <= d_down (divide_vi kp x) <= n - 2 /\ d_up (divide_vi kp x) < W64.
  Proof.
    intros Hx. destruct Hkp as (Ha & H0 & Hl). pose proof kp_len as Hn.
    destruct (ub_spec kp x) as (U1 & U2 & U3).
    set (u := upper_bound kp x) in *.
    assert (U4 : 1 <= u).
    { destruct (Z.eq_dec u 0) as [E|E]; [|lia]. rewrite E in U3. rewrite H0 in U3. lia. }
    assert (U5 : u <= n - 1).
    { destruct (Z.eq_dec u n) as [E|E]; [|lia]. specialize (U2 (n - 1) ltac:(lia)). lia. }
    specialize (U2 (u - 1) ltac:(lia)). specialize (U3 ltac:(lia)).
    pose proof (kp_range (u - 1) ltac:(lia)) as R1.
    destruct (getlen_vi_exact (u - 1) ltac:(lia)) as [GL _].
    replace (u - 1 + 1) with u in GL by lia.
    rewrite MAX64_eq in *.
    unfold div_spec, divide_vi. fold u. cbn [d_down d_rem d_up].
    rewrite wrap_small by lia. rewrite GL.
    split; [|split; [lia|]].
    - split; [lia|]. split; [lia|].
      destruct (Z.ltb_spec 0 (x - kp_nth kp (u - 1))); destruct (Z.eqb_spec (x - kp_nth kp (u - 1)) 0); lia.
    - destruct (0 <? x - kp_nth kp (u - 1)); lia.
  Qed.

  Lemma vi_hyps offset length : vi_guard offset length ->
    split_hyps (kp_nth kp) (getlen_vi kp) (divide_vi kp) 0 (n - 2) offset length.
  Proof.
    intros (Ho & Hl & Hg). rewrite MAX64_eq in Hg.
    destruct (div_vi_spec offset) as (D1 & D2 & _); [rewrite MAX64_eq; lia|].
    destruct (div_vi_spec (offset + length)) as (E1 & E2 & E3); [rewrite MAX64_eq; lia|].
    constructor; try assumption; try lia.
    - intros i Hi. destruct (getlen_vi_exact i Hi) as [G _]. lia.
    - intros i Hi. apply getlen_vi_exact. exact Hi.
  Qed.
End VI.

(* The class of F15 is exact: for EVERY range_split input whose `end` is
   representable but that lies beyond the guard, round_up(end) wraps to
   aend = 0 and the parts do not tile. *)
Lemma first_idx_fixed offset length iv : 0 < iv < W64 ->
  s_i (r_first (init (divide_fixed iv) (getlen_fixed iv) offset length)) = offset / iv.
Proof.
  intros Hiv. unfold init, divide_fixed, getlen_fixed. cbn [d_down d_rem d_up].
  pose proof (Z.mod_pos_bound offset iv ltac:(lia)) as MB.
  destruct (wrap (offset / iv + 1) =? _).
  - destruct (negb _); destruct (negb _); reflexivity.
  - cbn [r_first].
    destruct (Z.eqb_spec (offset / iv) (wrap (offset + iv - 1) / iv)) as [E|E].
    + change (sub_nonempty sub0) with false. cbv iota. cbn [s_i]. symmetry. exact E.
    + unfold sub_nonempty. cbn [s_len]. rewrite wrap_small by lia.
      replace (0 <? iv - offset mod iv) with true by (symmetry; apply Z.ltb_lt; lia).
      reflexivity.
Qed.

Lemma f15_class_l offset length iv :
  0 <= offset -> 0 < length -> 0 < iv < W64 -> offset + length < W64 ->
  W64 <= offset + length + iv - 1 ->
  let r := init (divide_fixed iv) (getlen_fixed iv) offset length in
  r_aend r = 0 /\ r_abegin r = offset / iv /\
  (forall fuel, offset / iv + Z.of_nat fuel < W64 ->
     all_parts (getlen_fixed iv) r fuel = if offset / iv =? 0 then Some [] else None) /\
  ~ parts_tile_stmt (fun i => i * iv) (getlen_fixed iv) (divide_fixed iv) offset length.
Proof.
  intros Ho Hl Hiv He Hg. cbv zeta.
  destruct (init_indices (divide_fixed iv) (getlen_fixed iv) offset length) as (A & _ & _ & E).
  set (r := init (divide_fixed iv) (getlen_fixed iv) offset length) in *.
  rewrite (wrap_small (offset + length)) in E by lia. cbn [divide_fixed d_down d_up] in A, E.
  rewrite wrap_over_small, Z.div_small in E by lia.
  assert (F : s_i (r_first r) = offset / iv) by (apply first_idx_fixed; lia).
  assert (P : 0 <= offset / iv) by (apply Z.div_pos; lia).
  assert (R : forall fuel, offset / iv + Z.of_nat fuel < W64 ->
     all_parts (getlen_fixed iv) r fuel = if offset / iv =? 0 then Some [] else None).
  { intros fuel Hf. unfold all_parts. destruct (Z.eqb_spec (offset / iv) 0) as [Q|Q].
    - apply all_parts_from_end. rewrite F, E. exact Q.
    - apply all_parts_from_runaway; rewrite ?E, ?F; lia. }
  split; [exact E|]. split; [exact A|]. split; [exact R|].
  unfold parts_tile_stmt. cbv zeta. fold r. intros T.
  destruct (T 0%nat) as (l & Hrun & Hne & _).
  - rewrite A, E. lia.
  - rewrite R in Hrun by (pose proof (div_le_self offset iv); lia).
    destruct (offset / iv =? 0); [|discriminate Hrun].
    injection Hrun as <-. apply Hne. reflexivity.
Qed.

Lemma f15_class_ex :
  0 <= W64 - 100 /\ 0 < 50 /\ 0 < 4096 < W64 /\ W64 - 100 + 50 < W64 /\
  W64 <= W64 - 100 + 50 + 4096 - 1 /\ is_pow2_64 4096.
Proof.
  unfold W64. repeat split; try lia. exists 12. split; [lia|reflexivity].
Qed.

(* F19 (fixed by commit 744eaa1), one witness of f19_class_generic_l: with the
   pre-fix end() the aligned_parts() loop of the empty un-aligned range
   (offset 1, length 0, interval 2) does not finish within any fuel below
   2^64-1, so empty_stmt was false for it. *)
Lemma empty_range_prefix_refuted_l :
  let r := init (divide_fixed 2) (getlen_fixed 2) 1 0 in
  fixed_guard 1 0 2 /\
  (forall fuel, Z.of_nat fuel < W64 - 1 -> aligned_parts_prefix (getlen_fixed 2) r fuel = None) /\
  (forall fuel, aligned_parts (getlen_fixed 2) r fuel = Some []).
Proof.
  cbv zeta. assert (G : fixed_guard 1 0 2) by (unfold fixed_guard, W64; lia).
  pose proof (fixed_hyps _ _ _ G) as H. split; [exact G|]. split.
  - intros fuel Hf. apply (f19_class_generic_l _ _ _ _ _ _ H); [discriminate|].
    change (d_down (divide_fixed 2 1)) with 0. lia.
  - apply (empty_generic_stmt _ _ _ _ _ _ H).
Qed.

Lemma fixed_guard_ex : fixed_guard 5 10 4 /\ 0 < 10 /\ fixed_guard (W64 - 4096) 4095 1 /\
                       fixed_guard 7 0 3.
Proof. unfold fixed_guard, W64. lia. Qed.
