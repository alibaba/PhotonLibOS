(* C19_V2.v — ObjectCacheV2 (common/objectcachev2.h): one Box (one key), any number of borrowers, the reclaimer.
   Granularity: one transition per block under `maplock` (__find_or_create_box 98-112, __expire 117-135, the
   LRU push of ~Borrow 191-194) and one per access to the Box outside it (Box::acquire 66-69, Box::release 71-75,
   the `_box->rc == 0` test 190).  Sequentially consistent.  The constructor / shared_ptr part is left out:
   the question examined here (DESIGN.md §6 F16) is whether ~Borrow can touch a Box that the reclaimer has erased.

   A Box has a generation number: `map.erase(x)` destroys it, a later emplace creates a NEW box (gen+1).
   A borrower remembers the generation of the box its `_box` pointer refers to; touching a box whose generation
   is gone is a use-after-free (flag v_uaf). *)
From Coq Require Import ZArith List Bool Arith Lia.
From PV Require Import Base.U64.
Import ListNotations.
Local Open Scope Z_scope.

Inductive vpc :=
| VIdle                 (* no Borrow *)
| VCtor (g : nat)       (* after __find_or_create_box: about to run Borrow(oc, box, r): _box->acquire() *)
| VDefer (g : nat)      (* about to run DEFER(box.release()) of borrow() *)
| VHeld (g : nat)       (* the caller owns a Borrow *)
| VDtorRead (g : nat)   (* ~Borrow after _box->release(): about to evaluate `_box->rc == 0` *)
| VDtorPush (g : nat).  (* rc was 0: about to lock maplock and pop/push_back the box *)

Record vbox := mkBox { b_gen : nat; b_rc : Z; b_ts : Z; b_lru : bool }.
Record vstate := mkV {
  v_now : Z; v_life : Z;
  v_box : option vbox;     (* the box of the key in `map`, if any *)
  v_nextgen : nat;
  v_pcs : list vpc;
  v_uaf : bool
}.

Inductive vact := VStep (t : nat) | VReclaim | VTick (d : Z).

Fixpoint vupd (l : list vpc) (n : nat) (x : vpc) : list vpc :=
  match l, n with [], _ => [] | _ :: r, O => x :: r | a :: r, S m => a :: vupd r m x end.

Definition touch (s : vstate) (g : nat) (f : vbox -> vstate) : vstate :=
  match v_box s with
  | Some b => if Nat.eqb (b_gen b) g then f b else mkV (v_now s) (v_life s) (v_box s) (v_nextgen s) (v_pcs s) true
  | None => mkV (v_now s) (v_life s) (v_box s) (v_nextgen s) (v_pcs s) true
  end.
Definition setb s b pcs := mkV (v_now s) (v_life s) (Some b) (v_nextgen s) pcs (v_uaf s).

Definition vstep (s : vstate) (a : vact) : vstate :=
  match a with
  | VTick d => mkV (sat_add (v_now s) (Z.abs d)) (v_life s) (v_box s) (v_nextgen s) (v_pcs s) (v_uaf s)
  | VReclaim =>                                   (* __expire, one box: 119-134 *)
      match v_box s with
      | Some b =>
          if b_lru b && (b_ts b <? sat_sub (v_now s) (v_life s)) then
            if b_rc b =? 0 then mkV (v_now s) (v_life s) None (v_nextgen s) (v_pcs s) (v_uaf s)      (* map.erase(x) *)
            else setb s (mkBox (b_gen b) (b_rc b) (b_ts b) false) (v_pcs s)                           (* only popped *)
          else s
      | None => s
      end
  | VStep t =>
      match nth_error (v_pcs s) t with
      | None => s
      | Some VIdle =>                             (* __find_or_create_box under maplock: find/emplace, pop, acquire *)
          match v_box s with
          | Some b => setb s (mkBox (b_gen b) (b_rc b + 1) (v_now s) false) (vupd (v_pcs s) t (VCtor (b_gen b)))
          | None => mkV (v_now s) (v_life s) (Some (mkBox (v_nextgen s) 1 (v_now s) false)) (S (v_nextgen s))
                        (vupd (v_pcs s) t (VCtor (v_nextgen s))) (v_uaf s)
          end
      | Some (VCtor g) => touch s g (fun b => setb s (mkBox g (b_rc b + 1) (v_now s) (b_lru b)) (vupd (v_pcs s) t (VDefer g)))
      | Some (VDefer g) => touch s g (fun b => setb s (mkBox g (b_rc b - 1) (v_now s) (b_lru b)) (vupd (v_pcs s) t (VHeld g)))
      | Some (VHeld g) =>                         (* ~Borrow 189: _box->release() *)
          touch s g (fun b => setb s (mkBox g (b_rc b - 1) (v_now s) (b_lru b)) (vupd (v_pcs s) t (VDtorRead g)))
      | Some (VDtorRead g) =>                     (* 190: if (_box->rc == 0) *)
          touch s g (fun b => setb s b (vupd (v_pcs s) t (if b_rc b =? 0 then VDtorPush g else VIdle)))
      | Some (VDtorPush g) =>                     (* 191-193 under maplock *)
          touch s g (fun b => setb s (mkBox g (b_rc b) (b_ts b) true) (vupd (v_pcs s) t VIdle))
      end
  end.

Definition vrun (s : vstate) (sched : list vact) : vstate := fold_left vstep sched s.
Definition vinit (now life : Z) (n : nat) : vstate := mkV now life None O (repeat VIdle n) false.

(* F16: ~Borrow of thread 0 touches its box after its own release(); in between thread 1 completes a whole
   borrow cycle (which puts the box into the LRU), `lifespan` passes, and the reclaimer erases the box. *)
Definition f16_schedule (life : Z) : list vact :=
  [VStep 0; VStep 0; VStep 0;             (* thread 0 borrows *)
   VStep 0;                               (* ~Borrow: release(), rc = 0 — and is then delayed *)
   VStep 1; VStep 1; VStep 1;             (* thread 1 borrows the same key *)
   VStep 1; VStep 1; VStep 1;             (* and drops it: release, rc == 0, push to the LRU *)
   VTick (life + 1); VReclaim;            (* more than `lifespan` later the reclaimer erases the box *)
   VStep 0].                              (* thread 0 resumes: reads _box->rc of the erased box *)

(* the same schedule for other lifespans (the stall needed between the two instructions of ~Borrow is lifespan+1 us) *)
Lemma v2_borrow_dtor_uaf_lifespans :
  forallb (fun life => v_uaf (vrun (vinit 1000 life 2) (f16_schedule life))) [0; 1; 1000; 1000000; 60000000; 3600000000] = true.
Proof. vm_compute. reflexivity. Qed.

(* On ONE vCPU ~Borrow runs release(), the rc test and the LRU push without a context switch (neither
   Box::release nor the atomic load yields, and `maplock` is never held across a yield, so locking it does not
   block): the three steps VHeld, VDtorRead, VDtorPush of a thread are then consecutive.  Under such schedules
   the box a thread touches always exists: *)
Definition dtor_atomic_step (s : vstate) (t : nat) : vstate :=
  match nth_error (v_pcs s) t with
  | Some (VHeld _) =>
      let s2 := vstep (vstep s (VStep t)) (VStep t) in           (* release(); rc test *)
      match nth_error (v_pcs s2) t with
      | Some (VDtorPush _) => vstep s2 (VStep t)                  (* rc was 0: LRU push *)
      | _ => s2
      end
  | Some (VDtorRead _) | Some (VDtorPush _) => s
  | _ => vstep s (VStep t)
  end.
Definition coop_act (s : vstate) (a : vact) : vstate :=
  match a with VStep t => dtor_atomic_step s t | _ => vstep s a end.

(* references: a thread between __find_or_create_box and its ~Borrow::release counts on its box *)
Definition vholds (p : vpc) (g : nat) : Z :=
  match p with
  | VCtor g' => if Nat.eqb g g' then 1 else 0
  | VDefer g' => if Nat.eqb g g' then 2 else 0
  | VHeld g' => if Nat.eqb g g' then 1 else 0
  | _ => 0 end.
Definition vsum (g : nat) (l : list vpc) : Z := fold_right (fun p a => vholds p g + a) 0 l.
Definition no_dtor_pc (p : vpc) : bool := match p with VDtorRead _ | VDtorPush _ => false | _ => true end.
Definition pc_gen (p : vpc) : option nat :=
  match p with VIdle => None | VCtor g | VDefer g | VHeld g | VDtorRead g | VDtorPush g => Some g end.

Definition VInv (s : vstate) : Prop :=
  v_uaf s = false /\ forallb no_dtor_pc (v_pcs s) = true /\
  match v_box s with
  | Some b => b_rc b = vsum (b_gen b) (v_pcs s) /\ (b_gen b < v_nextgen s)%nat /\
              (forall p, In p (v_pcs s) -> match pc_gen p with Some g => g = b_gen b | None => True end)
  | None => forall p, In p (v_pcs s) -> pc_gen p = None
  end.

(* ---------------------------------------------------------------- the single-vCPU invariant *)
Lemma vsum_upd g l t x old : nth_error l t = Some old -> vsum g (vupd l t x) = vsum g l - vholds old g + vholds x g.
Proof.
  revert t; induction l; destruct t; simpl; intros H; try discriminate.
  - inversion H; subst. lia.
  - rewrite (IHl _ H). lia.
Qed.
Lemma in_vupd l t x p : In p (vupd l t x) -> p = x \/ In p l.
Proof.
  revert t; induction l; destruct t; simpl; intros H; auto.
  - destruct H; auto.
  - destruct H as [H|H]; auto. destruct (IHl _ H); auto.
Qed.
Lemma forallb_vupd f l t x : forallb f l = true -> f x = true -> forallb f (vupd l t x) = true.
Proof.
  revert t; induction l; destruct t; simpl; intros H Hx; auto.
  - apply andb_true_iff in H. destruct H. rewrite Hx; auto.
  - apply andb_true_iff in H. destruct H as [H1 H2]. rewrite H1. simpl. auto.
Qed.
Lemma vholds_nonneg p g : 0 <= vholds p g.
Proof. destruct p; simpl; try lia; destruct (Nat.eqb g g0); lia. Qed.
Lemma vsum_zero g l : vsum g l = 0 -> forall p, In p l -> vholds p g = 0.
Proof.
  induction l; simpl; intros H p Hp; [contradiction|].
  pose proof (vholds_nonneg a g).
  assert (0 <= vsum g l). { clear. induction l; simpl; [lia|]. pose proof (vholds_nonneg a g). lia. }
  destruct Hp as [<-|Hp]; [lia|]. apply IHl; auto. lia.
Qed.

(* thread t moves from pc `old` to x and leaves box b' in the map *)
Lemma vinv_upd s t old x b' ng :
  nth_error (v_pcs s) t = Some old -> v_uaf s = false -> forallb no_dtor_pc (v_pcs s) = true -> no_dtor_pc x = true ->
  b_rc b' = vsum (b_gen b') (v_pcs s) - vholds old (b_gen b') + vholds x (b_gen b') -> (b_gen b' < ng)%nat ->
  (forall p, In p (v_pcs s) \/ p = x -> match pc_gen p with Some g => g = b_gen b' | None => True end) ->
  VInv (mkV (v_now s) (v_life s) (Some b') ng (vupd (v_pcs s) t x) (v_uaf s)).
Proof.
  intros Ht U D Dx R G P. split; [exact U|]. split; [apply forallb_vupd; auto|]. simpl. split; [|split; [exact G|]].
  - rewrite (vsum_upd _ _ _ _ _ Ht). exact R.
  - intros p Hp. apply in_vupd in Hp. apply P. tauto.
Qed.

(* the usual case: the box of the map stays, its rc follows what t's move adds to the references *)
Lemma vinv_same_box s t old x b rc ts lru :
  VInv s -> nth_error (v_pcs s) t = Some old -> v_box s = Some b -> no_dtor_pc x = true ->
  rc = b_rc b - vholds old (b_gen b) + vholds x (b_gen b) ->
  match pc_gen x with Some g => g = b_gen b | None => True end ->
  VInv (setb s (mkBox (b_gen b) rc ts lru) (vupd (v_pcs s) t x)).
Proof.
  intros (U & D & B) Ht Eb Dx R Px. rewrite Eb in B. destruct B as (R0 & G & P).
  apply (vinv_upd s t old x _ _ Ht U D Dx); simpl; [lia | exact G |].
  intros q [Hq| ->]; [apply P; exact Hq | exact Px].
Qed.

Theorem v2_single_vcpu_safe s a : VInv s -> VInv (coop_act s a).
Proof.
  intros I0. pose proof I0 as [U [D B]]. destruct a as [t| |d]; simpl.
  - (* a borrower's step *)
    unfold dtor_atomic_step. destruct (nth_error (v_pcs s) t) as [p|] eqn:Ht; [|simpl; rewrite Ht; exact I0].
    assert (Dp : no_dtor_pc p = true). { rewrite forallb_forall in D. apply D. eapply nth_error_In; eauto. }
    (* a thread past __find_or_create_box refers to the box that is in the map *)
    assert (OWN : forall g, pc_gen p = Some g -> exists b, v_box s = Some b /\ b_gen b = g).
    { intros g Hg. pose proof (nth_error_In _ _ Ht) as Hin. destruct (v_box s) as [b|]; [|rewrite (B _ Hin) in Hg; discriminate].
      destruct B as [_ [_ P]]. pose proof (P _ Hin) as Pg. rewrite Hg in Pg. subst g. exists b. auto. }
    destruct p; try discriminate Dp; [simpl; rewrite Ht | simpl; rewrite Ht | simpl; rewrite Ht | ].
    + (* VIdle: __find_or_create_box *)
      destruct (v_box s) as [b|] eqn:Eb.
      * apply (vinv_same_box s t _ _ b _ _ _ I0 Ht Eb); simpl; [reflexivity | rewrite Nat.eqb_refl; lia | reflexivity].
      * eapply (vinv_upd s t _ _ _ _ Ht U D); simpl; [reflexivity | rewrite Nat.eqb_refl | lia | ].
        -- assert (vsum (v_nextgen s) (v_pcs s) = 0); [|lia].
           clear -B. induction (v_pcs s); simpl; auto. rewrite IHl by (intros; apply B; right; auto).
           specialize (B a (or_introl eq_refl)). destruct a; simpl in B; try discriminate. reflexivity.
        -- intros q [Hq| ->]; [rewrite (B q Hq); exact I | reflexivity].
    + (* VCtor *)
      destruct (OWN g eq_refl) as (b & Eb & <-). unfold touch. rewrite Eb, Nat.eqb_refl.
      apply (vinv_same_box s t _ _ b _ _ _ I0 Ht Eb); simpl; [reflexivity | rewrite Nat.eqb_refl; lia | reflexivity].
    + (* VDefer *)
      destruct (OWN g eq_refl) as (b & Eb & <-). unfold touch. rewrite Eb, Nat.eqb_refl.
      apply (vinv_same_box s t _ _ b _ _ _ I0 Ht Eb); simpl; [reflexivity | rewrite Nat.eqb_refl; lia | reflexivity].
    + (* VHeld: the whole of ~Borrow *)
      change (VInv (let s2 := vstep (vstep s (VStep t)) (VStep t) in match nth_error (v_pcs s2) t with Some (VDtorPush _) => vstep s2 (VStep t) | _ => s2 end)).
      destruct (OWN g eq_refl) as (b & Eb & <-).
      assert (NT : forall x, nth_error (vupd (v_pcs s) t x) t = Some x).
      { intros x. clear -Ht. revert t Ht. induction (v_pcs s); destruct t; simpl; intros; try discriminate; auto. }
      assert (UU : forall x y, vupd (vupd (v_pcs s) t x) t y = vupd (v_pcs s) t y).
      { intros x y. clear. revert t. induction (v_pcs s); destruct t; simpl; auto. f_equal; auto. }
      assert (E1 : vstep s (VStep t) = setb s (mkBox (b_gen b) (b_rc b - 1) (v_now s) (b_lru b)) (vupd (v_pcs s) t (VDtorRead (b_gen b)))).
      { simpl. rewrite Ht. unfold touch. rewrite Eb, Nat.eqb_refl. reflexivity. }
      rewrite E1.
      set (b1 := mkBox (b_gen b) (b_rc b - 1) (v_now s) (b_lru b)).
      assert (E2 : vstep (setb s b1 (vupd (v_pcs s) t (VDtorRead (b_gen b)))) (VStep t) =
                   setb s b1 (vupd (v_pcs s) t (if b_rc b - 1 =? 0 then VDtorPush (b_gen b) else VIdle))).
      { simpl. rewrite NT. unfold touch. simpl. rewrite Nat.eqb_refl. unfold setb. simpl. rewrite UU. reflexivity. }
      rewrite E2. cbv zeta. unfold setb at 1. cbn [v_pcs]. rewrite NT. destruct (b_rc b - 1 =? 0) eqn:Ez.
      * assert (E3 : vstep (setb s b1 (vupd (v_pcs s) t (VDtorPush (b_gen b)))) (VStep t) =
                     setb s (mkBox (b_gen b) (b_rc b - 1) (v_now s) true) (vupd (v_pcs s) t VIdle)).
        { simpl. rewrite NT. unfold touch. simpl. rewrite Nat.eqb_refl. unfold setb. simpl. rewrite UU. reflexivity. }
        rewrite E3.
        apply (vinv_same_box s t _ _ b _ _ _ I0 Ht Eb); simpl; [reflexivity | rewrite Nat.eqb_refl; lia | exact I].
      * apply (vinv_same_box s t _ _ b _ _ _ I0 Ht Eb); simpl; [reflexivity | rewrite Nat.eqb_refl; lia | exact I].
  - (* the reclaimer *)
    destruct (v_box s) as [b|] eqn:Eb; [|repeat split; auto; rewrite Eb; auto].
    destruct B as [R [G P]].
    destruct (b_lru b && (b_ts b <? sat_sub (v_now s) (v_life s))); [|repeat split; auto; rewrite Eb; auto].
    destruct (b_rc b =? 0) eqn:Ez.
    + apply Z.eqb_eq in Ez. split; [exact U|]. split; [exact D|]. simpl.
      intros p Hp. rewrite Ez in R. symmetry in R. pose proof (vsum_zero _ _ R p Hp) as Z0.
      pose proof (P p Hp) as Pg. rewrite forallb_forall in D. pose proof (D p Hp) as Dp.
      destruct p; simpl in *; try discriminate; auto; subst; rewrite Nat.eqb_refl in Z0; lia.
    + split; [exact U|]. split; [exact D|]. simpl. auto.
  - (* time *) split; [exact U|]. split; [exact D|]. simpl. exact B.
Qed.

Lemma v2_init_inv now life n : VInv (vinit now life n).
Proof.
  split; [reflexivity|]. split.
  - simpl. induction n; simpl; auto.
  - simpl. intros p Hp. apply repeat_spec in Hp. subst. reflexivity.
Qed.
