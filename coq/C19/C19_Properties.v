From Coq Require Import ZArith List Lia.
From PV Require Import Base.U64 C19.C19_Model C19.C19_Lib C19.C19_Inv C19.C19_Proofs C19.C19_Mtx C19.C19_Time C19.C19_V2.
Theorem oc_invariant : forall now life lim progs s, reachable (init_state now life lim progs) s -> Inv s.
Proof. exact reachable_inv. Qed.
Print Assumptions oc_invariant.
Theorem oc_coop_run_is_a_run : forall s0 fuel s rq, reachable s0 s -> reachable s0 (fst (fst (coop_run fuel s rq))).
Proof. exact coop_run_reachable. Qed.
Print Assumptions oc_coop_run_is_a_run.
(* no access to a deleted Item ever happens *)
Theorem oc_no_use_after_free : forall now life lim progs s, reachable (init_state now life lim progs) s -> s_bad s = false.
Proof.
  intros now life lim progs s R. apply (reachable_inv _ _ _ _ _ R).
Qed.
Print Assumptions oc_no_use_after_free.
(* _refcnt is exactly the number of holders *)
Theorem oc_refcount_exact : forall now life lim progs s i it, reachable (init_state now life lim progs) s ->
  nth_error (s_items s) i = Some it -> i_ref it = Z.of_nat (total_holds s i).
Proof.
  intros now life lim progs s i it R H. pose proof (inv_ref s (reachable_inv _ _ _ _ _ R) i) as E.
  unfold refz in E. rewrite H in E. lia.
Qed.
Print Assumptions oc_refcount_exact.
Theorem oc_one_object_per_key : forall now life lim progs s t1 t2 i1 i2 it1 it2,
  reachable (init_state now life lim progs) s -> holder s t1 i1 -> holder s t2 i2 ->
  nth_error (s_items s) i1 = Some it1 -> nth_error (s_items s) i2 = Some it2 -> i_key it1 = i_key it2 -> i1 = i2.
Proof. exact one_object_per_key. Qed.
Print Assumptions oc_one_object_per_key.
(* an item with a holder is alive, indexed, NOT in the expiry list, and no thread is in a position to delete it
   (the two delete transitions PRelDelete / PExpDel need pc_owns > 0) *)
Theorem oc_no_destroy_while_borrowed : forall now life lim progs s t i,
  reachable (init_state now life lim progs) s -> holder s t i ->
  (exists it, nth_error (s_items s) i = Some it /\ i_live it = true /\ (0 < i_ref it)%Z) /\
  In i (s_set s) /\ ~ In i (s_list s) /\
  (forall t' th', nth_error (s_thr s) t' = Some th' -> pc_owns (t_pc th') i = O).
Proof.
  intros now life lim progs s t i R [th [H P]]. pose proof (reachable_inv _ _ _ _ _ R) as I.
  destruct (thr_holds_pos s t th i I H P) as [it [Hi [Li [Si Ri]]]].
  split; [eauto|]. split; auto. split.
  - intros HL. destruct (inv_list s I i HL) as [_ [x [Hx [Rx _]]]]. assert (x = it) by congruence. subst. lia.
  - intros t' th' Hn. pose proof (inv_own s I i it Hi) as O. rewrite Li in O. destruct O as [[_ O]|[O _]]; [|tauto].
    eapply (sumf_zero (fun th => pc_owns (t_pc th) i)); eauto.
Qed.
Print Assumptions oc_no_destroy_while_borrowed.
(* whatever is unlinked by expire() (and is waiting for its delete) has no holder and no recycler *)
Theorem oc_expire_only_unreferenced : forall now life lim progs s t th zs kt z,
  reachable (init_state now life lim progs) s -> nth_error (s_thr s) t = Some th ->
  t_pc th = PExpDel zs kt -> In z zs ->
  total_holds s z = O /\ exists it, nth_error (s_items s) z = Some it /\ i_live it = true /\ i_ref it = 0%Z /\ ~ In z (s_set s).
Proof.
  intros now life lim progs s t th zs kt z R H P Hz. pose proof (reachable_inv _ _ _ _ _ R) as I.
  destruct (thr_owns_pos s t th z I H) as [it [Hi [Li [Ni [Oi Ri]]]]].
  { rewrite P. simpl. apply count_occ_In. auto. }
  split. { pose proof (inv_ref s I z) as E. unfold refz in E. rewrite Hi in E. lia. }
  exists it. auto.
Qed.
Print Assumptions oc_expire_only_unreferenced.
(* a recycling release that has got past sem.wait (it is about to unlink / delete / hand over the object)
   is alone: every other holder has released, and nobody can acquire the item any more *)
Theorem oc_recycle_waits_all : forall now life lim progs s t th i ds,
  reachable (init_state now life lim progs) s -> nth_error (s_thr s) t = Some th ->
  (t_pc th = PRelErase i ds \/ t_pc th = PRelDelete i ds) -> total_holds s i = O.
Proof.
  intros now life lim progs s t th i ds R H [P|P]; pose proof (reachable_inv _ _ _ _ _ R) as I.
  - pose proof (inv_erase_ref s I t th i ds H P) as E. pose proof (inv_ref s I i). lia.
  - destruct (thr_owns_pos s t th i I H) as [it [Hi [Li [Ni [Oi Ri]]]]].
    { rewrite P. simpl. rewrite Nat.eqb_refl. lia. }
    pose proof (inv_ref s I i) as E. unfold refz in E. rewrite Hi in E. lia.
Qed.
Print Assumptions oc_recycle_waits_all.
(* while a recycler is pending on an item, it is the only one and the item stays indexed (so new acquirers find it
   and park on `blocker` instead of creating a second object for the key) *)
Theorem oc_recycler_unique : forall now life lim progs s t1 t2 th1 th2 i,
  reachable (init_state now life lim progs) s ->
  nth_error (s_thr s) t1 = Some th1 -> nth_error (s_thr s) t2 = Some th2 ->
  pc_recycler (t_pc th1) i = true -> pc_recycler (t_pc th2) i = true -> t1 = t2.
Proof.
  intros now life lim progs s t1 t2 th1 th2 i R H1 H2 P1 P2. pose proof (reachable_inv _ _ _ _ _ R) as I.
  destruct (inv_recycler s I t1 th1 i H1 P1) as [x [Hx [_ [Cx _]]]].
  destruct (inv_recycler s I t2 th2 i H2 P2) as [y [Hy [_ [Cy _]]]]. congruence.
Qed.
Print Assumptions oc_recycler_unique.
Theorem oc_ctor_exclusive : forall now life lim progs s t1 t2 th1 th2 i1 i2 it1 it2,
  reachable (init_state now life lim progs) s ->
  nth_error (s_thr s) t1 = Some th1 -> nth_error (s_thr s) t2 = Some th2 ->
  pc_in_mtx (t_pc th1) i1 = true -> pc_in_mtx (t_pc th2) i2 = true ->
  nth_error (s_items s) i1 = Some it1 -> nth_error (s_items s) i2 = Some it2 -> i_key it1 = i_key it2 -> t1 = t2.
Proof. exact ctor_exclusive. Qed.
Print Assumptions oc_ctor_exclusive.
Theorem oc_expire_only_old : forall now life lim progs s i it, (0 <= now <= MAX64)%Z ->
  reachable (init_state now life lim progs) s -> In i (s_list s) -> nth_error (s_items s) i = Some it ->
  i_expire it = sat_add (i_relt it) (s_lifespan s) /\ (i_relt it <= s_now s)%Z.
Proof. exact expire_only_old. Qed.
Print Assumptions oc_expire_only_old.
Theorem oc_expire_predicate : forall its now lim lst set zs l' set', exp_split its now lim lst set = (zs, l', set') ->
  forall z, In z zs -> exists it, nth_error its z = Some it /\ ((i_expire it < now)%Z \/ exists n : nat, (lim < Z.of_nat n)%Z).
Proof. exact exp_split_pred. Qed.
Print Assumptions oc_expire_predicate.
Theorem oc_failure_not_poisoning : forall now life lim progs s i it, (0 <= now <= MAX64)%Z ->
  reachable (init_state now life lim progs) s -> nth_error (s_items s) i = Some it ->
  (0 <= i_failure it <= s_now s)%Z /\ (In i (s_list s) -> i_failure it = 0%Z).
Proof. exact failure_not_poisoning. Qed.
Print Assumptions oc_failure_not_poisoning.
Theorem oc_cooldown_elapsed_constructs : forall s t th i ok y cd it,
  nth_error (s_thr s) t = Some th -> t_pc th = PAcqCheck i ok y cd ->
  nth_error (s_items s) i = Some it -> i_live it = true -> i_obj it = None ->
  (i_failure it <= sat_sub (s_now s) cd)%Z ->
  exists r th', step s t = Some r /\ nth_error (s_thr (r_st r)) t = Some th' /\ t_pc th' = PAcqCtor i ok y.
Proof. exact cooldown_elapsed_constructs. Qed.
Print Assumptions oc_cooldown_elapsed_constructs.
Theorem v2_borrow_touches_box_after_release_refuted : exists life sched, v_uaf (vrun (vinit 1000 life 2) sched) = true.
Proof. exists 10%Z, (f16_schedule 10). vm_compute. reflexivity. Qed.
Print Assumptions v2_borrow_touches_box_after_release_refuted.
(* every single-vCPU schedule (each ~Borrow runs without a context switch) is free of use-after-free *)
Theorem v2_no_use_after_free_on_one_vcpu : forall now life n sched, v_uaf (fold_left coop_act sched (vinit now life n)) = false.
Proof.
  intros now life n sched.
  assert (H : forall s, VInv s -> VInv (fold_left coop_act sched s)).
  { induction sched; simpl; intros s I; auto. apply IHsched. apply v2_single_vcpu_safe; auto. }
  apply (H _ (v2_init_inv now life n)).
Qed.
Print Assumptions v2_no_use_after_free_on_one_vcpu.
