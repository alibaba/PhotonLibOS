(* C19_Time.v — the time-stamped fields of an Item (_failure, _timeout) : expiry takes only old items, a failed
   construction does not poison later attempts. *)
From Coq Require Import ZArith List Bool Arith Lia.
From PV Require Import Base.U64 C19.C19_Model C19.C19_Lib C19.C19_Step C19.C19_Inv C19.C19_Proofs C19.C19_Mtx.
Import ListNotations.
Local Open Scope Z_scope.

Inductive tchg (s : state) (t : tid) (i : iid) (x y : item) : Prop :=
| TSame : i_failure y = i_failure x -> i_relt y = i_relt x -> i_expire y = i_expire x -> tchg s t i x y
| TFail : i_failure y = s_now s -> i_relt y = i_relt x -> i_expire y = i_expire x ->
          (exists th, nth_error (s_thr s) t = Some th /\ pc_holds (t_pc th) i = 1%nat) -> tchg s t i x y
| TEnq : i_failure y = 0 -> i_relt y = s_now s -> i_expire y = sat_add (s_now s) (s_lifespan s) -> tchg s t i x y.

Definition time_rel (s : state) (t : tid) (s' : state) : Prop :=
  s_lifespan s' = s_lifespan s /\
  (s_now s' = s_now s \/ exists d, s_now s' = sat_add (s_now s) (Z.abs d)) /\
  ((s_items s' = s_items s /\ forall j, In j (s_list s') -> In j (s_list s))
   \/ (exists i x y, nth_error (s_items s) i = Some x /\ s_items s' = upd (s_items s) i y /\ tchg s t i x y /\
         forall j, In j (s_list s') -> In j (s_list s) \/ (j = i /\ i_failure y = 0 /\ i_expire y = sat_add (i_relt y) (s_lifespan s)))
   \/ (exists k y, s_items s' = upd (s_items s ++ [new_item k]) (length (s_items s)) y /\
         tchg s t (length (s_items s)) (new_item k) y /\
         forall j, In j (s_list s') -> In j (s_list s) /\ j <> length (s_items s))).

Lemma exp_split_sub its now lim : forall lst set zs l' set', exp_split its now lim lst set = (zs, l', set') ->
  forall j, In j l' -> In j lst.
Proof.
  induction lst as [|x r IH]; intros set zs l' set' E j Hj; simpl in E.
  - inversion E; subst. auto.
  - destruct (nth_error its x) as [it|]; [|inversion E; subst; auto].
    match type of E with context [if ?c then _ else _] => destruct c end; [|inversion E; subst; auto].
    destruct (exp_split its now lim r (erase_key its set (i_key it))) as [[zs0 l0] set0] eqn:E0.
    inversion E; subst. right. eapply IH; eauto.
Qed.

Lemma step_time s t r : step s t = Some r -> time_rel s t (r_st r).
Proof.
  intros E. destruct (step_trans s t r E) as (th & Ht & T).
  assert (RM : forall i j, In j (remove_id i (s_list s)) -> In j (s_list s)) by (intros i j Hj; apply in_remove_id in Hj; tauto).
  assert (S0 : forall s', s_lifespan s' = s_lifespan s -> s_now s' = s_now s -> s_items s' = s_items s ->
                 (forall j, In j (s_list s') -> In j (s_list s)) -> time_rel s t s').
  { intros s' H1 H2 H3 H4. split; [exact H1|]. split; [left; exact H2|]. left. split; assumption. }
  assert (U : forall s' i x y, live_at s i x -> s_lifespan s' = s_lifespan s -> s_now s' = s_now s ->
                s_items s' = upd (s_items s) i y -> tchg s t i x y ->
                (forall j, In j (s_list s') -> In j (s_list s) \/ (j = i /\ i_failure y = 0 /\ i_expire y = sat_add (i_relt y) (s_lifespan s))) ->
                time_rel s t s').
  { intros s' i x y [Hx _] H1 H2 H3 H4 H5. split; [exact H1|]. split; [left; exact H2|]. right. left. exists i, x, y. auto. }
  assert (D : forall s1 z it it0 p, live_at s z it -> s_lifespan s1 = s_lifespan s -> s_now s1 = s_now s ->
                s_items s1 = s_items s -> s_list s1 = s_list s ->
                i_failure it0 = i_failure it -> i_relt it0 = i_relt it -> i_expire it0 = i_expire it ->
                time_rel s t (set_pc (delete_item s1 t z it0) t th p)).
  { intros s1 z it it0 p L H1 H2 H3 H4 H5 H6 H7. destruct (delete_item_fields s1 t z it0) as (F1 & _ & F3 & _ & _ & F6 & F7).
    apply (U _ z it (it_dead it0) L); unfold set_pc, set_thr; cbn [s_lifespan s_now s_items s_list]; try congruence.
    - apply TSame; assumption.
    - rewrite F3, H4. auto. }
  destruct T; try (apply S0; [reflexivity | reflexivity | reflexivity | simpl; eauto using exp_split_sub]);
    try (eapply U; [eassumption | reflexivity | reflexivity | reflexivity | apply TSame; try rewrite rel_item_eq; reflexivity | simpl; eauto]).
  - (* T_tick *) split; [reflexivity|]. split; [right; exists d; reflexivity|]. left. split; [reflexivity | simpl; auto].
  - (* T_find_new *) split; [reflexivity|]. split; [left; reflexivity|]. right. right. exists k, (it_ref (new_item k) 1).
    split; [reflexivity|]. split; [apply TSame; reflexivity|]. simpl. intros j Hj. apply in_remove_id in Hj.
    split; [tauto|]. intros ->. tauto.
  - (* T_ctor_fail *) eapply U; [eassumption | reflexivity | reflexivity | reflexivity | | simpl; auto].
    apply TFail; try reflexivity. exists th. split; [exact Ht|]. rewrite H. simpl. rewrite Nat.eqb_refl. reflexivity.
  - (* T_rel_enqueue *) eapply U; [eassumption | reflexivity | reflexivity | reflexivity | apply TEnq; reflexivity |].
    simpl. intros j Hj. apply in_app_or in Hj. destruct Hj as [Hj|[<-|[]]]; [left; eauto | right; auto].
  - (* T_delete, T_hand_over, T_exp_delete *) apply (D s i it it); auto.
  - destruct (i_obj it); apply (D _ i it (it_obj it None)); auto.
  - apply (D s z it it); auto.
Qed.

Definition TInv (s : state) : Prop :=
  0 <= s_now s <= MAX64 /\
  forall i it, nth_error (s_items s) i = Some it ->
    0 <= i_failure it <= s_now s /\ i_relt it <= s_now s /\
    (In i (s_list s) -> i_failure it = 0 /\ i_expire it = sat_add (i_relt it) (s_lifespan s)).

Lemma sat_add_mono x d : 0 <= x <= MAX64 -> x <= sat_add x (Z.abs d) <= MAX64.
Proof. intros H. unfold sat_add. pose proof (Z.abs_nonneg d). destruct (Z.ltb_spec MAX64 (x + Z.abs d)); lia. Qed.

Lemma tinv_step s t r : Inv s -> TInv s -> step s t = Some r -> TInv (r_st r).
Proof.
  intros I [Hnow T] E. destruct (step_time s t r E) as [Hl [Hn Hsh]].
  assert (NOW : s_now s <= s_now (r_st r) /\ 0 <= s_now (r_st r) <= MAX64).
  { destruct Hn as [->|[d ->]]. { lia. } pose proof (sat_add_mono (s_now s) d Hnow). lia. }
  destruct NOW as [N1 N2]. split; [exact N2|].
  assert (OLD : forall j it, nth_error (s_items s) j = Some it -> (In j (s_list (r_st r)) -> In j (s_list s)) ->
            0 <= i_failure it <= s_now (r_st r) /\ i_relt it <= s_now (r_st r) /\
            (In j (s_list (r_st r)) -> i_failure it = 0 /\ i_expire it = sat_add (i_relt it) (s_lifespan (r_st r)))).
  { intros j it Hj Hs. destruct (T j it Hj) as [A [B C]]. rewrite Hl. repeat split; try lia; apply C; auto. }
  intros j y Hy. destruct Hsh as [[Hit Hls]|[[i [x [y0 [Hx [Hit [Hc Hls]]]]]]|[k [y0 [Hit [Hc Hls]]]]]].
  - rewrite Hit in Hy. apply OLD; auto.
  - rewrite Hit, (nth_upd _ _ _ _ _ Hx) in Hy. destruct (Nat.eqb_spec i j).
    + subst j. inversion Hy; subst y0. destruct (T i x Hx) as [A [B C]].
      destruct Hc as [F1 F2 F3|F1 F2 F3 [th [Ht Hh]]|F1 F2 F3].
      * split; [rewrite F1; lia|]. split; [rewrite F2; lia|]. intros H. rewrite Hl. destruct (Hls i H) as [Hi|[_ [G1 G2]]].
        -- destruct (C Hi) as [C1 C2]. rewrite F1, F3, F2. auto.
        -- auto.
      * split; [rewrite F1; lia|]. split; [rewrite F2; lia|]. intros H. rewrite Hl. destruct (Hls i H) as [Hi|[_ [G1 G2]]].
        -- exfalso. destruct (holder_pc s t th i x I Ht Hh Hx) as (_ & _ & Ri).
           destruct (inv_list s I i Hi) as (_ & x' & Hx' & Rx & _). assert (x' = x) by congruence. subst. lia.
        -- auto.
      * split; [rewrite F1; lia|]. split; [rewrite F2; lia|]. intros H. rewrite Hl. split; [exact F1|]. rewrite F3, F2. reflexivity.
    + apply OLD; auto. intros H. destruct (Hls j H) as [?|[? _]]; [auto|congruence].
  - rewrite Hit in Hy. destruct (Nat.eqb_spec (length (s_items s)) j).
    + subst j. rewrite nth_upd_same with (y := new_item k) in Hy by apply nth_app_new. inversion Hy; subst y0.
      split; [|split].
      * destruct Hc as [F1 _ _|F1 _ _ _|F1 _ _]; rewrite F1; simpl; lia.
      * destruct Hc as [_ F2 _|_ F2 _ _|_ F2 _]; rewrite F2; simpl; lia.
      * intros H. destruct (Hls _ H) as [_ H']. congruence.
    + rewrite nth_upd_neq in Hy by auto. apply nth_app_inv in Hy. destruct Hy as [[Hy _]|[Hy _]]; [|congruence].
      apply OLD; auto. intros H. apply Hls; auto.
Qed.

Lemma tinv_init now life lim progs : 0 <= now <= MAX64 -> TInv (init_state now life lim progs).
Proof. intros H. split; [exact H|]. intros i it Hi. destruct i; discriminate. Qed.

Lemma reachable_tinv now life lim progs s : 0 <= now <= MAX64 -> reachable (init_state now life lim progs) s -> TInv s.
Proof.
  intros H R. induction R.
  - apply tinv_init; auto.
  - eapply tinv_step; eauto. eapply reachable_inv; eauto.
Qed.

(* expiry by time takes only items whose lifespan has passed since their last release: for an item of the expiry list
   _timeout = sat_add(time of the last release, lifespan), and expire():57 unlinks x only if that is < now (or the set
   is over its size limit) *)
Lemma expire_only_old now life lim progs s i it : 0 <= now <= MAX64 ->
  reachable (init_state now life lim progs) s -> In i (s_list s) -> nth_error (s_items s) i = Some it ->
  i_expire it = sat_add (i_relt it) (s_lifespan s) /\ i_relt it <= s_now s.
Proof. intros H R Hl Hi. destruct (reachable_tinv _ _ _ _ _ H R) as [_ T]. destruct (T i it Hi) as [_ [B C]]. split; auto. apply C; auto. Qed.

Lemma exp_split_pred its now lim : forall lst set zs l' set', exp_split its now lim lst set = (zs, l', set') ->
  forall z, In z zs -> exists it, nth_error its z = Some it /\ (i_expire it < now \/ exists n : nat, lim < Z.of_nat n).
Proof.
  induction lst as [|x r IH]; intros set zs l' set' E z Hz; simpl in E.
  - inversion E; subst. contradiction.
  - destruct (nth_error its x) as [it|] eqn:Hx; [|inversion E; subst; contradiction].
    match type of E with context [if ?c then _ else _] => destruct c eqn:Ec end; [|inversion E; subst; contradiction].
    destruct (exp_split its now lim r (erase_key its set (i_key it))) as [[zs0 l0] set0] eqn:E0.
    inversion E; subst. destruct Hz as [<-|Hz].
    + exists it. split; auto. apply orb_true_iff in Ec. destruct Ec as [Ec|Ec]; apply Z.ltb_lt in Ec; eauto.
    + eapply IH; eauto.
Qed.

(* a failed construction does not poison: _failure never lies in the future, and an item in the expiry list
   (nobody references it) carries _failure = 0 *)
Lemma failure_not_poisoning now life lim progs s i it : 0 <= now <= MAX64 ->
  reachable (init_state now life lim progs) s -> nth_error (s_items s) i = Some it ->
  0 <= i_failure it <= s_now s /\ (In i (s_list s) -> i_failure it = 0).
Proof. intros H R Hi. destruct (reachable_tinv _ _ _ _ _ H R) as [_ T]. destruct (T i it Hi) as [A [_ C]]. split; auto. intros Hl. apply C; auto. Qed.

(* hence: whenever the cooldown has elapsed since the last failure (or the item was unreferenced), the acquirer that
   reaches the test :111 with no object present runs the constructor *)
Lemma cooldown_elapsed_constructs s t th i ok y cd it :
  nth_error (s_thr s) t = Some th -> t_pc th = PAcqCheck i ok y cd ->
  nth_error (s_items s) i = Some it -> i_live it = true -> i_obj it = None ->
  i_failure it <= sat_sub (s_now s) cd ->
  exists r th', step s t = Some r /\ nth_error (s_thr (r_st r)) t = Some th' /\ t_pc th' = PAcqCtor i ok y.
Proof.
  intros Ht Hpc Hi Li Oi F. unfold step, get_thr. rewrite Ht, Hpc, (with_item_ok _ _ _ _ Hi Li), Oi.
  apply Z.leb_le in F. rewrite F. eexists. eexists. split; [reflexivity|]. simpl. split; [eapply nth_upd_same; eauto|reflexivity].
Qed.

Definition ex2_state (fuel : nat) : state :=
  fst (fst (coop_run fuel (init_state 1000 50 MAX64 [[OpAcquire 3%nat false 0%nat 0; OpAcquire 3%nat true 0%nat 5; OpRelease 1%nat false true]]) [0%nat])).
(* after the run the item sits in the expiry list, stamped with the time of its release *)
Example ex_in_list : exists it, In 0%nat (s_list (ex2_state 60)) /\ nth_error (s_items (ex2_state 60)) 0%nat = Some it /\
  i_expire it = 1050 /\ i_failure it = 0.
Proof. vm_compute. eexists. split; [left; reflexivity|]. split; [reflexivity|]. split; reflexivity. Qed.
