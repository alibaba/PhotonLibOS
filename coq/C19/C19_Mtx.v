(* C19_Mtx.v — the item's mutex: a thread inside the `_mtx` section of item i is its owner; hence the
   constructor is never running twice at once for one key. *)
From Coq Require Import ZArith List Bool Arith Lia.
From PV Require Import Base.U64 C19.C19_Model C19.C19_Lib C19.C19_Step C19.C19_Inv C19.C19_Proofs.
Import ListNotations.
Local Open Scope Z_scope.

(* how one transition of thread t may change the owner field of the items' mutexes *)
Definition mtx_rel (s : state) (t : tid) (s' : state) : Prop :=
  forall j it, nth_error (s_items s) j = Some it ->
    exists it', nth_error (s_items s') j = Some it' /\
      (i_mtx it' = i_mtx it \/ i_mtx it = None \/
       exists th, nth_error (s_thr s) t = Some th /\ t_pc th = PAcqUnlock j).

Lemma mtx_rel_same s t s' : s_items s' = s_items s -> mtx_rel s t s'.
Proof. intros E j it H. exists it. rewrite E. auto. Qed.

Lemma mtx_rel_upd s t s' i x y : nth_error (s_items s) i = Some x -> s_items s' = upd (s_items s) i y ->
  (i_mtx y = i_mtx x \/ i_mtx x = None \/ exists th, nth_error (s_thr s) t = Some th /\ t_pc th = PAcqUnlock i) ->
  mtx_rel s t s'.
Proof.
  intros Hx E C j it H. rewrite E, (nth_upd _ _ _ _ _ Hx). destruct (Nat.eqb_spec i j).
  - subst j. exists y. split; auto. assert (it = x) by congruence. subst. exact C.
  - exists it. auto.
Qed.

Lemma mtx_rel_app_upd s t s' x y : s_items s' = upd (s_items s ++ [x]) (length (s_items s)) y -> mtx_rel s t s'.
Proof.
  intros E j it H. exists it. split; auto. rewrite E.
  assert (j < length (s_items s))%nat by (apply nth_error_Some; congruence).
  rewrite nth_upd_neq by lia. apply nth_app_some; auto.
Qed.

Lemma delete_item_items s t i it : s_items (delete_item s t i it) = upd (s_items s) i (it_dead it).
Proof. apply delete_item_fields. Qed.

Lemma set_pc_items s t th p : s_items (set_pc s t th p) = s_items s.
Proof. reflexivity. Qed.

Lemma step_mtx s t r : step s t = Some r -> mtx_rel s t (r_st r).
Proof.
  intros E. destruct (step_trans s t r E) as (th & Ht & T).
  assert (U : forall s' i x y, live_at s i x -> s_items s' = upd (s_items s) i y ->
                (i_mtx y = i_mtx x \/ i_mtx x = None \/ t_pc th = PAcqUnlock i) -> mtx_rel s t s').
  { intros s' i x y [Hx _] Hs C. apply (mtx_rel_upd s t s' i x y Hx Hs). intuition eauto. }
  destruct T; try (apply mtx_rel_same; reflexivity);
    try (eapply U; [eassumption | reflexivity | auto; left; try rewrite rel_item_eq; reflexivity]).
  - (* T_find_new *) eapply mtx_rel_app_upd. reflexivity.
  - (* T_delete, T_hand_over, T_exp_delete *) eapply U; [eassumption | cbn [r_st]; rewrite set_pc_items; apply delete_item_items | auto].
  - eapply U; [eassumption | cbn [r_st]; rewrite set_pc_items, delete_item_items; destruct (i_obj it); reflexivity | auto].
  - eapply U; [eassumption | cbn [r_st]; rewrite set_pc_items; apply delete_item_items | auto].
Qed.

Definition pc_in_mtx (p : pc) (i : iid) : bool :=
  match p with PAcqCheck j _ _ _ | PAcqCtor j _ _ | PAcqUnlock j => Nat.eqb i j | _ => false end.

Definition MInv (s : state) : Prop :=
  forall t th i, nth_error (s_thr s) t = Some th -> pc_in_mtx (t_pc th) i = true ->
    exists it, nth_error (s_items s) i = Some it /\ i_mtx it = Some t.

Lemma step_self s t r th : step s t = Some r -> nth_error (s_thr s) t = Some th ->
  exists th', s_thr (r_st r) = upd (s_thr s) t th' /\
    forall i, pc_in_mtx (t_pc th') i = true ->
      (pc_in_mtx (t_pc th) i = true /\ ((forall j, t_pc th <> PAcqUnlock j) \/ s_items (r_st r) = s_items s)) \/
      (exists it', nth_error (s_items (r_st r)) i = Some it' /\ i_mtx it' = Some t).
Proof.
  intros E Ht. destruct (step_trans s t r E) as (th0 & Ht0 & T). assert (th0 = th) by congruence. subst th0.
  assert (ID : s_thr s = upd (s_thr s) t th) by (symmetry; apply upd_id; exact Ht).
  destruct T as [| p p' Hpc M | | | | | | | | | | ? ? ? ? it Hpc [Hi _] | | | | | | | | | | | | | | | | | ].
  all: try (exists th; (split; [exact ID|]); intros i0 Hm; left; split; [exact Hm | right; reflexivity]).
  23: destruct (i_obj it).   (* T_hand_over: the new pc mentions _obj *)
  all: eexists; (split; [first [reflexivity | cbn [r_st s_thr set_pc set_thr]; rewrite (proj1 (proj2 (proj2 (proj2 (delete_item_fields _ _ _ _))))); reflexivity]|]);
       intros i0 Hm; simpl in Hm; try discriminate Hm.
  - (* T_move *) destruct M as [| | | i ok y cd it [Hi _] Hm' | | | | | | |]; simpl in Hm; try discriminate Hm.
    + right. apply Nat.eqb_eq in Hm. subst i0. exists it. auto.
    + left. rewrite Hpc. split; [exact Hm | left; discriminate].
    + left. rewrite Hpc. split; [exact Hm | left; discriminate].
  - (* T_mtx_take *) right. apply Nat.eqb_eq in Hm. subst i0. eexists. split; [simpl; eapply nth_upd_same; eassumption | reflexivity].
  - (* T_ctor_begin, T_ctor_ok, T_ctor_fail *) left. rewrite H. split; [exact Hm | left; discriminate].
  - left. rewrite H. split; [exact Hm | left; discriminate].
  - left. rewrite H. split; [exact Hm | left; discriminate].
  - (* T_rel_* *) unfold rel_next in Hm. destruct (rel_recycles rc it); discriminate Hm.
  - unfold rel_next in Hm. destruct (rel_recycles rc it); discriminate Hm.
  - unfold rel_next in Hm. destruct (rel_recycles rc it); discriminate Hm.
Qed.

Lemma minv_step s t r : MInv s -> step s t = Some r -> MInv (r_st r).
Proof.
  intros M E. pose proof (step_mtx s t r E) as MR.
  destruct (nth_error (s_thr s) t) as [th|] eqn:Ht.
  2:{ unfold step, get_thr in E. rewrite Ht in E. discriminate. }
  destruct (step_self s t r th E Ht) as [th' [Hthr Hself]].
  intros t' x i Hn Hp. rewrite Hthr, (nth_upd _ _ _ _ _ Ht) in Hn. destruct (Nat.eqb_spec t t').
  - subst t'. inversion Hn; subst x. destruct (Hself i Hp) as [[Hp0 Hc]|Hr]; auto.
    destruct (M t th i Ht Hp0) as [it [Hi Hm]]. destruct (MR i it Hi) as [it' [Hi' [Hs|[Hs|[th0 [Ht0 Hu]]]]]].
    + exists it'. split; auto. congruence.
    + congruence.
    + destruct Hc as [Hc|Hc].
      * exfalso. assert (th0 = th) by congruence. subst. eapply Hc; eauto.
      * exists it. rewrite Hc. auto.
  - destruct (M t' x i Hn Hp) as [it [Hi Hm]]. destruct (MR i it Hi) as [it' [Hi' [Hs|[Hs|[th0 [Ht0 Hu]]]]]].
    + exists it'. split; auto. congruence.
    + congruence.
    + exfalso. destruct (M t th0 i Ht0) as [it2 [Hi2 Hm2]]. { rewrite Hu. simpl. apply Nat.eqb_refl. }
      congruence.
Qed.

Lemma minv_init now life lim progs : MInv (init_state now life lim progs).
Proof.
  intros t th i Hn Hp. simpl in Hn. apply nth_error_In in Hn. apply in_map_iff in Hn. destruct Hn as [p [<- _]]. discriminate.
Qed.

Lemma reachable_minv now life lim progs s : reachable (init_state now life lim progs) s -> MInv s.
Proof. induction 1. - apply minv_init. - eapply minv_step; eauto. Qed.

(* the constructor (and the whole `_mtx` section :109-115) of one key is executed by at most one thread at a time *)
Lemma ctor_exclusive now life lim progs s t1 t2 th1 th2 i1 i2 it1 it2 :
  reachable (init_state now life lim progs) s ->
  nth_error (s_thr s) t1 = Some th1 -> nth_error (s_thr s) t2 = Some th2 ->
  pc_in_mtx (t_pc th1) i1 = true -> pc_in_mtx (t_pc th2) i2 = true ->
  nth_error (s_items s) i1 = Some it1 -> nth_error (s_items s) i2 = Some it2 -> i_key it1 = i_key it2 -> t1 = t2.
Proof.
  intros R H1 H2 P1 P2 N1 N2 K.
  assert (i1 = i2).
  { eapply (one_object_per_key now life lim progs s t1 t2 i1 i2 it1 it2 R); eauto.
    - exists th1. split; auto. unfold holds. destruct (t_pc th1); simpl in P1; try discriminate; simpl; rewrite P1; lia.
    - exists th2. split; auto. unfold holds. destruct (t_pc th2); simpl in P2; try discriminate; simpl; rewrite P2; lia. }
  subst i2. pose proof (reachable_minv _ _ _ _ _ R) as M.
  destruct (M t1 th1 i1 H1 P1) as [x [Hx Mx]]. destruct (M t2 th2 i1 H2 P2) as [y [Hy My]]. congruence.
Qed.

Example ex_in_ctor : exists th, nth_error (s_thr (ex_state 6)) 0%nat = Some th /\ pc_in_mtx (t_pc th) 0%nat = true.
Proof. vm_compute. eexists. split; reflexivity. Qed.
