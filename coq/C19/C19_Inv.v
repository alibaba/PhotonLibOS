(* C19_Inv.v — the structural inductive invariant of the ObjectCache model, and that each kind of change a
   transition makes preserves it: a thread moving on, possibly unlinking items from _set (unlink_inv, with frame, the
   recycler's erase and expire() as instances), one item changing with its thread's pc, allocation, delete. *)
From Coq Require Import ZArith List Bool Arith Lia.
From PV Require Import Base.U64 C19.C19_Model C19.C19_Lib C19.C19_Step.
Import ListNotations.
Local Open Scope Z_scope.

Record Inv (s : state) : Prop := mkInv {
  inv_bad : s_bad s = false;
  (* _refcnt = number of reference holders (handles not yet released + threads between refcnt++ and the
     handle / between release() and refcnt--) *)
  inv_ref : forall i, Z.of_nat (total_holds s i) = refz s i;
  inv_set_live : forall i, In i (s_set s) -> exists it, nth_error (s_items s) i = Some it /\ i_live it = true;
  inv_set_key : forall i j it jt, In i (s_set s) -> In j (s_set s) ->
      nth_error (s_items s) i = Some it -> nth_error (s_items s) j = Some jt -> i_key it = i_key jt -> i = j;
  inv_set_nodup : NoDup (s_set s);
  inv_list : forall i, In i (s_list s) ->
      In i (s_set s) /\ exists it, nth_error (s_items s) i = Some it /\ i_ref it = 0 /\ i_recycle it = None;
  inv_list_nodup : NoDup (s_list s);
  (* a live item is either indexed by _set, or unlinked and owned by exactly one deleter; a dead one by nobody *)
  inv_own : forall i it, nth_error (s_items s) i = Some it ->
      if i_live it then (In i (s_set s) /\ total_owns s i = O) \/ (~ In i (s_set s) /\ total_owns s i = 1%nat /\ i_ref it = 0)
      else (~ In i (s_set s) /\ total_owns s i = O /\ i_ref it = 0);
  inv_own_oob : forall i, (length (s_items s) <= i)%nat -> total_owns s i = O;
  inv_recycler : forall t th i, nth_error (s_thr s) t = Some th -> pc_recycler (t_pc th) i = true ->
      exists it, nth_error (s_items s) i = Some it /\ i_live it = true /\ i_recycle it = Some t /\ In i (s_set s);
  inv_erase_ref : forall t th i ds, nth_error (s_thr s) t = Some th -> t_pc th = PRelErase i ds -> refz s i = 0;
  inv_sem : forall i it, nth_error (s_items s) i = Some it -> i_live it = true ->
      0 <= i_sem it /\ (1 <= i_sem it -> i_ref it = 0 /\ i_recycle it <> None)
}.

Lemma thr_holds_pos s t th i : Inv s -> nth_error (s_thr s) t = Some th -> (0 < holds th i)%nat ->
  exists it, nth_error (s_items s) i = Some it /\ i_live it = true /\ In i (s_set s) /\ 0 < i_ref it.
Proof.
  intros I Ht H. pose proof (sumf_ge (fun th => holds th i) (s_thr s) t th Ht) as G. cbv beta in G.
  pose proof (inv_ref s I i) as R. unfold refz, total_holds in R.
  destruct (nth_error (s_items s) i) as [it|] eqn:E; [|lia].
  exists it. pose proof (inv_own s I i it E) as O.
  destruct (i_live it).
  - destruct O as [[? ?]|[? [? ?]]]; [repeat split; auto; lia | lia].
  - lia.
Qed.

Lemma thr_owns_pos s t th i : Inv s -> nth_error (s_thr s) t = Some th -> (0 < pc_owns (t_pc th) i)%nat ->
  exists it, nth_error (s_items s) i = Some it /\ i_live it = true /\ ~ In i (s_set s) /\ total_owns s i = 1%nat /\ i_ref it = 0.
Proof.
  intros I Ht H. pose proof (sumf_ge (fun th => pc_owns (t_pc th) i) (s_thr s) t th Ht) as G. cbv beta in G. fold (total_owns s i) in G.
  destruct (nth_error (s_items s) i) as [it|] eqn:E.
  - exists it. pose proof (inv_own s I i it E) as O. destruct (i_live it).
    + destruct O as [[? ?]|[? [? ?]]]; [lia | auto].
    + lia.
  - apply nth_error_None in E. pose proof (inv_own_oob s I i E). lia.
Qed.

Lemma th_holds_upd s s' t th th' i : nth_error (s_thr s) t = Some th -> s_thr s' = upd (s_thr s) t th' ->
  (total_holds s' i + holds th i = total_holds s i + holds th' i)%nat.
Proof. intros H E. unfold total_holds. rewrite E. apply (sumf_upd (fun th => holds th i) _ _ th' _ H). Qed.
Lemma th_owns_upd s s' t th th' i : nth_error (s_thr s) t = Some th -> s_thr s' = upd (s_thr s) t th' ->
  (total_owns s' i + pc_owns (t_pc th) i = total_owns s i + pc_owns (t_pc th') i)%nat.
Proof. intros H E. unfold total_owns. rewrite E. apply (sumf_upd (fun th => pc_owns (t_pc th) i) _ _ th' _ H). Qed.
Lemma nth_thr_upd s s' t th th' t' x : nth_error (s_thr s) t = Some th -> s_thr s' = upd (s_thr s) t th' ->
  nth_error (s_thr s') t' = Some x -> (t' = t /\ x = th') \/ (t' <> t /\ nth_error (s_thr s) t' = Some x).
Proof.
  intros H E Hn. rewrite E, (nth_upd _ _ _ _ _ H) in Hn. destruct (Nat.eqb_spec t t').
  - left. split; congruence.
  - right. split; auto.
Qed.
Lemma refz_upd s s' i it it' j : nth_error (s_items s) i = Some it -> s_items s' = upd (s_items s) i it' ->
  refz s' j = if Nat.eqb i j then i_ref it' else refz s j.
Proof. intros H E. unfold refz. rewrite E, (nth_upd _ _ _ _ _ H). destruct (Nat.eqb i j); auto. Qed.

(* items related pointwise: same key / refcnt / recycler / liveness / semaphore *)
Definition sem_ok (b : item) : Prop := 0 <= i_sem b /\ (1 <= i_sem b -> i_ref b = 0 /\ i_recycle b <> None).
Definition item_eqv (a b : item) : Prop :=
  i_key b = i_key a /\ i_ref b = i_ref a /\ i_recycle b = i_recycle a /\ i_live b = i_live a /\ (i_sem b = i_sem a \/ sem_ok b).
Definition items_eqv (a b : list item) : Prop :=
  length a = length b /\ forall i x, nth_error a i = Some x -> exists y, nth_error b i = Some y /\ item_eqv x y.

Lemma items_eqv_refl a : items_eqv a a.
Proof. split; auto. intros i x H. exists x. unfold item_eqv. repeat split; auto. Qed.
Lemma item_eqv_refl x : item_eqv x x.
Proof. unfold item_eqv; repeat split; auto. Qed.

Lemma items_eqv_upd a i x y : nth_error a i = Some x -> item_eqv x y -> items_eqv a (upd a i y).
Proof.
  intros H E. split. { rewrite upd_length; auto. }
  intros j z Hj. rewrite (nth_upd _ _ _ _ _ H). destruct (Nat.eqb_spec i j).
  - subst. exists y. split; auto. congruence.
  - exists z. split; auto. unfold item_eqv; repeat split; auto.
Qed.

Lemma items_eqv_back a b i y : items_eqv a b -> nth_error b i = Some y -> exists x, nth_error a i = Some x /\ item_eqv x y.
Proof.
  intros [L E] H. destruct (nth_error a i) as [x|] eqn:Ea.
  - destruct (E _ _ Ea) as [y' [Hy Ev]]. exists x. split; auto. congruence.
  - apply nth_error_None in Ea. assert (nth_error b i = None) by (apply nth_error_None; lia). congruence.
Qed.

(* Thread t moves on and takes the items zs out of _set into its own hands (none for a step that unlinks
   nothing, one for the recycler's erase, the expired prefix of the list for expire()); items may change up to
   item_eqv.  An item may be unlinked only if its _refcnt is 0 and nobody but t is its pending recycler. *)
Lemma unlink_inv s s' t th th' zs :
  Inv s -> nth_error (s_thr s) t = Some th -> s_thr s' = upd (s_thr s) t th' ->
  (forall i, holds th' i = holds th i) ->
  (forall i, pc_owns (t_pc th') i = (pc_owns (t_pc th) i + count_occ Nat.eq_dec zs i)%nat) ->
  (forall i, pc_recycler (t_pc th') i = true -> pc_recycler (t_pc th) i = true /\ ~ In i zs) ->
  (forall i ds, t_pc th' = PRelErase i ds -> t_pc th = PRelErase i ds \/ refz s i = 0) ->
  NoDup zs -> (forall i, In i zs -> In i (s_set s) /\ refz s i = 0) ->
  (forall i it r, In i zs -> nth_error (s_items s) i = Some it -> i_recycle it = Some r -> r = t) ->
  items_eqv (s_items s) (s_items s') ->
  (forall j, In j (s_set s') <-> In j (s_set s) /\ ~ In j zs) -> NoDup (s_set s') ->
  (forall j, In j (s_list s') -> In j (s_list s) /\ ~ In j zs) -> NoDup (s_list s') -> s_bad s' = s_bad s ->
  Inv s'.
Proof.
  intros I Ht Hthr Hh Ho Hr He Hnz Hz Hzr [Hlen Hit] Hset Hnds Hlist Hnd Hbad.
  assert (TH : forall i, total_holds s' i = total_holds s i).
  { intros i. pose proof (th_holds_upd s s' t th th' i Ht Hthr) as H. rewrite Hh in H. lia. }
  assert (TO : forall i, total_owns s' i = (total_owns s i + count_occ Nat.eq_dec zs i)%nat).
  { intros i. pose proof (th_owns_upd s s' t th th' i Ht Hthr) as H. rewrite Ho in H. lia. }
  assert (CZ : forall i, ~ In i zs -> count_occ Nat.eq_dec zs i = O) by (intros i; apply count_occ_not_In).
  assert (RZ : forall i, refz s' i = refz s i).
  { intros i. unfold refz. destruct (nth_error (s_items s) i) as [x|] eqn:E.
    - destruct (Hit _ _ E) as [y [Hy [_ [Hr' _]]]]. rewrite Hy; auto.
    - apply nth_error_None in E. assert (nth_error (s_items s') i = None) by (apply nth_error_None; lia). rewrite H; auto. }
  assert (BK : forall i y, nth_error (s_items s') i = Some y -> exists x, nth_error (s_items s) i = Some x /\ item_eqv x y).
  { intros. eapply items_eqv_back; eauto. split; auto. }
  constructor.
  - rewrite Hbad. apply I.
  - intros i. rewrite TH, RZ. apply I.
  - intros i Hi. apply Hset in Hi as [Hi _]. destruct (inv_set_live s I i Hi) as [x [Hx Lx]].
    destruct (Hit _ _ Hx) as [y [Hy [_ [_ [_ [Hl _]]]]]]. exists y. split; auto. congruence.
  - intros i j it jt Hi Hj Hni Hnj Hk. apply Hset in Hi as [Hi _]. apply Hset in Hj as [Hj _].
    destruct (BK _ _ Hni) as [x [Hx [Kx _]]]. destruct (BK _ _ Hnj) as [y [Hy [Ky _]]].
    eapply (inv_set_key s I i j x y); eauto. congruence.
  - exact Hnds.
  - intros i Hi. apply Hlist in Hi as [Hi Nz]. destruct (inv_list s I i Hi) as [Hs [x [Hx [Rx Cx]]]].
    split. { apply Hset; auto. } destruct (Hit _ _ Hx) as [y [Hy [_ [Hr' [Hc _]]]]]. exists y. repeat split; auto; congruence.
  - exact Hnd.
  - intros i y Hy. destruct (BK _ _ Hy) as [x [Hx [_ [Hr' [_ [Hl _]]]]]].
    pose proof (inv_own s I i x Hx) as O. rewrite Hl, TO, Hr'. destruct (in_dec Nat.eq_dec i zs) as [Z|Z].
    + (* an unlinked item was in _set, hence live and owned by nobody *)
      destruct (Hz i Z) as [Si R0]. unfold refz in R0. rewrite Hx in R0.
      destruct (inv_set_live s I i Si) as [x' [Hx' Lx]]. assert (x' = x) by congruence. subst x'. rewrite Lx in *.
      destruct O as [[_ O]|[O _]]; [|tauto]. right. rewrite O. split. { intros H. apply Hset in H. tauto. }
      split; [|exact R0]. apply NoDup_count_occ'; auto.
    + rewrite (CZ i Z), Nat.add_0_r. destruct (i_live x).
      * destruct O as [[? ?]|[? ?]]; [left|right]; split; auto. { apply Hset; auto. } intros H'. apply Hset in H'. tauto.
      * destruct O as [? ?]. split; auto. intros H'. apply Hset in H'. tauto.
  - intros i Hi. rewrite <- Hlen in Hi. rewrite TO, (inv_own_oob s I i Hi). apply CZ. intros Z.
    destruct (Hz i Z) as [Si _]. destruct (inv_set_live s I i Si) as [x [Hx _]].
    assert (i < length (s_items s))%nat by (apply nth_error_Some; congruence). lia.
  - intros t' th'' i Hn Hp.
    assert (exists th0, nth_error (s_thr s) t' = Some th0 /\ pc_recycler (t_pc th0) i = true /\ (t' = t -> ~ In i zs)) as [th0 [Hn0 [Hp0 Hz0]]].
    { destruct (nth_thr_upd s s' t th th' t' th'' Ht Hthr Hn) as [[-> ->]|[Hne Hn0]].
      - exists th. destruct (Hr i Hp). auto.
      - exists th''. tauto. }
    destruct (inv_recycler s I t' th0 i Hn0 Hp0) as [x [Hx [Lx [Cx Sx]]]].
    destruct (Hit _ _ Hx) as [y [Hy [_ [_ [Hc [Hl _]]]]]]. exists y. repeat split; auto; try congruence.
    apply Hset. split; auto. intros Z. exact (Hz0 (Hzr i x t' Z Hx Cx) Z).
  - intros t' th'' i ds Hn Hp. rewrite RZ. destruct (nth_thr_upd s s' t th th' t' th'' Ht Hthr Hn) as [[-> ->]|[Hne Hn0]].
    + destruct (He _ _ Hp) as [Hp'|Hp']; auto. eapply (inv_erase_ref s I t th); eauto.
    + eapply (inv_erase_ref s I t' th''); eauto.
  - intros i y Hy Ly. destruct (BK _ _ Hy) as [x [Hx [_ [Hr' [Hc [Hl [Hs|Hs]]]]]]]; [|exact Hs].
    rewrite Hs, Hr', Hc. apply (inv_sem s I i x Hx). congruence.
Qed.

Lemma frame s s' t th th' :
  Inv s -> nth_error (s_thr s) t = Some th ->
  s_thr s' = upd (s_thr s) t th' ->
  (forall i, holds th' i = holds th i) ->
  (forall i, pc_owns (t_pc th') i = pc_owns (t_pc th) i) ->
  (forall i, pc_recycler (t_pc th') i = pc_recycler (t_pc th) i) ->
  (forall i ds, t_pc th' = PRelErase i ds -> t_pc th = PRelErase i ds \/ refz s i = 0) ->
  items_eqv (s_items s) (s_items s') -> s_set s' = s_set s ->
  (forall j, In j (s_list s') -> In j (s_list s)) -> NoDup (s_list s') -> s_bad s' = s_bad s ->
  Inv s'.
Proof.
  intros I Ht Hthr Hh Ho Hr He Hit Hset Hlist Hnd Hbad.
  apply (unlink_inv s s' t th th' [] I Ht Hthr Hh); auto.
  - intros i. rewrite Ho. simpl. lia.
  - intros i Hp. rewrite <- Hr. auto.
  - constructor.
  - intros i [].
  - intros i it r [].
  - intros j. rewrite Hset. simpl. tauto.
  - rewrite Hset. apply I.
Qed.

(* one item changes (key and liveness kept, it stays in the set) together with the acting thread's pc *)
Lemma gen_inv s s' t th p p' i it it' :
  Inv s -> nth_error (s_thr s) t = Some th -> t_pc th = p -> s_thr s' = upd (s_thr s) t (th_pc th p') ->
  nth_error (s_items s) i = Some it -> s_items s' = upd (s_items s) i it' ->
  i_key it' = i_key it -> i_live it' = true -> i_live it = true -> In i (s_set s) ->
  s_set s' = s_set s -> s_bad s' = s_bad s ->
  (forall j, j <> i -> pc_holds p' j = pc_holds p j) ->
  Z.of_nat (pc_holds p' i) - Z.of_nat (pc_holds p i) = i_ref it' - i_ref it ->
  (forall j, pc_owns p' j = pc_owns p j) ->
  NoDup (s_list s') -> (forall j, In j (s_list s') -> j <> i -> In j (s_list s)) ->
  (In i (s_list s') -> i_ref it' = 0 /\ i_recycle it' = None) ->
  (i_recycle it <> None -> i_recycle it' = i_recycle it /\ (i_ref it = 0 -> i_ref it' = 0)) ->
  (forall j, pc_recycler p' j = true -> pc_recycler p j = true \/ (j = i /\ i_recycle it' = Some t)) ->
  (forall j ds, p' = PRelErase j ds -> j = i /\ i_ref it' = 0) ->
  sem_ok it' ->
  Inv s'.
Proof.
  intros I Ht Hpc Hthr Hi Hitems Hkey Hlive' Hlive Hin Hset Hbad Hh Hhi Ho Hnd Hlist Hlisti Hrc Hrec Her Hsem.
  assert (NTH : forall j, nth_error (s_items s') j = if Nat.eqb i j then Some it' else nth_error (s_items s) j).
  { intros j. rewrite Hitems. apply (nth_upd _ _ _ _ _ Hi). }
  assert (HO : forall j, holds (th_pc th p') j = (handles_on th j + pc_holds p' j)%nat) by reflexivity.
  assert (TO : forall j, total_owns s' j = total_owns s j).
  { intros j. pose proof (th_owns_upd s s' t th _ j Ht Hthr) as E. simpl in E. rewrite Ho, <- Hpc in E. lia. }
  (* another thread's pending recycler on i fixes i's _recycle, and its PRelErase fixes _refcnt = 0 *)
  assert (RC : forall t' x, nth_error (s_thr s) t' = Some x -> pc_recycler (t_pc x) i = true ->
                 i_recycle it' = Some t' /\ (refz s i = 0 -> i_ref it' = 0)).
  { intros t' x Hn Hp. destruct (inv_recycler s I t' x i Hn Hp) as [y [Hy [_ [Cy _]]]]. assert (y = it) by congruence. subst y.
    destruct Hrc as [C R]; [congruence|]. split; [congruence|]. unfold refz. rewrite Hi. exact R. }
  constructor.
  - rewrite Hbad. apply I.
  - intros j. rewrite (refz_upd s s' i it it' j Hi Hitems).
    pose proof (th_holds_upd s s' t th _ j Ht Hthr) as E. rewrite HO in E. unfold holds in E. rewrite Hpc in E.
    pose proof (inv_ref s I j) as R. destruct (Nat.eqb_spec i j).
    + subst j. unfold refz in R. rewrite Hi in R. lia.
    + rewrite Hh in E by congruence. lia.
  - intros j Hj. rewrite Hset in Hj. rewrite NTH. destruct (Nat.eqb_spec i j); eauto. apply I; auto.
  - intros a b ia ib Ha Hb Hna Hnb Hk. rewrite Hset in Ha, Hb. rewrite NTH in Hna, Hnb.
    destruct (inv_set_live s I a Ha) as [xa [Hxa _]]. destruct (inv_set_live s I b Hb) as [xb [Hxb _]].
    apply (inv_set_key s I a b xa xb); auto.
    destruct (Nat.eqb_spec i a), (Nat.eqb_spec i b); subst; congruence.
  - rewrite Hset; apply I.
  - intros j Hj. rewrite Hset, NTH. destruct (Nat.eqb_spec i j).
    + subst j. split; [exact Hin|]. exists it'. destruct (Hlisti Hj). auto.
    + apply I. apply Hlist; auto.
  - exact Hnd.
  - intros j y Hy. rewrite NTH in Hy. rewrite Hset, TO. destruct (Nat.eqb_spec i j).
    + subst j. inversion Hy; subst y. rewrite Hlive'. left. split; auto.
      pose proof (inv_own s I i it Hi) as O. rewrite Hlive in O. destruct O as [[_ ?]|[? _]]; tauto.
    + apply (inv_own s I j y Hy).
  - intros j Hj. rewrite TO. apply I. rewrite Hitems, upd_length in Hj. exact Hj.
  - intros t' x j Hn Hp.
    assert (exists t0 x0, nth_error (s_thr s) t0 = Some x0 /\ pc_recycler (t_pc x0) j = true /\ t0 = t' \/ j = i /\ i_recycle it' = Some t') as OLD.
    { destruct (nth_thr_upd s s' t th _ t' x Ht Hthr Hn) as [[-> ->]|[Hne Hn0]].
      - destruct (Hrec j Hp) as [Hp0|Hn']; [|exists t, th; auto]. exists t, th. left. rewrite Hpc. auto.
      - exists t', x. auto. }
    rewrite NTH, Hset. destruct OLD as (t0 & x0 & [(Hn0 & Hp0 & ->)|[-> Hc]]).
    + destruct (inv_recycler s I t' x0 j Hn0 Hp0) as [y [Hy [Ly [Cy Sy]]]]. destruct (Nat.eqb_spec i j); [|exists y; auto].
      subst j. exists it'. repeat split; auto. apply (RC t' x0 Hn0 Hp0).
    + rewrite Nat.eqb_refl. exists it'. auto.
  - intros t' x j ds Hn Hp. rewrite (refz_upd s s' i it it' j Hi Hitems).
    destruct (nth_thr_upd s s' t th _ t' x Ht Hthr Hn) as [[-> ->]|[Hne Hn0]].
    + destruct (Her j ds Hp) as [-> Hr]. rewrite Nat.eqb_refl. exact Hr.
    + pose proof (inv_erase_ref s I t' x j ds Hn0 Hp) as Z. destruct (Nat.eqb_spec i j); [|exact Z]. subst j.
      apply (RC t' x Hn0); [|exact Z]. rewrite Hp. simpl. apply Nat.eqb_refl.
  - intros j y Hy Ly. rewrite NTH in Hy. destruct (Nat.eqb_spec i j).
    + inversion Hy; subst. exact Hsem.
    + apply (inv_sem s I j y Hy Ly).
Qed.

(* ref_acquire inserts a new item (no thread changes) *)
Lemma alloc_inv s k :
  Inv s -> find_key (s_items s) (s_set s) k = None ->
  Inv (set_set (set_items s (s_items s ++ [new_item k])) (s_set s ++ [length (s_items s)])).
Proof.
  intros I F.
  assert (OLD : forall j x, nth_error (s_items s) j = Some x -> nth_error (s_items s ++ [new_item k]) j = Some x).
  { intros. apply nth_app_some; auto. }
  assert (NOTIN : ~ In (length (s_items s)) (s_set s)).
  { intros H. destruct (inv_set_live s I _ H) as [x [Hx _]]. assert (length (s_items s) < length (s_items s))%nat by (apply nth_error_Some; congruence). lia. }
  assert (H0 : total_holds s (length (s_items s)) = O).
  { pose proof (inv_ref s I (length (s_items s))) as R. unfold refz in R.
    assert (E : nth_error (s_items s) (length (s_items s)) = None) by (apply nth_error_None; lia). rewrite E in R. lia. }
  assert (NEWKEY : forall i it, In i (s_set s) -> nth_error (s_items s ++ [new_item k]) i = Some it -> i_key it <> k).
  { intros i it Hi Hn. destruct (inv_set_live s I i Hi) as [x [Hx _]]. rewrite (OLD _ _ Hx) in Hn. injection Hn as <-.
    exact (find_key_none _ _ _ F i x Hi Hx). }
  constructor; simpl.
  - apply I.
  - intros i. unfold refz, total_holds; simpl. pose proof (inv_ref s I i) as R. unfold refz, total_holds in R.
    destruct (nth_error (s_items s) i) as [x|] eqn:E.
    + rewrite (OLD _ _ E). exact R.
    + apply nth_error_None in E. destruct (Nat.eq_dec i (length (s_items s))).
      * subst i. rewrite nth_app_new. simpl. exact R.
      * assert (nth_error (s_items s ++ [new_item k]) i = None) as ->; auto.
        apply nth_error_None. rewrite app_length; simpl. lia.
  - intros i Hi. apply in_app_or in Hi. destruct Hi as [Hi|[<-|[]]].
    + destruct (inv_set_live s I i Hi) as [x [Hx Lx]]. exists x. split; auto.
    + exists (new_item k). split; auto. apply nth_app_new.
  - intros i j it jt Hi Hj Hni Hnj Hk.
    apply in_app_or in Hi. apply in_app_or in Hj.
    destruct Hi as [Hi|[<-|[]]]; destruct Hj as [Hj|[<-|[]]]; auto.
    + destruct (inv_set_live s I i Hi) as [x [Hx _]]. destruct (inv_set_live s I j Hj) as [y [Hy _]].
      rewrite (OLD _ _ Hx) in Hni. rewrite (OLD _ _ Hy) in Hnj.
      apply (inv_set_key s I i j x y); auto; congruence.
    + rewrite nth_app_new in Hnj. injection Hnj as <-. exfalso. exact (NEWKEY i it Hi Hni Hk).
    + rewrite nth_app_new in Hni. injection Hni as <-. exfalso. exact (NEWKEY j jt Hj Hnj (eq_sym Hk)).
  - apply nodup_snoc; auto. apply I.
  - intros i Hi. destruct (inv_list s I i Hi) as [Hs [x [Hx [Rx Cx]]]]. split.
    + apply in_or_app; auto.
    + exists x. split; auto.
  - apply I.
  - intros i it Hit. unfold total_owns; simpl. apply nth_app_inv in Hit. destruct Hit as [[Hit Hlt]|[-> ->]].
    + pose proof (inv_own s I i it Hit) as O. unfold total_owns in O. destruct (i_live it).
      * destruct O as [[? ?]|[? ?]]; [left|right]; split; auto.
        -- apply in_or_app; auto.
        -- intros H'. apply in_app_or in H'. destruct H' as [?|[<-|[]]]; auto. lia.
      * destruct O as [? ?]. split; auto.
        intros H'. apply in_app_or in H'. destruct H' as [?|[<-|[]]]; auto. lia.
    + simpl. left. split. { apply in_or_app; right; left; auto. }
      apply (inv_own_oob s I). lia.
  - intros i Hi. rewrite app_length in Hi; simpl in Hi. apply (inv_own_oob s I). lia.
  - intros t th i Hn Hp. destruct (inv_recycler s I t th i Hn Hp) as [x [Hx [Lx [Cx Sx]]]].
    exists x. repeat split; auto. apply in_or_app; auto.
  - intros t th i ds Hn Hp. pose proof (inv_erase_ref s I t th i ds Hn Hp) as R.
    destruct (inv_recycler s I t th i Hn) as [x [Hx _]]. { rewrite Hp; simpl. apply Nat.eqb_refl. }
    unfold refz in *; simpl. rewrite (OLD _ _ Hx). rewrite Hx in R. exact R.
  - intros i it Hit Lit. apply nth_app_inv in Hit. destruct Hit as [[Hit _]|[-> ->]].
    + apply (inv_sem s I i it Hit Lit).
    + simpl. split; lia.
Qed.

(* the recycler unlinks its item from _set (:146-148) *)
Lemma erase_inv s s' t th th' i ds it :
  Inv s -> nth_error (s_thr s) t = Some th -> t_pc th = PRelErase i ds ->
  nth_error (s_items s) i = Some it ->
  s_thr s' = upd (s_thr s) t th' -> t_pc th' = PRelDelete i ds -> t_h th' = t_h th ->
  s_items s' = s_items s -> s_set s' = erase_key (s_items s) (s_set s) (i_key it) ->
  s_list s' = s_list s -> s_bad s' = s_bad s ->
  Inv s'.
Proof.
  intros I Ht Hpc Hi Hthr Hpc' Hh' Hitems Hset Hlist Hbad.
  destruct (inv_recycler s I t th i Ht) as [it0 [Hi0 [Li [Ci Si]]]]. { rewrite Hpc; simpl; apply Nat.eqb_refl. }
  assert (it0 = it) by congruence. subst it0.
  apply (unlink_inv s s' t th th' [i] I Ht Hthr).
  - intros j. unfold holds, handles_on. rewrite Hh', Hpc, Hpc'. reflexivity.
  - intros j. rewrite Hpc, Hpc'. simpl. destruct (Nat.eq_dec i j), (Nat.eqb_spec j i); congruence.
  - intros j Hp. rewrite Hpc' in Hp. discriminate.
  - intros j ds' Hp. congruence.
  - constructor; [simpl; tauto | constructor].
  - intros j [<-|[]]. split; [exact Si | exact (inv_erase_ref s I t th i ds Ht Hpc)].
  - intros j x r [<-|[]] Hx Cx. congruence.
  - rewrite Hitems. apply items_eqv_refl.
  - intros j. rewrite Hset, in_erase_key. simpl. split.
    + intros [Hj Hk]. split; auto. intros [<-|[]]. apply (Hk it Hi); auto.
    + intros [Hj Hne]. split; auto. intros jt Hjt Hk. apply Hne. left. symmetry. apply (inv_set_key s I j i jt it); auto.
  - rewrite Hset. apply nodup_erase_key, I.
  - intros j Hj. rewrite Hlist in Hj. split; auto. intros [<-|[]].
    destruct (inv_list s I i Hj) as (_ & x & Hx & _ & Cx). congruence.
  - rewrite Hlist. apply I.
  - exact Hbad.
Qed.

(* `delete` of an unlinked item by the thread that owns it (:153 and delete_all() :64) *)
Lemma delete_inv s s1 t th p p' z it it0 :
  Inv s -> nth_error (s_thr s) t = Some th -> t_pc th = p ->
  pc_owns p z = S (pc_owns p' z) -> (forall j, j <> z -> pc_owns p' j = pc_owns p j) ->
  (forall j, pc_holds p' j = pc_holds p j) -> (forall j, pc_recycler p' j = false) ->
  nth_error (s_items s) z = Some it ->
  s_items s1 = s_items s -> s_set s1 = s_set s -> s_list s1 = s_list s -> s_thr s1 = s_thr s -> s_bad s1 = s_bad s ->
  i_ref it0 = i_ref it ->
  Inv (set_pc (delete_item s1 t z it0) t th p').
Proof.
  intros I Ht Hpc Hoz Ho Hh Hr Hz Q1 Q2 Q3 Q4 Q5 Rd.
  destruct (delete_item_fields s1 t z it0) as (F1 & F2 & F3 & F4 & F5 & _).
  set (s' := set_pc (delete_item s1 t z it0) t th p').
  assert (Hthr : s_thr s' = upd (s_thr s) t (th_pc th p')) by (unfold s', set_pc, set_thr; cbn [s_thr]; congruence).
  assert (Hitems : s_items s' = upd (s_items s) z (it_dead it0)) by (unfold s', set_pc, set_thr; cbn [s_items]; congruence).
  assert (Hset : s_set s' = s_set s) by (unfold s', set_pc, set_thr; cbn [s_set]; congruence).
  assert (Hlist : s_list s' = s_list s) by (unfold s', set_pc, set_thr; cbn [s_list]; congruence).
  assert (Hbad : s_bad s' = s_bad s) by (unfold s', set_pc, set_thr; cbn [s_bad]; congruence).
  clearbody s'. clear F1 F2 F3 F4 F5. set (d := it_dead it0) in *.
  rewrite <- Hpc in Hoz, Ho, Hh.
  destruct (thr_owns_pos s t th z I Ht) as [it1 [Hz0 [Lz [Nz [Oz Rz]]]]]. { lia. }
  assert (it1 = it) by congruence. subst it1.
  assert (NTH : forall j, nth_error (s_items s') j = if Nat.eqb z j then Some d else nth_error (s_items s) j).
  { intros j. rewrite Hitems. apply (nth_upd _ _ _ _ _ Hz). }
  assert (TH : forall j, total_holds s' j = total_holds s j).
  { intros j. pose proof (th_holds_upd s s' t th _ j Ht Hthr) as E. unfold holds, handles_on in E. simpl in E. rewrite Hh in E. lia. }
  assert (RZ : forall j, refz s' j = refz s j).
  { intros j. rewrite (refz_upd s s' z it d j Hz Hitems). destruct (Nat.eqb_spec z j); auto. subst. unfold refz. rewrite Hz. exact Rd. }
  assert (INZ : forall j, In j (s_set s) -> z <> j) by (intros j Hj ->; tauto).
  assert (TO : forall j, (total_owns s' j + pc_owns (t_pc th) j = total_owns s j + pc_owns p' j)%nat).
  { intros j. apply (th_owns_upd s s' t th _ j Ht Hthr). }
  constructor.
  - rewrite Hbad; apply I.
  - intros j. rewrite TH, RZ. apply I.
  - intros j Hj. rewrite Hset in Hj. rewrite NTH. destruct (Nat.eqb_spec z j). { exfalso. apply (INZ j); auto. } apply I; auto.
  - intros a b ia ib Ha Hb. rewrite Hset in Ha, Hb. rewrite !NTH.
    destruct (Nat.eqb_spec z a). { exfalso. apply (INZ a); auto. } destruct (Nat.eqb_spec z b). { exfalso. apply (INZ b); auto. }
    apply I; auto.
  - rewrite Hset; apply I.
  - intros j Hj. rewrite Hlist in Hj. rewrite Hset, NTH. destruct (inv_list s I j Hj) as [Hs ?].
    destruct (Nat.eqb_spec z j). { exfalso. apply (INZ j); auto. } split; auto.
  - rewrite Hlist; apply I.
  - intros j y Hy. rewrite NTH in Hy. rewrite Hset. pose proof (TO j) as E.
    destruct (Nat.eqb_spec z j).
    + subst j. inversion Hy; subst y. split; auto. split; [lia|]. unfold d. simpl. congruence.
    + rewrite Ho in E by congruence. replace (total_owns s' j) with (total_owns s j) by lia. apply (inv_own s I j y Hy).
  - intros j Hj. rewrite Hitems, upd_length in Hj. pose proof (TO j) as E.
    assert (j <> z). { intros ->. assert (z < length (s_items s))%nat by (apply nth_error_Some; congruence). lia. }
    rewrite Ho in E by auto. pose proof (inv_own_oob s I j Hj). lia.
  - intros t' x j Hn Hp. destruct (nth_thr_upd s s' t th _ t' x Ht Hthr Hn) as [[-> ->]|[Hne Hn0]].
    + simpl in Hp. rewrite Hr in Hp. discriminate.
    + destruct (inv_recycler s I t' x j Hn0 Hp) as [y [Hy [Ly [Cy Sy]]]]. exists y. rewrite NTH, Hset.
      destruct (Nat.eqb_spec z j). { exfalso. apply (INZ j); auto. } auto.
  - intros t' x j ds' Hn Hp. rewrite RZ. destruct (nth_thr_upd s s' t th _ t' x Ht Hthr Hn) as [[-> ->]|[Hne Hn0]].
    + pose proof (Hr j) as Hrj. simpl in Hp. rewrite Hp in Hrj. simpl in Hrj. rewrite Nat.eqb_refl in Hrj. discriminate.
    + eapply (inv_erase_ref s I t' x); eauto.
  - intros j y Hy Ly. rewrite NTH in Hy. destruct (Nat.eqb_spec z j).
    + inversion Hy; subst. discriminate Ly.
    + apply (inv_sem s I j y Hy Ly).
Qed.

(* expire() :55-63 *)
Lemma exp_split_spec its now lim : forall lst set zs l' set',
  (forall j, In j lst -> In j set) -> NoDup lst -> NoDup set ->
  (forall j, In j set -> exists it, nth_error its j = Some it) ->
  (forall a b ia ib, In a set -> In b set -> nth_error its a = Some ia -> nth_error its b = Some ib -> i_key ia = i_key ib -> a = b) ->
  exp_split its now lim lst set = (zs, l', set') ->
  lst = zs ++ l' /\ (forall j, In j set' <-> In j set /\ ~ In j zs) /\ NoDup set'.
Proof.
  induction lst as [|x r IH]; intros set zs l' set' Hsub Hnd Hnds Hal Hk E; simpl in E.
  - inversion E; subst. simpl. repeat split; auto; tauto.
  - destruct (Hal x (Hsub x (or_introl eq_refl))) as [it Hx]. rewrite Hx in E.
    match type of E with context [if ?c then _ else _] => destruct c eqn:Ec end.
    + destruct (exp_split its now lim r (erase_key its set (i_key it))) as [[zs0 l0] set0] eqn:E0.
      inversion E; subst.
      assert (NDr : NoDup r) by (inversion Hnd; auto). assert (Nx : ~ In x r) by (inversion Hnd; auto).
      assert (S1 : forall j, In j (erase_key its set (i_key it)) <-> In j set /\ j <> x).
      { intros j. rewrite in_erase_key. split.
        - intros [Hj Hkj]. split; auto. intros ->. apply (Hkj it Hx); auto.
        - intros [Hj Hne]. split; auto. intros jt Hjt Hkk. apply Hne. apply (Hk j x jt it); auto. apply Hsub; left; auto. }
      assert (P1 : forall j, In j r -> In j (erase_key its set (i_key it))).
      { intros j Hj. apply S1. split. { apply Hsub; right; auto. } intros ->. tauto. }
      assert (P2 : NoDup (erase_key its set (i_key it))) by (apply nodup_erase_key; auto).
      assert (P3 : forall j, In j (erase_key its set (i_key it)) -> exists it, nth_error its j = Some it).
      { intros j Hj. apply S1 in Hj. apply Hal; tauto. }
      assert (P4 : forall a b ia ib, In a (erase_key its set (i_key it)) -> In b (erase_key its set (i_key it)) ->
                   nth_error its a = Some ia -> nth_error its b = Some ib -> i_key ia = i_key ib -> a = b).
      { intros a b ia ib Ha Hb. apply S1 in Ha. apply S1 in Hb. apply Hk; tauto. }
      destruct (IH _ _ _ _ P1 NDr P2 P3 P4 E0) as [A [B C]].
      simpl. split; [rewrite A; reflexivity|]. split; [|exact C]. intros j. split.
      * intros Hj. apply B in Hj. destruct Hj as [Hj Hn]. apply S1 in Hj. destruct Hj as [Hj1 Hj2]. split; [exact Hj1|]. intros [Hq|Hq]; [congruence|tauto].
      * intros [Hj Hn]. apply B. split. { apply S1. split; [exact Hj|]. intros Hq. apply Hn. left. auto. } intros Hq. apply Hn. right. exact Hq.
    + inversion E; subst. simpl. repeat split; auto; tauto.
Qed.

Lemma exp_inv s s' t th th' kt zs l' set' :
  Inv s -> nth_error (s_thr s) t = Some th -> t_pc th = PExp kt ->
  exp_split (s_items s) (s_now s) (s_numlimit s) (s_list s) (s_set s) = (zs, l', set') ->
  s_thr s' = upd (s_thr s) t th' -> t_pc th' = PExpDel zs kt -> t_h th' = t_h th ->
  s_items s' = s_items s -> s_set s' = set' -> s_list s' = l' -> s_bad s' = s_bad s ->
  Inv s'.
Proof.
  intros I Ht Hpc E Hthr Hpc' Hh' Hitems Hset Hlist Hbad.
  destruct (exp_split_spec _ _ _ _ _ _ _ _ (fun j H => proj1 (inv_list s I j H)) (inv_list_nodup s I) (inv_set_nodup s I)
              (fun j H => let '(ex_intro _ it (conj a _)) := inv_set_live s I j H in ex_intro _ it a) (inv_set_key s I) E) as [A [B C]].
  assert (NDz : NoDup zs /\ NoDup l' /\ forall j, In j zs -> ~ In j l').
  { pose proof (inv_list_nodup s I) as N. rewrite A in N. apply nodup_app_inv; auto. }
  destruct NDz as [NDz [NDl DJ]].
  assert (ZL : forall j, In j zs -> In j (s_list s)) by (intros; rewrite A; apply in_or_app; auto).
  apply (unlink_inv s s' t th th' zs I Ht Hthr).
  - intros j. unfold holds, handles_on. rewrite Hh', Hpc, Hpc'. destruct kt as [[?|]| |]; reflexivity.
  - intros j. rewrite Hpc, Hpc'. reflexivity.
  - intros j Hp. rewrite Hpc' in Hp. discriminate.
  - intros j ds Hp. congruence.
  - exact NDz.
  - intros j Hz. destruct (inv_list s I j (ZL j Hz)) as (Hs & x & Hx & Rx & _). split; auto. unfold refz. rewrite Hx. exact Rx.
  - intros j x r Hz Hx Cx. destruct (inv_list s I j (ZL j Hz)) as (_ & y & Hy & _ & Cy). congruence.
  - rewrite Hitems. apply items_eqv_refl.
  - intros j. rewrite Hset. apply B.
  - rewrite Hset. exact C.
  - intros j Hj. rewrite Hlist in Hj. split. { rewrite A. apply in_or_app; auto. } intros Hz. exact (DJ j Hz Hj).
  - rewrite Hlist. exact NDl.
  - exact Hbad.
Qed.
