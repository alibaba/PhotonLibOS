(* C19_Lib.v — list/update lemmas and the counting functions used by the invariants of C19. *)
From Coq Require Import ZArith List Bool Arith Lia.
From PV Require Import Base.U64 C19.C19_Model.
Import ListNotations.

Lemma upd_length {A} (l : list A) n x : length (upd l n x) = length l.
Proof. revert n; induction l; destruct n; simpl; auto. Qed.

Lemma nth_upd_same {A} (l : list A) n x y : nth_error l n = Some y -> nth_error (upd l n x) n = Some x.
Proof. revert n; induction l; destruct n; simpl; intros; try discriminate; auto. Qed.

Lemma nth_upd_neq {A} (l : list A) n m x : n <> m -> nth_error (upd l n x) m = nth_error l m.
Proof. revert n m; induction l; destruct n, m; simpl; intros; auto; try congruence. Qed.

Lemma nth_upd {A} (l : list A) n m x y : nth_error l n = Some y ->
  nth_error (upd l n x) m = if Nat.eqb n m then Some x else nth_error l m.
Proof.
  intros H. destruct (Nat.eqb_spec n m).
  - subst. eapply nth_upd_same; eauto.
  - apply nth_upd_neq; auto.
Qed.

Lemma nth_upd_none {A} (l : list A) n x : nth_error l n = None -> upd l n x = l.
Proof. revert n; induction l; destruct n; simpl; intros; try discriminate; auto. f_equal; auto. Qed.

Lemma upd_id {A} (l : list A) n x : nth_error l n = Some x -> upd l n x = l.
Proof. revert n; induction l; destruct n; simpl; intros H; try discriminate; [inversion H | f_equal]; auto. Qed.

Lemma nth_app_l {A} (l : list A) x i : (i < length l)%nat -> nth_error (l ++ [x]) i = nth_error l i.
Proof. intros. apply nth_error_app1; auto. Qed.
Lemma nth_app_new {A} (l : list A) x : nth_error (l ++ [x]) (length l) = Some x.
Proof. rewrite nth_error_app2 by lia. rewrite Nat.sub_diag. reflexivity. Qed.
Lemma nth_app_some {A} (l : list A) x i y : nth_error l i = Some y -> nth_error (l ++ [x]) i = Some y.
Proof. intros H. rewrite nth_app_l; auto. apply nth_error_Some. congruence. Qed.
Lemma nth_app_inv {A} (l : list A) x i y : nth_error (l ++ [x]) i = Some y ->
  (nth_error l i = Some y /\ (i < length l)%nat) \/ (i = length l /\ y = x).
Proof.
  intros H. destruct (Nat.lt_ge_cases i (length l)).
  - rewrite nth_app_l in H; auto.
  - right. assert (Hi : (i < length (l ++ [x]))%nat) by (apply nth_error_Some; congruence).
    rewrite app_length in Hi; simpl in Hi. assert (i = length l) by lia. subst.
    rewrite nth_app_new in H. split; congruence.
Qed.

Definition sumf (f : thr -> nat) (l : list thr) : nat := fold_right (fun th a => (f th + a)%nat) O l.

Lemma sumf_upd f l t x old : nth_error l t = Some old -> (sumf f (upd l t x) + f old = sumf f l + f x)%nat.
Proof.
  revert t; induction l; destruct t; simpl; intros H; try discriminate.
  - inversion H; subst. lia.
  - specialize (IHl _ H). lia.
Qed.

Lemma sumf_ext f g l : (forall th, f th = g th) -> sumf f l = sumf g l.
Proof. intros H; induction l; simpl; [reflexivity|]. rewrite H, IHl; reflexivity. Qed.

Lemma sumf_zero f l : sumf f l = O -> forall t th, nth_error l t = Some th -> f th = O.
Proof.
  induction l; intros H t th Hn; destruct t; simpl in *; try discriminate.
  - inversion Hn; subst. lia.
  - eapply IHl; eauto. lia.
Qed.

Lemma sumf_ge f l t th : nth_error l t = Some th -> (f th <= sumf f l)%nat.
Proof.
  revert t; induction l; destruct t; simpl; intros H; try discriminate.
  - inversion H; subst; lia.
  - specialize (IHl _ H); lia.
Qed.

Lemma sumf_le f g l : (forall th, (f th <= g th)%nat) -> (sumf f l <= sumf g l)%nat.
Proof. intros H; induction l; simpl; auto. specialize (H a). lia. Qed.

Lemma sumf_two f l t1 t2 a b : t1 <> t2 -> nth_error l t1 = Some a -> nth_error l t2 = Some b -> (f a + f b <= sumf f l)%nat.
Proof.
  revert t1 t2; induction l; intros t1 t2 Hne H1 H2; destruct t1, t2; simpl in *; try discriminate; try congruence.
  - inversion H1; subst. pose proof (sumf_ge f l _ _ H2). lia.
  - inversion H2; subst. pose proof (sumf_ge f l _ _ H1). lia.
  - assert (t1 <> t2) by congruence. specialize (IHl _ _ H H1 H2). lia.
Qed.

Lemma in_remove_id x y l : In y (remove_id x l) <-> In y l /\ x <> y.
Proof.
  unfold remove_id. rewrite filter_In. destruct (Nat.eqb_spec x y); simpl; intuition congruence.
Qed.
Lemma nodup_remove_id x l : NoDup l -> NoDup (remove_id x l).
Proof. intros. unfold remove_id. apply NoDup_filter; auto. Qed.
Lemma mem_id_in x l : mem_id x l = true <-> In x l.
Proof.
  unfold mem_id. rewrite existsb_exists. split.
  - intros [y [Hy He]]. apply Nat.eqb_eq in He. subst; auto.
  - intros H. exists x. split; auto. apply Nat.eqb_refl.
Qed.

Lemma find_key_some its set k i : find_key its set k = Some i ->
  In i set /\ exists it, nth_error its i = Some it /\ i_key it = k.
Proof.
  induction set as [|j r IH]; simpl; intros H; try discriminate.
  destruct (nth_error its j) eqn:E.
  - destruct (Nat.eqb_spec (i_key i0) k).
    + inversion H; subst. split; auto. eauto.
    + destruct (IH H) as [? ?]. split; auto.
  - destruct (IH H) as [? ?]. split; auto.
Qed.
Lemma find_key_none its set k : find_key its set k = None ->
  forall j jt, In j set -> nth_error its j = Some jt -> i_key jt <> k.
Proof.
  induction set as [|j r IH]; simpl; intros H j' jt Hin Hn; try contradiction.
  destruct (nth_error its j) eqn:E.
  - destruct (Nat.eqb_spec (i_key i) k); try discriminate.
    destruct Hin as [<-|Hin]; [congruence| eapply IH; eauto].
  - destruct Hin as [<-|Hin]; [congruence| eapply IH; eauto].
Qed.
Lemma in_erase_key its set k j : In j (erase_key its set k) <->
  In j set /\ (forall jt, nth_error its j = Some jt -> i_key jt <> k).
Proof.
  unfold erase_key. rewrite filter_In. destruct (nth_error its j) eqn:E.
  - destruct (Nat.eqb_spec (i_key i) k); simpl; split; intros [H1 H2]; split; auto; try discriminate.
    + exfalso. eapply H2; eauto.
    + intros jt Hj; inversion Hj; subst; auto.
  - split; intros [H1 H2]; split; auto. intros; discriminate.
Qed.
Lemma nodup_erase_key its set k : NoDup set -> NoDup (erase_key its set k).
Proof. intros. unfold erase_key. apply NoDup_filter; auto. Qed.

(* keys of items are all that find_key/erase_key/exp_split's erase look at *)
Definition same_keys (a b : list item) : Prop :=
  forall i, match nth_error a i, nth_error b i with
            | Some x, Some y => i_key x = i_key y
            | None, None => True
            | _, _ => False end.
Lemma find_key_same a b set k : same_keys a b -> find_key a set k = find_key b set k.
Proof.
  intros H; induction set as [|j r IH]; simpl; auto.
  specialize (H j). destruct (nth_error a j), (nth_error b j); try contradiction; rewrite ?H, ?IH; auto.
Qed.
Lemma erase_key_same a b set k : same_keys a b -> erase_key a set k = erase_key b set k.
Proof.
  intros H. unfold erase_key. apply filter_ext. intros j. specialize (H j).
  destruct (nth_error a j), (nth_error b j); try contradiction; rewrite ?H; auto.
Qed.

Definition pc_holds (p : pc) (i : iid) : nat :=
  match p with
  | PAcqLock j _ _ _ _ | PAcqSlow j _ _ _ | PAcqSleepM j _ _ _ | PAcqCheck j _ _ _
  | PAcqCtor j _ _ | PAcqUnlock j | PAcqRead j | PRel1 j _ _ _
  | PExp (KAcq (Some j)) | PExpDel _ (KAcq (Some j)) => if Nat.eqb i j then 1%nat else O
  | _ => O
  end.
Definition pc_owns (p : pc) (i : iid) : nat :=
  match p with
  | PRelDelete j _ => if Nat.eqb i j then 1%nat else O
  | PExpDel zs _ => count_occ Nat.eq_dec zs i
  | _ => O
  end.
Definition pc_recycler (p : pc) (i : iid) : bool :=
  match p with
  | PRelSem j _ | PRelSemSleep j _ | PRelErase j _ => Nat.eqb i j
  | _ => false
  end.
Definition holds (th : thr) (i : iid) : nat := (handles_on th i + pc_holds (t_pc th) i)%nat.
Definition total_holds (s : state) (i : iid) : nat := sumf (fun th => holds th i) (s_thr s).
Definition total_owns (s : state) (i : iid) : nat := sumf (fun th => pc_owns (t_pc th) i) (s_thr s).
Definition refz (s : state) (i : iid) : Z :=
  match nth_error (s_items s) i with Some it => i_ref it | None => 0%Z end.

Lemma refs_on_sumf s i : refs_on s i = sumf (fun th => handles_on th i) (s_thr s).
Proof. reflexivity. Qed.
Lemma refs_on_le s i : (refs_on s i <= total_holds s i)%nat.
Proof. rewrite refs_on_sumf. apply sumf_le. intros; unfold holds; lia. Qed.

Definition hmatch (i : iid) (h : option iid * bool) : bool :=
  match h with (Some j, false) => Nat.eqb i j | _ => false end.
Lemma handles_on_eq th i : handles_on th i = length (filter (hmatch i) (t_h th)).
Proof. reflexivity. Qed.

Lemma handles_app hs r i : length (filter (hmatch i) (hs ++ [(r, false)])) =
  (length (filter (hmatch i) hs) + match r with Some j => if Nat.eqb i j then 1 else 0 | None => 0 end)%nat.
Proof.
  rewrite filter_app, app_length. f_equal. simpl. destruct r; simpl; auto. destruct (Nat.eqb i i0); auto.
Qed.
Lemma handles_upd_release hs h j i : nth_error hs h = Some (Some j, false) ->
  (length (filter (hmatch i) (upd hs h (Some j, true))) + (if Nat.eqb i j then 1 else 0) = length (filter (hmatch i) hs))%nat.
Proof.
  revert h; induction hs as [|a r IH]; destruct h; simpl; intros H; try discriminate.
  - inversion H; subst. simpl. destruct (Nat.eqb i j); simpl; lia.
  - specialize (IH _ H). destruct (hmatch i a); simpl; lia.
Qed.

Lemma nodup_snoc {A} (l : list A) x : NoDup l -> ~ In x l -> NoDup (l ++ [x]).
Proof.
  induction l; simpl; intros N H.
  - constructor; auto.
  - inversion N; subst. constructor.
    + intros Hin. apply in_app_or in Hin. destruct Hin as [?|[<-|[]]]; auto.
    + apply IHl; auto.
Qed.

Lemma nodup_app_inv {A} (a b : list A) : NoDup (a ++ b) -> NoDup a /\ NoDup b /\ forall x, In x a -> ~ In x b.
Proof.
  induction a; simpl; intros N.
  - repeat split; auto. constructor.
  - inversion N; subst. destruct (IHa H2) as [Na [Nb D]]. repeat split; auto.
    + constructor; auto. intros Hin. apply H1. apply in_or_app; auto.
    + intros x [<-|Hx] Hb. { apply H1. apply in_or_app; auto. } eapply D; eauto.
Qed.
