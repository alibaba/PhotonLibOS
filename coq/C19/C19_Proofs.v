(* C19_Proofs.v — every transition of the ObjectCache model preserves the invariant; consequences. *)
From Coq Require Import ZArith List Bool Arith Lia.
From PV Require Import Base.U64 C19.C19_Model C19.C19_Lib C19.C19_Step C19.C19_Inv.
Import ListNotations.
Local Open Scope Z_scope.

Lemma placeholder : True. Proof. exact I. Qed.

Lemma holder_pc s t th i it : Inv s -> nth_error (s_thr s) t = Some th -> pc_holds (t_pc th) i = 1%nat ->
  nth_error (s_items s) i = Some it -> i_live it = true /\ In i (s_set s) /\ 0 < i_ref it.
Proof.
  intros I Ht H Hi. destruct (thr_holds_pos s t th i I Ht) as (x & Hx & R). { unfold holds. lia. }
  assert (x = it) by congruence. subst x. exact R.
Qed.

(* the Item a transition dereferences is one its thread holds, is the pending recycler of, or owns: it is live *)
Lemma pc_item_live s t th i : Inv s -> nth_error (s_thr s) t = Some th -> pc_item (t_pc th) = Some i ->
  exists it, live_at s i it.
Proof.
  intros I Ht H.
  assert (A : (0 < holds th i)%nat \/ pc_recycler (t_pc th) i = true \/ (0 < pc_owns (t_pc th) i)%nat).
  { unfold holds. destruct (t_pc th) as [ | | | | | | |? ? [|?]| | | | | | | | | |[|? ?] ?]; try discriminate H;
      injection H as ->; simpl; rewrite ?Nat.eqb_refl; auto; try lia.
    right. right. destruct (Nat.eq_dec i i); [lia|congruence]. }
  destruct A as [A|[A|A]];
    [destruct (thr_holds_pos s t th i I Ht A) as (it & Hi & Li & _)
    |destruct (inv_recycler s I t th i Ht A) as (it & Hi & Li & _)
    |destruct (thr_owns_pos s t th i I Ht A) as (it & Hi & Li & _)]; exists it; split; assumption.
Qed.

(* frame steps: the obligations that are the same every time; Hpc : t_pc th = the pc before *)
Ltac fr I Ht Hpc :=
  eapply (frame _ _ _ _ _ I Ht);
  [ reflexivity
  | intros; unfold holds, handles_on; rewrite ?Hpc; simpl; try reflexivity; try lia
  | intros; rewrite ?Hpc; simpl; try reflexivity
  | intros; rewrite ?Hpc; simpl; try reflexivity
  | let Hq := fresh in intros ? ? Hq; simpl in Hq; try discriminate Hq
  | try apply items_eqv_refl
  | try reflexivity
  | simpl; try (intros; assumption)
  | simpl; try apply I
  | try reflexivity ].

Ltac ieqv Hi := simpl; apply (items_eqv_upd _ _ _ _ Hi); unfold item_eqv; simpl; repeat split; auto.

(* ref_acquire takes its reference on an item of the set that has no recycler pending *)
Lemma acq_inv s t th i it k ok y cd :
  Inv s -> nth_error (s_thr s) t = Some th -> t_pc th = PAcqFind k ok y cd ->
  nth_error (s_items s) i = Some it -> i_live it = true -> In i (s_set s) -> i_recycle it = None ->
  Inv (set_pc (set_item (set_list s (remove_id i (s_list s))) i (it_ref it (i_ref it + 1))) t th (PAcqLock i ok y cd MUTEX_RETRIES)).
Proof.
  intros I Ht Hpc Hi Li Si Ci.
  eapply (gen_inv s _ t th _ _ i it _ I Ht Hpc); try reflexivity; try assumption; simpl.
  - intros j Hj. destruct (Nat.eqb_spec j i); congruence.
  - rewrite Nat.eqb_refl. lia.
  - apply nodup_remove_id, I.
  - intros j Hj _. apply in_remove_id in Hj. tauto.
  - intros Hj. apply in_remove_id in Hj. tauto.
  - congruence.
  - discriminate.
  - discriminate.
  - destruct (inv_sem s I i it Hi Li) as [S0 S1]. split; [exact S0|]. intros H1. destruct (S1 H1). congruence.
Qed.

(* ref_release drops its reference (:128-142): it' is rel_item, possibly signalled or enqueued *)
Lemma rel1_inv s t th i it it' l' rc ds inacq :
  Inv s -> nth_error (s_thr s) t = Some th -> t_pc th = PRel1 i rc ds inacq ->
  nth_error (s_items s) i = Some it -> i_live it = true ->
  i_key it' = i_key it -> i_live it' = true -> i_ref it' = i_ref it - 1 -> i_recycle it' = i_recycle (rel_item t rc it) ->
  (l' = s_list s \/ (l' = remove_id i (s_list s) ++ [i] /\ i_ref it' = 0 /\ i_recycle it' = None)) ->
  (i_sem it' = i_sem it \/ (i_sem it' = i_sem it + 1 /\ i_ref it' = 0 /\ i_recycle it' <> None)) ->
  Inv (set_pc (set_list (set_item s i it') l') t th (rel_next rc it i ds inacq)).
Proof.
  intros I Ht Hpc Hi Li Hk Hl Hr Hc Hlist Hsem.
  destruct (holder_pc s t th i it I Ht) as (_ & Si & Ri); [rewrite Hpc; simpl; rewrite Nat.eqb_refl; reflexivity | exact Hi |].
  assert (NL : ~ In i (s_list s)).
  { intros H. destruct (inv_list s I i H) as [_ [x [Hx [Rx _]]]]. assert (x = it) by congruence. subst. lia. }
  assert (NX : (forall j, pc_holds (rel_next rc it i ds inacq) j = O) /\ (forall j, pc_owns (rel_next rc it i ds inacq) j = O) /\
               (forall j, pc_recycler (rel_next rc it i ds inacq) j = true -> j = i /\ i_recycle it' = Some t) /\
               (forall j ds', rel_next rc it i ds inacq <> PRelErase j ds') /\
               (i_recycle it <> None -> i_recycle it' = i_recycle it)).
  { rewrite Hc. unfold rel_next. destruct (rel_item_cases t rc it) as [[-> ->]|(-> & N & ->)]; simpl; repeat split; try discriminate; auto.
    - apply Nat.eqb_eq. assumption.
    - congruence. }
  destruct NX as (N1 & N2 & N3 & N4 & N5).
  eapply (gen_inv s _ t th _ _ i it it' I Ht Hpc); try reflexivity; try assumption; simpl.
  - intros j Hj. rewrite N1. destruct (Nat.eqb_spec j i); congruence.
  - rewrite N1, Nat.eqb_refl. lia.
  - destruct Hlist as [->|[-> _]]. { apply I. } apply nodup_snoc. { apply nodup_remove_id, I. }
    intros H. apply in_remove_id in H. tauto.
  - intros j Hj Hne. destruct Hlist as [->|[-> _]]; [exact Hj|]. apply in_app_or in Hj. destruct Hj as [Hj|[<-|[]]]; [|congruence].
    apply in_remove_id in Hj. tauto.
  - intros Hj. destruct Hlist as [->|[_ ?]]; tauto.
  - intros C. split; [exact (N5 C) | lia].
  - intros j Hj. right. exact (N3 j Hj).
  - intros j ds' Hq. destruct (N4 _ _ Hq).
  - destruct (inv_sem s I i it Hi Li) as [S0 S1]. unfold sem_ok. destruct Hsem as [->|(-> & R0 & C0)].
    + split; [exact S0|]. intros H. destruct (S1 H). lia.
    + split; [lia|auto].
Qed.

Theorem step_inv s t r : Inv s -> step s t = Some r -> Inv (r_st r).
Proof.
  intros I E. destruct (step_trans s t r E) as (th & Ht & T).
  destruct T as [ i Hp D | p p' Hpc M | k ok y cd rest Hpc | rest Hpc | h rc ds rest i Hpc Hh | rest e Hd | d rest Hpc
                | k ok y cd i Hpc F D | k ok y cd i it r0 Hpc F [Hi Li] C | k ok y cd i it Hpc F [Hi Li] C | k ok y cd Hpc F
                | i ok y cd it Hpc [Hi Li] M | i ok y cd it Hpc [Hi Li] M | i ok y cd it Hpc [Hi Li]
                | i it Hpc [Hi Li] | i it Hpc [Hi Li] | i it Hpc [Hi Li]
                | i rc ds inacq it Hpc [Hi Li] Z | i rc ds inacq it r0 Hpc [Hi Li] Z C | i rc ds inacq it Hpc [Hi Li] Z C
                | i ds it Hpc [Hi Li] Hs | i ds it Hpc [Hi Li] | i ds it Hpc [Hi Li] | i it Hpc [Hi Li] | i it Hpc [Hi Li]
                | ret h q Hpc B | kt zs l' set' Hpc X | z zs kt it Hpc [Hi Li] | r0 Hpc ].
  - exfalso. destruct (pc_item_live s t th i I Ht Hp) as (it & Hi & Li). specialize (D it Hi). congruence.
  - destruct M; fr I Ht Hpc.
  - fr I Ht Hpc.
  - fr I Ht Hpc.
  - fr I Ht Hpc. rewrite Nat.add_0_r. apply handles_upd_release, Hh.
  - destruct (t_pc th) eqn:Hpc; try (destruct zs; [destruct kt as [|? []|]|]); try (exfalso; exact Hd); fr I Ht Hpc.
  - fr I Ht Hpc.
  - exfalso. destruct (find_key_some _ _ _ _ F) as [Si _]. destruct (inv_set_live s I i Si) as (it & Hi & Li).
    specialize (D it Hi). congruence.
  - fr I Ht Hpc.
    + intros j Hj. apply in_remove_id in Hj. tauto.
    + apply nodup_remove_id, I.
  - apply (acq_inv s t th i it k ok y cd); auto. apply (find_key_some _ _ _ _ F).
  - apply (acq_inv _ t th (length (s_items s)) (new_item k) k ok y cd (alloc_inv s k I F) Ht Hpc); simpl; auto.
    + apply nth_app_new.
    + apply in_or_app. right. left. reflexivity.
  - destruct Hpc as [[n Hpc]|Hpc]; fr I Ht Hpc; ieqv Hi.
  - fr I Ht Hpc. ieqv Hi.
  - fr I Ht Hpc.
  - fr I Ht Hpc. ieqv Hi.
  - fr I Ht Hpc. ieqv Hi.
  - fr I Ht Hpc. ieqv Hi.
  - destruct (rel_item_fields t rc it) as (K & L & R & S).
    apply (rel1_inv s t th i it (rel_item t rc it) (s_list s) rc ds inacq I Ht Hpc Hi Li); auto; congruence.
  - destruct (rel_item_fields t rc it) as (K & L & R & S).
    apply (rel1_inv s t th i it (it_sem (rel_item t rc it) (i_sem (rel_item t rc it) + 1) false) (s_list s) rc ds inacq I Ht Hpc Hi Li);
      cbn; auto; try congruence.
    right. rewrite S, C. repeat split; auto. discriminate.
  - destruct (rel_item_fields t rc it) as (K & L & R & S).
    apply (rel1_inv s t th i it (it_enq (it_failure (rel_item t rc it) 0) (sat_add (s_now s) (s_lifespan s)) (s_now s))
                    (remove_id i (s_list s) ++ [i]) rc ds inacq I Ht Hpc Hi Li); cbn; auto; congruence.
  - destruct (inv_recycler s I t th i Ht) as (x & Hx & _ & Cx & Si); [rewrite Hpc; simpl; apply Nat.eqb_refl|].
    assert (x = it) by congruence. subst x.
    destruct (inv_sem s I i it Hi Li) as [S0 S1]. destruct (S1 Hs) as [R0 _].
    eapply (gen_inv s _ t th _ _ i it _ I Ht Hpc); try reflexivity; try assumption; simpl.
    + lia.
    + apply I.
    + auto.
    + intros H. destruct (inv_list s I i H) as (_ & y & Hy & _ & Cy). congruence.
    + auto.
    + auto.
    + intros j ds' Hq. injection Hq as <- <-. auto.
    + unfold sem_ok. simpl. split; [lia|]. intros H. apply S1. lia.
  - fr I Ht Hpc. ieqv Hi.
  - eapply (erase_inv s _ t th (th_pc th (PRelDelete i ds)) i ds it I Ht Hpc Hi); reflexivity.
  - apply (delete_inv s s t th _ _ i it it I Ht Hpc); auto; simpl; intros; rewrite ?Nat.eqb_refl; auto.
    destruct (Nat.eqb_spec j i); congruence.
  - apply (delete_inv s _ t th _ _ i it (it_obj it None) I Ht Hpc); auto; simpl; intros; rewrite ?Nat.eqb_refl; auto;
      try (destruct (i_obj it); reflexivity).
    destruct (Nat.eqb_spec j i); congruence.
  - eapply (frame s _ t th th I Ht); simpl; auto; try apply I; try apply items_eqv_refl.
    symmetry. apply upd_id; auto.
  - eapply (exp_inv s _ t th (th_pc th (PExpDel zs kt)) kt zs l' set' I Ht Hpc X); reflexivity.
  - apply (delete_inv s s t th _ _ z it it I Ht Hpc); auto; simpl; intros.
    + destruct (Nat.eq_dec z z); congruence.
    + destruct (Nat.eq_dec z j); congruence.
  - eapply (frame s _ t th _ I Ht);
      [reflexivity | | intros; rewrite Hpc; reflexivity | intros; rewrite Hpc; reflexivity
      | intros ? ? Hq; discriminate Hq | apply items_eqv_refl | reflexivity | auto | apply I | reflexivity].
    intros j. unfold holds. rewrite Hpc, !handles_on_eq. simpl t_h. rewrite handles_app. simpl. destruct r0; simpl; lia.
Qed.

Inductive reachable (s0 : state) : state -> Prop :=
| reach_init : reachable s0 s0
| reach_step s t r : reachable s0 s -> step s t = Some r -> reachable s0 (r_st r).

Lemma init_inv now life lim progs : Inv (init_state now life lim progs).
Proof.
  assert (Z0 : forall f, (forall p, f (init_thr p) = O) -> sumf f (map init_thr progs) = O).
  { intros f H. induction progs; simpl; [reflexivity|]. rewrite H, IHprogs. reflexivity. }
  constructor; simpl.
  - reflexivity.
  - intros i. unfold total_holds, refz; simpl. rewrite Z0; [|reflexivity]. destruct i; reflexivity.
  - intros i H; contradiction.
  - intros i j it jt H; contradiction.
  - constructor.
  - intros i H; contradiction.
  - constructor.
  - intros i it H. destruct i; discriminate.
  - intros i _. unfold total_owns; simpl. apply Z0. reflexivity.
  - intros t th i Hn Hp. apply nth_error_In in Hn. apply in_map_iff in Hn. destruct Hn as [p [<- _]]. discriminate.
  - intros t th i ds Hn Hp. apply nth_error_In in Hn. apply in_map_iff in Hn. destruct Hn as [p [<- _]]. discriminate.
  - intros i it H. destruct i; discriminate.
Qed.

Theorem reachable_inv now life lim progs s : reachable (init_state now life lim progs) s -> Inv s.
Proof. induction 1. - apply init_inv. - eapply step_inv; eauto. Qed.

(* the cooperative single-vCPU run is a run of the same transition system *)
Lemma coop_run_reachable s0 : forall fuel s rq, reachable s0 s -> reachable s0 (fst (fst (coop_run fuel s rq))).
Proof.
  induction fuel; simpl; intros s rq R; auto.
  destruct rq as [|t rest]; simpl; auto.
  destruct (step s t) as [r|] eqn:E; auto.
  destruct (r_eff r); apply IHfuel; eapply reach_step; eauto.
Qed.

(* a thread "holds a reference to item i": it has a handle on i whose release has not been called, or it is
   inside ref_acquire after refcnt++ (constructing / waiting for the constructor), or inside ref_release before refcnt-- *)
Definition holder (s : state) (t : tid) (i : iid) : Prop :=
  exists th, nth_error (s_thr s) t = Some th /\ (0 < holds th i)%nat.

(* all holders of one key share one Item (hence one object) *)
Lemma one_object_per_key now life lim progs s t1 t2 i1 i2 it1 it2 :
  reachable (init_state now life lim progs) s -> holder s t1 i1 -> holder s t2 i2 ->
  nth_error (s_items s) i1 = Some it1 -> nth_error (s_items s) i2 = Some it2 -> i_key it1 = i_key it2 -> i1 = i2.
Proof.
  intros R [th1 [H1 P1]] [th2 [H2 P2]] N1 N2 K. pose proof (reachable_inv _ _ _ _ _ R) as I.
  destruct (thr_holds_pos s t1 th1 i1 I H1 P1) as [x1 [X1 [_ [S1 _]]]].
  destruct (thr_holds_pos s t2 th2 i2 I H2 P2) as [x2 [X2 [_ [S2 _]]]].
  eapply (inv_set_key s I i1 i2 it1 it2); eauto.
Qed.

(* the hypotheses of the clauses are met by concrete reachable states *)
Definition ex_progs : list (list op) :=
  [[OpAcquire 7%nat true 1%nat 0; OpYield; OpRelease 0%nat true false]; [OpAcquire 7%nat true 0%nat 0; OpRelease 0%nat false true]].
Definition ex_state (fuel : nat) : state := fst (fst (coop_run fuel (init_state 1000 50 MAX64 ex_progs) [0%nat; 1%nat])).
Lemma ex_reachable fuel : reachable (init_state 1000 50 MAX64 ex_progs) (ex_state fuel).
Proof. apply coop_run_reachable. constructor. Qed.
(* after 14 steps both threads hold item 0 (thread 1 is waiting for thread 0's constructor) *)
Example ex_two_holders : holder (ex_state 14) 0%nat 0%nat /\ holder (ex_state 14) 1%nat 0%nat.
Proof. split; eexists; (split; [vm_compute; reflexivity | vm_compute; lia]). Qed.
(* later thread 0 is the pending recycler of item 0 *)
Example ex_recycler : exists fuel th ds, nth_error (s_thr (ex_state fuel)) 0%nat = Some th /\ t_pc th = PRelErase 0%nat ds.
Proof. exists 28%nat. vm_compute. eexists; eexists; split; reflexivity. Qed.
