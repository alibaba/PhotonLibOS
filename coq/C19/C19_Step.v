(* C19_Step.v — the transitions of `step` as a relation: one constructor per kind of transition, the new
   state in closed form.  The invariants (C19_Proofs, C19_Mtx, C19_Time) are proved by cases on it.
   It is an over-approximation that forgets what no invariant looks at: r_eff, r_wake, the program text
   (which operation starts, what is left of the program), the event logged by an operation that completes
   at once, and why a mutex spin or a skipped constructor took the branch it took. *)
From Coq Require Import ZArith List Bool Arith Lia.
From PV Require Import Base.U64 C19.C19_Model C19.C19_Lib.
Import ListNotations.
Local Open Scope Z_scope.

Definition live_at (s : state) (i : iid) (it : item) : Prop := nth_error (s_items s) i = Some it /\ i_live it = true.
Definition dead_at (s : state) (i : iid) : Prop := forall it, nth_error (s_items s) i = Some it -> i_live it = false.

Lemma with_item_ok s i f it : nth_error (s_items s) i = Some it -> i_live it = true -> with_item s i f = f it.
Proof. intros H L. unfold with_item. rewrite H, L. reflexivity. Qed.

Lemma with_item_inv s i f r : with_item s i f = Some r ->
  (dead_at s i /\ r_st r = set_bad s) \/ exists it, live_at s i it /\ f it = Some r.
Proof.
  unfold with_item, live_at, dead_at.
  destruct (nth_error (s_items s) i) as [it|]; [destruct (i_live it) eqn:L|]; intros E.
  - right. eauto.
  - left. injection E as <-. split; [congruence | reflexivity].
  - left. injection E as <-. split; [discriminate | reflexivity].
Qed.

Lemma delete_item_fields s t i it :
  s_items (delete_item s t i it) = upd (s_items s) i (it_dead it) /\ s_set (delete_item s t i it) = s_set s /\
  s_list (delete_item s t i it) = s_list s /\ s_thr (delete_item s t i it) = s_thr s /\ s_bad (delete_item s t i it) = s_bad s /\
  s_now (delete_item s t i it) = s_now s /\ s_lifespan (delete_item s t i it) = s_lifespan s.
Proof. unfold delete_item. destruct (i_obj it); simpl; auto 8. Qed.

(* the Item a transition at this pc dereferences *)
Definition pc_item (p : pc) : option iid :=
  match p with
  | PAcqLock i _ _ _ _ | PAcqSlow i _ _ _ | PAcqSleepM i _ _ _ | PAcqCheck i _ _ _ | PAcqCtor i _ O
  | PAcqUnlock i | PAcqRead i | PRel1 i _ _ _ | PRelSem i _ | PRelSemSleep i _ | PRelErase i _
  | PRelDelete i _ | PExpDel (i :: _) _ => Some i
  | _ => None
  end.

(* transitions that change nothing but the acting thread's pc *)
Inductive pc_move (s : state) (t : tid) : pc -> pc -> Prop :=
| M_unpark k ok y cd : mem_id t (s_blockq s) = false -> pc_move s t (PAcqParked k ok y cd) (PAcqFind k ok y cd)
| M_spin i ok y cd n : pc_move s t (PAcqLock i ok y cd (S n)) (PAcqLock i ok y cd n)
| M_slow i ok y cd : pc_move s t (PAcqLock i ok y cd O) (PAcqSlow i ok y cd)
| M_handed i ok y cd it : live_at s i it -> i_mtx it = Some t -> pc_move s t (PAcqSleepM i ok y cd) (PAcqCheck i ok y cd)
| M_no_ctor i ok y cd : pc_move s t (PAcqCheck i ok y cd) (PAcqUnlock i)
| M_ctor_yield i ok y : pc_move s t (PAcqCtor i ok (S y)) (PAcqCtor i ok y)
| M_read_obj i : pc_move s t (PAcqRead i) (PExp (KAcq (Some i)))
| M_read_null i : pc_move s t (PAcqRead i) (PRel1 i false true true)
| M_sem_woken i ds : pc_move s t (PRelSemSleep i ds) (PRelSem i ds)
| M_notified ret : s_blockq s = [] -> pc_move s t (PRelNotify ret) (PExp (KRel ret false))
| M_acq_null ret : pc_move s t (PExpDel [] (KRel ret true)) (PExp (KAcq None)).

(* ref_release :129-133: the item after `if (_recycle) recycle = false; else if (recycle) _recycle = &sem; _refcnt--` *)
Definition rel_recycles (rc : bool) (it : item) : bool := match i_recycle it with Some _ => false | None => rc end.
Definition rel_item (t : tid) (rc : bool) (it : item) : item :=
  let it1 := if rel_recycles rc it then it_recycle it (Some t) else it in it_ref it1 (i_ref it1 - 1).
Definition rel_next (rc : bool) (it : item) (i : iid) (ds inacq : bool) : pc :=
  if rel_recycles rc it then PRelSem i ds else PExp (KRel None inacq).

Arguments rel_item : simpl never.
Arguments rel_next : simpl never.

Lemma rel_item_cases t rc it :
  (rel_recycles rc it = false /\ rel_item t rc it = it_ref it (i_ref it - 1)) \/
  (rel_recycles rc it = true /\ i_recycle it = None /\ rel_item t rc it = it_ref (it_recycle it (Some t)) (i_ref it - 1)).
Proof. unfold rel_item, rel_recycles. destruct (i_recycle it); [|destruct rc]; auto. Qed.

(* it changes nothing but _refcnt and _recycle *)
Lemma rel_item_eq t rc it : rel_item t rc it = it_ref (it_recycle it (i_recycle (rel_item t rc it))) (i_ref it - 1).
Proof. destruct (rel_item_cases t rc it) as [[_ E]|(_ & _ & E)]; rewrite E; destruct it; reflexivity. Qed.

Lemma rel_item_fields t rc it :
  i_key (rel_item t rc it) = i_key it /\ i_live (rel_item t rc it) = i_live it /\
  i_ref (rel_item t rc it) = i_ref it - 1 /\ i_sem (rel_item t rc it) = i_sem it.
Proof. rewrite rel_item_eq. auto. Qed.

Definition op_done (p : pc) : Prop :=
  match p with PIdle | PExpDel [] (KRel _ false) | PExpDel [] KExp => True | _ => False end.

Inductive trans (s : state) (t : tid) (th : thr) : state -> Prop :=
| T_bad i : pc_item (t_pc th) = Some i -> dead_at s i -> trans s t th (set_bad s)
| T_move p p' : t_pc th = p -> pc_move s t p p' -> trans s t th (set_pc s t th p')
| T_acquire k ok y cd rest : t_pc th = PIdle ->
    trans s t th (set_thr s (upd (s_thr s) t (mkThr (PAcqFind k ok y cd) rest (t_idx th) (t_h th))))
| T_expire rest : t_pc th = PIdle ->
    trans s t th (set_thr s (upd (s_thr s) t (mkThr (PExp KExp) rest (t_idx th) (t_h th))))
| T_release h rc ds rest i : t_pc th = PIdle -> nth_error (t_h th) h = Some (Some i, false) ->
    trans s t th (add_log (set_thr s (upd (s_thr s) t
      (mkThr (PRel1 i rc ds false) rest (t_idx th) (upd (t_h th) h (Some i, true))))) (EvRelCall t (t_idx th)))
| T_done rest e : op_done (t_pc th) ->
    trans s t th (add_log (set_thr s (upd (s_thr s) t (mkThr PIdle rest (S (t_idx th)) (t_h th)))) e)
| T_tick d rest : t_pc th = PIdle ->
    trans s t th (add_log (set_now (set_thr s (upd (s_thr s) t (mkThr PIdle rest (S (t_idx th)) (t_h th))))
                                   (sat_add (s_now s) (Z.abs d))) (EvTick t (t_idx th)))
| T_find_bad k ok y cd i : t_pc th = PAcqFind k ok y cd -> find_key (s_items s) (s_set s) k = Some i ->
    dead_at s i -> trans s t th (set_bad (set_list s (remove_id i (s_list s))))
| T_find_park k ok y cd i it r : t_pc th = PAcqFind k ok y cd -> find_key (s_items s) (s_set s) k = Some i ->
    live_at s i it -> i_recycle it = Some r ->
    trans s t th (set_pc (set_blockq (set_list s (remove_id i (s_list s))) (s_blockq s ++ [t])) t th (PAcqParked k ok y cd))
| T_find_ref k ok y cd i it : t_pc th = PAcqFind k ok y cd -> find_key (s_items s) (s_set s) k = Some i ->
    live_at s i it -> i_recycle it = None ->
    trans s t th (set_pc (set_item (set_list s (remove_id i (s_list s))) i (it_ref it (i_ref it + 1))) t th
                         (PAcqLock i ok y cd MUTEX_RETRIES))
| T_find_new k ok y cd : t_pc th = PAcqFind k ok y cd -> find_key (s_items s) (s_set s) k = None ->
    trans s t th (set_pc (set_item (set_list (set_set (set_items s (s_items s ++ [new_item k])) (s_set s ++ [length (s_items s)]))
                                             (remove_id (length (s_items s)) (s_list s)))
                                   (length (s_items s)) (it_ref (new_item k) 1)) t th
                         (PAcqLock (length (s_items s)) ok y cd MUTEX_RETRIES))
| T_mtx_take i ok y cd it : (exists n, t_pc th = PAcqLock i ok y cd n) \/ t_pc th = PAcqSlow i ok y cd ->
    live_at s i it -> i_mtx it = None ->
    trans s t th (set_pc (set_item s i (it_mtx it (Some t) (i_mq it))) t th (PAcqCheck i ok y cd))
| T_mtx_sleep i ok y cd it : t_pc th = PAcqSlow i ok y cd -> live_at s i it -> i_mtx it <> None ->
    trans s t th (set_pc (set_item s i (it_mtx it (i_mtx it) (i_mq it ++ [t]))) t th (PAcqSleepM i ok y cd))
| T_ctor_begin i ok y cd it : t_pc th = PAcqCheck i ok y cd -> live_at s i it ->
    trans s t th (add_log (set_pc s t th (PAcqCtor i ok y)) (EvCtorBegin t (i_key it)))
| T_ctor_ok i it : t_pc th = PAcqCtor i true O -> live_at s i it ->
    trans s t th (add_log (set_pc (set_objs (set_item s i (it_obj it (Some (length (s_objs s)))))
                                            (s_objs s ++ [(i_key it, OLive)])) t th (PAcqUnlock i))
                          (EvCtorEnd t (i_key it) (Some (length (s_objs s)))))
| T_ctor_fail i it : t_pc th = PAcqCtor i false O -> live_at s i it ->
    trans s t th (add_log (set_pc (set_item s i (it_failure it (s_now s))) t th (PAcqUnlock i)) (EvCtorEnd t (i_key it) None))
| T_unlock i it : t_pc th = PAcqUnlock i -> live_at s i it ->
    trans s t th (set_pc (set_item s i (it_mtx it (hd_error (i_mq it)) (tl (i_mq it)))) t th (PAcqRead i))
| T_rel_more i rc ds inacq it : t_pc th = PRel1 i rc ds inacq -> live_at s i it -> i_ref (rel_item t rc it) <> 0 ->
    trans s t th (set_pc (set_item s i (rel_item t rc it)) t th (rel_next rc it i ds inacq))
| T_rel_signal i rc ds inacq it r : t_pc th = PRel1 i rc ds inacq -> live_at s i it -> i_ref (rel_item t rc it) = 0 ->
    i_recycle (rel_item t rc it) = Some r ->
    trans s t th (set_pc (set_item s i (it_sem (rel_item t rc it) (i_sem (rel_item t rc it) + 1) false)) t th
                         (rel_next rc it i ds inacq))
| T_rel_enqueue i rc ds inacq it : t_pc th = PRel1 i rc ds inacq -> live_at s i it -> i_ref (rel_item t rc it) = 0 ->
    i_recycle (rel_item t rc it) = None ->
    trans s t th (set_pc (set_list (set_item s i (it_enq (it_failure (rel_item t rc it) 0) (sat_add (s_now s) (s_lifespan s)) (s_now s)))
                                   (remove_id i (s_list s) ++ [i])) t th (rel_next rc it i ds inacq))
| T_sem_take i ds it : t_pc th = PRelSem i ds -> live_at s i it -> 1 <= i_sem it ->
    trans s t th (set_pc (set_item s i (it_sem it (i_sem it - 1) false)) t th (PRelErase i ds))
| T_sem_sleep i ds it : t_pc th = PRelSem i ds -> live_at s i it ->
    trans s t th (set_pc (set_item s i (it_sem it (i_sem it) true)) t th (PRelSemSleep i ds))
| T_erase i ds it : t_pc th = PRelErase i ds -> live_at s i it ->
    trans s t th (set_pc (set_set s (erase_key (s_items s) (s_set s) (i_key it))) t th (PRelDelete i ds))
| T_delete i it : t_pc th = PRelDelete i true -> live_at s i it ->
    trans s t th (set_pc (delete_item s t i it) t th (PRelNotify None))
| T_hand_over i it : t_pc th = PRelDelete i false -> live_at s i it ->
    trans s t th (set_pc (delete_item (match i_obj it with Some o => set_objs s (obj_set (s_objs s) o OHanded) | None => s end)
                                      t i (it_obj it None)) t th
                         (PRelNotify (match i_obj it with Some o => Some (o, refs_on s i) | None => None end)))
| T_notify ret h q : t_pc th = PRelNotify ret -> s_blockq s = h :: q -> trans s t th (set_blockq s q)
| T_exp kt zs l' set' : t_pc th = PExp kt ->
    exp_split (s_items s) (s_now s) (s_numlimit s) (s_list s) (s_set s) = (zs, l', set') ->
    trans s t th (set_pc (set_set (set_list s l') set') t th (PExpDel zs kt))
| T_exp_delete z zs kt it : t_pc th = PExpDel (z :: zs) kt -> live_at s z it ->
    trans s t th (set_pc (delete_item s t z it) t th (PExpDel zs kt))
| T_acquired r : t_pc th = PExpDel [] (KAcq r) ->
    trans s t th (add_log (set_thr s (upd (s_thr s) t (mkThr PIdle (t_prog th) (S (t_idx th)) (t_h th ++ [(r, false)]))))
                          (EvAcq t (t_idx th) (match r with
                                               | Some i => match nth_error (s_items s) i with Some it => i_obj it | None => None end
                                               | None => None end))).

Lemma step_trans s t r : step s t = Some r -> exists th, nth_error (s_thr s) t = Some th /\ trans s t th (r_st r).
Proof.
  unfold step, get_thr. destruct (nth_error (s_thr s) t) as [th|]; [|discriminate]. intros E. exists th. split; [reflexivity|].
  destruct (t_pc th) eqn:Hpc;
    try (apply with_item_inv in E as [[D ->]|(it & L & E)];
         [apply (T_bad s t th i); [rewrite Hpc; reflexivity | exact D] | cbv beta zeta in E]).
  - destruct (t_prog th) as [|[k ok y cd|h rc ds| | |d] rest]; [discriminate|..].
    + injection E as <-. apply T_acquire, Hpc.
    + destruct (nth_error (t_h th) h) as [[[i|] [|]]|] eqn:Hh; injection E as <-;
        (apply T_release; assumption) || (apply T_done; rewrite Hpc; exact I).
    + injection E as <-. apply T_expire, Hpc.
    + injection E as <-. apply T_done. rewrite Hpc. exact I.
    + injection E as <-. apply T_tick, Hpc.
  - destruct (find_key (s_items s) (s_set s) k) as [i|] eqn:F; cbv beta iota zeta in E.
    + apply with_item_inv in E as [[D ->]|(it & L & E)]; [eapply T_find_bad; eassumption|].
      destruct (i_recycle it) eqn:C; injection E as <-; [eapply T_find_park | eapply T_find_ref]; eassumption.
    + unfold with_item in E. simpl in E. rewrite nth_app_new in E. injection E as <-.
      exact (T_find_new s t th k ok y cd Hpc F).
  - destruct (mem_id t (s_blockq s)) eqn:M; [discriminate|]. injection E as <-. apply (T_move s t th _ _ Hpc). constructor. exact M.
  - destruct (i_mtx it) eqn:M; [destruct n|]; injection E as <-.
    + apply (T_move s t th _ _ Hpc). constructor.
    + apply (T_move s t th _ _ Hpc). constructor.
    + eapply T_mtx_take; eauto.
  - destruct (i_mtx it) eqn:M; injection E as <-.
    + rewrite <- M. eapply T_mtx_sleep; eauto. congruence.
    + eapply T_mtx_take; eauto.
  - destruct (i_mtx it) as [o|] eqn:M; [|discriminate]. destruct (Nat.eqb_spec o t); [|discriminate]. injection E as <-.
    apply (T_move s t th _ _ Hpc), (M_handed s t i ok y cd it L). congruence.
  - destruct (i_obj it); [|destruct (i_failure it <=? sat_sub (s_now s) cd)]; injection E as <-;
      (eapply T_ctor_begin; eassumption) || (apply (T_move s t th _ _ Hpc); constructor).
  - destruct y.
    + apply with_item_inv in E as [[D ->]|(it & L & E)]; [apply (T_bad s t th i); [rewrite Hpc; reflexivity | exact D] |].
      destruct ok; injection E as <-; [eapply T_ctor_ok | eapply T_ctor_fail]; eassumption.
    + injection E as <-. apply (T_move s t th _ _ Hpc). constructor.
  - replace (r_st r) with (set_pc (set_item s i (it_mtx it (hd_error (i_mq it)) (tl (i_mq it)))) t th (PAcqRead i))
      by (destruct (i_mq it); injection E as <-; reflexivity).
    apply T_unlock; assumption.
  - destruct (i_obj it); injection E as <-; apply (T_move s t th _ _ Hpc); constructor.
  - match type of E with (if ?c then _ else _) = _ => destruct c eqn:Z end.
    + apply Z.eqb_eq in Z. match type of E with match ?c with _ => _ end = _ => destruct c eqn:C end; injection E as <-.
      * exact (T_rel_signal s t th i recycle destroy inacq it _ Hpc L Z C).
      * exact (T_rel_enqueue s t th i recycle destroy inacq it Hpc L Z C).
    + apply Z.eqb_neq in Z. injection E as <-. exact (T_rel_more s t th i recycle destroy inacq it Hpc L Z).
  - destruct (Z.leb_spec 1 (i_sem it)); injection E as <-; [eapply T_sem_take | eapply T_sem_sleep]; eassumption.
  - destruct (i_semwait it); [discriminate|]. injection E as <-. apply (T_move s t th _ _ Hpc). constructor.
  - injection E as <-. eapply T_erase; eassumption.
  - destruct destroy; injection E as <-; [eapply T_delete | eapply T_hand_over]; eassumption.
  - destruct (s_blockq s) eqn:B; injection E as <-.
    + apply (T_move s t th _ _ Hpc). constructor. exact B.
    + eapply T_notify; eassumption.
  - destruct (exp_split (s_items s) (s_now s) (s_numlimit s) (s_list s) (s_set s)) as [[zs l'] set'] eqn:X.
    injection E as <-. eapply T_exp; eassumption.
  - destruct zs as [|z zs].
    + destruct kt as [r0|ret [|]|]; injection E as <-.
      * apply T_acquired, Hpc.
      * apply (T_move s t th _ _ Hpc). constructor.
      * apply T_done. rewrite Hpc. exact I.
      * apply T_done. rewrite Hpc. exact I.
    + apply with_item_inv in E as [[D ->]|(it & L & E)]; [apply (T_bad s t th z); [rewrite Hpc; reflexivity | exact D] |].
      injection E as <-. eapply T_exp_delete; eassumption.
Qed.
