(* C13_ChunkDecode.v — functional correctness of ChunkedBodyReadStream on every valid encoding,
   every fragmentation and every read sizes.  Termination and the absence of out-of-range
   accesses come from C13_ChunkTotal (for arbitrary bytes); here every lemma says what a call
   returned, given that it returned, and that the state satisfies the grammar invariant. *)
From Coq Require Import ZArith List Bool Lia.
From PV Require Import Base.U64 C13.C13_Model C13.C13_Proofs C13.C13_ChunkSafe C13.C13_ChunkTotal.
Import ListNotations.
Local Open Scope Z_scope.

Definition CRLF : bytes := [13; 10].

(* the position found in a ++ b is found in a alone iff both bytes are in a *)
Lemma find_crlf_prefix a : forall b k, find_crlf (a ++ b) = Some k ->
  (k + 2 <= zlen a -> find_crlf a = Some k) /\ (zlen a < k + 2 -> find_crlf a = None).
Proof.
  induction a as [|c t IH]; intros b k H.
  - pose proof (find_crlf_bound _ _ H). cbn. split; [lia|reflexivity].
  - destruct t as [|d' t'].
    + (* a = [c] *) rewrite zlen_cons, zlen_nil. cbn [find_crlf]. split; [|reflexivity]. intros Hk.
      cbn [app] in H. destruct b as [|d r]; [discriminate|]. rewrite find_crlf_cons2 in H.
      destruct ((c =? 13) && (d =? 10)); [inversion H; lia|].
      destruct (find_crlf (d :: r)) as [j|] eqn:Hj; [|discriminate].
      pose proof (find_crlf_bound _ _ Hj). inversion H. lia.
    + change ((c :: d' :: t') ++ b) with (c :: d' :: (t' ++ b)) in H.
      rewrite find_crlf_cons2 in H. rewrite find_crlf_cons2.
      rewrite (zlen_cons c). pose proof (zlen_nonneg (d' :: t')). pose proof (zlen_nonneg t').
      destruct ((c =? 13) && (d' =? 10)).
      * inversion H; subst. rewrite zlen_cons in *. split; [reflexivity|lia].
      * change (d' :: t' ++ b) with ((d' :: t') ++ b) in H.
        destruct (find_crlf ((d' :: t') ++ b)) as [j|] eqn:Hj; [|discriminate].
        inversion H; subst k. specialize (IH b j Hj).
        destruct IH as [I1 I2]. split; intros Hk.
        -- rewrite I1 by lia. reflexivity.
        -- rewrite I2 by lia. reflexivity.
Qed.

Lemma find_crlf_app a b : forall k, find_crlf a = Some k -> find_crlf (a ++ b) = Some k.
Proof.
  induction a as [|c t IH]; intros k H; [discriminate|].
  destruct t as [|d t']; [discriminate|].
  change ((c :: d :: t') ++ b) with (c :: d :: (t' ++ b)).
  rewrite find_crlf_cons2 in *.
  destruct ((c =? 13) && (d =? 10)); [exact H|].
  destruct (find_crlf (d :: t')) as [j|] eqn:Hj; [|discriminate].
  change (d :: t' ++ b) with ((d :: t') ++ b). rewrite (IH j eq_refl). exact H.
Qed.

Lemma find_crlf_crlf b : find_crlf (CRLF ++ b) = Some 0.
Proof. reflexivity. Qed.

Lemma find_crlf_no_cr l : Forall (fun c => c <> 13) l -> find_crlf (l ++ CRLF) = Some (zlen l).
Proof.
  induction 1 as [|c t Hc Ht IH]; [reflexivity|].
  cbn [app]. destruct (t ++ CRLF) as [|d r] eqn:E.
  - destruct t; discriminate.
  - rewrite find_crlf_cons2. destruct (Z.eqb_spec c 13); [contradiction|]. cbn [andb].
    rewrite IH, zlen_cons. f_equal. lia.
Qed.

(* a chunk-size line as the reader accepts it: leading hex digits (value v), then anything
   (a chunk extension) without CR LF; at most 4096 bytes including its CR LF *)
Definition size_line (line : bytes) (v : Z) : Prop :=
  hex_to_u64 line = v /\ find_crlf (line ++ CRLF) = Some (zlen line) /\ zlen line + 2 <= LINE_BUFFER_SIZE.

(* what the reader accepts when m_chunked_remain = 0: any number of empty lines, then a
   size line; after the data of a chunk the same state is reached again *)
Inductive G0 : bytes -> bytes -> Prop :=
| G0_crlf I p : G0 I p -> G0 (CRLF ++ I) p
| G0_last line : line <> [] -> size_line line 0 -> G0 (line ++ CRLF ++ CRLF) []
| G0_chunk line data I p : 0 < zlen data < W64 -> size_line line (zlen data) -> G0 I p ->
    G0 (line ++ CRLF ++ data ++ I) (data ++ p).
(* ... and when m_chunked_remain = k *)
Definition GR (k : Z) (I payload : bytes) : Prop :=
  exists data I' p', I = data ++ I' /\ zlen data = k /\ payload = data ++ p' /\ G0 I' p'.

Lemma GR_0 I p : G0 I p -> GR 0 I p.
Proof. intros H. exists [], I, p. splits; try reflexivity. exact H. Qed.
Lemma GR_0_inv I p : GR 0 I p -> G0 I p.
Proof.
  intros (d & I' & p' & -> & Hl & -> & H). apply zlen_zero_nil in Hl. subst. exact H.
Qed.

Lemma app_prefix_take {A} (a x b y : list A) :
  a ++ x = b ++ y -> zlen b <= zlen a -> ztake (zlen b) a = b /\ zdrop (zlen b) a ++ x = y.
Proof.
  intros H Hl. pose proof (zlen_nonneg b). split.
  - rewrite <- (ztake_app_le _ a x), H, ztake_app_ge, Z.sub_diag by lia. apply app_nil_r.
  - rewrite <- (zdrop_app_le _ a x), H, zdrop_app_ge, Z.sub_diag by lia. reflexivity.
Qed.

(* the first line of an accepted input: an empty line or the size line of a chunk, after which
   the rest is accepted with that many bytes of data first; or the last size line *)
Lemma G0_line I payload : G0 I payload ->
  exists l rest, I = l ++ CRLF ++ rest /\ find_crlf I = Some (zlen l) /\ zlen l + 2 <= LINE_BUFFER_SIZE /\
    ((GR (hex_to_u64 l) rest payload /\ hex_to_u64 l < W64 /\ (l = [] \/ 0 < hex_to_u64 l))
     \/ (l <> [] /\ hex_to_u64 l = 0 /\ rest = CRLF /\ payload = [])).
Proof.
  intros H. destruct H as [I p H|line Hne (Hh & Hf & Hl)|line data I p Hd (Hh & Hf & Hl) H].
  - exists [], I. splits; try reflexivity; [cbn; unfold LINE_BUFFER_SIZE; lia|].
    left. splits; [apply GR_0; exact H|reflexivity|left; reflexivity].
  - exists line, CRLF. splits; try reflexivity; [|exact Hl|right; splits; auto].
    rewrite app_assoc. apply find_crlf_app. exact Hf.
  - exists line, (data ++ I). splits; try reflexivity; [|exact Hl|].
    + rewrite app_assoc. apply find_crlf_app. exact Hf.
    + left. rewrite Hh. splits; [|lia|right; lia]. exists data, I, p. splits; auto.
Qed.

Lemma G0_len I p : G0 I p -> 2 <= zlen I.
Proof.
  intros H. destruct (G0_line _ _ H) as (l & rest & -> & _). rewrite !zlen_app. change (zlen CRLF) with 2.
  pose proof (zlen_nonneg l). pose proof (zlen_nonneg rest). lia.
Qed.

Lemma GR_advance k I payload n : GR k I payload -> 0 <= n <= k ->
  ztake n I = ztake n payload /\ GR (k - n) (zdrop n I) (zdrop n payload).
Proof.
  intros (d & I' & p' & -> & Hl & -> & HG) Hn. split.
  - rewrite !ztake_app_le by lia. reflexivity.
  - exists (zdrop n d), I', p'. rewrite !zdrop_app_le by lia. splits; auto.
    rewrite zlen_zdrop by lia. lia.
Qed.
Lemma GR_len k I payload : GR k I payload -> k <= zlen payload /\ k <= zlen I.
Proof.
  intros (d & I' & p' & -> & Hl & -> & _). rewrite !zlen_app.
  pose proof (zlen_nonneg p'). pose proof (zlen_nonneg I'). lia.
Qed.

(* what the reader has not consumed yet: the rest of the line buffer, then the socket *)
Definition inp (s : crs) : bytes := zdrop (c_cursor s) (c_line s) ++ concat (c_ps s).
Definition Inv (s : crs) (payload : bytes) : Prop :=
  WFa s /\ c_err s = false /\ c_finish s = false /\ c_remain s < W64 /\ GR (c_remain s) (inp s) payload.
(* between two calls: the invariant, or everything has been delivered *)
Definition Post (s : crs) (payload : bytes) : Prop := Inv s payload \/ (c_finish s = true /\ payload = []).

Lemma Post_Inv s payload : Post s payload -> c_finish s = false -> Inv s payload.
Proof. intros [H|[H _]] Hf; [exact H|congruence]. Qed.

Lemma reset_fields s : let s' := reset_if_end s in
  c_err s' = c_err s /\ c_finish s' = c_finish s /\ c_remain s' = c_remain s
  /\ inp s' = inp s.
Proof.
  unfold reset_if_end. destruct (Z.eqb_spec (c_cursor s) (lsize s)) as [E|E]; cbn zeta; splits; auto.
  unfold inp, lsize in *. cbn. rewrite zdrop_all by lia. reflexivity.
Qed.
Lemma Post_reset s payload : Post s payload -> Post (reset_if_end s) payload.
Proof.
  destruct (reset_fields s) as (He & Hf & Hr & Hi).
  intros [(HW & H1 & H2 & H3 & H4)|[H1 H2]]; [left|right; split; congruence].
  unfold Inv. rewrite He, Hf, Hr, Hi. splits; auto. apply WFa_reset. exact HW.
Qed.
Lemma Inv_compact s payload : Inv s payload -> Inv (compact s) payload.
Proof.
  intros (HW & H). split; [apply WFa_compact; exact HW|].
  unfold inp, compact, set_line in *. cbn [c_line c_cursor c_err c_finish c_remain c_ps].
  rewrite (zdrop_nonpos 0) by lia. exact H.
Qed.

(* pos_next_chunk at the cursor, input accepted by G0: an incomplete line is left alone; a
   complete one is consumed and sets the chunk size, or finishes the stream *)
Lemma pnc_spec s payload b s' :
  WFa s -> c_err s = false -> c_finish s = false -> G0 (inp s) payload ->
  pos_next_chunk s (c_cursor s) = Some (b, s') ->
  if b then Post s' payload /\ (c_finish s' = true -> c_remain s' = 0)
  else s' = s /\ find_crlf (zdrop (c_cursor s) (c_line s)) = None.
Proof.
  intros HW Herr Hfin HG E. pose proof HW as (Hcur & Hls & Hcap & Hrem).
  destruct (G0_line _ _ HG) as (l & rest & HI & Hfind & Hll & Hcase).
  set (R := zdrop (c_cursor s) (c_line s)) in *. unfold inp in HI, Hfind. fold R in HI, Hfind.
  assert (HR : zlen R = lsize s - c_cursor s) by (unfold R; rewrite zlen_zdrop; unfold lsize in *; lia).
  pose proof (zlen_nonneg l) as Hl0.
  destruct (find_crlf_prefix R _ _ Hfind) as [Pin Pout].
  generalize (pnc_cases s (c_cursor s)). cbv zeta. fold R.
  destruct (Z.ltb_spec (c_cursor s) 0) as [|_]; [lia|].
  destruct (Z.ltb_spec (lsize s) (c_cursor s)) as [|_]; [lia|]. cbn [orb].
  destruct (Z.lt_ge_cases (zlen R) (zlen l + 2)) as [Hshort|Hlong].
  { rewrite Pout by lia. intros C. rewrite C in E. inversion E; subst. auto. }
  rewrite Pin by lia.
  destruct (app_prefix_take R (concat (c_ps s)) l (CRLF ++ rest) HI ltac:(lia)) as [-> _].
  intros (fin & ps' & cl & C & _ & Hc). rewrite C in E. inversion E; subst b s'.
  assert (Hrest : zdrop (c_cursor s + zlen l + 2) (c_line s) ++ concat (c_ps s) = rest).
  { rewrite app_assoc in HI.
    destruct (app_prefix_take R (concat (c_ps s)) (l ++ CRLF) rest HI) as [_ H2].
    { rewrite zlen_app. change (zlen CRLF) with 2. lia. }
    rewrite zlen_app in H2. change (zlen CRLF) with 2 in H2. rewrite <- H2. unfold R.
    rewrite zdrop_zdrop by lia. do 2 f_equal. lia. }
  assert (Hhex := hex_to_u64_nonneg l).
  destruct Hcase as [(HGR & HkW & Hk)|(Hne & Hh0 & Hrc & Hp)].
  - (* an empty line or the size line of a chunk *)
    replace (negb (hex_to_u64 l =? 0) || (zlen l =? 0)) with true in Hc.
    2:{ destruct Hk as [->|Hk]; [reflexivity|]. destruct (Z.eqb_spec (hex_to_u64 l) 0); [lia|reflexivity]. }
    destruct Hc as [-> ->]. split; [left|cbn; congruence].
    unfold Inv, WFa, inp, lsize in *. cbn [c_line c_cursor c_cap c_err c_finish c_ps c_remain].
    rewrite Hrest. splits; auto; lia.
  - (* the last size line: the stream is finished *)
    rewrite Hh0 in *. destruct (Z.eqb_spec (zlen l) 0) as [Hz|]; [apply zlen_zero_nil in Hz; contradiction|].
    cbn in Hc. subst fin. cbn. split; [right|]; auto.
Qed.

(* result of a call that had `count` bytes to deliver into a buffer already holding `out`
   (ret bytes): n more bytes of the payload were delivered *)
Definition LB (count ret : Z) (out payload : bytes) (res : Z * crs * Z * bytes) : Prop :=
  exists n s', res = (ret + n, s', count - n, out ++ ztake n payload)
    /\ 0 <= n <= count /\ n <= zlen payload
    /\ Post s' (zdrop n payload) /\ (c_finish s' = true -> c_remain s' = 0)
    /\ (c_finish s' = false -> 0 < count - n -> 0 < c_remain s' -> c_cursor s' = lsize s').

Lemma LB_now s count ret out payload :
  Post s payload -> (c_finish s = true -> c_remain s = 0) ->
  (c_finish s = false -> 0 < count -> 0 < c_remain s -> c_cursor s = lsize s) -> 0 <= count ->
  LB count ret out payload (ret, s, count, out).
Proof.
  intros HP Hf Hl Hc. exists 0, s. pose proof (zlen_nonneg payload).
  rewrite ztake_nonpos, zdrop_nonpos, app_nil_r, Z.add_0_r, !Z.sub_0_r by lia. splits; auto; lia.
Qed.
(* ... after n1 bytes had been delivered before *)
Lemma LB_shift n1 count ret out payload res : 0 <= n1 <= count -> n1 <= zlen payload ->
  LB (count - n1) (ret + n1) (out ++ ztake n1 payload) (zdrop n1 payload) res -> LB count ret out payload res.
Proof.
  intros H1 H2 (n & s' & -> & Hn & Hnp & HP & Hf & Hl). rewrite zlen_zdrop in Hnp by lia.
  exists (n1 + n), s'. rewrite ztake_add, app_assoc, Z.add_assoc, Z.sub_add_distr by lia.
  rewrite zdrop_zdrop, Z.add_comm in HP by lia. splits; auto; lia.
Qed.

Lemma rflb_stop fuel s count ret out :
  (0 <? count) && (c_cursor s <? lsize s) && negb (c_finish s) = false ->
  read_from_line_buf fuel s count ret out = Some (ret, s, count, out).
Proof. intros H. destruct fuel; cbn [read_from_line_buf]; rewrite H; reflexivity. Qed.

Lemma rflb_spec : forall fuel s count ret out payload res,
  read_from_line_buf fuel s count ret out = Some res ->
  Post s payload -> (c_finish s = true -> c_remain s = 0) -> 0 <= count ->
  LB count ret out payload res.
Proof.
  induction fuel as [|f IH]; intros s count ret out payload res H HP Hf0 Hc;
    destruct ((0 <? count) && (c_cursor s <? lsize s) && negb (c_finish s)) eqn:Hcond.
  1: cbn [read_from_line_buf] in H; rewrite Hcond in H; discriminate.
  1,3: rewrite rflb_stop in H by exact Hcond; inversion H; subst res; apply LB_now; auto;
       intros Hfin Hc0 _; rewrite Hfin, andb_true_r in Hcond;
       destruct (Z.ltb_spec 0 count); [|lia]; destruct (Z.ltb_spec (c_cursor s) (lsize s)); [discriminate|];
       apply (Post_Inv _ _ HP) in Hfin; destruct Hfin as ((? & _) & _); lia.
  cbn [read_from_line_buf] in H. rewrite Hcond in H.
  apply andb_prop in Hcond. destruct Hcond as [Hcond Hfin]. apply negb_true_iff in Hfin.
  apply andb_prop in Hcond. destruct Hcond as [Hc0 Hav]. apply Z.ltb_lt in Hc0. apply Z.ltb_lt in Hav.
  destruct (Post_Inv _ _ HP Hfin) as (HW & Herr & _ & HkW & HGR). pose proof HW as (Hcur & Hls & Hcap & Hk0).
  destruct (Z.ltb_spec (c_cursor s) 0) as [|_]; [lia|].
  set (k := c_remain s) in *. set (n := Z.min count (Z.min k (lsize s - c_cursor s))) in *.
  assert (Hn : 0 <= n <= count /\ n <= k /\ n <= lsize s - c_cursor s /\ (0 < k -> 1 <= n)) by (unfold n; lia).
  clearbody n. destruct Hn as (Hn1 & Hn2 & Hn3 & Hn4).
  destruct (GR_advance _ _ _ n HGR ltac:(lia)) as (Htake & HGR1). destruct (GR_len _ _ _ HGR) as (Hkp & _).
  assert (HR : zlen (zdrop (c_cursor s) (c_line s)) = lsize s - c_cursor s) by (rewrite zlen_zdrop; unfold lsize in *; lia).
  unfold inp in Htake, HGR1. rewrite ztake_app_le in Htake by lia. rewrite zdrop_app_le, zdrop_zdrop in HGR1 by lia.
  rewrite Htake, (wrap_small (k - n)) in H by lia.
  set (s1 := mkCrs _ _ _ _ _ _ _ _) in H.
  assert (HInv1 : Inv s1 (zdrop n payload)).
  { unfold Inv, WFa, inp, lsize in *. cbn [s1 c_line c_cursor c_cap c_err c_finish c_ps c_remain].
    rewrite (Z.add_comm (c_cursor s) n). splits; auto; lia. }
  apply (LB_shift n); [lia|lia|].
  change (c_remain s1) with (k - n) in H. change (c_cursor s1) with (c_cursor s + n) in H.
  destruct (Z.eqb_spec (k - n) 0) as [Hz|Hnz].
  - (* chunk data exhausted: look for the next size line *)
    destruct HInv1 as (HW1 & Herr1 & Hfin1 & _ & HG1). change (c_remain s1) with (k - n) in HG1.
    rewrite Hz in HG1. apply GR_0_inv in HG1.
    destruct (pos_next_chunk s1 (c_cursor s + n)) as [[b s2]|] eqn:Ep; [|discriminate].
    pose proof (pnc_spec s1 _ b s2 HW1 Herr1 Hfin1 HG1 Ep) as Hp. destruct b.
    + destruct Hp as [HP2 Hf2]. destruct (reset_fields s2) as (_ & Hfr & Hrr & _).
      apply (IH _ _ _ _ _ _ H); [apply Post_reset; exact HP2|rewrite Hfr, Hrr; exact Hf2|lia].
    + destruct Hp as [-> _]. inversion H; subst res. apply LB_now; try lia.
      * left. apply Inv_compact. unfold Inv. change (c_remain s1) with (k - n). rewrite Hz.
        splits; auto; [unfold W64; lia|apply GR_0; exact HG1].
      * intros _. exact Hz.
      * intros _ _ Hx. change (0 < k - n) in Hx. lia.
  - destruct (reset_fields s1) as (_ & Hfr & Hrr & _).
    apply (IH _ _ _ _ _ _ H); [apply Post_reset; left; exact HInv1|rewrite Hfr; cbn; congruence|lia].
Qed.

Lemma gnc_loop_finished fuel s : c_finish s = true -> gnc_loop fuel s = Some (0, s).
Proof. intros H. destruct fuel; cbn [gnc_loop]; rewrite H; reflexivity. Qed.

(* with an incomplete first line in the line buffer there is room for more, and more is to come *)
Lemma G0_more s payload : WFa s -> c_cursor s = 0 -> G0 (inp s) payload ->
  find_crlf (c_line s) = None \/ lsize s <= 2 -> lsize s < LINE_BUFFER_SIZE /\ 0 < total_len (c_ps s).
Proof.
  intros (Hcur & _) Hc0 HG Hpre. destruct (G0_line _ _ HG) as (l & rest & HI & Hfind & Hll & Hcase).
  unfold inp in *. rewrite Hc0, zdrop_nonpos in * by lia.
  apply (f_equal zlen) in HI. rewrite !zlen_app in HI. change (zlen CRLF) with 2 in HI.
  fold (lsize s) (total_len (c_ps s)) in HI. pose proof (zlen_nonneg l). pose proof (zlen_nonneg rest).
  destruct Hpre as [Hnone|Hsmall].
  - destruct (find_crlf_prefix _ _ _ Hfind) as [Pin _]. fold (lsize s) in Pin.
    destruct (Z.lt_ge_cases (lsize s) (zlen l + 2)); [lia|]. rewrite Pin in Hnone by lia. discriminate.
  - split; [unfold LINE_BUFFER_SIZE; lia|]. destruct l as [|x l]; [|rewrite zlen_cons in HI; pose proof (zlen_nonneg l); lia].
    destruct Hcase as [(HGR & _)|(Hne & _)]; [|contradiction].
    apply GR_0_inv, G0_len in HGR. rewrite zlen_nil in HI. lia.
Qed.

Lemma gnc_loop_spec : forall fuel s payload r s',
  gnc_loop fuel s = Some (r, s') -> Inv s payload -> c_remain s = 0 -> c_cursor s = 0 ->
  find_crlf (c_line s) = None \/ lsize s <= 2 ->
  r = 0 /\ Post s' payload.
Proof.
  induction fuel as [|f IH]; intros s payload r s' H (HW & Herr & Hfin & HkW & HGR) Hrem Hc0 Hpre;
    cbn [gnc_loop] in H; rewrite Hfin in H; [discriminate|].
  rewrite Hrem in HGR. apply GR_0_inv in HGR. pose proof HW as (Hcur & Hls & Hcap & _).
  destruct (G0_more s payload HW Hc0 HGR Hpre) as (Hroom & Hstream).
  rewrite wrap_small, Herr in H by (unfold W64, LINE_BUFFER_SIZE, lsize in *; lia).
  pose proof (sk_recv_spec (c_ps s) false (LINE_BUFFER_SIZE - lsize s) ltac:(lia)) as Hr.
  destruct (sk_recv (c_ps s) false (LINE_BUFFER_SIZE - lsize s)) as [[r0 bs] ps'].
  destruct Hr as (Hr0 & Hrt & -> & Hps' & Hr1). specialize (Hr1 ltac:(lia) Hstream).
  destruct (Z.ltb_spec r0 0); [lia|]. destruct (Z.eqb_spec r0 0); [lia|].
  destruct (c_cap s <? lsize s + r0); [discriminate|].
  set (s1 := set_line _ _ _) in H.
  assert (Hls1 : lsize s1 = lsize s + r0).
  { unfold lsize, s1. cbn. rewrite zlen_app, zlen_ztake; unfold total_len in *; lia. }
  assert (HInv1 : Inv s1 payload).
  { unfold Inv, WFa. rewrite Hls1. unfold inp. cbn [s1 set_line c_line c_cursor c_cap c_err c_finish c_ps c_remain].
    rewrite Hc0, zdrop_nonpos, Hps', <- app_assoc, ztake_zdrop_id, Hrem by lia.
    splits; auto; try lia. apply GR_0. unfold inp in HGR. rewrite Hc0, zdrop_nonpos in HGR by lia. exact HGR. }
  destruct (Z.leb_spec (lsize s1) 2).
  { apply (IH _ _ _ _ H HInv1 Hrem Hc0). right. assumption. }
  pose proof HInv1 as (HW1 & Herr1 & Hfin1 & _ & HG1). change (c_remain s1) with (c_remain s) in HG1.
  rewrite Hrem in HG1. apply GR_0_inv in HG1.
  destruct (pos_next_chunk s1 0) as [[b s2]|] eqn:Ep; [|discriminate].
  pose proof (pnc_spec s1 payload b s2 HW1 Herr1 Hfin1 HG1) as Hp. change (c_cursor s1) with (c_cursor s) in Hp.
  rewrite Hc0 in Hp. specialize (Hp Ep). destruct b.
  - inversion H; subst. split; [reflexivity|apply Hp].
  - destruct Hp as [-> Hnone]. rewrite zdrop_nonpos in Hnone by lia.
    apply (IH _ _ _ _ H HInv1); auto.
Qed.

Lemma pnc_finish s pos b s' :
  pos_next_chunk s pos = Some (b, s') -> c_finish s = true -> c_finish s' = true.
Proof.
  intros H Hf. generalize (pnc_cases s pos). cbv zeta. destruct (_ || _); [congruence|].
  destruct (find_crlf _) as [p|]; [intros (fin & ps' & cl & C & _ & Hc)|intros C];
    rewrite C in H; inversion H; subst; [cbn|exact Hf].
  destruct (negb _ || _); [destruct Hc; congruence|exact Hc].
Qed.

(* get_new_chunk at a chunk boundary: the next size line is consumed; on a finished stream it does nothing
   that matters *)
Lemma gnc_spec fuel s payload r s' :
  get_new_chunk fuel s = Some (r, s') -> Post s payload -> c_remain s = 0 -> r = 0 /\ Post s' payload.
Proof.
  unfold get_new_chunk. intros H [HInv|[Hfin ->]] Hrem.
  - pose proof HInv as (HW & Herr & Hfin & HkW & HGR). pose proof HW as (Hcur & _).
    rewrite Hrem in HGR. apply GR_0_inv in HGR.
    destruct (Z.ltb_spec (c_cursor s) (lsize s)).
    + destruct (pos_next_chunk s (c_cursor s)) as [[b s1]|] eqn:Ep; [|discriminate].
      pose proof (pnc_spec s payload b s1 HW Herr Hfin HGR Ep) as Hp. destruct b.
      * inversion H; subst. split; [reflexivity|apply Hp].
      * destruct Hp as [-> Hnone]. apply (gnc_loop_spec _ _ _ _ _ H (Inv_compact _ _ HInv)); auto.
    + replace (c_cursor s =? lsize s) with true in H by (symmetry; apply Z.eqb_eq; lia).
      apply (gnc_loop_spec _ _ payload _ _ H); auto.
      pose proof (Post_reset s payload (or_introl HInv)) as HP. unfold reset_if_end in HP.
      replace (c_cursor s =? lsize s) with true in HP by (symmetry; apply Z.eqb_eq; lia).
      apply (Post_Inv _ _ HP Hfin).
  - assert (r = 0 /\ c_finish s' = true); [|split; [|right]; tauto].
    destruct (c_cursor s <? lsize s).
    + destruct (pos_next_chunk s (c_cursor s)) as [[[|] s1]|] eqn:Ep; [| |discriminate];
        apply pnc_finish in Ep; auto; [inversion H; subst; auto|].
      rewrite gnc_loop_finished in H by exact Ep. inversion H; subst; auto.
    + destruct (c_cursor s =? lsize s); rewrite gnc_loop_finished in H by exact Hfin; inversion H; subst; auto.
Qed.

Lemma rfs_spec s count payload :
  Inv s payload -> 0 < c_remain s -> 0 < count -> c_cursor s = lsize s ->
  let r := Z.min count (c_remain s) in
  exists s', read_from_stream s count = (r, s', count - r, ztake r payload) /\ Inv s' (zdrop r payload).
Proof.
  intros (HW & Herr & Hfin & HkW & HGR) Hk Hc Hcl r. pose proof HW as (Hcur & Hls & Hcap & _).
  assert (Hinp : inp s = concat (c_ps s)) by (unfold inp; rewrite zdrop_all by (unfold lsize in *; lia); reflexivity).
  destruct (GR_len _ _ _ HGR) as (_ & HkI). rewrite Hinp in *.
  destruct (GR_advance _ _ _ r HGR ltac:(lia)) as (Htake & HGR1).
  unfold read_from_stream. fold r.
  pose proof (sk_read_spec (c_ps s) (c_err s) r) as Hs. destruct (sk_read (c_ps s) (c_err s) r) as [[r0 bs] ps'].
  destruct Hs as [(_ & _ & _ & _ & ?)|(Hr0 & -> & Hps')]; [unfold total_len in *; lia|].
  replace r0 with r in * by (unfold total_len in *; lia).
  destruct (Z.ltb_spec r 0); [lia|]. rewrite wrap_small, Htake by lia.
  eexists. split; [reflexivity|].
  unfold Inv, WFa, inp, lsize in *. cbn [c_line c_cursor c_cap c_err c_finish c_ps c_remain].
  rewrite zdrop_all, Hps' by lia. splits; auto; lia.
Qed.

(* result of a read of `count` bytes into a buffer already holding `out` (ret bytes) *)
Definition RD (count ret : Z) (out payload : bytes) (res : Z * bytes * crs) : Prop :=
  exists s', res = (ret + Z.min count (zlen payload), out ++ ztake count payload, s')
    /\ Post s' (zdrop count payload) /\ (zlen payload < count -> c_finish s' = true).

Lemma RD_now s count ret out payload :
  Post s payload -> 0 <= count -> count = 0 \/ c_finish s = true -> RD count ret out payload (ret, out, s).
Proof.
  intros HP Hc Hn. exists s. pose proof (zlen_nonneg payload). destruct Hn as [->|Hf].
  - rewrite Z.min_l, Z.add_0_r, zdrop_nonpos by lia. cbn [ztake Z.to_nat firstn]. rewrite app_nil_r. splits; auto; lia.
  - destruct HP as [(_ & _ & Hf' & _)|[_ ->]]; [congruence|].
    rewrite ztake_nil, zdrop_nil, app_nil_r, Z.min_r, Z.add_0_r by (cbn; lia). splits; auto. right. auto.
Qed.
Lemma RD_shift n1 count ret out payload res : 0 <= n1 <= count -> n1 <= zlen payload ->
  RD (count - n1) (ret + n1) (out ++ ztake n1 payload) (zdrop n1 payload) res -> RD count ret out payload res.
Proof.
  intros H1 H2 (s' & -> & HP & Hf). rewrite zlen_zdrop in * by lia. exists s'.
  rewrite <- app_assoc, <- ztake_add by lia. rewrite zdrop_zdrop in HP by lia.
  replace (n1 + (count - n1)) with count by lia. replace (count - n1 + n1) with count in HP by lia.
  splits; auto; [do 2 f_equal; lia|intros; apply Hf; lia].
Qed.

Lemma loop_spec : forall fuel s count ret out payload res,
  crs_read_loop fuel s count ret out = Some res -> Post s payload -> 0 <= count ->
  RD count ret out payload res.
Proof.
  induction fuel as [|f IH]; intros s count ret out payload res H HP Hc;
    destruct ((0 <? count) && negb (c_finish s)) eqn:Hcond.
  1: cbn [crs_read_loop] in H; rewrite Hcond in H; discriminate.
  1,3: rewrite loop_stop in H by exact Hcond; inversion H; subst res; apply RD_now; auto;
       apply andb_false_iff in Hcond; destruct Hcond as [Hx|Hx];
       [left; apply Z.ltb_ge in Hx; lia|right; apply negb_false_iff; exact Hx].
  cbn [crs_read_loop] in H. rewrite Hcond in H.
  destruct (read_from_line_buf (S f) s count 0 []) as [[[[r1 s1] c1] o1]|] eqn:E1; [|discriminate].
  apply andb_prop in Hcond. destruct Hcond as [_ Hfin]. apply negb_true_iff in Hfin.
  destruct (rflb_spec _ _ _ _ _ payload _ E1 HP ltac:(congruence) Hc) as (n1 & s1' & E & Hn1 & Hn1p & HP1 & Hf1 & Hl1).
  inversion E; subst r1 s1' c1 o1. clear E E1. cbn [app] in H. apply (RD_shift n1); [lia|lia|].
  set (p1 := zdrop n1 payload) in *.
  destruct ((0 <? c_remain s1) && (0 <? count - n1)) eqn:Hcond2.
  - (* the rest of the chunk, or as much as is asked for, comes from the socket *)
    apply andb_prop in Hcond2. destruct Hcond2 as [Hk1 Hc1]. apply Z.ltb_lt in Hk1. apply Z.ltb_lt in Hc1.
    assert (Hfin1 : c_finish s1 = false) by (destruct (c_finish s1); [specialize (Hf1 eq_refl); lia|reflexivity]).
    pose proof (Post_Inv _ _ HP1 Hfin1) as HInv1.
    destruct (rfs_spec s1 (count - n1) p1 HInv1 Hk1 Hc1 (Hl1 Hfin1 Hc1 Hk1)) as (s2 & E2 & HInv2).
    set (r := Z.min (count - n1) (c_remain s1)) in *.
    assert (Hr : 1 <= r <= count - n1 /\ r <= c_remain s1) by (unfold r; lia). clearbody r.
    destruct (GR_len _ _ _ (proj2 (proj2 (proj2 (proj2 HInv1))))) as (Hk1p & _).
    rewrite E2 in H. destruct (Z.ltb_spec r 0); [lia|]. change (0 <? 0) with false in H. cbv iota in H.
    destruct (Z.eqb_spec r 0); [lia|]. rewrite andb_false_r in H.
    apply (RD_shift r); [lia|lia|].
    destruct (c_remain s2 =? 0) eqn:Hz2.
    + destruct (get_new_chunk (S f) s2) as [[r3 s3]|] eqn:E3; [|discriminate].
      destruct (gnc_spec _ _ _ _ _ E3 (or_introl HInv2) ltac:(apply Z.eqb_eq; exact Hz2)) as [-> HP3].
      change (0 <? 0) with false in H. apply (IH _ _ _ _ _ _ H HP3). lia.
    + apply (IH _ _ _ _ _ _ H (or_introl HInv2)). lia.
  - change (0 <? 0) with false in H. cbv iota in H.
    destruct (c_remain s1 =? 0) eqn:Hz1.
    + (* chunk boundary: fetch the next size line *)
      destruct (get_new_chunk (S f) s1) as [[r3 s3]|] eqn:E3; [|discriminate].
      destruct (gnc_spec _ _ _ _ _ E3 HP1 ltac:(apply Z.eqb_eq; exact Hz1)) as [-> HP3].
      change (0 <? 0) with false in H. apply (IH _ _ _ _ _ _ H HP3). lia.
    + (* count exhausted inside the chunk *)
      apply (IH _ _ _ _ _ _ H HP1). lia.
Qed.

Lemma crs_read_finished s count : c_finish s = true -> crs_read s count = Some (0, [], s).
Proof. intros H. apply loop_stop. rewrite H. apply andb_false_r. Qed.

(* a sequence of reads; None = out of range / fuel *)
Fixpoint crs_run (s : crs) (counts : list Z) : option (list (Z * bytes) * crs) :=
  match counts with
  | [] => Some ([], s)
  | c :: t => match crs_read s c with
              | None => None
              | Some (r, o, s1) =>
                match crs_run s1 t with
                | None => None
                | Some (l, s2) => Some ((r, o) :: l, s2)
                end
              end
  end.

(* any sequence of reads on an accepted input: total, and the results are the payload *)
Lemma crs_run_spec : forall counts s payload,
  Post s payload -> Forall (fun c => 0 <= c) counts ->
  exists l s', crs_run s counts = Some (l, s')
    /\ outs l = ztake (zsum counts) payload
    /\ Forall2 (fun r o => r = zlen o) (rets l) (map snd l)
    /\ (zlen payload < zsum counts \/ c_finish s = true -> c_finish s' = true).
Proof.
  induction counts as [|c t IH]; intros s payload HP Hall; pose proof (zlen_nonneg payload).
  - exists [], s. cbn. splits; auto. intros [?|?]; [lia|assumption].
  - inversion Hall as [|? ? Hc Ht]; subst. cbn [crs_run zsum]. pose proof (zsum_nonneg t Ht).
    assert (Hsome : exists res, crs_read s c = Some res).
    { destruct HP as [(HW & _)|[Hf _]]; [|rewrite crs_read_finished by exact Hf; eauto].
      destruct (crs_read_any s c HW Hc) as (r & o & s1 & E & _). rewrite E. eauto. }
    destruct Hsome as (res & E). rewrite E.
    destruct (loop_spec _ _ _ _ _ _ _ E HP Hc) as (s1 & -> & HP1 & Hf1). cbn [app Z.add].
    destruct (IH s1 _ HP1 Ht) as (l & s' & -> & Ho & Hf & Hfin).
    do 2 eexists. split; [reflexivity|]. unfold outs, rets in *. cbn [map concat fst snd].
    rewrite Ho, <- ztake_add by lia. splits; auto.
    + constructor; [|exact Hf]. rewrite <- (ztake_min_len c), zlen_ztake; lia.
    + intros Hx. apply Hfin. destruct (Z.le_gt_cases c (zlen payload)); [|right; apply Hf1; lia].
      rewrite zlen_zdrop by lia. destruct Hx as [?|Hx]; [left; lia|].
      right. destruct HP as [(_ & _ & ? & _)|_]; [congruence|].
      rewrite crs_read_finished in E by exact Hx. inversion E; subst; exact Hx.
Qed.

(* valid_chunked wire payload: RFC 7230 4.1 without trailers *)
Inductive valid_chunked : bytes -> bytes -> Prop :=
| VC_last line : line <> [] -> size_line line 0 ->
    valid_chunked (line ++ CRLF ++ CRLF) []
| VC_chunk line data rest payload :
    0 < zlen data < W64 -> size_line line (zlen data) -> valid_chunked rest payload ->
    valid_chunked (line ++ CRLF ++ data ++ CRLF ++ rest) (data ++ payload).

Lemma valid_G0 wire payload : valid_chunked wire payload -> G0 wire payload.
Proof.
  induction 1 as [line Hne Hs|line data rest payload Hd Hs Hv IH].
  - apply G0_last; assumption.
  - apply G0_chunk; [exact Hd|exact Hs|]. apply G0_crlf. exact IH.
Qed.

(* the reader on an input accepted by G0 (which also allows empty lines before a size line),
   with any line-buffer capacity *)
Lemma crs_decode_G0 cap wire payload partial ps counts :
  G0 wire payload -> partial ++ concat ps = wire -> zlen partial <= LINE_BUFFER_SIZE -> LINE_BUFFER_SIZE <= cap ->
  Forall (fun c => 0 <= c) counts ->
  exists l s', crs_run (crs_init cap partial ps false) counts = Some (l, s')
    /\ outs l = ztake (zsum counts) payload
    /\ Forall2 (fun r o => r = zlen o) (rets l) (map snd l)
    /\ (zlen payload < zsum counts -> c_finish s' = true).
Proof.
  intros HG Hw Hp Hcap Hall. pose proof (zlen_nonneg partial).
  destruct (crs_run_spec counts (crs_init cap partial ps false) payload) as (l & s' & E & Ho & Hf & Hfin); [|exact Hall|].
  - left. unfold Inv, WFa, inp, lsize. cbn [crs_init c_line c_cursor c_cap c_err c_finish c_ps c_remain].
    rewrite zdrop_nonpos, Hw by lia. splits; auto; try lia; [unfold W64; lia|apply GR_0; exact HG].
  - exists l, s'. splits; auto.
Qed.

Lemma hex_digit_hexchar d : 0 <= d < 16 -> hex_digit (hexchar d) = d /\ hexchar d <> 13.
Proof.
  intros H.
  assert (Hc : d = 0 \/ d = 1 \/ d = 2 \/ d = 3 \/ d = 4 \/ d = 5 \/ d = 6 \/ d = 7 \/ d = 8 \/ d = 9 \/
               d = 10 \/ d = 11 \/ d = 12 \/ d = 13 \/ d = 14 \/ d = 15) by lia.
  repeat (destruct Hc as [Hc|Hc]; [subst d; split; [vm_compute; reflexivity|vm_compute; discriminate]|]).
  subst d; split; [vm_compute; reflexivity|vm_compute; discriminate].
Qed.

Lemma to_hex_aux_spec : forall f x acc i,
  0 <= x < W64 -> x < 16 ^ Z.of_nat (S f) ->
  exists k, 1 <= k <= Z.of_nat (S f)
    /\ hex_scan (to_hex_aux (S f) x acc) 0 i = hex_scan acc x (i + k)
    /\ zlen (to_hex_aux (S f) x acc) = k + zlen acc
    /\ (Forall (fun c => c <> 13) acc -> Forall (fun c => c <> 13) (to_hex_aux (S f) x acc)).
Proof.
  induction f as [|f IH]; intros x acc i Hx Hf.
  - (* one digit *)
    change (16 ^ Z.of_nat 1) with 16 in Hf.
    assert (Hd : x mod 16 = x) by (apply Z.mod_small; lia).
    assert (Hq : x / 16 = 0) by (apply Z.div_small; lia).
    destruct (hex_digit_hexchar x ltac:(lia)) as [Hhd Hne].
    cbn [to_hex_aux]. rewrite Hd, Hq. cbn [Z.eqb].
    exists 1. splits; try lia.
    + cbn [hex_scan]. rewrite Hhd. destruct (Z.leb_spec 16 x); [lia|].
      rewrite wrap_small by (unfold W64; lia). f_equal.
    + rewrite zlen_cons. lia.
    + intros Ha. constructor; assumption.
  - remember (S f) as f1. cbn [to_hex_aux].
    assert (Hd : 0 <= x mod 16 < 16) by (apply Z.mod_pos_bound; lia).
    destruct (hex_digit_hexchar _ Hd) as [Hhd Hne].
    assert (Hv : x / 16 * 16 + x mod 16 = x) by (rewrite (Z.div_mod x 16) at 3 by lia; lia).
    destruct (Z.eqb_spec (x / 16) 0) as [Hz|Hnz].
    + exists 1. splits; try lia.
      * cbn [hex_scan]. rewrite Hhd. destruct (Z.leb_spec 16 (x mod 16)); [lia|].
        rewrite wrap_small by (unfold W64; lia). f_equal. lia.
      * rewrite zlen_cons. lia.
      * intros Ha. constructor; assumption.
    + assert (Hq : 0 <= x / 16 < W64) by (split; [apply Z.div_pos; lia|apply Z.div_lt_upper_bound; unfold W64 in *; lia]).
      assert (Hqf : x / 16 < 16 ^ Z.of_nat f1).
      { apply Z.div_lt_upper_bound; [lia|]. replace (Z.of_nat (S f1)) with (Z.of_nat f1 + 1) in Hf by lia.
        rewrite Z.pow_add_r in Hf by lia. lia. }
      subst f1.
      destruct (IH (x / 16) (hexchar (x mod 16) :: acc) i Hq Hqf) as (k & Hk & Hs & Hl & Hfa).
      exists (k + 1). splits; try lia.
      * rewrite Hs. cbn [hex_scan]. rewrite Hhd. destruct (Z.leb_spec 16 (x mod 16)); [lia|].
        rewrite Hv, wrap_small by lia. f_equal. lia.
      * rewrite Hl, zlen_cons. lia.
      * intros Ha. apply Hfa. constructor; assumption.
Qed.

Lemma to_hex_size_line n : 0 <= n < W64 -> size_line (to_hex n) n /\ to_hex n <> [].
Proof.
  intros Hn. unfold to_hex.
  destruct (to_hex_aux_spec 15 n [] 0 Hn ltac:(unfold W64 in *; cbn; lia)) as (k & Hk & Hs & Hl & Hfa).
  change (zlen (@nil Z)) with 0 in Hl. split.
  - unfold size_line. splits.
    + unfold hex_to_u64. rewrite Hs. cbn [hex_scan]. destruct (Z.eqb_spec (0 + k) 0); [lia|reflexivity].
    + apply find_crlf_no_cr. apply Hfa. constructor.
    + unfold LINE_BUFFER_SIZE. lia.
  - intros E. rewrite E in Hl. change (zlen (@nil Z)) with 0 in Hl. lia.
Qed.

Definition TERMINATOR : bytes := [48; 13; 10; 13; 10].

(* the chunked writer's output is a valid chunked encoding of the concatenated writes *)
Lemma chunks_wire_valid : forall ws,
  Forall (fun w => w <> [] /\ zlen w < W64) ws ->
  valid_chunked (chunks_wire ws ++ TERMINATOR) (concat ws).
Proof.
  induction 1 as [|w t [Hne Hlt] Ht IH]; cbn [chunks_wire concat app].
  - change TERMINATOR with ([48] ++ CRLF ++ CRLF). apply VC_last; [discriminate|].
    unfold size_line. splits; [reflexivity|reflexivity|unfold LINE_BUFFER_SIZE; cbn; lia].
  - assert (Hw : 0 < zlen w < W64).
    { pose proof (zlen_nonneg w). split; [|exact Hlt].
      destruct (Z.eq_dec (zlen w) 0) as [E|E]; [apply zlen_zero_nil in E; contradiction|lia]. }
    destruct (to_hex_size_line (zlen w) ltac:(lia)) as [Hs _].
    unfold chunk_wire. rewrite <- !app_assoc.
    change ([13; 10] ++ w ++ [13; 10] ++ chunks_wire t ++ TERMINATOR)
      with (CRLF ++ w ++ CRLF ++ (chunks_wire t ++ TERMINATOR)).
    apply VC_chunk; assumption.
Qed.
