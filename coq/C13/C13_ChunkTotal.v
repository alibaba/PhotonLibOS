(* C13_ChunkTotal.v — the chunked reader on EVERY byte string, fragmentation, socket error flag
   and read sizes.  From a state reachable from crs_init it never reaches an out-of-range access
   and terminates within the fuel crs_fuel = |line buffer| + |stream| + 2 (chunked_malformed_safe);
   from any state with a non-negative chunk remainder, with any fuel, it never hands back more
   than `count` bytes and the byte count it reports is the number of bytes it stored
   (chunked_read_within_count). *)
From Coq Require Import ZArith List Bool Lia.
From PV Require Import Base.U64 C13.C13_Model C13.C13_Proofs C13.C13_ChunkSafe.
Import ListNotations.
Local Open Scope Z_scope.

(* what holds of every state reachable from crs_init, whatever the bytes *)
Definition WFa (s : crs) : Prop :=
  0 <= c_cursor s <= lsize s /\ lsize s <= LINE_BUFFER_SIZE /\ LINE_BUFFER_SIZE <= c_cap s /\ 0 <= c_remain s.
(* the input not consumed yet; every round of the loops decreases it or ends the call *)
Definition M (s : crs) : Z := lsize s - c_cursor s + total_len (c_ps s).

Definition set_fields_ok (s s' : crs) : Prop := c_cap s' = c_cap s.

(* pos_next_chunk fails only outside the line buffer; at the cursor it keeps the state well-formed *)
Lemma pnc_any s pos :
  match pos_next_chunk s pos with
  | Some (b, s') =>
      if b then 0 <= c_remain s'
                /\ (WFa s -> pos = c_cursor s -> WFa s' /\ c_line s' = c_line s
                     /\ total_len (c_ps s') <= total_len (c_ps s) /\ c_cursor s + 2 <= c_cursor s')
      else s' = s
  | None => ~ 0 <= pos <= lsize s
  end.
Proof.
  generalize (pnc_cases s pos). cbv zeta.
  destruct (Z.ltb_spec pos 0); [intros ->; lia|]. destruct (Z.ltb_spec (lsize s) pos); [intros ->; lia|]. cbn [orb].
  destruct (find_crlf _) as [p|] eqn:Hf; [intros (fin & ps' & cl & -> & Ht & _)|intros ->; reflexivity].
  pose proof (hex_to_u64_nonneg (ztake p (zdrop pos (c_line s)))) as Hh. split; [exact Hh|].
  intros (Hcur & Hls & Hcap & Hrem) ->.
  destruct (find_crlf_bound _ _ Hf) as (Hp0 & Hp2). rewrite zlen_zdrop in Hp2 by (unfold lsize in *; lia).
  unfold WFa, lsize in *. cbn. splits; auto; lia.
Qed.

Lemma WFa_reset s : WFa s -> WFa (reset_if_end s).
Proof.
  intros (H1 & H2 & H3 & H4). unfold reset_if_end.
  destruct (c_cursor s =? lsize s); unfold WFa, lsize, set_line in *; cbn; unfold LINE_BUFFER_SIZE in *; lia.
Qed.
Lemma M_reset s : M (reset_if_end s) = M s
  /\ lsize (reset_if_end s) - c_cursor (reset_if_end s) = lsize s - c_cursor s.
Proof.
  unfold reset_if_end. destruct (Z.eqb_spec (c_cursor s) (lsize s)); [|auto].
  unfold M, lsize, set_line in *. cbn. lia.
Qed.
Lemma WFa_compact s : WFa s -> WFa (compact s).
Proof.
  intros (H1 & H2 & H3 & H4). unfold compact, WFa, lsize, set_line in *. cbn. rewrite zlen_zdrop by lia. lia.
Qed.
Lemma M_compact s : 0 <= c_cursor s <= lsize s -> M (compact s) = M s.
Proof. intros H. unfold compact, M, lsize, set_line in *. cbn. rewrite zlen_zdrop by lia. lia. Qed.

Lemma reset_if_end_remain s : c_remain (reset_if_end s) = c_remain s.
Proof. unfold reset_if_end. destruct (c_cursor s =? lsize s); reflexivity. Qed.

(* The walk through each function of the reader establishes two things at once.  For EVERY
   state with a non-negative chunk remainder and every fuel: what is returned accounts exactly
   for the bytes stored.  From a well-formed state in addition: the result is well-formed, input
   was consumed (M), and None can only mean that the fuel was too small. *)
Definition rflb_post (fuel : nat) (s : crs) (count ret : Z) (out : bytes) (res : option (Z * crs * Z * bytes)) : Prop :=
  match res with
  | Some (r, s', c', o') =>
      0 <= c_remain s' /\ 0 <= c' <= count /\ r = ret + (count - c') /\ zlen o' = zlen out + (count - c')
      /\ (WFa s -> WFa s' /\ M s' <= M s - (count - c'))
  | None => WFa s -> Z.of_nat fuel <= lsize s - c_cursor s
  end.

Lemma rflb_any : forall fuel s count ret out,
  0 <= c_remain s -> 0 <= count -> rflb_post fuel s count ret out (read_from_line_buf fuel s count ret out).
Proof.
  induction fuel as [|f IH]; intros s count ret out Hr Hc; cbn [read_from_line_buf];
    destruct ((0 <? count) && (c_cursor s <? lsize s) && negb (c_finish s)) eqn:Hcond.
  2,4: cbn; splits; auto; try lia; intros HW; split; [exact HW|lia].
  all: apply andb_prop in Hcond; destruct Hcond as [Hcond _]; apply andb_prop in Hcond;
    destruct Hcond as [Hc0 Hav]; apply Z.ltb_lt in Hc0; apply Z.ltb_lt in Hav.
  { intros _. cbn. lia. }
  destruct (Z.ltb_spec (c_cursor s) 0) as [|Hcur0]; [intros (? & _); lia|].
  set (n := Z.min count (Z.min (c_remain s) (lsize s - c_cursor s))).
  assert (Hn : 0 <= n <= count /\ n <= lsize s - c_cursor s /\ (0 < c_remain s -> 1 <= n)) by (unfold n; lia).
  set (data := ztake n (zdrop (c_cursor s) (c_line s))).
  assert (Hdata : zlen (out ++ data) = zlen out + n).
  { rewrite zlen_app. unfold data. rewrite zlen_ztake; [lia|]. rewrite zlen_zdrop; unfold lsize in *; lia. }
  set (s1 := mkCrs (c_line s) (c_cursor s + n) (wrap (c_remain s - n)) (c_finish s) (c_ps s) (c_err s) (c_closed s) (c_cap s)).
  pose proof (wrap_range (c_remain s - n)) as Hr1.
  assert (HW1 : WFa s -> WFa s1 /\ M s1 = M s - n) by (intros (? & ? & ? & ?); unfold WFa, M, lsize in *; cbn; lia).
  (* the next round, after at least one byte (n >= 1) or one line (M decreased) was consumed *)
  assert (K : forall s2, 0 <= c_remain s2 ->
    (WFa s -> WFa s2 /\ M s2 <= M s1 /\ lsize s2 - c_cursor s2 < lsize s - c_cursor s) ->
    rflb_post (S f) s count ret out (read_from_line_buf f (reset_if_end s2) (count - n) (ret + n) (out ++ data))).
  { intros s2 Hr2 H2. destruct (M_reset s2) as (HMr & Hdr).
    assert (Hrr : 0 <= c_remain (reset_if_end s2)) by (rewrite reset_if_end_remain; exact Hr2).
    specialize (IH (reset_if_end s2) (count - n) (ret + n) (out ++ data) Hrr ltac:(lia)). unfold rflb_post in *.
    destruct (read_from_line_buf f _ _ _ _) as [[[[r s'] c'] o']|].
    - destruct IH as (Hr' & Hc' & -> & Ho' & HW'). splits; auto; try lia.
      intros HW. destruct (H2 HW) as (HW2 & HM2 & _). destruct (HW1 HW) as (_ & HM1).
      destruct (HW' (WFa_reset _ HW2)). split; [assumption|lia].
    - intros HW. destruct (H2 HW) as (HW2 & _ & Hd2). specialize (IH (WFa_reset _ HW2)). lia. }
  destruct (c_remain s1 =? 0) eqn:Hz.
  - generalize (pnc_any s1 (c_cursor s1)). destruct (pos_next_chunk s1 (c_cursor s1)) as [[[|] s2]|].
    + intros (Hr2 & HW2). apply K; [exact Hr2|]. intros HW. destruct (HW1 HW) as (HW1' & HM1).
      destruct (HW2 HW1' eq_refl) as (HW2' & Hl2 & Ht2 & Hc2). split; [exact HW2'|].
      unfold M, lsize in *. rewrite Hl2. cbn [s1 c_line c_cursor c_ps] in *. lia.
    + intros ->. cbn. splits; auto; try lia. intros HW. destruct (HW1 HW) as (HW1' & HM1).
      rewrite M_compact by apply HW1'. split; [apply WFa_compact; exact HW1'|lia].
    + intros Hn'. exfalso. apply Hn'. unfold lsize in *. cbn. lia.
  - apply K; [apply Hr1|]. intros HW. destruct (HW1 HW) as (HW1' & HM1). splits; [exact HW1'|lia|].
    apply Z.eqb_neq in Hz.
    assert (0 < c_remain s); [|unfold lsize in *; cbn [s1 c_line c_cursor]; lia].
    destruct (Z.eq_dec (c_remain s) 0) as [E0|]; [|lia]. exfalso. apply Hz. cbn [s1 c_remain].
    replace n with 0 by lia. rewrite E0. reflexivity.
Qed.

Lemma rfs_any s count r s' c' bs :
  read_from_stream s count = (r, s', c', bs) -> 0 <= c_remain s -> 0 <= count ->
  0 <= c_remain s'
  /\ (r = -1 /\ c' = count \/ 0 <= r <= count /\ zlen bs = r /\ c' = count - r /\ M s' = M s - r)
  /\ (WFa s -> WFa s').
Proof.
  unfold read_from_stream. intros H Hr Hc.
  pose proof (sk_read_len (c_ps s) (c_err s) (Z.min count (c_remain s))) as Hb.
  destruct (sk_read (c_ps s) (c_err s) (Z.min count (c_remain s))) as [[r0 bs0] ps'].
  pose proof (wrap_range (c_remain s - r0)).
  destruct (Z.ltb_spec r0 0) as [Hneg|Hpos]; inversion H; subst; unfold WFa, M, lsize; cbn;
    (splits; [lia|lia|intros (? & ? & ? & ?); splits; auto; lia]).
Qed.

(* a get_new_chunk that succeeds finished the stream or consumed >= 2 input bytes *)
Definition gprog (s s' : crs) (r : Z) : Prop := r < 0 \/ c_finish s' = true \/ M s' <= M s - 2.

(* P: what is assumed of s beyond the non-negative remainder *)
Definition gnc_post (fuel : nat) (s : crs) (P : Prop) (res : option (Z * crs)) : Prop :=
  match res with
  | Some (r, s') => 0 <= c_remain s' /\ (P -> WFa s' /\ gprog s s' r)
  | None => P -> Z.of_nat fuel <= total_len (c_ps s)
  end.

Lemma gnc_loop_any : forall fuel s,
  0 <= c_remain s -> gnc_post fuel s (WFa s /\ c_cursor s = 0) (gnc_loop fuel s).
Proof.
  induction fuel as [|f IH]; intros s Hr; cbn [gnc_loop]; destruct (c_finish s) eqn:Hfin.
  1,3: split; [exact Hr|]; intros (HW & _); split; [exact HW|]; right; left; exact Hfin.
  { intros _. apply total_len_nonneg. }
  set (cnt := wrap (LINE_BUFFER_SIZE - lsize s)).
  assert (Hcnt : WFa s -> cnt = LINE_BUFFER_SIZE - lsize s).
  { intros (? & ? & ? & ?). apply wrap_small. pose proof (zlen_nonneg (c_line s)). unfold W64, LINE_BUFFER_SIZE, lsize in *. lia. }
  pose proof (sk_recv_len (c_ps s) (c_err s) cnt (proj1 (wrap_range _))) as Hrv.
  destruct (sk_recv (c_ps s) (c_err s) cnt) as [[r bs] ps']. destruct Hrv as (Hrb & Hbl & Htot).
  destruct (Z.ltb_spec r 0). { split; [exact Hr|]. intros (HW & _). split; [exact HW|left; assumption]. }
  destruct (Z.eqb_spec r 0). { split; [exact Hr|]. intros (HW & _). split; [exact HW|left; lia]. }
  destruct (Z.ltb_spec (c_cap s) (lsize s + r)).
  { intros (HW & _). specialize (Hcnt HW). destruct HW as (_ & _ & ? & _). lia. }
  set (s1 := set_line (mkCrs (c_line s) (c_cursor s) (c_remain s) false ps' (c_err s) (c_closed s) (c_cap s))
                      (c_line s ++ bs) (c_cursor s)).
  assert (Hls1 : lsize s1 = lsize s + r) by (unfold lsize, s1; cbn; rewrite zlen_app; lia).
  assert (HW1 : WFa s -> WFa s1 /\ M s1 = M s).
  { intros HW. specialize (Hcnt HW). destruct HW as (? & ? & ? & ?). unfold WFa, M. rewrite Hls1. cbn. lia. }
  (* more has to be received: the same with the longer line buffer *)
  assert (K : gnc_post (S f) s (WFa s /\ c_cursor s = 0) (gnc_loop f s1)).
  { specialize (IH s1 Hr). unfold gnc_post in *. destruct (gnc_loop f s1) as [[r' s']|].
    - destruct IH as (Hr' & HW'). split; [exact Hr'|]. intros (HW & Hc0). destruct (HW1 HW) as (HW1' & HM1).
      unfold gprog. rewrite <- HM1. apply HW'. split; [exact HW1'|exact Hc0].
    - intros (HW & Hc0). destruct (HW1 HW) as (HW1' & _). specialize (IH (conj HW1' Hc0)). cbn in IH. lia. }
  destruct (Z.leb_spec (lsize s1) 2); [exact K|].
  generalize (pnc_any s1 0). destruct (pos_next_chunk s1 0) as [[[|] s2]|].
  - intros (Hr2 & HW2). split; [exact Hr2|]. intros (HW & Hc0). destruct (HW1 HW) as (HW1' & HM1).
    destruct (HW2 HW1' (eq_sym Hc0)) as (HW2' & Hl2 & Ht2 & Hc2). split; [exact HW2'|]. right; right.
    unfold M, lsize in *. rewrite Hl2. cbn [s1 set_line c_line c_cursor c_ps] in *. lia.
  - intros ->. exact K.
  - intros Hn. exfalso. apply Hn. lia.
Qed.

Lemma gnc_any fuel s : 0 <= c_remain s -> gnc_post fuel s (WFa s) (get_new_chunk fuel s).
Proof.
  intros Hr. unfold get_new_chunk.
  (* the receive loop on a state s0 that holds the same input from cursor 0 *)
  assert (K : forall s0, c_remain s0 = c_remain s -> c_cursor s0 = 0 ->
    (WFa s -> WFa s0 /\ M s0 = M s /\ c_ps s0 = c_ps s) -> gnc_post fuel s (WFa s) (gnc_loop fuel s0)).
  { intros s0 Hr0 Hc0 H0. pose proof (gnc_loop_any fuel s0 ltac:(rewrite Hr0; exact Hr)) as G.
    unfold gnc_post in *. destruct (gnc_loop fuel s0) as [[r s']|].
    - destruct G as (Hr' & G). split; [exact Hr'|]. intros HW. destruct (H0 HW) as (HW0 & HM0 & _). unfold gprog. rewrite <- HM0.
      apply G. split; assumption.
    - intros HW. destruct (H0 HW) as (HW0 & _ & <-). exact (G (conj HW0 Hc0)). }
  destruct (Z.ltb_spec (c_cursor s) (lsize s)) as [Hlt|Hge].
  - generalize (pnc_any s (c_cursor s)). destruct (pos_next_chunk s (c_cursor s)) as [[[|] s2]|].
    + intros (Hr2 & HW2). split; [exact Hr2|]. intros HW. destruct (HW2 HW eq_refl) as (HW2' & Hl2 & Ht2 & Hc2).
      split; [exact HW2'|]. right; right. unfold M, lsize in *. rewrite Hl2. lia.
    + intros ->. apply K; try reflexivity. intros HW. pose proof HW as (? & _).
      splits; [apply WFa_compact; exact HW|apply M_compact; lia|reflexivity].
    + intros Hn HW. destruct HW as (? & _). lia.
  - destruct (Z.eqb_spec (c_cursor s) (lsize s)) as [E|E].
    + apply K; try reflexivity. intros (? & ? & ? & ?).
      unfold WFa, M, lsize in *; cbn; unfold LINE_BUFFER_SIZE in *; splits; auto; lia.
    + pose proof (gnc_loop_any fuel s Hr) as G. unfold gnc_post in *.
      destruct (gnc_loop fuel s) as [[r s']|]; [split; [exact (proj1 G)|]|]; intros (? & _); lia.
Qed.

Lemma loop_stop fuel s count ret out :
  (0 <? count) && negb (c_finish s) = false -> crs_read_loop fuel s count ret out = Some (ret, out, s).
Proof. intros H. destruct fuel; cbn [crs_read_loop]; rewrite H; reflexivity. Qed.

(* r >= 0: exactly r - ret bytes were stored, at most count; errors are negative *)
Definition loop_post (fuel : nat) (s : crs) (count ret : Z) (out : bytes) (res : option (Z * bytes * crs)) : Prop :=
  match res with
  | Some (r, o, s') =>
      0 <= c_remain s' /\ (r < 0 \/ (zlen o = zlen out + (r - ret) /\ ret <= r <= ret + count)) /\ (WFa s -> WFa s')
  | None => WFa s -> Z.of_nat fuel <= M s + 1
  end.

(* every round of read consumes input (or ends the read): fuel M s + 2 is enough *)
Lemma loop_any : forall fuel s count ret out,
  0 <= c_remain s -> 0 <= count -> loop_post fuel s count ret out (crs_read_loop fuel s count ret out).
Proof.
  induction fuel as [|f IH]; intros s count ret out Hr Hc;
    (destruct ((0 <? count) && negb (c_finish s)) eqn:Hcond;
     [|rewrite loop_stop by exact Hcond; cbn; splits; auto; right; lia]);
    cbn [crs_read_loop]; rewrite Hcond; pose proof (total_len_nonneg (c_ps s)) as Htl.
  { intros (? & _). unfold M. cbn. lia. }
  apply andb_prop in Hcond. destruct Hcond as [Hc0 _]. apply Z.ltb_lt in Hc0.
  generalize (rflb_any (S f) s count 0 [] Hr Hc). unfold rflb_post.
  destruct (read_from_line_buf (S f) s count 0 []) as [[[[r1 s1] c1] o1]|].
  2:{ intros Hn HW. specialize (Hn HW). unfold M. lia. }
  change (zlen (@nil Z)) with 0. intros (Hr1 & Hc1 & -> & Ho1 & HW1).
  (* the next round, from a state s3 that is finished or holds less input *)
  assert (K2 : forall s3 cN rN oN, 0 <= c_remain s3 -> 0 <= cN -> ret <= rN -> rN + cN <= ret + count ->
    zlen oN = zlen out + (rN - ret) -> (WFa s -> WFa s3 /\ (c_finish s3 = true \/ M s3 < M s)) ->
    loop_post (S f) s count ret out (crs_read_loop f s3 cN rN oN)).
  { intros s3 cN rN oN Hr3 HcN HloN HhiN HoN HW3. specialize (IH s3 cN rN oN Hr3 HcN).
    unfold loop_post in *. destruct (crs_read_loop f s3 cN rN oN) as [[[r o] s']|] eqn:EL.
    - destruct IH as (Hr' & Hb & HW'). splits; auto.
      + destruct Hb as [?|[? ?]]; [left; assumption|right; lia].
      + intros HW. destruct (HW3 HW) as (? & _). auto.
    - intros HW. destruct (HW3 HW) as (HW3' & [Hf3|HM3]).
      + rewrite loop_stop in EL by (rewrite Hf3; apply andb_false_r). discriminate.
      + specialize (IH HW3'). lia. }
  (* the end of a round, in a state sN from which the next step consumes input: at a chunk
     boundary get_new_chunk does, otherwise this round did *)
  assert (K : forall sN cN rN oN, 0 <= c_remain sN -> 0 <= cN -> ret <= rN -> rN + cN <= ret + count ->
    zlen oN = zlen out + (rN - ret) -> (WFa s -> WFa sN /\ M sN <= M s /\ (c_remain sN = 0 \/ M sN < M s)) ->
    loop_post (S f) s count ret out
      (if c_remain sN =? 0
       then match get_new_chunk (S f) sN with
            | None => None
            | Some (r3, s3) => if r3 <? 0 then Some (r3, [], s3) else crs_read_loop f s3 cN rN oN
            end
       else crs_read_loop f sN cN rN oN)).
  { intros sN cN rN oN HrN HcN HloN HhiN HoN HWN.
    destruct (Z.eqb_spec (c_remain sN) 0) as [Hz|Hnz].
    2:{ apply K2; auto. intros HW. destruct (HWN HW) as (? & ? & [?|?]); [contradiction|auto]. }
    generalize (gnc_any (S f) sN HrN). unfold gnc_post. destruct (get_new_chunk (S f) sN) as [[r3 s3]|].
    2:{ intros Hn HW. destruct (HWN HW) as (HWN' & HMN & _). specialize (Hn HWN'). destruct HWN' as (? & _).
        unfold M in *. lia. }
    intros (Hr3 & HW3). destruct (Z.ltb_spec r3 0).
    { cbn. splits; auto. intros HW. destruct (HWN HW) as (HWN' & _). apply (HW3 HWN'). }
    apply K2; auto. intros HW. destruct (HWN HW) as (HWN' & HMN & _).
    destruct (HW3 HWN') as (HW3' & [?|[?|?]]); [lia|auto|split; [assumption|right; lia]]. }
  destruct ((0 <? c_remain s1) && (0 <? c1)) eqn:Hcond2.
  - destruct (read_from_stream s1 c1) as [[[r2 s2] c2] bs] eqn:E2.
    destruct (rfs_any _ _ _ _ _ _ E2 Hr1 ltac:(lia)) as (Hr2 & Hcase & HW2).
    destruct (Z.ltb_spec r2 0) as [Hneg|Hpos].
    + destruct (Z.ltb_spec r2 0); [|lia]. cbn. splits; auto. intros HW. apply HW2, HW1, HW.
    + destruct Hcase as [[? ?]|(Hr2p & Hbs & Hc2 & HM2)]; [lia|].
      destruct (Z.ltb_spec 0 0); [lia|].
      destruct ((0 <? c_remain s2) && (r2 =? 0)) eqn:Hstop.
      { cbn. splits; auto; [right; rewrite !zlen_app; lia|]. intros HW. apply HW2, HW1, HW. }
      apply K; auto; try lia; [rewrite !zlen_app; lia|].
      intros HW. destruct (HW1 HW) as (HW1' & HM1). split; [apply HW2; exact HW1'|]. split; [lia|].
      apply andb_false_iff in Hstop.
      destruct Hstop as [Hs|Hs]; [apply Z.ltb_ge in Hs; lia|apply Z.eqb_neq in Hs; lia].
  - destruct (Z.ltb_spec 0 0); [lia|]. cbn [andb]. apply K; auto; try lia; [rewrite zlen_app; lia|].
    intros HW. destruct (HW1 HW) as (HW1' & HM1). split; [exact HW1'|]. split; [lia|].
    apply andb_false_iff in Hcond2. destruct Hcond2 as [Hs|Hs]; apply Z.ltb_ge in Hs; lia.
Qed.

(* every read is total and keeps the state well-formed *)
Lemma crs_read_any s count : WFa s -> 0 <= count ->
  exists r o s', crs_read s count = Some (r, o, s') /\ WFa s'.
Proof.
  intros HW Hc.
  pose proof (loop_any (crs_fuel s) s count 0 [] ltac:(apply HW) Hc) as L.
  unfold crs_read, crs_read_f, loop_post in *. destruct (crs_read_loop _ _ _ _ _) as [[[r o] s']|].
  - exists r, o, s'. split; [reflexivity|apply L; exact HW].
  - specialize (L HW). destruct HW as (? & _). unfold crs_fuel, M, lsize, total_len, zlen in *. lia.
Qed.
