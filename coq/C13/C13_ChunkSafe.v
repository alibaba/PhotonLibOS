(* C13_ChunkSafe.v — what holds of the size-line parse of the chunked reader in EVERY state. *)
From Coq Require Import ZArith List Bool Lia.
From PV Require Import Base.U64 C13.C13_Model C13.C13_Proofs.
Import ListNotations.
Local Open Scope Z_scope.

Lemma hex_scan_nonneg s : forall v i, 0 <= v -> 0 <= snd (hex_scan s v i).
Proof.
  induction s as [|c t IH]; intros v i Hv; cbn [hex_scan]; [exact Hv|].
  destruct (16 <=? hex_digit c); [exact Hv|]. apply IH. apply wrap_range.
Qed.
Lemma hex_to_u64_nonneg s : 0 <= hex_to_u64 s.
Proof.
  unfold hex_to_u64. pose proof (hex_scan_nonneg s 0 0 ltac:(lia)) as H.
  destruct (hex_scan s 0 0) as [n v]. cbn in H. destruct (n =? 0); lia.
Qed.

Lemma find_crlf_cons2 c d t :
  find_crlf (c :: d :: t) = if (c =? 13) && (d =? 10) then Some 0
                            else match find_crlf (d :: t) with Some k => Some (k + 1) | None => None end.
Proof. reflexivity. Qed.

Lemma find_crlf_bound s : forall k, find_crlf s = Some k -> 0 <= k /\ k + 2 <= zlen s.
Proof.
  induction s as [|c t IH]; intros k H; [discriminate|].
  destruct t as [|d t']; [discriminate|]. rewrite find_crlf_cons2 in H.
  rewrite (zlen_cons c).
  destruct ((c =? 13) && (d =? 10)).
  - inversion H; subst. rewrite zlen_cons. pose proof (zlen_nonneg t'). lia.
  - destruct (find_crlf (d :: t')) as [j|]; [|discriminate]. inversion H; subst.
    specialize (IH j eq_refl). lia.
Qed.

(* pos_next_chunk, whichever way the CR LF behind the last size line is consumed *)
Lemma pnc_cases s pos :
  let l := zdrop pos (c_line s) in
  if (pos <? 0) || (lsize s <? pos) then pos_next_chunk s pos = None else
  match find_crlf l with
  | None => pos_next_chunk s pos = Some (false, s)
  | Some p => exists fin ps' cl,
      pos_next_chunk s pos =
        Some (true, mkCrs (c_line s) (c_cursor s + p + 2) (hex_to_u64 (ztake p l)) fin ps' (c_err s) cl (c_cap s))
      /\ total_len ps' <= total_len (c_ps s)
      /\ (if negb (hex_to_u64 (ztake p l) =? 0) || (p =? 0) then fin = c_finish s /\ ps' = c_ps s else fin = true)
  end.
Proof.
  unfold pos_next_chunk. cbv zeta. destruct (_ || _); [reflexivity|].
  destruct (find_crlf _) as [p|]; [|reflexivity].
  destruct (negb _ || _); [do 3 eexists; splits; try reflexivity; lia|].
  destruct (2 <? _); [do 3 eexists; splits; try reflexivity; lia|].
  destruct (0 <? _); [|do 3 eexists; splits; try reflexivity; lia].
  pose proof (sk_read_len (c_ps s) (c_err s) (wrap (pos + p + 4 - lsize s))) as Ht.
  destruct (sk_read _ _ _) as [[r bs] ps']. do 3 eexists. splits; try reflexivity.
  destruct Ht as [(_ & _ & ?)|(? & _ & ?)]; lia.
Qed.

(* 0 <= c_remain, all that chunked_read_within_count asks of a state, holds of every freshly
   constructed stream *)
Example crs_init_remain cap partial ps err : 0 <= c_remain (crs_init cap partial ps err).
Proof. cbn. lia. Qed.
