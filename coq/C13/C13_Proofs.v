(* C13_Proofs.v — list lemmas, what the socket oracle delivers, BodyReadStream in both
   framings (behind body_length_exact, body_close_delimited_exact), the writers' wire. *)
From Coq Require Import ZArith List Bool Lia.
From PV Require Import Base.U64 C13.C13_Model.
Import ListNotations.
Local Open Scope Z_scope.

Ltac splits := repeat match goal with |- _ /\ _ => split end.

Lemma zlen_nonneg {A} (l : list A) : 0 <= zlen l.
Proof. unfold zlen. lia. Qed.
Lemma zlen_nil {A} : zlen (@nil A) = 0. Proof. reflexivity. Qed.
Lemma zlen_cons {A} (x : A) l : zlen (x :: l) = 1 + zlen l.
Proof. unfold zlen. cbn [length]. lia. Qed.
Lemma zlen_app {A} (a b : list A) : zlen (a ++ b) = zlen a + zlen b.
Proof. unfold zlen. rewrite app_length. lia. Qed.
Lemma zlen_zero_nil {A} (l : list A) : zlen l = 0 -> l = [].
Proof. destruct l; [reflexivity|]. rewrite zlen_cons. pose proof (zlen_nonneg l). lia. Qed.

Lemma ztake_nonpos {A} n (l : list A) : n <= 0 -> ztake n l = [].
Proof. intros H. unfold ztake. replace (Z.to_nat n) with 0%nat by lia. reflexivity. Qed.
Lemma zdrop_nonpos {A} n (l : list A) : n <= 0 -> zdrop n l = l.
Proof. intros H. unfold zdrop. replace (Z.to_nat n) with 0%nat by lia. reflexivity. Qed.
Lemma ztake_all {A} n (l : list A) : zlen l <= n -> ztake n l = l.
Proof. intros H. unfold ztake, zlen in *. apply firstn_all2. lia. Qed.
Lemma zdrop_all {A} n (l : list A) : zlen l <= n -> zdrop n l = [].
Proof. intros H. unfold zdrop, zlen in *. apply skipn_all2. lia. Qed.
Lemma ztake_zdrop_id {A} n (l : list A) : ztake n l ++ zdrop n l = l.
Proof. apply firstn_skipn. Qed.
Lemma ztake_app_le {A} n (a b : list A) : n <= zlen a -> ztake n (a ++ b) = ztake n a.
Proof.
  intros H. unfold ztake, zlen in *. rewrite firstn_app.
  replace (Z.to_nat n - length a)%nat with 0%nat by lia. cbn. apply app_nil_r.
Qed.
Lemma zdrop_app_le {A} n (a b : list A) : n <= zlen a -> zdrop n (a ++ b) = zdrop n a ++ b.
Proof.
  intros H. unfold zdrop, zlen in *. rewrite skipn_app.
  replace (Z.to_nat n - length a)%nat with 0%nat by lia. reflexivity.
Qed.
Lemma ztake_app_ge {A} n (a b : list A) : zlen a <= n -> ztake n (a ++ b) = a ++ ztake (n - zlen a) b.
Proof.
  intros H. unfold ztake, zlen in *. rewrite firstn_app.
  rewrite firstn_all2 by lia. f_equal. f_equal. lia.
Qed.
Lemma zdrop_app_ge {A} n (a b : list A) : zlen a <= n -> zdrop n (a ++ b) = zdrop (n - zlen a) b.
Proof.
  intros H. unfold zdrop, zlen in *. rewrite skipn_app.
  rewrite skipn_all2 by lia. cbn. f_equal. lia.
Qed.
Lemma zlen_ztake {A} n (l : list A) : 0 <= n <= zlen l -> zlen (ztake n l) = n.
Proof. intros H. unfold ztake, zlen in *. rewrite firstn_length. lia. Qed.
Lemma zlen_zdrop {A} n (l : list A) : 0 <= n <= zlen l -> zlen (zdrop n l) = zlen l - n.
Proof. intros H. unfold zdrop, zlen in *. rewrite skipn_length. lia. Qed.
Lemma zdrop_zdrop {A} a b (l : list A) : 0 <= a -> 0 <= b -> zdrop a (zdrop b l) = zdrop (a + b) l.
Proof.
  intros Ha Hb. unfold zdrop.
  replace (Z.to_nat (a + b)) with (Z.to_nat b + Z.to_nat a)%nat by lia.
  generalize (Z.to_nat a) as x. generalize (Z.to_nat b) as y. clear.
  intros y. revert l. induction y as [|y IH]; intros l x; [reflexivity|].
  destruct l as [|h l]; cbn [Nat.add skipn]; [apply skipn_nil|apply IH].
Qed.
Lemma ztake_add {A} a b (l : list A) : 0 <= a -> 0 <= b ->
  ztake (a + b) l = ztake a l ++ ztake b (zdrop a l).
Proof.
  intros Ha Hb. unfold ztake, zdrop.
  replace (Z.to_nat (a + b)) with (Z.to_nat a + Z.to_nat b)%nat by lia.
  revert l. induction (Z.to_nat a) as [|k IH]; intros l; [reflexivity|].
  destruct l as [|x l]; cbn [Nat.add firstn skipn app].
  - rewrite firstn_nil. reflexivity.
  - f_equal. apply IH.
Qed.
Lemma ztake_ztake {A} a b (l : list A) : ztake a (ztake b l) = ztake (Z.min a b) l.
Proof. unfold ztake. rewrite firstn_firstn. f_equal. lia. Qed.
Lemma ztake_min_len {A} n (l : list A) : ztake (Z.min n (zlen l)) l = ztake n l.
Proof. rewrite <- ztake_ztake, (ztake_all (zlen l)); [reflexivity|lia]. Qed.
Lemma ztake_nil {A} n : ztake n (@nil A) = [].
Proof. apply firstn_nil. Qed.
Lemma zdrop_nil {A} n : zdrop n (@nil A) = [].
Proof. apply skipn_nil. Qed.

Lemma total_len_cons p ps : total_len (p :: ps) = zlen p + total_len ps.
Proof. unfold total_len. cbn [concat]. apply zlen_app. Qed.
Lemma total_len_nonneg ps : 0 <= total_len ps.
Proof. apply zlen_nonneg. Qed.

(* read: whatever the fragmentation, the first min(count, available) bytes of the stream; it
   fails only at the end of a stream that ends with an error *)
Lemma sk_read_spec ps : forall err count,
  let '(r, bs, ps') := sk_read ps err count in
  (r = -1 /\ bs = [] /\ ps' = [] /\ err = true /\ total_len ps < count)
  \/ (r = Z.min (Z.max count 0) (total_len ps) /\ bs = ztake r (concat ps) /\ concat ps' = zdrop r (concat ps)).
Proof.
  induction ps as [|p rest IH]; intros err count; cbn [sk_read].
  - cbv beta iota. destruct (Z.leb_spec count 0); [|destruct err]; [right|left|right]; splits; auto; cbn; lia.
  - rewrite total_len_cons. pose proof (zlen_nonneg p). pose proof (total_len_nonneg rest). cbn [concat].
    destruct (Z.leb_spec count 0).
    { right. rewrite Z.max_r, Z.min_l by lia. splits; auto. }
    destruct (Z.ltb_spec count (zlen p)).
    { right. rewrite Z.max_l, Z.min_l by lia. rewrite ztake_app_le, zdrop_app_le by lia. splits; auto. }
    specialize (IH err (count - zlen p)). destruct (sk_read rest err (count - zlen p)) as [[r bs] ps'].
    destruct IH as [(-> & _ & -> & -> & ?)|(Hr & -> & Hps)].
    + left. splits; auto; lia.
    + destruct (Z.ltb_spec r 0); [lia|]. right.
      replace (Z.min (Z.max count 0) (zlen p + total_len rest)) with (zlen p + r) by lia.
      rewrite ztake_app_ge, zdrop_app_ge by lia. replace (zlen p + r - zlen p) with r by lia. splits; auto.
Qed.

Lemma sk_read_len ps err count :
  let '(r, bs, ps') := sk_read ps err count in
  (r = -1 /\ bs = [] /\ total_len ps' <= total_len ps)
  \/ (0 <= r <= Z.max count 0 /\ zlen bs = r /\ total_len ps' = total_len ps - r).
Proof.
  pose proof (sk_read_spec ps err count) as H. destruct (sk_read ps err count) as [[r bs] ps'].
  pose proof (total_len_nonneg ps). destruct H as [(-> & -> & -> & _)|(Hr & -> & Hps)]; [left; cbn; auto|right].
  unfold total_len in *. rewrite Hps, zlen_ztake, zlen_zdrop by lia. lia.
Qed.

(* recv: at most count bytes from the front of the stream, at least one when there are any *)
Lemma sk_recv_spec ps : forall err count, 0 <= count ->
  let '(r, bs, ps') := sk_recv ps err count in
  -1 <= r <= count /\ r <= total_len ps /\ bs = ztake r (concat ps) /\ concat ps' = zdrop r (concat ps)
  /\ (0 < count -> 0 < total_len ps -> 1 <= r).
Proof.
  induction ps as [|p rest IH]; intros err count Hc; cbn [sk_recv].
  - destruct err; cbn; splits; auto; lia.
  - destruct p as [|x p']; [exact (IH err count Hc)|].
    set (p := x :: p'). assert (1 <= zlen p) by (unfold p; rewrite zlen_cons; pose proof (zlen_nonneg p'); lia).
    rewrite total_len_cons. pose proof (total_len_nonneg rest). cbn [concat].
    destruct (Z.ltb_spec (Z.min count (zlen p)) (zlen p)).
    + cbn [concat]. rewrite ztake_app_le, zdrop_app_le by lia. splits; auto; lia.
    + replace (Z.min count (zlen p)) with (zlen p) by lia.
      rewrite ztake_app_le, zdrop_app_le, ztake_all, zdrop_all by lia. splits; auto; lia.
Qed.

Lemma sk_recv_len ps err count : 0 <= count ->
  let '(r, bs, ps') := sk_recv ps err count in
  -1 <= r <= count /\ zlen bs = Z.max r 0 /\ total_len ps' = total_len ps - Z.max r 0.
Proof.
  intros Hc. pose proof (sk_recv_spec ps err count Hc) as H. destruct (sk_recv ps err count) as [[r bs] ps'].
  destruct H as (Hr & Ht & -> & Hps & _). unfold total_len in *. rewrite Hps.
  destruct (Z.le_gt_cases r 0); [rewrite ztake_nonpos, zdrop_nonpos by lia; cbn; lia|].
  rewrite zlen_ztake, zlen_zdrop by lia. lia.
Qed.

Definition brs_data (s : brs) : bytes := b_partial s ++ concat (b_ps s).

(* what the stream can still deliver: the announced rest of the body, or in close-delimited
   mode everything up to the peer's close *)
Definition brs_avail (s : brs) : Z := if b_cd s then zlen (brs_data s) else b_remain s.
Definition brs_ok (s : brs) : Prop :=
  if b_cd s then b_err s = false else 0 <= b_remain s <= zlen (brs_data s) /\ b_remain s < W64.

Lemma brs_avail_range s : brs_ok s -> 0 <= brs_avail s <= zlen (brs_data s).
Proof. unfold brs_ok, brs_avail. pose proof (zlen_nonneg (brs_data s)). destruct (b_cd s); lia. Qed.

Lemma brs_read_step s count : brs_ok s -> 0 <= count ->
  let n := Z.min count (brs_avail s) in
  exists s', brs_read s count = (n, ztake n (brs_data s), s')
    /\ brs_ok s' /\ brs_avail s' = brs_avail s - n /\ brs_data s' = zdrop n (brs_data s).
Proof.
  intros Hok Hc n. pose proof (brs_avail_range s Hok) as Ha.
  unfold brs_read. set (c1 := if negb (b_cd s) && (b_remain s <? count) then b_remain s else count).
  assert (H1 : 0 <= c1 /\ n = Z.min c1 (zlen (brs_data s)) /\ (b_err s = false \/ c1 <= zlen (brs_data s))).
  { unfold c1, n, brs_ok, brs_avail in *. destruct (b_cd s); cbn [negb andb]; [auto|].
    destruct (Z.ltb_spec (b_remain s) count); lia. }
  destruct H1 as (Hc1 & Hn & Hsrc). assert (Hn' : n <= brs_avail s) by (unfold n; lia). clearbody n c1.
  (* whatever the new partial body, remainder and socket: they hold the data behind the first n bytes *)
  assert (Hpost : forall partial' rem' ps', partial' ++ concat ps' = zdrop n (brs_data s) ->
            (b_cd s = false -> rem' = b_remain s - n) ->
            let s' := mkBrs partial' rem' (b_cd s) ps' (b_err s) in
            brs_ok s' /\ brs_avail s' = brs_avail s - n /\ brs_data s' = zdrop n (brs_data s)).
  { intros partial' rem' ps' Hd Hrem. unfold brs_ok, brs_avail, brs_data in *. cbn [b_cd b_err b_remain b_partial b_ps].
    rewrite Hd, zlen_zdrop by lia. destruct (b_cd s); [auto|]. rewrite Hrem by reflexivity. splits; auto; lia. }
  assert (Hw : b_cd s = false -> n <= b_remain s < W64).
  { intros Hcd. unfold brs_ok, brs_avail in *. destruct (b_cd s); [discriminate|lia]. }
  unfold brs_data in *. rewrite zlen_app in *.
  pose proof (zlen_nonneg (b_partial s)). pose proof (total_len_nonneg (b_ps s)) as Ht. unfold total_len in Ht.
  remember (Z.min c1 (zlen (b_partial s))) as rfr eqn:Hrfr.
  destruct (Z.ltb_spec 0 (c1 - rfr)).
  - (* the partial body is exhausted; the rest comes from the socket, which cannot fail *)
    pose proof (sk_read_spec (b_ps s) (b_err s) (c1 - rfr)) as Hs.
    destruct (sk_read (b_ps s) (b_err s) (c1 - rfr)) as [[r bs] ps'].
    destruct Hs as [(_ & _ & _ & ? & ?)|(Hr & -> & Hps)];
      [exfalso; unfold total_len in *; destruct Hsrc; [congruence|lia]|].
    unfold total_len in Hr. destruct (Z.ltb_spec r 0); [lia|].
    eexists. split; [|apply Hpost].
    + rewrite ztake_app_ge, (ztake_all rfr) by lia. replace (n - zlen (b_partial s)) with r by lia.
      replace (rfr + r) with n by lia. reflexivity.
    + rewrite (zdrop_all rfr), Hps, zdrop_app_ge by lia. cbn [app]. f_equal. lia.
    + intros Hcd. specialize (Hw Hcd). rewrite Hcd. cbv iota.
      rewrite (wrap_small (b_remain s - rfr)), wrap_small by lia. lia.
  - (* served from the partial body alone *)
    replace rfr with n by lia. eexists. split; [|apply Hpost].
    + rewrite ztake_app_le by lia. reflexivity.
    + rewrite zdrop_app_le by lia. reflexivity.
    + intros Hcd. specialize (Hw Hcd). rewrite Hcd. cbv iota. rewrite wrap_small by lia. lia.
Qed.

Lemma brs_read_end s count : brs_ok s -> brs_avail s = 0 -> 0 <= count ->
  exists s', brs_read s count = (0, [], s').
Proof.
  intros Hok Ha Hc. destruct (brs_read_step s count Hok Hc) as (s' & E & _).
  rewrite Ha, Z.min_r, ztake_nonpos in E by lia. exists s'. exact E.
Qed.

(* a sequence of reads *)
Fixpoint brs_run (s : brs) (counts : list Z) : list (Z * bytes) * brs :=
  match counts with
  | [] => ([], s)
  | c :: t => let '(r, o, s1) := brs_read s c in
              let '(l, s2) := brs_run s1 t in ((r, o) :: l, s2)
  end.
Definition rets (l : list (Z * bytes)) : list Z := map fst l.
Definition outs (l : list (Z * bytes)) : bytes := concat (map snd l).
Fixpoint zsum (l : list Z) : Z := match l with [] => 0 | x :: t => x + zsum t end.

Lemma zsum_nonneg l : Forall (fun c => 0 <= c) l -> 0 <= zsum l.
Proof. induction 1; cbn; lia. Qed.

(* Both framings at once: the reads deliver the first min(sum of counts, brs_avail) bytes of
   partial body ++ stream, each result has the length it reports, and the stream is advanced by
   exactly what was delivered. *)
Lemma brs_run_spec : forall counts s,
  brs_ok s -> Forall (fun c => 0 <= c) counts ->
  let '(l, s') := brs_run s counts in
  let n := Z.min (zsum counts) (brs_avail s) in
  outs l = ztake n (brs_data s)
  /\ Forall2 (fun r o => r = zlen o) (rets l) (map snd l)
  /\ brs_ok s' /\ brs_avail s' = brs_avail s - n /\ brs_data s' = zdrop n (brs_data s).
Proof.
  induction counts as [|c t IH]; intros s Hok Hall; pose proof (brs_avail_range s Hok) as Ha.
  - cbn. rewrite Z.min_l, ztake_nonpos, zdrop_nonpos by lia. splits; auto; lia.
  - inversion Hall as [|? ? Hc Ht]; subst. cbn [brs_run zsum]. pose proof (zsum_nonneg t Ht).
    destruct (brs_read_step s c Hok Hc) as (s1 & -> & Hok1 & Ha1 & Hd1).
    specialize (IH s1 Hok1 Ht). destruct (brs_run s1 t) as [l s2].
    destruct IH as (Ho & Hf & Hok2 & Ha2 & Hd2).
    set (n1 := Z.min c (brs_avail s)) in *. set (n2 := Z.min (zsum t) (brs_avail s1)) in *.
    replace (Z.min (c + zsum t) (brs_avail s)) with (n1 + n2) by lia.
    unfold outs, rets in *. cbn [map concat fst snd]. splits; auto.
    + rewrite ztake_add, Ho, Hd1 by lia. reflexivity.
    + constructor; [rewrite zlen_ztake; lia|exact Hf].
    + lia.
    + rewrite Hd2, Hd1, zdrop_zdrop by lia. f_equal. lia.
Qed.

Definition chunk_wire (data : bytes) : bytes := to_hex (zlen data) ++ [13; 10] ++ data ++ [13; 10].
Fixpoint chunks_wire (ws : list bytes) : bytes :=
  match ws with [] => [] | w :: t => chunk_wire w ++ chunks_wire t end.
Fixpoint cws_run (s : cws) (ws : list bytes) : list Z * cws :=
  match ws with
  | [] => ([], s)
  | w :: t => let '(r, s1) := cws_write s w in
              let '(l, s2) := cws_run s1 t in (r :: l, s2)
  end.

Lemma cws_write_ok s data :
  zlen (chunk_wire data) <= w_budget (cw_sock s) ->
  cws_write s data = (zlen data,
                      mkCws (cw_finish s) (mkW (w_out (cw_sock s) ++ chunk_wire data)
                                               (w_budget (cw_sock s) - zlen (chunk_wire data)))).
Proof.
  intros H. unfold cws_write, wk_write. fold (chunk_wire data).
  rewrite Z.min_l by lia. rewrite Z.eqb_refl. cbn [negb].
  rewrite ztake_all by lia. reflexivity.
Qed.
