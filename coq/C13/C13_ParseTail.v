(* C13_ParseTail.v — parse_fragmentation_independent: the parse of head ++ tail does not depend
   on tail when every scan of the parser ends inside `head` (true for every well-formed head:
   start line and header lines contain their delimiters; checked by the executable `*_ok`). *)
From Coq Require Import String.
From Coq Require Import ZArith List Bool Lia.
From PV Require Import C13.C13_Model C13.C13_Msg C13.C13_Proofs C13.C13_MsgProofs
     C13.C13_ParseSafe C13.C13_Statements.
Import ListNotations.
Local Open Scope Z_scope.

Lemma find_char_app c a b : forall pos, find_char c a = Some pos -> find_char c (a ++ b) = Some pos.
Proof.
  induction a as [|x t IH]; intros pos H; [discriminate|]. cbn [app find_char] in *.
  destruct (x =? c); [exact H|]. destruct (find_char c t) as [k|]; [|discriminate].
  rewrite (IH k eq_refl). exact H.
Qed.

Definition eu_ok (a : bytes) (ptr c : Z) : bool :=
  (0 <=? ptr) && (ptr <=? zlen a) && match find_char c (zdrop ptr a) with Some _ => true | None => false end.

Lemma P_extract_until_tail a b ptr c : eu_ok a ptr c = true ->
  P_extract_until (a ++ b) ptr c = P_extract_until a ptr c.
Proof.
  unfold eu_ok. intros H. apply andb_prop in H. destruct H as [H Hf]. apply andb_prop in H. destruct H as [H0 H1].
  apply Z.leb_le in H0. apply Z.leb_le in H1. unfold P_extract_until.
  rewrite zdrop_app_le by lia. destruct (find_char c (zdrop ptr a)) as [pos|] eqn:E; [|discriminate].
  rewrite (find_char_app _ _ b _ E). reflexivity.
Qed.

Definition ss_ok (a : bytes) (ptr : Z) (sv : bytes) : bool :=
  (0 <=? ptr) && (ptr + zlen sv <=? zlen a).
Lemma P_skip_string_tail a b ptr sv : ss_ok a ptr sv = true -> P_skip_string (a ++ b) ptr sv = P_skip_string a ptr sv.
Proof.
  unfold ss_ok. intros H. apply andb_prop in H. destruct H as [H0 H1]. apply Z.leb_le in H0. apply Z.leb_le in H1.
  pose proof (zlen_nonneg sv). unfold P_skip_string. rewrite zdrop_app_le by lia.
  rewrite starts_with_app_long by (rewrite zlen_zdrop; lia). reflexivity.
Qed.

Definition nonc (c : Z) (s : bytes) : bool := existsb (fun x => negb (x =? c)) s.
Lemma skip_while_tail c a b : nonc c a = true -> skip_while c (a ++ b) = skip_while c a.
Proof.
  induction a as [|x t IH]; intros H; [discriminate|]. cbn [app skip_while nonc existsb] in *.
  destruct (x =? c); [|reflexivity]. cbn [negb orb] in H. rewrite (IH H). reflexivity.
Qed.
Definition sc_ok (a : bytes) (ptr c : Z) (rep : bool) : bool :=
  (0 <=? ptr) && (ptr <? zlen a) && (if rep then nonc c (zdrop ptr a) else true).
Lemma P_skip_chars_tail a b ptr c rep : sc_ok a ptr c rep = true ->
  P_skip_chars (a ++ b) ptr c rep = P_skip_chars a ptr c rep.
Proof.
  unfold sc_ok. intros H. apply andb_prop in H. destruct H as [H Hn]. apply andb_prop in H. destruct H as [H0 H1].
  apply Z.leb_le in H0. apply Z.ltb_lt in H1. unfold P_skip_chars. rewrite zdrop_app_le by lia.
  destruct rep.
  - rewrite skip_while_tail by exact Hn. reflexivity.
  - destruct (zdrop ptr a) as [|x t] eqn:E; [|reflexivity].
    apply (f_equal zlen) in E. rewrite zlen_zdrop in E by lia. change (zlen (@nil Z)) with 0 in E. lia.
Qed.

Definition isdig (c : Z) : bool := (48 <=? c) && (c <=? 57).
Definition nondig (s : bytes) : bool := existsb (fun x => negb (isdig x) && (10 <=? (x - 48) mod 256)) s.
Lemma count_digits_tail a b : nondig a = true -> count_digits (a ++ b) = count_digits a.
Proof.
  induction a as [|x t IH]; intros H; [discriminate|]. cbn [app count_digits nondig existsb] in *. fold (isdig x) in *.
  destruct (isdig x); [|reflexivity]. cbn [negb andb orb] in H. rewrite (IH H). reflexivity.
Qed.
Lemma dec_scan_tail a b : forall v i, nondig a = true ->
  (forall x, In x a -> isdig x = negb (10 <=? (x - 48) mod 256)) ->
  dec_scan (a ++ b) v i = dec_scan a v i.
Proof.
  induction a as [|x t IH]; intros v i H Hb; [discriminate|]. cbn [app dec_scan nondig existsb] in *.
  pose proof (Hb x (or_introl eq_refl)) as Hx.
  destruct (10 <=? (x - 48) mod 256) eqn:E; [reflexivity|].
  cbn [negb] in Hx. rewrite Hx in H. cbn [negb andb orb] in H.
  apply IH; [exact H|]. intros y Hy. apply Hb. right. exact Hy.
Qed.
(* the digit tests of extract_integer (isdigit) and to_uint64 (c - '0' as unsigned char) agree on bytes *)
Definition bytes_ok (s : bytes) : bool := forallb (fun x => (0 <=? x) && (x <? 256)) s.
Lemma isdig_agree x : 0 <= x < 256 -> isdig x = negb (10 <=? (x - 48) mod 256).
Proof.
  intros H. unfold isdig.
  destruct (Z.leb_spec 48 x), (Z.leb_spec x 57), (Z.leb_spec 10 ((x - 48) mod 256)); cbn; try reflexivity;
    exfalso; Z.div_mod_to_equations; lia.
Qed.
Definition ei_ok (a : bytes) (ptr : Z) : bool :=
  (0 <=? ptr) && (ptr <=? zlen a) && nondig (zdrop ptr a) && bytes_ok (zdrop ptr a).
Lemma P_extract_integer_tail a b ptr : ei_ok a ptr = true ->
  P_extract_integer (a ++ b) ptr = P_extract_integer a ptr.
Proof.
  unfold ei_ok. intros H. apply andb_prop in H. destruct H as [H Hby]. apply andb_prop in H. destruct H as [H Hnd].
  apply andb_prop in H. destruct H as [H0 H1]. apply Z.leb_le in H0. apply Z.leb_le in H1.
  unfold P_extract_integer. rewrite zdrop_app_le by lia. rewrite count_digits_tail by exact Hnd.
  f_equal. unfold dec_to_u64. rewrite dec_scan_tail; [reflexivity|exact Hnd|].
  intros x Hx. apply isdig_agree. unfold bytes_ok in Hby. rewrite forallb_forall in Hby. specialize (Hby x Hx).
  apply andb_prop in Hby. destruct Hby as [A B]. apply Z.leb_le in A. apply Z.ltb_lt in B. lia.
Qed.

Lemma slice_app a b off len : 0 <= off -> 0 <= len -> off + len <= zlen a -> slice (a ++ b) off len = slice a off len.
Proof.
  intros H0 H1 H2. unfold slice. rewrite zdrop_app_le by lia. rewrite ztake_app_le; [reflexivity|].
  rewrite zlen_zdrop by lia. lia.
Qed.

Definition start_ok (is_req : bool) (a : bytes) : bool :=
  if is_req then
    eu_ok a 0 B_sp &&
    (let '(vs, p1) := P_extract_until a 0 B_sp in
     eu_ok a p1 B_sp &&
     (let '(tg, p2) := P_extract_until a p1 B_sp in
      ss_ok a p2 B_HTTP &&
      (let p3 := P_skip_string a p2 B_HTTP in
       eu_ok a p3 B_cr &&
       (let '(ver, p4) := P_extract_until a p3 B_cr in sc_ok a p4 B_lf false))))
  else
    ss_ok a 0 B_HTTP &&
    (let p1 := P_skip_string a 0 B_HTTP in
     eu_ok a p1 B_sp &&
     (let '(ver, p2) := P_extract_until a p1 B_sp in
      ei_ok a p2 &&
      (let '(code, p3) := P_extract_integer a p2 in
       sc_ok a p3 B_sp false &&
       (let p4 := P_skip_chars a p3 B_sp false in
        eu_ok a p4 B_cr &&
        (let '(sm, p5) := P_extract_until a p4 B_cr in sc_ok a p5 B_lf false))))).

Lemma start_tail m a b : start_ok (m_is_req m) a = true -> zlen a < 65536 ->
  parse_start_line m (a ++ b) = parse_start_line m a.
Proof.
  intros H Hlen. unfold parse_start_line, start_ok in *. destruct (m_is_req m).
  - apply andb_prop in H. destruct H as [H1 H].
    rewrite (P_extract_until_tail a b 0 B_sp H1).
    pose proof (P_extract_until_bounds a 0 B_sp ltac:(pose proof (zlen_nonneg a); lia) Hlen) as Hb1.
    destruct (P_extract_until a 0 B_sp) as [[vo vl] p1]. destruct Hb1 as (Hp1 & Hvo & Hvl & Hvr).
    cbn [fst snd]. rewrite slice_app by lia.
    apply andb_prop in H. destruct H as [H2 H].
    rewrite (P_extract_until_tail a b p1 B_sp H2).
    destruct (P_extract_until a p1 B_sp) as [tg p2].
    apply andb_prop in H. destruct H as [H3 H].
    rewrite (P_skip_string_tail a b p2 B_HTTP H3).
    apply andb_prop in H. destruct H as [H4 H].
    rewrite (P_extract_until_tail a b _ B_cr H4).
    destruct (P_extract_until a (P_skip_string a p2 B_HTTP) B_cr) as [ver p4].
    rewrite (P_skip_chars_tail a b p4 B_lf false H). reflexivity.
  - apply andb_prop in H. destruct H as [H1 H].
    rewrite (P_skip_string_tail a b 0 B_HTTP H1).
    apply andb_prop in H. destruct H as [H2 H].
    rewrite (P_extract_until_tail a b _ B_sp H2).
    destruct (P_extract_until a (P_skip_string a 0 B_HTTP) B_sp) as [ver p2].
    apply andb_prop in H. destruct H as [H3 H].
    rewrite (P_extract_integer_tail a b p2 H3).
    destruct (P_extract_integer a p2) as [code p3].
    apply andb_prop in H. destruct H as [H4 H].
    rewrite (P_skip_chars_tail a b p3 B_sp false H4).
    apply andb_prop in H. destruct H as [H5 H].
    rewrite (P_extract_until_tail a b _ B_cr H5).
    destruct (P_extract_until a (P_skip_chars a p3 B_sp false) B_cr) as [sm p5].
    rewrite (P_skip_chars_tail a b p5 B_lf false H). reflexivity.
Qed.

Fixpoint loop_ok (fuel : nat) (a : bytes) (hcap ext ptr n : Z) : bool :=
  match fuel with
  | O => false
  | S f =>
    (0 <=? ptr) && (ptr <? zlen a) &&
    (if nth (Z.to_nat ptr) a 0 =? B_cr then true else
       eu_ok a ptr B_colon &&
       (let '(k, p1) := P_extract_until a ptr B_colon in
        sc_ok a p1 B_sp true &&
        (let p2 := P_skip_chars a p1 B_sp true in
         eu_ok a p2 B_cr &&
         (let '(v, p3) := P_extract_until a p2 B_cr in
          sc_ok a p3 B_lf false &&
          (let p4 := P_skip_chars a p3 B_lf false in
           (zlen a + ext <? hcap - 8 * (n + 1)) && loop_ok f a hcap ext p4 (n + 1))))))
  end.

Lemma loop_tail : forall fuel a b hcap ext ptr kvs,
  loop_ok fuel a hcap ext ptr (zlen kvs) = true -> zlen b <= ext ->
  parse_loop fuel (a ++ b) hcap ptr kvs = parse_loop fuel a hcap ptr kvs.
Proof.
  induction fuel as [|f IH]; intros a b hcap ext ptr kvs H Hb; [discriminate|].
  cbn [loop_ok parse_loop] in *. pose proof (zlen_nonneg b) as Hb0.
  apply andb_prop in H. destruct H as [H Hrest]. apply andb_prop in H. destruct H as [H0 H1].
  apply Z.leb_le in H0. apply Z.ltb_lt in H1.
  rewrite zlen_app. destruct (Z.leb_spec (zlen a + zlen b) ptr); [lia|].
  destruct (Z.leb_spec (zlen a) ptr); [lia|].
  rewrite app_nth1 by (unfold zlen in *; lia).
  destruct (nth (Z.to_nat ptr) a 0 =? B_cr); [reflexivity|].
  apply andb_prop in Hrest. destruct Hrest as [E1 Hrest].
  rewrite (P_extract_until_tail a b ptr B_colon E1).
  destruct (P_extract_until a ptr B_colon) as [k p1].
  apply andb_prop in Hrest. destruct Hrest as [E2 Hrest].
  rewrite (P_skip_chars_tail a b p1 B_sp true E2).
  apply andb_prop in Hrest. destruct Hrest as [E3 Hrest].
  rewrite (P_extract_until_tail a b _ B_cr E3).
  destruct (P_extract_until a (P_skip_chars a p1 B_sp true) B_cr) as [v p3].
  apply andb_prop in Hrest. destruct Hrest as [E4 Hrest].
  rewrite (P_skip_chars_tail a b p3 B_lf false E4).
  apply andb_prop in Hrest. destruct Hrest as [E5 Hrest]. apply Z.ltb_lt in E5.
  destruct (Z.leb_spec (hcap - 8 * (zlen kvs + 1)) (zlen a + zlen b)); [lia|].
  destruct (Z.leb_spec (hcap - 8 * (zlen kvs + 1)) (zlen a)); [lia|].
  apply (IH a b hcap ext); [|exact Hb]. rewrite zlen_cons. replace (1 + zlen kvs) with (zlen kvs + 1) by lia. exact Hrest.
Qed.

(* the hypotheses are met by an ordinary request head (every scan ends inside it) *)
Definition ex_head : bytes := Eval compute in
  s2b "GET /a HTTP/1.1"%string ++ [13;10] ++ s2b "Host: x"%string ++ [13;10] ++ s2b "A:  b c"%string ++ [13;10;13;10].
Example start_ok_example : start_ok true ex_head = true. Proof. vm_compute. reflexivity. Qed.
Example loop_ok_example : loop_ok 10 (zdrop 17 ex_head) 1000 100 0 0 = true. Proof. vm_compute. reflexivity. Qed.

Lemma take_while_ext {A} (f g : A -> bool) l : (forall x, In x l -> f x = g x) -> take_while f l = take_while g l.
Proof.
  induction l as [|x t IH]; intros H; [reflexivity|]. cbn [take_while].
  rewrite (H x (or_introl eq_refl)). destruct (g x); [|reflexivity]. f_equal. apply IH. intros y Hy. apply H. right. exact Hy.
Qed.
Lemma take_while_incl {A} (f : A -> bool) l x : In x (take_while f l) -> In x l.
Proof.
  induction l as [|y t IH]; [intros []|]. cbn [take_while]. destruct (f y); [|intros []].
  intros [E|H]; [left; exact E|right; apply IH; exact H].
Qed.
Lemma skipn_incl {A} n (l : list A) x : In x (skipn n l) -> In x l.
Proof.
  revert l. induction n as [|n IH]; intros l H; [exact H|]. destruct l as [|y t]; [exact H|]. right. apply IH. exact H.
Qed.

Lemma ins_one_ext f g sorted v : (forall y, In y sorted -> f v y = g v y) -> ins_one f sorted v = ins_one g sorted v.
Proof.
  intros H. unfold ins_one. destruct sorted as [|h t]; [reflexivity|].
  rewrite (H h (or_introl eq_refl)). destruct (g v h); [reflexivity|].
  rewrite (take_while_ext (f v) (g v) (rev (h :: t))); [reflexivity|].
  intros x Hx. apply H. apply in_rev. exact Hx.
Qed.
Lemma ins_one_in f sorted v x : In x (ins_one f sorted v) -> x = v \/ In x sorted.
Proof.
  unfold ins_one. destruct sorted as [|h t]; [intros [E|[]]; left; auto|].
  destruct (f v h); [intros [E|H]; [left; auto|right; exact H]|].
  intros H. apply in_app_or in H. destruct H as [H|H].
  - right. apply in_rev in H. apply skipn_incl in H. apply in_rev in H. exact H.
  - apply in_app_or in H. destruct H as [[E|[]]|H]; [left; auto|].
    right. apply in_rev in H. apply take_while_incl in H. apply in_rev in H. exact H.
Qed.

Lemma fold_ins_ext f g : forall l acc,
  (forall x y, In x (acc ++ l) -> In y (acc ++ l) -> f x y = g x y) ->
  fold_left (ins_one f) l acc = fold_left (ins_one g) l acc.
Proof.
  induction l as [|v t IH]; intros acc H; [reflexivity|]. cbn [fold_left].
  rewrite (ins_one_ext f g acc v).
  - apply IH. intros x y Hx Hy.
    assert (S : forall z, In z (ins_one g acc v ++ t) -> In z (acc ++ v :: t)).
    { intros z Hz. apply in_app_or in Hz. destruct Hz as [Hz|Hz]; [apply ins_one_in in Hz; destruct Hz as [->|Hz]|];
        apply in_or_app; [right; left; reflexivity|left; exact Hz|right; right; exact Hz]. }
    apply H; apply S; assumption.
  - intros y Hy. apply H; apply in_or_app; [right; left; reflexivity|left; exact Hy].
Qed.
Lemma insertion_sort_ext f g l : (forall x y, In x l -> In y l -> f x y = g x y) ->
  insertion_sort f l = insertion_sort g l.
Proof. intros H. unfold insertion_sort. apply fold_ins_ext. exact H. Qed.
Lemma insertion_sort_in f l x : In x (insertion_sort f l) -> In x l.
Proof.
  unfold insertion_sort. assert (G : forall l acc, In x (fold_left (ins_one f) l acc) -> In x acc \/ In x l).
  { induction l0 as [|v t IH]; intros acc H; [left; exact H|]. cbn [fold_left] in H.
    destruct (IH _ H) as [H1|H1]; [apply ins_one_in in H1; destruct H1 as [->|H1]; [right; left; reflexivity|left; exact H1]|right; right; exact H1]. }
  intros H. destruct (G l [] H) as [[]|H1]. exact H1.
Qed.

Lemma lower_bound_aux_ext p q (l : list kv) : (forall e, In e l -> p e = q e) ->
  forall fuel first len, lower_bound_aux fuel p l first len = lower_bound_aux fuel q l first len.
Proof.
  intros H. induction fuel as [|f IH]; intros first len; [reflexivity|]. cbn [lower_bound_aux].
  destruct (len <=? 0); [reflexivity|].
  destruct (nth_error l (Z.to_nat (first + len / 2))) as [e|] eqn:E; [|reflexivity].
  rewrite (H e (nth_error_In _ _ E)). destruct (q e); apply IH.
Qed.

Lemma kv_key_tail hb tail e : kv_ok hb e -> kv_key (hb ++ tail) e = kv_key hb e.
Proof. intros (A & B & C & _). unfold kv_key. apply slice_app; assumption. Qed.
Lemma kv_val_tail hb tail e : kv_ok hb e -> kv_val (hb ++ tail) e = kv_val hb e.
Proof. intros (_ & _ & _ & A & B & C). unfold kv_val. apply slice_app; assumption. Qed.

Lemma h_find_tail hb tail hcap kvs key : Forall (kv_ok hb) kvs ->
  h_find (mkH (hb ++ tail) hcap kvs) key = h_find (mkH hb hcap kvs) key.
Proof.
  intros Hok. rewrite Forall_forall in Hok. unfold h_find, lower_bound. cbn [h_buf h_kv].
  rewrite (lower_bound_aux_ext (fun e => icmp (kv_key (hb ++ tail) e) key <? 0) (fun e => icmp (kv_key hb e) key <? 0) kvs).
  2:{ intros e He. rewrite kv_key_tail by (apply Hok; exact He). reflexivity. }
  destruct (nth_error kvs _) as [e|] eqn:E; [|reflexivity].
  rewrite kv_key_tail by (apply Hok; eapply nth_error_In; exact E). reflexivity.
Qed.
Lemma h_get_tail hb tail hcap kvs key : Forall (kv_ok hb) kvs ->
  h_get (mkH (hb ++ tail) hcap kvs) key = h_get (mkH hb hcap kvs) key.
Proof.
  intros Hok. unfold h_get. rewrite h_find_tail by exact Hok. cbn [h_buf h_kv].
  destruct (h_find (mkH hb hcap kvs) key) as [i|]; [|reflexivity].
  destruct (nth_error kvs (Z.to_nat i)) as [e|] eqn:E; [|reflexivity].
  rewrite Forall_forall in Hok. apply kv_val_tail. apply Hok. eapply nth_error_In. exact E.
Qed.

Definition set_rx (m : msg) (x : bytes) : msg :=
  mkMsg (m_is_req m) (m_cap m) (m_fill m) x (m_status m) (m_verb m) (m_target m) (m_version m)
        (m_stmsg m) (m_code m) (m_body m) (m_hoff m) (m_hdrs m) (m_abandon m).

Lemma parse_start_line_rx m x b :
  parse_start_line (set_rx m x) b = let '(r, c, m1) := parse_start_line m b in (r, c, set_rx m1 x).
Proof.
  unfold parse_start_line, set_rx. cbn [m_is_req m_cap m_fill m_rx m_status m_verb m_target m_version m_stmsg m_code m_body m_hoff m_hdrs m_abandon].
  destruct (m_is_req m).
  - destruct (P_extract_until b 0 B_sp) as [vs p1].
    destruct (string_to_verb _ =? 0); [reflexivity|].
    destruct (P_extract_until b p1 B_sp) as [tg p2]. destruct (P_extract_until b _ B_cr) as [ver p4].
    destruct (6 <=? snd ver); reflexivity.
  - destruct (P_extract_until b _ B_sp) as [ver p2].
    destruct (6 <=? snd ver); [reflexivity|].
    destruct (P_extract_integer b p2) as [code p3].
    destruct ((code <=? 0) || (1000 <=? code)); [reflexivity|].
    destruct (P_extract_until b _ B_cr) as [sm p5]. reflexivity.
Qed.

Definition head_ok (m : msg) (head : bytes) (ext : Z) : bool :=
  start_ok (m_is_req m) head &&
  (let '(r, cur, m1) := parse_start_line m head in
   (0 <=? r) && (0 <=? cur) && (cur <=? zlen head) &&
   (let ver := m_version m1 in (0 <=? fst ver) && (0 <=? snd ver) && (fst ver + snd ver <=? zlen head)) &&
   loop_ok (S (Z.to_nat (u16 (m_cap m - cur) / 8 + 1))) (zdrop cur head) (u16 (m_cap m - cur)) ext 0 0) &&
  match find_term head with Some _ => true | None => false end.

Lemma kv_ok_app hb tail e : kv_ok hb e -> kv_ok (hb ++ tail) e.
Proof. intros (A & B & C & D & E & F). unfold kv_ok. rewrite zlen_app. pose proof (zlen_nonneg tail). lia. Qed.

(* parse_fragmentation_independent: when every scan of the parser ends inside `head`
   (head_ok, executable; it holds for every well-formed head with room for its index), the
   observable parse result on head ++ tail is the one on head alone, for EVERY tail of at most
   `ext` bytes: start line fields, header/body boundary, sorted header index, m_abandon. *)
Lemma parse_whole_tail : forall (m : msg) (head tail : bytes) (ext : Z),
  head_ok m head ext = true -> zlen tail <= ext ->
  zlen (head ++ tail) < m_cap m -> m_cap m < 65536 ->
  parse_obs (parse_whole m (head ++ tail)) = parse_obs (parse_whole m head).
Proof.
  intros m head tail ext Hok Ht Hcap Hc64. pose proof (zlen_nonneg tail) as Ht0. pose proof (zlen_nonneg head) as Hh0.
  rewrite zlen_app in Hcap.
  unfold head_ok in Hok. apply andb_prop in Hok. destruct Hok as [Hok Hterm].
  apply andb_prop in Hok. destruct Hok as [Hstart Hok].
  destruct (find_term head) as [k|] eqn:Hk; [|discriminate].
  unfold parse_whole. rewrite zlen_app.
  destruct (Z.leb_spec (m_cap m) (zlen head + zlen tail)); [lia|].
  destruct (Z.leb_spec (m_cap m) (zlen head)); [lia|].
  rewrite (find_term_app head tail k Hk), Hk.
  change (mkMsg (m_is_req m) (m_cap m) (m_fill m) (head ++ tail) (m_status m) (m_verb m) (m_target m) (m_version m)
                (m_stmsg m) (m_code m) (m_body m) (m_hoff m) (m_hdrs m) (m_abandon m)) with (set_rx m (head ++ tail)).
  change (mkMsg (m_is_req m) (m_cap m) (m_fill m) head (m_status m) (m_verb m) (m_target m) (m_version m)
                (m_stmsg m) (m_code m) (m_body m) (m_hoff m) (m_hdrs m) (m_abandon m)) with (set_rx m head).
  rewrite !parse_start_line_rx. rewrite (start_tail m head tail Hstart ltac:(lia)).
  destruct (parse_start_line m head) as [[r cur] m1].
  apply andb_prop in Hok. destruct Hok as [Hok Hloop]. apply andb_prop in Hok. destruct Hok as [Hok Hver].
  apply andb_prop in Hok. destruct Hok as [Hok Hcur2]. apply andb_prop in Hok. destruct Hok as [Hr Hcur1].
  apply Z.leb_le in Hr. apply Z.leb_le in Hcur1. apply Z.leb_le in Hcur2.
  apply andb_prop in Hver. destruct Hver as [Hver Hv3]. apply andb_prop in Hver. destruct Hver as [Hv1 Hv2].
  apply Z.leb_le in Hv1. apply Z.leb_le in Hv2. apply Z.leb_le in Hv3.
  cbn [set_rx m_is_req m_cap m_fill m_rx m_status m_verb m_target m_version m_stmsg m_code m_body m_hoff m_hdrs m_abandon].
  destruct (Z.ltb_spec r 0); [lia|].
  rewrite zdrop_app_le by lia.
  set (hbA := zdrop cur head) in *. set (hcap := u16 (m_cap m - cur)) in *.
  assert (HlA : zlen hbA = zlen head - cur) by (unfold hbA; apply zlen_zdrop; lia).
  (* the loop needs a non-empty buffer *)
  assert (Hne : 0 < zlen hbA).
  { cbn [loop_ok] in Hloop. apply andb_prop in Hloop. destruct Hloop as [Hl _]. apply andb_prop in Hl. destruct Hl as [_ Hl].
    apply Z.ltb_lt in Hl. exact Hl. }
  unfold h_reset_parse. rewrite zlen_app.
  destruct (Z.eqb_spec (zlen hbA + zlen tail) 0); [lia|]. destruct (Z.eqb_spec (zlen hbA) 0); [lia|].
  rewrite (loop_tail _ hbA tail hcap ext 0 [] Hloop Ht).
  destruct (parse_loop (S (Z.to_nat (hcap / 8 + 1))) hbA hcap 0 []) as [[kvs|]|] eqn:EL; [| reflexivity | reflexivity].
  assert (Hkv : Forall (kv_ok hbA) kvs).
  { pose proof (parse_loop_ok (S (Z.to_nat (hcap / 8 + 1))) hbA hcap 0 [] ltac:(lia) ltac:(lia) (Forall_nil _)) as Hpl.
    rewrite EL in Hpl. exact Hpl. }
  rewrite (kv_ok_in_range hbA kvs Hkv), (kv_ok_in_range _ kvs (Forall_impl _ (kv_ok_app hbA tail) Hkv)).
  assert (Hsort : insertion_sort (h_less (hbA ++ tail)) kvs = insertion_sort (h_less hbA) kvs).
  { apply insertion_sort_ext. intros x y Hx Hy. unfold h_less. rewrite Forall_forall in Hkv.
    rewrite !kv_key_tail by (apply Hkv; assumption). reflexivity. }
  rewrite Hsort. set (sorted := insertion_sort (h_less hbA) kvs).
  assert (Hks : Forall (kv_ok hbA) sorted).
  { rewrite Forall_forall in *. intros e He. apply Hkv. apply (insertion_sort_in _ _ _ He). }
  rewrite !(h_get_tail hbA tail hcap sorted) by exact Hks.
  unfold slice_checked. rewrite zlen_app.
  destruct (Z.ltb_spec (zlen head + zlen tail) (fst (m_version m1) + snd (m_version m1))); [lia|].
  destruct (Z.ltb_spec (zlen head) (fst (m_version m1) + snd (m_version m1))); [lia|].
  rewrite slice_app by lia. reflexivity.
Qed.

(* the hypothesis is met by an ordinary request head, with room for 4096 more bytes *)
Example head_ok_example : head_ok (msg_init true 16384 170 0) ex_head 4096 = true.
Proof. vm_compute. reflexivity. Qed.
