(* C13_MsgProofs.v — the header-terminator search of Message::append_bytes is independent
   of how the bytes were split across recv() calls; witnesses for the defects found. *)
From Coq Require Import String.
From Coq Require Import ZArith List Bool Lia.
From PV Require Import C13.C13_Model C13.C13_Msg C13.C13_Proofs.
Import ListNotations.
Local Open Scope Z_scope.

Definition TERM : bytes := [13; 10; 13; 10].

Lemma starts_with_nil s : starts_with s [] = true.
Proof. destruct s; reflexivity. Qed.

Lemma starts_with_app_long (a b p : bytes) :
  zlen p <= zlen a -> starts_with (a ++ b) p = starts_with a p.
Proof.
  revert a. induction p as [|y p IH]; intros a H; [rewrite !starts_with_nil; reflexivity|].
  destruct a as [|x a].
  - rewrite zlen_cons, zlen_nil in H. pose proof (zlen_nonneg p). lia.
  - cbn [app starts_with]. rewrite IH; [reflexivity|]. rewrite !zlen_cons in H. lia.
Qed.

Lemma find_term_cons x t :
  find_term (x :: t) = if starts_with (x :: t) TERM then Some 0
                       else match find_term t with Some k => Some (k + 1) | None => None end.
Proof. reflexivity. Qed.

Lemma zdrop_succ_cons {A} n (x : A) l : 0 <= n -> zdrop (1 + n) (x :: l) = zdrop n l.
Proof.
  intros H. unfold zdrop. replace (Z.to_nat (1 + n)) with (S (Z.to_nat n)) by lia. reflexivity.
Qed.

(* message.cpp 101-108: searching "\r\n\r\n" in the last 3 old bytes + the new bytes finds
   exactly what a search of the whole buffer finds, provided the old bytes did not contain
   the terminator (which is why the previous calls returned 2). *)
Lemma find_term_window : forall (old bs : bytes),
  find_term old = None ->
  let left := Z.max (zlen old - 3) 0 in
  find_term (zdrop left (old ++ bs)) =
  match find_term (old ++ bs) with Some k => Some (k - left) | None => None end.
Proof.
  induction old as [|x t IH]; intros bs Hnone left.
  - subst left. cbn [zlen length Z.of_nat Z.max Z.sub Z.opp Z.add Z.compare]. cbn [app].
    rewrite zdrop_nonpos by lia. destruct (find_term bs); [f_equal; lia|reflexivity].
  - destruct (Z.le_gt_cases (zlen t) 2) as [Hs|Hl].
    + assert (Hleft : left = 0) by (subst left; rewrite zlen_cons; lia).
      rewrite Hleft, zdrop_nonpos by lia.
      destruct (find_term ((x :: t) ++ bs)); [f_equal; lia|reflexivity].
    + rewrite find_term_cons in Hnone.
      destruct (starts_with (x :: t) TERM) eqn:Hsw; [discriminate|].
      destruct (find_term t) eqn:Ht; [discriminate|].
      specialize (IH bs eq_refl). cbn zeta in IH.
      assert (Hleft : left = 1 + Z.max (zlen t - 3) 0) by (subst left; rewrite zlen_cons; lia).
      rewrite Hleft. cbn [app]. rewrite zdrop_succ_cons by lia. rewrite IH.
      rewrite find_term_cons. change (x :: t ++ bs) with ((x :: t) ++ bs).
      rewrite starts_with_app_long by (rewrite zlen_cons; change (zlen TERM) with 4; lia). rewrite Hsw.
      destruct (find_term (t ++ bs)); [f_equal; lia|reflexivity].
Qed.

(* what append_bytes computes, written without reference to the split old/new *)
Definition parse_whole (m : msg) (rx : bytes) : option (Z * msg) :=
  if m_cap m <=? zlen rx then Some (-1, m) else
  let m0 := mkMsg (m_is_req m) (m_cap m) (m_fill m) rx (m_status m) (m_verb m) (m_target m)
                  (m_version m) (m_stmsg m) (m_code m) (m_body m) (m_hoff m) (m_hdrs m) (m_abandon m) in
  match find_term rx with
  | None => Some (2, m0)
  | Some k =>
    let body := (u16 (k + 4), u16 (zlen rx - (k + 4))) in
    let '(r, cur, m1) := parse_start_line m0 rx in
    let m2 := mkMsg (m_is_req m1) (m_cap m1) (m_fill m1) rx (m_status m1) (m_verb m1) (m_target m1)
                    (m_version m1) (m_stmsg m1) (m_code m1) body (m_hoff m1) (m_hdrs m1) (m_abandon m1) in
    if r <? 0 then Some (r, m2) else
    let hb := zdrop cur rx in
    let hcap := u16 (m_cap m - cur) in
    match h_reset_parse hb hcap with
    | None => None
    | Some None => Some (-1, m2)
    | Some (Some h) =>
      let conn := h_get h K_connection in
      let ver := slice_checked rx (fst (m_version m2)) (snd (m_version m2)) in
      let abandon := beqb conn V_close || negb (zlen (h_get h K_trailer) =? 0)
                     || (beqb ver V_10 && negb (beqb conn V_keepalive)) in
      Some (0, mkMsg (m_is_req m2) (m_cap m2) (m_fill m2) rx HEADER_PARSED (m_verb m2) (m_target m2)
                     (m_version m2) (m_stmsg m2) (m_code m2) body cur h abandon)
    end
  end.

(* One append_bytes step does not depend on where the buffer content was cut into
   "already received" and "just received": header-end position, partial-body boundary,
   start line, header index, framing flags are all functions of the concatenation. *)
Lemma append_bytes_whole : forall (m : msg) (bs : bytes),
  m_status m <> HEADER_PARSED -> zlen bs < 65536 ->
  find_term (m_rx m) = None ->
  append_bytes m bs = parse_whole m (m_rx m ++ bs).
Proof.
  intros m bs Hst Hsz Hnone. unfold append_bytes, parse_whole.
  destruct (Z.eqb_spec (m_status m) HEADER_PARSED) as [|_]; [contradiction|].
  pose proof (zlen_nonneg bs) as Hb. pose proof (zlen_nonneg (m_rx m)) as Hr.
  assert (Hu : u16 (zlen bs) = zlen bs) by (unfold u16; apply Z.mod_small; lia).
  rewrite Hu, zlen_app.
  destruct (m_cap m <=? zlen (m_rx m) + zlen bs); [reflexivity|].
  rewrite (find_term_window (m_rx m) bs Hnone).
  destruct (find_term (m_rx m ++ bs)) as [k|]; [|reflexivity].
  set (left := Z.max (zlen (m_rx m) - 3) 0).
  replace (zlen (m_rx m) + (k - left + 4 - (zlen (m_rx m) - left))) with (k + 4) by lia.
  replace (zlen bs - (k - left + 4 - (zlen (m_rx m) - left)))
    with (zlen (m_rx m) + zlen bs - (k + 4)) by lia.
  reflexivity.
Qed.

(* witnesses and observations for the refuted statements of C13_Properties *)
Definition ascii (s : String.string) : bytes := s2b s.
(* a header line without a colon *)
Definition stale_hdr : bytes := Eval compute in ascii "abc"%string ++ [13;10;13;10].
(* three header names that the comparison over lower8_prefix orders in a cycle *)
Definition cyc_a : bytes := Eval compute in ascii "Yb234567"%string.
Definition cyc_b : bytes := Eval compute in ascii "ya234567"%string.
Definition cyc_c : bytes := Eval compute in ascii "yb"%string.
(* a terminator inside what would otherwise be the request line *)
Definition frag_msg : bytes := Eval compute in
  ascii "GET /"%string ++ [13;10;13;10] ++ ascii "x HTTP/1.1"%string ++ [13;10] ++ ascii "foo: bar"%string ++ [13;10;13;10].
Definition ret_of (o : option (Z * msg * pieces)) : Z :=
  match o with Some (r, _, _) => r | None => -99 end.
Definition nkv_of (o : option (Z * msg * pieces)) : Z :=
  match o with Some (_, m, _) => zlen (h_kv (m_hdrs m)) | None => -99 end.
