From Coq Require Import ZArith List Bool Lia.
From PV Require Import Base.U64 C13.C13_Model C13.C13_Msg C13.C13_Proofs C13.C13_MsgProofs C13.C13_Statements C13.C13_ChunkSafe C13.C13_ChunkTotal C13.C13_ChunkDecode C13.C13_ParseSafe C13.C13_ParseTail.
Import ListNotations.
Local Open Scope Z_scope.

(* Content-Length framing: for every partial body, every fragmentation `ps` of the rest
   of the stream (which may continue beyond the body), every sequence of read sizes:
   the concatenation of the results is the prefix of the body, every result has exactly
   the length it reports, nothing beyond the body is taken from the socket, and once the
   body is exhausted every further read returns 0 (end of body). *)
Theorem body_length_exact :
  forall (partial : bytes) (ps : pieces) (err : bool) (n : Z) (counts : list Z),
    0 <= n < MAX64 -> n <= zlen (partial ++ concat ps) ->
    Forall (fun c => 0 <= c) counts ->
    let body := ztake n (partial ++ concat ps) in
    let '(l, s') := brs_run (brs_init partial n ps err) counts in
    outs l = ztake (zsum counts) body
    /\ Forall2 (fun r o => r = zlen o) (rets l) (map snd l)
    /\ brs_data s' = zdrop (Z.min (zsum counts) n) (partial ++ concat ps)
    /\ (n <= zsum counts -> forall c, 0 <= c -> exists s'', brs_read s' c = (0, [], s'')).
Proof.
  intros partial ps err n counts Hn Hlen Hall body.
  assert (Hcd : b_cd (brs_init partial n ps err) = false) by (cbn; apply Z.eqb_neq; lia).
  assert (Hok : brs_ok (brs_init partial n ps err)).
  { unfold brs_ok. rewrite Hcd. unfold brs_data, W64, MAX64 in *. cbn. lia. }
  pose proof (brs_run_spec counts _ Hok Hall) as H. destruct (brs_run _ counts) as [l s'].
  assert (Hav : brs_avail (brs_init partial n ps err) = n) by (unfold brs_avail; rewrite Hcd; reflexivity).
  rewrite Hav in H. change (brs_data (brs_init partial n ps err)) with (partial ++ concat ps) in H.
  destruct H as (Ho & Hf & Hok' & Ha & Hd).
  splits; auto.
  - rewrite Ho. unfold body. symmetry. apply ztake_ztake.
  - intros Hge c Hc. apply brs_read_end; auto. pose proof (zsum_nonneg counts Hall). lia.
Qed.
Print Assumptions body_length_exact.

(* Close-delimited framing (body_remain = SIZE_MAX): for every partial body, every
   fragmentation of the rest of the stream up to the peer's close, every read sizes: the
   results concatenate to a prefix of partial ++ stream; once everything was delivered
   every further read returns 0. *)
Theorem body_close_delimited_exact :
  forall (partial : bytes) (ps : pieces) (counts : list Z),
    Forall (fun c => 0 <= c) counts ->
    let all := partial ++ concat ps in
    let '(l, s') := brs_run (brs_init partial MAX64 ps false) counts in
    outs l = ztake (zsum counts) all
    /\ Forall2 (fun r o => r = zlen o) (rets l) (map snd l)
    /\ (zlen all <= zsum counts -> forall c, 0 <= c -> exists s'', brs_read s' c = (0, [], s'')).
Proof.
  intros partial ps counts Hall all.
  pose proof (brs_run_spec counts (brs_init partial MAX64 ps false) eq_refl Hall) as H.
  destruct (brs_run _ counts) as [l s']. change (brs_avail (brs_init partial MAX64 ps false)) with (zlen all) in H.
  change (brs_data (brs_init partial MAX64 ps false)) with all in H. destruct H as (Ho & Hf & Hok' & Ha & _).
  splits; auto.
  - rewrite Ho. apply ztake_min_len.
  - intros Hge c Hc. apply brs_read_end; auto. pose proof (zsum_nonneg counts Hall). lia.
Qed.
Print Assumptions body_close_delimited_exact.

(* ChunkedBodyWriteStream: with a peer that accepts everything, any sequence of writes
   followed by close() puts exactly  hex(len) CRLF data CRLF  per write and the terminator
   "0 CRLF CRLF" on the wire; every write returns its count. *)
Theorem chunked_writer_wire : forall (ws : list bytes) (s : cws),
  cw_finish s = false ->
  zlen (chunks_wire ws) + 5 <= w_budget (cw_sock s) ->
  let '(l, s1) := cws_run s ws in
  let '(r, s2) := cws_close s1 in
  l = map zlen ws /\ r = 0 /\ cw_finish s2 = true
  /\ w_out (cw_sock s2) = w_out (cw_sock s) ++ chunks_wire ws ++ [48; 13; 10; 13; 10].
Proof.
  induction ws as [|w t IH]; intros s Hf Hb.
  - cbn [cws_run chunks_wire map]. unfold cws_close. rewrite Hf.
    rewrite cws_write_ok by (cbn in *; lia). cbn [zlen length Z.of_nat Z.eqb cw_sock cw_finish w_out].
    splits; try reflexivity.
  - cbn [cws_run chunks_wire map] in *. rewrite zlen_app in Hb.
    pose proof (zlen_nonneg (chunks_wire t)) as Ht.
    rewrite cws_write_ok by lia.
    set (s1 := mkCws (cw_finish s) _).
    specialize (IH s1 Hf). cbn [s1 cw_sock w_budget w_out] in IH.
    specialize (IH ltac:(lia)).
    destruct (cws_run s1 t) as [l s2]. destruct (cws_close s2) as [r s3].
    destruct IH as (Hl & Hr & Hf3 & Hout).
    splits; try assumption.
    + rewrite Hl. reflexivity.
    + rewrite Hout, <- !app_assoc. reflexivity.
Qed.
Print Assumptions chunked_writer_wire.

Theorem terminator_search_window : forall (old bs : bytes),
  find_term old = None ->
  let left := Z.max (zlen old - 3) 0 in
  find_term (zdrop left (old ++ bs)) =
  match find_term (old ++ bs) with Some k => Some (k - left) | None => None end.
Proof. exact find_term_window. Qed.
Print Assumptions terminator_search_window.

Theorem append_bytes_split_independent : forall (m : msg) (bs : bytes),
  m_status m <> HEADER_PARSED -> zlen bs < 65536 ->
  find_term (m_rx m) = None ->
  append_bytes m bs = parse_whole m (m_rx m ++ bs).
Proof. exact append_bytes_whole. Qed.
Print Assumptions append_bytes_split_independent.

(* Two different ways of cutting the same accumulated bytes give the same result. *)
Theorem parse_step_fragmentation_independent : forall (m1 m2 : msg) (bs1 bs2 : bytes),
  m_status m1 <> HEADER_PARSED -> zlen bs1 < 65536 -> zlen bs2 < 65536 ->
  find_term (m_rx m1) = None -> find_term (m_rx m2) = None ->
  m_rx m1 ++ bs1 = m_rx m2 ++ bs2 ->
  m2 = mkMsg (m_is_req m1) (m_cap m1) (m_fill m1) (m_rx m2) (m_status m1) (m_verb m1) (m_target m1)
             (m_version m1) (m_stmsg m1) (m_code m1) (m_body m1) (m_hoff m1) (m_hdrs m1) (m_abandon m1) ->
  match append_bytes m1 bs1, append_bytes m2 bs2 with
  | Some (r1, a), Some (r2, b) =>
      r1 = r2 /\ (r1 <> -1 \/ m_cap m1 > zlen (m_rx m1 ++ bs1) -> a = b)
  | None, None => True
  | _, _ => False
  end.
Proof.
  intros m1 m2 bs1 bs2 Hst H1 H2 Hn1 Hn2 Heq Hm2.
  assert (Hst2 : m_status m2 <> HEADER_PARSED) by (rewrite Hm2; exact Hst).
  rewrite (append_bytes_whole m1 bs1 Hst H1 Hn1), (append_bytes_whole m2 bs2 Hst2 H2 Hn2), <- Heq.
  set (rx := m_rx m1 ++ bs1).
  unfold parse_whole. rewrite Hm2. cbn [m_cap m_is_req m_fill m_status m_verb m_target m_version
                                         m_stmsg m_code m_body m_hoff m_hdrs m_abandon].
  destruct (Z.leb_spec (m_cap m1) (zlen rx)) as [Hc|Hc].
  - split; [reflexivity|]. intros [H|H]; [congruence|lia].
  - destruct (find_term rx); [|split; [reflexivity|intros _; reflexivity]].
    destruct (parse_start_line _ rx) as [[r cur] mm].
    destruct (r <? 0); [split; [reflexivity|intros _; reflexivity]|].
    destruct (h_reset_parse _ _) as [[h|]|]; try exact I; split; try reflexivity; intros _; reflexivity.
Qed.
Print Assumptions parse_step_fragmentation_independent.

(* F27 (fixed in /repo by `while (!p.is_done() && p[0] != '\r')`): before the fix, for a
   header line without a colon the loop of HeadersBase::parse read m_buf[m_buf_size], a stale
   byte OUTSIDE the received message, and that byte decided between "parsed" and "error". *)
Theorem header_parse_stale_byte_prefix_refuted :
  exists (hb : bytes) (b1 b2 : Z),
    (exists kvs, parse_loop_prefix 100 hb 100 (Some b1) 0 [] = Some (Some kvs)) /\
    parse_loop_prefix 100 hb 100 (Some b2) 0 [] = Some None.
Proof. exists stale_hdr, 13, 65. split; [eexists|]; vm_compute; reflexivity. Qed.
Print Assumptions header_parse_stale_byte_prefix_refuted.

(* F28 (fixed by 'X' -> 'Z' in tolower_fast8): before the fix the header-name comparison was
   not a strict weak order -- a cycle A < B < C < A -- so the sorted index could hide a header
   from the binary search (implementation witness: Content-Length missed, notes/C13.md). *)
Theorem header_compare_cyclic_prefix_refuted :
  exists a b c : bytes,
    icmp_with lower8_prefix a b = -1 /\ icmp_with lower8_prefix b c = -1 /\ icmp_with lower8_prefix c a = -1.
Proof.
  exists cyc_a, cyc_b, cyc_c. splits; vm_compute; reflexivity.
Qed.
Print Assumptions header_compare_cyclic_prefix_refuted.

(* F-C13-3: for byte strings that are NOT a well-formed message head the parse result
   depends on the fragmentation: the start-line / header parsers run over the whole
   received buffer, i.e. over however much of the bytes behind the terminator happened to
   arrive in the same recv(). *)
Theorem parse_fragmentation_dependent_malformed_refuted :
  exists (bytes : bytes) (ps1 ps2 : pieces),
    concat ps1 = bytes /\ concat ps2 = bytes /\
    ret_of (receive_header 10 (msg_init true 16384 0 0) ps1 false) = 0 /\
    ret_of (receive_header 10 (msg_init true 16384 0 0) ps2 false) = 0 /\
    nkv_of (receive_header 10 (msg_init true 16384 0 0) ps1 false) = 0 /\
    nkv_of (receive_header 10 (msg_init true 16384 0 0) ps2 false) = 1.
Proof.
  exists frag_msg, [ztake 9 frag_msg; zdrop 9 frag_msg], [frag_msg].
  splits; vm_compute; reflexivity.
Qed.
Print Assumptions parse_fragmentation_dependent_malformed_refuted.

Theorem chunked_read_within_count : forall fuel s count r o s',
  crs_read_f fuel s count = Some (r, o, s') -> 0 <= c_remain s -> 0 <= count ->
  0 <= c_remain s' /\ (r < 0 \/ (zlen o = r /\ 0 <= r <= count)).
Proof.
  intros fuel s count r o s' H Hr Hc.
  pose proof (loop_any fuel s count 0 [] Hr Hc) as L.
  unfold crs_read_f in H. rewrite H in L. destruct L as (Hr' & [?|[Ho ?]] & _); [auto|].
  rewrite zlen_nil in Ho. split; [exact Hr'|right; lia].
Qed.
Print Assumptions chunked_read_within_count.

(* For every valid chunked encoding (any chunk sizes, multi-KB chunks, extensions, hex case,
   size lines up to the 4 KB line buffer), every partial body of at most 4096 bytes, every
   fragmentation of the rest, every sequence of read sizes: no out-of-range access and no fuel
   exhaustion, the results concatenate to the payload prefix, each has the length it reports,
   and once more than the payload was asked for the stream is finished and every further read
   returns 0. *)
Theorem chunked_decode_spec :
  forall (wire payload partial : bytes) (ps : pieces) (counts : list Z),
    valid_chunked wire payload -> partial ++ concat ps = wire -> zlen partial <= LINE_BUFFER_SIZE ->
    Forall (fun c => 0 <= c) counts ->
    exists l s', crs_run (crs_init LINE_BUFFER_SIZE partial ps false) counts = Some (l, s')
      /\ outs l = ztake (zsum counts) payload
      /\ Forall2 (fun r o => r = zlen o) (rets l) (map snd l)
      /\ (zlen payload < zsum counts ->
          c_finish s' = true /\ forall c, crs_read s' c = Some (0, [], s')).
Proof.
  intros wire payload partial ps counts Hv Hw Hp Hall.
  destruct (crs_decode_G0 LINE_BUFFER_SIZE wire payload partial ps counts (valid_G0 _ _ Hv) Hw Hp (Z.le_refl _) Hall)
    as (l & s' & E & Ho & Hf & Hfin).
  exists l, s'. splits; auto. intros Hlt. split; [auto|]. intros c. apply crs_read_finished. auto.
Qed.
Print Assumptions chunked_decode_spec.

(* Whatever the writer was given in non-empty writes (any chunking of the payload) comes back
   from the reader: for every partial body (<= 4096 bytes) / fragmentation of the writer's wire
   bytes and every read sizes, the reads concatenate to the written bytes, then the stream is
   finished and returns 0. *)
Theorem chunked_roundtrip :
  forall (ws : list bytes) (s0 : cws) (partial : bytes) (ps : pieces) (counts : list Z),
    Forall (fun w => w <> [] /\ zlen w < W64) ws ->
    cw_finish s0 = false -> w_out (cw_sock s0) = [] ->
    zlen (chunks_wire ws) + 5 <= w_budget (cw_sock s0) ->
    let '(_, s1) := cws_run s0 ws in
    let '(_, s2) := cws_close s1 in
    partial ++ concat ps = w_out (cw_sock s2) -> zlen partial <= LINE_BUFFER_SIZE ->
    Forall (fun c => 0 <= c) counts ->
    exists l s', crs_run (crs_init LINE_BUFFER_SIZE partial ps false) counts = Some (l, s')
      /\ outs l = ztake (zsum counts) (concat ws)
      /\ Forall2 (fun r o => r = zlen o) (rets l) (map snd l)
      /\ (zlen (concat ws) < zsum counts ->
          c_finish s' = true /\ forall c, crs_read s' c = Some (0, [], s')).
Proof.
  intros ws s0 partial ps counts Hws Hf0 Hout0 Hbud.
  pose proof (chunked_writer_wire ws s0 Hf0 Hbud) as Hw.
  destruct (cws_run s0 ws) as [l1 s1]. destruct (cws_close s1) as [r s2].
  destruct Hw as (_ & _ & _ & Hout). rewrite Hout0 in Hout. cbn [app] in Hout.
  intros Hwire Hp Hall.
  apply (chunked_decode_spec (chunks_wire ws ++ TERMINATOR) (concat ws) partial ps counts); auto.
  - apply chunks_wire_valid. exact Hws.
  - rewrite Hwire, Hout. reflexivity.
Qed.
Print Assumptions chunked_roundtrip.

(* For EVERY partial body (<= 4096 bytes), byte stream, fragmentation, error flag and
   non-negative read sizes the run never returns None: no out-of-range access (in particular
   recv never stores beyond the line buffer) and the loops finish within
   crs_fuel = |line buffer| + |stream| + 2 rounds. *)
Theorem chunked_malformed_safe :
  forall (cap : Z) (partial : bytes) (ps : pieces) (err : bool) (counts : list Z),
    LINE_BUFFER_SIZE <= cap -> zlen partial <= LINE_BUFFER_SIZE ->
    Forall (fun c => 0 <= c) counts ->
    crs_run (crs_init cap partial ps err) counts <> None.
Proof.
  intros cap partial ps err counts Hcap Hp Hall.
  assert (HW : WFa (crs_init cap partial ps err)).
  { unfold WFa, lsize. cbn. pose proof (zlen_nonneg partial). lia. }
  revert HW. generalize (crs_init cap partial ps err).
  induction Hall as [|c t Hc Ht IH]; intros s HW; cbn [crs_run]; [discriminate|].
  destruct (crs_read_any s c HW Hc) as (r & o & s' & E & HW'). rewrite E.
  specialize (IH s' HW'). destruct (crs_run s' t) as [[l s2]|]; [discriminate|contradiction].
Qed.
Print Assumptions chunked_malformed_safe.

(* For every buffer capacity < 64K, stale fill byte, request or response, byte stream,
   fragmentation and error flag: receive_header never returns None. *)
Theorem parse_malformed_safe :
  forall (is_req : bool) (cap fill verb : Z) (ps : pieces) (err : bool),
    0 < cap < 65536 ->
    receive_header (rh_fuel ps) (msg_init is_req cap fill verb) ps err <> None.
Proof.
  intros is_req cap fill verb ps err Hcap.
  destruct (receive_header_spec (rh_fuel ps) (msg_init is_req cap fill verb) ps err Hcap eq_refl eq_refl)
    as (r & m & q & -> & _); [unfold rh_fuel, total_len, zlen; lia|discriminate].
Qed.
Print Assumptions parse_malformed_safe.

(* Two fragmentations of the same bytes: same header/body boundary. *)
Theorem header_boundary_fragmentation_independent :
  forall (is_req : bool) (cap fill verb : Z) (bytes : bytes) (ps1 ps2 : pieces) (err1 err2 : bool) (k : Z),
    concat ps1 = bytes -> concat ps2 = bytes -> find_term bytes = Some k ->
    0 < cap < 65536 -> k + 3 + MAX_TRANSFER_BYTES + (MAX_TRANSFER_BYTES + RESERVED_INDEX_SIZE) < cap ->
    exists r1 m1 q1 r2 m2 q2,
      receive_header (rh_fuel ps1) (msg_init is_req cap fill verb) ps1 err1 = Some (r1, m1, q1) /\
      receive_header (rh_fuel ps2) (msg_init is_req cap fill verb) ps2 err2 = Some (r2, m2, q2) /\
      fst (m_body m1) = fst (m_body m2) /\ fst (m_body m1) = u16 (k + 4) /\ r1 <> 2 /\ r2 <> 2.
Proof.
  intros is_req cap fill verb bytes ps1 ps2 err1 err2 k H1 H2 Hk Hcap Hroom.
  assert (Hb : forall ps err, concat ps = bytes -> exists r m q,
            receive_header (rh_fuel ps) (msg_init is_req cap fill verb) ps err = Some (r, m, q)
            /\ r <> 2 /\ fst (m_body m) = u16 (k + 4)).
  { intros ps err Hps.
    destruct (receive_header_spec (rh_fuel ps) (msg_init is_req cap fill verb) ps err Hcap eq_refl eq_refl)
      as (r & m & q & E & H); [unfold rh_fuel, total_len, zlen; lia|].
    exists r, m, q. split; [exact E|]. apply H; [cbn [msg_init m_rx app]; congruence|exact Hroom]. }
  destruct (Hb ps1 err1 H1) as (r1 & m1 & q1 & E1 & Hn1 & Hb1).
  destruct (Hb ps2 err2 H2) as (r2 & m2 & q2 & E2 & Hn2 & Hb2).
  exists r1, m1, q1, r2, m2, q2. splits; auto. congruence.
Qed.
Print Assumptions header_boundary_fragmentation_independent.

Theorem start_line_tail_independent : forall (m : msg) (a b : bytes),
  start_ok (m_is_req m) a = true -> zlen a < 65536 ->
  parse_start_line m (a ++ b) = parse_start_line m a.
Proof. exact start_tail. Qed.
Print Assumptions start_line_tail_independent.

Theorem header_lines_tail_independent : forall fuel a b hcap ext ptr kvs,
  loop_ok fuel a hcap ext ptr (zlen kvs) = true -> zlen b <= ext ->
  parse_loop fuel (a ++ b) hcap ptr kvs = parse_loop fuel a hcap ptr kvs.
Proof. exact loop_tail. Qed.
Print Assumptions header_lines_tail_independent.

(* Two different tails (= two fragmentations that delivered different amounts behind the head):
   same observable parse result. *)
Theorem parse_fragmentation_independent : forall (m : msg) (head tail1 tail2 : bytes) (ext : Z),
  head_ok m head ext = true -> zlen tail1 <= ext -> zlen tail2 <= ext ->
  zlen (head ++ tail1) < m_cap m -> zlen (head ++ tail2) < m_cap m -> m_cap m < 65536 ->
  parse_obs (parse_whole m (head ++ tail1)) = parse_obs (parse_whole m (head ++ tail2)).
Proof.
  intros m head t1 t2 ext Hok H1 H2 Hc1 Hc2 Hc.
  rewrite (parse_whole_tail m head t1 ext Hok H1 Hc1 Hc).
  rewrite (parse_whole_tail m head t2 ext Hok H2 Hc2 Hc). reflexivity.
Qed.
Print Assumptions parse_fragmentation_independent.
