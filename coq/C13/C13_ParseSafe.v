(* C13_ParseSafe.v — parse_malformed_safe: on EVERY byte string and fragmentation the header
   receiver never reaches an out-of-range access (every index entry lies inside the parsed
   buffer) and terminates within its fuel: |stream| + 2 recv rounds, capacity/8 + 2 rounds of
   HeadersBase::parse.  header_boundary_fragmentation_independent: where it finds the end of
   the head. *)
From Coq Require Import ZArith List Bool Lia.
From PV Require Import C13.C13_Model C13.C13_Msg C13.C13_Proofs C13.C13_MsgProofs.
Import ListNotations.
Local Open Scope Z_scope.

Lemma find_char_bound c s : forall pos, find_char c s = Some pos -> 0 <= pos < zlen s.
Proof.
  induction s as [|x t IH]; intros pos H; [discriminate|]. cbn [find_char] in H. rewrite zlen_cons.
  pose proof (zlen_nonneg t). destruct (x =? c); [inversion H; lia|].
  destruct (find_char c t) as [k|]; [|discriminate]. inversion H; subst. specialize (IH k eq_refl). lia.
Qed.
Lemma skip_while_bound c s : 0 <= skip_while c s <= zlen s.
Proof.
  induction s as [|x t IH]; cbn [skip_while]; [cbn; lia|]. rewrite zlen_cons. destruct (x =? c); lia.
Qed.

Lemma u16_small x : 0 <= x < 65536 -> u16 x = x.
Proof. intros H. unfold u16. apply Z.mod_small. exact H. Qed.

Lemma P_extract_until_bounds b ptr c :
  0 <= ptr <= zlen b -> zlen b < 65536 ->
  let '((o, l), p') := P_extract_until b ptr c in
  ptr <= p' <= zlen b /\ o = ptr /\ 0 <= l /\ o + l <= zlen b.
Proof.
  intros Hp Hb. unfold P_extract_until.
  assert (Hl : zlen (zdrop ptr b) = zlen b - ptr) by (apply zlen_zdrop; lia).
  destruct (find_char c (zdrop ptr b)) as [pos|] eqn:Hf.
  - apply find_char_bound in Hf. rewrite Hl in Hf. rewrite !u16_small by lia. lia.
  - rewrite Hl. rewrite !u16_small by lia. lia.
Qed.
Lemma P_skip_chars_bounds b ptr c rep : 0 <= ptr <= zlen b -> ptr <= P_skip_chars b ptr c rep <= zlen b.
Proof.
  intros Hp. unfold P_skip_chars.
  assert (Hl : zlen (zdrop ptr b) = zlen b - ptr) by (apply zlen_zdrop; lia).
  destruct rep.
  - pose proof (skip_while_bound c (zdrop ptr b)). lia.
  - destruct (zdrop ptr b) as [|x t] eqn:E; [lia|]. rewrite zlen_cons in Hl. pose proof (zlen_nonneg t).
    destruct (x =? c); lia.
Qed.

(* index entries that lie inside the header buffer *)
Definition kv_ok (hb : bytes) (e : kv) : Prop :=
  0 <= kv_ko e /\ 0 <= kv_kl e /\ kv_ko e + kv_kl e <= zlen hb /\
  0 <= kv_vo e /\ 0 <= kv_vl e /\ kv_vo e + kv_vl e <= zlen hb.
Lemma kv_ok_in_range hb kvs : Forall (kv_ok hb) kvs -> forallb (kv_in_range hb) kvs = true.
Proof.
  intros H. apply forallb_forall. rewrite Forall_forall in H. intros e He. destruct (H e He) as (_ & _ & A & _ & _ & B).
  unfold kv_in_range. apply andb_true_intro. split; apply Z.leb_le; assumption.
Qed.

(* HeadersBase::parse: every entry it records lies inside the buffer, and it runs out of fuel
   only if the fuel was less than the number of entries the index has room for, + 2 *)
Lemma parse_loop_ok : forall fuel hb hcap ptr kvs,
  zlen hb < 65536 -> 0 <= ptr <= zlen hb -> Forall (kv_ok hb) kvs ->
  match parse_loop fuel hb hcap ptr kvs with
  | None => ~ (hcap / 8 + 2 <= Z.of_nat fuel + zlen kvs /\ zlen kvs <= hcap / 8 /\ 0 <= hcap)
  | Some None => True
  | Some (Some kvs') => Forall (kv_ok hb) kvs'
  end.
Proof.
  induction fuel as [|f IH]; intros hb hcap ptr kvs Hb Hp Hin; cbn [parse_loop]; [cbn; lia|].
  destruct (zlen hb <=? ptr); [exact Hin|].
  destruct (nth (Z.to_nat ptr) hb 0 =? B_cr); [exact Hin|].
  pose proof (P_extract_until_bounds hb ptr B_colon Hp Hb) as H1.
  destruct (P_extract_until hb ptr B_colon) as [[ko kl] p1]. destruct H1 as (Hp1 & Hko & Hkl & Hkr).
  pose proof (P_skip_chars_bounds hb p1 B_sp true ltac:(lia)) as Hp2.
  set (p2 := P_skip_chars hb p1 B_sp true) in *.
  pose proof (P_extract_until_bounds hb p2 B_cr ltac:(lia) Hb) as H3.
  destruct (P_extract_until hb p2 B_cr) as [[vo vl] p3]. destruct H3 as (Hp3 & Hvo & Hvl & Hvr).
  pose proof (P_skip_chars_bounds hb p3 B_lf false ltac:(lia)) as Hp4.
  cbn [fst snd].
  destruct (Z.leb_spec (hcap - 8 * (zlen kvs + 1)) (zlen hb)) as [|Hroom]; [exact I|].
  specialize (IH hb hcap (P_skip_chars hb p3 B_lf false) ((ko, kl, vo, vl) :: kvs) Hb ltac:(lia)).
  destruct (parse_loop f hb hcap _ _) as [[kvs'|]|]; [| |rewrite zlen_cons in IH; intros (? & ? & ?); apply IH];
    try apply IH; try (constructor; [unfold kv_ok; cbn; lia|exact Hin]).
  pose proof (zlen_nonneg hb). assert (zlen kvs + 1 <= hcap / 8) by (apply Z.div_le_lower_bound; lia). lia.
Qed.

Lemma h_reset_parse_safe hb hcap : zlen hb < 65536 -> 0 <= hcap -> h_reset_parse hb hcap <> None.
Proof.
  intros Hb Hcap. unfold h_reset_parse. destruct (zlen hb =? 0); [discriminate|].
  pose proof (parse_loop_ok (S (Z.to_nat (hcap / 8 + 1))) hb hcap 0 [] Hb ltac:(pose proof (zlen_nonneg hb); lia) (Forall_nil _)) as H.
  destruct (parse_loop _ hb hcap 0 []) as [[kvs|]|]; [|discriminate|].
  - rewrite (kv_ok_in_range hb kvs H). discriminate.
  - exfalso. apply H. assert (0 <= hcap / 8) by (apply Z.div_pos; lia). change (zlen (@nil kv)) with 0. lia.
Qed.

Lemma parse_start_line_cap m b : let '(_, _, m1) := parse_start_line m b in m_cap m1 = m_cap m.
Proof.
  unfold parse_start_line. destruct (m_is_req m).
  - destruct (P_extract_until b 0 B_sp) as [vs p1].
    destruct (string_to_verb _ =? 0); [reflexivity|].
    destruct (P_extract_until b p1 B_sp) as [tg p2]. destruct (P_extract_until b _ B_cr) as [ver p4].
    destruct (6 <=? snd ver); reflexivity.
  - destruct (P_extract_until b _ B_sp) as [ver p2].
    destruct (6 <=? snd ver); [reflexivity|].
    destruct (P_extract_integer b p2) as [code p3].
    destruct ((code <=? 0) || (1000 <=? code)); [reflexivity|].
    destruct (P_extract_until b _ B_cr) as [sm p5]. reflexivity.
Qed.

(* parse_whole (= what an append_bytes step computes) is total and keeps the capacity; it
   asks for more bytes (2) only when no terminator is there, and when the first terminator
   is at k it records the boundary k + 4 *)
Lemma parse_whole_total m rx : 0 < m_cap m < 65536 ->
  exists ret m', parse_whole m rx = Some (ret, m') /\ m_cap m' = m_cap m
    /\ (ret = 2 -> find_term rx = None /\ m_status m' = m_status m /\ m_rx m' = rx)
    /\ (forall k, find_term rx = Some k -> zlen rx < m_cap m -> ret <> 2 /\ fst (m_body m') = u16 (k + 4)).
Proof.
  intros Hcap. unfold parse_whole.
  destruct (Z.leb_spec (m_cap m) (zlen rx)).
  { do 2 eexists. split; [reflexivity|]. splits; auto; intros; [discriminate|lia]. }
  destruct (find_term rx) as [k|].
  2:{ do 2 eexists. split; [reflexivity|]. splits; auto; intros; discriminate. }
  match goal with |- context [parse_start_line ?a ?b] => pose proof (parse_start_line_cap a b) as Hc1;
     destruct (parse_start_line a b) as [[r cur] m1] end.
  cbn [m_cap] in Hc1.
  assert (Hhb : zlen (zdrop cur rx) < 65536) by (unfold zdrop, zlen in *; rewrite skipn_length; lia).
  pose proof (h_reset_parse_safe (zdrop cur rx) (u16 (m_cap m - cur)) Hhb ltac:(unfold u16; apply Z.mod_pos_bound; lia)) as Hsafe.
  destruct (Z.ltb_spec r 0); [|destruct (h_reset_parse (zdrop cur rx) (u16 (m_cap m - cur))) as [[h|]|]; [| |contradiction]];
    (do 2 eexists; split; [reflexivity|]; splits; [exact Hc1|intros; lia|intros k' E _; inversion E; split; [lia|reflexivity]]).
Qed.

Lemma starts_with_len s p : starts_with s p = true -> zlen p <= zlen s.
Proof.
  revert s. induction p as [|y p IH]; intros s H; [cbn; apply zlen_nonneg|].
  destruct s as [|x s]; [discriminate|]. cbn [starts_with] in H. apply andb_prop in H. destruct H as [_ H].
  rewrite !zlen_cons. specialize (IH s H). lia.
Qed.

Lemma find_term_bound s : forall k, find_term s = Some k -> 0 <= k /\ k + 4 <= zlen s.
Proof.
  induction s as [|x t IH]; intros k H; [discriminate|]. rewrite find_term_cons in H.
  destruct (starts_with (x :: t) TERM) eqn:Hs.
  - inversion H; subst. apply starts_with_len in Hs. change (zlen TERM) with 4 in Hs. lia.
  - destruct (find_term t) as [j|]; [|discriminate]. inversion H; subst. specialize (IH j eq_refl).
    rewrite zlen_cons. lia.
Qed.

Lemma find_term_app a b : forall k, find_term a = Some k -> find_term (a ++ b) = Some k.
Proof.
  induction a as [|x t IH]; intros k H; [discriminate|].
  rewrite find_term_cons in H. change ((x :: t) ++ b) with (x :: (t ++ b)). rewrite find_term_cons.
  destruct (starts_with (x :: t) TERM) eqn:Hs.
  - pose proof (starts_with_len _ _ Hs) as Hl.
    change (x :: t ++ b) with ((x :: t) ++ b). rewrite starts_with_app_long, Hs by exact Hl. exact H.
  - destruct (find_term t) as [j|] eqn:Hj; [|discriminate].
    destruct (find_term_bound _ _ Hj) as (Hj0 & Hl).
    change (x :: t ++ b) with ((x :: t) ++ b).
    rewrite starts_with_app_long by (rewrite zlen_cons; change (zlen TERM) with 4; lia).
    rewrite Hs, (IH j eq_refl). exact H.
Qed.

(* receive_header on EVERY byte string, fragmentation and error flag: it returns within
   |stream| + 2 recv rounds (parse_malformed_safe); and when the bytes contain a header
   terminator (first at k) and the buffer has room (capacity > k + 3 + 4096 + 5120) it finds the
   boundary k + 4, i.e. the partial body starts at the same offset however the bytes were split
   (header_boundary_fragmentation_independent). *)
Lemma receive_header_spec : forall fuel m ps err,
  0 < m_cap m < 65536 -> m_status m = INIT -> find_term (m_rx m) = None -> total_len ps + 1 < Z.of_nat fuel ->
  exists ret m' ps', receive_header fuel m ps err = Some (ret, m', ps')
    /\ forall k, find_term (m_rx m ++ concat ps) = Some k ->
         k + 3 + MAX_TRANSFER_BYTES + (MAX_TRANSFER_BYTES + RESERVED_INDEX_SIZE) < m_cap m ->
         ret <> 2 /\ fst (m_body m') = u16 (k + 4).
Proof.
  induction fuel as [|f IH]; intros m ps err Hcap Hst Hnone Hfuel.
  { pose proof (total_len_nonneg ps). lia. }
  (* a terminator ends behind the bytes received so far: it shows in the search window *)
  assert (Hin : forall k, find_term (m_rx m ++ concat ps) = Some k ->
                 zlen (m_rx m) < k + 4 <= zlen (m_rx m) + total_len ps).
  { intros k Hk. pose proof (find_term_bound _ _ Hk) as (_ & Hk4). rewrite zlen_app in Hk4.
    pose proof (find_term_window (m_rx m) (concat ps) Hnone) as Hw. cbn zeta in Hw. rewrite Hk in Hw.
    apply find_term_bound in Hw. unfold total_len. lia. }
  cbn [receive_header]. unfold MAX_TRANSFER_BYTES, RESERVED_INDEX_SIZE in *.
  destruct (Z.leb_spec (m_cap m - zlen (m_rx m)) (4096 + 1024)).
  { do 3 eexists. split; [reflexivity|]. intros k Hk Hroom. specialize (Hin k Hk). lia. }
  pose proof (sk_recv_spec ps err 4096 ltac:(lia)) as Hr. destruct (sk_recv ps err 4096) as [[rc bs] ps'].
  destruct Hr as (Hrc & Hrt & Hbs & Hps' & Hr1). specialize (Hr1 ltac:(lia)).
  destruct (Z.ltb_spec rc 0).
  { do 3 eexists. split; [reflexivity|]. intros k Hk Hroom. specialize (Hin k Hk). lia. }
  rewrite Hst. change (INIT =? INIT) with true. cbn [andb].
  destruct (Z.eqb_spec rc 0).
  { do 3 eexists. split; [reflexivity|]. intros k Hk Hroom. specialize (Hin k Hk). lia. }
  assert (Hbl : zlen bs = rc) by (rewrite Hbs; apply zlen_ztake; unfold total_len in *; lia).
  rewrite (append_bytes_whole m bs ltac:(rewrite Hst; discriminate) ltac:(lia) Hnone).
  assert (Hall : (m_rx m ++ bs) ++ concat ps' = m_rx m ++ concat ps).
  { rewrite <- app_assoc, Hps', Hbs, ztake_zdrop_id. reflexivity. }
  destruct (find_term (m_rx m ++ bs)) as [k'|] eqn:Hf.
  - (* the terminator is visible now *)
    destruct (parse_whole_total m (m_rx m ++ bs) Hcap) as (ret & m' & E' & _ & H2 & Hb).
    rewrite E', andb_false_r. destruct (Z.eqb_spec ret 2) as [He|]; [destruct (H2 He); congruence|].
    do 3 eexists. split; [reflexivity|]. intros k Hk Hroom. specialize (Hin k Hk).
    pose proof (find_term_app _ (concat ps') _ Hf) as H1. rewrite Hall, Hk in H1. inversion H1; subst k'.
    apply Hb; [exact Hf|rewrite zlen_app; lia].
  - (* not yet: append_bytes returned 2 *)
    unfold parse_whole. rewrite Hf, zlen_app. destruct (Z.leb_spec (m_cap m) (zlen (m_rx m) + zlen bs)).
    { rewrite andb_false_r. do 3 eexists. split; [reflexivity|]. intros k Hk Hroom. specialize (Hin k Hk). lia. }
    rewrite andb_false_r. change (2 =? 2) with true. cbv iota.
    set (m0 := mkMsg _ _ _ (m_rx m ++ bs) _ _ _ _ _ _ _ _ _ _).
    destruct (IH m0 ps' err Hcap Hst Hf) as (ret & m' & ps'' & E' & H').
    { assert (total_len ps' = total_len ps - rc) by (unfold total_len; rewrite Hps', zlen_zdrop; unfold total_len in *; lia). lia. }
    exists ret, m', ps''. split; [exact E'|]. intros k Hk. apply H'. cbn [m0 m_rx]. rewrite Hall. exact Hk.
Qed.
