(* C13_Examples.v — concrete, non-trivial instances of the hypotheses of the C13 theorems. *)
From Coq Require Import String.
From Coq Require Import ZArith List Lia.
From PV Require Import Base.U64 C13.C13_Model C13.C13_Msg C13.C13_Proofs C13.C13_ChunkDecode.
Import ListNotations.
Local Open Scope Z_scope.

Definition b (s : string) : bytes := s2b s.

(* body_length_exact: a 5-byte body of which 2 bytes came with the head, the rest in 1+4 byte pieces
   followed by the start of the next message; reads of 3, 0 and 9 bytes *)
Example body_length_hyps :
  let partial := b "he" in let ps := [b "l"; b "loNE"] in
  0 <= 5 < MAX64 /\ 5 <= zlen (partial ++ concat ps) /\ Forall (fun c => 0 <= c) [3; 0; 9].
Proof. cbn. splits; try (unfold MAX64; lia). repeat constructor; lia. Qed.
Example body_length_run :
  fst (brs_run (brs_init (b "he") 5 [b "l"; b "loNE"] false) [3; 0; 9]) = [(3, b "hel"); (0, []); (2, b "lo")].
Proof. vm_compute. reflexivity. Qed.

(* chunked_decode_spec: "5;x=1\r\nhello\r\n0\r\n\r\n" is a valid encoding of "hello" *)
Example size_line_example : size_line (b "5;x=1") 5.
Proof. unfold size_line. splits; [vm_compute; reflexivity|vm_compute; reflexivity|vm_compute; discriminate]. Qed.
Example valid_chunked_example :
  valid_chunked (b "5;x=1" ++ CRLF ++ b "hello" ++ CRLF ++ (b "0" ++ CRLF ++ CRLF)) (b "hello" ++ []).
Proof.
  apply VC_chunk.
  - vm_compute. split; reflexivity.
  - exact size_line_example.
  - apply VC_last; [discriminate|]. unfold size_line. splits; [vm_compute; reflexivity|vm_compute; reflexivity|vm_compute; discriminate].
Qed.
(* ... read with the size line cut in two ("5;" arrived with the head), 1..3-byte pieces, 2-byte reads *)
Example chunked_decode_run :
  match crs_run (crs_init 4096 (b "5;") [b "x=1"; [13]; [10]; b "he"; b "llo"; [13; 10; 48]; [13]; [10; 13]; [10]] false) [2; 2; 2; 2] with
  | Some (l, s) => l = [(2, b "he"); (2, b "ll"); (1, b "o"); (0, [])] /\ c_finish s = true
  | None => False
  end.
Proof. vm_compute. split; reflexivity. Qed.

(* chunked_roundtrip: non-empty writes, a budget that holds the whole wire *)
Example roundtrip_hyps :
  Forall (fun w => w <> [] /\ zlen w < W64) [b "ab"; b "c"] /\
  zlen (chunks_wire [b "ab"; b "c"]) + 5 <= w_budget (mkW [] 1000).
Proof. split; [repeat constructor; try discriminate; vm_compute; reflexivity|vm_compute; discriminate]. Qed.

(* header_boundary_fragmentation_independent: a head with terminator at 18 in a 16 KB buffer *)
Example boundary_hyps :
  let bytes := b "GET / HTTP/1.1" ++ [13;10] ++ b "A:" ++ [13;10;13;10] ++ b "rest" in
  find_term bytes = Some 18 /\ 18 + 3 + MAX_TRANSFER_BYTES + (MAX_TRANSFER_BYTES + RESERVED_INDEX_SIZE) < 16384.
Proof. split; vm_compute; reflexivity. Qed.

(* terminator_search_window / append_bytes_split_independent: "\r\n\r" already received, "\n" arrives *)
Example window_hyps : find_term (b "GET / HTTP/1.1" ++ [13;10;13]) = None.
Proof. vm_compute. reflexivity. Qed.
