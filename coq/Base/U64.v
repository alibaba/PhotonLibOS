(* Base/U64.v — 64-bit unsigned arithmetic as Z with the wrap written out.
   Executable definitions + the small lemmas every model needs. *)
From Coq Require Import ZArith Lia List Bool.
Import ListNotations.
Local Open Scope Z_scope.

Definition W64 : Z := 18446744073709551616.      (* 2^64 *)
Definition MAX64 : Z := 18446744073709551615.    (* 2^64 - 1 *)

Definition wrap (x : Z) : Z := x mod W64.
Definition u64_add (x y : Z) : Z := wrap (x + y).
Definition u64_sub (x y : Z) : Z := wrap (x - y).
Definition u64_mul (x y : Z) : Z := wrap (x * y).
Definition sat_add (x y : Z) : Z := if MAX64 <? x + y then MAX64 else x + y.
Definition sat_sub (x y : Z) : Z := if x <? y then 0 else x - y.
Definition in_u64 (x : Z) : Prop := 0 <= x < W64.
Definition in_u64b (x : Z) : bool := (0 <=? x) && (x <? W64).

Lemma W64_pos : 0 < W64. Proof. reflexivity. Qed.
Lemma W64_eq : W64 = 2 ^ 64. Proof. reflexivity. Qed.
Lemma MAX64_eq : MAX64 = W64 - 1. Proof. reflexivity. Qed.

Lemma wrap_small x : 0 <= x < W64 -> wrap x = x.
Proof. intros H. unfold wrap. apply Z.mod_small. exact H. Qed.

Lemma wrap_range x : 0 <= wrap x < W64.
Proof. unfold wrap. apply Z.mod_pos_bound. exact W64_pos. Qed.

Lemma wrap_add_W x : wrap (x + W64) = wrap x.
Proof. unfold wrap. rewrite <- (Z.mul_1_l W64) at 1. apply Z.mod_add. discriminate. Qed.

Lemma wrap_sub_W x : wrap (x - W64) = wrap x.
Proof. rewrite <- (wrap_add_W (x - W64)). f_equal. lia. Qed.

Lemma wrap_neg_small x : - W64 <= x < 0 -> wrap x = x + W64.
Proof. intros H. rewrite <- wrap_add_W. apply wrap_small. lia. Qed.

Lemma wrap_over_small x : W64 <= x < 2 * W64 -> wrap x = x - W64.
Proof. intros H. rewrite <- wrap_sub_W. apply wrap_small. lia. Qed.

Lemma in_u64b_spec x : in_u64b x = true <-> in_u64 x.
Proof. unfold in_u64b, in_u64. rewrite andb_true_iff, Z.leb_le, Z.ltb_lt. tauto. Qed.

Lemma sat_add_le_max x y : sat_add x y <= MAX64.
Proof. unfold sat_add. destruct (Z.ltb_spec MAX64 (x + y)); lia. Qed.
Lemma sat_add_ge x y : 0 <= y -> x <= MAX64 -> x <= sat_add x y.
Proof. intros. unfold sat_add. destruct (MAX64 <? x + y); lia. Qed.
Lemma sat_add_le_sum x y : sat_add x y <= x + y.
Proof. unfold sat_add. destruct (Z.ltb_spec MAX64 (x + y)); lia. Qed.

Lemma sat_add_le x y : 0 <= x -> 0 <= y -> x <= MAX64 -> sat_add x y <= MAX64.
Proof. intros _ _ _. apply sat_add_le_max. Qed.
