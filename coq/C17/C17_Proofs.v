(* C17_Proofs.v — the sequential read path: a read through the cache returns the source's bytes. *)
From Coq Require Import ZArith List Lia Bool.
From PV Require Import C17.C17_Model C17.C17_Lists C17.C17_RM_Proofs.
Import ListNotations.
Local Open Scope Z_scope.

Definition AllOk (l : list outcome) : Prop := Forall (fun o => o = OOk) l.

Lemma pop_allok l : AllOk l -> fst (pop l) = OOk /\ AllOk (snd (pop l)).
Proof.
  intros H. destruct l as [| o t]; simpl; [split; [reflexivity | constructor] |].
  inversion H; subst. split; [reflexivity | assumption].
Qed.

Section ReadProofs.
  Variable src : list Z.
  Variable cfg : config.
  Hypothesis Hpage : 1 <= c_page cfg.
  Hypothesis Hunit : 1 <= c_unit cfg.
  Let S := zlen src.

  (* CacheConsistent: every byte the store believes cached is inside the media file, below the
     size the store knows, and equals the source byte *)
  Definition Consistent (st : store) : Prop :=
    forall x, covers (s_filled st) x ->
      0 <= x < zlen (s_media st) /\ x < s_actual st /\ getz (s_media st) x = getz src x.

  Definition Inv (st : store) : Prop :=
    WF (s_filled st) /\ Consistent st /\ 0 <= s_actual st <= S
    /\ (s_actual st mod c_page cfg <> 0 -> s_actual st = S).

  (* a buffer of refilled data waiting to be written: source bytes of a range inside the size *)
  Definition GoodData (st : store) (off : Z) (data : list Z) : Prop :=
    0 <= off /\ off + zlen data <= s_actual st
    /\ forall i, 0 <= i < zlen data -> getz data i = getz src (off + i).

  Definition PG (w : world) : Prop :=
    forall off data, In (off, data) (w_pending w) -> GoodData (w_st w) off data.

  Definition Good (w : world) : Prop := Inv (w_st w) /\ PG w /\ w_held w = [].

  Definition Agree (ub : list Z) (lo hi off : Z) : Prop :=
    forall i, lo <= i < hi -> getz ub i = getz src (off + (i - lo)).

  (* a pending buffer stays good when the known size grows *)
  Lemma Good_intro w w' :
    Inv (w_st w') -> s_actual (w_st w) <= s_actual (w_st w') ->
    w_held w' = w_held w -> w_pending w' = w_pending w -> Good w -> Good w'.
  Proof.
    intros Hinv Hle Hh Hp (_ & Hpg & Hheld). split; [exact Hinv |]. split; [| now rewrite Hh].
    intros off data Hin. rewrite Hp in Hin. destruct (Hpg off data Hin) as (H1 & H2 & H3).
    split; [exact H1 |]. split; [lia | exact H3].
  Qed.

  (* w' is w up to the log and the window [lo,hi) of the user buffer *)
  Definition Touch (lo hi : Z) (w w' : world) : Prop :=
    w_st w' = w_st w /\ w_sor w' = w_sor w /\ w_held w' = w_held w /\ w_pending w' = w_pending w
    /\ zlen (w_ubuf w') = zlen (w_ubuf w)
    /\ forall i, 0 <= i -> ~ (lo <= i < hi) -> getz (w_ubuf w') i = getz (w_ubuf w) i.

  Lemma Touch_good lo hi w w' : Touch lo hi w w' -> Good w -> Good w'.
  Proof.
    intros (E1 & _ & E3 & E4 & _) HG. apply (Good_intro w); rewrite ?E1; try assumption; [apply HG | lia].
  Qed.

  (* what a media write, or its deferral, leaves alone *)
  Definition Wrote (w w' : world) : Prop :=
    Good w' /\ s_actual (w_st w') = s_actual (w_st w) /\ w_sor w' = w_sor w /\ w_ubuf w' = w_ubuf w.

  (* what every step that fills the window [lo,hi) of the user buffer with the file's bytes from
     `off` on guarantees, r being its return value *)
  Definition Served (w : world) (lo hi off r : Z) (w' : world) : Prop :=
    Good w' /\ s_actual (w_st w') = s_actual (w_st w) /\ zlen (w_ubuf w') = zlen (w_ubuf w)
    /\ (forall i, 0 <= i -> ~ (lo <= i < hi) -> getz (w_ubuf w') i = getz (w_ubuf w) i)
    /\ (r = -1 \/ (0 <= r <= hi - lo /\ Agree (w_ubuf w') lo (lo + r) off))
    /\ (AllOk (w_sor w) -> r = hi - lo /\ AllOk (w_sor w')).

  Lemma Touch_served lo hi off w w' :
    Good w -> lo <= hi -> Touch lo hi w w' -> Agree (w_ubuf w') lo hi off -> Served w lo hi off (hi - lo) w'.
  Proof.
    intros HG Hlh HT Hag. pose proof (Touch_good _ _ _ _ HT HG) as HG'.
    destruct HT as (E1 & E2 & _ & _ & E5 & E6).
    split; [exact HG' |]. split; [now rewrite E1 |]. split; [exact E5 |]. split; [exact E6 |].
    split; [right; split; [lia |]; now replace (lo + (hi - lo)) with hi by lia |].
    intros Hok. split; [reflexivity | now rewrite E2].
  Qed.

  Definition wret (o : outcome) (len : Z) : Z :=
    match o with OOk => len | OShort n => Z.min (Z.max 0 n) len | OFail => -1 end.

  Lemma do_pwritev2_fields w off data :
    let w' := snd (do_pwritev2 w off data) in
    let st := w_st w in
    let m1 := if s_td st then s_media st else resize (s_media st) (s_actual st) in
    let ret := wret (fst (pop (w_wor w))) (zlen data) in
    w_st w' = mkStore (s_actual st)
                (if 0 <? ret then addRange (s_filled st) off (off + ret) else s_filled st)
                (if 0 <? ret then media_write m1 off (firstn (Z.to_nat ret) data) else m1)
                true (s_refilling st)
    /\ w_sor w' = w_sor w /\ w_ubuf w' = w_ubuf w /\ w_held w' = w_held w /\ w_pending w' = w_pending w.
  Proof.
    unfold do_pwritev2, wret. destruct (s_td (w_st w)); destruct (pop (w_wor w)) as [o rest]; cbn; repeat split; reflexivity.
  Qed.

  Lemma do_pwritev2_spec w off data :
    Good w -> GoodData (w_st w) off data -> Wrote w (snd (do_pwritev2 w off data)).
  Proof.
    intros HG (Hoff & Hfit & Hdata). pose proof HG as ((Hwf & Hcons & Hact & Hpg) & _).
    destruct (do_pwritev2_fields w off data) as (Hst & Hsor & Hub & Hheld & Hpend). cbv zeta in *.
    set (w' := snd (do_pwritev2 w off data)) in *. set (st := w_st w) in *.
    set (m1 := if s_td st then s_media st else resize (s_media st) (s_actual st)) in *.
    set (ret := wret (fst (pop (w_wor w))) (zlen data)) in *.
    (* the optional ftruncate to the known size keeps every cached byte *)
    assert (Hm1 : forall y, covers (s_filled st) y -> 0 <= y < zlen m1 /\ y < s_actual st /\ getz m1 y = getz src y).
    { intros y Hy. destruct (Hcons y Hy) as (H1 & H2 & H3). unfold m1. destruct (s_td st); [tauto |].
      rewrite zlen_resize, getz_resize by lia. tauto. }
    assert (Hret : ret <= zlen data).
    { unfold ret, wret. destruct (fst (pop (w_wor w))); pose proof (zlen_nonneg data); lia. }
    assert (Hinv' : Inv (w_st w')).
    { rewrite Hst. unfold Inv. cbn [s_filled s_actual]. split; [| split; [| tauto]].
      - destruct (0 <? ret); [now apply addRange_spec | exact Hwf].
      - intros y Hy. cbn [s_filled s_media s_actual] in *. destruct (Z.ltb_spec 0 ret) as [Hpos | Hpos].
        + apply addRange_spec in Hy; [| exact Hwf].
          assert (Hzl : zlen (firstn (Z.to_nat ret) data) = ret) by (apply (zlen_slice data 0 ret); lia).
          assert (Hy0 : 0 <= y) by (destruct Hy as [Hy | Hy]; [destruct (Hm1 y Hy) |]; lia).
          rewrite zlen_media_write, Hzl by lia.
          assert (Hin : off <= y < off + ret \/ ~ (off <= y < off + ret)) by lia. destruct Hin as [Hin | Hout].
          * rewrite getz_media_write_in by lia.
            rewrite firstn_is_slice, getz_slice, Hdata by lia.
            split; [lia |]. split; [lia |]. f_equal. lia.
          * rewrite getz_media_write_out by lia. destruct Hy as [Hy | Hy]; [| lia].
            destruct (Hm1 y Hy) as (H1 & H2 & H3). split; [lia |]. split; [lia | exact H3].
        + destruct (Hm1 y Hy) as (H1 & H2 & H3). split; [lia |]. split; [lia | exact H3]. }
    assert (Hact' : s_actual (w_st w') = s_actual st) by now rewrite Hst.
    split; [apply (Good_intro w); [exact Hinv' | fold st; lia | exact Hheld | exact Hpend | exact HG] |].
    split; [exact Hact' |]. split; assumption.
  Qed.

  Lemma src_pread_spec w off len :
    0 <= off -> 0 <= len ->
    match src_pread src w off len with
    | (ret, data, w') =>
        w_st w' = w_st w /\ w_ubuf w' = w_ubuf w /\ (Good w -> Good w')
        /\ ((ret = -1 /\ data = [])
            \/ (0 <= ret <= avail S off len /\ zlen data = ret
                /\ forall i, 0 <= i < ret -> getz data i = getz src (off + i)))
        /\ (AllOk (w_sor w) -> ret = avail S off len /\ AllOk (w_sor w'))
    end.
  Proof.
    intros Hoff Hlen. unfold src_pread.
    destruct (pop (w_sor w)) as [o rest] eqn:Hpop. fold S. set (av := avail S off len).
    set (ret := match o with OOk => av | OShort n => Z.min (Z.max 0 n) av | OFail => -1 end).
    assert (Hav : 0 <= av /\ (0 < av -> off + av <= S)) by (unfold av, avail; lia).
    assert (Hret : ret = -1 \/ 0 <= ret <= av) by (unfold ret; destruct o; lia).
    split; [reflexivity |]. split; [reflexivity |].
    split; [intros HG; apply (Good_intro w); [apply HG | reflexivity | reflexivity | reflexivity | exact HG] |].
    split.
    - destruct (Z.ltb_spec ret 0); [left; split; [lia | reflexivity] | right].
      split; [lia |]. destruct (Z.eq_dec ret 0) as [H0 | H0].
      + rewrite H0. split; [reflexivity | intros; lia].
      + split; [apply zlen_slice; fold S; lia | intros i Hi; apply getz_slice; lia].
    - intros Hok. apply pop_allok in Hok. rewrite Hpop in Hok. destruct Hok as [Ho Hr]. cbn in Ho, Hr.
      split; [unfold ret; now rewrite Ho | exact Hr].
  Qed.

  Lemma put_spec w pos data lo hi :
    0 <= lo <= pos -> pos + zlen data <= hi -> hi <= zlen (w_ubuf w) ->
    Touch lo hi w (put w pos data)
    /\ forall i, pos <= i < pos + zlen data -> getz (w_ubuf (put w pos data)) i = getz data (i - pos).
  Proof.
    intros Hp Hfit Hhi. pose proof (zlen_nonneg data). unfold Touch, put. cbn [w_st w_sor w_held w_pending w_ubuf].
    split; [split; [reflexivity |]; split; [reflexivity |]; split; [reflexivity |]; split; [reflexivity |]; split |].
    - rewrite zlen_splice; lia.
    - intros i Hi Hn. apply getz_splice_out; lia.
    - intros i Hi. apply getz_splice_in; lia.
  Qed.

  (* a source read delivered straight into the window: store.cpp:203-208, 293-297 *)
  Lemma src_to_buf w lo hi off :
    Good w -> 0 <= lo <= hi -> hi <= zlen (w_ubuf w) -> 0 <= off -> off + (hi - lo) <= S ->
    match src_pread src w off (hi - lo) with
    | (r, d, w1) => Served w lo hi off r (put w1 lo d)
    end.
  Proof.
    intros HG Hlo Hhi Hoff Hfit.
    pose proof (src_pread_spec w off (hi - lo) Hoff ltac:(lia)) as Hs.
    destruct (src_pread src w off (hi - lo)) as [[r d] w1].
    destruct Hs as (S1 & S2 & S3 & S4 & S5).
    assert (Hav : avail S off (hi - lo) = hi - lo) by (apply avail_full; lia).
    assert (Hzd : zlen d <= hi - lo) by (destruct S4 as [[_ ->] | (? & ? & _)]; [cbn |]; lia).
    destruct (put_spec w1 lo d lo hi) as [HT P7]; [lia | lia | rewrite S2; lia |].
    pose proof (Touch_good _ _ _ _ HT (S3 HG)) as HG'. destruct HT as (P1 & P2 & _ & _ & P5 & P6).
    split; [exact HG' |]. split; [now rewrite P1, S1 |]. split; [now rewrite P5, S2 |].
    split; [intros i Hi Hn; rewrite P6, S2 by lia; reflexivity |].
    split.
    - destruct S4 as [[-> _] | (Hr & Hz & Hd)]; [now left | right]. split; [lia |].
      intros i Hi. rewrite P7, Hd by lia. reflexivity.
    - intros Hok. destruct (S5 Hok) as [-> Hok']. split; [exact Hav | now rewrite P2].
  Qed.

  Lemma query_spec st off size :
    WF (s_filled st) -> 0 <= off -> 0 < size ->
    let q := query cfg st off size in
    (snd q = 0 /\ 0 <= fst q /\ forall x, off <= x < off + size -> covers (s_filled st) x)
    \/ (0 <= fst q < off + size /\ 0 < snd q).
  Proof.
    intros Hwf Hoff Hsize. unfold query.
    pose proof (queryRefillRange_spec (s_filled st) off (off + size) Hwf) as Hq. cbv zeta in Hq.
    set (h := queryRefillRange (s_filled st) off (off + size)) in *.
    destruct Hq as [[Heq Hall] | (Hlr & Ha & Hab & Hb & _)].
    - rewrite Heq. cbn. left. split; [reflexivity | split; [lia | exact Hall]].
    - assert (Hnz : (fst h =? 0) && (snd h =? 0) = false).
      { destruct (Z.eqb_spec (snd h) 0); [lia |]. apply andb_false_r. }
      rewrite Hnz. cbn [fst snd]. right.
      pose proof (align_down_bounds (fst h) (c_unit cfg) ltac:(lia) Hunit).
      pose proof (align_down_nonneg (fst h) (c_unit cfg) ltac:(lia)).
      pose proof (align_up_ge (snd h) (c_unit cfg) ltac:(lia) Hunit).
      lia.
  Qed.

  (* Under Inv a window without hole lies inside the media file, so the short media read
     (TShort) does not occur. *)
  Lemma try_preadv2_spec w lo hi off :
    Inv (w_st w) -> 0 <= lo < hi -> hi <= zlen (w_ubuf w) -> 0 <= off ->
    match try_preadv2 cfg w lo hi off with
    | (tr, w') =>
        Touch lo hi w w'
        /\ match tr with
           | THit n => n = hi - lo /\ Agree (w_ubuf w') lo hi off
           | TShort => False
           | TMiss roff rsize => w' = w /\ 0 <= roff < off + (hi - lo) /\ 0 < rsize
           end
    end.
  Proof.
    intros (Hwf & Hcons & _) Hlo Hhi Hoff. unfold try_preadv2.
    destruct (query_spec (w_st w) off (hi - lo) Hwf Hoff ltac:(lia)) as [(Hq0 & Hq1 & Hall) | (Hq1 & Hq2)].
    - rewrite Hq0. destruct (Z.leb_spec 0 (fst (query cfg (w_st w) off (hi - lo)))); [| lia]. cbn [andb Z.eqb].
      set (media := s_media (w_st w)).
      assert (Hlen : off + (hi - lo) <= zlen media) by (unfold media; destruct (Hcons (off + (hi - lo) - 1)); [apply Hall |]; lia).
      rewrite avail_full, Z.eqb_refl by lia.
      assert (Hzl : zlen (slice media off (hi - lo)) = hi - lo) by (apply zlen_slice; lia).
      destruct (put_spec (add_log w (EvMedR off (hi - lo) (hi - lo))) lo (slice media off (hi - lo)) lo hi) as [HT Hput];
        [lia | lia | exact Hhi |]. rewrite Hzl in Hput.
      split; [exact HT |]. split; [reflexivity |].
      intros i Hi. rewrite Hput, getz_slice by lia. now apply Hcons, Hall; lia.
    - destruct (Z.eqb_spec (snd (query cfg (w_st w) off (hi - lo))) 0) as [H0 | H0]; [lia |].
      rewrite andb_false_r. split; [repeat split; reflexivity | repeat split; lia].
  Qed.

  (* the three overlap cases, store.cpp:251-263 (text of the model) *)
  Definition refill_copy (w1 : world) (data : list Z) (roff rsize count lo hi offset : Z)
    : Z * world * Z * Z * Z :=
    if roff <=? offset then
      let rb := skipn (Z.to_nat (offset - roff)) data in
      let n := Z.min count (Z.min (zlen rb) (hi - lo)) in
      (n, put w1 lo (firstn (Z.to_nat n) rb), lo + n, hi, offset + n)
    else if offset + count <=? roff + rsize then
      let d := roff - offset in
      let tl := Z.max 0 (Z.min (count - d) ((hi - lo) - d)) in
      let n := Z.min (zlen data) tl in
      (n, put w1 (lo + d) (firstn (Z.to_nat n) data), lo, hi - n, offset)
    else (0, w1, lo, hi, offset).

  (* what the copy step establishes: [lo2,hi2) is the part of the window still to be read, it
     stands for file offset offset2 = offset + (lo2 - lo), and everything else in the window
     already holds source bytes *)
  Definition Mid (w1 w2 : world) (ret lo2 hi2 offset2 lo hi offset : Z) : Prop :=
    Touch lo hi w1 w2 /\ lo <= lo2 <= hi2 /\ hi2 <= hi /\ ret = (hi - lo) - (hi2 - lo2)
    /\ offset2 = offset + (lo2 - lo)
    /\ (forall i, lo <= i < hi -> ~ (lo2 <= i < hi2) -> getz (w_ubuf w2) i = getz src (offset + (i - lo))).

  Lemma refill_copy_spec w1 data roff rsize count lo hi offset :
    0 <= lo < hi -> hi <= zlen (w_ubuf w1) -> count = hi - lo ->
    0 <= roff < offset + count -> 0 < rsize -> zlen data = rsize ->
    (forall i, 0 <= i < rsize -> getz data i = getz src (roff + i)) ->
    match refill_copy w1 data roff rsize count lo hi offset with
    | (ret, w2, lo2, hi2, offset2) => Mid w1 w2 ret lo2 hi2 offset2 lo hi offset
    end.
  Proof.
    intros Hlo Hhi -> Hroff Hrs Hzl Hdata. unfold refill_copy.
    destruct (Z.leb_spec roff offset) as [Hc1 | Hc1].
    - (* refill buffer starts at or before the request *)
      set (k := offset - roff).
      set (rb := skipn (Z.to_nat k) data).
      assert (Hrb : zlen rb = Z.max 0 (rsize - k)) by (unfold rb, zlen in *; rewrite skipn_length; lia).
      set (n := Z.min (hi - lo) (Z.min (zlen rb) (hi - lo))).
      assert (Hn : 0 <= n <= hi - lo) by (unfold n; lia).
      assert (Hzn : zlen (firstn (Z.to_nat n) rb) = n).
      { destruct (Z.eq_dec n 0) as [Hn0 | Hn0]; [rewrite Hn0; reflexivity |].
        apply (zlen_slice data k n); unfold n, k in *; lia. }
      destruct (put_spec w1 lo (firstn (Z.to_nat n) rb) lo hi) as [HT Hput]; [lia | lia | lia |]. rewrite Hzn in Hput.
      split; [exact HT |]. repeat (split; [lia |]).
      intros i Hi Hni. rewrite Hput by lia.
      change (firstn (Z.to_nat n) rb) with (slice data k n). rewrite getz_slice by (unfold k; lia).
      rewrite Hdata by (unfold n, k in *; lia). f_equal. unfold k. lia.
    - destruct (Z.leb_spec (offset + (hi - lo)) (roff + rsize)) as [Hc2 | Hc2].
      + (* refill buffer covers the tail of the request *)
        set (d := roff - offset).
        set (tl := Z.max 0 (Z.min (hi - lo - d) (hi - lo - d))).
        set (n := Z.min (zlen data) tl).
        assert (Hd : 0 < d < hi - lo /\ n = hi - lo - d) by (unfold n, tl, d; lia).
        assert (Hzn : zlen (firstn (Z.to_nat n) data) = n) by (apply (zlen_slice data 0 n); lia).
        destruct (put_spec w1 (lo + d) (firstn (Z.to_nat n) data) lo hi) as [HT Hput]; [lia | lia | lia |]. rewrite Hzn in Hput.
        split; [exact HT |]. repeat (split; [lia |]).
        intros i Hi Hni. rewrite Hput by lia.
        rewrite firstn_is_slice, getz_slice, Hdata by lia. f_equal. unfold d. lia.
      + (* the hole lies strictly inside the request: nothing is copied *)
        split; [repeat split; reflexivity |]. repeat (split; [lia |]). intros i Hi Hni. lia.
  Qed.

  Lemma Served_from w w0 lo hi off r w' :
    s_actual (w_st w) = s_actual (w_st w0) -> w_ubuf w = w_ubuf w0 -> (AllOk (w_sor w0) -> AllOk (w_sor w)) ->
    Served w lo hi off r w' -> Served w0 lo hi off r w'.
  Proof.
    intros E1 E2 E3 (V1 & V2 & V3 & V4 & V5 & V6). rewrite E1, E2 in *.
    split; [exact V1 |]. split; [exact V2 |]. split; [exact V3 |]. split; [exact V4 |]. split; [exact V5 |].
    intros Hok. apply V6, E3, Hok.
  Qed.

  Lemma Served_nil w lo off : Good w -> Served w lo lo off 0 w.
  Proof.
    intros HG. split; [exact HG |]. split; [reflexivity |]. split; [reflexivity |]. split; [reflexivity |].
    split; [right; split; [lia | intros i Hi; lia] | intros Hok; split; [lia | exact Hok]].
  Qed.

  (* r2 is what serving the remaining part [lo2,hi2) returned, r what the refill then returns *)
  Lemma Served_mid w1 w2 ret lo2 hi2 offset2 lo hi offset r2 r w' :
    0 <= lo -> Mid w1 w2 ret lo2 hi2 offset2 lo hi offset -> Served w2 lo2 hi2 offset2 r2 w' ->
    (r2 = hi2 - lo2 /\ r = hi - lo) \/ (r2 <> hi2 - lo2 /\ r = -1) ->
    Served w1 lo hi offset r w'.
  Proof.
    intros Hlo ((T1 & T2 & _ & _ & T5 & T6) & Hl & Hh & _ & -> & Hmid) (V1 & V2 & V3 & V4 & V5 & V6) Hr.
    split; [exact V1 |]. split; [now rewrite V2, T1 |]. split; [now rewrite V3 |].
    split; [intros i Hi Hn; rewrite V4 by lia; apply T6; lia |].
    split.
    - destruct Hr as [[-> ->] | [_ ->]]; [right | now left]. split; [lia |].
      destruct V5 as [V5 | [_ Hag]]; [lia |].
      intros i Hi. assert (Hc : lo2 <= i < hi2 \/ ~ (lo2 <= i < hi2)) by lia. destruct Hc as [Hc | Hc].
      + rewrite Hag by lia. f_equal. lia.
      + rewrite V4 by lia. apply Hmid; lia.
    - intros Hok. rewrite <- T2 in Hok. destruct (V6 Hok) as [-> Hok'].
      destruct Hr as [[_ ->] | [Hne _]]; [now split | lia].
  Qed.

  (* the source read of the refill range, store.cpp:237-245: complete, or the refill is given up *)
  Lemma refill_read w roff rsize :
    Good w -> 0 <= roff -> 0 < rsize -> roff + rsize <= s_actual (w_st w) ->
    match src_pread src w roff rsize with
    | (ret0, data, w1) =>
        w_st w1 = w_st w /\ w_ubuf w1 = w_ubuf w /\ Good w1
        /\ (ret0 = rsize -> GoodData (w_st w1) roff data /\ zlen data = rsize)
        /\ (AllOk (w_sor w) -> ret0 = rsize /\ AllOk (w_sor w1))
    end.
  Proof.
    intros HG Hroff Hrs Hfit. assert (Hact : s_actual (w_st w) <= S) by apply HG.
    pose proof (src_pread_spec w roff rsize Hroff ltac:(lia)) as Hs.
    destruct (src_pread src w roff rsize) as [[ret0 data] w1]. destruct Hs as (S1 & S2 & S3 & S4 & S5).
    rewrite avail_full in * by lia.
    split; [exact S1 |]. split; [exact S2 |]. split; [exact (S3 HG) |]. split; [| exact S5].
    intros ->. destruct S4 as [[? _] | (_ & Hz & Hd)]; [lia |].
    split; [| exact Hz]. rewrite S1. split; [exact Hroff |]. split; [lia |]. intros i Hi. apply Hd. lia.
  Qed.

  Lemma do_refill_spec sync w roff rsize0 count asize lo hi offset :
    Good w -> 0 <= lo < hi -> hi <= zlen (w_ubuf w) -> count = hi - lo ->
    asize = s_actual (w_st w) -> 0 <= offset -> offset + count <= asize ->
    0 <= roff < offset + count -> 0 < rsize0 ->
    match do_refill src cfg sync w roff rsize0 count asize lo hi offset with
    | (RAgain, _) => False
    | (RRet r, w') => Served w lo hi offset r w'
    end.
  Proof.
    intros HG Hlo Hhi Hcount Hasize Hoff Hfit Hroff Hrs0.
    pose proof HG as (Hinv & Hpg & Hheld).
    assert (HactS : asize <= S) by (destruct Hinv as (_ & _ & ? & _); lia).
    unfold do_refill. cbv zeta.
    destruct (c_pool cfg && negb sync && (c_thr cfg <=? s_refilling (w_st w))).
    { (* too many refills in flight: read the source directly, store.cpp:203-208 *)
      pose proof (src_to_buf w lo hi offset HG ltac:(lia) Hhi Hoff ltac:(lia)) as Hs.
      now destruct (src_pread src w offset (hi - lo)) as [[ret data] w1]. }
    set (rsize := if asize <? roff + rsize0 then asize - roff else rsize0).
    assert (Hrs : 0 < rsize /\ roff + rsize <= asize) by (unfold rsize; destruct (Z.ltb_spec asize (roff + rsize0)); lia).
    rewrite Hheld, <- Hasize, Z.eqb_refl. cbn [conflict existsb negb].
    pose proof (refill_read w roff rsize HG ltac:(lia) ltac:(lia) ltac:(lia)) as Hs.
    destruct (src_pread src w roff rsize) as [[ret0 data] w1]. destruct Hs as (S1 & S2 & HG1 & S4 & S5).
    destruct (Z.eqb_spec ret0 rsize) as [Heq | Hne]; cbn [negb].
    2:{ split; [exact HG1 |]. split; [now rewrite S1 |]. split; [now rewrite S2 |]. split; [intros; now rewrite S2 |].
        split; [now left |]. intros Hok. now destruct (S5 Hok). }
    destruct (S4 Heq) as [Hgd Hzl].
    pose proof (refill_copy_spec w1 data roff rsize count lo hi offset Hlo ltac:(rewrite S2; lia) Hcount Hroff
                  ltac:(lia) Hzl (fun i Hi => proj2 (proj2 Hgd) i ltac:(lia))) as Hmid.
    (* name the result of the copy step without repeating the model's text *)
    unfold refill_copy in Hmid. cbv zeta in Hmid. revert Hmid.
    match goal with |- match ?X with _ => _ end -> _ => destruct X as [[[[ret w2] lo2] hi2] offset2] end.
    intros Hmid. pose proof Hmid as (HT & Hlo2 & Hhi2 & Hret & Hoff2 & _).
    pose proof (Touch_good _ _ _ _ HT HG1) as HG2. destruct HT as (T1 & _ & _ & _ & T5 & _).
    (* write-back, deferred to the async thread or inline: store.cpp:265-283 *)
    set (w3 := if _ : bool then _ else snd (do_pwritev2 w2 roff data)).
    assert (HW : Wrote w2 w3).
    { unfold w3. destruct (negb (ret =? 0) && negb sync && c_pool cfg && c_tp cfg && (s_refilling (w_st w2) <? c_maxr cfg)).
      - split; [| repeat split; reflexivity]. split; [exact (proj1 HG2) |]. split; [| exact (proj2 (proj2 HG2))].
        intros o d Hin. apply in_app_or in Hin. destruct Hin as [Hin | [Hin | []]]; [exact (proj1 (proj2 HG2) o d Hin) |].
        inversion Hin; subst. rewrite <- T1 in Hgd. exact Hgd.
      - apply do_pwritev2_spec; [exact HG2 | now rewrite T1]. }
    destruct HW as (HG3 & W2 & W3 & W4). clearbody w3.
    assert (Hend : forall r2 r w', Served w3 lo2 hi2 offset2 r2 w' ->
              (r2 = hi2 - lo2 /\ r = count) \/ (r2 <> hi2 - lo2 /\ r = -1) -> Served w lo hi offset r w').
    { intros r2 r w' Hsv Hr. apply (Served_from w1); [now rewrite S1 | exact S2 | intros Hok; now apply S5 |].
      apply (Served_mid w1 w2 ret lo2 hi2 offset2 lo hi offset r2 r w' (proj1 Hlo) Hmid); [| now rewrite <- Hcount].
      apply (Served_from w3); [exact W2 | exact W4 | now rewrite W3 | exact Hsv]. }
    assert (Hub3 : zlen (w_ubuf w3) = zlen (w_ubuf w)) by now rewrite W4, T5, S2.
    destruct (Z.eqb_spec ret count) as [Hall | Hrem]; cbn [negb].
    { (* the refill buffer covered the whole request *)
      apply (Hend 0); [| left; lia]. replace hi2 with lo2 by lia. now apply Served_nil. }
    (* re-read of the remainder, store.cpp:287-299 *)
    pose proof (try_preadv2_spec w3 lo2 hi2 offset2 (proj1 HG3) ltac:(lia) ltac:(lia) ltac:(lia)) as Ht.
    destruct (try_preadv2 cfg w3 lo2 hi2 offset2) as [tr w4]. destruct Ht as [HT4 Htr].
    destruct tr as [n | | roff' rsize']; [| contradiction |].
    - apply (Hend (hi2 - lo2)); [| left; lia]. apply Touch_served; [exact HG3 | lia | exact HT4 | apply Htr].
    - destruct Htr as (-> & _).
      pose proof (src_to_buf w3 lo2 hi2 offset2 HG3 ltac:(lia) ltac:(lia) ltac:(lia) ltac:(lia)) as Hsb.
      destruct (src_pread src w3 offset2 (hi2 - lo2)) as [[r2 d2] w5].
      destruct (Z.eqb_spec (r2 + ret) count); apply (Hend r2); try exact Hsb; [left | right]; lia.
  Qed.

  Lemma tryget_size_spec w :
    Good w ->
    match tryget_size src cfg w with
    | (r, w') =>
        w_ubuf w' = w_ubuf w /\ Good w' /\ s_actual (w_st w) <= s_actual (w_st w')
        /\ (r = -1 \/ (r = 0 /\ s_actual (w_st w') = S))
        /\ (AllOk (w_sor w) -> r = 0 /\ AllOk (w_sor w'))
    end.
  Proof.
    intros HG. pose proof HG as ((Hwf & Hcons & Hact & Hpgsz) & _). unfold tryget_size.
    destruct (Z.eqb_spec (s_actual (w_st w) mod c_page cfg) 0) as [Hal | Hal]; cbn [negb].
    2:{ split; [reflexivity |]. split; [exact HG |]. split; [lia |].
        split; [right; split; [reflexivity | now apply Hpgsz] | now split]. }
    destruct (pop (w_sor w)) as [o rest] eqn:Hpop.
    assert (Hok : AllOk (w_sor w) -> o = OOk /\ AllOk rest).
    { intros H. apply pop_allok in H. now rewrite Hpop in H. }
    fold S. set (st1 := mkStore _ _ _ _ _).
    assert (Hst1 : s_actual st1 = S).
    { unfold st1. cbn [s_actual]. destruct (Z.ltb_spec (s_actual (w_st w)) S); lia. }
    assert (HG1 : forall l, Good (mkW st1 rest (w_wor w) (w_ubuf w) (w_held w) (w_pending w) l)).
    { intros l. apply (Good_intro w); [| cbn [w_st]; lia | reflexivity | reflexivity | exact HG].
      cbn [w_st]. unfold Inv. rewrite Hst1. split; [exact Hwf |]. split; [| split; [lia | tauto]].
      intros x Hx. destruct (Hcons x Hx) as (H1 & H2 & H3). rewrite Hst1. split; [exact H1 |]. split; [lia | exact H3]. }
    destruct o; cbn [w_ubuf w_st w_sor]; (split; [reflexivity |]).
    3:{ split; [apply (Good_intro w); [exact (proj1 HG) | apply Z.le_refl | reflexivity | reflexivity | exact HG] |].
        split; [lia |]. split; [now left |]. intros H. now destruct (Hok H). }
    all: split; [apply HG1 |]; split; [lia |]; split; [right; now split |];
      intros H; split; [reflexivity | now apply Hok].
  Qed.

  (* the size check ahead of both loops, store.cpp:50-56 and 142-148 *)
  Lemma size_checked (c : bool) w :
    Good w ->
    match (if c then tryget_size src cfg w else (0, w)) with
    | (r, w1) =>
        w_ubuf w1 = w_ubuf w /\ Good w1 /\ s_actual (w_st w) <= s_actual (w_st w1)
        /\ (r = -1 \/ (r = 0 /\ (c = true -> s_actual (w_st w1) = S)))
        /\ (AllOk (w_sor w) -> r = 0 /\ AllOk (w_sor w1))
    end.
  Proof.
    intros HG. destruct c.
    - pose proof (tryget_size_spec w HG) as H. destruct (tryget_size src cfg w) as [r w1]. intuition.
    - split; [reflexivity |]. split; [exact HG |]. split; [lia |]. split; [right; now split | now split].
  Qed.

  Definition full (offset vsize : Z) : Z := Z.max 0 (Z.min vsize (S - offset)).

  Definition ReadPost (w : world) (offset vsize : Z) (co : bool) (r : Z) (w' : world) : Prop :=
    Good w' /\ zlen (w_ubuf w') = zlen (w_ubuf w)
    /\ s_actual (w_st w) <= s_actual (w_st w')
    /\ (forall i, full offset vsize <= i -> getz (w_ubuf w') i = getz (w_ubuf w) i)
    /\ (r = -1 \/ (0 <= r <= full offset vsize /\ Agree (w_ubuf w') 0 r offset))
    /\ (AllOk (w_sor w) -> co = false -> r = full offset vsize)
    /\ (AllOk (w_sor w) -> AllOk (w_sor w')).

  Lemma Served_ReadPost w offset vsize co r w' :
    Served w 0 (full offset vsize) offset r w' -> ReadPost w offset vsize co r w'.
  Proof.
    intros (V1 & V2 & V3 & V4 & V5 & V6).
    split; [exact V1 |]. split; [exact V3 |]. split; [lia |].
    split; [intros i Hi; apply V4; unfold full in *; lia |].
    split; [destruct V5 as [V5 | [V5 Hag]]; [now left | right; split; [lia |]; intros i Hi; apply Hag; lia] |].
    split; [intros Hok _; destruct (V6 Hok); lia | intros Hok; now destruct (V6 Hok)].
  Qed.

  Lemma preadv2_loop_spec fuel co sync w offset vsize :
    Good w -> zlen (w_ubuf w) = vsize -> 0 <= offset -> 0 < vsize ->
    (s_actual (w_st w) = S \/ offset + vsize <= s_actual (w_st w)) ->
    match preadv2_loop src cfg (Datatypes.S fuel) co sync w offset vsize with
    | (r, w') => ReadPost w offset vsize co r w'
    end.
  Proof.
    intros HG Hub Hoff Hvs Hsz. pose proof HG as (Hinv & _).
    assert (HactS : 0 <= s_actual (w_st w) <= S) by apply Hinv.
    cbn [preadv2_loop]. set (asize := s_actual (w_st w)) in *.
    destruct (Z.leb_spec asize offset) as [Hle | Hgt].
    { apply Served_ReadPost. replace (full offset vsize) with 0 by (unfold full; lia). now apply Served_nil. }
    set (iov := if asize <? offset + vsize then asize - offset else vsize).
    assert (Hiov : iov = full offset vsize /\ 0 < iov <= vsize /\ offset + iov <= asize).
    { unfold iov, full. destruct (Z.ltb_spec asize (offset + vsize)); lia. }
    destruct Hiov as (Hif & Hipos & Hifit).
    pose proof (try_preadv2_spec w 0 iov offset Hinv ltac:(lia) ltac:(lia) Hoff) as Ht.
    destruct (try_preadv2 cfg w 0 iov offset) as [tr w1]. destruct Ht as [HT Htr].
    destruct tr as [n | | roff rsize]; [| contradiction |].
    - (* no hole: the same with and without CACHE_ONLY *)
      destruct Htr as [-> Hag].
      assert (H : ReadPost w offset vsize co (iov - 0) w1).
      { apply Served_ReadPost. rewrite <- Hif. apply Touch_served; [exact HG | lia | exact HT | exact Hag]. }
      now destruct co.
    - destruct Htr as (-> & Hro & Hrs). destruct co.
      + split; [exact HG |]. split; [reflexivity |]. split; [lia |]. split; [reflexivity |]. split; [now left |].
        split; [discriminate | auto].
      + pose proof (do_refill_spec sync w roff rsize iov asize 0 iov offset HG ltac:(lia) ltac:(lia) ltac:(lia)
                      eq_refl Hoff Hifit ltac:(lia) Hrs) as Hr.
        destruct (do_refill src cfg sync w roff rsize iov asize 0 iov offset) as [[r |] w2]; [| contradiction].
        apply Served_ReadPost. now rewrite <- Hif.
  Qed.

  Lemma ReadPost_ge w offset vsize co r w' :
    ReadPost w offset vsize co r w' -> r <> -2.
  Proof. intros (_ & _ & _ & _ & [H | [H _]] & _ & _); lia. Qed.

  Lemma preadv2_spec co sync w offset vsize :
    Good w -> zlen (w_ubuf w) = vsize -> 0 <= offset ->
    match preadv2 src cfg co sync w offset vsize with
    | (r, w') => ReadPost w offset vsize co r w'
    end.
  Proof.
    intros HG Hub Hoff.
    assert (Hvs : 0 <= vsize) by (rewrite <- Hub; apply zlen_nonneg).
    unfold preadv2. destruct (Z.ltb_spec offset 0); [lia |].
    destruct (Z.eqb_spec vsize 0) as [Hv0 | Hv0].
    { apply Served_ReadPost. replace (full offset vsize) with 0 by (unfold full; lia). now apply Served_nil. }
    set (asize := s_actual (w_st w)). set (c := (asize <=? offset) || (asize <? offset + vsize)).
    pose proof (size_checked c w HG) as Hg.
    destruct (if c then tryget_size src cfg w else (0, w)) as [r w1].
    destruct Hg as (G1 & HG1 & Hmono & Hr & Hok).
    destruct Hr as [-> | [-> Hsz]]; cbn [Z.eqb negb].
    - split; [exact HG1 |]. split; [now rewrite G1 |]. split; [exact Hmono |]. split; [intros; now rewrite G1 |].
      split; [now left |]. split; intros Hk; now destruct (Hok Hk).
    - assert (Hpre : s_actual (w_st w1) = S \/ offset + vsize <= s_actual (w_st w1)).
      { destruct c eqn:Hc; [left; now apply Hsz | right]. apply orb_false_iff in Hc. destruct Hc as [_ Hc].
        apply Z.ltb_ge in Hc. fold asize in Hmono. lia. }
      pose proof (preadv2_loop_spec 3 co sync w1 offset vsize HG1 ltac:(now rewrite G1) Hoff ltac:(lia) Hpre) as Hl.
      destruct (preadv2_loop src cfg 4 co sync w1 offset vsize) as [r' w'].
      destruct Hl as (L1 & L2 & L3 & L4 & L5 & L6 & L7). rewrite G1 in *.
      split; [exact L1 |]. split; [exact L2 |]. split; [lia |]. split; [exact L4 |]. split; [exact L5 |].
      split; intros Hk; [intros Hco; apply L6; [now apply Hok | exact Hco] | now apply L7, Hok].
  Qed.

  Lemma Wrote_trans w w1 w2 : Wrote w w1 -> Wrote w1 w2 -> Wrote w w2.
  Proof. intros (_ & A2 & A3 & A4) (B1 & B2 & B3 & B4). split; [exact B1 |]. repeat split; congruence. Qed.

  Lemma drain_aux_spec ps : forall w,
    Good w -> (forall off data, In (off, data) ps -> GoodData (w_st w) off data) -> Wrote w (drain_aux w ps).
  Proof.
    induction ps as [| [off data] t IH]; intros w HG Hps; cbn [drain_aux].
    - split; [exact HG | repeat split; reflexivity].
    - destruct (do_pwritev2_spec w off data HG (Hps off data (or_introl eq_refl))) as (D1 & D2 & D3 & D4).
      (* Good does not look at m_refilling *)
      eapply Wrote_trans; [| apply IH].
      + split; [exact D1 |]. repeat split; assumption.
      + exact D1.
      + intros o d Hin. destruct (Hps o d (or_intror Hin)) as (H1 & H2 & H3).
        split; [exact H1 |]. split; [| exact H3]. cbn [set_st w_st s_actual]. now rewrite D2.
  Qed.

  Lemma drain_spec w : Good w -> Wrote w (drain w).
  Proof.
    intros HG. destruct (drain_aux_spec (w_pending w) w HG (proj1 (proj2 HG))) as ((I1 & _ & I3) & D).
    split; [| exact D]. split; [exact I1 |]. split; [intros ? ? [] | exact I3].
  Qed.

  Hypothesis Hsize : S <= OFF_MAX.      (* the source size fits off_t *)

  Lemma evict_inv w off cnt :
    Inv (w_st w) -> 0 <= off ->
    let w' := evict cfg w off cnt in
    Inv (w_st w') /\ s_actual (w_st w') = s_actual (w_st w)
    /\ w_held w' = w_held w /\ w_pending w' = w_pending w /\ w_sor w' = w_sor w.
  Proof.
    intros Hinv Hoff. pose proof Hinv as (Hwf & Hcons & Hact & Hpg). cbv zeta.
    (* both forms take a range [l,r) out of the filled map and leave every media byte outside it alone *)
    assert (Hkeep : forall l r m',
        (forall x, covers (s_filled (w_st w)) x -> ~ (l <= x < r) ->
                   0 <= x < zlen m' /\ getz m' x = getz (s_media (w_st w)) x) ->
        Inv (mkStore (s_actual (w_st w)) (removeRange (s_filled (w_st w)) l r) m' (s_td (w_st w)) (s_refilling (w_st w)))).
    { intros l r m' Hm. destruct (removeRange_spec (s_filled (w_st w)) l r Hwf) as [Hwf' Hcov].
      split; [exact Hwf' |]. split; [| tauto]. intros x Hx. apply Hcov in Hx. destruct Hx as [Hx Hn].
      destruct (Hcons x Hx) as (H1 & H2 & H3). destruct (Hm x Hx Hn) as [H4 H5].
      cbn [s_media s_actual]. rewrite H5. tauto. }
    unfold evict, removeFrom, add_log, set_st. destruct (Z.eqb_spec cnt (-1)) as [Hc | Hc].
    - destruct (c_tne cfg && (zlen (s_media (w_st w)) <=? off)); [split; [exact Hinv | repeat split; reflexivity] |].
      (* nothing is cached at or beyond the source size, so removeFrom's upper end OFF_MAX is out of reach *)
      split; [| repeat split; reflexivity]. apply Hkeep. intros x Hx Hn. destruct (Hcons x Hx) as (H1 & H2 & _).
      rewrite zlen_resize, getz_resize by lia. split; [lia | reflexivity].
    - split; [| repeat split; reflexivity]. apply Hkeep. intros x Hx Hn. destruct (Hcons x Hx) as (H1 & _).
      rewrite zlen_punch, getz_punch_outside by lia. split; [lia | reflexivity].
  Qed.

  Lemma evict_all_inv w :
    Inv (w_st w) ->
    let w' := evict_all cfg w in
    Inv (w_st w') /\ s_actual (w_st w') = s_actual (w_st w)
    /\ w_held w' = w_held w /\ w_pending w' = w_pending w /\ w_sor w' = w_sor w.
  Proof. intros Hinv. exact (evict_inv w 0 (-1) Hinv (Z.le_refl 0)). Qed.

  Definition Kept (w w' : world) : Prop :=
    Good w' /\ s_actual (w_st w) <= s_actual (w_st w') /\ (AllOk (w_sor w) -> AllOk (w_sor w')).

  Lemma Kept_refl w : Good w -> Kept w w.
  Proof. intros HG. split; [exact HG |]. split; [lia | auto]. Qed.

  Lemma do_refill_noinput_spec w roff rsize0 count asize :
    Good w -> asize = s_actual (w_st w) -> 0 <= roff < asize -> 0 < rsize0 ->
    match do_refill_noinput src w roff rsize0 count asize with
    | (RAgain, _) => False
    | (RRet r, w') => Kept w w'
    end.
  Proof.
    intros HG Hasize Hroff Hrs0. pose proof HG as (_ & _ & Hheld). unfold do_refill_noinput. cbv zeta.
    set (rsize := if asize <? roff + rsize0 then asize - roff else rsize0).
    assert (Hrs : 0 < rsize /\ roff + rsize <= asize) by (unfold rsize; destruct (Z.ltb_spec asize (roff + rsize0)); lia).
    rewrite Hheld, <- Hasize, Z.eqb_refl. cbn [conflict existsb negb].
    pose proof (refill_read w roff rsize HG ltac:(lia) ltac:(lia) ltac:(lia)) as Hs.
    destruct (src_pread src w roff rsize) as [[ret0 data] w1]. destruct Hs as (S1 & S2 & HG1 & S4 & S5).
    destruct (Z.eqb_spec ret0 rsize) as [Heq | Hne]; cbn [negb].
    - destruct (do_pwritev2_spec w1 roff data HG1 (proj1 (S4 Heq))) as (D1 & D2 & D3 & _).
      destruct (do_pwritev2 w1 roff data) as [wr w2]. cbn [snd] in *.
      assert (HK : Kept w w2) by (split; [exact D1 | split; [rewrite D2, S1; lia | intros Hok; rewrite D3; now apply S5]]).
      now destruct (negb (wr =? rsize)).
    - split; [exact HG1 |]. split; [rewrite S1; lia | intros Hok; now apply S5].
  Qed.

  Lemma try_refill_loop_spec fuel w offset count0 :
    Good w -> 0 <= offset -> 0 < count0 ->
    match try_refill_loop src cfg (Datatypes.S fuel) w offset count0 with
    | (r, w') => Kept w w'
    end.
  Proof.
    intros HG Hoff Hc. pose proof (Kept_refl w HG) as HK. pose proof HG as ((Hwf & _) & _). cbn [try_refill_loop].
    set (asize := s_actual (w_st w)).
    destruct (Z.leb_spec asize offset); [exact HK |].
    set (count := if asize <? offset + count0 then asize - offset else count0).
    assert (Hcnt : 0 < count /\ offset + count <= asize) by (unfold count; destruct (Z.ltb_spec asize (offset + count0)); lia).
    pose proof (query_spec (w_st w) offset count Hwf Hoff ltac:(lia)) as Hq. cbv zeta in Hq.
    set (q := query cfg (w_st w) offset count) in *.
    destruct (Z.ltb_spec (fst q) 0); [lia |].
    destruct Hq as [(Hq0 & _) | (Hq1 & Hq2)]; [rewrite Hq0; exact HK |].
    destruct (Z.eqb_spec (snd q) 0); [lia |].
    pose proof (do_refill_noinput_spec w (fst q) (snd q) count asize HG eq_refl ltac:(lia) Hq2) as Hr.
    now destruct (do_refill_noinput src w (fst q) (snd q) count asize) as [[r |] w1].
  Qed.

  Lemma prefetch_spec w off cnt :
    Good w -> match prefetch src cfg w off cnt with (r, w') => Kept w w' end.
  Proof.
    intros HG. pose proof (Kept_refl w HG) as HK. unfold prefetch.
    set (offset1 := if off <? 0 then 0 else off).
    assert (H1 : 0 <= offset1) by (unfold offset1; destruct (Z.ltb_spec off 0); lia).
    set (pg := c_page cfg).
    set (offset := if negb (offset1 mod pg =? 0) then offset1 / pg * pg else offset1).
    assert (H2 : 0 <= offset).
    { unfold offset. destruct (negb (offset1 mod pg =? 0)); [| exact H1].
      apply Z.mul_nonneg_nonneg; [apply Z.div_pos; unfold pg; lia | unfold pg; lia]. }
    set (e := if negb ((offset1 + cnt) mod pg =? 0) then (offset1 + cnt + pg - 1) / pg * pg else offset1 + cnt).
    destruct (Z.leb_spec (e - offset) 0); [exact HK |].
    destruct (Z.ltb_spec PREFETCH_BATCH (e - offset)); [exact HK |].
    assert (Hres : match try_refill_range src cfg w offset (e - offset) with (r, w') => Kept w w' end).
    { unfold try_refill_range.
      pose proof (size_checked ((s_actual (w_st w) <=? offset) || (s_actual (w_st w) <? offset + (e - offset))) w HG) as Hg.
      destruct (if _ : bool then tryget_size src cfg w else (0, w)) as [r w1].
      destruct Hg as (_ & HG1 & Hmono & Hr & Hok).
      destruct Hr as [-> | [-> _]]; cbn [Z.eqb negb]; [split; [exact HG1 | split; [exact Hmono | intros Hk; now apply Hok]] |].
      pose proof (try_refill_loop_spec 3 w1 offset (e - offset) HG1 H2 ltac:(lia)) as Hl.
      destruct (try_refill_loop src cfg 4 w1 offset (e - offset)) as [r' w']. destruct Hl as (L1 & L2 & L3).
      split; [exact L1 |]. split; [lia | intros Hk; now apply L3, Hok]. }
    destruct (try_refill_range src cfg w offset (e - offset)) as [ret w1].
    now destruct (ret <? 0).
  Qed.

  Definition op_ok (o : op) : Prop :=
    match o with
    | OpRead off vsize held _ _ => 0 <= off /\ 0 <= vsize /\ held = []
    | OpEvict off cnt => 0 <= off /\ -1 <= cnt
    | OpEvictAll => True
    | OpPrefetch _ _ => True
    end.

  (* a world between two operations: nothing pending, no foreign lock *)
  Definition Idle (w : world) : Prop := Inv (w_st w) /\ w_pending w = [] /\ w_held w = [].

  (* what one read op delivers *)
  Definition read_ok (sor : list outcome) (off vsize : Z) (co : bool) (r : Z) (ub : list Z) : Prop :=
    zlen ub = vsize
    /\ (r = -1 \/ (0 <= r <= full off vsize /\ forall i, 0 <= i < r -> getz ub i = getz src (off + i)))
    /\ (forall i, full off vsize <= i < vsize -> getz ub i = 170)
    /\ (AllOk sor -> co = false -> r = full off vsize).

  Definition result_ok (sor : list outcome) (o : op) (res : Z * list Z * list event) : Prop :=
    match o with
    | OpRead off vsize _ co _ => read_ok sor off vsize co (fst (fst res)) (snd (fst res))
    | _ => True
    end.

  Lemma run_op_spec w o :
    Idle w -> op_ok o ->
    match run_op src cfg w o with
    | (res, w') => Idle w' /\ s_actual (w_st w) <= s_actual (w_st w') /\ result_ok (w_sor w) o res
                   /\ (AllOk (w_sor w) -> AllOk (w_sor w'))
    end.
  Proof.
    intros (Hinv & Hpend & Hheld) Hok.
    assert (HG0 : forall ub, Good (mkW (w_st w) (w_sor w) (w_wor w) ub [] [] [])).
    { intros ub. split; [exact Hinv |]. split; [intros ? ? [] | reflexivity]. }
    destruct o as [off vsize held co sync | off cnt | | off cnt]; cbn [run_op op_ok] in *.
    - destruct Hok as (Hoff & Hvs & ->). cbn [w_st w_sor w_wor].
      set (w1 := mkW _ _ _ (repeat 170 (Z.to_nat vsize)) _ _ _).
      assert (Hub1 : zlen (w_ubuf w1) = vsize) by (unfold w1; cbn [w_ubuf]; rewrite zlen_repeat; lia).
      pose proof (preadv2_spec co sync w1 off vsize (HG0 _) Hub1 Hoff) as Hp.
      destruct (preadv2 src cfg co sync w1 off vsize) as [r w2].
      destruct Hp as (R1 & R2 & R3 & R4 & R5 & R6 & R7).
      destruct (drain_spec (add_log w2 (EvRet r)) R1) as ((D1 & _) & D4 & D5 & D6).
      unfold result_ok, read_ok. cbn [fst snd w_st w_sor]. rewrite D5, D6. cbn [add_log w_sor w_ubuf].
      split; [split; [exact D1 | split; reflexivity] |]. split; [rewrite D4; exact R3 |]. split; [| exact R7].
      split; [now rewrite R2 |]. split; [| split; [| exact R6]].
      + destruct R5 as [R5 | [R5 Hag]]; [now left | right]. split; [exact R5 |].
        intros i Hi. rewrite Hag by lia. f_equal. lia.
      + intros i Hi. rewrite R4 by lia. apply getz_repeat. unfold full in Hi. lia.
    - destruct (evict_inv (mkW (w_st w) (w_sor w) (w_wor w) [] [] [] []) off cnt Hinv (proj1 Hok)) as (E1 & E2 & E3 & E4 & E5).
      cbn [fst snd]. split; [split; [exact E1 | split; assumption] |]. split; [rewrite E2; apply Z.le_refl |].
      split; [exact I | now rewrite E5].
    - destruct (evict_all_inv (mkW (w_st w) (w_sor w) (w_wor w) [] [] [] []) Hinv) as (E1 & E2 & E3 & E4 & E5).
      cbn [fst snd]. split; [split; [exact E1 | split; assumption] |]. split; [rewrite E2; apply Z.le_refl |].
      split; [exact I | now rewrite E5].
    - pose proof (prefetch_spec _ off cnt (HG0 [])) as Hp.
      destruct (prefetch src cfg _ off cnt) as [r w1]. destruct Hp as ((P1 & _) & Hmono & Hsor).
      cbn [fst snd]. split; [split; [exact P1 | split; reflexivity] |]. split; [exact Hmono |]. split; [exact I | exact Hsor].
  Qed.

  (* all results of a run: each read is correct for the oracle suffix it started with *)
  Fixpoint results_ok (w : world) (ops : list op) : Prop :=
    match ops with
    | [] => True
    | o :: t => result_ok (w_sor w) o (fst (run_op src cfg w o)) /\ results_ok (snd (run_op src cfg w o)) t
    end.

  Lemma run_ops_spec ops : forall w,
    Idle w -> Forall op_ok ops ->
    Idle (snd (run_ops src cfg w ops)) /\ results_ok w ops
    /\ s_actual (w_st w) <= s_actual (w_st (snd (run_ops src cfg w ops))).
  Proof.
    induction ops as [| o t IH]; intros w Hidle Hops; cbn [run_ops results_ok].
    - cbn [snd]. split; [exact Hidle | split; [exact I | lia]].
    - inversion Hops as [| ? ? Ho Ht]; subst.
      pose proof (run_op_spec w o Hidle Ho) as H1.
      destruct (run_op src cfg w o) as [res w1]. destruct H1 as (I1 & A1 & R1 & _).
      destruct (IH w1 I1 Ht) as (I2 & R2 & A2).
      destruct (run_ops src cfg w1 t) as [rs w2]. cbn [fst snd] in *.
      split; [exact I2 |]. split; [split; assumption | lia].
  Qed.
End ReadProofs.

(* read_returns_source + failed_source_read_no_wrong_bytes, for every source content, page
   size, refill unit (any integer >= 1, power of two or not), pool configuration, request,
   flags and every script of source-read / media-write outcomes. *)
Theorem read_returns_source_proof :
  forall (src : list Z) (cfg : config), 1 <= c_page cfg -> 1 <= c_unit cfg ->
  forall (co sync : bool) (w : world) (offset vsize : Z),
    Good src cfg w -> zlen (w_ubuf w) = vsize -> 0 <= offset ->
    match preadv2 src cfg co sync w offset vsize with
    | (r, w') => ReadPost src cfg w offset vsize co r w'
    end.
Proof. intros src cfg Hp Hu co sync w offset vsize. intros; apply preadv2_spec; assumption. Qed.

Theorem failed_source_read_no_wrong_bytes_proof :
  forall (src : list Z) (cfg : config), 1 <= c_page cfg -> 1 <= c_unit cfg ->
  forall (co sync : bool) (w : world) (offset vsize : Z),
    Good src cfg w -> zlen (w_ubuf w) = vsize -> 0 <= offset ->
    let r := fst (preadv2 src cfg co sync w offset vsize) in
    let w' := snd (preadv2 src cfg co sync w offset vsize) in
    (r = -1 \/ (0 <= r <= Z.max 0 (Z.min vsize (zlen src - offset))
               /\ forall i, 0 <= i < r -> getz (w_ubuf w') i = getz src (offset + i)))
    /\ Inv src cfg (w_st w') /\ Inv src cfg (w_st (drain w')).
Proof.
  intros src cfg Hp Hu co sync w offset vsize HG Hub Hoff.
  pose proof (preadv2_spec src cfg Hu co sync w offset vsize HG Hub Hoff) as H.
  destruct (preadv2 src cfg co sync w offset vsize) as [r w']. cbn [fst snd].
  destruct H as (R1 & R2 & R3 & R4 & R5 & R6 & R7).
  split.
  - destruct R5 as [R5 | [R5 Hag]]; [now left | right]. split; [exact R5 |].
    intros i Hi. rewrite Hag by lia. f_equal. lia.
  - split; [now destruct R1 |]. now destruct (drain_spec src cfg w' R1) as [[D _] _].
Qed.

(* consistent_preserved: every operation (a read with arbitrary fault script including its
   asynchronous write-back, a range eviction, a truncate, a whole-file eviction) maps an idle
   consistent store to an idle consistent store, and every read of the sequence is correct. *)
Theorem consistent_preserved_proof :
  forall (src : list Z) (cfg : config), 1 <= c_page cfg -> 1 <= c_unit cfg -> zlen src <= OFF_MAX ->
  forall (ops : list op) (w : world),
    Idle src cfg w -> Forall op_ok ops ->
    Idle src cfg (snd (run_ops src cfg w ops)) /\ results_ok src cfg w ops.
Proof.
  intros src cfg Hp Hu Hs ops w Hi Ho.
  destruct (run_ops_spec src cfg Hp Hu Hs ops w Hi Ho) as (H1 & H2 & _). split; assumption.
Qed.

(* a concrete non-trivial state meeting the hypotheses: 5-byte source, bytes 1..2 cached in a
   3-byte media file whose byte 0 is garbage, refill unit 4, page 4 *)
Definition ex_src : list Z := [11; 12; 13; 14; 15].
Definition ex_cfg : config := mkCfg 4 4 false false 128 4294967295 false.
Definition ex_world : world :=
  mkW (mkStore 5 [(1, 3)] [99; 12; 13] true 0) [] [] [170; 170; 170; 170] [] [] [].

Example ex_good : Good ex_src ex_cfg ex_world.
Proof.
  unfold Good, ex_world. cbn [w_st w_held]. split; [| split; [intros ? ? [] | reflexivity]].
  unfold Inv. cbn [s_filled s_media s_actual]. split; [exists 0; cbn; lia |]. split; [| split; [cbn; lia | intros _; reflexivity]].
  intros x (s & e & [Heq | []] & Hx). inversion Heq; subst. cbn [s_media s_actual s_filled].
  assert (Hc : x = 1 \/ x = 2) by lia. destruct Hc; subst; cbn; repeat split; lia.
Qed.

Example ex_idle : Idle ex_src ex_cfg ex_world.
Proof. destruct ex_good as (H & _ & _). split; [exact H | split; reflexivity]. Qed.

(* and the model really reads through it: request [0,4) of the example refills [0,4) and
   returns the four source bytes *)
Example ex_read :
  fst (preadv2 ex_src ex_cfg false false ex_world 0 4) = 4
  /\ w_ubuf (snd (preadv2 ex_src ex_cfg false false ex_world 0 4)) = [11; 12; 13; 14].
Proof. vm_compute. split; reflexivity. Qed.
