(* C17_Lists.v — pointwise facts about the byte-list operations of the model. *)
From Coq Require Import ZArith List Lia Bool.
From PV Require Import C17.C17_Model.
Import ListNotations.
Local Open Scope Z_scope.

Definition getz (l : list Z) (i : Z) : Z := nth (Z.to_nat i) l 0.

Lemma zlen_nonneg {A} (l : list A) : 0 <= zlen l.
Proof. unfold zlen. lia. Qed.

Lemma zlen_app {A} (a b : list A) : zlen (a ++ b) = zlen a + zlen b.
Proof. unfold zlen. rewrite app_length. lia. Qed.

Lemma zlen_repeat (x : Z) n : zlen (repeat x n) = Z.of_nat n.
Proof. unfold zlen. now rewrite repeat_length. Qed.

Lemma nth_firstn' {A} (l : list A) d : forall n i, (i < n)%nat -> nth i (firstn n l) d = nth i l d.
Proof.
  induction l as [| a l IH]; intros n i Hi.
  - rewrite firstn_nil. reflexivity.
  - destruct n; [lia |]. destruct i; simpl; [reflexivity |]. apply IH. lia.
Qed.

Lemma nth_skipn' {A} (l : list A) d : forall n i, nth i (skipn n l) d = nth (n + i) l d.
Proof.
  induction l as [| a l IH]; intros n i.
  - rewrite skipn_nil. destruct i, n; reflexivity.
  - destruct n; simpl; [reflexivity |]. apply IH.
Qed.

Lemma getz_repeat x n i : 0 <= i < Z.of_nat n -> getz (repeat x n) i = x.
Proof.
  intros Hi. unfold getz. rewrite (nth_indep _ 0 x) by (rewrite repeat_length; lia). apply nth_repeat.
Qed.

Lemma getz_beyond l i : zlen l <= i -> getz l i = 0.
Proof. unfold getz, zlen. intros H. apply nth_overflow. lia. Qed.

Lemma getz_app1 a b i : 0 <= i < zlen a -> getz (a ++ b) i = getz a i.
Proof. unfold getz, zlen. intros H. apply app_nth1. lia. Qed.

Lemma getz_app2 a b i : zlen a <= i -> getz (a ++ b) i = getz b (i - zlen a).
Proof.
  unfold getz, zlen. intros H. rewrite app_nth2 by lia. f_equal. lia.
Qed.

Lemma zlen_slice l off n : 0 <= off -> 0 <= n -> off + n <= zlen l -> zlen (slice l off n) = n.
Proof.
  unfold slice, zlen. intros H1 H2 H3. rewrite firstn_length, skipn_length. lia.
Qed.

Lemma zlen_slice_le l off n : 0 <= n -> zlen (slice l off n) <= n.
Proof. unfold slice, zlen. intros H. rewrite firstn_length. lia. Qed.

Lemma getz_slice l off n i : 0 <= off -> 0 <= i < n -> getz (slice l off n) i = getz l (off + i).
Proof.
  unfold slice, getz. intros H1 H2. rewrite nth_firstn' by lia. rewrite nth_skipn'. f_equal. lia.
Qed.

Lemma firstn_is_slice (l : list Z) n : firstn (Z.to_nat n) l = slice l 0 n.
Proof. reflexivity. Qed.

Lemma zlen_pad_to l n : zlen (pad_to l n) = Z.max (zlen l) n.
Proof. unfold pad_to. rewrite zlen_app, zlen_repeat. pose proof (zlen_nonneg l). lia. Qed.

Lemma getz_pad_to l n i : 0 <= i -> getz (pad_to l n) i = getz l i.
Proof.
  intros Hi. unfold pad_to. destruct (Z.lt_ge_cases i (zlen l)).
  - apply getz_app1. lia.
  - rewrite getz_app2 by lia. rewrite (getz_beyond l) by lia. unfold getz. apply nth_repeat.
Qed.

Lemma zlen_splice l pos data :
  0 <= pos <= zlen l -> zlen (splice l pos data) = Z.max (zlen l) (pos + zlen data).
Proof.
  intros H. unfold splice. rewrite !zlen_app. unfold zlen in *.
  rewrite firstn_length, skipn_length.
  lia.
Qed.

Lemma getz_splice_in l pos data i :
  0 <= pos <= zlen l -> pos <= i < pos + zlen data -> getz (splice l pos data) i = getz data (i - pos).
Proof.
  intros Hp Hi. unfold splice.
  assert (Hf : zlen (firstn (Z.to_nat pos) l) = pos) by (apply (zlen_slice l 0 pos); lia).
  rewrite getz_app2, Hf by lia. apply getz_app1. lia.
Qed.

Lemma getz_splice_out l pos data i :
  0 <= pos <= zlen l -> 0 <= i -> ~ (pos <= i < pos + zlen data) -> getz (splice l pos data) i = getz l i.
Proof.
  intros Hp Hi Hn. unfold splice.
  assert (Hf : zlen (firstn (Z.to_nat pos) l) = pos) by (apply (zlen_slice l 0 pos); lia).
  destruct (Z.lt_ge_cases i pos).
  - rewrite getz_app1 by lia. unfold getz. apply nth_firstn'. lia.
  - rewrite getz_app2, Hf by lia. rewrite getz_app2 by lia. unfold getz. rewrite nth_skipn'. f_equal.
    unfold zlen in *. lia.
Qed.

Lemma zlen_media_write m off data :
  0 <= off -> zlen (media_write m off data) = Z.max (zlen m) (off + zlen data).
Proof.
  intros H. unfold media_write. rewrite zlen_splice; rewrite zlen_pad_to; pose proof (zlen_nonneg m); pose proof (zlen_nonneg data); lia.
Qed.

Lemma getz_media_write_in m off data i :
  0 <= off -> off <= i < off + zlen data -> getz (media_write m off data) i = getz data (i - off).
Proof.
  intros H Hi. unfold media_write. apply getz_splice_in; [| exact Hi].
  rewrite zlen_pad_to. pose proof (zlen_nonneg m). lia.
Qed.

Lemma getz_media_write_out m off data i :
  0 <= off -> 0 <= i -> ~ (off <= i < off + zlen data) -> getz (media_write m off data) i = getz m i.
Proof.
  intros H Hi Hn. unfold media_write. rewrite getz_splice_out; [apply getz_pad_to; lia | | lia | exact Hn].
  rewrite zlen_pad_to. pose proof (zlen_nonneg m). lia.
Qed.

Lemma zlen_resize l n : 0 <= n -> zlen (resize l n) = n.
Proof.
  intros H. unfold resize. pose proof (zlen_pad_to l n). unfold zlen in *. rewrite firstn_length. lia.
Qed.

Lemma getz_resize l n i : 0 <= i < n -> getz (resize l n) i = getz l i.
Proof.
  intros H. unfold resize. rewrite <- (getz_pad_to l n i) by lia. unfold getz. apply nth_firstn'. lia.
Qed.

Lemma zlen_punch m off cnt : 0 <= off -> zlen (punch m off cnt) = zlen m.
Proof.
  intros H. unfold punch. destruct (Z.ltb_spec 0 (Z.max 0 (Z.min cnt (zlen m - off)))); [| reflexivity].
  rewrite zlen_splice by lia. rewrite zlen_repeat. lia.
Qed.

Lemma getz_punch_outside m off cnt i :
  0 <= off -> 0 <= i -> ~ (off <= i < off + cnt) -> getz (punch m off cnt) i = getz m i.
Proof.
  intros H Hi Hn. unfold punch. destruct (Z.ltb_spec 0 (Z.max 0 (Z.min cnt (zlen m - off)))); [| reflexivity].
  apply getz_splice_out; [lia | lia |]. rewrite zlen_repeat. lia.
Qed.

Lemma avail_range size off len : 0 <= avail size off len.
Proof. unfold avail. lia. Qed.

Lemma avail_full size off len : 0 <= len -> off + len <= size -> avail size off len = len.
Proof. unfold avail. lia. Qed.

Lemma avail_le size off len : 0 <= len -> avail size off len <= len.
Proof. unfold avail. lia. Qed.

Lemma avail_fit size off len : 0 <= off -> off + avail size off len <= Z.max size off.
Proof. unfold avail. lia. Qed.

(* align_down / align_up for ANY alignment a >= 1 (the C++ is a bit mask; power of two
   not needed for what the read path relies on) *)
Lemma ldiff_bounds x m : 0 <= x -> 0 <= m -> x - m <= Z.ldiff x m <= x.
Proof.
  intros Hx Hm.
  set (B := Z.land x m).
  assert (HBx : Z.ldiff B x = 0).
  { apply Z.bits_inj'. intros n Hn. unfold B. rewrite Z.ldiff_spec, Z.land_spec, Z.bits_0.
    destruct (Z.testbit x n), (Z.testbit m n); reflexivity. }
  assert (HBm : Z.ldiff B m = 0).
  { apply Z.bits_inj'. intros n Hn. unfold B. rewrite Z.ldiff_spec, Z.land_spec, Z.bits_0.
    destruct (Z.testbit x n), (Z.testbit m n); reflexivity. }
  pose proof (Z.ldiff_le B x Hx HBx). pose proof (Z.ldiff_le B m Hm HBm).
  pose proof (Z.sub_nocarry_ldiff x B HBx) as Hsub.
  assert (Heq : Z.ldiff x B = Z.ldiff x m).
  { apply Z.bits_inj'. intros n Hn. unfold B. rewrite !Z.ldiff_spec, Z.land_spec.
    destruct (Z.testbit x n), (Z.testbit m n); reflexivity. }
  rewrite <- Heq, <- Hsub. lia.
Qed.

Lemma align_down_bounds x a : 0 <= x -> 1 <= a -> x - (a - 1) <= align_down x a <= x.
Proof.
  intros Hx Ha. unfold align_down. rewrite <- Z.ldiff_land. apply ldiff_bounds; lia.
Qed.

Lemma align_up_ge x a : 0 <= x -> 1 <= a -> x <= align_up x a.
Proof.
  intros Hx Ha. unfold align_up. pose proof (align_down_bounds (x + a - 1) a). lia.
Qed.

Lemma align_down_nonneg x a : 0 <= x -> 0 <= align_down x a.
Proof. intros Hx. unfold align_down. rewrite <- Z.ldiff_land. apply Z.ldiff_nonneg. now left. Qed.

Lemma zlen_slice0 l off : zlen (slice l off 0) = 0.
Proof. reflexivity. Qed.
