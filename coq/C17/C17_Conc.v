(* C17_Conc.v — lock-granularity interleaving model of the cache read path (Coq only).

   Participants: any number of readers (ICacheStore::preadv2 -> FileCacheStore::try_preadv2 ->
   do_refill_range), asynchronous write-back threads (ICacheStore::async_refill), whole-file
   eviction (FileCachePool::evictOpenedFile: evict(0) under the store's WRITE lock) and the reuse of
   the media directory by a new pool instance.  One transition = one access to shared state, or one
   block executed under a lock whose footprint is only touched under that lock:

     shared state   media content + filled-range map of one file
     rw_lock_       FileCacheStore::try_preadv2 holds it SHARED around {hole query; media read}
                    (cache_store.cpp:57-61 around store.cpp:324-327); do_pwritev holds it SHARED
                    around {ftruncate; pwritev; addFilledRange} (cache_store.cpp:76-94);
                    evictOpenedFile holds it EXCLUSIVE around evict(0) (cache_pool.cpp:209-210).
                    The rwlock's specification (C06) is used: an exclusive section excludes every
                    shared section.  Hence `Evict` is one atomic step enabled only when no thread is
                    inside a shared section, and shared sections may be split into several steps.
     range_lock_    held from try_lock_wait (store.cpp:211) to the unlock after the inline write
                    (DEFER, :216) or to async_refill's unlock (:193).  RangeLock's specification
                    (C18, rl_disjoint) is used: a range is granted only if it is disjoint from every
                    held range; a refused request restarts the read (`-EAGAIN`, goto again).

   The source is a fixed function (it does not change).  Source reads may fail.  Media writes may be
   short or fail (any subset of the range is written and recorded).  The request size is already
   clamped to the file size (sequential theorem). *)
From Coq Require Import ZArith List Lia Bool.
Import ListNotations.
Local Open Scope Z_scope.

Definition bytes := Z -> Z.
Definition ubuf := Z -> option Z.          (* user buffer: file position -> byte delivered, if any *)

Definition inr (a b x : Z) : Prop := a <= x < b.

Inductive pc :=
| Idle
| RStart (off cnt : Z)                                  (* preadv2 entered, or `again:` *)
| RLocked (off cnt : Z)                                 (* holds rw SHARED, before the hole query *)
| RHit (off cnt : Z)                                    (* holds rw SHARED; query answered "no hole" *)
| RMiss (off cnt a b : Z)                               (* rw released; refill range [a,b) chosen *)
| RHaveLock (off cnt a b : Z)                           (* holds range lock [a,b) *)
| RHaveData (off cnt a b : Z) (rb : bytes)              (* source read into the refill buffer *)
| RCopied (off cnt a b : Z) (rb : bytes) (u : ubuf)     (* overlapping part copied to the caller *)
| RWriting (off cnt a b : Z) (rb : bytes) (u : ubuf)    (* inline write-back: holds rw SHARED *)
| RRemainder (off cnt : Z) (u : ubuf)                   (* refill written / handed to async thread *)
| RRemLocked (off cnt : Z) (u : ubuf)                   (* holds rw SHARED for the remainder query *)
| RRemHit (off cnt : Z) (u : ubuf)                      (* holds rw SHARED; remainder has no hole *)
| RRemMiss (off cnt : Z) (u : ubuf)                     (* rw released; remainder from the source *)
| RDone (off cnt : Z) (u : ubuf)                        (* preadv2 returns count *)
| RFail                                                 (* preadv2 returns -1 *)
| AWait (a b : Z) (rb : bytes)                          (* async_refill: owns range lock [a,b) *)
| AWriting (a b : Z) (rb : bytes).                      (* async_refill: holds rw SHARED *)

Definition in_shared (p : pc) : Prop :=
  match p with
  | RLocked _ _ | RHit _ _ | RWriting _ _ _ _ _ _ | RRemLocked _ _ _ | RRemHit _ _ _ | AWriting _ _ _ => True
  | _ => False
  end.

Definition holds_range (p : pc) : option (Z * Z) :=
  match p with
  | RHaveLock _ _ a b | RHaveData _ _ a b _ | RCopied _ _ a b _ _ | RWriting _ _ a b _ _
  | AWait a b _ | AWriting a b _ => Some (a, b)
  | _ => None
  end.

Record state := mkS {
  filled : Z -> bool;        (* the filled-range map as a set of bytes (RangeModule, rm_set_semantics) *)
  media : bytes;             (* content of the media file *)
  pcs : nat -> pc
}.

Definition upd (f : nat -> pc) (t : nat) (p : pc) : nat -> pc :=
  fun t' => if Nat.eqb t' t then p else f t'.

Definition disjoint (a b a' b' : Z) : Prop := b <= a' \/ b' <= a.

Section Model.
  Variable src : bytes.

  (* a write of (part of) the refill buffer: any subset D of [a,b) reaches the media and is recorded *)
  Definition written (s : state) (a b : Z) (rb : bytes) (D : Z -> bool) (s' : state) (p' : nat -> pc) : Prop :=
    (forall x, D x = true -> inr a b x) /\
    s' = mkS (fun x => D x || filled s x) (fun x => if D x then rb x else media s x) p'.

  Inductive step : state -> state -> Prop :=
  | s_start s t off cnt :
      pcs s t = Idle -> 0 <= off -> 0 < cnt ->
      step s (mkS (filled s) (media s) (upd (pcs s) t (RStart off cnt)))
  | s_rlock s t off cnt :                                  (* cache_store.cpp:59 *)
      pcs s t = RStart off cnt ->
      step s (mkS (filled s) (media s) (upd (pcs s) t (RLocked off cnt)))
  | s_query_hit s t off cnt :                              (* store.cpp:324-325 *)
      pcs s t = RLocked off cnt -> (forall x, inr off (off + cnt) x -> filled s x = true) ->
      step s (mkS (filled s) (media s) (upd (pcs s) t (RHit off cnt)))
  | s_query_miss s t off cnt a b :                         (* store.cpp:332-334, lock released *)
      pcs s t = RLocked off cnt -> a < b ->
      (forall x, inr off (off + cnt) x -> filled s x = false -> inr a b x) ->
      step s (mkS (filled s) (media s) (upd (pcs s) t (RMiss off cnt a b)))
  | s_media_read s t off cnt :                             (* store.cpp:327, lock released *)
      pcs s t = RHit off cnt ->
      step s (mkS (filled s) (media s)
                  (upd (pcs s) t (RDone off cnt (fun x => if (off <=? x) && (x <? off + cnt) then Some (media s x) else None))))
  | s_range_lock s t off cnt a b :                         (* store.cpp:211 granted *)
      pcs s t = RMiss off cnt a b ->
      (forall t' a' b', t' <> t -> holds_range (pcs s t') = Some (a', b') -> disjoint a b a' b') ->
      step s (mkS (filled s) (media s) (upd (pcs s) t (RHaveLock off cnt a b)))
  | s_again s t off cnt a b :                              (* store.cpp:212 -EAGAIN, goto again *)
      pcs s t = RMiss off cnt a b ->
      step s (mkS (filled s) (media s) (upd (pcs s) t (RStart off cnt)))
  | s_src_read s t off cnt a b rb :                        (* store.cpp:237 ok *)
      pcs s t = RHaveLock off cnt a b -> (forall x, inr a b x -> rb x = src x) ->
      step s (mkS (filled s) (media s) (upd (pcs s) t (RHaveData off cnt a b rb)))
  | s_src_fail s t off cnt a b :                           (* store.cpp:240-245, range unlocked *)
      pcs s t = RHaveLock off cnt a b ->
      step s (mkS (filled s) (media s) (upd (pcs s) t RFail))
  | s_copy s t off cnt a b rb (C : Z -> bool) :            (* store.cpp:251-263, any of the 3 cases *)
      pcs s t = RHaveData off cnt a b rb ->
      (forall x, C x = true -> inr a b x /\ inr off (off + cnt) x) ->
      step s (mkS (filled s) (media s)
                  (upd (pcs s) t (RCopied off cnt a b rb (fun x => if C x then Some (rb x) else None))))
  | s_inline s t off cnt a b rb u :                        (* store.cpp:273-276, cache_store.cpp:76 *)
      pcs s t = RCopied off cnt a b rb u ->
      step s (mkS (filled s) (media s) (upd (pcs s) t (RWriting off cnt a b rb u)))
  | s_inline_write s t off cnt a b rb u D s' :             (* cache_store.cpp:85-94; both locks released *)
      pcs s t = RWriting off cnt a b rb u ->
      written s a b rb D s' (upd (pcs s) t (RRemainder off cnt u)) ->
      step s s'
  | s_async s t t' off cnt a b rb u :                      (* store.cpp:267-271: range lock handed over *)
      pcs s t = RCopied off cnt a b rb u -> t' <> t -> pcs s t' = Idle ->
      step s (mkS (filled s) (media s) (upd (upd (pcs s) t (RRemainder off cnt u)) t' (AWait a b rb)))
  | s_async_lock s t a b rb :
      pcs s t = AWait a b rb ->
      step s (mkS (filled s) (media s) (upd (pcs s) t (AWriting a b rb)))
  | s_async_write s t a b rb D s' :                        (* store.cpp:185-193 *)
      pcs s t = AWriting a b rb ->
      written s a b rb D s' (upd (pcs s) t Idle) ->
      step s s'
  | s_rem_done s t off cnt u :                             (* store.cpp:287 ret == count *)
      pcs s t = RRemainder off cnt u ->
      (forall x, inr off (off + cnt) x -> u x <> None) ->
      step s (mkS (filled s) (media s) (upd (pcs s) t (RDone off cnt u)))
  | s_rem_lock s t off cnt u :                             (* store.cpp:288 -> cache_store.cpp:59 *)
      pcs s t = RRemainder off cnt u ->
      step s (mkS (filled s) (media s) (upd (pcs s) t (RRemLocked off cnt u)))
  | s_rem_hit s t off cnt u :
      pcs s t = RRemLocked off cnt u ->
      (forall x, inr off (off + cnt) x -> u x = None -> filled s x = true) ->
      step s (mkS (filled s) (media s) (upd (pcs s) t (RRemHit off cnt u)))
  | s_rem_miss s t off cnt u :
      pcs s t = RRemLocked off cnt u ->
      step s (mkS (filled s) (media s) (upd (pcs s) t (RRemMiss off cnt u)))
  | s_rem_media s t off cnt u :
      pcs s t = RRemHit off cnt u ->
      step s (mkS (filled s) (media s)
                  (upd (pcs s) t (RDone off cnt (fun x => match u x with Some v => Some v | None =>
                        if (off <=? x) && (x <? off + cnt) then Some (media s x) else None end))))
  | s_rem_src s t off cnt u :                              (* store.cpp:294 ok *)
      pcs s t = RRemMiss off cnt u ->
      step s (mkS (filled s) (media s)
                  (upd (pcs s) t (RDone off cnt (fun x => match u x with Some v => Some v | None =>
                        if (off <=? x) && (x <? off + cnt) then Some (src x) else None end))))
  | s_rem_fail s t off cnt u :                             (* store.cpp:295-297 *)
      pcs s t = RRemMiss off cnt u ->
      step s (mkS (filled s) (media s) (upd (pcs s) t RFail))
  | s_return s t :
      (exists off cnt u, pcs s t = RDone off cnt u) \/ pcs s t = RFail ->
      step s (mkS (filled s) (media s) (upd (pcs s) t Idle))
  | s_evict s m' :                                         (* cache_pool.cpp:205-214: under rw EXCLUSIVE *)
      (forall t, ~ in_shared (pcs s t)) ->
      step s (mkS (fun _ => false) m' (pcs s))
  | s_reuse s f' :                                         (* a new pool instance over the same directory *)
      (forall t, pcs s t = Idle) -> (forall x, f' x = true -> filled s x = true) ->
      step s (mkS f' (media s) (pcs s)).

  Inductive reachable : state -> Prop :=
  | r_init m : reachable (mkS (fun _ => false) m (fun _ => Idle))
  | r_step s s' : reachable s -> step s s' -> reachable s'.

  Definition ubuf_ok (off cnt : Z) (u : ubuf) : Prop :=
    forall x v, u x = Some v -> v = src x /\ inr off (off + cnt) x.

  Definition pc_ok (s : state) (p : pc) : Prop :=
    match p with
    | RHit off cnt => forall x, inr off (off + cnt) x -> filled s x = true
    | RHaveData _ _ a b rb => forall x, inr a b x -> rb x = src x
    | RCopied off cnt a b rb u | RWriting off cnt a b rb u =>
        (forall x, inr a b x -> rb x = src x) /\ ubuf_ok off cnt u
    | RRemainder off cnt u | RRemLocked off cnt u | RRemMiss off cnt u => ubuf_ok off cnt u
    | RRemHit off cnt u =>
        ubuf_ok off cnt u /\ forall x, inr off (off + cnt) x -> u x = None -> filled s x = true
    | RDone off cnt u => forall x, inr off (off + cnt) x -> u x = Some (src x)
    | AWait a b rb | AWriting a b rb => forall x, inr a b x -> rb x = src x
    | _ => True
    end.

  Definition CacheConsistent (s : state) : Prop := forall x, filled s x = true -> media s x = src x.

  Definition RangesDisjoint (s : state) : Prop :=
    forall t t' a b a' b', t <> t' ->
      holds_range (pcs s t) = Some (a, b) -> holds_range (pcs s t') = Some (a', b') -> disjoint a b a' b'.

  Definition Inv (s : state) : Prop :=
    CacheConsistent s /\ (forall t, pc_ok s (pcs s t)) /\ RangesDisjoint s.

  Lemma upd_same f t p : upd f t p t = p.
  Proof. unfold upd. now rewrite Nat.eqb_refl. Qed.

  Lemma upd_other f t p t' : t' <> t -> upd f t p t' = f t'.
  Proof. unfold upd. intros H. apply Nat.eqb_neq in H. now rewrite H. Qed.

  (* pc_ok of a thread survives any step that leaves it alone, provided the step only ADDS filled
     bytes, or the thread is not inside a shared section (then its pc_ok does not mention filled
     unless it is RHit / RRemHit, which are shared sections) *)
  Lemma pc_ok_mono s s' p :
    (forall x, filled s x = true -> filled s' x = true) -> pc_ok s p -> pc_ok s' p.
  Proof.
    intros Hm. destruct p; simpl; auto.
    intros [H1 H2]. split; [exact H1 |]. intros x Hx Hn. apply Hm. now apply H2.
  Qed.

  Lemma pc_ok_unshared s s' p : ~ in_shared p -> pc_ok s p -> pc_ok s' p.
  Proof. destruct p; simpl; auto; intros H; exfalso; apply H; exact I. Qed.

  Lemma inv_local s t p' :
    Inv s -> pc_ok s p' ->
    (holds_range p' = None \/ holds_range p' = holds_range (pcs s t)
     \/ exists a b, holds_range p' = Some (a, b)
          /\ forall t' a' b', t' <> t -> holds_range (pcs s t') = Some (a', b') -> disjoint a b a' b') ->
    Inv (mkS (filled s) (media s) (upd (pcs s) t p')).
  Proof.
    intros (Hc & Hp & Hr) Hok Hh. split; [exact Hc |]. split.
    - intros t'. cbn [pcs]. destruct (Nat.eq_dec t' t) as [-> | Hne].
      + rewrite upd_same. exact Hok.
      + rewrite upd_other by exact Hne. exact (Hp t').
    - assert (Hone : forall t2 a b a' b', t2 <> t -> holds_range p' = Some (a, b) ->
                       holds_range (pcs s t2) = Some (a', b') -> disjoint a b a' b').
      { intros t2 a b a' b' Hne H1 H2. destruct Hh as [Hh | [Hh | (a0 & b0 & Hh & Hnew)]].
        - congruence.
        - rewrite Hh in H1. exact (Hr t t2 _ _ _ _ (not_eq_sym Hne) H1 H2).
        - rewrite Hh in H1. injection H1 as <- <-. exact (Hnew t2 a' b' Hne H2). }
      intros t1 t2 a b a' b' Hne H1 H2. cbn [pcs] in *.
      destruct (Nat.eq_dec t1 t) as [-> | Hn1]; destruct (Nat.eq_dec t2 t) as [-> | Hn2]; try congruence.
      + rewrite upd_same in H1. rewrite upd_other in H2 by exact Hn2. exact (Hone t2 _ _ _ _ Hn2 H1 H2).
      + rewrite upd_same in H2. rewrite upd_other in H1 by exact Hn1.
        destruct (Hone t1 _ _ _ _ Hn1 H2 H1); [right | left]; assumption.
      + rewrite upd_other in H1 by exact Hn1. rewrite upd_other in H2 by exact Hn2. exact (Hr _ _ _ _ _ _ Hne H1 H2).
  Qed.

  Lemma inv_data s f' m' :
    Inv s -> (forall x, f' x = true -> m' x = src x) ->
    (forall t, (forall x, filled s x = true -> f' x = true) \/ ~ in_shared (pcs s t)) ->
    Inv (mkS f' m' (pcs s)).
  Proof.
    intros (Hc & Hp & Hr) Hc' Hfr. split; [exact Hc' |]. split; [| exact Hr].
    intros t. destruct (Hfr t) as [Hm | Hn]; [eapply pc_ok_mono | eapply pc_ok_unshared]; eauto.
  Qed.

  Lemma inv_written s t a b rb D s' p' :
    Inv s -> (forall x, inr a b x -> rb x = src x) ->
    holds_range p' = None -> pc_ok s p' ->
    written s a b rb D s' (upd (pcs s) t p') -> Inv s'.
  Proof.
    intros HI Hrb Hn Hok [HD ->].
    apply (inv_data (mkS (filled s) (media s) (upd (pcs s) t p'))); [apply inv_local; auto | |].
    - intros x Hx. cbn [filled media] in *. destruct (D x) eqn:HDx; [now apply Hrb, HD |]. now apply HI.
    - intros t'. left. intros x Hx. cbn [filled] in *. now rewrite Hx, orb_true_r.
  Qed.

  Lemma inr_dec off cnt x : (off <=? x) && (x <? off + cnt) = true <-> inr off (off + cnt) x.
  Proof. unfold inr. rewrite andb_true_iff, Z.leb_le, Z.ltb_lt. tauto. Qed.

  Theorem inv_step s s' : Inv s -> step s s' -> Inv s'.
  Proof.
    intros HI Hs. pose proof HI as (Hc & Hp & Hr).
    destruct Hs as
      [ s t off cnt Hpc Ho Hcn | s t off cnt Hpc | s t off cnt Hpc Hall | s t off cnt a b Hpc Hab Hun
      | s t off cnt Hpc | s t off cnt a b Hpc Hdis | s t off cnt a b Hpc | s t off cnt a b rb Hpc Hrb
      | s t off cnt a b Hpc | s t off cnt a b rb C Hpc HC | s t off cnt a b rb u Hpc
      | s t off cnt a b rb u D s' Hpc Hw | s t t' off cnt a b rb u Hpc Hne Hidle | s t a b rb Hpc
      | s t a b rb D s' Hpc Hw | s t off cnt u Hpc Hfull | s t off cnt u Hpc | s t off cnt u Hpc Hall
      | s t off cnt u Hpc | s t off cnt u Hpc | s t off cnt u Hpc | s t off cnt u Hpc | s t Hpc
      | s m' Hns | s f' Hidle Hsub ];
      try (pose proof (Hp t) as Hpt; rewrite Hpc in Hpt; simpl in Hpt).
    (* s_start, s_rlock, s_query_miss, s_again, s_src_fail, s_rem_fail, s_return: the new pc holds
       no range and asks for nothing *)
    1, 2, 4, 7, 9, 22, 23: now apply inv_local; [| exact I | left].
    - apply inv_local; [exact HI | exact Hall | now left].
    - (* media read under the same shared section as the query: every byte is still filled *)
      apply inv_local; [exact HI | | now left].
      simpl. intros x Hx. rewrite (proj2 (inr_dec _ _ _) Hx). f_equal. now apply Hc, Hpt.
    - (* range lock granted: disjoint from every held range *)
      apply inv_local; [exact HI | exact I | right; right; exists a, b; split; [reflexivity | exact Hdis]].
    - apply inv_local; [exact HI | exact Hrb | right; left; now rewrite Hpc].
    - apply inv_local; [exact HI | | right; left; now rewrite Hpc].
      split; [exact Hpt |]. intros x v Hx. destruct (C x) eqn:HCx; [| discriminate].
      injection Hx as <-. destruct (HC x HCx) as [H1 H2]. split; [now apply Hpt | exact H2].
    - apply inv_local; [exact HI | exact Hpt | right; left; now rewrite Hpc].
    - destruct Hpt as [Hrb Hu]. now apply (inv_written s t a b rb D s' (RRemainder off cnt u)).
    - (* async hand-over: the reader drops the range, then the idle thread acquires it; no third
         thread holds an overlapping one because the reader held it *)
      destruct Hpt as [Hrb Hu].
      apply (inv_local (mkS (filled s) (media s) (upd (pcs s) t (RRemainder off cnt u))) t' (AWait a b rb));
        [apply inv_local; [exact HI | exact Hu | now left] | exact Hrb |].
      right; right. exists a, b. split; [reflexivity |]. intros t0 a' b' Hn0 H0. cbn [pcs] in H0.
      destruct (Nat.eq_dec t0 t) as [-> | Hn1]; [rewrite upd_same in H0; discriminate |].
      rewrite upd_other in H0 by exact Hn1. refine (Hr t t0 _ _ _ _ (not_eq_sym Hn1) _ H0). now rewrite Hpc.
    - apply inv_local; [exact HI | exact Hpt | right; left; now rewrite Hpc].
    - now apply (inv_written s t a b rb D s' Idle).
    - apply inv_local; [exact HI | | now left].
      simpl. intros x Hx. destruct (u x) as [v |] eqn:Hux; [| now apply Hfull in Hx]. f_equal. now apply Hpt in Hux.
    - apply inv_local; [exact HI | exact Hpt | now left].
    - apply inv_local; [exact HI | split; [exact Hpt | exact Hall] | now left].
    - apply inv_local; [exact HI | exact Hpt | now left].
    - (* remainder media read under the same shared section as the remainder query *)
      destruct Hpt as [Hu Hf]. apply inv_local; [exact HI | | now left].
      simpl. intros x Hx. destruct (u x) as [v |] eqn:Hux; [f_equal; now apply Hu in Hux |].
      rewrite (proj2 (inr_dec _ _ _) Hx). f_equal. now apply Hc, Hf.
    - apply inv_local; [exact HI | | now left].
      simpl. intros x Hx. destruct (u x) as [v |] eqn:Hux; [f_equal; now apply Hpt in Hux |].
      now rewrite (proj2 (inr_dec _ _ _) Hx).
    - (* eviction: exclusive, so no thread is between a hole query and its media read *)
      apply inv_data; [exact HI | discriminate | intros t; right; apply Hns].
    - (* reuse: all threads idle; the rebuilt map is a subset of what was filled *)
      apply inv_data; [exact HI | intros x Hx; now apply Hc, Hsub | intros t; right; rewrite Hidle; exact (fun H => H)].
  Qed.

  Theorem inv_reachable s : reachable s -> Inv s.
  Proof.
    induction 1 as [m | s s' Hr IH Hs].
    - split; [intros x Hx; discriminate |]. split; [intros t; exact I |]. intros t t' a b a' b' _ H; discriminate.
    - eapply inv_step; eauto.
  Qed.

  (* read_atomic_vs_evict: in every reachable state, a thread that has got "no hole" from the hole
     query and has not yet read the media (RHit / RRemHit) still sees every byte it is about to read
     filled and equal to the source — no eviction can fall between the query and the read *)
  Theorem read_atomic_vs_evict_proof s t :
    reachable s ->
    match pcs s t with
    | RHit off cnt => forall x, inr off (off + cnt) x -> filled s x = true /\ media s x = src x
    | RRemHit off cnt u => forall x, inr off (off + cnt) x -> u x = None -> filled s x = true /\ media s x = src x
    | _ => True
    end.
  Proof.
    intros Hr. destruct (inv_reachable s Hr) as (Hc & Hp & _). specialize (Hp t).
    destruct (pcs s t); try exact I; simpl in Hp.
    - intros x Hx. split; [now apply Hp | apply Hc; now apply Hp].
    - destruct Hp as [_ Hf]. intros x Hx Hn. split; [now apply Hf | apply Hc; now apply Hf].
  Qed.

  (* an eviction step is never enabled while some thread is between its hole query and its media
     read (or inside a write-back): that is what the exclusive rw lock buys *)
  Theorem evict_excluded_in_read_section_proof s m' :
    step s (mkS (fun _ => false) m' (pcs s)) ->
    (exists x, filled s x = true) ->
    forall t, ~ in_shared (pcs s t).
  Proof.
    intros Hs [x0 Hx0] t Hin.
    remember (mkS (fun _ => false) m' (pcs s)) as s' eqn:Heq.
    assert (Hf : filled s' x0 = false) by (subst s'; reflexivity).
    destruct Hs;
      try (cbn [filled] in Hf; congruence);
      try (match goal with Hw : written _ _ _ _ _ _ _ |- _ => destruct Hw as [_ ->]; cbn [filled] in Hf; rewrite Hx0, orb_true_r in Hf; discriminate end).
    - (* s_evict *) match goal with H : forall t, ~ in_shared _ |- _ => exact (H t Hin) end.
    - (* s_reuse: every thread idle *) match goal with H : forall t, pcs _ t = Idle |- _ => rewrite (H t) in Hin; exact Hin end.
  Qed.

  (* read_returns_source_concurrent: for every interleaving, a read that returns its count has
     delivered exactly the source's bytes of the requested range; CacheConsistent holds in every
     reachable state; concurrently refilled ranges are disjoint *)
  Theorem read_returns_source_concurrent_proof s t off cnt u :
    reachable s -> pcs s t = RDone off cnt u -> forall x, off <= x < off + cnt -> u x = Some (src x).
  Proof.
    intros Hr Hpc. destruct (inv_reachable s Hr) as (_ & Hp & _). specialize (Hp t). rewrite Hpc in Hp. exact Hp.
  Qed.

  Theorem cache_consistent_concurrent_proof s :
    reachable s -> forall x, filled s x = true -> media s x = src x.
  Proof. intros Hr. now destruct (inv_reachable s Hr). Qed.

  Theorem refill_dedup_proof s t t' a b a' b' :
    reachable s -> t <> t' ->
    holds_range (pcs s t) = Some (a, b) -> holds_range (pcs s t') = Some (a', b') -> b <= a' \/ b' <= a.
  Proof. intros Hr. destruct (inv_reachable s Hr) as (_ & _ & H). apply H. Qed.

  (* Non-vacuity of the RDone clauses: a reader alone goes through miss, range lock, source read,
     copy, inline write-back and remainder check.  Each state is bound by name, because a step's
     target mentions its source three times. *)
  Lemma solo_refill_run (m : bytes) off cnt :
    0 <= off -> 0 < cnt ->
    exists s u, reachable s /\ pcs s 0%nat = RDone off cnt u
                /\ forall x, inr off (off + cnt) x -> filled s x = true.
  Proof.
    intros Hoff Hcnt.
    set (C := fun x => (off <=? x) && (x <? off + cnt)).
    assert (HC : forall x, C x = true <-> inr off (off + cnt) x) by (intros x; apply inr_dec).
    pose proof (r_init m) as R0. set (s0 := mkS _ _ _) in R0.
    pose proof (r_step _ _ R0 (s_start s0 0%nat off cnt eq_refl Hoff Hcnt)) as R1. set (s1 := mkS _ _ _) in R1.
    pose proof (r_step _ _ R1 (s_rlock s1 0%nat off cnt eq_refl)) as R2. set (s2 := mkS _ _ _) in R2.
    pose proof (r_step _ _ R2 (s_query_miss s2 0%nat off cnt off (off + cnt) eq_refl ltac:(lia) (fun x Hx _ => Hx))) as R3.
    set (s3 := mkS _ _ _) in R3.
    assert (Hfree : forall t' a' b', t' <> 0%nat -> holds_range (pcs s3 t') = Some (a', b') -> disjoint off (off + cnt) a' b').
    { intros [| t'] a' b' Hne H; [congruence | discriminate]. }
    pose proof (r_step _ _ R3 (s_range_lock s3 0%nat off cnt off (off + cnt) eq_refl Hfree)) as R4. set (s4 := mkS _ _ _) in R4.
    pose proof (r_step _ _ R4 (s_src_read s4 0%nat off cnt off (off + cnt) src eq_refl (fun _ _ => eq_refl))) as R5.
    set (s5 := mkS _ _ _) in R5.
    pose proof (r_step _ _ R5 (s_copy s5 0%nat off cnt off (off + cnt) src C eq_refl
                                 (fun x Hx => conj (proj1 (HC x) Hx) (proj1 (HC x) Hx)))) as R6.
    set (s6 := mkS _ _ _) in R6.
    pose proof (r_step _ _ R6 (s_inline s6 0%nat off cnt off (off + cnt) src _ eq_refl)) as R7. set (s7 := mkS _ _ _) in R7.
    pose proof (r_step _ _ R7 (s_inline_write s7 0%nat off cnt off (off + cnt) src _ C _ eq_refl
                                 (conj (fun x => proj1 (HC x)) eq_refl))) as R8.
    set (s8 := mkS _ _ _) in R8.
    assert (Hall : forall x, inr off (off + cnt) x -> (if C x then Some (src x) else None) <> None).
    { intros x Hx. apply HC in Hx. rewrite Hx. discriminate. }
    pose proof (r_step _ _ R8 (s_rem_done s8 0%nat off cnt _ eq_refl Hall)) as R9.
    eexists _, _. split; [exact R9 |]. split; [reflexivity |].
    intros x Hx. apply HC in Hx. change (C x || false = true). now rewrite Hx.
  Qed.
End Model.

Definition ex_src : bytes := fun x => x * 3 + 1.

Example ex_reachable_done :
  exists s u, reachable ex_src s /\ pcs s 0%nat = RDone 0 4 u /\ filled s 2 = true.
Proof.
  destruct (solo_refill_run ex_src (fun _ => 0) 0 4) as (s & u & Hr & Hpc & Hf); [lia | lia |].
  exists s, u. split; [exact Hr |]. split; [exact Hpc |]. apply Hf. unfold inr. lia.
Qed.

(* If whole-file eviction did NOT take the rw lock exclusively (i.e. could run while a reader is
   between its hole query and its media read), a read would return bytes that are not the source's.
   This is the window the lock closes; the trace below is the witness in the weakened model. *)
Inductive ustep (src : bytes) : state -> state -> Prop :=
| u_step s s' : step src s s' -> ustep src s s'
| u_evict s m' : ustep src s (mkS (fun _ => false) m' (pcs s)).

Inductive ureachable (src : bytes) : state -> Prop :=
| ur_init m : ureachable src (mkS (fun _ => false) m (fun _ => Idle))
| ur_step s s' : ureachable src s -> ustep src s s' -> ureachable src s'.

Lemma reach_ureach src s : reachable src s -> ureachable src s.
Proof. induction 1; [apply ur_init | eapply ur_step; [eassumption | now apply u_step]]. Qed.

(* the run: refill, read again, evict to a media full of v between the hit and the media read *)
Lemma unlocked_evict_any_byte src off cnt x v :
  0 <= off -> inr off (off + cnt) x ->
  exists s u, ureachable src s /\ pcs s 0%nat = RDone off cnt u /\ u x = Some v.
Proof.
  intros Hoff Hx. assert (Hcnt : 0 < cnt) by (unfold inr in Hx; lia).
  destruct (solo_refill_run src (fun _ => 0) off cnt Hoff Hcnt) as (s & u0 & R & Hpc & Hf).
  pose proof (r_step _ _ _ R (s_return src s 0%nat (or_introl (ex_intro _ off (ex_intro _ cnt (ex_intro _ u0 Hpc)))))) as R1.
  set (s1 := mkS _ _ _) in R1.
  pose proof (r_step _ _ _ R1 (s_start src s1 0%nat off cnt eq_refl Hoff Hcnt)) as R2. set (s2 := mkS _ _ _) in R2.
  pose proof (r_step _ _ _ R2 (s_rlock src s2 0%nat off cnt eq_refl)) as R3. set (s3 := mkS _ _ _) in R3.
  pose proof (r_step _ _ _ R3 (s_query_hit src s3 0%nat off cnt eq_refl Hf)) as R4. set (s4 := mkS _ _ _) in R4.
  apply reach_ureach in R4.
  pose proof (ur_step _ _ _ R4 (u_evict src s4 (fun _ => v))) as U5. set (s5 := mkS _ _ _) in U5.
  pose proof (ur_step _ _ _ U5 (u_step _ _ _ (s_media_read src s5 0%nat off cnt eq_refl))) as U6.
  eexists _, _. split; [exact U6 |]. split; [reflexivity |].
  apply inr_dec in Hx. cbv beta. now rewrite Hx.
Qed.

Theorem unlocked_evict_refuted_proof :
  exists s u, ureachable ex_src s /\ pcs s 0%nat = RDone 0 4 u /\ u 1 <> Some (ex_src 1).
Proof.
  destruct (unlocked_evict_any_byte ex_src 0 4 1 0) as (s & u & Hr & Hpc & Hu); [lia | unfold inr; lia |].
  exists s, u. split; [exact Hr |]. split; [exact Hpc |]. rewrite Hu. discriminate.
Qed.
