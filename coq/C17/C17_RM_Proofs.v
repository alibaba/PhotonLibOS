(* C17_RM_Proofs.v — RangeModule: structure invariant and set semantics for all op sequences. *)
From Coq Require Import ZArith List Lia Bool.
From PV Require Import C17.C17_Model.
Import ListNotations.
Local Open Scope Z_scope.

(* sorted by start, every interval non-empty, consecutive intervals neither overlap nor touch;
   `lb` is a strict lower bound of the first start *)
Fixpoint wfl (lb : Z) (m : imap) : Prop :=
  match m with
  | [] => True
  | (s, e) :: t => lb < s /\ s < e /\ wfl e t
  end.
Definition WF (m : imap) : Prop := exists lb, wfl lb m.

(* the set of points *)
Definition covers (m : imap) (x : Z) : Prop := exists s e, In (s, e) m /\ s <= x < e.

Lemma in_covers m s e x : In (s, e) m -> s <= x < e -> covers m x.
Proof. intros; exists s, e; tauto. Qed.

Lemma covers_nil x : ~ covers [] x.
Proof. intros (s & e & H & _). exact H. Qed.

Lemma covers_cons s e t x : covers ((s, e) :: t) x <-> (s <= x < e) \/ covers t x.
Proof.
  unfold covers. split.
  - intros (s' & e' & [Heq | Hin] & Hx).
    + inversion Heq; subst. now left.
    + right. eauto.
  - intros [Hx | (s' & e' & Hin & Hx)].
    + exists s, e. split; [now left | exact Hx].
    + exists s', e'. split; [now right | exact Hx].
Qed.

Lemma covers_app a b x : covers (a ++ b) x <-> covers a x \/ covers b x.
Proof.
  induction a as [| [s e] a IH]; simpl.
  - split; [intros H; now right | intros [H | H]; [now apply covers_nil in H | exact H]].
  - rewrite !covers_cons, IH. tauto.
Qed.

Lemma wfl_weaken lb lb' m : lb' <= lb -> wfl lb m -> wfl lb' m.
Proof. destruct m as [| [s e] t]; simpl; [tauto | intros; intuition lia]. Qed.

Lemma wfl_keys_gt lb m s e : wfl lb m -> In (s, e) m -> lb < s /\ s < e.
Proof.
  revert lb. induction m as [| [s' e'] t IH]; intros lb Hwf Hin; [contradiction |].
  simpl in Hwf. destruct Hwf as (H1 & H2 & H3). destruct Hin as [Heq | Hin].
  - inversion Heq; subst. lia.
  - destruct (IH e' H3 Hin). lia.
Qed.

Lemma wfl_covers_gt lb m x : wfl lb m -> covers m x -> lb < x.
Proof. intros Hwf (s & e & Hin & Hx). destruct (wfl_keys_gt _ _ _ _ Hwf Hin). lia. Qed.

(* end of the last interval of m, or lb when m is empty *)
Fixpoint last_end (lb : Z) (m : imap) : Z :=
  match m with [] => lb | (_, e) :: t => last_end e t end.

Lemma wfl_app lb a b : wfl lb (a ++ b) <-> wfl lb a /\ wfl (last_end lb a) b.
Proof.
  revert lb. induction a as [| [s e] a IH]; intros lb; simpl.
  - tauto.
  - rewrite IH. tauto.
Qed.

Lemma last_end_ge lb a : wfl lb a -> lb <= last_end lb a.
Proof.
  revert lb. induction a as [| [s e] a IH]; intros lb H; simpl in *; [lia |].
  destruct H as (H1 & H2 & H3). specialize (IH e H3). lia.
Qed.

Lemma in_le_last_end lb a s e : wfl lb a -> In (s, e) a -> e <= last_end lb a.
Proof.
  revert lb. induction a as [| [s' e'] a IH]; intros lb Hwf Hin; [contradiction |].
  simpl in *. destruct Hwf as (H1 & H2 & H3). destruct Hin as [Heq | Hin].
  - inversion Heq; subst. apply last_end_ge. exact H3.
  - now apply IH.
Qed.

Lemma covers_lt_last_end lb a x : wfl lb a -> covers a x -> x < last_end lb a.
Proof. intros Hwf (s & e & Hin & Hx). pose proof (in_le_last_end lb a s e Hwf Hin). lia. Qed.

Definition keys_lt (m : imap) (k : Z) : Prop := forall s e, In (s, e) m -> s < k.

Lemma keys_lt_app a b k : keys_lt (a ++ b) k <-> keys_lt a k /\ keys_lt b k.
Proof.
  unfold keys_lt. split.
  - intros H. split; intros s e Hin; apply (H s e), in_or_app; tauto.
  - intros [Ha Hb] s e Hin. apply in_app_or in Hin. destruct Hin; eauto.
Qed.

Lemma wfl_keys_lt lb pre v s e : wfl lb (pre ++ v) -> In (s, e) v -> keys_lt pre s.
Proof.
  intros Hwf Hv s' e' Hp. apply wfl_app in Hwf. destruct Hwf as [Hw1 Hw2].
  pose proof (in_le_last_end lb pre s' e' Hw1 Hp).
  destruct (wfl_keys_gt _ _ _ _ Hw2 Hv). destruct (wfl_keys_gt _ _ _ _ Hw1 Hp). lia.
Qed.

Lemma wfl_rebound lb b m :
  wfl lb m -> (match m with [] => True | (s, _) :: _ => b < s end) -> wfl b m.
Proof. destruct m as [| [s e] t]; simpl; tauto. Qed.

Lemma last_end_le lb a l :
  lb <= l -> (forall s e, In (s, e) a -> e <= l) -> last_end lb a <= l.
Proof.
  revert lb. induction a as [| [s e] a IH]; intros lb Hlb H; simpl; [exact Hlb |].
  apply IH; [apply (H s e); now left | intros s2 e2 Hin; apply (H s2 e2); now right].
Qed.

Lemma wfl_in_in lb m s e s' e' :
  wfl lb m -> In (s, e) m -> In (s', e') m -> (s, e) = (s', e') \/ e < s' \/ e' < s.
Proof.
  revert lb. induction m as [| [a b] t IH]; intros lb Hwf H1 H2; [contradiction |].
  simpl in Hwf. destruct Hwf as (Ha & Hb & Hc).
  destruct H1 as [E1 | H1], H2 as [E2 | H2].
  - left. congruence.
  - inversion E1; subst. right; left. destruct (wfl_keys_gt _ _ _ _ Hc H2). lia.
  - inversion E2; subst. right; right. destruct (wfl_keys_gt _ _ _ _ Hc H1). lia.
  - eapply IH; eauto.
Qed.

(* consecutive intervals do not touch *)
Lemma wfl_gap lb m s e x : wfl lb m -> In (s, e) m -> x = e \/ x = s - 1 -> ~ covers m x.
Proof.
  intros Hwf Hin Hx (s' & e' & Hin' & Hc).
  destruct (wfl_keys_gt _ _ _ _ Hwf Hin).
  destruct (wfl_in_in _ _ _ _ _ _ Hwf Hin Hin') as [E | [E | E]]; [inversion E; subst |..]; lia.
Qed.

Lemma merase_app_head pre s e t : keys_lt pre s -> merase (pre ++ (s, e) :: t) s = pre ++ t.
Proof.
  induction pre as [| [s' e'] pre IH]; intros Hlt; simpl.
  - now rewrite Z.eqb_refl.
  - destruct (Z.eqb_spec s s') as [Heq | Hneq].
    + specialize (Hlt s' e' (or_introl eq_refl)). lia.
    + f_equal. apply IH. intros s2 e2 Hin. apply (Hlt s2 e2). now right.
Qed.

Lemma mset_app pre post k v :
  keys_lt pre k -> (forall s e, In (s, e) post -> k < s) ->
  mset (pre ++ post) k v = pre ++ (k, v) :: post.
Proof.
  induction pre as [| [s e] pre IH]; intros Hpre Hpost; simpl.
  - destruct post as [| [s e] post]; simpl; [reflexivity |].
    assert (k < s) by (apply (Hpost s e); now left).
    destruct (Z.ltb_spec k s); [reflexivity | lia].
  - assert (s < k) by (apply (Hpre s e); now left).
    destruct (Z.ltb_spec k s); [lia |]. destruct (Z.eqb_spec k s); [lia |].
    f_equal. apply IH; [| exact Hpost]. intros s2 e2 Hin. apply (Hpre s2 e2). now right.
Qed.

(* The split m = pre ++ visit: no end in `pre` qualifies, and every visited interval either
   qualified or starts beyond `left`. *)
Section Visit.
  Variable left : Z.
  Variable qual : Z -> bool.
  Hypothesis qual_lt : forall e, e < left -> qual e = false.

  Lemma visit_from_split lb m :
    wfl lb m ->
    exists pre, m = pre ++ visit_from qual m left
      /\ (forall s e, In (s, e) pre -> qual e = false)
      /\ (forall s e, In (s, e) (visit_from qual m left) -> qual e = true \/ left < s).
  Proof.
    assert (Hgt : forall lb m, wfl lb m -> match m with [] => True | (s, _) :: _ => left < s end ->
                    forall s e, In (s, e) m -> qual e = true \/ left < s).
    { intros lb' m' Hwf Hhd s e Hin. right. now destruct (wfl_keys_gt left m' s e (wfl_rebound _ _ _ Hwf Hhd) Hin). }
    revert lb. induction m as [| [s e] t IH]; intros lb Hwf.
    - exists []. repeat split; intros ? ? [].
    - pose proof Hwf as (H1 & H2 & H3). cbn [visit_from].
      destruct (Z.ltb_spec left s) as [Hls | Hls].
      { exists []. split; [reflexivity |]. split; [intros ? ? [] | now apply (Hgt lb)]. }
      (* the iterator stops at this node when the next start is beyond `left` (or there is none) *)
      assert (Hstop : match t with [] => True | (s2, _) :: _ => left < s2 end ->
                exists pre, (s, e) :: t = pre ++ (if qual e then (s, e) :: t else t)
                  /\ (forall s' e', In (s', e') pre -> qual e' = false)
                  /\ (forall s' e', In (s', e') (if qual e then (s, e) :: t else t) -> qual e' = true \/ left < s')).
      { intros Hhd. destruct (qual e) eqn:Hq.
        - exists []. split; [reflexivity |]. split; [intros ? ? [] |].
          intros s' e' [Heq | Hin]; [inversion Heq; subst; now left | now apply (Hgt e t)].
        - exists [(s, e)]. split; [reflexivity |]. split; [| now apply (Hgt e t)].
          intros s' e' [Heq | []]. inversion Heq. now subst. }
      destruct t as [| [s2 e2] t']; [now apply Hstop |].
      destruct (Z.ltb_spec left s2) as [Hls2 | Hls2]; [now apply Hstop |].
      destruct (IH e H3) as (pre & Heq & Hpre & Hv).
      exists ((s, e) :: pre). split; [simpl; now f_equal |]. split; [| exact Hv].
      intros s' e' [Heq' | Hin]; [| now apply (Hpre s' e')].
      inversion Heq'; subst. apply qual_lt. simpl in H3. lia.
  Qed.
End Visit.

(* the iteration of add_loop without the map: what is absorbed, what is left *)
Fixpoint absorb (v : imap) (l r : Z) : imap * Z * Z :=
  match v with
  | [] => ([], l, r)
  | (s, e) :: t => if s <=? r then absorb t (Z.min l s) (Z.max r e) else (v, l, r)
  end.

Lemma add_loop_absorb v : forall pre l r,
  (forall s e, In (s, e) v -> keys_lt pre s) ->
  add_loop v (pre ++ v) l r = let '(v2, l', r') := absorb v l r in (pre ++ v2, l', r').
Proof.
  induction v as [| [s e] t IH]; intros pre l r Hlt; simpl.
  - reflexivity.
  - destruct (Z.leb_spec s r); [| reflexivity].
    rewrite merase_app_head by (apply (Hlt s e); now left).
    apply IH. intros s2 e2 Ht. apply (Hlt s2 e2). now right.
Qed.

Lemma absorb_spec v : forall lb l r,
  wfl lb v -> (forall s e, In (s, e) v -> l <= e) ->
  let '(v2, l', r') := absorb v l r in
  exists v1, v = v1 ++ v2 /\ l' <= l /\ r <= r'
    /\ (forall x, l' <= x < r' <-> (l <= x < r) \/ covers v1 x)
    /\ (match v2 with [] => True | (s, _) :: _ => r' < s end)
    /\ (forall b, b < l -> (forall s e, In (s, e) v -> b < s) -> b < l').
Proof.
  induction v as [| [s e] t IH]; intros lb l r Hwf Hle; simpl.
  - exists []. split; [reflexivity |]. split; [lia |]. split; [lia |]. split; [| split; [exact I | intros; assumption]].
    intros x. split; [intros; now left | intros [Hx | Hx]; [exact Hx | now apply covers_nil in Hx]].
  - simpl in Hwf. destruct Hwf as (H1 & H2 & H3).
    assert (Hse : l <= e) by (apply (Hle s e); now left).
    destruct (Z.leb_spec s r) as [Hsr | Hsr].
    + specialize (IH e (Z.min l s) (Z.max r e) H3).
      destruct (absorb t (Z.min l s) (Z.max r e)) as [[v2 l'] r'].
      destruct IH as (v1 & Heq & Hl & Hr & Hcov & Hhd & Hlow).
      { intros s2 e2 Hin. specialize (Hle s2 e2 (or_intror Hin)). lia. }
      exists ((s, e) :: v1). split; [simpl; now f_equal |]. split; [lia |]. split; [lia |]. split; [| split].
      * intros x. rewrite Hcov, covers_cons.
        assert (Hint : (Z.min l s <= x < Z.max r e) <-> (l <= x < r) \/ (s <= x < e)) by lia.
        rewrite Hint. tauto.
      * exact Hhd.
      * intros b Hb Hk. apply Hlow.
        -- specialize (Hk s e (or_introl eq_refl)). lia.
        -- intros s2 e2 Hin. apply (Hk s2 e2). now right.
    + exists []. split; [reflexivity |]. split; [lia |]. split; [lia |]. split; [| split].
      * intros x. split; [intros; now left | intros [H | H]; [exact H | now apply covers_nil in H]].
      * exact Hsr.
      * intros; assumption.
Qed.

Theorem addRange_spec m l r :
  WF m ->
  WF (addRange m l r) /\ forall x, covers (addRange m l r) x <-> covers m x \/ l <= x < r.
Proof.
  intros HWF. unfold addRange. destruct (Z.leb_spec r l) as [Hrl | Hlr].
  { split; [exact HWF |]. intros x. split; [tauto | intros [H | H]; [exact H | lia]]. }
  destruct HWF as [lb0 Hwf0].
  set (lb := Z.min lb0 (l - 1)).
  assert (Hwf : wfl lb m) by (apply (wfl_weaken lb0); [unfold lb; lia | exact Hwf0]).
  assert (Hlb : lb < l) by (unfold lb; lia).
  destruct (visit_from_split l (fun e => l <=? e)) with (lb := lb) (m := m) as (pre & Hm & Hpre & Hv); [| exact Hwf |].
  { intros e He. now apply Z.leb_gt. }
  remember (visit_from (fun e => l <=? e) m l) as v eqn:Hv0. clear Hv0. subst m. clear Hwf0.
  pose proof Hwf as Hwf'. apply wfl_app in Hwf'. destruct Hwf' as [Hwp Hwv].
  rewrite add_loop_absorb by (intros s e; exact (wfl_keys_lt lb pre v s e Hwf)).
  assert (Hle : forall s e, In (s, e) v -> l <= e).
  { intros s e Hin. destruct (wfl_keys_gt _ _ s e Hwv Hin).
    destruct (Hv s e Hin) as [Hq | Hq]; [apply Z.leb_le in Hq |]; lia. }
  assert (Hpre' : forall s e, In (s, e) pre -> e < l) by (intros s e Hin; now apply Z.leb_gt, (Hpre s e)).
  pose proof (absorb_spec v (last_end lb pre) l r Hwv Hle) as Hab.
  destruct (absorb v l r) as [[v2 l'] r'].
  destruct Hab as (v1 & Hv1 & Hl' & Hr' & Hcov & Hhd2 & Hlow).
  assert (Hwv2 : wfl r' v2).
  { rewrite Hv1 in Hwv. apply wfl_app in Hwv. destruct Hwv as [_ Hw]. eapply wfl_rebound; eauto. }
  rewrite mset_app.
  2:{ intros s e Hin. apply Hlow.
      - destruct (wfl_keys_gt _ _ _ _ Hwp Hin). specialize (Hpre' s e Hin). lia.
      - intros s2 e2 Hin2. exact (wfl_keys_lt lb pre v s2 e2 Hwf Hin2 s e Hin). }
  2:{ intros s e Hin. destruct (wfl_keys_gt _ _ _ _ Hwv2 Hin). lia. }
  split.
  - exists lb. apply wfl_app. split; [exact Hwp |]. simpl. split; [| split; [lia | exact Hwv2]].
    apply Hlow; [apply Z.lt_le_pred, last_end_le; [lia | intros s e Hin; apply Z.lt_le_pred, (Hpre' s e Hin)] |].
    intros s e Hin. now destruct (wfl_keys_gt _ _ _ _ Hwv Hin).
  - intros x. rewrite Hv1, !covers_app, covers_cons, Hcov. tauto.
Qed.

Definition piece (a b : Z) : imap := if a <? b then [(a, b)] else [].

Lemma covers_piece a b x : covers (piece a b) x <-> a <= x < b.
Proof.
  unfold piece. destruct (Z.ltb_spec a b).
  - rewrite covers_cons. split; [intros [Hx | Hx]; [exact Hx | now apply covers_nil in Hx] | now left].
  - split; [intros Hx; now apply covers_nil in Hx | lia].
Qed.

Lemma wfl_piece lb a b m : lb < a -> wfl (Z.max lb b) m -> wfl lb (piece a b ++ m).
Proof.
  intros Ha Hm. unfold piece. destruct (Z.ltb_spec a b); simpl.
  - split; [exact Ha |]. split; [assumption |]. apply (wfl_weaken (Z.max lb b)); [lia | exact Hm].
  - apply (wfl_weaken (Z.max lb b)); [lia | exact Hm].
Qed.

Lemma keys_lt_piece a b k : (a < b -> a < k) -> keys_lt (piece a b) k.
Proof.
  unfold piece. destruct (Z.ltb_spec a b); intros Hk s e Hin; [| contradiction].
  destruct Hin as [Heq | []]. inversion Heq; subst. auto.
Qed.

(* the conditional insert of rem_loop, range_module.h:53-54 *)
Lemma mset_piece pre t a b :
  (a < b -> keys_lt pre a /\ forall s e, In (s, e) t -> a < s) ->
  (if a <? b then mset (pre ++ t) a b else pre ++ t) = pre ++ piece a b ++ t.
Proof.
  unfold piece. destruct (Z.ltb_spec a b) as [Hab | Hab]; [| reflexivity].
  intros Hk. destruct (Hk Hab). now apply mset_app.
Qed.

(* the iteration of rem_loop without the map: what each visited interval leaves behind *)
Fixpoint cut (v : imap) (l r : Z) : imap :=
  match v with
  | [] => []
  | (s, e) :: t => if s <? r then piece s l ++ piece r e ++ cut t l r else v
  end.

Lemma rem_loop_cut v : forall lb pre l r,
  wfl lb v -> l < r -> (forall s e, In (s, e) v -> keys_lt pre s) ->
  rem_loop v (pre ++ v) l r = pre ++ cut v l r.
Proof.
  induction v as [| [s e] t IH]; intros lb pre l r Hwf Hlr Hlt; simpl.
  - reflexivity.
  - destruct Hwf as (H1 & H2 & H3).
    destruct (Z.ltb_spec s r) as [Hsr | Hsr]; [| reflexivity].
    pose proof (Hlt s e (or_introl eq_refl)) as Hpre_s.
    assert (Ht_e : forall k, k <= e -> forall s2 e2, In (s2, e2) t -> k < s2).
    { intros k Hk s2 e2 Hin. destruct (wfl_keys_gt _ _ _ _ H3 Hin). lia. }
    rewrite merase_app_head by exact Hpre_s.
    rewrite (mset_piece pre t s l) by (intros _; split; [exact Hpre_s | apply Ht_e; lia]).
    rewrite (app_assoc pre (piece s l) t), (mset_piece (pre ++ piece s l) t r e).
    2:{ intros Hre. split; [| apply Ht_e; lia]. apply keys_lt_app. split; [| apply keys_lt_piece; lia].
        intros s' e' Hp. specialize (Hpre_s s' e' Hp). lia. }
    rewrite (app_assoc (pre ++ piece s l) (piece r e) t), (IH e _ l r H3 Hlr); [now rewrite <- !app_assoc |].
    intros s2 e2 Hin. pose proof (Ht_e e ltac:(lia) s2 e2 Hin).
    apply keys_lt_app. split; [apply keys_lt_app; split |]; [| apply keys_lt_piece; lia | apply keys_lt_piece; lia].
    intros s' e' Hp. specialize (Hpre_s s' e' Hp). lia.
Qed.

Lemma covers_ge_first s e t lb x : wfl lb ((s, e) :: t) -> covers ((s, e) :: t) x -> s <= x.
Proof.
  intros (H1 & H2 & H3) Hc. apply covers_cons in Hc. destruct Hc as [Hc | Hc]; [lia |].
  pose proof (wfl_covers_gt _ _ _ H3 Hc). lia.
Qed.

Lemma cut_spec v : forall lb l r,
  wfl lb v -> l < r -> (forall s e, In (s, e) v -> l < e) ->
  wfl lb (cut v l r) /\ forall x, covers (cut v l r) x <-> covers v x /\ ~ (l <= x < r).
Proof.
  induction v as [| [s e] t IH]; intros lb l r Hwf Hlr Hle.
  - split; [exact I |]. intros x. split; [intros H; now apply covers_nil in H | tauto].
  - pose proof Hwf as (H1 & H2 & H3).
    assert (Hl_e : l < e) by (apply (Hle s e); now left).
    cbn [cut]. destruct (Z.ltb_spec s r) as [Hsr | Hsr].
    + destruct (IH e l r H3 Hlr) as [IHw IHc]; [intros s2 e2 Hin; apply (Hle s2 e2); now right |].
      split.
      * apply wfl_piece; [exact H1 |]. apply wfl_piece; [lia |]. now replace (Z.max (Z.max lb l) e) with e by lia.
      * intros x. rewrite !covers_app, !covers_piece, IHc, covers_cons.
        assert (Hint : (s <= x < l \/ r <= x < e) <-> (s <= x < e /\ ~ (l <= x < r))) by lia. tauto.
    + split; [exact Hwf |]. intros x. split; [| tauto].
      intros Hc. split; [exact Hc |]. pose proof (covers_ge_first _ _ _ _ _ Hwf Hc). lia.
Qed.

Theorem removeRange_spec m l r :
  WF m ->
  WF (removeRange m l r) /\ forall x, covers (removeRange m l r) x <-> covers m x /\ ~ (l <= x < r).
Proof.
  intros HWF. unfold removeRange. destruct (Z.leb_spec r l) as [Hrl | Hlr].
  { split; [exact HWF |]. intros x. split; [intros H; split; [exact H | lia] | tauto]. }
  destruct HWF as [lb Hwf].
  destruct (visit_from_split l (fun e => l <? e)) with (lb := lb) (m := m) as (pre & Hm & Hpre & Hv); [| exact Hwf |].
  { intros e He. apply Z.ltb_ge. lia. }
  remember (visit_from (fun e => l <? e) m l) as v eqn:Hv0. clear Hv0. subst m.
  pose proof Hwf as Hwf'. apply wfl_app in Hwf'. destruct Hwf' as [Hwp Hwv].
  rewrite (rem_loop_cut v (last_end lb pre) pre l r Hwv Hlr) by (intros s e; exact (wfl_keys_lt lb pre v s e Hwf)).
  assert (Hle : forall s e, In (s, e) v -> l < e).
  { intros s e Hin. destruct (wfl_keys_gt _ _ s e Hwv Hin).
    destruct (Hv s e Hin) as [Hq | Hq]; [apply Z.ltb_lt in Hq |]; lia. }
  destruct (cut_spec v (last_end lb pre) l r Hwv Hlr Hle) as [Hcw Hcc].
  split.
  - exists lb. apply wfl_app. split; assumption.
  - intros x. rewrite !covers_app, Hcc. split; [| tauto].
    intros [Hp | [Hc Hn]]; [| tauto]. split; [now left |].
    destruct Hp as (s & e & Hin & Hx). apply Hpre, Z.ltb_ge in Hin. lia.
Qed.

Lemma fc_spec lb m pos :
  wfl lb m ->
  match find_containing m pos with
  | Some (s, e) => In (s, e) m /\ s <= pos < e
  | None => ~ covers m pos
  end.
Proof.
  revert lb. induction m as [| [a b] t IH]; intros lb Hwf; [exact (covers_nil pos) |].
  pose proof Hwf as (H1 & H2 & H3). cbn [find_containing].
  destruct (Z.ltb_spec pos a). { intros Hc. pose proof (covers_ge_first _ _ _ _ _ Hwf Hc). lia. }
  (* the search stops at this node when no later interval reaches down to pos *)
  assert (Hhere : ~ covers t pos ->
            match (if pos <? b then Some (a, b) else None) with
            | Some (s, e) => In (s, e) ((a, b) :: t) /\ s <= pos < e
            | None => ~ covers ((a, b) :: t) pos
            end).
  { intros Hnc. destruct (Z.ltb_spec pos b); [split; [now left | lia] |].
    rewrite covers_cons. intros [Hc | Hc]; [lia | exact (Hnc Hc)]. }
  destruct t as [| [a2 b2] t']; [apply Hhere, covers_nil |].
  destruct (Z.ltb_spec pos a2). { apply Hhere. intros Hc. pose proof (covers_ge_first _ _ _ _ _ H3 Hc). lia. }
  specialize (IH b H3). destruct (find_containing ((a2, b2) :: t') pos) as [[s e] |].
  - split; [now right | apply IH].
  - rewrite covers_cons. intros [Hc | Hc]; [simpl in H3; lia | exact (IH Hc)].
Qed.

Theorem queryRefillRange_spec m l r :
  WF m ->
  let q := queryRefillRange m l r in
  (q = (0, 0) /\ (forall x, l <= x < r -> covers m x))
  \/ (l < r /\ l <= fst q /\ fst q < snd q /\ snd q <= r
      /\ ~ covers m (fst q) /\ ~ covers m (snd q - 1)
      /\ (forall x, l <= x < r -> ~ covers m x -> fst q <= x < snd q)).
Proof.
  intros [lb Hwf]. unfold queryRefillRange.
  destruct (Z.leb_spec r l) as [Hrl | Hrl].
  { left. split; [reflexivity | intros; lia]. }
  set (left1 := match find_containing m l with Some (_, e) => e | None => l end).
  (* left1 is the first uncovered position at or after l *)
  assert (H1 : l <= left1 /\ (forall x, l <= x < left1 -> covers m x) /\ ~ covers m left1).
  { unfold left1. pose proof (fc_spec lb m l Hwf) as Hf. destruct (find_containing m l) as [[s e] |].
    - destruct Hf as [Hin Hx]. split; [lia |]. split.
      + intros x Hxx. apply (in_covers m s e); [exact Hin | lia].
      + eapply wfl_gap; eauto.
    - split; [lia |]. split; [intros; lia | exact Hf]. }
  destruct H1 as (Hl1 & Hcov1 & Hnc1).
  destruct (Z.leb_spec r left1) as [Hrl1 | Hrl1].
  { left. split; [reflexivity |]. intros x Hx. apply Hcov1. lia. }
  assert (Hge : forall x, l <= x -> ~ covers m x -> left1 <= x).
  { intros x Hx Hnc. destruct (Z.lt_ge_cases x left1); [exfalso; apply Hnc, Hcov1; lia | lia]. }
  right. cbn [fst snd].
  pose proof (fc_spec lb m (r - 1) Hwf) as Hf. destruct (find_containing m (r - 1)) as [[s e] |].
  - destruct Hf as [Hin Hx].
    destruct (Z.ltb_spec left1 s) as [Hls | Hls]; cbn [fst snd].
    + repeat (split; [lia |]). split; [exact Hnc1 |]. split; [eapply wfl_gap; eauto |].
      intros x Hxx Hnc. split; [apply Hge; [lia | exact Hnc] |].
      destruct (Z.lt_ge_cases x s); [lia |]. exfalso. apply Hnc. apply (in_covers m s e); [exact Hin | lia].
    + exfalso. apply Hnc1. apply (in_covers m s e); [exact Hin | lia].
  - cbn [fst snd]. repeat (split; [lia |]). split; [exact Hnc1 |]. split; [exact Hf |].
    intros x Hxx Hnc. split; [apply Hge; [lia | exact Hnc] | lia].
Qed.

(* the abstract set after an op: add = union, remove = difference, removeFrom = keep below *)
Definition set_after (P : Z -> Prop) (o : rm_op) : Z -> Prop :=
  match o with
  | RAdd l r => fun x => P x \/ l <= x < r
  | RRemove l r => fun x => P x /\ ~ (l <= x < r)
  | RRemoveFrom off => fun x => P x /\ ~ (off <= x < OFF_MAX)
  | RClear => fun _ => False
  end.

Lemma WF_nil : WF []. Proof. exists 0. exact I. Qed.

Lemma rm_apply_spec m o :
  WF m -> WF (rm_apply m o) /\ forall x, covers (rm_apply m o) x <-> set_after (covers m) o x.
Proof.
  intros Hwf. destruct o as [l r | l r | off |]; simpl.
  - now apply addRange_spec.
  - now apply removeRange_spec.
  - now apply removeRange_spec.
  - split; [exact WF_nil |]. intros x. split; [intros Hx; now apply covers_nil in Hx | tauto].
Qed.

Definition spec_run (ops : list rm_op) : Z -> Prop := fold_left set_after ops (fun _ => False).

Lemma rm_fold_spec ops : forall m P,
  WF m -> (forall x, covers m x <-> P x) ->
  WF (fold_left rm_apply ops m) /\ forall x, covers (fold_left rm_apply ops m) x <-> fold_left set_after ops P x.
Proof.
  induction ops as [| o ops IH]; intros m P Hwf Hc; simpl.
  - split; assumption.
  - destruct (rm_apply_spec m o Hwf) as [Hw' Hc']. apply IH; [exact Hw' |].
    intros x. rewrite Hc'. destruct o; simpl; rewrite ?Hc; tauto.
Qed.

(* rm_set_semantics: after ANY sequence of operations starting from the empty module the
   structure invariant holds and the represented set is exactly the set-algebra result *)
Theorem rm_set_semantics_proof ops :
  WF (rm_run ops) /\ forall x, covers (rm_run ops) x <-> spec_run ops x.
Proof.
  unfold rm_run, spec_run. apply rm_fold_spec; [exact WF_nil |].
  intros x. split; [intros H; now apply covers_nil in H | tauto].
Qed.

Example rm_example :
  rm_run [RAdd 0 4; RAdd 6 9; RRemove 2 7; RAdd 4 5] = [(0, 2); (4, 5); (7, 9)].
Proof. reflexivity. Qed.

Example wf_example : WF [(0, 2); (4, 5); (7, 9)].
Proof. exists (-1). cbn. lia. Qed.
