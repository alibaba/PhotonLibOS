(* C17 property theorems.  Only `exact` of theorems proved in the other files of this directory. *)
From Coq Require Import ZArith List.
From PV Require Import C17.C17_Model C17.C17_Lists C17.C17_RM_Proofs C17.C17_Proofs C17.C17_Reopen.
From PV Require C17.C17_Conc.
Import ListNotations.
Local Open Scope Z_scope.

(* RangeModule: after ANY sequence of addRange / removeRange / removeFrom / clear starting from
   the empty module, the intervals are sorted, non-empty, pairwise disjoint and non-adjacent (WF),
   and the set of covered points is exactly the set-algebra result (add = union, remove =
   difference). *)
Theorem rm_set_semantics : forall ops : list rm_op,
  WF (rm_run ops) /\ forall x, covers (rm_run ops) x <-> spec_run ops x.
Proof. exact rm_set_semantics_proof. Qed.
Print Assumptions rm_set_semantics.

(* queryRefillRange on a well-formed module (Example wf_example): {0,0} exactly when every byte
   of [l,r) is covered; otherwise a range inside [l,r) whose first and last bytes are uncovered
   and that contains every uncovered byte of [l,r). *)
Theorem rm_query_spec : forall m l r, WF m ->
  let q := queryRefillRange m l r in
  (q = (0, 0) /\ (forall x, l <= x < r -> covers m x))
  \/ (l < r /\ l <= fst q /\ fst q < snd q /\ snd q <= r
      /\ ~ covers m (fst q) /\ ~ covers m (snd q - 1)
      /\ (forall x, l <= x < r -> ~ covers m x -> fst q <= x < snd q)).
Proof. exact queryRefillRange_spec. Qed.
Print Assumptions rm_query_spec.

(* The sequential read path (ICacheStore::preadv2 -> try_preadv2 -> do_refill_range over
   FileCacheStore's in-memory filled-range path).  Under CacheConsistent (`Good`: every cached byte
   is inside the media file, below the known size and equals the source byte; the known size is
   <= the source size and, if not page aligned, equal to it; no foreign range lock; pending
   refill buffers hold source bytes — Example ex_good), for every source content, page size,
   refill unit >= 1 (power of two or not), pool configuration (no pool / inline / async
   write-back / direct-read threshold), offset >= 0, buffer length, CACHE_ONLY and SYNC flags and
   EVERY script of source-read outcomes (ok / short / fail) and media-write outcomes:
   ReadPost = the store is again Good; the returned count r is -1 or 0 <= r <= min(count, size -
   offset) and bytes [0,r) of the buffer equal source[offset, offset+r); buffer bytes at or
   beyond min(count, size-offset) are untouched (never more than the source has); and if no
   source call fails or is short and the read is not CACHE_ONLY then r = min(count, size-offset)
   exactly.  The iovec segmentation does not occur in the model (flat buffer; tie by the
   harness over every segmentation). *)
Theorem read_returns_source :
  forall (src : list Z) (cfg : config), 1 <= c_page cfg -> 1 <= c_unit cfg ->
  forall (co sync : bool) (w : world) (offset vsize : Z),
    Good src cfg w -> zlen (w_ubuf w) = vsize -> 0 <= offset ->
    match preadv2 src cfg co sync w offset vsize with
    | (r, w') => ReadPost src cfg w offset vsize co r w'
    end.
Proof. exact read_returns_source_proof. Qed.
Print Assumptions read_returns_source.

(* whatever the source does (fail, short read, at any call) and whatever the media write does:
   the read fails (-1) or every byte it reports is the source's byte, and the store — also after
   the asynchronous write-back ran — holds only source bytes. *)
Theorem failed_source_read_no_wrong_bytes :
  forall (src : list Z) (cfg : config), 1 <= c_page cfg -> 1 <= c_unit cfg ->
  forall (co sync : bool) (w : world) (offset vsize : Z),
    Good src cfg w -> zlen (w_ubuf w) = vsize -> 0 <= offset ->
    let r := fst (preadv2 src cfg co sync w offset vsize) in
    let w' := snd (preadv2 src cfg co sync w offset vsize) in
    (r = -1 \/ (0 <= r <= Z.max 0 (Z.min vsize (zlen src - offset))
               /\ forall i, 0 <= i < r -> getz (w_ubuf w') i = getz src (offset + i)))
    /\ Inv src cfg (w_st w') /\ Inv src cfg (w_st (drain w')).
Proof. exact failed_source_read_no_wrong_bytes_proof. Qed.
Print Assumptions failed_source_read_no_wrong_bytes.

(* every sequence of operations (reads with arbitrary fault scripts and their write-back, range
   eviction, truncate, whole-file eviction) preserves CacheConsistent, and every read in the
   sequence satisfies read_ok (Example ex_idle). *)
Theorem consistent_preserved :
  forall (src : list Z) (cfg : config), 1 <= c_page cfg -> 1 <= c_unit cfg -> zlen src <= OFF_MAX ->
  forall (ops : list op) (w : world),
    Idle src cfg w -> Forall op_ok ops ->
    Idle src cfg (snd (run_ops src cfg w ops)) /\ results_ok src cfg w ops.
Proof. exact consistent_preserved_proof. Qed.
Print Assumptions consistent_preserved.

(* a NEW store object over an existing media file (store TTL expiry, or a new pool instance over the
   same directory; ideal rebuild of the filled map assumed): CacheConsistent carries over provided
   the media file's size is <= the source size and, if not page aligned, equal to it
   (Example: any state reached by reads and whole-file evictions only). *)
Theorem reopen_preserves_consistent : forall src cfg w,
  Inv src cfg (w_st w) -> MediaSizeOK src cfg (w_st w) -> Inv src cfg (w_st (reopen w)).
Proof. exact reopen_inv_proof. Qed.
Print Assumptions reopen_preserves_consistent.

(* FINDING C17-F1: the side condition is not maintained by a trim at a non-page-aligned offset
   (CachedFile::fallocate(mode, offset, -1)): from a consistent store, trim at 5, re-create the
   store, read byte 6 of the 10-byte source -> 0 bytes, where the source has 1. *)
Theorem trim_then_reopen_refuted :
  Good f1_src f1_cfg f1_w0 /\
  fst (preadv2 f1_src f1_cfg false false f1_w2 6 1) = 0 /\
  Z.max 0 (Z.min 1 (zlen f1_src - 6)) = 1 /\
  ~ MediaSizeOK f1_src f1_cfg (w_st (evict f1_cfg f1_w0 5 (-1))).
Proof. exact trim_then_reopen_refuted_proof. Qed.
Print Assumptions trim_then_reopen_refuted.

(* FINDING C17-F2: with the unpatched FileCacheStore::evict (c_tne = false) a trim beyond the media
   file's end EXTENDS the media file past the source size; after the store is re-created a read
   of [8,12) of the 10-byte source fails although no source call fails (on a real file system the
   zero extension is served as cached data).  The patched evict leaves the store untouched. *)
Theorem trim_beyond_eof_refuted :
  Good f1_src f1_cfg f1_w0 /\
  fst (preadv2 f1_src f1_cfg false false f2_w2 8 4) = -1 /\
  Z.max 0 (Z.min 4 (zlen f1_src - 8)) = 2 /\
  ~ MediaSizeOK f1_src f1_cfg (w_st (evict f1_cfg f1_w0 12 (-1))) /\
  evict f1_cfg_patched f1_w0 12 (-1) = f1_w0.
Proof. exact trim_beyond_eof_refuted_proof. Qed.
Print Assumptions trim_beyond_eof_refuted.

(* with both repairs (trim offsets rounded to a page boundary by CachedFile::fallocate; evict never
   extends the file) a trim keeps the media size sound for a later store (Example ex_media_size_ok) *)
Theorem trim_keeps_media_size : forall src cfg w off,
  c_tne cfg = true -> MediaSizeOK src cfg (w_st w) -> 0 <= off -> off mod c_page cfg = 0 ->
  MediaSizeOK src cfg (w_st (evict cfg w off (-1))).
Proof. exact trim_keeps_media_size_proof. Qed.
Print Assumptions trim_keeps_media_size.

(* The interleaving model (C17_Conc.v): any number of readers, inline and asynchronous
   write-back, whole-file eviction under the exclusive rw lock, range-lock dedup, reuse of the
   directory by a new pool instance; every interleaving of its steps, no bound on length. *)

(* between a hole query that answered "no hole" and the media read that follows it, every byte the
   thread is about to read is still filled and equals the source: no eviction falls in between *)
Theorem read_atomic_vs_evict : forall (src : C17_Conc.bytes) (s : C17_Conc.state) (t : nat),
  C17_Conc.reachable src s ->
  match C17_Conc.pcs s t with
  | C17_Conc.RHit off cnt => forall x, C17_Conc.inr off (off + cnt) x -> C17_Conc.filled s x = true /\ C17_Conc.media s x = src x
  | C17_Conc.RRemHit off cnt u => forall x, C17_Conc.inr off (off + cnt) x -> u x = None -> C17_Conc.filled s x = true /\ C17_Conc.media s x = src x
  | _ => True
  end.
Proof. exact C17_Conc.read_atomic_vs_evict_proof. Qed.
Print Assumptions read_atomic_vs_evict.

(* an eviction of a non-empty cache is only ever a step of the model when no thread is inside a
   shared (read-lock) section *)
Theorem evict_excluded_in_read_section : forall (src : C17_Conc.bytes) (s : C17_Conc.state) (m' : C17_Conc.bytes),
  C17_Conc.step src s (C17_Conc.mkS (fun _ => false) m' (C17_Conc.pcs s)) -> (exists x, C17_Conc.filled s x = true) ->
  forall t, ~ C17_Conc.in_shared (C17_Conc.pcs s t).
Proof. exact C17_Conc.evict_excluded_in_read_section_proof. Qed.
Print Assumptions evict_excluded_in_read_section.

(* for every interleaving: a read that returns its count has delivered the source's bytes *)
Theorem read_returns_source_concurrent : forall (src : C17_Conc.bytes) (s : C17_Conc.state) (t : nat) (off cnt : Z) (u : C17_Conc.ubuf),
  C17_Conc.reachable src s -> C17_Conc.pcs s t = C17_Conc.RDone off cnt u -> forall x, off <= x < off + cnt -> u x = Some (src x).
Proof. exact C17_Conc.read_returns_source_concurrent_proof. Qed.
Print Assumptions read_returns_source_concurrent.

(* CacheConsistent is an invariant of every interleaving *)
Theorem cache_consistent_concurrent : forall (src : C17_Conc.bytes) (s : C17_Conc.state),
  C17_Conc.reachable src s -> forall x, C17_Conc.filled s x = true -> C17_Conc.media s x = src x.
Proof. exact C17_Conc.cache_consistent_concurrent_proof. Qed.
Print Assumptions cache_consistent_concurrent.

(* ranges being refilled by different threads (readers or write-back threads) never overlap *)
Theorem refill_dedup : forall (src : C17_Conc.bytes) (s : C17_Conc.state) (t t' : nat) (a b a' b' : Z),
  C17_Conc.reachable src s -> t <> t' ->
  C17_Conc.holds_range (C17_Conc.pcs s t) = Some (a, b) -> C17_Conc.holds_range (C17_Conc.pcs s t') = Some (a', b') -> b <= a' \/ b' <= a.
Proof. exact C17_Conc.refill_dedup_proof. Qed.
Print Assumptions refill_dedup.

(* COUNTERFACTUAL (non-vacuity of read_atomic_vs_evict): in the model weakened by an eviction that
   does not need the exclusive lock (`ustep` = `step` + unguarded evict) a read returns a byte that
   is not the source's: the eviction lands between the hole query and the media read. *)
Theorem unlocked_evict_refuted :
  exists s u, C17_Conc.ureachable C17_Conc.ex_src s /\ C17_Conc.pcs s 0%nat = C17_Conc.RDone 0 4 u
              /\ u 1 <> Some (C17_Conc.ex_src 1).
Proof. exact C17_Conc.unlocked_evict_refuted_proof. Qed.
Print Assumptions unlocked_evict_refuted.
