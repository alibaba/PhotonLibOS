(* C16_XVar.v — VariableSizeLinearFile (fs/xfile.cpp 124-167, the range_split_vi instance) as an instance of the
   generic composite layer: sub-files of arbitrary positive sizes, key points = 0, prefix sums, UINT64_MAX
   (`key_points` of the model = the loop of VariableSizeLinearFile::init), block i = the whole of sub-file i.
   The logical content is [concat files]. *)
From Coq Require Import ZArith List Lia.
From PV Require Import Base.U64 C15.C15_Model C15.C15_Spec C15.C15_Proofs.
From PV Require Import C16.C16_Model C16.C16_Lists C16.C16_XGeneric C16.C16_XInst.
Import ListNotations.
Local Open Scope Z_scope.

Definition total (fs : list file) : Z := zlen (concat fs).
Definition psum (fs : list file) (k : nat) : Z := zlen (concat (firstn k fs)).

Lemma total_cons f t : total (f :: t) = zlen f + total t.
Proof. unfold total. cbn [concat]. apply zlen_app. Qed.
Lemma total_nonneg fs : 0 <= total fs.
Proof. apply zlen_nonneg. Qed.
Lemma psum_0 fs : psum fs 0 = 0.
Proof. reflexivity. Qed.
Lemma psum_cons f t k : psum (f :: t) (S k) = zlen f + psum t k.
Proof. unfold psum. cbn [firstn concat]. apply zlen_app. Qed.
Lemma psum_all fs : psum fs (length fs) = total fs.
Proof. unfold psum. rewrite firstn_all. reflexivity. Qed.
Lemma psum_S fs k f : nth_error fs k = Some f -> psum fs (S k) = psum fs k + zlen f.
Proof.
  intros H. unfold psum. rewrite (firstn_snoc fs k f H). rewrite concat_app, zlen_app. cbn [concat].
  rewrite app_nil_r. reflexivity.
Qed.

Lemma length_key_points : forall fs acc, length (key_points fs acc) = S (length fs).
Proof. induction fs as [|f t IH]; intros acc; cbn [key_points length]; [reflexivity|]. rewrite IH. reflexivity. Qed.

Lemma nth_key_points : forall fs acc k, 0 <= acc -> acc + total fs < W64 -> (k <= length fs)%nat ->
  nth k (acc :: key_points fs acc) 0 = acc + psum fs k.
Proof.
  induction fs as [|f t IH]; intros acc k Ha Ht Hk.
  - cbn [length] in Hk. assert (k = 0%nat) by lia. subst k. cbn [nth]. rewrite psum_0. lia.
  - destruct k as [|k]; [cbn [nth]; rewrite psum_0; lia|].
    rewrite total_cons in Ht. pose proof (total_nonneg t). pose proof (zlen_nonneg f).
    change (nth (S k) (acc :: key_points (f :: t) acc) 0)
      with (nth k (wrap (acc + f_size f) :: key_points t (wrap (acc + f_size f))) 0).
    unfold f_size. rewrite wrap_small by lia. cbn [length] in Hk.
    rewrite IH by lia. rewrite psum_cons. lia.
Qed.

Lemma nth_key_points_last : forall fs acc, nth (S (length fs)) (acc :: key_points fs acc) 0 = MAX64.
Proof.
  induction fs as [|f t IH]; intros acc; [reflexivity|].
  change (nth (S (length (f :: t))) (acc :: key_points (f :: t) acc) 0)
    with (nth (S (length t)) (wrap (acc + f_size f) :: key_points t (wrap (acc + f_size f))) 0).
  apply IH.
Qed.

Lemma ascending_cons2 a b l : ascending (a :: b :: l) = (a < b /\ ascending (b :: l)).
Proof. reflexivity. Qed.

Lemma ascending_key_points : forall fs acc, Forall (fun f => 0 < zlen f) fs -> 0 <= acc -> acc + total fs < MAX64 ->
  ascending (acc :: key_points fs acc).
Proof.
  induction fs as [|f t IH]; intros acc HF Ha Ht.
  - cbn [key_points]. rewrite ascending_cons2. unfold total in Ht. cbn [concat] in Ht. rewrite zlen_nil in Ht.
    split; [lia|exact I].
  - inversion HF as [|? ? Hf Ht']; subst. rewrite total_cons in Ht. pose proof (total_nonneg t).
    rewrite MAX64_eq in Ht.
    cbn [key_points]. cbv zeta. unfold f_size. rewrite wrap_small by lia. rewrite ascending_cons2.
    split; [lia|]. apply IH; [exact Ht'|lia|rewrite MAX64_eq; lia].
Qed.

Definition pos_files (fs0 : list file) : Prop := 0 < zlen fs0 /\ Forall (fun f => 0 < zlen f) fs0.

Section VarLinear.
  Variable fs0 : list file.
  Hypothesis HP : pos_files fs0.
  Hypothesis Hbig : total fs0 < 2 ^ 63.
  Let Hn := proj1 HP.
  Let Hpos := proj2 HP.

  Local Notation n := (zlen fs0).
  Local Notation kp := (0 :: key_points fs0 0).
  Local Notation B := (kp_nth kp).
  Local Notation L := (getlen_vi kp).
  Local Notation fidx := (fun i : Z => i).
  Local Notation fbase := (fun _ : Z => 0).

  Lemma vl_len : Z.of_nat (length kp) = n + 2.
  Proof. cbn [length]. rewrite length_key_points. unfold zlen. lia. Qed.

  Lemma vl_kp_ok : kp_ok kp.
  Proof.
    assert (W : W64 = 2 * 2 ^ 63) by reflexivity.
    split; [|split].
    - apply ascending_key_points; [exact Hpos|lia|rewrite MAX64_eq; lia].
    - reflexivity.
    - unfold kp_nth. rewrite vl_len. replace (Z.to_nat (n + 2 - 1)) with (S (length fs0)) by (unfold zlen; lia).
      apply nth_key_points_last.
  Qed.

  Lemma vl_B i : 0 <= i <= n -> B i = psum fs0 (Z.to_nat i).
  Proof.
    intros Hi. assert (W : W64 = 2 * 2 ^ 63) by reflexivity. unfold kp_nth.
    rewrite nth_key_points; [lia|lia|fold (total fs0); lia|unfold zlen in Hi; lia].
  Qed.

  Lemma vl_Bn : B n = total fs0.
  Proof. rewrite vl_B by lia. unfold zlen. rewrite Nat2Z.id. apply psum_all. Qed.

  Lemma vl_L i : 0 <= i < n -> L i = zlen (nth_file fs0 i) /\ 0 < L i /\ B (i + 1) = B i + L i.
  Proof.
    intros Hi. destruct (getlen_vi_exact kp vl_kp_ok i ltac:(rewrite vl_len; lia)) as (E & P & _).
    split; [|split; [exact P|lia]].
    rewrite E. rewrite !vl_B by lia. replace (Z.to_nat (i + 1)) with (S (Z.to_nat i)) by lia.
    destruct (nth_error fs0 (Z.to_nat i)) as [f|] eqn:EN; [|apply nth_error_None in EN; unfold zlen in Hi; lia].
    rewrite (psum_S fs0 _ f EN). rewrite <- (nth_file_nat fs0 _ f EN). rewrite Z2Nat.id by lia. lia.
  Qed.

  Definition var_x : xfile := mkX (XVar kp) n (total fs0).

  Lemma var_layout : layout B L fidx fbase n fs0.
  Proof.
    constructor; try reflexivity; try lia.
    - intros i Hi. apply vl_L. exact Hi.
    - intros i Hi. apply vl_L. exact Hi.
    - intros i Hi. destruct (vl_L i Hi) as (E & _). rewrite E. lia.
  Qed.

  (* C15's range_split_vi theorems over these key points; the last part stays below block n because block n
     starts at the end of the composite *)
  Lemma var_composite : composite B L fidx fbase n fs0 var_x.
  Proof.
    assert (W : W64 = 2 * 2 ^ 63) by reflexivity.
    assert (SH : forall off count, 0 <= off -> 0 <= count -> off + count <= B n ->
              split_hyps B L (divide_vi kp) 0 (n + 2 - 2) off count).
    { intros off count Ho Hc He. rewrite vl_Bn in He. rewrite <- vl_len.
      apply (vi_hyps kp vl_kp_ok). unfold vi_guard. rewrite MAX64_eq. lia. }
    constructor; [exact var_layout|symmetry; exact vl_Bn|rewrite vl_Bn; exact Hbig| |].
    - intros off count Ho Hc He. specialize (SH off count Ho ltac:(lia) He).
      destruct (parts_of_hyps _ _ _ _ _ _ _ SH) as (l & HA & HT & _). specialize (HT Hc).
      pose proof (sh_bidx _ _ _ _ _ _ _ SH) as BI.
      exists l, (d_down (divide_vi kp off)). unfold xparts, var_x. cbn [x_kind]. rewrite HA.
      split; [reflexivity|]. split; [exact HT|]. split; [lia|].
      apply (tiles_inside _ _ _ _ _ _ _ HT); lia.
    - intros off Ho. specialize (SH off 0 ltac:(lia) ltac:(lia) ltac:(lia)).
      destruct (parts_of_hyps _ _ _ _ _ _ _ SH) as (l & HA & _ & HZ). specialize (HZ eq_refl).
      unfold xparts, var_x. cbn [x_kind]. rewrite HA, HZ.
      destruct (d_rem (divide_vi kp off) =? 0); eexists; (split; [reflexivity|]); [left; reflexivity|].
      right. do 2 eexists. split; [reflexivity|]. cbn [s_i].
      pose proof (sh_bidx _ _ _ _ _ _ _ SH) as BI. destruct (sh_db _ _ _ _ _ _ _ SH) as (D1 & D2 & _).
      destruct (Z.eq_dec (d_down (divide_vi kp off)) n) as [E|E]; [|lia]. rewrite E in D1. lia.
  Qed.

  Lemma var_content_concat fs : Inv fs0 fs -> whole L fidx fbase n fs = concat fs.
  Proof.
    intros (I1 & I2). rewrite <- I1. apply whole_id_concat.
    intros j Hj. rewrite I2. apply vl_L. lia.
  Qed.

  Lemma var_refines : refines_fixed var_x (Inv fs0) (@concat byte) (total fs0).
  Proof.
    rewrite <- vl_Bn.
    exact (refines_fixed_ext _ _ _ _ _ var_content_concat (composite_refines var_composite)).
  Qed.

  (* in terms of the sub-files: block i starts at the sum of the sizes before it and is as long as sub-file i *)
  Lemma var_tiles l start stop i : 0 <= i -> i + zlen l <= n -> tiles B L start stop i l ->
    tiles (fun i => psum fs0 (Z.to_nat i)) (fun i => zlen (nth_file fs0 i)) start stop i l.
  Proof. intros Hi Hl. apply tiles_ext. intros k Hk. split; [apply vl_B|apply vl_L]; lia. Qed.

  (* the factory new_linear_file builds exactly var_x *)
  Lemma fold_total : forall fs acc, 0 <= acc -> acc + total fs < W64 ->
    fold_left (fun a f => wrap (a + f_size f)) fs acc = acc + total fs.
  Proof.
    induction fs as [|f t IH]; intros acc Ha Ht.
    - unfold total. cbn. lia.
    - rewrite total_cons in Ht. pose proof (total_nonneg t). pose proof (zlen_nonneg f).
      cbn [fold_left]. unfold f_size. rewrite wrap_small by lia. rewrite IH by lia. rewrite total_cons. lia.
  Qed.

  Lemma new_linear_is : fst (new_linear fs0) = Some var_x.
  Proof.
    unfold new_linear. destruct (Z.eqb_spec n 0) as [Q|_]; [lia|]. cbn [fst]. unfold var_x. f_equal. f_equal.
    assert (W : W64 = 2 * 2 ^ 63) by reflexivity. rewrite fold_total by lia. lia.
  Qed.
End VarLinear.
