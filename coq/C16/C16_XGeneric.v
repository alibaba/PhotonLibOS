(* C16_XGeneric.v — the pio loop of the composites (fs/xfile.cpp) against C15's tiling predicate,
   for an abstract block layout:
     block j of the composite = L j bytes of sub-file (fidx j) starting at (fbase j);
     B j = logical address at which block j starts.
   The logical content of the composite is the concatenation of its blocks ([whole]).
   [layout] collects what is asked of B, L, fidx, fbase; [composite] adds what the splitter of an xfile yields on
   that layout; [refines_fixed] is the conclusion: pread/pwrite of every length on the xfile behave like those of
   ONE plain file of fixed size. *)
From Coq Require Import ZArith List Lia.
From PV Require Import Base.U64 C15.C15_Model C15.C15_Spec.
From PV Require Import C16.C16_Model C16.C16_Lists.
Import ListNotations.
Local Open Scope Z_scope.

Definition nth_file (fs : list file) (i : Z) : file :=
  match get_file fs i with Some f => f | None => [] end.

Lemma length_set_nth {T} (x : T) : forall l n, length (set_nth l n x) = length l.
Proof. induction l as [|h t IH]; intros [|n]; cbn; try reflexivity. rewrite IH. reflexivity. Qed.

Lemma nth_error_set_nth_eq {T} (x : T) : forall l n, (n < length l)%nat -> nth_error (set_nth l n x) n = Some x.
Proof. induction l as [|h t IH]; intros [|n] H; cbn in *; try lia; try reflexivity. apply IH. lia. Qed.

Lemma nth_error_set_nth_neq {T} (x : T) : forall l n m, m <> n -> nth_error (set_nth l n x) m = nth_error l m.
Proof.
  induction l as [|h t IH]; intros [|n] [|m] H; cbn; try reflexivity; try congruence.
  apply IH. congruence.
Qed.

Lemma set_nth_same {T} : forall (l : list T) n x, nth_error l n = Some x -> set_nth l n x = l.
Proof.
  induction l as [|h t IH]; intros [|n] x H; cbn in *; try discriminate.
  - inversion H. reflexivity.
  - f_equal. apply IH. exact H.
Qed.

Lemma zlen_set_file fs i f : zlen (set_file fs i f) = zlen fs.
Proof. unfold zlen, set_file. rewrite length_set_nth. reflexivity. Qed.

Lemma get_file_in fs i : 0 <= i < zlen fs -> get_file fs i = Some (nth_file fs i).
Proof.
  intros H. unfold nth_file, get_file. destruct (Z.ltb_spec i 0); [lia|].
  destruct (nth_error fs (Z.to_nat i)) eqn:E; [reflexivity|].
  apply nth_error_None in E. unfold zlen in H. lia.
Qed.

Lemma set_file_same fs i f : get_file fs i = Some f -> set_file fs i f = fs.
Proof. unfold get_file, set_file. destruct (i <? 0); [discriminate|]. apply set_nth_same. Qed.

Lemma nth_file_set_eq fs i f : 0 <= i < zlen fs -> nth_file (set_file fs i f) i = f.
Proof.
  intros H. unfold nth_file, get_file, set_file. destruct (Z.ltb_spec i 0); [lia|].
  rewrite nth_error_set_nth_eq; [reflexivity|]. unfold zlen in H. lia.
Qed.

Lemma nth_file_set_neq fs i j f : 0 <= i -> i <> j -> nth_file (set_file fs i f) j = nth_file fs j.
Proof.
  intros Hi H. unfold nth_file, get_file, set_file. destruct (Z.ltb_spec j 0); [reflexivity|].
  rewrite nth_error_set_nth_neq; [reflexivity|]. lia.
Qed.

Lemma nth_file_nat fs k f : nth_error fs k = Some f -> nth_file fs (Z.of_nat k) = f.
Proof.
  intros H. unfold nth_file, get_file. destruct (Z.ltb_spec (Z.of_nat k) 0); [lia|].
  rewrite Nat2Z.id, H. reflexivity.
Qed.

Lemma firstn_snoc {T} : forall (l : list T) k x, nth_error l k = Some x -> firstn (S k) l = firstn k l ++ [x].
Proof.
  induction l as [|h t IH]; intros [|k] x H; cbn in *; try discriminate.
  - inversion H. reflexivity.
  - f_equal. apply IH. exact H.
Qed.

Lemma tiles_le B L : forall l start stop i, tiles B L start stop i l -> start <= stop.
Proof.
  induction l as [|p l IH]; intros start stop i H; cbn [tiles] in H.
  - lia.
  - destruct H as (_ & _ & _ & H4 & _ & H6). apply IH in H6. lia.
Qed.

Lemma tiles_idx_lt B L : forall l start stop i, tiles B L start stop i l ->
  forall k, i <= k < i + zlen l -> B k < stop.
Proof.
  induction l as [|p l IH]; intros start stop i H k Hk; [rewrite zlen_nil in Hk; lia|].
  cbn [tiles] in H. destruct H as (T1 & T2 & T3 & T4 & T5 & T6). rewrite zlen_cons in Hk.
  pose proof (tiles_le _ _ _ _ _ _ T6) as TS.
  destruct (Z.eq_dec k i) as [->|N]; [lia|].
  apply (IH _ _ _ T6). lia.
Qed.

Lemma tiles_ext B L B' L' : forall l start stop i,
  (forall k, i <= k < i + zlen l -> B k = B' k /\ L k = L' k) ->
  tiles B L start stop i l -> tiles B' L' start stop i l.
Proof.
  induction l as [|p l IH]; intros start stop i HE H; [exact H|].
  cbn [tiles] in *. destruct H as (T1 & T2 & T3 & T4 & T5 & T6). rewrite zlen_cons in HE. pose proof (zlen_nonneg l).
  destruct (HE i ltac:(lia)) as (E1 & E2). rewrite <- E1, <- E2.
  repeat split; try assumption. apply IH; [|exact T6]. intros k Hk. apply HE. lia.
Qed.

(* parts that tile a range ending at or before block nb do not reach block nb *)
Lemma tiles_inside B L nb l start stop i : tiles B L start stop i l -> i <= nb -> stop <= B nb ->
  i + zlen l <= nb.
Proof.
  intros HT Hi Hs. destruct (Z_le_dec (i + zlen l) nb) as [Q|Q]; [exact Q|exfalso].
  pose proof (tiles_idx_lt _ _ _ _ _ _ HT nb ltac:(lia)). lia.
Qed.

Section Layout.
  Variables (B L fidx fbase : Z -> Z) (nb : Z) (fs0 : list file).

  (* same number of sub-files, each of the same size, as the initial state *)
  Definition Inv (fs : list file) : Prop :=
    zlen fs = zlen fs0 /\ forall i, zlen (nth_file fs i) = zlen (nth_file fs0 i).

  Definition fget (fs : list file) (j o : Z) : byte := get (nth_file fs (fidx j)) (fbase j + o).
  Definition block (fs : list file) (j : Z) : list byte := f_pread (nth_file fs (fidx j)) (L j) (fbase j).
  Fixpoint blocks (fs : list file) (k : nat) : list (list byte) :=
    match k with O => [] | S k' => blocks fs k' ++ [block fs (Z.of_nat k')] end.
  Definition whole (fs : list file) : file := concat (blocks fs (Z.to_nat nb)).
  Definition conv (p : sub) : Z * Z * Z := (fidx (s_i p), fbase (s_i p) + s_off p, s_len p).

  (* nb blocks, laid end to end from address 0, each a non-empty piece of an existing sub-file of the
     initial state; pieces of the same sub-file do not overlap *)
  Record layout : Prop := {
    lay_nb : 0 <= nb;
    lay_B0 : B 0 = 0;
    lay_BS : forall i, 0 <= i < nb -> B (i + 1) = B i + L i;
    lay_Lpos : forall i, 0 <= i < nb -> 0 < L i;
    lay_shape : forall i, 0 <= i < nb ->
      0 <= fidx i < zlen fs0 /\ 0 <= fbase i /\ fbase i + L i <= zlen (nth_file fs0 (fidx i));
    lay_inj : forall i j, 0 <= i < nb -> 0 <= j < nb -> i <> j -> fidx i = fidx j ->
      fbase i + L i <= fbase j \/ fbase j + L j <= fbase i }.

  Hypothesis HL : layout.
  Let Hnb := lay_nb HL.
  Let HB0 := lay_B0 HL.
  Let HBS := lay_BS HL.
  Let HLpos := lay_Lpos HL.
  Let Hshape := lay_shape HL.
  Let Hinj := lay_inj HL.

  Lemma B_step_nat : forall (d : nat) i, 0 <= i -> i + Z.of_nat d <= nb -> B i <= B (i + Z.of_nat d).
  Proof.
    induction d as [|d IH]; intros i Hi H.
    - rewrite Z.add_0_r. lia.
    - specialize (IH i Hi ltac:(lia)).
      replace (i + Z.of_nat (S d)) with (i + Z.of_nat d + 1) by lia.
      rewrite HBS by lia. pose proof (HLpos (i + Z.of_nat d) ltac:(lia)). lia.
  Qed.
  Lemma B_le i j : 0 <= i <= j -> j <= nb -> B i <= B j.
  Proof. intros H1 H2. replace j with (i + Z.of_nat (Z.to_nat (j - i))) by lia. apply B_step_nat; lia. Qed.
  Lemma B_lt i j : 0 <= i < j -> j <= nb -> B i + L i <= B j.
  Proof. intros H1 H2. rewrite <- HBS by lia. apply B_le; lia. Qed.

  Lemma block_len fs j : Inv fs -> 0 <= j < nb -> zlen (block fs j) = L j.
  Proof.
    intros (_ & I) Hj. destruct (Hshape j Hj) as (S1 & S2 & S3). pose proof (HLpos j Hj).
    unfold block. apply zlen_f_pread_in; rewrite ?I; lia.
  Qed.

  Lemma blocks_spec fs : Inv fs -> forall k : nat, Z.of_nat k <= nb ->
    zlen (concat (blocks fs k)) = B (Z.of_nat k) /\
    forall j o, 0 <= j < Z.of_nat k -> 0 <= o < L j -> get (concat (blocks fs k)) (B j + o) = fget fs j o.
  Proof.
    intros HI. induction k as [|k IH]; intros Hk.
    - cbn [blocks concat]. change (Z.of_nat 0) with 0. split; [rewrite HB0; reflexivity|]. intros j o Hj. lia.
    - destruct (IH ltac:(lia)) as (IL & IG). cbn [blocks]. rewrite concat_app. cbn [concat]. rewrite app_nil_r.
      pose proof (block_len fs (Z.of_nat k) HI ltac:(lia)) as BL.
      split.
      + rewrite zlen_app, IL, BL. rewrite <- HBS by lia. f_equal. lia.
      + intros j o Hj Ho. destruct (Z_lt_dec j (Z.of_nat k)) as [A|A].
        * pose proof (B_lt j (Z.of_nat k) ltac:(lia) ltac:(lia)).
          rewrite get_app_l by lia. apply IG; lia.
        * assert (j = Z.of_nat k) by lia. subst j.
          rewrite get_app_r by lia. rewrite IL. replace (B (Z.of_nat k) + o - B (Z.of_nat k)) with o by lia.
          unfold block, fget. destruct (Hshape (Z.of_nat k) ltac:(lia)) as (S1 & S2 & S3).
          rewrite get_f_pread by lia. reflexivity.
  Qed.

  Lemma whole_len fs : Inv fs -> zlen (whole fs) = B nb.
  Proof. intros HI. destruct (blocks_spec fs HI (Z.to_nat nb) ltac:(lia)) as (A & _). unfold whole. rewrite A. f_equal. lia. Qed.
  Lemma whole_get fs j o : Inv fs -> 0 <= j < nb -> 0 <= o < L j -> get (whole fs) (B j + o) = fget fs j o.
  Proof. intros HI Hj Ho. destruct (blocks_spec fs HI (Z.to_nat nb) ltac:(lia)) as (_ & A). apply A; lia. Qed.

  Lemma addr_block : forall k : nat, Z.of_nat k <= nb -> forall a, 0 <= a < B (Z.of_nat k) ->
    exists j o, 0 <= j < Z.of_nat k /\ 0 <= o < L j /\ a = B j + o.
  Proof.
    induction k as [|k IH]; intros Hk a Ha.
    - change (Z.of_nat 0) with 0 in Ha. rewrite HB0 in Ha. lia.
    - replace (Z.of_nat (S k)) with (Z.of_nat k + 1) in Ha by lia. rewrite HBS in Ha by lia.
      destruct (Z_lt_dec a (B (Z.of_nat k))) as [A|A].
      + destruct (IH ltac:(lia) a ltac:(lia)) as (j & o & H1 & H2 & H3). exists j, o. repeat split; lia.
      + exists (Z.of_nat k), (a - B (Z.of_nat k)). repeat split; lia.
  Qed.

  Lemma loop_read fs : Inv fs -> forall l start stop i buf pos tr,
    tiles B L start stop i l -> 0 <= i -> i + zlen l <= nb -> stop <= B nb -> 0 <= pos ->
    pos + (stop - start) <= zlen buf ->
    let R := pio_loop true fs buf pos (map conv l) tr in
    fst (fst (fst R)) = 0 /\ snd (fst (fst R)) = fs /\
    snd (fst R) = overwrite buf pos (f_pread (whole fs) (stop - start) start).
  Proof.
    intros HI. pose proof HI as (I1 & I2).
    induction l as [|p l IH]; intros start stop i buf pos tr HT Hi Hl Hstop Hpos Hbuf R.
    - cbn in HT. subst stop. subst R. cbn [map pio_loop fst snd]. rewrite Z.sub_diag.
      repeat split. change (f_pread (whole fs) 0 start) with (@nil byte). rewrite overwrite_nil. reflexivity.
    - cbn [tiles] in HT. destruct HT as (T1 & T2 & T3 & T4 & T5 & T6).
      rewrite zlen_cons in Hl. pose proof (zlen_nonneg l) as Hl0.
      pose proof (tiles_le _ _ _ _ _ _ T6) as TS.
      destruct (Hshape i ltac:(lia)) as (S1 & S2 & S3).
      pose proof (B_le 0 i ltac:(lia) ltac:(lia)) as Bi0. rewrite HB0 in Bi0.
      set (f := nth_file fs (fidx i)). set (len := s_len p) in *. set (so := s_off p) in *.
      assert (Lf : zlen f = zlen (nth_file fs0 (fidx i))) by apply I2.
      assert (LD : zlen (f_pread f len (fbase i + so)) = len) by (apply zlen_f_pread_in; lia).
      assert (ER : pio_loop true fs buf pos (map conv (p :: l)) tr =
                   pio_loop true fs (overwrite buf pos (f_pread f len (fbase i + so))) (pos + len) (map conv l)
                            (tr ++ [mkEv (fidx i) KPread (fbase i + so) len true])).
      { cbn [map]. unfold conv at 1. cbn [pio_loop]. rewrite T1.
        rewrite (get_file_in fs (fidx i)) by lia. cbv iota beta. fold f len so.
        rewrite LD. destruct (Z.ltb_spec len len) as [C|_]; [lia|]. reflexivity. }
      subst R. rewrite ER.
      specialize (IH (start + len) stop (i + 1) (overwrite buf pos (f_pread f len (fbase i + so))) (pos + len)
                     (tr ++ [mkEv (fidx i) KPread (fbase i + so) len true]) T6 ltac:(lia) ltac:(lia) Hstop ltac:(lia)).
      rewrite zlen_overwrite in IH by lia. specialize (IH ltac:(lia)). cbv zeta in IH.
      destruct IH as (R1 & R2 & R3). repeat split; [exact R1|exact R2|]. rewrite R3.
      assert (ED : f_pread f len (fbase i + so) = f_pread (whole fs) len start).
      { apply list_ext.
        - rewrite LD. symmetry. apply zlen_f_pread_in; rewrite ?whole_len by exact HI; lia.
        - intros t Ht. rewrite LD in Ht. rewrite !get_f_pread by lia.
          replace (start + t) with (B i + (so + t)) by lia. rewrite whole_get by (try exact HI; lia).
          unfold fget. fold f. f_equal. lia. }
      rewrite ED.
      replace (pos + len) with (pos + zlen (f_pread (whole fs) len start)) by (rewrite <- ED, LD; reflexivity).
      rewrite overwrite_split.
      + f_equal. replace (stop - start) with (len + (stop - (start + len))) by lia.
        symmetry. apply f_pread_split; lia.
      + lia.
      + rewrite <- ED, LD. rewrite zlen_f_pread_in; rewrite ?whole_len by exact HI; lia.
  Qed.

  (* one forwarded pwrite, inside block i, is a memcpy into the logical content *)
  Lemma whole_write1 fs i so chunk : Inv fs -> 0 <= i < nb -> 0 <= so -> so + zlen chunk <= L i ->
    let fs1 := set_file fs (fidx i) (f_pwrite (nth_file fs (fidx i)) chunk (fbase i + so)) in
    Inv fs1 /\ whole fs1 = overwrite (whole fs) (B i + so) chunk.
  Proof.
    intros HI Hi Hso Hc fs1. pose proof HI as (I1 & I2). pose proof (zlen_nonneg chunk) as Hc0.
    destruct (Hshape i Hi) as (S1 & S2 & S3).
    set (f := nth_file fs (fidx i)) in *.
    assert (Lf : zlen f = zlen (nth_file fs0 (fidx i))) by apply I2.
    assert (HI1 : Inv fs1).
    { split; [unfold fs1; rewrite zlen_set_file; exact I1|]. intros q.
      destruct (Z.eq_dec (fidx i) q) as [E|E].
      - subst q. unfold fs1. rewrite nth_file_set_eq by lia. rewrite zlen_f_pwrite_inside by lia. exact Lf.
      - unfold fs1. rewrite nth_file_set_neq by lia. apply I2. }
    split; [exact HI1|].
    pose proof (B_le 0 i ltac:(lia) ltac:(lia)) as Bi0. rewrite HB0 in Bi0.
    pose proof (B_lt i nb ltac:(lia) ltac:(lia)) as Bin.
    pose proof (whole_len fs HI) as WL.
    apply list_ext.
    - rewrite zlen_overwrite by lia. rewrite WL. apply whole_len. exact HI1.
    - intros a Ha. rewrite whole_len in Ha by exact HI1.
      destruct (addr_block (Z.to_nat nb) ltac:(lia) a ltac:(rewrite Z2Nat.id by lia; lia)) as (j & o & H1 & H2 & H3).
      subst a. rewrite whole_get by (try exact HI1; lia). unfold fget, fs1.
      destruct (Z.eq_dec j i) as [->|N].
      + rewrite nth_file_set_eq by lia. fold f.
        destruct (Z_lt_dec o so) as [Q|Q]; [|destruct (Z_lt_dec o (so + zlen chunk)) as [Q2|Q2]].
        * rewrite get_f_pwrite_out, get_overwrite_out by lia. rewrite whole_get by (try assumption; lia). reflexivity.
        * rewrite get_f_pwrite_in, get_overwrite_in by lia. f_equal. lia.
        * rewrite get_f_pwrite_out, get_overwrite_out by lia. rewrite whole_get by (try assumption; lia). reflexivity.
      + assert (OUT : B j + o < B i + so \/ B i + so + zlen chunk <= B j + o).
        { destruct (Z_lt_dec j i); [pose proof (B_lt j i ltac:(lia) ltac:(lia))|pose proof (B_lt i j ltac:(lia) ltac:(lia))]; lia. }
        rewrite get_overwrite_out by lia. rewrite whole_get by (try assumption; lia). unfold fget.
        destruct (Z.eq_dec (fidx i) (fidx j)) as [F|F].
        * rewrite <- F. rewrite nth_file_set_eq by lia. fold f.
          destruct (Hinj i j Hi ltac:(lia) ltac:(lia) F) as [D|D]; rewrite get_f_pwrite_out by lia; reflexivity.
        * rewrite nth_file_set_neq by lia. reflexivity.
  Qed.

  Lemma loop_write buf : forall l fs start stop i pos tr, Inv fs ->
    tiles B L start stop i l -> 0 <= i -> i + zlen l <= nb -> stop <= B nb -> 0 <= pos ->
    pos + (stop - start) <= zlen buf ->
    let R := pio_loop false fs buf pos (map conv l) tr in
    fst (fst (fst R)) = 0 /\ Inv (snd (fst (fst R))) /\ snd (fst R) = buf /\
    whole (snd (fst (fst R))) = overwrite (whole fs) start (f_pread buf (stop - start) pos).
  Proof.
    induction l as [|p l IH]; intros fs start stop i pos tr HI HT Hi Hl Hstop Hpos Hbuf R.
    - cbn in HT. subst stop. subst R. cbn [map pio_loop fst snd]. rewrite Z.sub_diag.
      change (f_pread buf 0 pos) with (@nil byte). rewrite overwrite_nil. auto.
    - cbn [tiles] in HT. destruct HT as (T1 & T2 & T3 & T4 & T5 & T6).
      rewrite zlen_cons in Hl. pose proof (zlen_nonneg l) as Hl0.
      pose proof (tiles_le _ _ _ _ _ _ T6) as TS.
      destruct (Hshape i ltac:(lia)) as (S1 & S2 & S3).
      pose proof (B_le 0 i ltac:(lia) ltac:(lia)) as Bi0. rewrite HB0 in Bi0.
      set (len := s_len p) in *. set (so := s_off p) in *.
      assert (LC : zlen (f_pread buf len pos) = len) by (apply zlen_f_pread_in; lia).
      destruct (whole_write1 fs i so (f_pread buf len pos) HI ltac:(lia) T2 ltac:(lia)) as (HI1 & W1).
      set (fs1 := set_file fs (fidx i) (f_pwrite (nth_file fs (fidx i)) (f_pread buf len pos) (fbase i + so))) in *.
      assert (ER : pio_loop false fs buf pos (map conv (p :: l)) tr =
                   pio_loop false fs1 buf (pos + len) (map conv l)
                            (tr ++ [mkEv (fidx i) KPwrite (fbase i + so) len true])).
      { cbn [map]. unfold conv at 1. cbn [pio_loop]. rewrite T1.
        rewrite (get_file_in fs (fidx i)) by (destruct HI; lia). reflexivity. }
      subst R. rewrite ER.
      specialize (IH fs1 (start + len) stop (i + 1) (pos + len)
                     (tr ++ [mkEv (fidx i) KPwrite (fbase i + so) len true]) HI1 T6 ltac:(lia) ltac:(lia) Hstop ltac:(lia) ltac:(lia)).
      cbv zeta in IH. destruct IH as (R1 & R2 & R3 & R4).
      split; [exact R1|]. split; [exact R2|]. split; [exact R3|].
      rewrite R4, W1. rewrite T3. rewrite <- LC at 2.
      rewrite overwrite_split by (rewrite ?zlen_f_pread_in, ?(whole_len fs HI) by lia; lia).
      f_equal. replace (stop - start) with (len + (stop - (start + len))) by lia.
      symmetry. apply f_pread_split; lia.
  Qed.
End Layout.
Arguments lay_nb {B L fidx fbase nb fs0}.
Arguments whole_len {B L fidx fbase nb fs0}.
Arguments loop_read {B L fidx fbase nb fs0}.
Arguments loop_write {B L fidx fbase nb fs0}.

Lemma Inv_refl fs0 : Inv fs0 fs0.
Proof. split; reflexivity. Qed.

Lemma Inv_sizes fs0 fs : Inv fs0 fs -> map (@zlen byte) fs = map (@zlen byte) fs0.
Proof.
  intros (I1 & I2). assert (LE : length fs = length fs0) by (unfold zlen in I1; lia). clear I1.
  revert fs0 LE I2. induction fs as [|f fs IH]; intros [|g fs0] LE I2; try discriminate; [reflexivity|].
  cbn [map]. f_equal; [exact (I2 0)|]. apply IH; [cbn [length] in LE; lia|].
  intros i. destruct (Z_lt_dec i 0) as [N|N].
  - unfold nth_file, get_file. destruct (Z.ltb_spec i 0); [reflexivity|lia].
  - specialize (I2 (i + 1)). unfold nth_file, get_file in *.
    destruct (Z.ltb_spec (i + 1) 0); [lia|]. destruct (Z.ltb_spec i 0); [lia|].
    replace (Z.to_nat (i + 1)) with (S (Z.to_nat i)) in I2 by lia. exact I2.
Qed.

(* a linear layout (block j = the whole of sub-file j): the logical content is concat files *)
Lemma whole_id_concat L fs : (forall j, 0 <= j < zlen fs -> L j = zlen (nth_file fs j)) ->
  whole L (fun i => i) (fun _ => 0) (zlen fs) fs = concat fs.
Proof.
  intros HL.
  assert (BK : forall k, (k <= length fs)%nat -> blocks L (fun i => i) (fun _ => 0) fs k = firstn k fs).
  { induction k as [|k IH]; intros Hk; [reflexivity|].
    cbn [blocks]. rewrite IH by lia.
    destruct (nth_error fs k) as [f|] eqn:E; [|apply nth_error_None in E; lia].
    rewrite (firstn_snoc fs k f E). f_equal. f_equal.
    unfold block. rewrite HL by (unfold zlen; lia). rewrite (nth_file_nat fs k f E). apply f_pread_all. }
  unfold whole. rewrite BK by (unfold zlen; lia).
  unfold zlen. rewrite Nat2Z.id, firstn_all. reflexivity.
Qed.

Lemma pio_loop_zero isread fs buf i p : 0 <= i < zlen fs ->
  pio_loop isread fs buf 0 [(i, p, 0)] [] = (0, fs, buf, [mkEv i (if isread then KPread else KPwrite) p 0 true]).
Proof.
  intros Hi. cbn [pio_loop]. rewrite (get_file_in fs i Hi).
  destruct isread.
  - change (f_pread (nth_file fs i) 0 p) with (@nil byte). rewrite overwrite_nil. reflexivity.
  - change (ztake 0 (zdrop 0 buf)) with (@nil byte). rewrite f_pwrite_nil.
    rewrite set_file_same by (apply get_file_in; exact Hi). reflexivity.
Qed.

(* pread/pwrite of every length on x (requests that start inside it) are those of ONE plain file of [size]
   bytes whose content is [C files], clipped at its end; [I] is what the sub-files keep *)
Record refines_fixed (x : xfile) (I : list file -> Prop) (C : list file -> file) (size : Z) : Prop := {
  rf_len : forall fs, I fs -> zlen (C fs) = size;
  rf_size : x_size x = size;
  rf_read : forall fs buf off, I fs -> 0 <= off < size -> zlen buf < 2 ^ 63 ->
    let r := x_pio x true fs buf off in
    let d := f_pread (C fs) (zlen buf) off in
    rs_ret r = zlen d /\ rs_bufs r = [overwrite buf 0 d] /\ rs_files r = fs;
  rf_write : forall fs buf off, I fs -> 0 <= off < size -> zlen buf < 2 ^ 63 ->
    let r := x_pio x false fs buf off in
    rs_ret r = Z.min (zlen buf) (size - off) /\ rs_bufs r = [buf] /\ I (rs_files r) /\
    C (rs_files r) = f_pwrite (C fs) (ztake (size - off) buf) off }.

Arguments rf_len {x I C size}.
Arguments rf_size {x I C size}.
Arguments rf_read {x I C size}.
Arguments rf_write {x I C size}.

Lemma refines_fixed_ext x (I : list file -> Prop) C C' size : (forall fs, I fs -> C fs = C' fs) ->
  refines_fixed x I C size -> refines_fixed x I C' size.
Proof.
  intros E [H1 H2 H3 H4]. constructor; [|exact H2| |].
  - intros fs HI. rewrite <- E by exact HI. exact (H1 fs HI).
  - intros fs buf off HI. rewrite <- E by exact HI. exact (H3 fs buf off HI).
  - intros fs buf off HI Ho Hb. destruct (H4 fs buf off HI Ho Hb) as (R1 & R2 & R3 & R4).
    cbv zeta. rewrite <- !E by assumption. auto.
Qed.

Section Composite.
  Variables (B L fidx fbase : Z -> Z) (nb : Z) (fs0 : list file) (x : xfile).

  (* a layout and what the splitter of x yields on it (for the fixed-size splitters and range_split_vi:
     C15's tiling theorem); an empty range gives no part, or one zero-length part addressed to an existing
     sub-file (C15's empty_range) *)
  Record composite : Prop := {
    co_layout : layout B L fidx fbase nb fs0;
    co_size : x_size x = B nb;
    co_big : B nb < 2 ^ 63;
    co_parts : forall off count, 0 <= off -> 0 < count -> off + count <= B nb ->
      exists l i0, xparts x off count = Some (map (conv fidx fbase) l) /\
                   tiles B L off (off + count) i0 l /\ 0 <= i0 /\ i0 + zlen l <= nb;
    co_parts0 : forall off, 0 <= off < B nb ->
      exists ps, xparts x off 0 = Some ps /\
                 (ps = [] \/ exists i p, ps = [(i, p, 0)] /\ 0 <= i < zlen fs0) }.

  Hypothesis HC : composite.

  Local Notation Inv := (Inv fs0).
  Local Notation whole := (whole L fidx fbase nb).

  (* a request that starts inside the composite: clipped at its end, split, handed to the loop *)
  Lemma x_pio_in isread fs buf off : 0 <= off < B nb -> zlen buf < 2 ^ 63 ->
    x_pio x isread fs buf off =
    match xparts x off (Z.min (zlen buf) (B nb - off)) with
    | None => mkRes (-99) 0 [buf] fs []
    | Some parts =>
      let '(st, files', buf', tr) := pio_loop isread fs buf 0 parts [] in
      mkRes (if st =? 0 then Z.min (zlen buf) (B nb - off) else st) 0 [buf'] files' tr
    end.
  Proof.
    intros Ho Hb. pose proof (zlen_nonneg buf). pose proof (co_big HC).
    assert (W : W64 = 2 * 2 ^ 63) by reflexivity.
    unfold x_pio. rewrite (co_size HC).
    destruct (Z.ltb_spec off 0) as [C|_]; [lia|]. destruct (Z.leb_spec (B nb) off) as [C|_]; [lia|]. cbn [orb].
    rewrite wrap_small by lia.
    destruct (Z.gtb_spec (off + zlen buf) (B nb)).
    - rewrite wrap_small by lia. rewrite Z.min_r by lia. reflexivity.
    - rewrite Z.min_l by lia. reflexivity.
  Qed.

  Lemma x_pio_zero isread fs buf off : Inv fs -> 0 <= off < B nb -> zlen buf = 0 ->
    let r := x_pio x isread fs buf off in
    rs_ret r = 0 /\ rs_bufs r = [buf] /\ rs_files r = fs /\
    (rs_trace r = [] \/
     exists i p, 0 <= i < zlen fs0 /\ rs_trace r = [mkEv i (if isread then KPread else KPwrite) p 0 true]).
  Proof.
    intros HI Ho Hb. cbv zeta. rewrite x_pio_in by lia. rewrite Hb, Z.min_l by lia.
    destruct (co_parts0 HC off Ho) as (ps & HP & [->|(i & p & -> & Hi)]); rewrite HP.
    - cbn [pio_loop rs_ret rs_bufs rs_files rs_trace Z.eqb]. auto.
    - rewrite pio_loop_zero by (destruct HI as (I1 & _); lia).
      cbn [rs_ret rs_bufs rs_files rs_trace Z.eqb]. repeat split. right. exists i, p. auto.
  Qed.

  Theorem composite_refines : refines_fixed x Inv whole (B nb).
  Proof.
    pose proof (co_layout HC) as HL. pose proof (lay_nb HL) as Hnb.
    assert (WL : forall fs, Inv fs -> zlen (whole fs) = B nb) by (intros fs; apply (whole_len HL)).
    constructor; [exact WL|exact (co_size HC)| |].
    - intros fs buf off HI Ho Hb. pose proof (zlen_nonneg buf) as Hb0.
      destruct (Z.eq_dec (zlen buf) 0) as [E|E].
      { cbv zeta. destruct (x_pio_zero true fs buf off HI Ho E) as (R1 & R2 & R3 & _).
        rewrite R1, R2, R3, E. change (f_pread (whole fs) 0 off) with (@nil byte).
        rewrite overwrite_nil. auto. }
      cbv zeta. rewrite x_pio_in by lia. set (count := Z.min (zlen buf) (B nb - off)).
      destruct (co_parts HC off count ltac:(lia) ltac:(lia) ltac:(lia)) as (l & i0 & HP & HT & Hi0 & Hl).
      rewrite HP.
      pose proof (loop_read HL fs HI l off (off + count) i0 buf 0 [] HT Hi0 Hl ltac:(lia) ltac:(lia) ltac:(lia)) as LR.
      cbv zeta in LR. destruct (pio_loop true fs buf 0 (map (conv fidx fbase) l) []) as [[[st fs'] b'] tr'].
      cbn [fst snd] in LR. destruct LR as (R1 & R2 & R3). subst st fs' b'.
      cbn [rs_ret rs_bufs rs_files Z.eqb].
      replace (off + count - off) with count by lia.
      rewrite (f_pread_clip (whole fs) (zlen buf) off) by lia. rewrite (WL _ HI). fold count.
      repeat split. rewrite zlen_f_pread by lia. rewrite (WL _ HI). unfold count. lia.
    - intros fs buf off HI Ho Hb. pose proof (zlen_nonneg buf) as Hb0.
      destruct (Z.eq_dec (zlen buf) 0) as [E|E].
      { cbv zeta. destruct (x_pio_zero false fs buf off HI Ho E) as (R1 & R2 & R3 & _).
        rewrite R1, R2, R3, E. rewrite (zlen_0_nil buf E). rewrite ztake_nil, f_pwrite_nil.
        repeat split; try apply HI. lia. }
      cbv zeta. rewrite x_pio_in by lia. set (count := Z.min (zlen buf) (B nb - off)).
      destruct (co_parts HC off count ltac:(lia) ltac:(lia) ltac:(lia)) as (l & i0 & HP & HT & Hi0 & Hl).
      rewrite HP.
      pose proof (loop_write HL buf l fs off (off + count) i0 0 [] HI HT Hi0 Hl ltac:(lia) ltac:(lia) ltac:(lia)) as LW.
      cbv zeta in LW. destruct (pio_loop false fs buf 0 (map (conv fidx fbase) l) []) as [[[st fs'] b'] tr'].
      cbn [fst snd] in LW. destruct LW as (R1 & R2 & R3 & R4). subst st b'.
      cbn [rs_ret rs_bufs rs_files Z.eqb]. repeat split; try exact R2; try apply R2.
      rewrite R4. change (f_pread buf (off + count - off) 0) with (ztake (off + count - off) buf).
      replace (off + count - off) with count by lia.
      replace (ztake count buf) with (ztake (B nb - off) buf).
      + symmetry. apply f_pwrite_inside. rewrite zlen_ztake, (WL _ HI). lia.
      + unfold count. destruct (Z.min_spec (zlen buf) (B nb - off)) as [(M1 & M2)|(M1 & M2)]; rewrite M2; [|reflexivity].
        rewrite ztake_all. unfold ztake. apply firstn_all2. unfold zlen in M1. lia.
  Qed.
End Composite.
Arguments co_layout {B L fidx fbase nb fs0 x}.
Arguments co_size {B L fidx fbase nb fs0 x}.
Arguments co_parts {B L fidx fbase nb fs0 x}.
Arguments co_parts0 {B L fidx fbase nb fs0 x}.
Arguments x_pio_in {B L fidx fbase nb fs0 x}.
Arguments x_pio_zero {B L fidx fbase nb fs0 x}.
Arguments composite_refines {B L fidx fbase nb fs0 x}.
