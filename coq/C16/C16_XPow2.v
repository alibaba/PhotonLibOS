(* C16_XPow2.v — the popcount test of common/utility.h:130 (`is_power_of_2`: x == 0 || (x & (x-1)) == 0),
   which the factories new_fixed_size_linear_file / new_stripe_file / new_aligned_file_adaptor use, implies
   x = 2^k for every 0 < x < 2^64 (and conversely). *)
From Coq Require Import ZArith List Bool Lia.
From PV Require Import Base.U64 C15.C15_Spec C16.C16_Model.
Import ListNotations.
Local Open Scope Z_scope.

Lemma land_pred_zero_pow2 u : 0 < u -> Z.land u (u - 1) = 0 -> u = 2 ^ Z.log2 u.
Proof.
  intros Hu HL. set (k := Z.log2 u).
  assert (Hk : 0 <= k) by apply Z.log2_nonneg.
  destruct (Z.log2_spec u Hu) as (L1 & L2). fold k in L1, L2.
  destruct (Z.eq_dec u (2 ^ k)) as [E|E]; [exact E|exfalso].
  assert (B1 : Z.testbit u k = true) by (apply Z.bit_log2; exact Hu).
  assert (P : 0 < 2 ^ k) by (apply Z.pow_pos_nonneg; lia).
  assert (K1 : Z.log2 (u - 1) = k).
  { apply Z.log2_unique; [exact Hk|]. replace (Z.succ k) with (k + 1) in * by lia. lia. }
  assert (B2 : Z.testbit (u - 1) k = true) by (rewrite <- K1; apply Z.bit_log2; lia).
  assert (B3 : Z.testbit (Z.land u (u - 1)) k = true) by (rewrite Z.land_spec, B1, B2; reflexivity).
  rewrite HL in B3. rewrite Z.bits_0 in B3. discriminate B3.
Qed.

Lemma is_power_of_2_pow2 u : 0 < u < W64 -> is_power_of_2 u = true -> is_pow2_64 u.
Proof.
  intros (Hu & HW) H. unfold is_power_of_2 in H.
  destruct (Z.eqb_spec u 0) as [E|_]; [lia|]. cbn [orb] in H. apply Z.eqb_eq in H.
  pose proof (land_pred_zero_pow2 u Hu H) as E.
  exists (Z.log2 u). split; [|exact E].
  split; [apply Z.log2_nonneg|].
  destruct (Z_lt_dec (Z.log2 u) 64) as [Q|Q]; [exact Q|exfalso].
  assert (2 ^ 64 <= 2 ^ Z.log2 u) by (apply Z.pow_le_mono_r; lia).
  rewrite <- E in *. rewrite W64_eq in HW. lia.
Qed.

(* the converse: the test accepts every 2^k *)
Lemma pow2_is_power_of_2 u : is_pow2_64 u -> is_power_of_2 u = true.
Proof.
  intros (k & Hk & ->). unfold is_power_of_2.
  replace (2 ^ k - 1) with (Z.ones k) by (rewrite Z.ones_equiv; lia).
  assert (E : Z.land (2 ^ k) (Z.ones k) = 0).
  { rewrite Z.land_ones by lia. apply Z.mod_same. pose proof (Z.pow_pos_nonneg 2 k ltac:(lia) ltac:(lia)). lia. }
  rewrite E. apply orb_true_r.
Qed.

