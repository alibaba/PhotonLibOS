(* C16_Lists.v — the list layer: byte-at-index view of the plain-file operations.
   [get l i] is the i-th byte, 0 outside the list: a hole of a file reads as zeros, so the
   zero-fill of f_pwrite / f_truncate needs no case of its own. *)
From Coq Require Import ZArith List Lia.
From PV Require Import C16.C16_Model.
Import ListNotations.
Local Open Scope Z_scope.

Definition get (l : list byte) (i : Z) : byte := if i <? 0 then 0 else nth (Z.to_nat i) l 0.

Lemma zlen_nonneg {T} (l : list T) : 0 <= zlen l.
Proof. unfold zlen. lia. Qed.

Lemma zlen_app {T} (a b : list T) : zlen (a ++ b) = zlen a + zlen b.
Proof. unfold zlen. rewrite app_length. lia. Qed.

Lemma zlen_nil {T} : zlen (@nil T) = 0. Proof. reflexivity. Qed.
Lemma zlen_cons {T} (x : T) l : zlen (x :: l) = 1 + zlen l.
Proof. unfold zlen. cbn [length]. lia. Qed.

Lemma zlen_zrep {T} (x : T) n : zlen (zrep x n) = Z.max 0 n.
Proof. unfold zlen, zrep. rewrite repeat_length. lia. Qed.

Lemma zlen_ztake {T} n (l : list T) : zlen (ztake n l) = Z.max 0 (Z.min n (zlen l)).
Proof. unfold zlen, ztake. rewrite firstn_length. lia. Qed.

Lemma zlen_zdrop {T} n (l : list T) : zlen (zdrop n l) = Z.max 0 (zlen l - Z.max 0 n).
Proof. unfold zlen, zdrop. rewrite skipn_length. lia. Qed.

Lemma get_neg l i : i < 0 -> get l i = 0.
Proof. intros H. unfold get. destruct (Z.ltb_spec i 0); lia. Qed.

Lemma get_beyond l i : zlen l <= i -> get l i = 0.
Proof.
  intros H. unfold get. pose proof (zlen_nonneg l). destruct (Z.ltb_spec i 0); [lia|].
  apply nth_overflow. unfold zlen in H. lia.
Qed.

Lemma get_app_l a b i : i < zlen a -> get (a ++ b) i = get a i.
Proof.
  intros H. unfold get. destruct (Z.ltb_spec i 0); [reflexivity|].
  apply app_nth1. unfold zlen in H. lia.
Qed.

Lemma get_app_r a b i : zlen a <= i -> get (a ++ b) i = get b (i - zlen a).
Proof.
  intros H. unfold get. pose proof (zlen_nonneg a).
  destruct (Z.ltb_spec i 0); [lia|]. destruct (Z.ltb_spec (i - zlen a) 0); [lia|].
  rewrite app_nth2 by (unfold zlen in H; lia). f_equal. unfold zlen. lia.
Qed.

Lemma nth_repeat_in (x d : byte) : forall n k, (k < n)%nat -> nth k (repeat x n) d = x.
Proof. induction n as [|n IH]; intros [|k] H; cbn; try lia; try reflexivity. apply IH. lia. Qed.

Lemma get_zrep x n i : 0 <= i < n -> get (zrep x n) i = x.
Proof.
  intros H. unfold get, zrep. destruct (Z.ltb_spec i 0); [lia|].
  apply nth_repeat_in. lia.
Qed.

Lemma get_zrep0 n i : get (zrep 0 n) i = 0.
Proof.
  destruct (Z_lt_dec i 0) as [N|N]; [apply get_neg; exact N|].
  destruct (Z_lt_dec i n) as [M|M]; [apply get_zrep; lia|].
  apply get_beyond. rewrite zlen_zrep. lia.
Qed.

Lemma nth_firstn_lt (d : byte) : forall n (l : list byte) k, (k < n)%nat -> nth k (firstn n l) d = nth k l d.
Proof.
  induction n as [|n IH]; intros l k H; [lia|].
  destruct l as [|a l]; [reflexivity|]. destruct k as [|k]; [reflexivity|].
  cbn [firstn nth]. apply IH. lia.
Qed.

Lemma nth_skipn_add (d : byte) : forall n (l : list byte) k, nth k (skipn n l) d = nth (n + k) l d.
Proof.
  induction n as [|n IH]; intros l k; [reflexivity|].
  destruct l as [|a l]; [destruct k; reflexivity|]. cbn [skipn Nat.add nth]. apply IH.
Qed.

Lemma get_ztake n l i : i < n -> get (ztake n l) i = get l i.
Proof.
  intros H. destruct (Z_lt_dec i 0) as [N|N]; [rewrite !get_neg by lia; reflexivity|].
  unfold get, ztake. destruct (Z.ltb_spec i 0); [lia|].
  apply nth_firstn_lt. lia.
Qed.

Lemma get_ztake_out n l i : n <= i -> 0 <= i -> get (ztake n l) i = 0.
Proof. intros H H0. apply get_beyond. rewrite zlen_ztake. lia. Qed.

Lemma get_zdrop n l i : 0 <= n -> 0 <= i -> get (zdrop n l) i = get l (n + i).
Proof.
  intros Hn Hi. unfold get, zdrop.
  destruct (Z.ltb_spec i 0); [lia|]. destruct (Z.ltb_spec (n + i) 0); [lia|].
  rewrite nth_skipn_add. f_equal. lia.
Qed.

Lemma list_ext : forall (l1 l2 : list byte),
  zlen l1 = zlen l2 -> (forall i, 0 <= i < zlen l1 -> get l1 i = get l2 i) -> l1 = l2.
Proof.
  induction l1 as [|a l1 IH]; intros [|b l2] HL HG; try reflexivity.
  { rewrite zlen_cons, zlen_nil in HL. pose proof (zlen_nonneg l2). lia. }
  { rewrite zlen_cons, zlen_nil in HL. pose proof (zlen_nonneg l1). lia. }
  rewrite !zlen_cons in HL. f_equal.
  - specialize (HG 0). rewrite zlen_cons in HG. pose proof (zlen_nonneg l1).
    specialize (HG ltac:(lia)). exact HG.
  - apply IH; [lia|]. intros i Hi. specialize (HG (i + 1)). rewrite zlen_cons in HG.
    specialize (HG ltac:(lia)). unfold get in *.
    destruct (Z.ltb_spec (i + 1) 0); [lia|]. destruct (Z.ltb_spec i 0); [lia|].
    replace (Z.to_nat (i + 1)) with (S (Z.to_nat i)) in HG by lia. exact HG.
Qed.

Lemma zlen_overwrite l pos d : 0 <= pos -> pos + zlen d <= zlen l -> zlen (overwrite l pos d) = zlen l.
Proof.
  intros Hp H. unfold overwrite. rewrite !zlen_app, zlen_ztake, zlen_zdrop.
  pose proof (zlen_nonneg d). lia.
Qed.

Lemma get_overwrite_in l pos d i : 0 <= pos <= zlen l ->
  pos <= i < pos + zlen d -> get (overwrite l pos d) i = get d (i - pos).
Proof.
  intros Hp Hi. unfold overwrite.
  rewrite get_app_r by (rewrite zlen_ztake; lia). rewrite zlen_ztake.
  replace (Z.max 0 (Z.min pos (zlen l))) with pos by lia.
  apply get_app_l. lia.
Qed.

Lemma get_overwrite_out l pos d i : 0 <= pos <= zlen l ->
  i < pos \/ pos + zlen d <= i -> get (overwrite l pos d) i = get l i.
Proof.
  intros Hp Hi. unfold overwrite. pose proof (zlen_nonneg d).
  destruct (Z_lt_dec i pos) as [A|A].
  - rewrite get_app_l by (rewrite zlen_ztake; lia). apply get_ztake. exact A.
  - rewrite get_app_r by (rewrite zlen_ztake; lia). rewrite zlen_ztake.
    replace (Z.max 0 (Z.min pos (zlen l))) with pos by lia.
    rewrite get_app_r by lia. rewrite get_zdrop by lia. f_equal. lia.
Qed.

Lemma zlen_f_pread f count off : 0 <= off -> zlen (f_pread f count off) = Z.max 0 (Z.min count (zlen f - off)).
Proof. intros H. unfold f_pread. rewrite zlen_ztake, zlen_zdrop. lia. Qed.

Lemma zlen_f_pread_in f count off : 0 <= off -> 0 <= count -> off + count <= zlen f ->
  zlen (f_pread f count off) = count.
Proof. intros Ho Hc H. rewrite zlen_f_pread by exact Ho. lia. Qed.

Lemma get_f_pread f count off i : 0 <= off -> 0 <= i < count -> get (f_pread f count off) i = get f (off + i).
Proof. intros H Hi. unfold f_pread. rewrite get_ztake by lia. apply get_zdrop; lia. Qed.

Lemma zlen_f_pwrite f data off : 0 <= off -> data <> [] ->
  zlen (f_pwrite f data off) = Z.max (zlen f) (off + zlen data).
Proof.
  intros Ho Hd. unfold f_pwrite. destruct data as [|b data]; [congruence|].
  set (d := b :: data). pose proof (zlen_nonneg d). pose proof (zlen_nonneg f).
  rewrite !zlen_app, zlen_ztake, zlen_zdrop, zlen_app, zlen_zrep. lia.
Qed.

(* a non-empty write is a memcpy into the file extended by zeros up to the offset *)
Lemma f_pwrite_overwrite f data off : data <> [] ->
  f_pwrite f data off = overwrite (f ++ zrep 0 (off - zlen f)) off data.
Proof. destruct data; [congruence|reflexivity]. Qed.

Lemma get_zero_ext (f : file) m j : get (f ++ zrep 0 m) j = get f j.
Proof.
  destruct (Z_lt_dec j (zlen f)) as [A|A]; [apply get_app_l; exact A|].
  rewrite get_app_r by lia. rewrite get_zrep0. symmetry. apply get_beyond. lia.
Qed.

Lemma get_f_pwrite_in f data off i : 0 <= off -> off <= i < off + zlen data ->
  get (f_pwrite f data off) i = get data (i - off).
Proof.
  intros Ho Hi. destruct data as [|b data]; [rewrite zlen_nil in Hi; lia|]. rewrite f_pwrite_overwrite by discriminate.
  apply get_overwrite_in; [|exact Hi]. rewrite zlen_app, zlen_zrep. pose proof (zlen_nonneg f). lia.
Qed.

Lemma get_f_pwrite_out f data off i : 0 <= off -> i < off \/ off + zlen data <= i ->
  get (f_pwrite f data off) i = get f i.
Proof.
  intros Ho Hi. destruct data as [|b data]; [reflexivity|]. rewrite f_pwrite_overwrite by discriminate.
  rewrite get_overwrite_out; [apply get_zero_ext| |exact Hi]. rewrite zlen_app, zlen_zrep. pose proof (zlen_nonneg f). lia.
Qed.

Lemma zlen_f_truncate f len : 0 <= len -> zlen (f_truncate f len) = len.
Proof. intros H. unfold f_truncate. rewrite zlen_app, zlen_ztake, zlen_zrep. pose proof (zlen_nonneg f). lia. Qed.

Lemma get_f_truncate f len i : i < len -> get (f_truncate f len) i = get f i.
Proof. intros Hi. unfold f_truncate. rewrite get_zero_ext. apply get_ztake. exact Hi. Qed.

Lemma f_pwrite_nil f off : f_pwrite f [] off = f.
Proof. reflexivity. Qed.

Lemma zlen_0_nil {T} (l : list T) : zlen l = 0 -> l = [].
Proof. destruct l; [reflexivity|]. intros H. rewrite zlen_cons in H. pose proof (zlen_nonneg l). lia. Qed.

Lemma zlen_pos_nonnil {T} (l : list T) : 0 < zlen l -> l <> [].
Proof. intros H E. subst. unfold zlen in H. cbn in H. lia. Qed.

Lemma ztake_all {T} (l : list T) : ztake (zlen l) l = l.
Proof. unfold ztake, zlen. rewrite Nat2Z.id. apply firstn_all. Qed.

Lemma ztake_nil {T} n : ztake n (@nil T) = [].
Proof. unfold ztake. apply firstn_nil. Qed.

Lemma f_pread_all f : f_pread f (zlen f) 0 = f.
Proof. apply ztake_all. Qed.

Lemma overwrite_nil l pos : overwrite l pos [] = l.
Proof.
  unfold overwrite, ztake, zdrop. rewrite zlen_nil, Z.add_0_r. cbn [app]. apply firstn_skipn.
Qed.

Lemma f_pread_clip f c o : 0 <= o -> f_pread f c o = f_pread f (Z.min c (zlen f - o)) o.
Proof.
  intros Ho. apply list_ext.
  - rewrite !zlen_f_pread by lia. lia.
  - intros i Hi. rewrite zlen_f_pread in Hi by lia. rewrite !get_f_pread by lia. reflexivity.
Qed.

Lemma f_pread_split f n1 n2 s : 0 <= s -> 0 <= n1 -> 0 <= n2 ->
  f_pread f (n1 + n2) s = f_pread f n1 s ++ f_pread f n2 (s + n1).
Proof.
  intros Hs H1 H2.
  apply list_ext.
  - rewrite zlen_app, !zlen_f_pread by lia. lia.
  - intros i Hi. rewrite zlen_f_pread in Hi by lia.
    destruct (Z_lt_dec i n1) as [A|A].
    + rewrite get_app_l by (rewrite zlen_f_pread by lia; lia). rewrite !get_f_pread by lia. reflexivity.
    + rewrite get_app_r by (rewrite zlen_f_pread by lia; lia). rewrite zlen_f_pread by lia.
      rewrite !get_f_pread by lia. f_equal. lia.
Qed.

Lemma zlen_f_pwrite_inside f d off : 0 <= off -> off + zlen d <= zlen f -> zlen (f_pwrite f d off) = zlen f.
Proof.
  intros Ho H. destruct d as [|b d]; [reflexivity|].
  rewrite zlen_f_pwrite by (try lia; discriminate). lia.
Qed.

(* a write that stays inside the file is a memcpy *)
Lemma f_pwrite_inside f d off : off + zlen d <= zlen f -> f_pwrite f d off = overwrite f off d.
Proof.
  intros H. destruct d as [|b d]; [rewrite overwrite_nil; reflexivity|].
  unfold f_pwrite, overwrite. pose proof (zlen_nonneg (b :: d)).
  replace (zrep 0 (off - zlen f)) with (@nil byte); [rewrite app_nil_r; reflexivity|].
  unfold zrep. replace (Z.to_nat (off - zlen f)) with 0%nat by lia. reflexivity.
Qed.

Lemma overwrite_split buf pos d1 d2 : 0 <= pos -> pos + zlen d1 + zlen d2 <= zlen buf ->
  overwrite (overwrite buf pos d1) (pos + zlen d1) d2 = overwrite buf pos (d1 ++ d2).
Proof.
  intros Hp H. pose proof (zlen_nonneg d1). pose proof (zlen_nonneg d2).
  assert (L1 : zlen (overwrite buf pos d1) = zlen buf) by (apply zlen_overwrite; lia).
  apply list_ext.
  - rewrite !zlen_overwrite; rewrite ?zlen_app; lia.
  - intros i Hi. rewrite zlen_overwrite in Hi by lia. rewrite L1 in Hi.
    destruct (Z_lt_dec i pos) as [A|A].
    + rewrite !get_overwrite_out; rewrite ?zlen_app; try lia; try reflexivity.
    + destruct (Z_lt_dec i (pos + zlen d1)) as [B|B].
      * rewrite get_overwrite_out by lia. rewrite get_overwrite_in by lia.
        rewrite get_overwrite_in by (rewrite ?zlen_app; lia).
        rewrite get_app_l by lia. reflexivity.
      * destruct (Z_lt_dec i (pos + zlen d1 + zlen d2)) as [C|C].
        -- rewrite get_overwrite_in by lia. rewrite get_overwrite_in by (rewrite ?zlen_app; lia).
           rewrite get_app_r by lia. f_equal. lia.
        -- rewrite !get_overwrite_out; rewrite ?zlen_app; try lia; try reflexivity.
Qed.

Lemma ztake_overwrite0 g d : ztake (zlen d) (overwrite g 0 d) = d.
Proof.
  unfold overwrite, ztake, zlen. rewrite Nat2Z.id. cbn [Z.to_nat firstn app].
  rewrite firstn_app, Nat.sub_diag, firstn_all. apply app_nil_r.
Qed.

Lemma zlen_gather segs : zlen (gather segs) = sum_len segs.
Proof.
  unfold gather, sum_len. induction segs as [|s segs IH]; [reflexivity|].
  cbn [map concat fold_right]. rewrite zlen_app, IH. reflexivity.
Qed.

Lemma sum_len_nonneg segs : 0 <= sum_len segs.
Proof. rewrite <- zlen_gather. apply zlen_nonneg. Qed.

Lemma scatter_nil bufs : scatter bufs [] = bufs.
Proof.
  induction bufs as [|b bufs IH]; [reflexivity|]. cbn [scatter length].
  rewrite firstn_nil, skipn_nil. cbn [app skipn]. rewrite IH. reflexivity.
Qed.

Lemma scatter_single b d : zlen d <= zlen b -> scatter [b] d = [overwrite b 0 d].
Proof.
  intros H. cbn [scatter]. f_equal. unfold overwrite, ztake, zdrop. cbn [Z.to_nat firstn app].
  rewrite firstn_all2 by (unfold zlen in H; lia). f_equal. f_equal. unfold zlen. lia.
Qed.
