(* C16_XZero.v — operations and sequences of EVERY length on the composites (fs/xfile.cpp).  With count = 0 the
   splitter yields no part (aligned offset) or ONE part of length 0 (C15's empty_range), which pio forwards as one
   zero-length pread/pwrite to the sub-file; nothing changes and 0 is returned (C16_XGeneric.x_pio_zero).  So
   C16_XGeneric.refines_fixed speaks of every buffer length, and the operation / sequence theorems hold for every
   segmentation including empty iovecs and all-empty elements. *)
From Coq Require Import ZArith List.
From PV Require Import C16.C16_Model C16.C16_Proofs C16.C16_XGeneric C16.C16_XOps.
Import ListNotations.
Local Open Scope Z_scope.

Definition op_ok_fixed_z (w : file) (o : op) : Prop :=
  match o with
  | OPread b off | OPwrite b off => 0 <= off < zlen w /\ zlen (sg_data b) < 2 ^ 63
  | OPreadv segs off | OPwritev segs off => 0 <= off < zlen w /\ C16_Model.sum_len segs < 2 ^ 63
  | OFstat => True
  | OFtruncate _ => True
  end.
Fixpoint ops_ok_fixed_z (w : file) (ops : list op) : Prop :=
  match ops with
  | [] => True
  | o :: rest => op_ok_fixed_z w o /\ ops_ok_fixed_z (snd (ref_op_fixed w o)) rest
  end.

Lemma x_run_ops_z x I C size : refines_fixed x I C size -> forall ops fs, I fs -> ops_ok_fixed_z (C fs) ops ->
  map observe (fst (run_ops (AdX x) fs ops)) = fst (ref_run_fixed (C fs) ops) /\
  I (snd (run_ops (AdX x) fs ops)) /\ C (snd (run_ops (AdX x) fs ops)) = snd (ref_run_fixed (C fs) ops).
Proof.
  intros HR. apply (x_run_ops x I C size HR op_ok_fixed_z ops_ok_fixed_z).
  - intros w o H. exact H.
  - intros w o rest H. exact H.
Qed.

Lemma nth_file_nat_none fs k : nth_error fs k = None -> nth_file fs (Z.of_nat k) = [].
Proof.
  intros H. unfold nth_file, get_file. destruct (Z.ltb_spec (Z.of_nat k) 0); [reflexivity|].
  rewrite Nat2Z.id, H. reflexivity.
Qed.
