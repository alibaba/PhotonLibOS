(* C16_XOps.v — operations and operation sequences on an xfile that refines a fixed-size plain file
   (C16_XGeneric.refines_fixed), through XFile::pread/pwrite and VirtualFile::piov_copy; the fixed-size linear
   file and the stripe file. *)
From Coq Require Import ZArith List Lia.
From PV Require Import Base.U64 C15.C15_Spec.
From PV Require Import C16.C16_Model C16.C16_Lists C16.C16_Proofs C16.C16_XGeneric C16.C16_XInst.
Import ListNotations.
Local Open Scope Z_scope.

(* the same operation on ONE plain file of fixed size (requests are clipped at its end) *)
Definition ref_op_fixed (w : file) (o : op) : Z * list (list byte) * file :=
  match o with
  | OPread b off => let d := f_pread w (zlen (sg_data b)) off in (zlen d, [overwrite (sg_data b) 0 d], w)
  | OPwrite b off => (Z.min (zlen (sg_data b)) (zlen w - off), [sg_data b], ref_pwrite_fixed w (sg_data b) off)
  | OPreadv segs off => let d := f_pread w (C16_Model.sum_len segs) off in (zlen d, scatter (map sg_data segs) d, w)
  | OPwritev segs off => (Z.min (C16_Model.sum_len segs) (zlen w - off), map sg_data segs, ref_pwrite_fixed w (gather segs) off)
  | OFstat => (zlen w, [], w)
  | OFtruncate _ => (-1, [], w)
  end.
(* requests of the statement: start inside the composite, non-empty, below 2^63 *)
Definition op_ok_fixed (w : file) (o : op) : Prop :=
  match o with
  | OPread b off | OPwrite b off => 0 <= off < zlen w /\ 0 < zlen (sg_data b) < 2 ^ 63
  | OPreadv segs off | OPwritev segs off => 0 <= off < zlen w /\ 0 < C16_Model.sum_len segs < 2 ^ 63
  | OFstat => True
  | OFtruncate _ => True
  end.
Fixpoint ref_run_fixed (w : file) (ops : list op) : list (Z * list (list byte)) * file :=
  match ops with
  | [] => ([], w)
  | o :: rest => let '(res, w') := ref_op_fixed w o in
                 let '(rs, final) := ref_run_fixed w' rest in (res :: rs, final)
  end.
Fixpoint ops_ok_fixed (w : file) (ops : list op) : Prop :=
  match ops with
  | [] => True
  | o :: rest => op_ok_fixed w o /\ ops_ok_fixed (snd (ref_op_fixed w o)) rest
  end.

(* every data operation starts inside the file and is shorter than 2^63 *)
Definition in_bounds (ok : file -> op -> Prop) : Prop := forall w o, ok w o ->
  match o with
  | OPread b off | OPwrite b off => 0 <= off < zlen w /\ zlen (sg_data b) < 2 ^ 63
  | OPreadv segs off | OPwritev segs off => 0 <= off < zlen w /\ C16_Model.sum_len segs < 2 ^ 63
  | _ => True
  end.

Lemma op_ok_fixed_in_bounds : in_bounds op_ok_fixed.
Proof. intros w [b off|b off|segs off|segs off| |len] H; try exact I; exact (conj (proj1 H) (proj2 (proj2 H))). Qed.

Section CompositeOps.
  Variables (x : xfile) (I : list file -> Prop) (C : list file -> file) (size : Z).
  Hypothesis HR : refines_fixed x I C size.

  (* VirtualFile::piov_copy: no element, one element (passed through), several (bounce buffer) *)
  Lemma x_piov_read fs segs off : I fs -> 0 <= off < size -> C16_Model.sum_len segs < 2 ^ 63 ->
    let r := x_piov x true fs segs off in
    let d := f_pread (C fs) (C16_Model.sum_len segs) off in
    rs_ret r = zlen d /\ rs_bufs r = scatter (map sg_data segs) d /\ rs_files r = fs.
  Proof.
    intros HI Ho Hb. cbv zeta. unfold x_piov.
    destruct segs as [|s [|s2 segs]].
    - cbn [rs_ret rs_bufs rs_files map C16_Model.sum_len fold_right]. auto.
    - assert (E : C16_Model.sum_len [s] = zlen (sg_data s)) by (cbn; lia). rewrite E in *.
      destruct (rf_read HR fs (sg_data s) off HI Ho Hb) as (R1 & R2 & R3). rewrite R1, R2, R3.
      cbn [map]. rewrite scatter_single; [auto|]. pose proof (zlen_nonneg (sg_data s)). rewrite zlen_f_pread by lia. lia.
    - set (segs' := s :: s2 :: segs) in *. set (count := C16_Model.sum_len segs') in *.
      pose proof (sum_len_nonneg segs') as CN. fold count in CN.
      assert (LG : zlen (zrep GARBAGE count) = count) by (rewrite zlen_zrep; lia).
      destruct (rf_read HR fs (zrep GARBAGE count) off HI Ho ltac:(lia)) as (R1 & R2 & R3). rewrite LG in *.
      set (d := f_pread (C fs) count off) in *.
      rewrite R1. destruct (Z.leb_spec (zlen d) 0) as [Q|Q].
      + assert (D0 : d = []) by (apply zlen_0_nil; pose proof (zlen_nonneg d); lia).
        cbn [rs_ret rs_bufs rs_files]. rewrite R3, D0. rewrite scatter_nil. auto.
      + cbn [rs_ret rs_bufs rs_files]. rewrite R2, R3. cbn [hd]. rewrite ztake_overwrite0. auto.
  Qed.

  Lemma x_piov_write fs segs off : I fs -> 0 <= off < size -> C16_Model.sum_len segs < 2 ^ 63 ->
    let r := x_piov x false fs segs off in
    rs_ret r = Z.min (C16_Model.sum_len segs) (size - off) /\ rs_bufs r = map sg_data segs /\ I (rs_files r) /\
    C (rs_files r) = f_pwrite (C fs) (ztake (size - off) (gather segs)) off.
  Proof.
    intros HI Ho Hb. cbv zeta. unfold x_piov.
    destruct segs as [|s [|s2 segs]].
    - cbn [rs_ret rs_bufs rs_files map C16_Model.sum_len fold_right].
      change (gather []) with (@nil byte). rewrite ztake_nil, f_pwrite_nil. rewrite Z.min_l by lia. auto.
    - assert (E : C16_Model.sum_len [s] = zlen (sg_data s)) by (cbn; lia). rewrite E in *.
      assert (EG : gather [s] = sg_data s) by (unfold gather; cbn; apply app_nil_r). rewrite EG.
      apply (rf_write HR); assumption.
    - set (segs' := s :: s2 :: segs) in *. pose proof (zlen_gather segs') as LG.
      destruct (rf_write HR fs (gather segs') off HI Ho ltac:(lia)) as (R1 & R2 & R3 & R4).
      cbn [rs_ret rs_bufs rs_files]. rewrite R1, R4, LG. auto.
  Qed.

  Variables (ok : file -> op -> Prop) (oks : file -> list op -> Prop).
  Hypothesis ok_in : in_bounds ok.
  Hypothesis oks_cons : forall w o rest, oks w (o :: rest) -> ok w o /\ oks (snd (ref_op_fixed w o)) rest.

  Lemma x_run_op fs o : I fs -> ok (C fs) o ->
    let r := run_op (AdX x) fs o in
    observe r = fst (ref_op_fixed (C fs) o) /\ I (rs_files r) /\ C (rs_files r) = snd (ref_op_fixed (C fs) o).
  Proof.
    intros HI Hok. apply ok_in in Hok. pose proof (rf_len HR fs HI) as SZ. cbv zeta. unfold observe, run_op.
    destruct o as [b off|b off|segs off|segs off| |len]; cbn [ref_op_fixed fst snd];
      unfold ref_pwrite_fixed; try rewrite SZ in *.
    - destruct Hok as (Ho & Hb).
      destruct (rf_read HR fs (sg_data b) off HI Ho Hb) as (R1 & R2 & R3). rewrite R1, R2, R3. auto.
    - destruct Hok as (Ho & Hb).
      destruct (rf_write HR fs (sg_data b) off HI Ho Hb) as (R1 & R2 & R3 & R4). rewrite R1, R2, R4. auto.
    - destruct Hok as (Ho & Hb).
      destruct (x_piov_read fs segs off HI Ho Hb) as (R1 & R2 & R3). rewrite R1, R2, R3. auto.
    - destruct Hok as (Ho & Hb).
      destruct (x_piov_write fs segs off HI Ho Hb) as (R1 & R2 & R3 & R4). rewrite R1, R2, R4. auto.
    - cbn [rs_ret rs_bufs rs_files]. rewrite (rf_size HR). auto.
    - cbn [rs_ret rs_bufs rs_files]. auto.
  Qed.

  Lemma x_run_ops : forall ops fs, I fs -> oks (C fs) ops ->
    map observe (fst (run_ops (AdX x) fs ops)) = fst (ref_run_fixed (C fs) ops) /\
    I (snd (run_ops (AdX x) fs ops)) /\ C (snd (run_ops (AdX x) fs ops)) = snd (ref_run_fixed (C fs) ops).
  Proof.
    induction ops as [|o rest IH]; intros fs HI Hok.
    - cbn. auto.
    - apply oks_cons in Hok. destruct Hok as (H1 & H2).
      destruct (x_run_op fs o HI H1) as (R1 & R2 & R3). cbv zeta in *.
      cbn [run_ops ref_run_fixed].
      destruct (ref_op_fixed (C fs) o) as [res w'] eqn:ER. cbn [fst snd] in *.
      rewrite <- R3 in H2. specialize (IH _ R2 H2). rewrite R3 in IH.
      destruct (run_ops (AdX x) (rs_files (run_op (AdX x) fs o)) rest) as [rs final].
      destruct (ref_run_fixed w' rest) as [rrs rfinal]. cbn [fst snd map] in *.
      destruct IH as (I1 & I2 & I3). rewrite R1, I1. auto.
  Qed.
End CompositeOps.

Definition equal_files (u : Z) (fs0 : list file) : Prop :=
  0 < zlen fs0 /\ forall i, 0 <= i < zlen fs0 -> zlen (nth_file fs0 i) = u.

Lemma fixed_refines u fs0 x : 0 < u -> equal_files u fs0 -> zlen fs0 * u < 2 ^ 63 -> fixed_x u fs0 x ->
  refines_fixed x (Inv fs0) (fixed_content u fs0) (zlen fs0 * u).
Proof. intros Hu (Hn & Hlen) Hbig Hx. exact (composite_refines (fixed_composite u fs0 Hu Hn Hlen Hbig x Hx)). Qed.

Lemma stripe_refines_fixed S m fs0 : is_pow2_64 S -> 0 < m -> equal_files (m * S) fs0 -> m * zlen fs0 * S < 2 ^ 63 ->
  refines_fixed (stripe_x S m fs0) (Inv fs0) (stripe_content S m fs0) (m * zlen fs0 * S).
Proof. intros HS Hm (Hn & Hlen) Hbig. exact (composite_refines (stripe_composite S m fs0 HS Hm Hn Hlen Hbig)). Qed.

Lemma linear_refines_l u fs0 x fs buf off :
  0 < u -> equal_files u fs0 -> zlen fs0 * u < 2 ^ 63 -> fixed_x u fs0 x ->
  Inv fs0 fs -> 0 <= off < zlen fs0 * u -> 0 < zlen buf < 2 ^ 63 ->
  let whole := fixed_content u fs0 fs in
  (let r := x_pio x true fs buf off in
   let d := f_pread whole (zlen buf) off in
   rs_ret r = zlen d /\ rs_bufs r = [overwrite buf 0 d] /\ rs_files r = fs) /\
  (let r := x_pio x false fs buf off in
   rs_ret r = Z.min (zlen buf) (zlen fs0 * u - off) /\ rs_bufs r = [buf] /\ Inv fs0 (rs_files r) /\
   fixed_content u fs0 (rs_files r) = f_pwrite whole (ztake (zlen fs0 * u - off) buf) off).
Proof.
  intros Hu HE Hbig Hx HI Ho Hb. pose proof (fixed_refines u fs0 x Hu HE Hbig Hx) as R.
  split; [apply (rf_read R)|apply (rf_write R)]; (assumption || lia).
Qed.

Lemma stripe_refines_l S m fs0 fs buf off :
  is_pow2_64 S -> 0 < m -> equal_files (m * S) fs0 -> m * zlen fs0 * S < 2 ^ 63 ->
  Inv fs0 fs -> 0 <= off < m * zlen fs0 * S -> 0 < zlen buf < 2 ^ 63 ->
  let whole := stripe_content S m fs0 fs in
  (let r := x_pio (stripe_x S m fs0) true fs buf off in
   let d := f_pread whole (zlen buf) off in
   rs_ret r = zlen d /\ rs_bufs r = [overwrite buf 0 d] /\ rs_files r = fs) /\
  (let r := x_pio (stripe_x S m fs0) false fs buf off in
   rs_ret r = Z.min (zlen buf) (m * zlen fs0 * S - off) /\ rs_bufs r = [buf] /\ Inv fs0 (rs_files r) /\
   stripe_content S m fs0 (rs_files r) = f_pwrite whole (ztake (m * zlen fs0 * S - off) buf) off).
Proof.
  intros HS Hm HE Hbig HI Ho Hb. pose proof (stripe_refines_fixed S m fs0 HS Hm HE Hbig) as R.
  split; [apply (rf_read R)|apply (rf_write R)]; (assumption || lia).
Qed.

Lemma linear_ops_refine_l u fs0 x ops fs :
  0 < u -> equal_files u fs0 -> zlen fs0 * u < 2 ^ 63 -> fixed_x u fs0 x ->
  Inv fs0 fs -> ops_ok_fixed (fixed_content u fs0 fs) ops ->
  map observe (fst (run_ops (AdX x) fs ops)) = fst (ref_run_fixed (fixed_content u fs0 fs) ops) /\
  Inv fs0 (snd (run_ops (AdX x) fs ops)) /\
  fixed_content u fs0 (snd (run_ops (AdX x) fs ops)) = snd (ref_run_fixed (fixed_content u fs0 fs) ops).
Proof.
  intros Hu HE Hbig Hx. apply (x_run_ops _ _ _ _ (fixed_refines u fs0 x Hu HE Hbig Hx) op_ok_fixed ops_ok_fixed).
  - exact op_ok_fixed_in_bounds.
  - intros w o rest H. exact H.
Qed.

Lemma stripe_ops_refine_l S m fs0 ops fs :
  is_pow2_64 S -> 0 < m -> equal_files (m * S) fs0 -> m * zlen fs0 * S < 2 ^ 63 ->
  Inv fs0 fs -> ops_ok_fixed (stripe_content S m fs0 fs) ops ->
  map observe (fst (run_ops (AdX (stripe_x S m fs0)) fs ops)) = fst (ref_run_fixed (stripe_content S m fs0 fs) ops) /\
  Inv fs0 (snd (run_ops (AdX (stripe_x S m fs0)) fs ops)) /\
  stripe_content S m fs0 (snd (run_ops (AdX (stripe_x S m fs0)) fs ops)) =
    snd (ref_run_fixed (stripe_content S m fs0 fs) ops).
Proof.
  intros HS Hm HE Hbig. apply (x_run_ops _ _ _ _ (stripe_refines_fixed S m fs0 HS Hm HE Hbig) op_ok_fixed ops_ok_fixed).
  - exact op_ok_fixed_in_bounds.
  - intros w o rest H. exact H.
Qed.

Lemma new_fixed_is u fs0 : 0 < u -> 0 < zlen fs0 -> zlen fs0 * u < 2 ^ 63 ->
  fst (new_fixed u fs0) = Some (mkX (if is_power_of_2 u then XFixedP2 u else XFixed u) (zlen fs0) (zlen fs0 * u)).
Proof.
  intros Hu Hn Hb. unfold new_fixed. destruct (Z.eqb_spec (zlen fs0) 0); [lia|]. destruct (Z.eqb_spec u 0); [lia|].
  cbn [orb fst]. assert (W : W64 = 2 * 2 ^ 63) by reflexivity. rewrite wrap_small by nia. reflexivity.
Qed.

(* hypotheses are satisfiable; a concrete composite computed through the theorems' vocabulary *)
Lemma composites_ex :
  let fs0 := [[1; 2; 3; 4]; [5; 6; 7; 8]; [9; 10; 11; 12]] in
  equal_files 4 fs0 /\ is_pow2_64 4 /\ fixed_x 4 fs0 (mkX (XFixedP2 4) 3 12) /\ fixed_x 4 fs0 (mkX (XFixed 4) 3 12) /\
  fixed_content 4 fs0 fs0 = [1; 2; 3; 4; 5; 6; 7; 8; 9; 10; 11; 12] /\
  stripe_content 2 2 fs0 fs0 = [1; 2; 5; 6; 9; 10; 3; 4; 7; 8; 11; 12] /\ equal_files (2 * 2) fs0 /\
  ops_ok_fixed (fixed_content 4 fs0 fs0) [OPwrite (mkSeg 0 [21; 22; 23]) 10; OPreadv [mkSeg 0 [0; 0]; mkSeg 0 [0; 0; 0]] 3; OFstat].
Proof.
  cbv zeta. assert (P4 : is_pow2_64 4) by (exists 2; split; [lia|reflexivity]).
  assert (E : forall u, u = 4 -> equal_files u [[1; 2; 3; 4]; [5; 6; 7; 8]; [9; 10; 11; 12]]).
  { intros u ->. split; [reflexivity|]. intros i Hi. change (zlen [[1; 2; 3; 4]; [5; 6; 7; 8]; [9; 10; 11; 12]]) with 3 in Hi.
    assert (i = 0 \/ i = 1 \/ i = 2) as [->|[->| ->]] by lia; reflexivity. }
  repeat split; try (apply E; reflexivity); try exact P4; try (left; reflexivity); try (right; split; [exact P4|reflexivity]);
    try reflexivity; cbn; lia.
Qed.
