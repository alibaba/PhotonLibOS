(* C16_AlignedProofs2.v — the model's al_rmw / al_pread / al_preadv in terms of the lemmas of
   C16_AlignedProofs.v; the per-operation refinement theorems of the aligned adaptor. *)
From Coq Require Import ZArith List Bool Lia.
From PV Require Import Base.U64 C15.C15_Model C15.C15_Proofs.
From PV Require Import C16.C16_Model C16.C16_Lists C16.C16_AlignedProofs.
Import ListNotations.
Local Open Scope Z_scope.

Lemma triple_if {X Y Z : Type} (c : bool) (a a' : X) (b b' : Y) (t t' : Z) :
  (if c then (a, b, t) else (a', b', t')) = (if c then a else a', if c then b else b', if c then t else t').
Proof. destruct c; reflexivity. Qed.
Lemma if_and {X : Type} (a b : bool) (x y : X) :
  (if a then (if b then x else y) else y) = if a && b then x else y.
Proof. destruct a, b; reflexivity. Qed.
Lemma if_same {X : Type} (c : bool) (x : X) : (if c then x else x) = x.
Proof. destruct c; reflexivity. Qed.
Lemma max_gtb a b : (if a >? b then a else b) = Z.max a b.
Proof. destruct (Z.gtb_spec a b); lia. Qed.

(* the bounce buffer can always be allocated (since the repair of finding F30) *)
Lemma alloc_ok A am : alloc_fails A am = false.
Proof.
  unfold alloc_fails, alloc_alignment. destruct am; [|reflexivity]. cbn [andb].
  destruct (Z.ltb_spec A 8); apply Z.ltb_ge; lia.
Qed.

Lemma ev_aligned_direct A am k0 off count mem :
  off mod A = 0 -> count mod A = 0 -> (am = true -> mem = true) ->
  ev_aligned A am (mkEv 0 k0 off count mem).
Proof. intros H1 H2 H3 _. cbn [ev_off ev_len ev_mem]. auto. Qed.

Lemma Forall_meta A am e : is_io e = false -> Forall (ev_aligned A am) [e].
Proof. intros H. constructor; [|constructor]. intros C. congruence. Qed.

Section RMW2.
  Variables (A : Z) (am : bool).
  Variables (f : file) (data : list byte) (off : Z) (r : rs) (AB AE : Z).
  Hypothesis HA : 0 < A.
  Hypothesis Hcount : 0 < zlen data.
  Hypothesis SF : split_facts A off (zlen data) r AB AE.
  Hypothesis Hguard : AE < W64.
  Variables (vec : bool) (bufs : list (list byte)).

  Lemma al_rmw_spec :
    let res := al_rmw A am vec f data bufs off r in
    rs_ret res = zlen data /\ rs_bufs res = bufs /\ rs_files res = [f_pwrite f data off] /\
    Forall (ev_aligned A am) (rs_trace res).
  Proof.
    pose proof SF as SF'.
    destruct SF' as [hAB hABlt hAE hbrem herem _ _ habo haeo halen hblocks _ hmodAB hmodAE].
    pose proof (rmw_file A f data off r AB AE HA Hcount SF) as RF. cbv zeta in RF.
    destruct (bufs_len A f data off r AB AE HA Hcount SF) as (_ & _ & L3).
    pose proof (short_read_ok A f AB ltac:(lia)) as SR1. cbv zeta in SR1.
    pose proof (short_read_ok A f (AE - A) ltac:(lia)) as SR2. cbv zeta in SR2.
    cbv zeta. unfold al_rmw, f_size. rewrite alloc_ok, habo, haeo, halen. cbv zeta.
    rewrite max_gtb. rewrite triple_if. cbv iota beta.
    rewrite SR1, if_same.
    change (if 0 <? r_brem r then if zlen (f_pread f A AB) <? A then _ else _ else zrep GARBAGE (AE - AB))
      with (buf1 A f r AB AE).
    rewrite if_and, triple_if. cbv iota beta.
    rewrite (Z.add_comm (zlen (f_pread f A (AE - A))) (AE - A)), SR2, if_same.
    change (if negb (sub_nonempty (r_small r)) && (0 <? r_erem r) && (zlen f - (AE - A) >? r_erem r)
            then overwrite (buf1 A f r AB AE) (AE - A - AB) (f_pread f A (AE - A)) else buf1 A f r AB AE)
      with (buf2 A f r AB AE).
    change (overwrite (buf2 A f r AB AE) (r_brem r) data) with (buf3 A f data r AB AE).
    rewrite L3. replace (AB + (AE - AB)) with AE by lia. rewrite (wrap_small AE) by lia.
    destruct (Z.ltb_spec AE off) as [C|_]; [lia|].
    assert (M1 : A mod A = 0) by (apply Z_mod_same_full).
    assert (M2 : (AE - A) mod A = 0).
    { replace (AE - A) with (AE + (-1) * A) by lia. rewrite Z_mod_plus_full. exact hmodAE. }
    assert (M3 : (AE - AB) mod A = 0).
    { rewrite Zminus_mod, hmodAE, hmodAB. reflexivity. }
    clear hmodAE habo haeo halen SR1 SR2 L3.
    match goal with |- context [?t ++ [mkEv 0 (if vec then KPwritev else KPwrite) AB (AE - AB) true]] =>
      set (tr3 := t ++ [mkEv 0 (if vec then KPwritev else KPwrite) AB (AE - AB) true]) end.
    assert (T3 : Forall (ev_aligned A am) tr3).
    { unfold tr3. destruct (0 <? r_brem r), (negb _ && _ && _); cbn [app];
        repeat (apply Forall_cons; [apply ev_aligned_direct; auto using Zmod_0_l|]); apply Forall_nil. }
    assert (T4 : Forall (ev_aligned A am) (tr3 ++ [mkEv 0 KFtruncate (Z.max (off + zlen data) (zlen f)) 0 true])).
    { apply Forall_app. split; [exact T3|]. apply Forall_meta. reflexivity. }
    clearbody tr3.
    destruct (Z.max (off + zlen data) (zlen f) <? AE) eqn:CT;
      apply Z.ltb_lt in CT || apply Z.ltb_ge in CT.
    - destruct vec; cbv iota beta; cbn [rs_ret rs_bufs rs_files rs_trace].
      + repeat split; [| rewrite RF; reflexivity | exact T4].
        clear - CT hAB hAE Hcount. destruct (Z.gtb_spec (Z.max (off + zlen data) (zlen f) - off) (zlen data)); lia.
      + repeat split; [| rewrite RF; reflexivity | exact T4].
        clear - CT hAB hAE Hcount. rewrite Z.geb_leb. destruct (Z.leb_spec (zlen data) (AE - off)); lia.
    - destruct vec; cbv iota beta; cbn [rs_ret rs_bufs rs_files rs_trace].
      + repeat split; [| rewrite RF; reflexivity | exact T3].
        clear - CT hAB hAE Hcount. destruct (Z.gtb_spec (AE - off) (zlen data)); lia.
      + repeat split; [| rewrite RF; reflexivity | exact T3].
        clear - CT hAB hAE Hcount. rewrite Z.geb_leb. destruct (Z.leb_spec (zlen data) (AE - off)); lia.
  Qed.
End RMW2.

Section ReadCore.
  Variables (A : Z) (am : bool) (f : file) (off count : Z) (r : rs) (AB AE : Z).
  Hypothesis HA : 0 < A.
  Hypothesis Hcount : 0 < count.
  Hypothesis SF : split_facts A off count r AB AE.

  (* the aligned read is aligned; when the request starts at or before EOF it returns at least the bytes in
     front of the request, and the requested bytes are found behind them in any prefix of the bounce buffer
     that is long enough *)
  Lemma bounce_read kd :
    let d := f_pread f (alen A r) (abo A r) in
    let bounce := overwrite (zrep GARBAGE (alen A r)) 0 d in
    let actual := if zlen d - r_brem r >? count then count else zlen d - r_brem r in
    Forall (ev_aligned A am) [mkEv 0 kd (abo A r) (alen A r) true] /\ ztake (alen A r) bounce = bounce /\
    (off <= zlen f -> (zlen d <? r_brem r) = false /\ actual = zlen (f_pread f count off) /\
       forall m, off - AB + count <= m ->
         ztake actual (zdrop (r_brem r) (ztake m bounce)) = f_pread f count off).
  Proof.
    destruct SF as [hAB hABlt hAE hbrem herem _ _ habo _ halen hblocks _ hmodAB hmodAE].
    rewrite habo, halen, hbrem. cbv zeta.
    pose proof (zlen_f_pread f (AE - AB) AB ltac:(lia)) as LD.
    assert (LG : zlen (zrep GARBAGE (AE - AB)) = AE - AB) by (rewrite zlen_zrep; lia).
    assert (LB : zlen (overwrite (zrep GARBAGE (AE - AB)) 0 (f_pread f (AE - AB) AB)) = AE - AB)
      by (rewrite zlen_overwrite; lia).
    split; [|split; [rewrite <- LB at 1; apply ztake_all|]].
    { constructor; [|constructor]. apply ev_aligned_direct; [exact hmodAB| |reflexivity].
      rewrite Zminus_mod, hmodAE, hmodAB. reflexivity. }
    intros Heof. pose proof (zlen_f_pread f count off ltac:(lia)) as LR.
    replace (if zlen (f_pread f (AE - AB) AB) - (off - AB) >? count then count
             else zlen (f_pread f (AE - AB) AB) - (off - AB)) with (zlen (f_pread f count off))
      by (rewrite LD, LR; destruct (Z.gtb_spec (Z.max 0 (Z.min (AE - AB) (zlen f - AB)) - (off - AB)) count); lia).
    split; [apply Z.ltb_ge; lia|]. split; [reflexivity|]. intros m Hm.
    assert (LA : zlen (f_pread f count off) <= count /\ off + zlen (f_pread f count off) <= zlen f /\
                 0 <= zlen (f_pread f count off)) by (clear - LR Heof Hcount; lia).
    assert (LD' : off - AB + zlen (f_pread f count off) <= zlen (f_pread f (AE - AB) AB) /\
                  zlen (f_pread f (AE - AB) AB) <= AE - AB)
      by (clear - LD LR Heof Hcount hAB hAE hblocks HA; lia).
    clear LD LR.
    apply list_ext.
    - rewrite zlen_ztake, zlen_zdrop, zlen_ztake, LB. clear - LA LD' Hm hAB hAE Hcount. lia.
    - intros i Hi. rewrite zlen_ztake, zlen_zdrop, zlen_ztake, LB in Hi.
      assert (Hi' : 0 <= i < zlen (f_pread f count off)) by (clear - Hi LA LD' Hm hAB hAE Hcount; lia).
      clear Hi.
      rewrite get_ztake by (clear - Hi'; lia).
      rewrite get_zdrop by (clear - Hi' hAB; lia).
      rewrite get_ztake by (clear - Hi' LA Hm; lia).
      rewrite get_overwrite_in by (clear - Hi' LA LD' LG hAB; lia).
      rewrite get_f_pread by (clear - Hi' LA LD' hAB; lia).
      rewrite (get_f_pread f count off) by (clear - Hi' LA hAB; lia). f_equal. lia.
  Qed.

  Lemma direct_aligned (kd : opk) (mem : bool) : is_aligned r && (negb am || mem) = true ->
    Forall (ev_aligned A am) [mkEv 0 kd off count mem].
  Proof.
    destruct SF as [hAB hABlt hAE hbrem herem herem0 herem1 habo haeo halen hblocks hsmall hmodAB hmodAE].
    intros D. apply andb_true_iff in D. destruct D as (D1 & D2).
    unfold is_aligned in D1. apply andb_true_iff in D1. destruct D1 as (H1 & H2).
    apply Z.eqb_eq in H1, H2. specialize (herem0 H2). assert (E : off = AB) by lia.
    constructor; [|constructor]. apply ev_aligned_direct.
    - rewrite E. exact hmodAB.
    - replace count with (AE - AB) by lia. rewrite Zminus_mod, hmodAE, hmodAB. reflexivity.
    - intros ->. exact D2.
  Qed.
End ReadCore.

Definition aligned_guard (k off count : Z) : Prop :=
  0 <= k < 64 /\ 0 <= off /\ off + count + 2 ^ k <= 2 ^ 63.

Lemma guard_facts k off count : aligned_guard k off count -> 0 < count ->
  let A := 2 ^ k in
  0 < A /\ split_facts A off count (p2split A off count) (off / A * A) ((off + count + A - 1) / A * A) /\
  (off + count + A - 1) / A * A < W64.
Proof.
  intros (Hk & Ho & Hg) Hc A. pose proof (pow2_lt_W64 k Hk) as HA. fold A in HA.
  assert (W : W64 = 2 * 2 ^ 63) by reflexivity.
  assert (SF : split_facts A off count (p2split A off count) (off / A * A) ((off + count + A - 1) / A * A)).
  { apply p2split_facts; fold A; lia. }
  split; [lia|]. split; [exact SF|]. destruct SF. lia.
Qed.

(* pwrite (vec = false: data = the buffer, bufs = [data], mem = ptr_aligned) and pwritev (vec = true: data =
   gather segs, bufs = the segments, mem = iov_align_check) are this one function: count, resulting content AND
   size equal the plain file's, every underlay request is aligned *)
Theorem al_write_spec k am (vec : bool) f data bufs mem off count : count = zlen data -> aligned_guard k off count ->
  let res :=
    if count =? 0 then mkRes 0 0 bufs [f] [] else
    if is_aligned (p2split (2 ^ k) off count) && (negb am || mem)
    then mkRes count 0 bufs [f_pwrite f data off] [mkEv 0 (if vec then KPwritev else KPwrite) off count mem]
    else al_rmw (2 ^ k) am vec f data bufs off (p2split (2 ^ k) off count) in
  rs_ret res = count /\ rs_bufs res = bufs /\ rs_files res = [f_pwrite f data off] /\
  Forall (ev_aligned (2 ^ k) am) (rs_trace res).
Proof.
  intros -> G. cbv zeta.
  destruct (Z.eqb_spec (zlen data) 0) as [E|E].
  { cbn [rs_ret rs_bufs rs_files rs_trace]. rewrite (zlen_0_nil _ E). repeat split. constructor. }
  pose proof (zlen_nonneg data) as Hn. assert (Hpos : 0 < zlen data) by lia.
  destruct (guard_facts k off _ G Hpos) as (HA & SF & HW).
  destruct (is_aligned _ && _) eqn:D.
  - cbn [rs_ret rs_bufs rs_files rs_trace]. repeat split. eapply direct_aligned; eassumption.
  - exact (al_rmw_spec _ am _ _ _ _ _ _ HA Hpos SF HW vec bufs).
Qed.

Theorem al_pread_spec k am f b off : aligned_guard k off (zlen (sg_data b)) ->
  let res := al_pread (2 ^ k) am f b off in
  Forall (ev_aligned (2 ^ k) am) (rs_trace res) /\
  (off <= zlen f ->
   let d := f_pread f (zlen (sg_data b)) off in
   rs_ret res = zlen d /\ rs_bufs res = [overwrite (sg_data b) 0 d] /\ rs_files res = [f]).
Proof.
  intros G. cbv zeta. unfold al_pread.
  destruct (Z.eqb_spec (zlen (sg_data b)) 0) as [E|E].
  { cbn [rs_ret rs_bufs rs_files rs_trace]. rewrite E. change (f_pread f 0 off) with (@nil byte).
    rewrite overwrite_nil. repeat split. constructor. }
  pose proof (zlen_nonneg (sg_data b)) as Hn. assert (Hpos : 0 < zlen (sg_data b)) by lia.
  destruct (guard_facts k off _ G Hpos) as (HA & SF & HW).
  destruct (is_aligned _ && _) eqn:D.
  - cbn [rs_ret rs_bufs rs_files rs_trace]. repeat split. eapply direct_aligned; eassumption.
  - rewrite alloc_ok. destruct (bounce_read _ am f _ _ _ _ _ HA Hpos SF KPread) as (T & LB & R). cbv zeta in T, LB, R.
    split; [destruct (_ <? _); exact T|]. intros Heof. destruct (R Heof) as (R1 & R2 & RD).
    rewrite R1. cbn [rs_ret rs_bufs rs_files]. repeat split; [exact R2|].
    specialize (RD (alen (2 ^ k) (p2split (2 ^ k) off (zlen (sg_data b))))). rewrite LB in RD.
    rewrite RD; [reflexivity|]. clear - SF. destruct SF. lia.
Qed.

Theorem al_preadv_spec k am f segs off : aligned_guard k off (sum_len segs) ->
  let res := al_preadv (2 ^ k) am f segs off in
  Forall (ev_aligned (2 ^ k) am) (rs_trace res) /\
  (off <= zlen f ->
   let d := f_pread f (sum_len segs) off in
   rs_ret res = zlen d /\ rs_bufs res = scatter (map sg_data segs) d /\ rs_files res = [f]).
Proof.
  intros G. cbv zeta. unfold al_preadv.
  destruct (Z.eqb_spec (sum_len segs) 0) as [E|E].
  { cbn [rs_ret rs_bufs rs_files rs_trace]. rewrite E. change (f_pread f 0 off) with (@nil byte).
    rewrite scatter_nil. repeat split. constructor. }
  pose proof (sum_len_nonneg segs) as Hn. assert (Hpos : 0 < sum_len segs) by lia.
  destruct (guard_facts k off _ G Hpos) as (HA & SF & HW).
  destruct (is_aligned _ && _) eqn:D.
  - cbn [rs_ret rs_bufs rs_files rs_trace]. repeat split. eapply direct_aligned; eassumption.
  - rewrite alloc_ok. destruct (bounce_read _ am f _ _ _ _ _ HA Hpos SF KPreadv) as (T & LB & R). cbv zeta in T, LB, R.
    split; [destruct (_ <? _); exact T|]. intros Heof. destruct (R Heof) as (R1 & R2 & RD).
    rewrite R1. cbn [rs_ret rs_bufs rs_files]. repeat split; [exact R2|].
    rewrite RD; [reflexivity|].
    (* extract_back drops the padding behind the request *)
    destruct SF as [hAB hABlt hAE hbrem herem herem0 herem1 habo haeo halen hblocks hsmall hmodAB hmodAE].
    rewrite halen. clear - hAB hAE hbrem herem herem0 herem1.
    destruct (Z.eqb_spec (r_erem (p2split (2 ^ k) off (sum_len segs))) 0) as [Z0|Z0].
    + specialize (herem0 Z0). lia.
    + specialize (herem1 ltac:(lia)). lia.
Qed.
