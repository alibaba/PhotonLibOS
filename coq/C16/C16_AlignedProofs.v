(* C16_AlignedProofs.v — AlignedFileAdaptor: the power-of-two split of a request in / and mod (split_facts), and
   what the read-modify-write leaves in the bounce buffer and in the file (rmw_file). *)
From Coq Require Import ZArith List Bool Lia.
From PV Require Import Base.U64 C15.C15_Model C15.C15_Spec C15.C15_ProofsGeneric C15.C15_Proofs.
From PV Require Import C16.C16_Model C16.C16_Lists.
Import ListNotations.
Local Open Scope Z_scope.

Lemma init_rems divide L o n :
  r_brem (init divide L o n) = d_rem (divide o) /\ r_erem (init divide L o n) = d_rem (divide (wrap (o + n))).
Proof.
  unfold init. cbv zeta. destruct (wrap _ =? _); [destruct (negb _); destruct (negb _)|]; split; reflexivity.
Qed.

(* everything al_* reads from the split, for a non-empty request under the guard *)
Record split_facts (A off count : Z) (r : rs) (AB AE : Z) : Prop := {
  sf_AB : 0 <= AB <= off;
  sf_ABlt : off < AB + A;
  sf_AE : off + count <= AE < off + count + A;
  sf_brem : r_brem r = off - AB;
  sf_erem : 0 <= r_erem r < A;
  sf_erem0 : r_erem r = 0 -> AE = off + count;
  sf_erem1 : 0 < r_erem r -> AE = off + count + A - r_erem r;
  sf_abo : abo A r = AB;
  sf_aeo : aeo A r = AE;
  sf_alen : alen A r = AE - AB;
  sf_blocks : AB + A <= AE;
  sf_small : sub_nonempty (r_small r) = true -> AE = AB + A /\ 0 < r_brem r /\ 0 < r_erem r;
  sf_modAB : AB mod A = 0;
  sf_modAE : AE mod A = 0
}.

Lemma p2split_facts k off count : 0 <= k < 64 -> 0 <= off -> 0 < count ->
  off + count + 2 ^ k - 1 < W64 ->
  let A := 2 ^ k in
  let r := p2split A off count in
  split_facts A off count r (off / A * A) ((off + count + A - 1) / A * A).
Proof.
  intros Hk Ho Hc Hg A r.
  assert (HA : 0 < A < W64) by (apply pow2_lt_W64; exact Hk).
  assert (EA : A = 2 ^ k) by reflexivity. clearbody A. rewrite <- EA in Hg.
  pose proof (fixed_hyps off count A ltac:(unfold fixed_guard; lia)) as SH.
  assert (Er : r = init (divide_fixed A) (getlen_fixed A) off count)
    by (apply init_p2_fixed; exists k; split; [exact Hk|exact EA]).
  pose proof (init_abegin _ _ _ _ _ _ _ SH) as IA. pose proof (init_aend _ _ _ _ _ _ _ SH) as IE.
  rewrite <- Er in IA, IE.
  destruct (init_rems (divide_fixed A) (getlen_fixed A) off count) as (IB & IR).
  rewrite <- Er, wrap_small in IR by lia. rewrite <- Er in IB. cbn [divide_fixed d_rem] in IB, IR.
  (* C15's description of the two divisions: off = q1 * A + r1, off + count = q2 * A + r2, ae = q2 rounded up *)
  destruct (sh_db _ _ _ _ _ _ _ SH) as (D1 & D2 & _). destruct (sh_de _ _ _ _ _ _ _ SH) as (E1 & E2 & E3).
  unfold getlen_fixed in D2, E2. cbn [divide_fixed d_down d_up d_rem] in IA, IE, D1, D2, E1, E2, E3.
  rewrite wrap_small in IE, E3 by lia.
  assert (Q1 : 0 <= off / A) by (apply Z.div_pos; lia).
  set (q1 := off / A) in *. set (r1 := off mod A) in *.
  set (q2 := (off + count) / A) in *. set (r2 := (off + count) mod A) in *.
  set (ae := (off + count + A - 1) / A) in *.
  assert (AEq : ae * A = if r2 =? 0 then off + count else off + count + A - r2)
    by (rewrite E3; destruct (Z.eqb_spec r2 0); lia).
  assert (AElt : q1 < ae) by (destruct (Z.eqb_spec r2 0); nia).
  assert (Q1W : q1 <= off) by nia.
  assert (Small : sub_nonempty (r_small r) = (q1 + 1 =? ae) && negb (r1 =? 0) && negb (r2 =? 0)).
  { rewrite Er. destruct (Z.eq_dec (wrap (q1 + 1)) ae) as [W|W].
    - destruct (init_small _ _ _ _ _ _ _ SH) as (_ & S & _).
      { cbn [divide_fixed d_down d_up]. rewrite (wrap_small (off + count + A - 1)) by lia. exact W. }
      rewrite S. cbn [divide_fixed d_rem]. fold r1 r2.
      rewrite wrap_small in W by lia. rewrite W, Z.eqb_refl.
      destruct (r1 =? 0), (r2 =? 0); cbn [negb andb sub_nonempty s_len sub0]; try reflexivity.
      apply Z.ltb_lt. exact Hc.
    - destruct (init_big _ _ _ _ _ _ _ SH) as (S & _).
      { cbn [divide_fixed d_down d_up]. rewrite (wrap_small (off + count + A - 1)) by lia. exact W. }
      rewrite S. rewrite wrap_small in W by lia.
      destruct (Z.eqb_spec (q1 + 1) ae); [contradiction|]. reflexivity. }
  clearbody q1 r1 q2 r2 ae.
  assert (MP : forall i, 0 <= i * A < W64 -> mult_p2 A i = i * A).
  { intros i Hi. rewrite EA, mult_p2_fixed by exact Hk. unfold mult_fixed. rewrite <- EA. apply wrap_small. exact Hi. }
  assert (P1 : 0 <= q1 * A) by nia.
  assert (BL : q1 * A + A <= ae * A) by nia.
  assert (AEb : off + count <= ae * A < off + count + A) by (destruct (Z.eqb_spec r2 0); lia).
  constructor; try (rewrite ?IB, ?IR; lia); try apply Z_mod_mult.
  - rewrite IR. intros E. destruct (Z.eqb_spec r2 0); lia.
  - rewrite IR. intros E. destruct (Z.eqb_spec r2 0); lia.
  - unfold abo. rewrite IA. apply MP. lia.
  - unfold aeo. rewrite IE. apply MP. lia.
  - unfold alen. rewrite IA, IE, wrap_small by nia. rewrite MP; lia.
  - rewrite Small, IB, IR. intros S.
    apply andb_true_iff in S. destruct S as (S & S3). apply andb_true_iff in S. destruct S as (S1 & S2).
    apply Z.eqb_eq in S1. apply negb_true_iff in S2, S3. apply Z.eqb_neq in S2, S3. nia.
Qed.

Definition is_io (e : event) : bool :=
  match ev_op e with KPread | KPwrite | KPreadv | KPwritev => true | _ => false end.
(* an I/O request is aligned: offset and length are multiples of A and, when memory
   alignment was requested, so is every buffer *)
Definition ev_aligned (A : Z) (am : bool) (e : event) : Prop :=
  is_io e = true -> ev_off e mod A = 0 /\ ev_len e mod A = 0 /\ (am = true -> ev_mem e = true).

(* the underlay reads short only at EOF, so al_rmw's two short-read tests never fire *)
Lemma short_read_ok A (f : file) o : 0 <= o ->
  let ret := zlen (f_pread f A o) in (o + ret <? zlen f) && (ret <? A) = false.
Proof.
  intros Ho ret. unfold ret. rewrite zlen_f_pread by exact Ho.
  destruct (Z.ltb_spec (Z.max 0 (Z.min A (zlen f - o))) A); [|apply andb_false_r].
  destruct (Z.ltb_spec (o + Z.max 0 (Z.min A (zlen f - o))) (zlen f)); [lia|reflexivity].
Qed.

Section RMW.
  Variables (A : Z) (f : file) (data : list byte) (off : Z) (r : rs) (AB AE : Z).
  Hypothesis HA : 0 < A.
  Hypothesis Hcount : 0 < zlen data.
  Hypothesis SF : split_facts A off (zlen data) r AB AE.

  (* only the linear facts: every implication in the context doubles the cases lia goes through *)
  Ltac sfd := pose proof SF as SF';
    destruct SF' as [hAB hABlt hAE hbrem herem _ _ _ _ _ hblocks _ _ _].

  Local Notation count := (zlen data).
  Local Notation n := (zlen f).
  Local Notation suppose := (Z.max (off + zlen data) (zlen f)).

  (* the first block after the patch: the file's bytes (zeros past EOF) *)
  Definition buf1 : list byte :=
    if 0 <? r_brem r then
      let d := f_pread f A AB in
      if zlen d <? A then overwrite (overwrite (zrep GARBAGE (AE - AB)) 0 d) (zlen d) (zrep (0 : byte) (A - zlen d))
      else overwrite (zrep GARBAGE (AE - AB)) 0 d
    else zrep GARBAGE (AE - AB).

  Lemma buf1_parts :
    let g := zrep GARBAGE (AE - AB) in let d := f_pread f A AB in
    zlen g = AE - AB /\ zlen d = Z.max 0 (Z.min A (n - AB)) /\
    zlen (overwrite g 0 d) = AE - AB /\ zlen (zrep (0 : byte) (A - zlen d)) = Z.max 0 (A - zlen d).
  Proof.
    sfd. intros g d.
    assert (L0 : zlen g = AE - AB) by (unfold g; rewrite zlen_zrep; lia).
    assert (LD : zlen d = Z.max 0 (Z.min A (n - AB))) by (unfold d; rewrite zlen_f_pread by lia; reflexivity).
    split; [exact L0|]. split; [exact LD|]. split; [|apply zlen_zrep].
    rewrite zlen_overwrite; lia.
  Qed.

  Lemma buf1_get i : 0 < r_brem r -> 0 <= i < A -> get buf1 i = get f (AB + i).
  Proof.
    sfd. destruct buf1_parts as (L0 & LD & L1 & LZ).
    intros Hb Hi. unfold buf1. destruct (Z.ltb_spec 0 (r_brem r)); [|lia].
    pose proof (zlen_nonneg f) as Hn.
    set (d := f_pread f A AB) in *. set (g := zrep GARBAGE (AE - AB)) in *.
    destruct (Z.ltb_spec (zlen d) A).
    - destruct (Z_lt_dec i (zlen d)) as [I|I].
      + rewrite get_overwrite_out by lia.
        rewrite get_overwrite_in by lia.
        unfold d. rewrite get_f_pread by lia. f_equal. lia.
      + rewrite get_overwrite_in by lia.
        rewrite get_zrep0. symmetry. apply get_beyond. lia.
    - rewrite get_overwrite_in by lia.
      unfold d. rewrite get_f_pread by lia. f_equal. lia.
  Qed.

  (* the last block after the patch *)
  Definition tail_read : bool :=
    negb (sub_nonempty (r_small r)) && (0 <? r_erem r) && (n - (AE - A) >? r_erem r).
  Definition buf2 : list byte :=
    if tail_read then overwrite buf1 (AE - A - AB) (f_pread f A (AE - A)) else buf1.

  Definition buf3 : list byte := overwrite buf2 (r_brem r) data.

  Lemma bufs_len : zlen buf1 = AE - AB /\ zlen buf2 = AE - AB /\ zlen buf3 = AE - AB.
  Proof.
    sfd. destruct buf1_parts as (L0 & LD & L1 & LZ).
    assert (E1 : zlen buf1 = AE - AB).
    { unfold buf1. destruct (0 <? r_brem r); [|exact L0].
      destruct (Z.ltb_spec (zlen (f_pread f A AB)) A); [|exact L1]. rewrite zlen_overwrite; lia. }
    assert (E2 : zlen buf2 = AE - AB).
    { unfold buf2. destruct tail_read; [|exact E1].
      pose proof (zlen_f_pread f A (AE - A) ltac:(lia)). rewrite zlen_overwrite; lia. }
    split; [exact E1|]. split; [exact E2|]. unfold buf3. rewrite zlen_overwrite; lia.
  Qed.

  Lemma buf2_get i : 0 <= i < AE - AB -> AB + i < suppose ->
    AB + i < off \/ off + count <= AB + i -> get buf2 i = get f (AB + i).
  Proof.
    sfd. intros Hi Hs Hout.
    destruct bufs_len as (L1 & _). pose proof (zlen_f_pread f A (AE - A) ltac:(lia)) as LD.
    assert (In1 : 0 < r_brem r -> i < A -> get buf2 i = get f (AB + i)).
    { intros Hb HiA. unfold buf2. destruct tail_read.
      - destruct (Z_lt_dec i (AE - A - AB)) as [I|I].
        + rewrite get_overwrite_out by lia. apply buf1_get; lia.
        + destruct (Z_lt_dec i (AE - A - AB + zlen (f_pread f A (AE - A)))) as [J|J].
          * rewrite get_overwrite_in by lia. rewrite get_f_pread by lia. f_equal. lia.
          * rewrite get_overwrite_out by lia. apply buf1_get; lia.
      - apply buf1_get; lia. }
    pose proof (sf_erem0 _ _ _ _ _ _ SF) as herem0. pose proof (sf_erem1 _ _ _ _ _ _ SF) as herem1.
    pose proof (sf_small _ _ _ _ _ _ SF) as hsmall.
    destruct Hout as [Hlo|Hhi].
    - (* before the written range: in the first block, which was patched *)
      apply In1; lia.
    - (* after the written range: in the last block *)
      assert (E1 : 0 < r_erem r).
      { destruct (Z.eq_dec (r_erem r) 0) as [E|E]; [|lia]. specialize (herem0 E). lia. }
      specialize (herem1 E1).
      destruct (sub_nonempty (r_small r)) eqn:Sm.
      + destruct (hsmall eq_refl) as (S1 & S2 & S3). apply In1; lia.
      + assert (TR : tail_read = true).
        { unfold tail_read. rewrite Sm. cbn [negb andb].
          destruct (Z.ltb_spec 0 (r_erem r)); [|lia]. cbn [andb].
          apply Z.gtb_lt. lia. }
        unfold buf2. rewrite TR.
        assert (n > off + count) by lia.
        rewrite get_overwrite_in by lia. rewrite get_f_pread by lia. f_equal. lia.
  Qed.

  (* write the bounce buffer, cut the overshoot: exactly the plain pwrite *)
  Lemma rmw_file :
    let f' := f_pwrite f buf3 AB in
    (if suppose <? AE then f_truncate f' suppose else f') = f_pwrite f data off.
  Proof.
    sfd. intros f'. destruct bufs_len as (_ & L2 & L3). pose proof (zlen_nonneg f) as Hn.
    assert (NE3 : buf3 <> []) by (apply zlen_pos_nonnil; lia).
    assert (NEd : data <> []) by (apply zlen_pos_nonnil; exact Hcount).
    assert (Lf' : zlen f' = Z.max n AE).
    { unfold f'. rewrite zlen_f_pwrite by (try lia; exact NE3). lia. }
    (* the bounce buffer carries the new data inside the request and the file's bytes around it *)
    assert (Gf' : forall j, 0 <= j < suppose -> get f' j = get (f_pwrite f data off) j).
    { intros j Hj. unfold f'.
      destruct (Z_lt_dec j AB) as [J1|J1]; [rewrite !get_f_pwrite_out by lia; reflexivity|].
      destruct (Z_lt_dec j AE) as [J2|J2]; [|rewrite !get_f_pwrite_out by lia; reflexivity].
      rewrite get_f_pwrite_in by lia. unfold buf3.
      destruct (Z_lt_dec j off) as [J3|J3]; [|destruct (Z_lt_dec j (off + count)) as [J4|J4]].
      - rewrite get_overwrite_out, get_f_pwrite_out by lia. rewrite buf2_get by lia. f_equal. lia.
      - rewrite get_overwrite_in, get_f_pwrite_in by lia. f_equal. lia.
      - rewrite get_overwrite_out, get_f_pwrite_out by lia. rewrite buf2_get by lia. f_equal. lia. }
    apply list_ext.
    - rewrite (zlen_f_pwrite f data off) by (try lia; exact NEd).
      destruct (Z.ltb_spec suppose AE).
      + rewrite zlen_f_truncate by lia. lia.
      + rewrite Lf'. lia.
    - intros j Hj.
      assert (Hjs : 0 <= j < suppose).
      { destruct (Z.ltb_spec suppose AE).
        - rewrite zlen_f_truncate in Hj by lia. exact Hj.
        - rewrite Lf' in Hj. lia. }
      rewrite <- Gf' by exact Hjs. destruct (suppose <? AE); [|reflexivity]. apply get_f_truncate; lia.
  Qed.
End RMW.
