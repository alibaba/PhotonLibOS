(* C16_XFinal.v — factory level: whatever new_fixed_size_linear_file / new_linear_file return over sub-files that
   exactly fill their slots refines the ONE plain file [concat files] of fixed size, for every buffer length (zero
   included); [C16_Proofs.linear_refines_stmt] follows in C16_Properties.v. *)
From Coq Require Import ZArith List Lia.
From PV Require Import C16.C16_Model C16.C16_Lists.
From PV Require Import C16.C16_XGeneric C16.C16_XOps C16.C16_XZeroInst C16.C16_XVar.
Import ListNotations.
Local Open Scope Z_scope.

Lemma Forall_nth_file (P : file -> Prop) fs : Forall P fs -> forall i, 0 <= i < zlen fs -> P (nth_file fs i).
Proof.
  intros HF i Hi. destruct (nth_error fs (Z.to_nat i)) as [f|] eqn:E; [|apply nth_error_None in E; unfold zlen in Hi; lia].
  pose proof (nth_file_nat fs _ f E) as NF. rewrite Z2Nat.id in NF by lia. rewrite NF.
  rewrite Forall_forall in HF. apply HF. eapply nth_error_In. exact E.
Qed.

Lemma total_equal u fs : Forall (fun f : file => zlen f = u) fs -> total fs = zlen fs * u.
Proof.
  induction fs as [|f t IH]; intros HF; [reflexivity|].
  inversion HF as [|? ? Hf Ht]; subst. rewrite total_cons, zlen_cons, (IH Ht). lia.
Qed.

Definition linear_factory (x : xfile) (files : list file) : Prop :=
  (exists u, 0 < u /\ fst (new_fixed u files) = Some x /\ Forall (fun f => zlen f = u) files) \/
  (fst (new_linear files) = Some x /\ Forall (fun f => 0 < zlen f) files).

Lemma linear_factory_refines x files : linear_factory x files -> zlen (concat files) < 2 ^ 63 ->
  refines_fixed x (Inv files) (@concat byte) (zlen (concat files)).
Proof.
  intros HF Hbig. fold (total files) in *.
  assert (Hn : 0 < zlen files).
  { destruct files as [|f t]; [|rewrite zlen_cons; pose proof (zlen_nonneg t); lia].
    destruct HF as [(u & _ & H & _)|(H & _)]; cbn in H; discriminate H. }
  destruct HF as [(u & Hu & HX & HF)|(HX & HF)].
  - rewrite (total_equal u files HF) in *.
    assert (HE : equal_files u files) by (split; [exact Hn|]; intros i Hi; exact (Forall_nth_file _ files HF i Hi)).
    destruct (new_fixed_xf u files Hu Hn Hbig) as (x' & HX' & Hxf). rewrite HX in HX'. inversion HX'; subst x'.
    apply fixed_refines_concat; assumption.
  - assert (HP : pos_files files) by (split; assumption).
    rewrite (new_linear_is files HP Hbig) in HX. inversion HX; subst x.
    apply var_refines; assumption.
Qed.
