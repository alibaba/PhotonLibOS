(* C16_XInst.v — the concrete composites: FixedSizeLinearFile<range_split>,
   FixedSizeLinearFile<range_split_power2>, StripeFile as instances of C16_XGeneric.composite. *)
From Coq Require Import ZArith List Lia.
From PV Require Import Base.U64 C15.C15_Model C15.C15_Spec C15.C15_ProofsGeneric C15.C15_Proofs.
From PV Require Import C16.C16_Model C16.C16_Lists C16.C16_XGeneric.
Import ListNotations.
Local Open Scope Z_scope.

(* what a splitter described by C15's split_hyps hands to pio, with the fuel xparts gives all_parts: a non-empty
   range is tiled block by block from the block of its first byte; an empty range yields no part, or one
   zero-length part in the block of the offset *)
Lemma parts_of_hyps B L divide lo hi off count : split_hyps B L divide lo hi off count ->
  let r := init divide L off count in
  exists l, all_parts L r (S (Z.to_nat (wrap (r_aend r - r_abegin r)))) = Some l /\
    (0 < count -> tiles B L off (off + count) (d_down (divide off)) l) /\
    (count = 0 ->
     l = if d_rem (divide off) =? 0 then [] else [mkSub (d_down (divide off)) (d_rem (divide off)) 0]).
Proof.
  intros H r.
  assert (FU : (Z.to_nat (r_aend r - r_abegin r) <= S (Z.to_nat (wrap (r_aend r - r_abegin r))))%nat).
  { unfold r. rewrite (init_abegin _ _ _ _ _ _ _ H), (init_aend _ _ _ _ _ _ _ H).
    pose proof (sh_nowrap _ _ _ _ _ _ _ H). pose proof (sh_bidx _ _ _ _ _ _ _ H). pose proof (sh_lo _ _ _ _ _ _ _ H).
    destruct (Z_lt_dec (d_up (divide (off + count)) - d_down (divide off)) 0); [lia|].
    rewrite wrap_small by lia. lia. }
  destruct (Z_lt_dec 0 count) as [P|P].
  - destruct (parts_tile_generic_stmt _ _ _ _ _ _ _ H P _ FU) as (l & HA & _ & HT).
    exists l. fold r in HA. rewrite (init_abegin _ _ _ _ _ _ _ H) in HT. split; [exact HA|]. split; [auto|lia].
  - assert (count = 0) by (pose proof (sh_len _ _ _ _ _ _ _ H); lia). subst count.
    destruct (empty_generic_stmt _ _ _ _ _ _ H) as (E & _). cbv zeta in E. fold r in E.
    eexists. split; [exact (E _ FU)|]. split; [lia|]. intros _. unfold r.
    rewrite (init_abegin _ _ _ _ _ _ _ H). reflexivity.
Qed.

Lemma tiles_parts B L : forall l start stop i, tiles B L start stop i l ->
  forall p, In p l -> i <= s_i p < i + zlen l /\ 0 <= s_off p /\ 0 < s_len p /\ s_off p + s_len p <= L (s_i p).
Proof.
  induction l as [|q l IH]; intros start stop i H p Hp; [destruct Hp|].
  cbn [tiles] in H. destruct H as (T1 & T2 & T3 & T4 & T5 & T6). rewrite zlen_cons. pose proof (zlen_nonneg l).
  destruct Hp as [->|Hp].
  - rewrite T1. repeat split; lia.
  - destruct (IH _ _ _ T6 p Hp) as (A & Bb & C & D). repeat split; lia.
Qed.

Lemma fixed_split iv nb off count : 0 < iv -> 0 < nb -> nb * iv < 2 ^ 63 -> 0 <= off -> 0 <= count ->
  off + count <= nb * iv ->
  split_hyps (fun i => i * iv) (getlen_fixed iv) (divide_fixed iv) 0 W64 off count /\
  0 <= off / iv /\ (off < nb * iv -> off / iv < nb).
Proof.
  intros Hiv Hnb Hb Ho Hc He. assert (W : W64 = 2 * 2 ^ 63) by reflexivity.
  assert (U : iv <= nb * iv) by nia.
  split; [apply fixed_hyps; unfold fixed_guard; lia|].
  split; [apply Z.div_pos; lia|]. intros Hlt. apply Z.div_lt_upper_bound; lia.
Qed.

Section FixedLinear.
  Variables (u : Z) (fs0 : list file).
  Hypothesis Hu : 0 < u.
  Hypothesis Hn : 0 < zlen fs0.
  Hypothesis Hlen : forall i, 0 <= i < zlen fs0 -> zlen (nth_file fs0 i) = u.
  Hypothesis Hbig : zlen fs0 * u < 2 ^ 63.

  Local Notation n := (zlen fs0).
  Local Notation B := (fun i : Z => i * u).
  Local Notation L := (getlen_fixed u).
  Local Notation fidx := (fun i : Z => i).
  Local Notation fbase := (fun _ : Z => 0).

  Definition fixed_x (x : xfile) : Prop :=
    x = mkX (XFixed u) n (n * u) \/ (is_pow2_64 u /\ x = mkX (XFixedP2 u) n (n * u)).
  Definition fixed_content (fs : list file) : file := whole L fidx fbase n fs.

  Lemma fixed_layout : layout B L fidx fbase n fs0.
  Proof.
    constructor; unfold getlen_fixed; try lia.
    intros i Hi. rewrite Hlen by exact Hi. lia.
  Qed.

  (* both splitters hand pio the parts of range_split: range_split_power2 computes the same split *)
  Lemma fixed_composite x : fixed_x x -> composite B L fidx fbase n fs0 x.
  Proof.
    intros Hx.
    assert (XP : forall off count, xparts x off count = xparts (mkX (XFixed u) n (n * u)) off count).
    { intros off count. destruct Hx as [->|(P2 & ->)]; [reflexivity|].
      unfold xparts. cbn [x_kind]. rewrite (init_p2_fixed _ _ _ P2). reflexivity. }
    constructor; [exact fixed_layout|destruct Hx as [->|(_ & ->)]; reflexivity|exact Hbig| |].
    - intros off count Ho Hc He. cbv beta in He.
      destruct (fixed_split u n off count) as (SH & D0 & D1); try lia.
      destruct (parts_of_hyps _ _ _ _ _ _ _ SH) as (l & HA & HT & _). specialize (HT Hc).
      exists l, (off / u). rewrite XP. unfold xparts. cbn [x_kind]. rewrite HA. split; [reflexivity|]. split; [exact HT|].
      split; [exact D0|]. apply (tiles_inside _ _ _ _ _ _ _ HT); cbn [divide_fixed d_down]; lia.
    - intros off Ho. cbv beta in Ho. destruct (fixed_split u n off 0) as (SH & D0 & D1); try lia.
      destruct (parts_of_hyps _ _ _ _ _ _ _ SH) as (l & HA & _ & HZ). specialize (HZ eq_refl).
      rewrite XP. unfold xparts. cbn [x_kind]. rewrite HA, HZ.
      destruct (d_rem (divide_fixed u off) =? 0); eexists; (split; [reflexivity|]); [left; reflexivity|].
      right. do 2 eexists. split; [reflexivity|]. cbn [s_i divide_fixed d_down]. lia.
  Qed.
End FixedLinear.

Section Stripe.
  Variables (S m : Z) (fs0 : list file).
  Hypothesis HS : is_pow2_64 S.
  Hypothesis Hm : 0 < m.
  Hypothesis Hn : 0 < zlen fs0.
  Hypothesis Hlen : forall i, 0 <= i < zlen fs0 -> zlen (nth_file fs0 i) = m * S.
  Hypothesis Hbig : m * zlen fs0 * S < 2 ^ 63.

  Local Notation n := (zlen fs0).
  Local Notation nb := (m * zlen fs0).
  Local Notation B := (fun i : Z => i * S).
  Local Notation L := (getlen_fixed S).
  Local Notation fidx := (fun b : Z => b mod zlen fs0).
  Local Notation fbase := (fun b : Z => b / zlen fs0 * S).

  Definition stripe_x : xfile := mkX (XStripe S) n (m * S * n).
  Definition stripe_content (fs : list file) : file := whole L fidx fbase nb fs.

  Lemma st_Spos : 0 < S.
  Proof. destruct HS as (k & Hk & ->). apply pow2_lt_W64. exact Hk. Qed.

  Lemma st_div i : 0 <= i < nb -> 0 <= i / n < m.
  Proof.
    intros Hi. split; [apply Z.div_pos; lia|]. apply Z.div_lt_upper_bound; [lia|]. lia.
  Qed.

  Lemma stripe_layout : layout B L fidx fbase nb fs0.
  Proof.
    pose proof st_Spos as SP. constructor; unfold getlen_fixed; try lia.
    - intros i Hi. pose proof (Z.mod_pos_bound i n Hn) as MB. pose proof (st_div i Hi) as D.
      rewrite Hlen by exact MB. split; [exact MB|]. nia.
    - intros i j Hi Hj N E.
      pose proof (Z.div_mod i n ltac:(lia)). pose proof (Z.div_mod j n ltac:(lia)).
      assert (i / n <> j / n) by (intros Q; rewrite Q, E in *; lia).
      destruct (Z_lt_dec (i / n) (j / n)); [left|right]; nia.
  Qed.

  (* block b is stripe b / n of sub-file b mod n *)
  Lemma stripe_composite : composite B L fidx fbase nb fs0 stripe_x.
  Proof.
    pose proof st_Spos as SP.
    constructor; [exact stripe_layout|cbn [stripe_x x_size]; lia|lia| |].
    - intros off count Ho Hc He. cbv beta in He.
      destruct (fixed_split S nb off count) as (SH & D0 & D1); try lia.
      destruct (parts_of_hyps _ _ _ _ _ _ _ SH) as (l & HA & HT & _). specialize (HT Hc).
      assert (IL : off / S + zlen l <= nb) by (apply (tiles_inside _ _ _ _ _ _ _ HT); cbn [divide_fixed d_down]; lia).
      exists l, (off / S). split; [|auto].
      unfold xparts. cbn [x_kind stripe_x x_n]. rewrite (init_p2_fixed _ _ _ HS), HA. f_equal.
      apply map_ext_in. intros p Hp.
      destruct (tiles_parts _ _ _ _ _ _ HT p Hp) as (P1 & P2 & P3 & P4). unfold getlen_fixed in P4. cbn [divide_fixed d_down] in P1.
      unfold conv. f_equal. f_equal.
      assert (D : 0 <= s_i p / n < m) by (apply st_div; lia).
      destruct HS as (k & Hk & ES). rewrite ES at 1. rewrite mult_p2_fixed by exact Hk. rewrite <- ES.
      assert (W : W64 = 2 * 2 ^ 63) by reflexivity.
      pose proof (Z.mul_nonneg_nonneg (s_i p / n) S ltac:(lia) ltac:(lia)) as QS.
      pose proof (Z.mul_le_mono_nonneg_r (s_i p / n) (m - 1) S ltac:(lia) ltac:(lia)) as QS'.
      pose proof (Z.mul_le_mono_nonneg_r 1 n (m * S) ltac:(lia) ltac:(lia)) as MS.
      unfold mult_fixed. rewrite (wrap_small (s_i p / n * S)) by lia. apply wrap_small. lia.
    - intros off Ho. cbv beta in Ho. destruct (fixed_split S nb off 0) as (SH & _); try lia.
      destruct (parts_of_hyps _ _ _ _ _ _ _ SH) as (l & HA & _ & HZ). specialize (HZ eq_refl).
      unfold xparts. cbn [x_kind stripe_x x_n]. rewrite (init_p2_fixed _ _ _ HS), HA, HZ.
      destruct (d_rem (divide_fixed S off) =? 0); eexists; (split; [reflexivity|]); [left; reflexivity|].
      right. do 2 eexists. split; [reflexivity|]. apply Z.mod_pos_bound. exact Hn.
  Qed.
End Stripe.
