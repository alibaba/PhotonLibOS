(* C16_Proofs.v — operation-level and sequence-level refinement of the aligned adaptor. *)
From Coq Require Import ZArith List.
From PV Require Import C16.C16_Model C16.C16_Lists C16.C16_AlignedProofs C16.C16_AlignedProofs2.
Import ListNotations.
Local Open Scope Z_scope.

(* the same operation on ONE plain file: (return value, caller's buffers afterwards, file afterwards) *)
Definition ref_op (f : file) (o : op) : Z * list (list byte) * file :=
  match o with
  | OPread b off => let d := f_pread f (zlen (sg_data b)) off in (zlen d, [overwrite (sg_data b) 0 d], f)
  | OPwrite b off => (zlen (sg_data b), [sg_data b], f_pwrite f (sg_data b) off)
  | OPreadv segs off => let d := f_pread f (sum_len segs) off in (zlen d, scatter (map sg_data segs) d, f)
  | OPwritev segs off => (sum_len segs, map sg_data segs, f_pwrite f (gather segs) off)
  | OFstat => (zlen f, [], f)
  | OFtruncate len => (0, [], f_truncate f len)
  end.

(* the requests the statement is about: reads start at or before EOF; 64-bit guard *)
Definition op_ok (k : Z) (f : file) (o : op) : Prop :=
  match o with
  | OPread b off => aligned_guard k off (zlen (sg_data b)) /\ off <= zlen f
  | OPwrite b off => aligned_guard k off (zlen (sg_data b))
  | OPreadv segs off => aligned_guard k off (sum_len segs) /\ off <= zlen f
  | OPwritev segs off => aligned_guard k off (sum_len segs)
  | OFstat => True
  | OFtruncate len => True
  end.

Definition observe (r : opres) : Z * list (list byte) := (rs_ret r, rs_bufs r).
Definition trace_aligned (k : Z) (am : bool) (r : opres) : Prop := Forall (ev_aligned (2 ^ k) am) (rs_trace r).

(* every request of every operation is aligned, whatever the offset *)
Definition op_guard (k : Z) (o : op) : Prop :=
  match o with
  | OPread b off | OPwrite b off => aligned_guard k off (zlen (sg_data b))
  | OPreadv segs off | OPwritev segs off => aligned_guard k off (sum_len segs)
  | _ => True
  end.

Lemma run_op_spec k am f o : op_guard k o ->
  let r := run_op (AdAligned (2 ^ k) am) [f] o in
  trace_aligned k am r /\ (op_ok k f o -> observe r = fst (ref_op f o) /\ rs_files r = [snd (ref_op f o)]).
Proof.
  intros G. destruct o as [b off|b off|segs off|segs off| |len]; cbn [op_guard] in G.
  - destruct (al_pread_spec k am f b off G) as (T & R). split; [exact T|]. intros (_ & He).
    destruct (R He) as (R1 & R2 & R3). split; [exact (f_equal2 pair R1 R2)|exact R3].
  - destruct (al_write_spec k am false f (sg_data b) [sg_data b] (ptr_aligned (2 ^ k) (sg_mis b)) off _ eq_refl G)
      as (R1 & R2 & R3 & R4).
    split; [exact R4|]. intros _. split; [exact (f_equal2 pair R1 R2)|exact R3].
  - destruct (al_preadv_spec k am f segs off G) as (T & R). split; [exact T|]. intros (_ & He).
    destruct (R He) as (R1 & R2 & R3). split; [exact (f_equal2 pair R1 R2)|exact R3].
  - destruct (al_write_spec k am true f (gather segs) (map sg_data segs) (iov_align_check (2 ^ k) segs) off _
                (eq_sym (zlen_gather segs)) G) as (R1 & R2 & R3 & R4).
    split; [exact R4|]. intros _. split; [exact (f_equal2 pair R1 R2)|exact R3].
  - split; [apply Forall_meta; reflexivity|]. intros _. split; reflexivity.
  - split; [apply Forall_meta; reflexivity|]. intros _. split; reflexivity.
Qed.

Lemma op_ok_guard k f o : op_ok k f o -> op_guard k o.
Proof. destruct o; cbn; tauto. Qed.

Fixpoint ref_run (f : file) (ops : list op) : list (Z * list (list byte)) * file :=
  match ops with
  | [] => ([], f)
  | o :: rest => let '(res, f') := ref_op f o in
                 let '(rs, final) := ref_run f' rest in (res :: rs, final)
  end.
Fixpoint ops_ok (k : Z) (f : file) (ops : list op) : Prop :=
  match ops with
  | [] => True
  | o :: rest => op_ok k f o /\ ops_ok k (snd (ref_op f o)) rest
  end.

(* the user-level statement about the linear composites (fs/xfile.cpp), at factory level; it is the theorem
   linear_refines_factories of C16_Properties.v, from C16_XFinal.linear_factory_refines.  Logical content of a
   linear composite: *)
Definition linear_content (files : list file) : file := concat files.
(* FixedSizeLinearFile / VariableSizeLinearFile over sub-files that exactly fill their slots behave like
   the plain file [concat files] of fixed size (requests starting inside it, clipped at its end) *)
Definition linear_refines_stmt : Prop :=
  forall (x : xfile) (files : list file) (buf : list byte) (off : Z),
    (exists u, 0 < u /\ fst (new_fixed u files) = Some x /\ Forall (fun f => zlen f = u) files) \/
    (fst (new_linear files) = Some x /\ Forall (fun f => 0 < zlen f) files) ->
    zlen (linear_content files) + zlen buf < 2 ^ 63 -> 0 <= off < zlen (linear_content files) ->
    let whole := linear_content files in
    (let r := x_pio x true files buf off in
     rs_ret r = zlen (f_pread whole (zlen buf) off) /\
     rs_bufs r = [overwrite buf 0 (f_pread whole (zlen buf) off)] /\ rs_files r = files) /\
    (let r := x_pio x false files buf off in
     rs_ret r = Z.min (zlen buf) (zlen whole - off) /\
     linear_content (rs_files r) = ref_pwrite_fixed whole buf off /\
     map (@zlen byte) (rs_files r) = map (@zlen byte) files).
