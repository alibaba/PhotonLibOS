(* C16_XZeroInst.v — FixedSizeLinearFile (both splitters) and StripeFile under the hypotheses the factories check:
   the power-of-two instances under the factories' own `is_power_of_2` test, the logical content of the linear
   file stated as [concat files]; the factories build exactly these adaptors. *)
From Coq Require Import ZArith List Lia.
From PV Require Import Base.U64 C15.C15_Model C15.C15_Spec.
From PV Require Import C16.C16_Model C16.C16_XGeneric C16.C16_XInst C16.C16_XOps C16.C16_XPow2.
Import ListNotations.
Local Open Scope Z_scope.

(* the adaptor new_fixed_size_linear_file builds, judged by the factory's own test (or the general splitter for any u) *)
Definition fixed_xf (u : Z) (fs0 : list file) (x : xfile) : Prop :=
  x = mkX (XFixed u) (zlen fs0) (zlen fs0 * u) \/
  (is_power_of_2 u = true /\ x = mkX (XFixedP2 u) (zlen fs0) (zlen fs0 * u)).

(* a block size accepted by the test is a power of two when nb blocks of it fit below 2^63 *)
Lemma accepted_pow2 S nb : 0 < S -> is_power_of_2 S = true -> 0 < nb -> nb * S < 2 ^ 63 -> is_pow2_64 S.
Proof.
  intros HS P Hnb Hb. apply is_power_of_2_pow2; [|exact P]. assert (W : W64 = 2 * 2 ^ 63) by reflexivity. nia.
Qed.

Lemma fixed_xf_x u fs0 x : 0 < u -> 0 < zlen fs0 -> zlen fs0 * u < 2 ^ 63 -> fixed_xf u fs0 x -> fixed_x u fs0 x.
Proof.
  intros Hu Hn Hb [E|(P & E)]; [left; exact E|right]. split; [|exact E].
  exact (accepted_pow2 u (zlen fs0) Hu P Hn Hb).
Qed.

Lemma new_fixed_xf u fs0 : 0 < u -> 0 < zlen fs0 -> zlen fs0 * u < 2 ^ 63 ->
  exists x, fst (new_fixed u fs0) = Some x /\ fixed_xf u fs0 x.
Proof.
  intros Hu Hn Hb. rewrite (new_fixed_is u fs0 Hu Hn Hb). eexists. split; [reflexivity|].
  unfold fixed_xf. destruct (is_power_of_2 u) eqn:E; [right; split; reflexivity|left; reflexivity].
Qed.

Lemma fixed_xf_composite u fs0 x : 0 < u -> equal_files u fs0 -> zlen fs0 * u < 2 ^ 63 -> fixed_xf u fs0 x ->
  composite (fun i => i * u) (getlen_fixed u) (fun i => i) (fun _ => 0) (zlen fs0) fs0 x.
Proof.
  intros Hu (Hn & Hlen) Hbig Hxf. apply fixed_composite; try assumption. apply fixed_xf_x; assumption.
Qed.

Lemma fixed_content_concat_l u fs0 fs : equal_files u fs0 -> Inv fs0 fs -> fixed_content u fs0 fs = concat fs.
Proof.
  intros (Hn & Hlen) (I1 & I2). unfold fixed_content. rewrite <- I1. apply whole_id_concat.
  intros j Hj. unfold getlen_fixed. rewrite I2. symmetry. apply Hlen. lia.
Qed.

Lemma fixed_refines_concat u fs0 x : 0 < u -> equal_files u fs0 -> zlen fs0 * u < 2 ^ 63 -> fixed_xf u fs0 x ->
  refines_fixed x (Inv fs0) (@concat byte) (zlen fs0 * u).
Proof.
  intros Hu HE Hbig Hxf. apply (refines_fixed_ext x (Inv fs0) (fixed_content u fs0)).
  - intros fs. apply fixed_content_concat_l. exact HE.
  - exact (composite_refines (fixed_xf_composite u fs0 x Hu HE Hbig Hxf)).
Qed.

(* StripeFile: hypothesis = the factory's own test on the stripe size *)
Lemma stripe_xf_composite S m fs0 :
  0 < S -> is_power_of_2 S = true -> 0 < m -> equal_files (m * S) fs0 -> m * zlen fs0 * S < 2 ^ 63 ->
  composite (fun i => i * S) (getlen_fixed S) (fun b => b mod zlen fs0) (fun b => b / zlen fs0 * S)
            (m * zlen fs0) fs0 (stripe_x S m fs0).
Proof.
  intros HS P Hm (Hn & Hlen) Hbig. apply stripe_composite; try assumption.
  apply (accepted_pow2 S (m * zlen fs0)); (assumption || nia).
Qed.

Lemma stripe_scan_ok S m : 0 < S -> 0 < m -> forall fs i ms tr,
  (ms = 0 \/ ms = m * S) -> Forall (fun f => zlen f = m * S) fs ->
  fst (stripe_scan S fs i ms tr) = Some (if fs then ms else m * S).
Proof.
  intros HS Hm. induction fs as [|f t IH]; intros i ms tr Hms HF; [reflexivity|].
  inversion HF as [|? ? Hf Ht]; subst. cbn [stripe_scan]. unfold f_size. rewrite Hf.
  destruct (Z.eqb_spec (m * S) 0) as [Q|_]; [nia|].
  rewrite Z_mod_mult. cbn [Z.eqb negb].
  destruct (Z.eqb_spec ms 0) as [Q|Q].
  - rewrite IH by (auto). destruct t; reflexivity.
  - destruct Hms as [Q'| ->]; [contradiction|]. rewrite Z.eqb_refl. cbn [negb].
    rewrite IH by auto. destruct t; reflexivity.
Qed.
