(* C16_Properties.v — property theorems of C16 (file adaptors).  Each follows in a few lines from a general theorem
   of the proof files (al_write_spec, al_pread_spec, al_preadv_spec, run_op_spec for the aligned adaptor; composite,
   refines_fixed, x_run_ops_z, x_pio_trace for the composites), ops_refine_plain by induction over the operation list
   from run_op_spec; the examples are computed.  Vocabulary: C16_Model.v
   (al_pread, al_pwrite, al_preadv, al_pwritev, run_op, run_ops, f_pread, f_pwrite, scatter, gather, overwrite,
   event), C16_AlignedProofs.v (ev_aligned, is_io), C16_AlignedProofs2.v (aligned_guard), C16_Proofs.v (ref_op,
   ref_run, op_ok, ops_ok, op_guard, observe, trace_aligned). *)
From Coq Require Import ZArith List Lia.
From PV Require Import Base.U64 C15.C15_Model C15.C15_Spec C16.C16_Model C16.C16_Lists C16.C16_AlignedProofs C16.C16_AlignedProofs2 C16.C16_Proofs.
From PV Require Import C16.C16_XGeneric C16.C16_XInst C16.C16_XOps.
From PV Require Import C16.C16_XPow2 C16.C16_XZero C16.C16_XZeroInst C16.C16_XVar C16.C16_XFinal C16.C16_XTrace.
Import ListNotations.
Local Open Scope Z_scope.

(* pread through the alignment adaptor = pread on the plain file: count, data, untouched rest of the
   caller's buffer, file unchanged — every alignment 2^k, every offset <= size, every length, every
   buffer mis-alignment, with or without align_memory *)
Theorem aligned_pread_refines : forall k am f b off,
  aligned_guard k off (zlen (sg_data b)) -> off <= zlen f ->
  let res := al_pread (2 ^ k) am f b off in
  let d := f_pread f (zlen (sg_data b)) off in
  rs_ret res = zlen d /\ rs_bufs res = [overwrite (sg_data b) 0 d] /\
  rs_files res = [f] /\ Forall (ev_aligned (2 ^ k) am) (rs_trace res).
Proof.
  intros k am f b off G He. destruct (al_pread_spec k am f b off G) as (T & R).
  destruct (R He) as (R1 & R2 & R3). repeat split; assumption.
Qed.
Print Assumptions aligned_pread_refines.

(* pwrite: count, resulting content AND size equal the plain file's — every offset >= 0 (inside, at
   and beyond EOF), un-aligned on either or both ends *)
Theorem aligned_pwrite_refines : forall k am f b off,
  aligned_guard k off (zlen (sg_data b)) ->
  let res := al_pwrite (2 ^ k) am f b off in
  rs_ret res = zlen (sg_data b) /\ rs_bufs res = [sg_data b] /\
  rs_files res = [f_pwrite f (sg_data b) off] /\ Forall (ev_aligned (2 ^ k) am) (rs_trace res).
Proof. intros k am f b off. exact (al_write_spec k am false f (sg_data b) [sg_data b] _ off _ eq_refl). Qed.
Print Assumptions aligned_pwrite_refines.

(* vectored variants, every iovec segmentation (zero-length elements included) *)
Theorem aligned_preadv_refines : forall k am f segs off,
  aligned_guard k off (sum_len segs) -> off <= zlen f ->
  let res := al_preadv (2 ^ k) am f segs off in
  let d := f_pread f (sum_len segs) off in
  rs_ret res = zlen d /\ rs_bufs res = scatter (map sg_data segs) d /\
  rs_files res = [f] /\ Forall (ev_aligned (2 ^ k) am) (rs_trace res).
Proof.
  intros k am f segs off G He. destruct (al_preadv_spec k am f segs off G) as (T & R).
  destruct (R He) as (R1 & R2 & R3). repeat split; assumption.
Qed.
Print Assumptions aligned_preadv_refines.

Theorem aligned_pwritev_refines : forall k am f segs off,
  aligned_guard k off (sum_len segs) ->
  let res := al_pwritev (2 ^ k) am f segs off in
  rs_ret res = sum_len segs /\ rs_bufs res = map sg_data segs /\
  rs_files res = [f_pwrite f (gather segs) off] /\ Forall (ev_aligned (2 ^ k) am) (rs_trace res).
Proof.
  intros k am f segs off.
  exact (al_write_spec k am true f (gather segs) (map sg_data segs) _ off _ (eq_sym (zlen_gather segs))).
Qed.
Print Assumptions aligned_pwritev_refines.

(* every pread/pwrite/preadv/pwritev the adaptor issues to the underlay has offset and length
   = 0 mod alignment and, with align_memory, aligned buffers — for EVERY request (also at/after EOF,
   also when the bounce buffer cannot be allocated) *)
Theorem aligned_calls_aligned : forall k am f o, op_guard k o ->
  trace_aligned k am (run_op (AdAligned (2 ^ k) am) [f] o).
Proof. intros k am f o G. exact (proj1 (run_op_spec k am f o G)). Qed.
Print Assumptions aligned_calls_aligned.

(* any sequence of pread/pwrite/preadv/pwritev/fstat/ftruncate: same observations (return values and
   buffers) and same final content and size as the same sequence on a plain file; all requests aligned *)
Theorem ops_refine_plain : forall k am ops f, ops_ok k f ops ->
  map observe (fst (run_ops (AdAligned (2 ^ k) am) [f] ops)) = fst (ref_run f ops) /\
  snd (run_ops (AdAligned (2 ^ k) am) [f] ops) = [snd (ref_run f ops)] /\
  Forall (trace_aligned k am) (fst (run_ops (AdAligned (2 ^ k) am) [f] ops)).
Proof.
  intros k am. induction ops as [|o rest IH]; intros f Hok.
  - cbn. repeat split. constructor.
  - destruct Hok as (H1 & H2).
    destruct (run_op_spec k am f o (op_ok_guard k f o H1)) as (R3 & R). destruct (R H1) as (R1 & R2).
    cbv zeta in *. cbn [run_ops ref_run]. rewrite R2.
    destruct (ref_op f o) as [res f'] eqn:ER. cbn [fst snd] in *.
    specialize (IH f' H2).
    destruct (run_ops (AdAligned (2 ^ k) am) [f'] rest) as [rs final].
    destruct (ref_run f' rest) as [rrs rfinal]. cbn [fst snd] in *.
    destruct IH as (I1 & I2 & I3). cbn [map]. rewrite R1, I1, I2. repeat split.
    constructor; assumption.
Qed.
Print Assumptions ops_refine_plain.

Example aligned_guard_nonvacuous : aligned_guard 9 1000 5000 /\ aligned_guard 2 1 2 /\ aligned_guard 0 0 1.
Proof. unfold aligned_guard. repeat split; cbn; lia. Qed.

Example ops_ok_nonvacuous :
  alloc_fails (2 ^ 3) true = false /\
  ops_ok 3 [1; 2; 3; 4; 5; 6; 7; 8; 9; 10]
    [OPwrite (mkSeg 4 [21; 22; 23]) 6; OPreadv [mkSeg 0 [0; 0]; mkSeg 1 [0; 0; 0]] 5; OFstat;
     OPwrite (mkSeg 0 [31; 32]) 13; OPread (mkSeg 0 [0; 0; 0; 0]) 15].
Proof.
  split; [reflexivity|]. cbn -[Z.pow]. unfold aligned_guard. cbn. repeat split; try lia; try discriminate.
Qed.

(* Vocabulary of the composites: C16_XGeneric (nth_file, Inv fs0 fs = same number of sub-files with the sizes of fs0), C16_XInst (stripe_x,
   stripe_content = block b is stripe b/n of sub-file b mod n), C16_XOps (equal_files, ref_op_fixed, ref_run_fixed),
   C16_XZero (op_ok_fixed_z / ops_ok_fixed_z: request starts inside the composite, EVERY length incl. 0, below 2^63),
   C16_XZeroInst (fixed_xf), C16_XVar (pos_files, total = zlen (concat _), var_x), C16_Proofs (linear_refines_stmt).
   The logical content of the linear composites is [concat files] literally. *)

(* the factories' popcount test (common/utility.h:130) means "power of two" *)
Theorem is_power_of_2_sound : forall u, 0 < u < W64 -> is_power_of_2 u = true -> is_pow2_64 u.
Proof. exact is_power_of_2_pow2. Qed.
Print Assumptions is_power_of_2_sound.

(* the block-wise definition of the fixed linear file's content used by the proofs is the concatenation of the sub-files *)
Theorem fixed_content_concat : forall u fs0 fs, equal_files u fs0 -> Inv fs0 fs -> fixed_content u fs0 fs = concat fs.
Proof. exact fixed_content_concat_l. Qed.
Print Assumptions fixed_content_concat.

(* FixedSizeLinearFile with either splitter (range_split for every unit size; range_split_power2 when the factory's own
   test is_power_of_2 accepts the unit) over sub-files of exactly one unit each: pread/pwrite of EVERY length (0 included)
   starting inside the composite return the plain file's count and data, clipped at the composite's end; a write changes
   the logical content [concat files] exactly like the (clipped) plain pwrite and no sub-file's size *)
Theorem linear_refines : forall u fs0 x fs buf off,
  0 < u -> equal_files u fs0 -> zlen fs0 * u < 2 ^ 63 -> fixed_xf u fs0 x ->
  Inv fs0 fs -> 0 <= off < zlen fs0 * u -> zlen buf < 2 ^ 63 ->
  let whole := concat fs in
  (let r := x_pio x true fs buf off in
   let d := f_pread whole (zlen buf) off in
   rs_ret r = zlen d /\ rs_bufs r = [overwrite buf 0 d] /\ rs_files r = fs) /\
  (let r := x_pio x false fs buf off in
   rs_ret r = Z.min (zlen buf) (zlen fs0 * u - off) /\ rs_bufs r = [buf] /\ Inv fs0 (rs_files r) /\
   concat (rs_files r) = f_pwrite whole (ztake (zlen fs0 * u - off) buf) off).
Proof.
  intros u fs0 x fs buf off Hu HE Hbig Hxf HI Ho Hb. pose proof (fixed_refines_concat u fs0 x Hu HE Hbig Hxf) as R.
  split; [apply (rf_read R)|apply (rf_write R)]; assumption.
Qed.
Print Assumptions linear_refines.

(* VariableSizeLinearFile (range_split_vi over the key points 0, prefix sums of the sub-file sizes, UINT64_MAX) over
   sub-files of arbitrary positive sizes: same statement, every length *)
Theorem linear_vi_refines : forall fs0 fs buf off,
  pos_files fs0 -> total fs0 < 2 ^ 63 ->
  Inv fs0 fs -> 0 <= off < total fs0 -> zlen buf < 2 ^ 63 ->
  let whole := concat fs in
  (let r := x_pio (var_x fs0) true fs buf off in
   let d := f_pread whole (zlen buf) off in
   rs_ret r = zlen d /\ rs_bufs r = [overwrite buf 0 d] /\ rs_files r = fs) /\
  (let r := x_pio (var_x fs0) false fs buf off in
   rs_ret r = Z.min (zlen buf) (total fs0 - off) /\ rs_bufs r = [buf] /\ Inv fs0 (rs_files r) /\
   concat (rs_files r) = f_pwrite whole (ztake (total fs0 - off) buf) off).
Proof.
  intros fs0 fs buf off HP Hbig HI Ho Hb. pose proof (var_refines fs0 HP Hbig) as R.
  split; [apply (rf_read R)|apply (rf_write R)]; assumption.
Qed.
Print Assumptions linear_vi_refines.

(* StripeFile over n equal sub-files of m stripes each; stripe size accepted by the factory's own test *)
Theorem stripe_refines : forall S m fs0 fs buf off,
  0 < S -> is_power_of_2 S = true -> 0 < m -> equal_files (m * S) fs0 -> m * zlen fs0 * S < 2 ^ 63 ->
  Inv fs0 fs -> 0 <= off < m * zlen fs0 * S -> zlen buf < 2 ^ 63 ->
  let whole := stripe_content S m fs0 fs in
  (let r := x_pio (stripe_x S m fs0) true fs buf off in
   let d := f_pread whole (zlen buf) off in
   rs_ret r = zlen d /\ rs_bufs r = [overwrite buf 0 d] /\ rs_files r = fs) /\
  (let r := x_pio (stripe_x S m fs0) false fs buf off in
   rs_ret r = Z.min (zlen buf) (m * zlen fs0 * S - off) /\ rs_bufs r = [buf] /\ Inv fs0 (rs_files r) /\
   stripe_content S m fs0 (rs_files r) = f_pwrite whole (ztake (m * zlen fs0 * S - off) buf) off).
Proof.
  intros S m fs0 fs buf off HS P Hm HE Hbig HI Ho Hb.
  pose proof (composite_refines (stripe_xf_composite S m fs0 HS P Hm HE Hbig)) as R.
  split; [apply (rf_read R)|apply (rf_write R)]; assumption.
Qed.
Print Assumptions stripe_refines.

(* the factories build exactly the adaptors the theorems talk about *)
Theorem new_fixed_builds : forall u fs0, 0 < u -> 0 < zlen fs0 -> zlen fs0 * u < 2 ^ 63 ->
  exists x, fst (new_fixed u fs0) = Some x /\ fixed_xf u fs0 x.
Proof. exact new_fixed_xf. Qed.
Print Assumptions new_fixed_builds.
Theorem new_linear_builds : forall fs0, pos_files fs0 -> total fs0 < 2 ^ 63 -> fst (new_linear fs0) = Some (var_x fs0).
Proof. exact new_linear_is. Qed.
Print Assumptions new_linear_builds.
Theorem new_stripe_builds : forall S m (fs0 : list file), 0 < S -> is_power_of_2 S = true -> 0 < m -> 0 < zlen fs0 ->
  Forall (fun f => zlen f = m * S) fs0 -> m * zlen fs0 * S < 2 ^ 63 ->
  fst (new_stripe S fs0) = Some (stripe_x S m fs0).
Proof.
  intros S m fs0 HS P Hm Hn HF Hb. unfold new_stripe. destruct (Z.eqb_spec (zlen fs0) 0) as [Q|_]; [lia|].
  rewrite P. cbn [negb].
  pose proof (stripe_scan_ok S m HS Hm fs0 0 0 [] (or_introl eq_refl) HF) as SC.
  destruct (stripe_scan S fs0 0 0 []) as [[ms|] tr]; cbn [fst] in SC; [|discriminate].
  inversion SC as [E]. cbn [fst]. unfold stripe_x. f_equal. f_equal.
  destruct fs0; [cbn in Hn; lia|]. assert (W : W64 = 2 * 2 ^ 63) by reflexivity.
  apply wrap_small. nia.
Qed.
Print Assumptions new_stripe_builds.

(* factory level, both linear files (the statement C16_Proofs.linear_refines_stmt): whatever new_fixed_size_linear_file /
   new_linear_file return over sub-files that exactly fill their slots behaves like the plain file [concat files] *)
Theorem linear_refines_factories : linear_refines_stmt.
Proof.
  unfold linear_refines_stmt, linear_content, ref_pwrite_fixed. intros x files buf off Hx Hbig Ho.
  pose proof (zlen_nonneg buf) as Hb0.
  pose proof (linear_factory_refines x files Hx ltac:(lia)) as R.
  split; [apply (rf_read R); (apply Inv_refl || lia)|].
  destruct (rf_write R files buf off (Inv_refl files) Ho ltac:(lia)) as (W1 & W2 & W3 & W4).
  split; [exact W1|]. split; [exact W4|]. apply Inv_sizes. exact W3.
Qed.
Print Assumptions linear_refines_factories.

(* the same for operation sequences, at factory level (linear_factory x files = x is what new_fixed_size_linear_file /
   new_linear_file returned for sub-files that exactly fill their slots): observations and final content = the same
   sequence on the plain file [concat files]; no sub-file changes its size *)
Theorem ops_refine_plain_linear_factories : forall x files ops,
  linear_factory x files -> zlen (concat files) < 2 ^ 63 -> ops_ok_fixed_z (concat files) ops ->
  map observe (fst (run_ops (AdX x) files ops)) = fst (ref_run_fixed (concat files) ops) /\
  concat (snd (run_ops (AdX x) files ops)) = snd (ref_run_fixed (concat files) ops) /\
  map (@zlen byte) (snd (run_ops (AdX x) files ops)) = map (@zlen byte) files.
Proof.
  intros x files ops HF Hbig Hok.
  destruct (x_run_ops_z _ _ _ _ (linear_factory_refines x files HF Hbig) ops files (Inv_refl files) Hok) as (R1 & R2 & R3).
  split; [exact R1|]. split; [exact R3|]. apply Inv_sizes. exact R2.
Qed.
Print Assumptions ops_refine_plain_linear_factories.

(* sequences of pread/pwrite/preadv/pwritev (through VirtualFile::piov_copy: every segmentation, empty iovecs and
   zero-length elements included)/fstat on the composites = the same sequence on ONE plain file of fixed size *)
Theorem ops_refine_plain_linear : forall u fs0 x ops fs,
  0 < u -> equal_files u fs0 -> zlen fs0 * u < 2 ^ 63 -> fixed_xf u fs0 x ->
  Inv fs0 fs -> ops_ok_fixed_z (concat fs) ops ->
  map observe (fst (run_ops (AdX x) fs ops)) = fst (ref_run_fixed (concat fs) ops) /\
  Inv fs0 (snd (run_ops (AdX x) fs ops)) /\
  concat (snd (run_ops (AdX x) fs ops)) = snd (ref_run_fixed (concat fs) ops).
Proof. intros u fs0 x ops fs Hu HE Hbig Hxf. exact (x_run_ops_z _ _ _ _ (fixed_refines_concat u fs0 x Hu HE Hbig Hxf) ops fs). Qed.
Print Assumptions ops_refine_plain_linear.

Theorem ops_refine_plain_linear_vi : forall fs0 ops fs,
  pos_files fs0 -> total fs0 < 2 ^ 63 ->
  Inv fs0 fs -> ops_ok_fixed_z (concat fs) ops ->
  map observe (fst (run_ops (AdX (var_x fs0)) fs ops)) = fst (ref_run_fixed (concat fs) ops) /\
  Inv fs0 (snd (run_ops (AdX (var_x fs0)) fs ops)) /\
  concat (snd (run_ops (AdX (var_x fs0)) fs ops)) = snd (ref_run_fixed (concat fs) ops).
Proof. intros fs0 ops fs HP Hbig. exact (x_run_ops_z _ _ _ _ (var_refines fs0 HP Hbig) ops fs). Qed.
Print Assumptions ops_refine_plain_linear_vi.

Theorem ops_refine_plain_stripe : forall S m fs0 ops fs,
  0 < S -> is_power_of_2 S = true -> 0 < m -> equal_files (m * S) fs0 -> m * zlen fs0 * S < 2 ^ 63 ->
  Inv fs0 fs -> ops_ok_fixed_z (stripe_content S m fs0 fs) ops ->
  map observe (fst (run_ops (AdX (stripe_x S m fs0)) fs ops)) = fst (ref_run_fixed (stripe_content S m fs0 fs) ops) /\
  Inv fs0 (snd (run_ops (AdX (stripe_x S m fs0)) fs ops)) /\
  stripe_content S m fs0 (snd (run_ops (AdX (stripe_x S m fs0)) fs ops)) =
    snd (ref_run_fixed (stripe_content S m fs0 fs) ops).
Proof.
  intros S m fs0 ops fs HS P Hm HE Hbig.
  exact (x_run_ops_z _ _ _ _ (composite_refines (stripe_xf_composite S m fs0 HS P Hm HE Hbig)) ops fs).
Qed.
Print Assumptions ops_refine_plain_stripe.

(* What the composites send to their sub-files; vocabulary: C16_XTrace.ev_of, C15_Spec.tiles. *)
(* a request that starts at/after the end of a composite (or at a negative offset) is refused with EIO: nothing is
   forwarded, nothing changes (a plain file would return 0 / grow: such requests are outside the property) *)
Theorem composite_out_of_range : forall x isread fs buf off, off < 0 \/ x_size x <= off ->
  x_pio x isread fs buf off = mkRes (-1) EIO [buf] fs [].
Proof.
  intros x isread fs buf off H. unfold x_pio.
  destruct (Z.ltb_spec off 0); destruct (Z.leb_spec (x_size x) off); cbn [orb]; try reflexivity. lia.
Qed.
Print Assumptions composite_out_of_range.

(* the trace of one pread/pwrite is exactly one pread/pwrite per part; the parts are consecutive blocks, each request
   lies inside its block, they are contiguous and cover exactly the clipped range [off, off + min(len, size - off)) *)
Theorem linear_trace : forall u fs0 x fs isread buf off,
  0 < u -> equal_files u fs0 -> zlen fs0 * u < 2 ^ 63 -> fixed_xf u fs0 x ->
  Inv fs0 fs -> 0 <= off < zlen fs0 * u -> 0 < zlen buf < 2 ^ 63 ->
  exists l i0,
    rs_trace (x_pio x isread fs buf off) =
      map (fun p => mkEv (s_i p) (if isread then KPread else KPwrite) (s_off p) (s_len p) true) l /\
    tiles (fun i => i * u) (fun _ => u) off (off + Z.min (zlen buf) (zlen fs0 * u - off)) i0 l /\
    0 <= i0 /\ i0 + zlen l <= zlen fs0.
Proof.
  intros u fs0 x fs isread buf off Hu HE Hbig Hxf.
  exact (x_pio_trace _ _ _ _ _ _ _ (fixed_xf_composite u fs0 x Hu HE Hbig Hxf) isread fs buf off).
Qed.
Print Assumptions linear_trace.

Theorem linear_vi_trace : forall fs0 fs isread buf off,
  pos_files fs0 -> total fs0 < 2 ^ 63 ->
  Inv fs0 fs -> 0 <= off < total fs0 -> 0 < zlen buf < 2 ^ 63 ->
  exists l i0,
    rs_trace (x_pio (var_x fs0) isread fs buf off) =
      map (fun p => mkEv (s_i p) (if isread then KPread else KPwrite) (s_off p) (s_len p) true) l /\
    tiles (fun i => psum fs0 (Z.to_nat i)) (fun i => zlen (nth_file fs0 i)) off (off + Z.min (zlen buf) (total fs0 - off)) i0 l /\
    0 <= i0 /\ i0 + zlen l <= zlen fs0.
Proof.
  intros fs0 fs isread buf off HP Hbig HI Ho Hb.
  destruct (x_pio_trace _ _ _ _ _ _ _ (var_composite fs0 HP Hbig) isread fs buf off HI) as (l & i0 & T1 & T2 & T3 & T4);
    rewrite ?vl_Bn in * by assumption; try assumption.
  exists l, i0. split; [exact T1|]. split; [|split; assumption]. apply var_tiles; assumption.
Qed.
Print Assumptions linear_vi_trace.

(* StripeFile: block b goes to sub-file b mod n, stripe b / n *)
Theorem stripe_trace : forall S m fs0 fs isread buf off,
  0 < S -> is_power_of_2 S = true -> 0 < m -> equal_files (m * S) fs0 -> m * zlen fs0 * S < 2 ^ 63 ->
  Inv fs0 fs -> 0 <= off < m * zlen fs0 * S -> 0 < zlen buf < 2 ^ 63 ->
  exists l i0,
    rs_trace (x_pio (stripe_x S m fs0) isread fs buf off) =
      map (fun p => mkEv (s_i p mod zlen fs0) (if isread then KPread else KPwrite)
                         (s_i p / zlen fs0 * S + s_off p) (s_len p) true) l /\
    tiles (fun i => i * S) (fun _ => S) off (off + Z.min (zlen buf) (m * zlen fs0 * S - off)) i0 l /\
    0 <= i0 /\ i0 + zlen l <= m * zlen fs0.
Proof.
  intros S m fs0 fs isread buf off HS P Hm HE Hbig.
  exact (x_pio_trace _ _ _ _ _ _ _ (stripe_xf_composite S m fs0 HS P Hm HE Hbig) isread fs buf off).
Qed.
Print Assumptions stripe_trace.

(* a zero-length request forwards nothing, or ONE zero-length request to an existing sub-file *)
Theorem composite_trace_zero : forall x fs0 fs isread buf off,
  ((exists u, 0 < u /\ equal_files u fs0 /\ zlen fs0 * u < 2 ^ 63 /\ fixed_xf u fs0 x) \/
   (pos_files fs0 /\ total fs0 < 2 ^ 63 /\ x = var_x fs0) \/
   (exists S m, 0 < S /\ is_power_of_2 S = true /\ 0 < m /\ equal_files (m * S) fs0 /\ m * zlen fs0 * S < 2 ^ 63 /\
                x = stripe_x S m fs0)) ->
  Inv fs0 fs -> 0 <= off < x_size x -> zlen buf = 0 ->
  rs_trace (x_pio x isread fs buf off) = [] \/
  exists i p, 0 <= i < zlen fs0 /\ rs_trace (x_pio x isread fs buf off) = [ev_of isread (i, p, 0)].
Proof.
  intros x fs0 fs isread buf off [(u & Hu & HE & Hbig & Hxf)|[(HP & Hbig & ->)|(S & m & HS & P & Hm & HE & Hbig & ->)]].
  - exact (x_pio_trace_zero _ _ _ _ _ _ _ (fixed_xf_composite u fs0 x Hu HE Hbig Hxf) isread fs buf off).
  - exact (x_pio_trace_zero _ _ _ _ _ _ _ (var_composite fs0 HP Hbig) isread fs buf off).
  - exact (x_pio_trace_zero _ _ _ _ _ _ _ (stripe_xf_composite S m fs0 HS P Hm HE Hbig) isread fs buf off).
Qed.
Print Assumptions composite_trace_zero.

Example is_power_of_2_nonvacuous : is_power_of_2 4096 = true /\ is_power_of_2 12 = false /\ 0 < 4096 < W64.
Proof. repeat split. Qed.

Example composites_nonvacuous :
  let fs0 := [[1; 2; 3; 4]; [5; 6; 7; 8]; [9; 10; 11; 12]] in
  equal_files 4 fs0 /\ fixed_xf 4 fs0 (mkX (XFixedP2 4) 3 12) /\ fixed_xf 4 fs0 (mkX (XFixed 4) 3 12) /\
  fst (new_fixed 4 fs0) = Some (mkX (XFixedP2 4) 3 12) /\
  is_power_of_2 2 = true /\ equal_files (2 * 2) fs0 /\
  stripe_content 2 2 fs0 fs0 = [1; 2; 5; 6; 9; 10; 3; 4; 7; 8; 11; 12] /\
  fst (new_stripe 2 fs0) = Some (stripe_x 2 2 fs0) /\
  ops_ok_fixed_z (concat fs0) [OPwrite (mkSeg 0 [21; 22; 23]) 10; OPread (mkSeg 0 []) 11;
                               OPreadv [mkSeg 0 [0; 0]; mkSeg 0 []; mkSeg 0 [0; 0; 0]] 3; OPwritev [] 5; OFstat].
Proof.
  pose proof composites_ex as CE. cbv zeta in *. destruct CE as (E1 & _ & _ & _ & _ & SC & E2 & _).
  split; [exact E1|]. split; [right; split; reflexivity|]. split; [left; reflexivity|]. split; [reflexivity|].
  split; [reflexivity|]. split; [exact E2|]. split; [exact SC|]. split; [reflexivity|].
  cbn. repeat split; lia.
Qed.

Example linear_vi_nonvacuous :
  let fs0 := [[1; 2; 3]; [4]; [5; 6; 7; 8; 9]; [10; 11]] in
  pos_files fs0 /\ total fs0 = 11 /\ Inv fs0 fs0 /\
  var_x fs0 = mkX (XVar [0; 3; 4; 9; 11; MAX64]) 4 11 /\ fst (new_linear fs0) = Some (var_x fs0) /\
  ops_ok_fixed_z (concat fs0) [OPwrite (mkSeg 0 [21; 22; 23; 24]) 2; OPread (mkSeg 0 []) 10;
                               OPreadv [mkSeg 0 [0; 0]; mkSeg 0 []; mkSeg 0 [0; 0; 0]] 8; OPwritev [] 0; OFstat].
Proof.
  cbv zeta. split; [split; [reflexivity|repeat constructor]|].
  split; [reflexivity|]. split; [apply Inv_refl|]. split; [reflexivity|]. split; [reflexivity|].
  cbn. repeat split; lia.
Qed.

Example linear_factory_nonvacuous :
  linear_factory (mkX (XFixedP2 4) 2 8) [[1; 2; 3; 4]; [5; 6; 7; 8]] /\
  linear_factory (var_x [[1; 2; 3]; [4]; [5; 6; 7; 8; 9]]) [[1; 2; 3]; [4]; [5; 6; 7; 8; 9]] /\
  ops_ok_fixed_z (concat [[1; 2; 3]; [4]; [5; 6; 7; 8; 9]])
    [OPwrite (mkSeg 0 [21; 22; 23; 24]) 2; OPread (mkSeg 0 []) 8; OPreadv [mkSeg 0 [0; 0]; mkSeg 0 []; mkSeg 0 [0; 0; 0]] 6; OFstat].
Proof.
  split; [left; exists 4; split; [lia|]; split; [reflexivity|repeat constructor]|].
  split; [right; split; [reflexivity|repeat constructor]|].
  cbn. repeat split; lia.
Qed.

Example linear_factories_nonvacuous :
  (exists x, fst (new_fixed 4 [[1; 2; 3; 4]; [5; 6; 7; 8]]) = Some x) /\
  (exists x, fst (new_linear [[1; 2; 3]; [4]; [5; 6; 7; 8; 9]]) = Some x) /\
  Forall (fun f : file => zlen f = 4) [[1; 2; 3; 4]; [5; 6; 7; 8]] /\
  Forall (fun f : file => 0 < zlen f) [[1; 2; 3]; [4]; [5; 6; 7; 8; 9]].
Proof. split; [eexists; reflexivity|]. split; [eexists; reflexivity|]. split; repeat constructor. Qed.
