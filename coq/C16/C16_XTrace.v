(* C16_XTrace.v — what the composites (fs/xfile.cpp) send to their sub-files: the trace of one pread/pwrite is
   exactly one pread/pwrite per part of the splitter, and the parts tile the (clipped) request block by block
   (C15's [tiles]): consecutive blocks, each request inside its block, contiguous, covering [off, off+count). *)
From Coq Require Import ZArith List Lia.
From PV Require Import C15.C15_Spec.
From PV Require Import C16.C16_Model C16.C16_XGeneric.
Import ListNotations.
Local Open Scope Z_scope.

(* the sub-file request of one part (sub-file index, offset inside it, length) *)
Definition ev_of (isread : bool) (q : Z * Z * Z) : event :=
  mkEv (fst (fst q)) (if isread then KPread else KPwrite) (snd (fst q)) (snd q) true.

Lemma pio_loop_trace isread : forall parts fs buf pos tr,
  fst (fst (fst (pio_loop isread fs buf pos parts tr))) = 0 ->
  snd (pio_loop isread fs buf pos parts tr) = tr ++ map (ev_of isread) parts.
Proof.
  induction parts as [|[[i p] len] rest IH]; intros fs buf pos tr H.
  - cbn [pio_loop map snd]. rewrite app_nil_r. reflexivity.
  - cbn [pio_loop map] in *. destruct (get_file fs i) as [f|]; [|cbn in H; discriminate H].
    destruct isread.
    + destruct (zlen (f_pread f len p) <? len); [cbn in H; discriminate H|].
      rewrite (IH _ _ _ _ H). rewrite <- app_assoc. reflexivity.
    + rewrite (IH _ _ _ _ H). rewrite <- app_assoc. reflexivity.
Qed.

Section CompositeTrace.
  Variables (B L fidx fbase : Z -> Z) (nb : Z) (fs0 : list file) (x : xfile).
  Hypothesis HC : composite B L fidx fbase nb fs0 x.

  Lemma x_pio_trace isread fs buf off : Inv fs0 fs -> 0 <= off < B nb -> 0 < zlen buf < 2 ^ 63 ->
    exists l i0,
      rs_trace (x_pio x isread fs buf off) = map (fun p => ev_of isread (conv fidx fbase p)) l /\
      tiles B L off (off + Z.min (zlen buf) (B nb - off)) i0 l /\ 0 <= i0 /\ i0 + zlen l <= nb.
  Proof.
    intros HI Ho Hb. pose proof (co_layout HC) as HL.
    rewrite (x_pio_in HC) by lia. set (count := Z.min (zlen buf) (B nb - off)).
    destruct (co_parts HC off count ltac:(lia) ltac:(lia) ltac:(lia)) as (l & i0 & HP & HT & Hi0 & Hl).
    rewrite HP. exists l, i0. split; [|auto].
    pose proof (pio_loop_trace isread (map (conv fidx fbase) l) fs buf 0 []) as PT.
    assert (ST : fst (fst (fst (pio_loop isread fs buf 0 (map (conv fidx fbase) l) []))) = 0).
    { destruct isread.
      - apply (loop_read HL fs HI l off (off + count) i0 buf 0 [] HT Hi0 Hl); lia.
      - apply (loop_write HL buf l fs off (off + count) i0 0 [] HI HT Hi0 Hl); lia. }
    specialize (PT ST).
    destruct (pio_loop isread fs buf 0 (map (conv fidx fbase) l) []) as [[[st fs'] b'] tr'].
    cbn [fst snd] in *. cbn [rs_trace]. rewrite PT. cbn [app]. rewrite map_map. reflexivity.
  Qed.

  Lemma x_pio_trace_zero isread fs buf off : Inv fs0 fs -> 0 <= off < x_size x -> zlen buf = 0 ->
    rs_trace (x_pio x isread fs buf off) = [] \/
    exists i p, 0 <= i < zlen fs0 /\ rs_trace (x_pio x isread fs buf off) = [ev_of isread (i, p, 0)].
  Proof.
    intros HI Ho Hb. rewrite (co_size HC) in Ho.
    exact (proj2 (proj2 (proj2 (x_pio_zero HC isread fs buf off HI Ho Hb)))).
  Qed.
End CompositeTrace.
