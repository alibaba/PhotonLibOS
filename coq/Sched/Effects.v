(* Sched/Effects.v — what each scheduler operation of Core.v does to every thread record and to
   the other state components (any U).  Used by the per-property invariants. *)
From Coq Require Import ZArith List Bool Arith Lia.
From PV Require Import Base.U64 C04.C04_Heap C04.C04_HeapProofs Sched.Core Sched.Lemmas Sched.Invariant.
Import ListNotations.
Local Open Scope Z_scope.

Section EFF.
  Variable U : Type.
  Implicit Types st : state U.

  Lemma getth_prelocked_interrupt st t e u :
    (t < nthreads st)%nat ->
    getth (prelocked_interrupt st t e) u =
    if Nat.eqb u t
    then set_tstate (set_twaitq (set_tesrc (set_terr (getth st t) e) (length (s_trace st))) None) READY
    else getth st u.
  Proof.
    intros Hr. unfold prelocked_interrupt. cbv zeta.
    change (getth (set_runq ?a ?b) u) with (getth a u). change (getth (set_sleepq ?a ?b) u) with (getth a u).
    rewrite getth_dequeue_ready by (rewrite nthreads_modth; exact Hr).
    rewrite !getth_modth_in, Nat.eqb_refl by exact Hr. destruct (Nat.eqb u t); reflexivity.
  Qed.

  Definition interrupted (th : thread) (e : Z) (src : nat) : thread :=
    match th_state th with
    | SLEEPING => set_tstate (set_twaitq (set_tesrc (set_terr th e) src) None) READY
    | READY => if th_err th =? 0 then set_tesrc (set_terr th e) src else th
    | _ => th
    end.

  Lemma interrupted_state_cases th e src :
    (th_state th = SLEEPING /\ th_state (interrupted th e src) = READY) \/
    (th_state th <> SLEEPING /\ th_state (interrupted th e src) = th_state th).
  Proof.
    unfold interrupted. destruct (th_state th) eqn:E; thsimpl; try (right; split; [discriminate|auto]; fail).
    - right. split; [discriminate|]. destruct (th_err th =? 0); thsimpl; auto.
    - left. auto.
  Qed.
  Lemma interrupted_issued th e src : th_issued (interrupted th e src) = th_issued th.
  Proof. unfold interrupted. destruct (th_state th); auto. destruct (th_err th =? 0); auto. Qed.

  Lemma getth_thread_interrupt st t e u :
    getth (thread_interrupt st t e) u =
    if Nat.eqb u t then interrupted (getth st t) e (length (s_trace st)) else getth st u.
  Proof.
    unfold thread_interrupt, interrupted.
    destruct (th_state (getth st t)) eqn:Es; try (destruct (Nat.eqb_spec u t) as [->|]; reflexivity).
    - destruct (th_err (getth st t) =? 0); [|destruct (Nat.eqb_spec u t) as [->|]; reflexivity].
      apply getth_modth_in, created_in_range. rewrite Es. discriminate.
    - apply getth_prelocked_interrupt, sleeping_in_range, Es.
  Qed.

  Lemma thread_interrupt_frame_eq st t e :
    let st' := thread_interrupt st t e in
    s_runq st' = (if tstate_eqb (th_state (getth st t)) SLEEPING then s_runq st ++ [t] else s_runq st) /\
    frame_eq U st st'.
  Proof.
    unfold thread_interrupt. destruct (th_state (getth st t)); cbn [tstate_eqb];
      try (split; [reflexivity|apply frame_eq_refl]).
    - destruct (th_err (getth st t) =? 0); split; try reflexivity; [apply frame_modth|apply frame_eq_refl].
    - apply prelocked_interrupt_frame.
  Qed.

  Lemma thread_interrupt_frame st t e :
    let st' := thread_interrupt st t e in
    s_runq st' = (if tstate_eqb (th_state (getth st t)) SLEEPING then s_runq st ++ [t] else s_runq st) /\
    nthreads st' = nthreads st /\ s_now st' = s_now st /\ s_clock st' = s_clock st /\ s_trace st' = s_trace st /\
    s_end st' = s_end st /\ s_stuck st' = s_stuck st /\ s_user st' = s_user st.
  Proof. destruct (thread_interrupt_frame_eq st t e) as (R & Fr). exact (conj R (proj2 Fr)). Qed.

  Lemma getth_thread_shutdown st t flag u :
    getth (thread_shutdown st t flag) u =
    if Nat.eqb u t && Nat.ltb t (nthreads st)
    then (let th := set_tshutdown (getth st t) flag in
          if tstate_eqb (th_state th) SLEEPING then interrupted th EPERM (length (s_trace st)) else th)
    else getth st u.
  Proof.
    unfold thread_shutdown. cbv zeta.
    set (st1 := modth st t (fun th => set_tshutdown th flag)).
    pose proof (fun v => getth_modth U st t (fun th => set_tshutdown th flag) v : getth st1 v = _) as G1.
    destruct (Nat.ltb_spec t (nthreads st)) as [Hr|Hr].
    - rewrite andb_true_r. setoid_rewrite andb_true_r in G1. rewrite (G1 t), Nat.eqb_refl.
      destruct (tstate_eqb _ SLEEPING); [|apply G1].
      rewrite getth_thread_interrupt, !G1, Nat.eqb_refl. destruct (Nat.eqb u t); reflexivity.
    - rewrite andb_false_r. setoid_rewrite andb_false_r in G1. rewrite (G1 t), (getth_out U st t Hr). apply G1.
  Qed.

  Lemma thread_shutdown_frame st t flag :
    let st' := thread_shutdown st t flag in
    s_runq st' = (if tstate_eqb (th_state (getth st t)) SLEEPING then s_runq st ++ [t] else s_runq st) /\
    nthreads st' = nthreads st /\ s_now st' = s_now st /\ s_clock st' = s_clock st /\ s_trace st' = s_trace st /\
    s_end st' = s_end st /\ s_stuck st' = s_stuck st /\ s_user st' = s_user st.
  Proof.
    unfold thread_shutdown. cbv zeta.
    set (st1 := modth st t (fun th => set_tshutdown th flag)).
    assert (Es : th_state (getth st1 t) = th_state (getth st t)) by (apply (getth_modth_proj U th_state); reflexivity).
    rewrite Es. destruct (tstate_eqb (th_state (getth st t)) SLEEPING) eqn:E.
    - destruct (thread_interrupt_frame_eq st1 t EPERM) as (R & Fr). rewrite Es, E in R.
      exact (conj R (proj2 (frame_eq_trans U _ _ _ (frame_modth U st t _) Fr))).
    - exact (conj eq_refl (proj2 (frame_modth U st t _))).
  Qed.

  Lemma set_error_number_spec st t :
    let '(st', r, e) := set_error_number st t in
    (forall u, getth st' u = if Nat.eqb u t && Nat.ltb t (nthreads st) then set_terr (getth st t) 0 else getth st u) /\
    (if th_err (getth st t) =? 0 then r = 0 /\ e = 0 else r = -1 /\ e = th_err (getth st t)) /\
    same_sched st st' /\ s_trace st' = s_trace st /\ s_end st' = s_end st /\ s_stuck st' = s_stuck st /\ s_user st' = s_user st.
  Proof.
    unfold set_error_number. destruct (th_err (getth st t) =? 0) eqn:E.
    - split; [|split; [auto|split; [apply same_sched_refl|repeat split]]].
      intros u. destruct (Nat.eqb_spec u t) as [->|]; simpl; auto.
      destruct (Nat.ltb t (nthreads st)); auto.
      apply Z.eqb_eq in E. destruct (getth st t); simpl in *; subst; reflexivity.
    - split; [intros; apply getth_modth|]. split; [auto|].
      split; [apply same_sched_modth; intros th; repeat split; reflexivity|repeat split].
  Qed.

  Lemma getth_do_create st k j u :
    (k < nthreads st)%nat ->
    getth (do_create st k j) u =
    if Nat.eqb u k then mkThread READY 0 None 0 j false 0 0 [] 0 false 0 false false else getth st u.
  Proof. intros Hk. apply getth_setth_in, Hk. Qed.

  Lemma getth_waitq_resume_one st q e u :
    WF st ->
    getth (fst (waitq_resume_one st q e)) u =
    match wq_get st q with
    | [] => getth st u
    | x :: _ => if Nat.eqb u x
                then set_tstate (set_twaitq (set_tesrc (set_terr (getth st x) e) (length (s_trace st))) None) READY
                else getth st u
    end.
  Proof.
    intros W. unfold waitq_resume_one. destruct (wq_get st q) as [|x r] eqn:Eq; [reflexivity|]. cbn [fst].
    apply getth_prelocked_interrupt, (sleeping_in_range U), (wf_wq_in _ _ W q). rewrite Eq. left; auto.
  Qed.

  Lemma do_die_spec st t rv to rest :
    WF st -> s_runq st = t :: to :: rest ->
    let st' := do_die st t rv in
    let h := match wq_get st (QJoin t) with [] => None | x :: _ => Some x end in
    (forall u, getth st' u =
       if Nat.eqb u t then set_tretval (set_tstate (getth st t) DONE) rv
       else let th := (match h with
                       | Some x => if Nat.eqb u x then set_tstate (set_twaitq (set_tesrc (set_terr (getth st x) (-1)) (length (s_trace st))) None) READY
                                   else getth st u
                       | None => getth st u end) in
            if Nat.eqb u to then set_tstate th RUNNING else th) /\
    s_runq st' = (to :: rest) ++ (match h with Some x => [x] | None => [] end) /\
    nthreads st' = nthreads st /\ s_now st' = s_now st /\ s_clock st' = s_clock st /\ s_trace st' = s_trace st /\
    s_end st' = s_end st /\ s_stuck st' = s_stuck st /\ s_user st' = s_user st /\
    (forall x, h = Some x -> th_state (getth st x) = SLEEPING /\ th_waitq (getth st x) = Some (QJoin t) /\ x <> t /\ x <> to).
  Proof.
    intros W Hr. cbv zeta. unfold do_die.
    destruct (ring_head U _ _ _ _ W Hr) as (Hne & Ht & Hto & _).
    assert (Hh : forall x, In x (wq_get st (QJoin t)) ->
                 th_state (getth st x) = SLEEPING /\ th_waitq (getth st x) = Some (QJoin t) /\ x <> t /\ x <> to).
    { intros x Hx. destruct (wf_wq_in _ _ W _ _ Hx) as (Hs & Hq).
      repeat split; auto; intros ->; apply (sleeping_not_in_ring U st _ W Hs); rewrite Hr; simpl; auto. }
    destruct (do_die_prep U st t rv to rest W Hr) as (_ & Fr & R2).
    set (f := fun th => set_tretval (set_tstate th DONE) rv) in *.
    pose proof (fun u => getth_modth_in U st t f u Ht) as G1.
    pose proof (fun u => getth_waitq_resume_one (modth st t f) (QJoin t) (-1) u
                           (WF_mark_done U st t rv W ltac:(rewrite Hr; left; auto))) as G2.
    set (st2 := fst (waitq_resume_one (modth st t f) (QJoin t) (-1))) in *. clearbody st2.
    change (wq_get (modth st t f) (QJoin t)) with (wq_get st (QJoin t)) in G2.
    change (s_trace (modth st t f)) with (s_trace st) in G2.
    set (l := rest ++ match wq_get st (QJoin t) with [] => [] | x :: _ => [x] end) in R2.
    assert (N2 : nthreads st2 = nthreads st) by apply Fr.
    pose proof (fun u => getth_remove_current U st2 t to l DONE u R2 Hne
                           ltac:(rewrite N2; exact Ht) ltac:(rewrite N2; exact Hto)) as G3.
    rewrite (remove_current_switch U st2 _ _ _ DONE R2) in *.
    destruct (frame_eq_trans U _ _ _ Fr (frame_switch U st2 t to (fun th => set_tstate th DONE) (to :: l)))
      as (_ & N & No & C & T & E & K & Us).
    subst l.
    assert (Btt : Nat.eqb to t = false) by (apply Nat.eqb_neq; auto).
    assert (Btt' : Nat.eqb t to = false) by (apply Nat.eqb_neq; auto).
    destruct (wq_get st (QJoin t)) as [|x r];
      (split; [|split; [reflexivity|repeat (split; [assumption|])]]).
    - intros u. rewrite G3, !G2, !G1, Nat.eqb_refl, Btt.
      destruct (Nat.eqb_spec u t) as [->|]; [rewrite Btt'; reflexivity|].
      destruct (Nat.eqb_spec u to) as [->|]; reflexivity.
    - discriminate.
    - destruct (Hh x (or_introl eq_refl)) as (_ & _ & Hxt & Hxto).
      assert (Bx : Nat.eqb x t = false) by (apply Nat.eqb_neq; auto).
      assert (Bt : Nat.eqb t x = false) by (apply Nat.eqb_neq; auto).
      assert (Bto : Nat.eqb to x = false) by (apply Nat.eqb_neq; auto).
      intros u. rewrite G3, !G2, !G1, Nat.eqb_refl, Btt, Bx, Bt, Bto.
      destruct (Nat.eqb_spec u t) as [->|]; [rewrite Btt'; reflexivity|].
      destruct (Nat.eqb_spec u to) as [->|]; [rewrite Bto; reflexivity|].
      destruct (Nat.eqb u x); reflexivity.
    - intros x0 [= <-]. apply Hh. left; auto.
  Qed.

End EFF.
