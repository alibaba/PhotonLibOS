(* Sched/Invariant.v — the structural invariant WF of the cooperative scheduler model and its
   preservation by every scheduler operation of Sched/Core.v (any user state U). *)
From Coq Require Import ZArith List Bool Arith Lia Permutation.
From PV Require Import Base.U64 C04.C04_Heap C04.C04_HeapProofs Sched.Core Sched.Lemmas.
Import ListNotations.
Local Open Scope Z_scope.

Ltac thsimpl :=
  cbn [th_state th_err th_waitq th_ts th_joinable th_shutdown th_retval th_pc th_k th_issued
       th_shut_issue th_esrc th_join_claimed th_joined
       set_tstate set_terr set_twaitq set_tts set_tshutdown set_tretval set_tk set_tpc set_tissued
       set_tshut_issue set_tesrc set_tjoin_claimed set_tjoined] in *.

Section INV.
  Variable U : Type.
  Implicit Types st : state U.

  Definition ring_ok (s : tstate) : Prop := s <> SLEEPING /\ s <> NOTCREATED.

  Record WF st : Prop := mkWF {
    wf_nodup : NoDup (s_runq st);
    wf_runq : forall t, In t (s_runq st) -> ring_ok (th_state (getth st t));
    wf_idler : In (idler_tid st) (s_runq st);
    wf_heap : Inv (ts_of st) (s_sleepq st);
    wf_sleep : forall t, In t (hq (s_sleepq st)) <-> th_state (getth st t) = SLEEPING;
    wf_standby : s_standby st = [];
    wf_wq_in : forall q t, In t (wq_get st q) -> th_state (getth st t) = SLEEPING /\ th_waitq (getth st t) = Some q;
    wf_wq_of : forall t q, th_waitq (getth st t) = Some q -> In t (wq_get st q);
    wf_wq_nodup : forall q, NoDup (wq_get st q);
    wf_clock : s_now st <= s_clock st
  }.

  (* the components WF talks about *)
  Definition same_sched st st' : Prop :=
    s_runq st' = s_runq st /\ s_sleepq st' = s_sleepq st /\ s_standby st' = s_standby st /\
    s_waitqs st' = s_waitqs st /\ s_now st' = s_now st /\ s_clock st' = s_clock st /\
    nthreads st' = nthreads st /\
    (forall t, th_state (getth st' t) = th_state (getth st t) /\
               th_ts (getth st' t) = th_ts (getth st t) /\
               th_waitq (getth st' t) = th_waitq (getth st t)).

  (* the components that a wake-up and a context switch leave alone *)
  Definition frame_eq st st' : Prop :=
    s_standby st' = s_standby st /\
    nthreads st' = nthreads st /\ s_now st' = s_now st /\ s_clock st' = s_clock st /\ s_trace st' = s_trace st /\
    s_end st' = s_end st /\ s_stuck st' = s_stuck st /\ s_user st' = s_user st.

  Lemma frame_eq_refl st : frame_eq st st.
  Proof. repeat split. Qed.
  Lemma frame_eq_trans a b c : frame_eq a b -> frame_eq b c -> frame_eq a c.
  Proof.
    intros (A1&A2&A3&A4&A5&A6&A7&A8) (B1&B2&B3&B4&B5&B6&B7&B8). repeat split; congruence.
  Qed.

  Lemma frame_modth st t f : frame_eq st (modth st t f).
  Proof. split; [reflexivity|split; [apply nthreads_modth|repeat split]]. Qed.

  Lemma idler_tid_nthreads st st' : nthreads st' = nthreads st -> idler_tid st' = idler_tid st.
  Proof. unfold idler_tid, nthreads. intros ->. reflexivity. Qed.

  (* Nobody falls asleep or wakes up: st' differs from st only in th_state of threads that are awake
     before and after, in th_ts of threads outside the heap (and in fields WF ignores), in the run
     queue, and in the clock. *)
  Lemma WF_restate st st' :
    WF st ->
    (forall u, In u (hq (s_sleepq st)) -> th_ts (getth st' u) = th_ts (getth st u)) ->
    (forall u, th_waitq (getth st' u) = th_waitq (getth st u)) ->
    (forall u, th_state (getth st' u) = SLEEPING <-> th_state (getth st u) = SLEEPING) ->
    s_sleepq st' = s_sleepq st -> s_standby st' = s_standby st -> s_waitqs st' = s_waitqs st ->
    nthreads st' = nthreads st -> s_now st' <= s_clock st' ->
    NoDup (s_runq st') -> (forall u, In u (s_runq st') -> ring_ok (th_state (getth st' u))) ->
    In (idler_tid st) (s_runq st') -> WF st'.
  Proof.
    intros W Hts Hf Hsl Hq Hb Hw Hn Hc Hnd Hro Hid.
    assert (Hwq : forall q, wq_get st' q = wq_get st q) by (intros; unfold wq_get; rewrite Hw; auto).
    constructor; auto.
    - rewrite (idler_tid_nthreads _ _ Hn). auto.
    - rewrite Hq. eapply Inv_ts_ext; [apply W|]. exact Hts.
    - intros u. rewrite Hq, Hsl. apply W.
    - rewrite Hb. apply W.
    - intros q u. rewrite Hwq, Hf, Hsl. apply W.
    - intros u q. rewrite Hwq, Hf. apply W.
    - intros q. rewrite Hwq. apply W.
  Qed.

  Lemma WF_same st st' : same_sched st st' -> WF st -> WF st'.
  Proof.
    intros (Hr & Hs & Hb & Hw & Hn & Hc & Hl & Ht) W.
    apply (WF_restate st); auto; rewrite ?Hr, ?Hn, ?Hc; try apply W.
    - intros u _. apply Ht.
    - intros u. apply Ht.
    - intros u. destruct (Ht u) as (-> & _). tauto.
    - intros u Hu. destruct (Ht u) as (-> & _). apply W, Hu.
  Qed.

  Definition sched_neutral (f : thread -> thread) : Prop :=
    forall th, th_state (f th) = th_state th /\ th_ts (f th) = th_ts th /\ th_waitq (f th) = th_waitq th.

  Lemma same_sched_modth st t f : sched_neutral f -> same_sched st (modth st t f).
  Proof.
    intros Hf. unfold same_sched. repeat split; try reflexivity.
    - apply nthreads_modth.
    - apply (getth_modth_proj U th_state). intros; apply Hf.
    - apply (getth_modth_proj U th_ts). intros; apply Hf.
    - apply (getth_modth_proj U th_waitq). intros; apply Hf.
  Qed.

  Lemma WF_modth_neutral st t f : sched_neutral f -> WF st -> WF (modth st t f).
  Proof. intros Hf. apply WF_same, same_sched_modth, Hf. Qed.

  Lemma same_sched_refl st : same_sched st st.
  Proof. unfold same_sched; repeat split; reflexivity. Qed.
  Lemma same_sched_trans a b c : same_sched a b -> same_sched b c -> same_sched a c.
  Proof.
    unfold same_sched. intros (A1&A2&A3&A4&A5&A6&A7&A8) (B1&B2&B3&B4&B5&B6&B7&B8).
    repeat (split; [congruence|]).
    intros t. destruct (A8 t) as (X&Y&Z); destruct (B8 t) as (X'&Y'&Z'). repeat split; congruence.
  Qed.

  Lemma same_sched_set_trace st x : same_sched st (set_trace st x).
  Proof. exact (same_sched_refl st). Qed.
  Lemma same_sched_set_user st x : same_sched st (set_user st x).
  Proof. exact (same_sched_refl st). Qed.
  Lemma same_sched_set_stuck st : same_sched st (set_stuck st).
  Proof. exact (same_sched_refl st). Qed.
  Lemma same_sched_set_end st : same_sched st (set_end st).
  Proof. exact (same_sched_refl st). Qed.

  Lemma created_in_range st t : th_state (getth st t) <> NOTCREATED -> (t < nthreads st)%nat.
  Proof.
    intros H. destruct (Nat.ltb_spec t (nthreads st)); auto.
    rewrite getth_out in H by auto. destruct H. reflexivity.
  Qed.
  Lemma sleeping_in_range st t : th_state (getth st t) = SLEEPING -> (t < nthreads st)%nat.
  Proof. intros H. apply created_in_range. rewrite H. discriminate. Qed.
  Lemma ring_in_range st t : WF st -> In t (s_runq st) -> (t < nthreads st)%nat.
  Proof. intros W H. apply created_in_range, (wf_runq _ W), H. Qed.
  Lemma sleeping_not_in_ring st t : WF st -> th_state (getth st t) = SLEEPING -> ~ In t (s_runq st).
  Proof. intros W H Hin. apply (wf_runq _ W) in Hin. destruct Hin; congruence. Qed.
  Lemma not_sleeping_no_queue st t q : WF st -> th_state (getth st t) <> SLEEPING -> ~ In t (wq_get st q).
  Proof. intros W H Hin. apply (wf_wq_in _ W) in Hin. destruct Hin; congruence. Qed.

  Lemma ring_head st from to rest :
    WF st -> s_runq st = from :: to :: rest ->
    from <> to /\ (from < nthreads st)%nat /\ (to < nthreads st)%nat /\
    ring_ok (th_state (getth st from)) /\ ring_ok (th_state (getth st to)).
  Proof.
    intros W Hr. pose proof (wf_nodup _ W) as Hnd. rewrite Hr in Hnd.
    assert (Hf : In from (s_runq st)) by (rewrite Hr; simpl; auto).
    assert (Ht : In to (s_runq st)) by (rewrite Hr; simpl; auto).
    split; [|repeat split; solve [apply ring_in_range; auto | apply (wf_runq _ W); auto]].
    inversion Hnd as [|? ? Hx _]; subst. intros ->. apply Hx. left; auto.
  Qed.

  Lemma In_idler_tail st from rest :
    WF st -> s_runq st = from :: rest -> from <> idler_tid st -> In (idler_tid st) rest.
  Proof.
    intros W Hr Hne. pose proof (wf_idler _ W) as Hi. rewrite Hr in Hi. destruct Hi; congruence.
  Qed.

  Lemma perm_nodup_in (l l' : list tid) t :
    NoDup l -> Permutation l (t :: l') -> (forall u, In u l' <-> In u l /\ u <> t) /\ NoDup l'.
  Proof.
    intros Hnd Hp. pose proof (Permutation_NoDup Hp Hnd) as Hnd'.
    inversion Hnd' as [|? ? Hnt Hl']; subst. split; auto. intros u.
    assert (E : In u l <-> In u (t :: l')) by (split; apply Permutation_in; [|symmetry]; exact Hp).
    rewrite E. simpl. split.
    - intros Hu. split; [auto|intros ->; auto].
    - intros ([->|Hu] & Hne); [congruence|auto].
  Qed.

  Lemma WF_update_now st : WF st -> WF (update_now st).
  Proof. intros W. apply (WF_restate st); auto; try reflexivity; try apply W. Qed.

  Lemma WF_set_clock st x : WF st -> s_now st <= x -> WF (set_clock st x).
  Proof. intros W Hx. apply (WF_restate st); auto; try reflexivity; apply W. Qed.

  Lemma WF_set_runq st l :
    WF st -> NoDup l -> (forall u, In u l -> In u (s_runq st) \/ ring_ok (th_state (getth st u))) ->
    In (idler_tid st) l -> WF (set_runq st l).
  Proof.
    intros W Hnd Hl Hid. apply (WF_restate st); auto; try reflexivity; try apply W.
    intros u Hu. destruct (Hl u Hu) as [Hin|Hok]; [apply W, Hin|exact Hok].
  Qed.

  Lemma WF_append_ring st (l : list tid) :
    WF st -> NoDup l -> (forall u, In u l -> th_state (getth st u) = READY /\ ~ In u (s_runq st)) ->
    WF (set_runq st (s_runq st ++ l)).
  Proof.
    intros W Hnd Hl. apply WF_set_runq; auto.
    - apply NoDup_app_disjoint; auto; [apply W|]. intros u Hu. apply Hl, Hu.
    - intros u. rewrite in_app_iff. intros [Hu|Hu]; [left; exact Hu|right].
      destruct (Hl _ Hu) as (-> & _). split; discriminate.
    - rewrite in_app_iff. left. apply W.
  Qed.

  Lemma WF_modth_awake st t f ns :
    WF st -> th_state (getth st t) <> SLEEPING -> ns <> SLEEPING -> (In t (s_runq st) -> ring_ok ns) ->
    (forall th, th_state (f th) = ns /\ th_ts (f th) = th_ts th /\ th_waitq (f th) = th_waitq th) ->
    WF (modth st t f).
  Proof.
    intros W Hs Hns Hro Hf.
    apply (WF_restate st); auto; try reflexivity; try apply W.
    - intros u _. destruct (getth_modth_cases U st t f u) as [->|(-> & ->)]; [reflexivity|apply Hf].
    - intros u. destruct (getth_modth_cases U st t f u) as [->|(-> & ->)]; [reflexivity|apply Hf].
    - intros u. destruct (getth_modth_cases U st t f u) as [->|(-> & ->)]; [tauto|].
      rewrite (proj1 (Hf _)). tauto.
    - apply nthreads_modth.
    - intros u Hu. destruct (getth_modth_cases U st t f u) as [->|(-> & ->)]; [apply W, Hu|].
      rewrite (proj1 (Hf _)). apply Hro, Hu.
  Qed.

  (* do_yield, do_yield_to and remove_current all rewrite the record of the running thread `from`,
     make `to` RUNNING and install a new ring *)
  Definition switch st (from to : tid) (f : thread -> thread) (l : list tid) : state U :=
    set_runq (modth (modth st from f) to (fun th => set_tstate th RUNNING)) l.

  Lemma do_yield_switch st from to rest :
    s_runq st = from :: to :: rest ->
    do_yield st = switch (update_now st) from to (fun th => set_tstate (set_terr th 0) READY) (to :: rest ++ [from]).
  Proof. intros Hr. unfold do_yield. rewrite Hr. reflexivity. Qed.

  Lemma do_yield_to_switch st from rest k :
    s_runq st = from :: rest ->
    do_yield_to st k =
    switch (update_now st) from k (fun th => set_tstate (set_terr th 0) READY) (k :: from :: remove_tid k rest).
  Proof. intros Hr. unfold do_yield_to. rewrite Hr. reflexivity. Qed.

  Lemma remove_current_switch st from to rest ns :
    s_runq st = from :: to :: rest ->
    remove_current st ns = switch st from to (fun th => set_tstate th ns) (to :: rest).
  Proof. intros Hr. unfold remove_current. rewrite Hr. reflexivity. Qed.

  Lemma nthreads_switch st from to f l : nthreads (switch st from to f l) = nthreads st.
  Proof. unfold switch. change (nthreads (set_runq ?a ?b)) with (nthreads a). rewrite !nthreads_modth. reflexivity. Qed.

  Lemma frame_switch st from to f l : frame_eq st (switch st from to f l).
  Proof. split; [reflexivity|split; [apply nthreads_switch|repeat split]]. Qed.

  Lemma getth_switch st from to f l u :
    from <> to -> (from < nthreads st)%nat -> (to < nthreads st)%nat ->
    getth (switch st from to f l) u =
    if Nat.eqb u to then set_tstate (getth st to) RUNNING
    else if Nat.eqb u from then f (getth st from) else getth st u.
  Proof.
    intros Hne Hf Ht. unfold switch. change (getth (set_runq ?x ?y) u) with (getth x u).
    rewrite getth_modth_in by (rewrite nthreads_modth; exact Ht).
    rewrite !getth_modth_in by exact Hf.
    destruct (Nat.eqb_spec to from); [congruence|reflexivity].
  Qed.

  Lemma WF_switch st from to f ns l :
    WF st -> th_state (getth st from) <> SLEEPING -> ring_ok (th_state (getth st to)) ->
    ns <> SLEEPING -> (In from l -> ring_ok ns) ->
    (forall th, th_state (f th) = ns /\ th_ts (f th) = th_ts th /\ th_waitq (f th) = th_waitq th) ->
    NoDup l -> (forall u, In u l -> u = to \/ In u (s_runq st)) -> In (idler_tid st) l ->
    WF (switch st from to f l).
  Proof.
    intros W Hfs Hts Hns Hro Hf Hnd Hl Hid.
    assert (W0 : WF (set_runq st l)).
    { apply WF_set_runq; auto. intros u Hu. destruct (Hl u Hu) as [->|Hin]; auto. }
    assert (W1 : WF (modth (set_runq st l) from f)) by (apply (WF_modth_awake _ _ _ ns); auto).
    apply (WF_modth_awake (modth (set_runq st l) from f) to _ RUNNING W1); try discriminate.
    - destruct (getth_modth_cases U (set_runq st l) from f to) as [->|(-> & ->)]; [apply Hts|].
      rewrite (proj1 (Hf _)). exact Hns.
    - intros _. split; discriminate.
    - intros th; repeat split; reflexivity.
  Qed.

  Lemma getth_do_yield st from to rest u :
    s_runq st = from :: to :: rest -> from <> to -> (from < nthreads st)%nat -> (to < nthreads st)%nat ->
    getth (do_yield st) u =
    if Nat.eqb u to then set_tstate (getth st to) RUNNING
    else if Nat.eqb u from then set_tstate (set_terr (getth st from) 0) READY else getth st u.
  Proof. intros Hr. rewrite (do_yield_switch _ _ _ _ Hr). apply (getth_switch (update_now st)). Qed.

  Lemma do_yield_frame st from to rest :
    s_runq st = from :: to :: rest ->
    s_runq (do_yield st) = to :: rest ++ [from] /\ frame_eq (update_now st) (do_yield st).
  Proof. intros Hr. rewrite (do_yield_switch _ _ _ _ Hr). split; [reflexivity|apply frame_switch]. Qed.

  Lemma WF_do_yield st from to rest :
    WF st -> s_runq st = from :: to :: rest -> WF (do_yield st).
  Proof.
    intros W Hr. destruct (ring_head _ _ _ _ W Hr) as (_ & _ & _ & (Hfs & _) & Hts).
    pose proof (Permutation_cons_append (to :: rest) from) as P. rewrite <- Hr in P.
    rewrite (do_yield_switch _ _ _ _ Hr).
    apply (WF_switch _ _ _ _ READY); auto; try discriminate.
    - apply WF_update_now, W.
    - split; discriminate.
    - apply (Permutation_NoDup P), W.
    - intros u Hu. right. apply (Permutation_in _ (Permutation_sym P)), Hu.
    - apply (Permutation_in _ P), W.
  Qed.

  Lemma getth_do_yield_to st from rest k u :
    s_runq st = from :: rest -> from <> k -> (from < nthreads st)%nat -> (k < nthreads st)%nat ->
    getth (do_yield_to st k) u =
    if Nat.eqb u k then set_tstate (getth st k) RUNNING
    else if Nat.eqb u from then set_tstate (set_terr (getth st from) 0) READY else getth st u.
  Proof. intros Hr. rewrite (do_yield_to_switch _ _ _ _ Hr). apply (getth_switch (update_now st)). Qed.

  Lemma do_yield_to_frame st from rest k :
    s_runq st = from :: rest ->
    s_runq (do_yield_to st k) = k :: from :: remove_tid k rest /\ frame_eq (update_now st) (do_yield_to st k).
  Proof. intros Hr. rewrite (do_yield_to_switch _ _ _ _ Hr). split; [reflexivity|apply frame_switch]. Qed.

  Lemma WF_do_yield_to st from rest k :
    WF st -> s_runq st = from :: rest -> from <> k -> th_state (getth st k) = READY -> WF (do_yield_to st k).
  Proof.
    intros W Hr Hne Hk.
    pose proof (wf_nodup _ W) as Hnd. rewrite Hr in Hnd. inversion Hnd as [|? ? Hx Hy]; subst.
    rewrite (do_yield_to_switch _ _ _ _ Hr).
    apply (WF_switch _ _ _ _ READY); auto; try discriminate.
    - apply WF_update_now, W.
    - apply (wf_runq _ W). rewrite Hr. left; auto.
    - change (getth (update_now st) k) with (getth st k). rewrite Hk. split; discriminate.
    - split; discriminate.
    - constructor; [|constructor].
      + intros [?|Hin]; [congruence|]. apply In_remove_tid in Hin; auto. tauto.
      + intros Hin. apply In_remove_tid_weak in Hin. auto.
      + apply NoDup_remove_tid; auto.
    - intros u [<-|[<-|Hu]]; auto; right; change (s_runq (update_now st)) with (s_runq st); rewrite Hr;
        [left; auto|right; eapply In_remove_tid_weak; eauto].
    - change (idler_tid (update_now st)) with (idler_tid st).
      pose proof (wf_idler _ W) as Hi. rewrite Hr in Hi.
      destruct (Nat.eq_dec (idler_tid st) k) as [->|Hik]; [left; auto|].
      right. destruct Hi as [?|Hi]; [left; auto|right]. apply In_remove_tid; auto.
  Qed.

  Lemma getth_dequeue_ready st t ns u :
    (t < nthreads st)%nat ->
    getth (dequeue_ready st t ns) u =
    if Nat.eqb u t then set_tstate (set_twaitq (getth st t) None) ns else getth st u.
  Proof.
    intros Hr. unfold dequeue_ready.
    destruct (th_waitq (getth st t)) as [q|] eqn:Eq.
    - rewrite getth_modth_in by (rewrite nthreads_modth; exact Hr).
      rewrite !getth_modth_in by exact Hr. rewrite Nat.eqb_refl.
      destruct (Nat.eqb u t); reflexivity.
    - rewrite getth_modth_in by exact Hr.
      destruct (Nat.eqb u t); [|reflexivity].
      destruct (getth st t); simpl in *. subst. reflexivity.
  Qed.

  Lemma wq_get_dequeue_ready st t ns q :
    wq_get (dequeue_ready st t ns) q =
    if (match th_waitq (getth st t) with Some q0 => qid_eqb q0 q | None => false end)
    then remove_tid t (wq_get st q) else wq_get st q.
  Proof.
    unfold dequeue_ready. destruct (th_waitq (getth st t)) as [q0|]; [|reflexivity].
    change (wq_get (modth (modth ?a t ?f) t ?g) q) with (wq_get a q).
    rewrite wq_get_set. destruct (qid_eqb_spec q0 q) as [->|]; reflexivity.
  Qed.

  Lemma dequeue_ready_frame st t ns :
    s_runq (dequeue_ready st t ns) = s_runq st /\ s_sleepq (dequeue_ready st t ns) = s_sleepq st /\
    frame_eq st (dequeue_ready st t ns).
  Proof.
    unfold dequeue_ready, frame_eq. destruct (th_waitq (getth st t)); rewrite ?nthreads_modth; repeat split.
  Qed.

  Lemma dequeue_ready_set_sleepq st t ns h :
    set_sleepq (dequeue_ready st t ns) h = dequeue_ready (set_sleepq st h) t ns.
  Proof.
    unfold dequeue_ready. change (getth (set_sleepq st h) t) with (getth st t).
    destruct (th_waitq (getth st t)); reflexivity.
  Qed.

  (* t leaves its wait queue, becomes READY and leaves the sleep heap, by whichever pop *)
  Lemma WF_wake st t h' :
    WF st -> th_state (getth st t) = SLEEPING ->
    Inv (ts_of st) h' -> Permutation (hq (s_sleepq st)) (t :: hq h') ->
    WF (dequeue_ready (set_sleepq st h') t READY).
  Proof.
    intros W Hs HI' Hperm.
    pose proof (sleeping_in_range _ _ Hs) as Hr.
    destruct (perm_nodup_in _ _ _ ltac:(destruct (wf_heap _ W) as (_&_&_&_&X); exact X) Hperm) as (Hmem & _).
    pose proof (getth_dequeue_ready (set_sleepq st h') t READY) as G.
    (* t is in no queue but the one it waits on, so it can be removed from all of them *)
    assert (Q : forall q, wq_get (dequeue_ready (set_sleepq st h') t READY) q = remove_tid t (wq_get st q)).
    { intros q. rewrite wq_get_dequeue_ready. change (getth (set_sleepq st h') t) with (getth st t).
      destruct (th_waitq (getth st t)) as [q0|] eqn:Eq; [destruct (qid_eqb_spec q0 q) as [->|Hne]; [reflexivity|]|];
        symmetry; apply remove_tid_notin; intros Hin; apply (wf_wq_in _ W) in Hin; destruct Hin as (_ & Hin); congruence. }
    destruct (dequeue_ready_frame (set_sleepq st h') t READY) as (R & S & B & N & No & C & _).
    set (st' := dequeue_ready (set_sleepq st h') t READY) in *. clearbody st'.
    change (getth (set_sleepq st h') ?x) with (getth st x) in G.
    specialize (fun u => G u Hr).
    constructor.
    - rewrite R. apply W.
    - intros u. rewrite R, G. intros Hu.
      destruct (Nat.eqb_spec u t) as [->|]; [split; discriminate|]. apply W, Hu.
    - rewrite R, (idler_tid_nthreads _ _ N). apply W.
    - rewrite S. eapply Inv_ts_ext; [exact HI'|]. intros u _. unfold ts_of. rewrite G.
      destruct (Nat.eqb_spec u t) as [->|]; reflexivity.
    - intros u. rewrite S. cbn [s_sleepq set_sleepq]. rewrite Hmem, G, (wf_sleep _ W).
      destruct (Nat.eqb_spec u t) as [->|]; [|tauto].
      split; [intros (_&X); congruence|discriminate].
    - rewrite B. apply W.
    - intros q u. rewrite Q, G, In_remove_tid by apply W. intros (Hu & Hne).
      destruct (Nat.eqb_spec u t); [contradiction|]. apply W, Hu.
    - intros u q. rewrite Q, G, In_remove_tid by apply W.
      destruct (Nat.eqb_spec u t) as [->|Hne]; [discriminate|]. intros Hq. split; [apply W, Hq|exact Hne].
    - intros q. rewrite Q. apply NoDup_remove_tid, W.
    - rewrite No, C. apply W.
  Qed.

  Lemma prelocked_interrupt_frame st t e :
    let st' := prelocked_interrupt st t e in s_runq st' = s_runq st ++ [t] /\ frame_eq st st'.
  Proof.
    unfold prelocked_interrupt. cbv zeta.
    set (st1 := modth st t (fun th => set_tesrc (set_terr th e) (length (s_trace st)))).
    destruct (dequeue_ready_frame st1 t READY) as (R & _ & Fr).
    cbn [s_runq set_runq set_sleepq]. rewrite R. split; [reflexivity|].
    apply (frame_eq_trans _ st1); [apply frame_modth|exact Fr].
  Qed.

  Lemma WF_prelocked_interrupt st t e :
    WF st -> th_state (getth st t) = SLEEPING -> WF (prelocked_interrupt st t e).
  Proof.
    intros W Hs. pose proof (sleeping_in_range _ _ Hs) as Hr.
    unfold prelocked_interrupt.
    set (st1 := modth st t (fun th => set_tesrc (set_terr th e) (length (s_trace st)))). cbv zeta.
    assert (W1 : WF st1) by (apply WF_modth_neutral; auto; intros th; repeat split; reflexivity).
    assert (Hs1 : th_state (getth st1 t) = SLEEPING) by (unfold st1; rewrite getth_modth_same by auto; exact Hs).
    assert (Hr1 : (t < nthreads st1)%nat) by (unfold st1; rewrite nthreads_modth; exact Hr).
    clearbody st1.
    destruct (dequeue_ready_frame st1 t READY) as (R & S & _). rewrite S.
    assert (Hts : forall u, ts_of (dequeue_ready st1 t READY) u = ts_of st1 u).
    { intros u. unfold ts_of. rewrite getth_dequeue_ready by exact Hr1. destruct (Nat.eqb_spec u t) as [->|]; reflexivity. }
    destruct (pop_correct (ts_of (dequeue_ready st1 t READY)) (s_sleepq st1) t) as (h' & -> & HI' & Hperm & _).
    { eapply Inv_ts_ext; [apply W1|]. intros; apply Hts. }
    { apply (wf_sleep _ W1), Hs1. }
    cbn [fst]. apply (WF_append_ring _ [t]).
    - rewrite dequeue_ready_set_sleepq. apply WF_wake; auto.
      eapply Inv_ts_ext; [exact HI'|]. intros; symmetry; apply Hts.
    - constructor; [intros []|constructor].
    - intros u [<-|[]]. change (getth (set_sleepq ?a ?b) ?x) with (getth a x). cbn [s_runq set_sleepq].
      rewrite getth_dequeue_ready, Nat.eqb_refl, R by exact Hr1. split; [reflexivity|].
      apply sleeping_not_in_ring; auto.
  Qed.

  Lemma WF_thread_interrupt st t e : WF st -> WF (thread_interrupt st t e).
  Proof.
    intros W. unfold thread_interrupt.
    destruct (th_state (getth st t)) eqn:Es; auto.
    - destruct (th_err (getth st t) =? 0); auto.
      apply WF_modth_neutral; auto. intros th; repeat split; reflexivity.
    - apply WF_prelocked_interrupt; auto.
  Qed.

  Lemma WF_thread_shutdown st t flag : WF st -> WF (thread_shutdown st t flag).
  Proof.
    intros W. unfold thread_shutdown.
    assert (W1 : WF (modth st t (fun th => set_tshutdown th flag))).
    { apply WF_modth_neutral; auto. intros th; repeat split; reflexivity. }
    destruct (tstate_eqb _ SLEEPING); auto. apply WF_thread_interrupt; auto.
  Qed.

  Lemma WF_waitq_resume_one st q e : WF st -> WF (fst (waitq_resume_one st q e)).
  Proof.
    intros W. unfold waitq_resume_one. destruct (wq_get st q) as [|h r] eqn:Eq; simpl; auto.
    apply WF_prelocked_interrupt; auto.
    apply (wf_wq_in _ W q h). rewrite Eq. left; auto.
  Qed.

  Lemma waitq_resume_one_frame st q e :
    let st' := fst (waitq_resume_one st q e) in
    s_runq st' = s_runq st ++ match wq_get st q with [] => [] | x :: _ => [x] end /\ frame_eq st st'.
  Proof.
    unfold waitq_resume_one. destruct (wq_get st q) as [|h r]; cbn [fst].
    - rewrite app_nil_r. split; [reflexivity|apply frame_eq_refl].
    - apply prelocked_interrupt_frame.
  Qed.

  Lemma WF_set_error_number st t : WF st -> WF (fst (fst (set_error_number st t))).
  Proof.
    intros W. unfold set_error_number. destruct (th_err (getth st t) =? 0); simpl; auto.
    apply WF_modth_neutral; auto. intros th; repeat split; reflexivity.
  Qed.

  Lemma WF_do_create st k j :
    WF st -> (k < nthreads st)%nat -> th_state (getth st k) = NOTCREATED -> WF (do_create st k j).
  Proof.
    intros W Hk Hs. unfold do_create. cbv zeta.
    set (th := mkThread READY 0 None 0 j false 0 0 [] 0 false 0 false false).
    assert (G : forall u, getth (set_runq (setth st k th) (s_runq st ++ [k])) u = if Nat.eqb u k then th else getth st u)
      by (intros u; apply getth_setth_in, Hk).
    assert (Hnr : ~ In k (s_runq st)) by (intros Hin; apply (wf_runq _ W) in Hin; destruct Hin; congruence).
    apply (WF_restate st); auto; try reflexivity; try apply W.
    - intros u Hu. rewrite G. destruct (Nat.eqb_spec u k) as [->|]; [|reflexivity].
      apply (wf_sleep _ W) in Hu. congruence.
    - intros u. rewrite G. destruct (Nat.eqb_spec u k) as [->|]; [|reflexivity].
      destruct (th_waitq (getth st k)) as [q|] eqn:Eq; [|reflexivity].
      apply (wf_wq_of _ W), (wf_wq_in _ W) in Eq. destruct Eq; congruence.
    - intros u. rewrite G. destruct (Nat.eqb_spec u k) as [->|]; [|tauto]. rewrite Hs. split; discriminate.
    - apply nthreads_setth.
    - apply NoDup_app_single; auto. apply W.
    - intros u. cbn [s_runq set_runq]. rewrite in_app_iff, G. intros [Hu|[<-|[]]].
      + destruct (Nat.eqb_spec u k) as [->|]; [contradiction|]. apply W, Hu.
      + rewrite Nat.eqb_refl. split; discriminate.
    - cbn [s_runq set_runq]. rewrite in_app_iff. left. apply W.
  Qed.

  Lemma getth_remove_current st from to rest ns u :
    s_runq st = from :: to :: rest -> from <> to -> (from < nthreads st)%nat -> (to < nthreads st)%nat ->
    getth (remove_current st ns) u =
    if Nat.eqb u to then set_tstate (getth st to) RUNNING
    else if Nat.eqb u from then set_tstate (getth st from) ns else getth st u.
  Proof. intros Hr. rewrite (remove_current_switch _ _ _ _ _ Hr). apply getth_switch. Qed.

  Lemma WF_remove_current st from to rest ns :
    WF st -> s_runq st = from :: to :: rest -> from <> idler_tid st -> ns <> SLEEPING ->
    WF (remove_current st ns).
  Proof.
    intros W Hr Hid Hns. destruct (ring_head _ _ _ _ W Hr) as (_ & _ & _ & (Hfs & _) & Hts).
    pose proof (wf_nodup _ W) as Hnd. rewrite Hr in Hnd. inversion Hnd as [|? ? Hx Hnd']; subst.
    rewrite (remove_current_switch _ _ _ _ _ Hr).
    apply (WF_switch _ _ _ _ ns); auto.
    - intros Hin. contradiction.
    - intros u Hu. right. rewrite Hr. right; exact Hu.
    - eapply In_idler_tail; eauto.
  Qed.

  Lemma WF_mark_done st t rv :
    WF st -> In t (s_runq st) -> WF (modth st t (fun th => set_tretval (set_tstate th DONE) rv)).
  Proof.
    intros W Hin. apply (WF_modth_awake _ _ _ DONE); auto; try discriminate; [apply (wf_runq _ W), Hin|split; discriminate].
  Qed.

  (* thread::die up to remove_current: the state in which the dying thread leaves the ring *)
  Lemma do_die_prep st t rv to rest :
    WF st -> s_runq st = t :: to :: rest ->
    let st2 := fst (waitq_resume_one (modth st t (fun th => set_tretval (set_tstate th DONE) rv)) (QJoin t) (-1)) in
    WF st2 /\ frame_eq st st2 /\
    s_runq st2 = t :: to :: rest ++ match wq_get st (QJoin t) with [] => [] | x :: _ => [x] end.
  Proof.
    intros W Hr. cbv zeta. set (st1 := modth st t _).
    assert (W1 : WF st1) by (apply WF_mark_done; auto; rewrite Hr; left; auto).
    destruct (waitq_resume_one_frame st1 (QJoin t) (-1)) as (R2 & Fr2).
    split; [apply WF_waitq_resume_one, W1|]. split.
    - eapply frame_eq_trans; [apply frame_modth|exact Fr2].
    - rewrite R2. change (s_runq st1) with (s_runq st). rewrite Hr. reflexivity.
  Qed.

  Lemma WF_do_die st t rv rest :
    WF st -> s_runq st = t :: rest -> t <> idler_tid st -> WF (do_die st t rv).
  Proof.
    intros W Hr Hid. destruct rest as [|to rest]; [destruct (In_idler_tail _ _ _ W Hr Hid)|].
    destruct (do_die_prep _ _ rv _ _ W Hr) as (W2 & (_ & N2 & _) & R2).
    apply (WF_remove_current _ _ _ _ _ W2 R2); [|discriminate].
    rewrite (idler_tid_nthreads _ _ N2). exact Hid.
  Qed.

  Definition sleep_waitq (old : option qid) (wq : option qid) : option qid :=
    match wq with Some q => Some q | None => old end.

  (* prepare_usleep's `waitq->push_back(current)` *)
  Definition enqueue st (t : tid) (wq : option qid) : state U :=
    match wq with
    | Some q => modth (wq_set st q (wq_get st q ++ [t])) t (fun th => set_twaitq th (Some q))
    | None => st
    end.

  Lemma do_sleep_eq st from to rest exp wq :
    s_runq st = from :: to :: rest ->
    do_sleep st exp wq =
    let st4 := modth (update_now (enqueue (switch st from to (fun th => set_tstate th SLEEPING) (to :: rest)) from wq))
                     from (fun th => set_tts th exp) in
    set_sleepq st4 (push (ts_of st4) (s_sleepq st4) from).
  Proof. intros Hr. unfold do_sleep. rewrite Hr, (remove_current_switch _ _ _ _ _ Hr). reflexivity. Qed.

  Lemma nthreads_enqueue st t wq : nthreads (enqueue st t wq) = nthreads st.
  Proof. destruct wq as [q|]; [exact (nthreads_modth U (wq_set st q (wq_get st q ++ [t])) t _)|reflexivity]. Qed.

  Lemma getth_enqueue st t wq u :
    (t < nthreads st)%nat ->
    getth (enqueue st t wq) u =
    if Nat.eqb u t then match wq with Some q => set_twaitq (getth st t) (Some q) | None => getth st t end
    else getth st u.
  Proof.
    intros Hr. destruct wq as [q|]; simpl.
    - apply (getth_modth_in U (wq_set st q (wq_get st q ++ [t]))), Hr.
    - destruct (Nat.eqb_spec u t) as [->|]; reflexivity.
  Qed.

  Lemma wq_get_enqueue st t wq q :
    wq_get (enqueue st t wq) q =
    match wq with Some q0 => if qid_eqb q0 q then wq_get st q ++ [t] else wq_get st q | None => wq_get st q end.
  Proof.
    destruct wq as [q0|]; [|reflexivity]. simpl.
    change (wq_get (modth ?a t ?f) q) with (wq_get a q).
    rewrite wq_get_set. destruct (qid_eqb_spec q0 q) as [->|]; reflexivity.
  Qed.

  Lemma getth_do_sleep st from to rest exp wq u :
    WF st -> s_runq st = from :: to :: rest ->
    getth (do_sleep st exp wq) u =
    if Nat.eqb u from
    then set_tts (match wq with
                  | Some q => set_twaitq (set_tstate (getth st from) SLEEPING) (Some q)
                  | None => set_tstate (getth st from) SLEEPING end) exp
    else if Nat.eqb u to then set_tstate (getth st to) RUNNING else getth st u.
  Proof.
    intros W Hr. destruct (ring_head _ _ _ _ W Hr) as (Hne & Hf & Ht & _).
    rewrite (do_sleep_eq _ _ _ _ _ _ Hr). cbv zeta.
    set (st1 := switch st from to (fun th => set_tstate th SLEEPING) (to :: rest)).
    assert (Hf1 : (from < nthreads st1)%nat) by (unfold st1; rewrite nthreads_switch; exact Hf).
    change (getth (set_sleepq ?a ?b) u) with (getth a u).
    rewrite getth_modth_in by (change (from < nthreads (enqueue st1 from wq))%nat; rewrite nthreads_enqueue; exact Hf1).
    change (getth (update_now ?a) ?x) with (getth a x).
    rewrite !getth_enqueue, Nat.eqb_refl by exact Hf1. unfold st1. rewrite !getth_switch by assumption.
    rewrite Nat.eqb_refl. destruct (Nat.eqb_spec from to); [congruence|].
    destruct (Nat.eqb_spec u from) as [->|]; [|reflexivity]. destruct wq; reflexivity.
  Qed.

  Lemma sleepq_do_sleep st from to rest exp wq :
    s_runq st = from :: to :: rest ->
    s_sleepq (do_sleep st exp wq) = push (ts_of (do_sleep st exp wq)) (s_sleepq st) from.
  Proof.
    intros Hr. rewrite (do_sleep_eq _ _ _ _ _ _ Hr). cbv zeta. cbn [s_sleepq set_sleepq].
    (* argument by argument: on the whole equation the conversion would unfold `push` *)
    f_equal; try reflexivity. destruct wq; reflexivity.
  Qed.

  Lemma do_sleep_spec st from to rest exp wq :
    WF st -> s_runq st = from :: to :: rest ->
    let st' := do_sleep st exp wq in
    (forall u, th_state (getth st' u) =
               if Nat.eqb u to then RUNNING else if Nat.eqb u from then SLEEPING else th_state (getth st u)) /\
    (forall u, th_ts (getth st' u) = if Nat.eqb u from then exp else th_ts (getth st u)) /\
    (forall u, th_waitq (getth st' u) =
               if Nat.eqb u from then sleep_waitq (th_waitq (getth st from)) wq else th_waitq (getth st u)) /\
    (forall u, u <> from -> u <> to -> getth st' u = getth st u) /\
    (forall q, wq_get st' q = match wq with
                              | Some q0 => if qid_eqb q0 q then wq_get st q ++ [from] else wq_get st q
                              | None => wq_get st q end) /\
    s_runq st' = to :: rest /\
    (exists ts', (forall u, ts' u = if Nat.eqb u from then exp else th_ts (getth st u)) /\
                 s_sleepq st' = push ts' (s_sleepq st) from) /\
    s_standby st' = s_standby st /\ s_now st' = s_clock st /\ s_clock st' = s_clock st /\
    nthreads st' = nthreads st /\ s_trace st' = s_trace st /\ s_user st' = s_user st /\
    s_end st' = s_end st /\ s_stuck st' = s_stuck st /\
    (forall (p : thread -> Z), (forall th s, p (set_tstate th s) = p th) -> (forall th q, p (set_twaitq th q) = p th) ->
        (forall th x, p (set_tts th x) = p th) -> forall u, p (getth st' u) = p (getth st u)).
  Proof.
    intros W Hr. cbv zeta.
    destruct (ring_head _ _ _ _ W Hr) as (Hne & _).
    assert (Hneb : Nat.eqb from to = false) by (apply Nat.eqb_neq; exact Hne).
    pose proof (fun u => getth_do_sleep st from to rest exp wq u W Hr) as G.
    assert (Gt : forall u, th_ts (getth (do_sleep st exp wq) u) = if Nat.eqb u from then exp else th_ts (getth st u)).
    { intros u. rewrite G. destruct (Nat.eqb u from); [reflexivity|]. destruct (Nat.eqb_spec u to) as [->|]; reflexivity. }
    split; [|split; [exact Gt|split; [|split]]].
    - intros u. rewrite G. destruct (Nat.eqb_spec u from) as [->|]; [rewrite Hneb; destruct wq; reflexivity|].
      destruct (Nat.eqb u to); reflexivity.
    - intros u. rewrite G. destruct (Nat.eqb u from); [destruct wq; reflexivity|].
      destruct (Nat.eqb_spec u to) as [->|]; reflexivity.
    - intros u H1 H2. rewrite G. destruct (Nat.eqb_spec u from); [congruence|].
      destruct (Nat.eqb_spec u to); [congruence|reflexivity].
    - pose proof (sleepq_do_sleep st from to rest exp wq Hr) as S.
      rewrite (do_sleep_eq _ _ _ _ _ _ Hr) in *. cbv zeta in *.
      split; [intros q; apply (wq_get_enqueue (switch st from to _ (to :: rest)))|].
      split; [destruct wq; reflexivity|].
      split; [eexists; split; [exact Gt|exact S]|].
      repeat (split; [destruct wq; reflexivity|]).
      split; [|repeat (split; [destruct wq; reflexivity|])].
      + change (nthreads (set_sleepq ?a ?b)) with (nthreads a). rewrite nthreads_modth.
        change (nthreads (update_now ?a)) with (nthreads a). rewrite nthreads_enqueue. apply nthreads_switch.
      + intros p P1 P2 P3 u. rewrite G.
        destruct (Nat.eqb_spec u from) as [->|]; [rewrite P3; destruct wq; rewrite ?P2, P1; reflexivity|].
        destruct (Nat.eqb_spec u to) as [->|]; rewrite ?P1; reflexivity.
  Qed.

  Lemma WF_do_sleep st from to rest exp wq :
    WF st -> s_runq st = from :: to :: rest -> from <> idler_tid st ->
    th_waitq (getth st from) = None -> WF (do_sleep st exp wq).
  Proof.
    intros W Hr Hid Hwq.
    destruct (do_sleep_spec st from to rest exp wq W Hr) as (Gs&Gt&Gw&Go&Q&R&(ts'&Hts'&Hh)&B&N&C&L&_).
    set (st' := do_sleep st exp wq) in *. clearbody st'.
    destruct (ring_head _ _ _ _ W Hr) as (Hne & _ & _ & (Hfs & _) & (Htos & _)).
    pose proof (wf_nodup _ W) as Hnd. rewrite Hr in Hnd. inversion Hnd as [|? ? Hx Hnd']; subst.
    assert (Hfh : ~ In from (hq (s_sleepq st))) by (rewrite (wf_sleep _ W); exact Hfs).
    assert (HI : Inv ts' (s_sleepq st)).
    { eapply Inv_ts_ext; [apply W|]. intros u Hu. rewrite Hts'. unfold ts_of.
      destruct (Nat.eqb_spec u from); [congruence|reflexivity]. }
    assert (Hidx : hidx (s_sleepq st) from = -1) by (destruct (wf_heap _ W) as (_&_&_&X&_); apply X; auto).
    pose proof (push_Inv ts' _ from HI Hidx) as HI'.
    pose proof (push_perm ts' _ from HI Hidx) as Hp.
    assert (Hmem : forall u, In u (hq (s_sleepq st')) <-> u = from \/ In u (hq (s_sleepq st))).
    { intros u. rewrite Hh. split; intros Hu.
      - apply (Permutation_in _ Hp) in Hu. destruct Hu; auto.
      - apply (Permutation_in _ (Permutation_sym Hp)). destruct Hu; [left|right]; auto. }
    constructor.
    - rewrite R. exact Hnd'.
    - intros u. rewrite R, Gs. intros Hu.
      destruct (Nat.eqb_spec u to); [split; discriminate|].
      destruct (Nat.eqb_spec u from) as [->|]; [contradiction|].
      apply W. rewrite Hr. right; auto.
    - rewrite R, (idler_tid_nthreads _ _ L). eapply In_idler_tail; eauto.
    - rewrite Hh. eapply Inv_ts_ext; [exact HI'|]. intros u _. unfold ts_of. rewrite Gt, Hts'. reflexivity.
    - intros u. rewrite Hmem, Gs, (wf_sleep _ W).
      destruct (Nat.eqb_spec u to) as [->|].
      + split; [intros [?|?]; congruence|discriminate].
      + destruct (Nat.eqb_spec u from) as [->|]; [tauto|]. split; [intros [?|?]; congruence|auto].
    - rewrite B. apply W.
    - intros q u. rewrite Q, Gs, Gw. intros Hu.
      assert (Hcase : (u = from /\ wq = Some q) \/ In u (wq_get st q)).
      { destruct wq as [q0|]; auto. destruct (qid_eqb_spec q0 q) as [->|]; auto.
        rewrite in_app_iff in Hu. simpl in Hu. destruct Hu as [?|[<-|[]]]; auto. }
      destruct Hcase as [(-> & ->)|Hin].
      + rewrite Nat.eqb_refl. destruct (Nat.eqb_spec from to); [congruence|]. split; reflexivity.
      + destruct (wf_wq_in _ W _ _ Hin) as (A & B').
        destruct (Nat.eqb_spec u to) as [->|]; [congruence|].
        destruct (Nat.eqb_spec u from) as [->|]; [congruence|]. auto.
    - intros u q. rewrite Q, Gw.
      destruct (Nat.eqb_spec u from) as [->|].
      + rewrite Hwq. unfold sleep_waitq. destruct wq as [q0|]; [|discriminate].
        intros [= ->]. destruct (qid_eqb_spec q q); [|congruence]. rewrite in_app_iff. right; left; auto.
      + intros Hq. pose proof (wf_wq_of _ W _ _ Hq) as Hin.
        destruct wq as [q0|]; auto. destruct (qid_eqb q0 q); auto. rewrite in_app_iff; auto.
    - intros q. rewrite Q. destruct wq as [q0|]; [|apply W].
      destruct (qid_eqb q0 q); [|apply W]. apply NoDup_app_single; [apply W|].
      apply not_sleeping_no_queue; auto.
    - rewrite N, C. lia.
  Qed.

  (* one round of the loop of resume_threads_inlined that finds the front of the heap due *)
  Definition wake_timer st (t : tid) : state U :=
    dequeue_ready (set_sleepq st (fst (pop_front (ts_of st) (s_sleepq st)))) t READY.

  Lemma wake_timer_spec st t :
    WF st -> front (s_sleepq st) = Some t ->
    let st' := wake_timer st t in
    WF st' /\ s_runq st' = s_runq st /\ th_state (getth st t) = SLEEPING /\
    (forall u, getth st' u = if Nat.eqb u t then set_tstate (set_twaitq (getth st t) None) READY else getth st u) /\
    Permutation (hq (s_sleepq st)) (t :: hq (s_sleepq st')) /\
    frame_eq st st'.
  Proof.
    intros W Hfr. cbv zeta. unfold wake_timer.
    assert (Hne : hq (s_sleepq st) <> []) by (unfold front in Hfr; destruct (hq (s_sleepq st)); discriminate).
    destruct (pop_front_correct (ts_of st) (s_sleepq st) (wf_heap _ W) Hne) as (h' & t0 & -> & Hfr' & _ & HI' & Hperm & _).
    assert (t0 = t) by congruence. subst t0. cbn [fst].
    assert (Hs : th_state (getth st t) = SLEEPING).
    { apply (wf_sleep _ W). apply (Permutation_in _ (Permutation_sym Hperm)). left; auto. }
    destruct (dequeue_ready_frame (set_sleepq st h') t READY) as (R & S & Fr).
    split; [apply WF_wake; auto|]. split; [exact R|]. split; [exact Hs|].
    split; [intros u; apply (getth_dequeue_ready (set_sleepq st h')), sleeping_in_range, Hs|].
    split; [rewrite S; exact Hperm|exact Fr].
  Qed.

  Definition resume_post st st' (woken : list tid) : Prop :=
      WF st' /\ NoDup woken /\ s_runq st' = s_runq st /\
      (forall u, In u woken -> th_state (getth st u) = SLEEPING /\ th_ts (getth st u) <= s_now st /\
                               getth st' u = set_tstate (set_twaitq (getth st u) None) READY) /\
      (forall u, ~ In u woken -> getth st' u = getth st u) /\
      (forall u, th_state (getth st' u) = SLEEPING -> s_now st < th_ts (getth st' u)) /\
      frame_eq st st'.

  (* the loop stops: the front of the heap, if any, is not due, and it is a minimum *)
  Lemma resume_stop st acc :
    WF st -> (forall t, front (s_sleepq st) = Some t -> s_now st < th_ts (getth st t)) ->
    exists woken, acc = acc ++ woken /\ resume_post st st woken.
  Proof.
    intros W H. exists []. rewrite app_nil_r. split; [reflexivity|].
    split; [exact W|]. split; [constructor|]. split; [reflexivity|].
    split; [intros u []|]. split; [reflexivity|]. split; [|apply frame_eq_refl].
    intros u Hu. apply (wf_sleep _ W) in Hu.
    destruct (front (s_sleepq st)) as [t|] eqn:Hfr.
    - pose proof (front_is_min _ _ _ (wf_heap _ W) Hfr u Hu) as Hmin. unfold ts_of in Hmin.
      specialize (H t eq_refl). lia.
    - unfold front in Hfr. destruct (hq (s_sleepq st)); [destruct Hu|discriminate].
  Qed.

  Lemma resume_expired_spec : forall fuel st acc,
    WF st -> (length (hq (s_sleepq st)) <= fuel)%nat ->
    exists woken,
      snd (resume_expired fuel st acc) = acc ++ woken /\
      resume_post st (fst (resume_expired fuel st acc)) woken.
  Proof.
    induction fuel as [|f IH]; intros st acc W Hlen.
    - simpl. apply resume_stop; auto. unfold front. intros t Ht.
      destruct (hq (s_sleepq st)); [discriminate|simpl in Hlen; lia].
    - simpl. destruct (front (s_sleepq st)) as [t|] eqn:Hfr; [|cbn [fst snd]; apply resume_stop; auto; rewrite Hfr; discriminate].
      destruct (s_now st <? th_ts (getth st t)) eqn:Hlt.
      { cbn [fst snd]. apply resume_stop; auto. rewrite Hfr. intros t0 [= <-]. apply Z.ltb_lt, Hlt. }
      destruct (wake_timer_spec st t W Hfr) as (W1 & R1 & Hs & G & Hperm & Fr).
      unfold wake_timer in *.
      set (st1 := set_sleepq st (fst (pop_front (ts_of st) (s_sleepq st)))) in *.
      change (getth st1 t) with (getth st t). rewrite Hs. simpl tstate_eqb. cbv iota.
      set (st2 := dequeue_ready st1 t READY) in *. clearbody st2. clear st1.
      apply Permutation_length in Hperm. cbn [length] in Hperm.
      destruct (IH st2 (acc ++ [t]) W1 ltac:(lia)) as (wk & Hacc & W' & Hnd & R' & Hw & Ho & Hd & Fr').
      assert (Hnow : s_now st2 = s_now st) by apply Fr.
      assert (Htw : ~ In t wk).
      { intros X. apply Hw in X. destruct X as (X & _). rewrite G, Nat.eqb_refl in X. discriminate. }
      exists (t :: wk). rewrite Hacc, <- app_assoc. split; [reflexivity|].
      split; [exact W'|]. split; [constructor; auto|]. split; [congruence|].
      split; [|split; [|split]].
      + intros u [<-|Hu].
        * split; [exact Hs|]. split; [apply Z.ltb_ge in Hlt; lia|].
          rewrite Ho, G, Nat.eqb_refl by auto. reflexivity.
        * destruct (Hw _ Hu) as (X1 & X2 & X3). rewrite G, Hnow in *.
          destruct (Nat.eqb_spec u t) as [->|]; [contradiction|auto].
      + intros u Hu. simpl in Hu. rewrite Ho, G by tauto.
        destruct (Nat.eqb_spec u t) as [->|]; [tauto|reflexivity].
      + intros u Hu. rewrite <- Hnow. apply Hd, Hu.
      + eapply frame_eq_trans; eauto.
  Qed.

  Lemma resume_threads_spec st :
    WF st ->
    exists woken,
      let st' := fst (resume_threads st) in
      let now' := if hempty (s_sleepq st) then s_now st else s_clock st in
      snd (resume_threads st) = length woken /\
      WF st' /\ NoDup woken /\ s_runq st' = s_runq st ++ woken /\
      s_now st' = now' /\ s_clock st' = s_clock st /\ s_trace st' = s_trace st /\ nthreads st' = nthreads st /\
      s_user st' = s_user st /\ s_end st' = s_end st /\ s_stuck st' = s_stuck st /\
      (forall u, In u woken -> th_state (getth st u) = SLEEPING /\ th_ts (getth st u) <= now' /\
                               getth st' u = set_tstate (set_twaitq (getth st u) None) READY) /\
      (forall u, ~ In u woken -> getth st' u = getth st u) /\
      (forall u, th_state (getth st' u) = SLEEPING -> now' < th_ts (getth st' u)).
  Proof.
    intros W. unfold resume_threads. rewrite (wf_standby _ W). cbn [drain_standby].
    set (st1 := set_standby st []).
    assert (W1 : WF st1).
    { apply (WF_same st); auto. unfold same_sched, st1; repeat split; try reflexivity. symmetry. apply W. }
    change (s_sleepq st1) with (s_sleepq st).
    destruct (hempty (s_sleepq st)) eqn:He.
    - exists []. cbn [fst snd length]. rewrite !app_nil_r.
      split; [reflexivity|]. split; [apply (WF_same st1); auto; apply same_sched_refl|].
      split; [constructor|]. repeat (split; [reflexivity|]).
      split; [intros u []|]. split; [reflexivity|].
      intros u Hu. apply (wf_sleep _ W) in Hu. apply hempty_true in He. rewrite He in Hu. destruct Hu.
    - set (st2 := update_now st1). pose proof (WF_update_now _ W1 : WF st2) as W2.
      destruct (resume_expired_spec (length (hq (s_sleepq st2))) st2 [] W2 (le_n _))
        as (wk & Hacc & W3 & Hnd & R3 & Hw & Ho & Hd & _ & N & No & C & T & E & K & Us).
      destruct (resume_expired (length (hq (s_sleepq st2))) st2 []) as (st3, woken).
      cbn [fst snd app] in *. subst woken.
      exists wk. split; [reflexivity|].
      split; [|repeat (split; [assumption|])].
      + apply WF_append_ring; auto. intros u Hu. destruct (Hw _ Hu) as (X1 & _ & X3).
        split; [rewrite X3; reflexivity|]. rewrite R3. apply sleeping_not_in_ring; auto.
      + split; [cbn [s_runq set_runq]; rewrite R3; reflexivity|]. repeat (split; [assumption|]). exact Hd.
  Qed.

  Lemma WF_idler_round st : WF st -> WF (idler_round st).
  Proof.
    intros W. unfold idler_round.
    destruct (resume_threads_spec st W) as (wk & Hn & W1 & _ & R1 & N1 & C1 & _).
    destruct (resume_threads st) as (st1, count). cbn [fst snd] in *.
    destruct (negb (Nat.eqb count 0) || negb (match s_runq st1 with [_] => true | _ => false end)) eqn:E.
    - destruct (s_runq st1) as [|a [|b r]] eqn:Er.
      + exfalso. pose proof (wf_idler _ W1) as X. rewrite Er in X. destruct X.
      + (* a single-member ring: then count <> 0, so wk <> [], but runq st1 = runq st ++ wk has >= 2 members *)
        exfalso. rewrite orb_false_r in E. apply negb_true_iff, Nat.eqb_neq in E.
        pose proof (wf_idler _ W) as X. destruct (s_runq st) as [|x r']; [destruct X|].
        destruct wk as [|y wk']; [simpl in Hn; congruence|].
        simpl in R1. destruct r'; simpl in R1; [discriminate|discriminate].
      + eapply WF_do_yield; eauto.
    - destruct (front (s_sleepq st1)) as [t|].
      + destruct (th_ts (getth st1 t) =? MAX64); [apply (WF_same st1); auto; apply same_sched_set_end|].
        apply WF_set_clock; auto.
        pose proof (wf_clock _ W1). assert (0 <= Z.min IDLE_CAP (sat_sub (th_ts (getth st1 t)) (s_now st1))).
        { unfold sat_sub, IDLE_CAP. destruct (_ <? _) eqn:X; [lia|]. apply Z.ltb_ge in X. lia. }
        lia.
      + apply (WF_same st1); auto; apply same_sched_set_end.
  Qed.

End INV.

Arguments WF {U}. Arguments same_sched {U}.
