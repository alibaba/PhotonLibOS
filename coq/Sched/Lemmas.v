(* Sched/Lemmas.v — lemmas about the data structures and accessors of Sched/Core.v (any user state U). *)
From Coq Require Import ZArith List Bool Arith Lia.
From PV Require Import Base.U64 C04.C04_Heap Sched.Core.
Import ListNotations.
Local Open Scope Z_scope.

Lemma upd_nth_length {A} (l : list A) i v : length (upd_nth l i v) = length l.
Proof. revert i; induction l as [|x r IH]; intros [|i]; simpl; auto. Qed.

Lemma nth_upd_nth_same {A} (l : list A) i v d : (i < length l)%nat -> nth i (upd_nth l i v) d = v.
Proof. revert i; induction l as [|x r IH]; intros [|i] H; simpl in *; try lia; auto. apply IH; lia. Qed.

Lemma nth_upd_nth_other {A} (l : list A) i j v d : i <> j -> nth j (upd_nth l i v) d = nth j l d.
Proof.
  revert i j; induction l as [|x r IH]; intros [|i] [|j] H; simpl; auto; try congruence.
Qed.

Lemma upd_nth_out {A} (l : list A) i v : (length l <= i)%nat -> upd_nth l i v = l.
Proof. revert i; induction l as [|x r IH]; intros [|i] H; simpl in *; auto; try lia. f_equal. apply IH; lia. Qed.

Lemma remove_tid_notin t l : ~ In t l -> remove_tid t l = l.
Proof.
  induction l as [|x r IH]; simpl; auto. intros H.
  destruct (Nat.eqb_spec x t) as [->|Hne]; [exfalso; auto|]. f_equal; auto.
Qed.

Lemma In_remove_tid t l u : NoDup l -> (In u (remove_tid t l) <-> In u l /\ u <> t).
Proof.
  induction l as [|x r IH]; simpl; intros Hnd; [tauto|].
  inversion Hnd as [|? ? Hx Hr]; subst.
  destruct (Nat.eqb_spec x t) as [->|Hne].
  - split; [intros H; split; [auto|intros ->; auto] | intros [[->|H] Hu]; [congruence|auto]].
  - simpl. rewrite IH by auto. split.
    + intros [->|[H1 H2]]; auto.
    + intros [[->|H1] H2]; auto.
Qed.

Lemma In_remove_tid_weak t l u : In u (remove_tid t l) -> In u l.
Proof.
  induction l as [|x r IH]; simpl; auto.
  destruct (Nat.eqb_spec x t); simpl; intros H; auto. destruct H; auto.
Qed.

Lemma NoDup_remove_tid t l : NoDup l -> NoDup (remove_tid t l).
Proof.
  induction l as [|x r IH]; simpl; intros H; auto. inversion H; subst.
  destruct (Nat.eqb_spec x t); auto. constructor; auto.
  intros Hin. apply In_remove_tid_weak in Hin. auto.
Qed.

Lemma NoDup_app_disjoint (a b : list tid) :
  NoDup a -> NoDup b -> (forall u, In u b -> ~ In u a) -> NoDup (a ++ b).
Proof.
  induction a as [|x a IH]; simpl; intros Ha Hb Hd; auto.
  inversion Ha; subst. constructor.
  - rewrite in_app_iff. intros [?|Hx]; [auto|]. apply (Hd x Hx). left; auto.
  - apply IH; auto. intros u Hu Hin. apply (Hd u Hu). right; auto.
Qed.

Lemma NoDup_app_single (l : list tid) t : NoDup l -> ~ In t l -> NoDup (l ++ [t]).
Proof.
  intros Hnd Hn. apply NoDup_app_disjoint; auto.
  - constructor; [intros []|constructor].
  - intros u [<-|[]]. exact Hn.
Qed.

Lemma qid_eqb_spec a b : reflect (a = b) (qid_eqb a b).
Proof.
  destruct a as [x|x], b as [y|y]; simpl; try (constructor; congruence);
  destruct (Nat.eqb_spec x y); constructor; congruence.
Qed.

Lemma tstate_eqb_spec a b : reflect (a = b) (tstate_eqb a b).
Proof. destruct a, b; simpl; constructor; congruence. Qed.

Section WQ.
  Variable U : Type.
  Implicit Types st : state U.

  Lemma wq_lookup_update l q v q2 :
    wq_lookup (wq_update l q v) q2 = if qid_eqb q q2 then v else wq_lookup l q2.
  Proof.
    induction l as [|[q' v'] r IH]; simpl; [reflexivity|].
    destruct (qid_eqb_spec q' q) as [->|Hne]; simpl.
    - destruct (qid_eqb q q2); reflexivity.
    - rewrite IH. destruct (qid_eqb_spec q' q2) as [->|]; [|reflexivity].
      destruct (qid_eqb_spec q q2); [congruence|reflexivity].
  Qed.

  Lemma wq_get_set st q v q2 : wq_get (wq_set st q v) q2 = if qid_eqb q q2 then v else wq_get st q2.
  Proof. apply wq_lookup_update. Qed.

  Definition nthreads st : nat := length (s_threads st).

  Lemma getth_setth st t v t' :
    getth (setth st t v) t' = if Nat.eqb t' t && Nat.ltb t (nthreads st) then v else getth st t'.
  Proof.
    unfold getth, setth; simpl. destruct (Nat.eqb_spec t' t) as [->|Hne]; simpl.
    - destruct (Nat.ltb_spec t (nthreads st)); [apply nth_upd_nth_same; auto|rewrite upd_nth_out; auto].
    - apply nth_upd_nth_other; auto.
  Qed.
  Lemma getth_setth_in st t v t' :
    (t < nthreads st)%nat -> getth (setth st t v) t' = if Nat.eqb t' t then v else getth st t'.
  Proof. intros H. rewrite getth_setth. apply Nat.ltb_lt in H. rewrite H, andb_true_r. reflexivity. Qed.
  Lemma nthreads_setth st t v : nthreads (setth st t v) = nthreads st.
  Proof. unfold nthreads, setth; simpl. apply upd_nth_length. Qed.

  Lemma getth_modth st t f t' :
    getth (modth st t f) t' = if Nat.eqb t' t && Nat.ltb t (nthreads st) then f (getth st t) else getth st t'.
  Proof. apply getth_setth. Qed.
  Lemma getth_modth_in st t f t' :
    (t < nthreads st)%nat -> getth (modth st t f) t' = if Nat.eqb t' t then f (getth st t) else getth st t'.
  Proof. apply getth_setth_in. Qed.
  Lemma getth_modth_cases st t f t' :
    getth (modth st t f) t' = getth st t' \/ t' = t /\ getth (modth st t f) t = f (getth st t).
  Proof.
    rewrite !getth_modth, Nat.eqb_refl. destruct (Nat.eqb_spec t' t) as [->|]; [|left; reflexivity].
    destruct (Nat.ltb t (nthreads st)); [right|left]; auto.
  Qed.
  Lemma getth_modth_same st t f : (t < nthreads st)%nat -> getth (modth st t f) t = f (getth st t).
  Proof. intros H. rewrite getth_modth_in, Nat.eqb_refl by exact H. reflexivity. Qed.
  Lemma getth_modth_other st t f t' : t' <> t -> getth (modth st t f) t' = getth st t'.
  Proof. intros H. rewrite getth_modth. destruct (Nat.eqb_spec t' t); auto; congruence. Qed.
  Lemma nthreads_modth st t f : nthreads (modth st t f) = nthreads st.
  Proof. apply nthreads_setth. Qed.

  Lemma getth_out st t : (nthreads st <= t)%nat -> getth st t = thread0.
  Proof. intros H. unfold getth. apply nth_overflow; auto. Qed.

  Lemma getth_modth_proj {A} (p : thread -> A) st t f t' :
    (forall th, p (f th) = p th) -> p (getth (modth st t f) t') = p (getth st t').
  Proof.
    intros H. rewrite getth_modth.
    destruct (Nat.eqb_spec t' t) as [->|]; simpl; auto.
    destruct (Nat.ltb t (nthreads st)); auto.
  Qed.
End WQ.

Arguments nthreads {U}.
