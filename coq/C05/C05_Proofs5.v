(* C05_Proofs5.v — the positive side of finding F23: if work stealing never takes a thread whose context switch is
   still pending on its vCPU (the class guard of the finding), no two vCPUs ever execute on the same stack. *)
From Coq Require Import ZArith List Bool Arith Lia.
From PV Require Import C05.C05_Model C05.C05_Step C05.C05_Proofs C05.C05_Proofs2 C05.C05_Proofs3 C05.C05_Proofs4.
Import ListNotations.
Local Open Scope nat_scope.

Definition pend_from (p : pending) : option tid :=
  match p with PSwitch f _ => Some f | PDie f => Some f | PNone => None end.

(* the guard: the thief does not take thread t from vCPU u while u still has to finish switching away from t *)
Definition steal_ok (s : state) (l : label) : bool :=
  match l with
  | LSteal v u t => match pend_from (v_pend (s_vc s u)) with Some f => negb (Nat.eqb f t) | None => true end
  | _ => true
  end.
Definition gstep (progs : tid -> list op) (s : state) (l : label) : state := if steal_ok s l then step progs s l else s.
Fixpoint grun (progs : tid -> list op) (s : state) (ls : list label) : state :=
  match ls with [] => s | l :: r => grun progs (gstep progs s l) r end.

(* the thread a vCPU is switching away from exists and: (context switch) still belongs to that vCPU and has not
   finished; (die) has finished *)
Definition pend_okP (s : state) (v : nat) (p : pending) : Prop :=
  match p with
  | PSwitch f _ => created (s_th s f) = true /\ th_vcpu (s_th s f) = v /\ g_finished (s_th s f) = 0
  | PDie f => created (s_th s f) = true /\ g_finished (s_th s f) = 1
  | PNone => True
  end.
Definition PH (s : state) : Prop := forall v, pend_okP s v (v_pend (s_vc s v)).

Lemma pend_okP_rel : forall s s' v p, Nrel s s' -> pend_okP s v p -> pend_okP s' v p.
Proof.
  intros s s' v p (Ht & _) H. destruct p as [|f d|f]; auto; cbn in *; injection (Ht f) as _ _ c d0 e;
    unfold created in *; rewrite e, ?c, d0; auto.
Qed.
Lemma PH_frame : forall s s', Nrel s s' -> PH s -> PH s'.
Proof.
  intros s s' R P v. injection (proj1 (proj1 (proj2 R) v)) as _ Ep. rewrite Ep. apply (pend_okP_rel s); auto.
Qed.
Lemma PH_core : forall D s s', cframe D s s' -> PH s -> PH s'.
Proof. intros D s s' R. eapply PH_frame, Nrel_core, R. Qed.

Lemma PH_pend : forall s v (g : vcpu -> vcpu) p, PH s -> pend_okP s v p -> (forall x, v_pend (g x) = p) -> PH (modvc s v g).
Proof.
  intros s v g p P Hp Hg v0. rewrite vc_modvc. destruct (Nat.eqb v0 v) eqn:E.
  - apply Nat.eqb_eq in E. subst. rewrite Hg. destruct p; auto.
  - generalize (P v0). destruct (v_pend (s_vc s v0)); auto.
Qed.

(* thread_yield, thread_usleep, cond.wait *)
Lemma PH_switched : forall s v d s', Inv1 s -> Inv2 s -> PH s -> switched s v d s' -> PH s'.
Proof.
  intros s v d s' I1 I2 P Sw. destruct (Sw (fun _ => True)) as [R|(c & X & g & Hc & R1 & R2 & Hg)]; [eapply PH_core; eauto|].
  apply (PH_core _ _ _ R2). apply Nrel_core in R1.
  destruct (v_runq (s_vc s v)) as [|c' rest] eqn:Hq; inversion Hc; subst c'.
  destruct (runq_head_facts s v c _ I1 Hq) as (L & Vc & _). destruct (live_facts s c I2 L) as [Cc Fin].
  eapply (PH_pend X v g (PSwitch c d)); [apply (PH_frame s); eauto| |intro; apply Hg].
  apply (pend_okP_rel s); auto. cbn. auto.
Qed.

(* nobody is switching away from a thread that has not finished, unless its own vCPU is *)
Lemma no_pend_from : forall s t, PH s -> g_finished (s_th s t) = 0 ->
  pend_from (v_pend (s_vc s (th_vcpu (s_th s t)))) <> Some t -> forall v0, pend_from (v_pend (s_vc s v0)) <> Some t.
Proof.
  intros s t P Fin Np v0 E. generalize (P v0).
  destruct (v_pend (s_vc s v0)) as [|f d|f] eqn:Pv; cbn in E; try discriminate; inversion E; subst f; cbn.
  - intros (_ & a & _). subst v0. apply Np. rewrite Pv. reflexivity.
  - intros (_ & a). lia.
Qed.

Lemma no_pend_on_head : forall s v c rest, Inv1 s -> Inv2 s -> PH s -> v_runq (s_vc s v) = c :: rest ->
  v_pend (s_vc s v) = PNone -> forall v0, pend_from (v_pend (s_vc s v0)) <> Some c.
Proof.
  intros s v c rest I1 I2 P Hq Pn. destruct (runq_head_facts s v c _ I1 Hq) as (L & Vc & _). apply no_pend_from; auto.
  - apply (live_facts s c I2 L).
  - rewrite Vc, Pn. discriminate.
Qed.

Lemma PH_die : forall s v rv s', Inv1 s -> Inv2 s -> PH s -> head_run s v -> v_pend (s_vc s v) = PNone ->
  do_die s v rv = Some s' -> PH s'.
Proof.
  intros s v rv s' I1 I2 P Hr Pn D.
  destruct (die_frame (fun _ => True) s v rv s' I1 Hr D) as [R|(c & n & rest & s2 & Hq & _ & R & ->)]; auto.
  { eapply PH_core; eauto. }
  pose proof (no_pend_on_head s v c _ I1 I2 P Hq Pn) as Np.
  pose proof (PH_core _ _ _ R P) as P2. injection (proj1 R c) as _ _ _ _ _ _ _ a4 _ _ _ _.
  assert (Fin : g_finished (s_th s2 c) = 0). { rewrite a4. apply run_fin0; auto. apply (Hr c _ Hq). }
  match goal with |- PH (modvc (modth s2 c ?f) v ?g) => assert (P3 : PH (modth s2 c f)) end.
  { intro v0. rewrite vc_modth. generalize (P2 v0). injection (proj1 (proj1 (proj2 R) v0)) as _ Ep.
    destruct (v_pend (s_vc s2 v0)) as [|f0 d0|f0] eqn:Pv; auto; unfold pend_okP; rewrite th_modth;
      (destruct (Nat.eqb f0 c) eqn:E0; [apply Nat.eqb_eq in E0; subst f0; exfalso; apply (Np v0); rewrite <- Ep; reflexivity|auto]). }
  eapply (PH_pend _ v _ (PDie c)); [exact P3| |reflexivity].
  unfold pend_okP. rewrite th_modth, Nat.eqb_refl. unfold created. cbn. rewrite Fin. auto.
Qed.

Lemma PH_create : forall s v k jn ws, PH s -> th_state (s_th s k) = NOTCREATED -> PH (do_create s v k jn ws).
Proof.
  intros s v k jn ws P En. unfold do_create, getth. intro v0.
  assert (Nk : forall f, created (s_th s f) = true -> f <> k).
  { intros f C E. subst. unfold created in C. rewrite En in C. discriminate. }
  rewrite vc_modvc.
  assert (X : pend_okP (modvc (set_s_th s (updp (s_th s) k
              (mkT READY v KUser 0 0 false None (th_joiners (s_th s k)) jn ws LFree 0 0 0 false true 0 0 0 0 0))) v
              (fun x => set_v_nthreads (set_v_runq x (v_runq x ++ [k])) (v_nthreads x + 1))) v0 (v_pend (s_vc s v0))).
  { generalize (P v0). destruct (v_pend (s_vc s v0)) as [|f d|f]; auto; cbn; intros H;
      (assert (f <> k) by (apply Nk; tauto)); rewrite updp_neq by auto; auto. }
  destruct (Nat.eqb v0 v) eqn:E; auto. apply Nat.eqb_eq in E. subst. exact X.
Qed.

(* a thread that no vCPU is switching away from changes its record; pending actions stay (migrate, steal) *)
Lemma PH_transfer : forall s s0 t a b f ga gb, PH s -> (forall v0, pend_from (v_pend (s_vc s v0)) <> Some t) ->
  s_th s0 = s_th s -> (forall y, v_pend (s_vc s0 y) = v_pend (s_vc s y)) ->
  (forall x, v_pend (ga x) = v_pend x) -> (forall x, v_pend (gb x) = v_pend x) ->
  PH (modvc (modvc (modth s0 t f) a ga) b gb).
Proof.
  intros s s0 t a b f ga gb P No Et Ep Ha Hb v0.
  assert (Epp : v_pend (s_vc (modvc (modvc (modth s0 t f) a ga) b gb) v0) = v_pend (s_vc s v0)).
  { rewrite !vc_modvc, vc_modth. destruct (Nat.eqb v0 b) eqn:X1; [apply Nat.eqb_eq in X1; subst v0; rewrite Hb|].
    - destruct (Nat.eqb b a) eqn:X2; [apply Nat.eqb_eq in X2; subst; rewrite Ha|]; apply Ep.
    - destruct (Nat.eqb v0 a) eqn:X2; [apply Nat.eqb_eq in X2; subst; rewrite Ha|]; apply Ep. }
  rewrite Epp. generalize (P v0) (No v0).
  destruct (v_pend (s_vc s v0)) as [|f0 d|f0]; auto; unfold pend_okP, pend_from; intros HH NN;
    rewrite !th_modvc, th_modth, Et; (destruct (Nat.eqb f0 t) eqn:Eft; [apply Nat.eqb_eq in Eft; subst; congruence|auto]).
Qed.

Lemma PH_migrate : forall s v t u s' b, Inv2 s -> PH s -> pend_from (v_pend (s_vc s v)) <> Some t ->
  do_migrate s v t u = Some (s', b) -> PH s'.
Proof.
  intros s v t u s' b I2 P Np M. destruct (do_migrate_inv _ _ _ _ _ _ M) as [->|(Es & Ev & _ & _ & ->)]; auto.
  apply (PH_transfer s s); auto. apply no_pend_from; auto.
  - destruct (I2 t) as (a & _). rewrite a, Es. reflexivity.
  - now rewrite Ev.
Qed.

Lemma PH_steal : forall s v u t, Inv1 s -> Inv2 s -> PH s -> steal_ok s (LSteal v u t) = true -> PH (do_steal s v u t).
Proof.
  intros s v u t I1 I2 P G. destruct (steal_facts s v u t I1) as [->|(g & Hg & _ & _ & L & Eu & ->)]; auto.
  destruct (live_facts s t I2 L) as [_ Fin]. apply (PH_transfer s); auto.
  - apply no_pend_from; auto. rewrite Eu. cbn in G. destruct (pend_from (v_pend (s_vc s u))) as [f|]; [|discriminate].
    intro E. inversion E; subst f. rewrite Nat.eqb_refl in G. discriminate.
  - intro y. rewrite vc_modvc. destruct (Nat.eqb y u) eqn:E; [apply Nat.eqb_eq in E; subst y; apply Hg|reflexivity].
Qed.

Lemma PH_exec_pend : forall s v, Inv2 s -> PH s -> PH (exec_pend s v).
Proof.
  intros s v I2 P. unfold exec_pend, getvc, getth.
  assert (P0 : PH (modvc s v (fun x => set_v_pend x PNone))) by (apply (PH_pend s v _ PNone); auto; exact Logic.I).
  destruct (v_pend (s_vc s v)) as [|from d|t] eqn:Ep; auto.
  - destruct d as [|t|t u]; auto.
    + eapply PH_frame; [|exact P0]. unfold Nrel. repeat fstep.
    + destruct (do_migrate _ v t u) as [[s1 b]|] eqn:M; auto.
      eapply (PH_migrate _ v t u s1 b); [| exact P0 | |exact M].
      * intro x. apply I2.
      * rewrite vc_modvc, Nat.eqb_refl. cbn. discriminate.
  - destruct (th_joinable _); (eapply PH_frame; [|exact P0]); unfold Nrel; repeat fstep.
Qed.

Lemma PH_move : forall progs w s s', Inv1 s -> Inv2 s -> PH s -> move progs steal_ok w s s' -> PH s'.
Proof.
  intros progs w s s' I1 I2 P M. destruct M;
    (* the phase, error, claim and join-done updates write nothing PH looks at *)
    try (apply (PH_frame s); [unfold Nrel; repeat fstep|exact P]; fail).
  - apply (PH_frame s); [apply frame_same; auto; now split|exact P].
  - eapply PH_switched; [| | |apply yield_switched]; eauto using running_head_run.
  - eapply PH_switched; [| | |apply sleep_switched]; eauto using running_head_run.
  - destruct (join_wait_ready s w c j I1 H) as [K1 K2].
    eapply PH_switched; [| | |apply sleep_switched]; eauto.
    + apply inv2_setk. ghost_neutral.
    + apply (PH_frame s); [unfold Nrel; repeat fstep|exact P].
  - eapply PH_core; [apply (wake_frame (fun _ => True)); auto|exact P].
  - now apply PH_create.
  - eapply PH_die; eauto using running_head_run. apply H.
  - eapply PH_migrate; eauto. rewrite H. discriminate.
  - now apply PH_exec_pend.
  - eapply PH_core; [apply (drain_one_frame (fun _ => True)); auto|exact P].
  - eapply PH_core; [apply (resume_frame (fun _ => True)); auto|exact P].
  - now apply PH_steal.
Qed.

Lemma grun_pres : forall progs (P : state -> Prop),
  (forall w s s', P s -> move progs steal_ok w s s' -> P s') -> (forall s c r e, P s -> P (ret s c r e)) ->
  forall ls s, P s -> P (grun progs s ls).
Proof.
  intros progs P Hm Hr. induction ls as [|l ls IH]; cbn; intros s I; auto.
  apply IH. unfold gstep. destruct (steal_ok s l) eqn:G; auto. now apply (step_pres progs steal_ok P).
Qed.

Lemma PH_init : forall nv n flags t0, PH (init_state nv n flags t0).
Proof.
  intros nv n flags t0 v. rewrite init_pend. exact Logic.I.
Qed.

Lemma stack_exclusive_guarded_proof : forall progs nv n flags t0 ls, nv <= n ->
  let s := grun progs (init_state nv n flags t0) ls in
  forall v v' t, phys s v = Some t -> phys s v' = Some t -> v = v'.
Proof.
  intros progs nv n flags t0 ls Hn s v v' t.
  assert (I : Inv12L s /\ PH s).
  { apply (grun_pres progs (fun s => Inv12L s /\ PH s)).
    - intros w a b [L P] M. split; [eapply inv12L_move; eauto|]. destruct L as [[I1 I2] _]. eapply PH_move; eauto.
    - intros a c r e [L P]. split; [now apply inv12L_ret|]. eapply PH_frame; [apply Nrel_ret|exact P].
    - split; [split; [split; [now apply inv1_init|now apply inv2_init]|now apply invL_init]|apply PH_init]. }
  destruct I as [[[I1 I2] IL] P].
  unfold phys, getvc.
  generalize (P v) (P v').
  destruct (v_pend (s_vc s v)) as [|f d|f] eqn:Pv; destruct (v_pend (s_vc s v')) as [|f' d'|f'] eqn:Pv'; cbn;
    intros A B H1 H2; try (inversion H1; subst f); try (inversion H2; subst f').
  - destruct (cur_facts s v t I1 H1) as [_ a], (cur_facts s v' t I1 H2) as [_ b]. congruence.
  - destruct (cur_facts s v t I1 H1) as [_ a]. destruct B as (_ & b & _). congruence.
  - destruct (cur_facts s v t I1 H1) as [a _]. destruct B as (_ & b). destruct (live_facts s t I2 a) as [_ c]. lia.
  - destruct (cur_facts s v' t I1 H2) as [_ a]. destruct A as (_ & b & _). congruence.
  - destruct A as (_ & a & _), B as (_ & b & _). congruence.
  - destruct A as (_ & _ & a), B as (_ & b). lia.
  - destruct (cur_facts s v' t I1 H2) as [a _]. destruct A as (_ & b). destruct (live_facts s t I2 a) as [_ c]. lia.
  - destruct A as (_ & a), B as (_ & _ & b). lia.
  - destruct (l_pend _ IL v t LSelf) as [_ U]; [now rewrite Pv|]. symmetry. apply U. now rewrite Pv'.
Qed.

(* the guard is exactly what the F23 witness violates *)
Example f23_witness_violates_guard :
  steal_ok (run f20_progs (init_state 2 3 f20_flags 1000) (firstn 8 f20_schedule)) (LSteal 1 0 2) = false.
Proof. vm_compute. reflexivity. Qed.
