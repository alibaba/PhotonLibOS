(* C05_Proofs.v — inductive invariants of the life-cycle model (C05_Model.v) over every schedule
   (`run (init_state ...) labels`), any number of vCPUs and threads, every program. *)
From Coq Require Import ZArith List Bool Arith Lia.
From PV Require Import C05.C05_Model C05.C05_Step.
Import ListNotations.
Local Open Scope nat_scope.

Definition cnt (x : tid) (l : list tid) : nat := count_occ Nat.eq_dec l x.

Lemma cnt_nil : forall x, cnt x [] = 0. Proof. reflexivity. Qed.
Arguments cnt : simpl never.
Lemma cnt_cons : forall x a l, cnt x (a :: l) = (if Nat.eqb a x then 1 else 0) + cnt x l.
Proof.
  intros. unfold cnt. cbn. destruct (Nat.eq_dec a x) as [->|N].
  - now rewrite Nat.eqb_refl.
  - apply Nat.eqb_neq in N. now rewrite N.
Qed.
Lemma cnt_app : forall x l1 l2, cnt x (l1 ++ l2) = cnt x l1 + cnt x l2.
Proof. intros. unfold cnt. apply count_occ_app. Qed.
Lemma cnt_snoc : forall x a l, cnt x (l ++ [a]) = cnt x l + (if Nat.eqb a x then 1 else 0).
Proof. intros. rewrite cnt_app, cnt_cons, cnt_nil. lia. Qed.
Lemma cnt_remove_same : forall a l, cnt a (remove_tid a l) = pred (cnt a l).
Proof.
  induction l as [|x r IH]; cbn [remove_tid]; auto.
  destruct (Nat.eqb x a) eqn:E.
  - rewrite cnt_cons, E. cbn. reflexivity.
  - rewrite !cnt_cons, E, IH. cbn. reflexivity.
Qed.
Lemma cnt_remove_other : forall x a l, x <> a -> cnt x (remove_tid a l) = cnt x l.
Proof.
  induction l as [|y r IH]; cbn [remove_tid]; auto. intro N.
  destruct (Nat.eqb y a) eqn:E.
  - apply Nat.eqb_eq in E. subst y. rewrite cnt_cons.
    assert (Nat.eqb a x = false) by (apply Nat.eqb_neq; congruence). rewrite H. reflexivity.
  - rewrite !cnt_cons, IH; auto.
Qed.
Lemma cnt_ins : forall ts x a l, cnt x (ins_sorted ts a l) = (if Nat.eqb a x then 1 else 0) + cnt x l.
Proof.
  induction l as [|y r IH]; cbn [ins_sorted].
  - rewrite cnt_cons. reflexivity.
  - destruct (Z.ltb (ts a) (ts y)).
    + rewrite cnt_cons. reflexivity.
    + rewrite !cnt_cons, IH. lia.
Qed.
Lemma mem_cnt : forall x l, mem_tid x l = true <-> cnt x l >= 1.
Proof.
  induction l as [|y r IH]; cbn [mem_tid].
  - rewrite cnt_nil. split; [discriminate|lia].
  - rewrite cnt_cons, orb_true_iff, IH. destruct (Nat.eqb y x); split; intros H.
    + lia.
    + now left.
    + destruct H as [H|H]; [discriminate|lia].
    + right. lia.
Qed.
Lemma cnt_head : forall x l, cnt x (x :: l) >= 1.
Proof. intros. rewrite cnt_cons, Nat.eqb_refl. lia. Qed.

Lemma nv_modth : forall s t f, s_nv (modth s t f) = s_nv s. Proof. reflexivity. Qed.
Lemma nv_modvc : forall s v g, s_nv (modvc s v g) = s_nv s. Proof. reflexivity. Qed.
Lemma n_modth : forall s t f, s_n (modth s t f) = s_n s. Proof. reflexivity. Qed.
Lemma n_modvc : forall s v g, s_n (modvc s v g) = s_n s. Proof. reflexivity. Qed.

Definition live (th : thread) : bool :=
  negb (tstate_eqb (th_state th) NOTCREATED) && negb (tstate_eqb (th_state th) DONE).

(* The placement invariant.  For thread t and vCPU v let (r, q, b) be the number of occurrences of t in v's run queue,
   sleep queue and standby queue.  They are determined by the thread's own fields: *)
Definition place_ok (th : thread) (r q b : nat) : Prop :=
  match th_state th, th_insleep th with
  | SLEEPING, true => r = 0 /\ q = 1 /\ b = 0
  | STANDBY, true => r = 0 /\ q = 1 /\ b = 1               (* the documented overlap *)
  | STANDBY, false => q = 0 /\ r + b = 1                    (* in a standby queue, or stolen from one *)
  | READY, false => r = 1 /\ q = 0 /\ b = 0
  | RUNNING, false => r = 1 /\ q = 0 /\ b = 0
  | _, _ => False
  end.

Definition placed (s : state) (t : tid) (v : nat) : Prop :=
  let th := s_th s t in let vc := s_vc s v in
  let r := cnt t (v_runq vc) in let q := cnt t (v_sleepq vc) in let b := cnt t (v_standby vc) in
  if live th && Nat.eqb (th_vcpu th) v then place_ok th r q b else r = 0 /\ q = 0 /\ b = 0.

(* wait queues (thread::cond of the thread being joined): j is in x's queue iff j.waitq = x,
   and only SLEEPING threads wait *)
Definition opt_eqb (a : option nat) (x : nat) : bool :=
  match a with Some y => Nat.eqb y x | None => false end.
Definition waits (s : state) (j x : tid) : Prop :=
  cnt j (th_joiners (s_th s x)) = (if opt_eqb (th_waitq (s_th s j)) x then 1 else 0) /\
  (th_waitq (s_th s j) <> None -> th_state (s_th s j) = SLEEPING).

Record Inv1 (s : state) : Prop := mkInv1 {
  i_placed : forall t v, placed s t v;
  i_waits : forall j x, waits s j x
}.

(* reads through modth / modvc *)
Ltac simp_st := repeat rewrite ?th_modth, ?vc_modth, ?th_modvc, ?vc_modvc.

Lemma eqb_sym_false : forall a b, Nat.eqb a b = false -> Nat.eqb b a = false.
Proof. intros. rewrite Nat.eqb_sym. auto. Qed.

Lemma placed_cases : forall s t v, placed s t v ->
  (live (s_th s t) = true /\ th_vcpu (s_th s t) = v /\
   place_ok (s_th s t) (cnt t (v_runq (s_vc s v))) (cnt t (v_sleepq (s_vc s v))) (cnt t (v_standby (s_vc s v)))) \/
  (cnt t (v_runq (s_vc s v)) = 0 /\ cnt t (v_sleepq (s_vc s v)) = 0 /\ cnt t (v_standby (s_vc s v)) = 0).
Proof.
  unfold placed. intros s t v P.
  destruct (live (s_th s t) && Nat.eqb (th_vcpu (s_th s t)) v) eqn:E; [left|now right].
  apply andb_true_iff in E. destruct E as [E1 E2]. apply Nat.eqb_eq in E2. auto.
Qed.

Lemma in_runq_facts : forall s t v, placed s t v -> cnt t (v_runq (s_vc s v)) >= 1 ->
  live (s_th s t) = true /\ th_vcpu (s_th s t) = v /\ th_insleep (s_th s t) = false /\
  cnt t (v_runq (s_vc s v)) = 1 /\ cnt t (v_sleepq (s_vc s v)) = 0 /\ cnt t (v_standby (s_vc s v)) = 0 /\
  (th_state (s_th s t) = READY \/ th_state (s_th s t) = RUNNING \/ th_state (s_th s t) = STANDBY).
Proof.
  intros s t v P H. destruct (placed_cases s t v P) as [(L & V & O)|Z]; [|lia].
  unfold place_ok in O. destruct (th_state (s_th s t)), (th_insleep (s_th s t)); try tauto; intuition lia.
Qed.
Lemma runq_head_facts : forall s v c rest, Inv1 s -> v_runq (s_vc s v) = c :: rest ->
  live (s_th s c) = true /\ th_vcpu (s_th s c) = v /\ th_insleep (s_th s c) = false /\
  cnt c (v_runq (s_vc s v)) = 1 /\ cnt c (v_sleepq (s_vc s v)) = 0 /\ cnt c (v_standby (s_vc s v)) = 0 /\
  (th_state (s_th s c) = READY \/ th_state (s_th s c) = RUNNING \/ th_state (s_th s c) = STANDBY).
Proof. intros s v c rest I Hq. apply in_runq_facts; [apply (i_placed _ I)|rewrite Hq; apply cnt_head]. Qed.
Lemma cur_facts : forall s v t, Inv1 s -> cur s v = Some t -> live (s_th s t) = true /\ th_vcpu (s_th s t) = v.
Proof.
  intros s v t I C. unfold cur, getvc in C. destruct (v_runq (s_vc s v)) as [|a r] eqn:Q; [discriminate|].
  inversion C; subst a. destruct (runq_head_facts s v t r I Q) as (L & V & _). auto.
Qed.

Lemma in_sleepq_facts : forall s t v, placed s t v -> cnt t (v_sleepq (s_vc s v)) >= 1 ->
  live (s_th s t) = true /\ th_vcpu (s_th s t) = v /\ th_insleep (s_th s t) = true /\
  cnt t (v_runq (s_vc s v)) = 0 /\ cnt t (v_sleepq (s_vc s v)) = 1 /\
  ((th_state (s_th s t) = SLEEPING /\ cnt t (v_standby (s_vc s v)) = 0) \/
   (th_state (s_th s t) = STANDBY /\ cnt t (v_standby (s_vc s v)) = 1)).
Proof.
  intros s t v P H. destruct (placed_cases s t v P) as [(L & V & O)|Z]; [|lia].
  unfold place_ok in O. destruct (th_state (s_th s t)), (th_insleep (s_th s t)); try tauto; intuition lia.
Qed.

Lemma in_standby_facts : forall s t v, placed s t v -> cnt t (v_standby (s_vc s v)) >= 1 ->
  live (s_th s t) = true /\ th_vcpu (s_th s t) = v /\ th_state (s_th s t) = STANDBY /\
  cnt t (v_runq (s_vc s v)) = 0 /\ cnt t (v_standby (s_vc s v)) = 1 /\
  cnt t (v_sleepq (s_vc s v)) = (if th_insleep (s_th s t) then 1 else 0).
Proof.
  intros s t v P H. destruct (placed_cases s t v P) as [(L & V & O)|Z]; [|lia].
  unfold place_ok in O. destruct (th_state (s_th s t)), (th_insleep (s_th s t)); try tauto; intuition lia.
Qed.

Lemma sleeping_facts : forall s t, (forall v, placed s t v) -> th_state (s_th s t) = SLEEPING ->
  let v := th_vcpu (s_th s t) in
  th_insleep (s_th s t) = true /\ cnt t (v_runq (s_vc s v)) = 0 /\ cnt t (v_sleepq (s_vc s v)) = 1 /\
  cnt t (v_standby (s_vc s v)) = 0.
Proof.
  intros s t P E v. specialize (P v). unfold placed in P.
  unfold live in P. rewrite E in P. cbn in P. fold v in P. rewrite Nat.eqb_refl in P.
  unfold place_ok in P. rewrite E in P. destruct (th_insleep (s_th s t)); tauto.
Qed.

Lemma dead_facts : forall s t v, placed s t v -> live (s_th s t) = false ->
  cnt t (v_runq (s_vc s v)) = 0 /\ cnt t (v_sleepq (s_vc s v)) = 0 /\ cnt t (v_standby (s_vc s v)) = 0.
Proof. unfold placed. intros s t v P L. rewrite L in P. cbn in P. auto. Qed.

Lemma inv1_neutral : forall s t f,
  (forall th, th_state (f th) = th_state th /\ th_vcpu (f th) = th_vcpu th /\ th_insleep (f th) = th_insleep th /\
              th_waitq (f th) = th_waitq th /\ th_joiners (f th) = th_joiners th) ->
  Inv1 s -> Inv1 (modth s t f).
Proof.
  intros s t f Hf I. constructor.
  - intros x v. generalize (i_placed _ I x v). unfold placed, live, place_ok. simp_st.
    destruct (Nat.eqb_spec x t) as [->|]; auto.
    destruct (Hf (s_th s t)) as (h1 & h2 & h3 & _). rewrite h1, h2, h3. auto.
  - intros j x. generalize (i_waits _ I j x). unfold waits. simp_st.
    destruct (Hf (s_th s t)) as (h1 & _ & _ & h4 & h5).
    destruct (Nat.eqb_spec x t) as [->|]; destruct (Nat.eqb_spec j t) as [->|]; rewrite ?h1, ?h4, ?h5; auto.
Qed.

Ltac neutral := apply inv1_neutral; [intro th; repeat split | auto].

Lemma placed_ext : forall s s' t v,
  th_state (s_th s' t) = th_state (s_th s t) -> th_vcpu (s_th s' t) = th_vcpu (s_th s t) ->
  th_insleep (s_th s' t) = th_insleep (s_th s t) ->
  cnt t (v_runq (s_vc s' v)) = cnt t (v_runq (s_vc s v)) ->
  cnt t (v_sleepq (s_vc s' v)) = cnt t (v_sleepq (s_vc s v)) ->
  cnt t (v_standby (s_vc s' v)) = cnt t (v_standby (s_vc s v)) ->
  placed s t v -> placed s' t v.
Proof. unfold placed, live, place_ok. intros s s' t v -> -> -> -> -> ->. auto. Qed.

Lemma waits_ext : forall s s' j x,
  th_joiners (s_th s' x) = th_joiners (s_th s x) ->
  th_waitq (s_th s' j) = th_waitq (s_th s j) ->
  (th_waitq (s_th s j) <> None -> th_state (s_th s' j) = th_state (s_th s j)) ->
  waits s j x -> waits s' j x.
Proof.
  unfold waits. intros s s' j x -> -> H [A B]. split; auto. intro N. rewrite (H N). auto.
Qed.

(* boolean (dis)equalities of the context as propositions *)
Ltac neq_tac :=
  repeat match goal with
  | H : Nat.eqb ?a ?b = false |- _ => apply Nat.eqb_neq in H
  | H : Nat.eqb ?a ?b = true |- _ => apply Nat.eqb_eq in H
  end.

(* by cases on every test `Nat.eqb a b` the goal branches on *)
Ltac split_eqb :=
  repeat match goal with
  | |- context[if Nat.eqb ?a ?b then _ else _] =>
      let E := fresh "E" in destruct (Nat.eqb a b) eqn:E;
      [apply Nat.eqb_eq in E; try subst | apply Nat.eqb_neq in E]
  end.
Ltac eqb_false a b := replace (Nat.eqb a b) with false by (symmetry; apply Nat.eqb_neq; first [congruence|lia]).
(* cnt of a queue as the model builds it (:: ++ ins_sorted remove_tid), in terms of cnt of the queue it is built from *)
Ltac cnt_norm :=
  cbn [v_runq v_sleepq v_standby v_nthreads v_pend set_v_runq set_v_sleepq set_v_standby set_v_nthreads set_v_pend];
  rewrite ?cnt_snoc, ?cnt_app, ?cnt_cons, ?cnt_ins, ?cnt_nil, ?Nat.eqb_refl;
  repeat (rewrite cnt_remove_other by congruence);
  rewrite ?cnt_remove_same.
(* a thread other than the one that was moved occurs in every queue as often as before *)
Ltac solve_cnt := simp_st; split_eqb; cnt_norm; split_eqb; try congruence; try lia; auto.

Lemma inv1_same : forall s s', s_th s' = s_th s -> s_vc s' = s_vc s -> Inv1 s -> Inv1 s'.
Proof.
  intros s s' Ht Hv I. constructor.
  - intros t v. generalize (i_placed _ I t v). unfold placed. now rewrite Ht, Hv.
  - intros j x. generalize (i_waits _ I j x). unfold waits. now rewrite Ht.
Qed.

Lemma inv1_vc_neutral : forall s v g,
  (forall x, v_runq (g x) = v_runq x /\ v_sleepq (g x) = v_sleepq x /\ v_standby (g x) = v_standby x) ->
  Inv1 s -> Inv1 (modvc s v g).
Proof.
  intros s v g Hg I. constructor.
  - intros t y. apply (placed_ext s); [reflexivity | reflexivity | reflexivity | .. | apply (i_placed _ I)]; simp_st;
      (destruct (Nat.eqb y v) eqn:E; auto; neq_tac; subst y; destruct (Hg (s_vc s v)) as (a & b & c); congruence).
  - intros j x. apply (waits_ext s); auto. apply (i_waits _ I).
Qed.

Lemma inv1_ret : forall s c r e, Inv1 s -> Inv1 (ret s c r e).
Proof.
  intros. unfold ret. neutral. apply (inv1_same s); auto.
Qed.
Lemma inv1_setk : forall s c k, Inv1 s -> Inv1 (setk s c k).
Proof. intros. unfold setk. neutral. Qed.

Lemma no_waitq : forall s t, Inv1 s -> th_state (s_th s t) <> SLEEPING -> th_waitq (s_th s t) = None.
Proof.
  intros s t I N. destruct (th_waitq (s_th s t)) eqn:W; auto.
  destruct (i_waits _ I t 0) as [_ H]. rewrite W in H. destruct N. apply H. discriminate.
Qed.

(* one thread t, which is in no wait queue, gets the record th' and changes its place in the queues; nothing else
   is touched *)
Lemma inv1_upd : forall s s' t th', Inv1 s ->
  (forall x, s_th s' x = if Nat.eqb x t then th' else s_th s x) ->
  th_waitq th' = th_waitq (s_th s t) -> th_joiners th' = th_joiners (s_th s t) ->
  th_state (s_th s t) <> SLEEPING \/ th_waitq (s_th s t) = None ->
  (forall x y, x <> t -> cnt x (v_runq (s_vc s' y)) = cnt x (v_runq (s_vc s y)) /\
                         cnt x (v_sleepq (s_vc s' y)) = cnt x (v_sleepq (s_vc s y)) /\
                         cnt x (v_standby (s_vc s' y)) = cnt x (v_standby (s_vc s y))) ->
  (forall y, placed s' t y) -> Inv1 s'.
Proof.
  intros s s' t th' I Ht Hw Hj Hs Hc Hp.
  assert (W : th_waitq (s_th s t) = None) by (destruct Hs; auto using no_waitq).
  constructor.
  - intros x y. destruct (Nat.eq_dec x t) as [->|N]; [apply Hp|].
    assert (E : s_th s' x = s_th s x) by (rewrite Ht; apply Nat.eqb_neq in N; now rewrite N).
    destruct (Hc x y N) as (a & b & c). apply (placed_ext s); rewrite ?E; auto. apply (i_placed _ I).
  - intros j x. apply (waits_ext s); [| | |apply (i_waits _ I)]; rewrite ?Ht.
    + destruct (Nat.eqb_spec x t) as [->|]; auto.
    + destruct (Nat.eqb_spec j t) as [->|]; auto.
    + destruct (Nat.eqb_spec j t) as [->|]; auto. congruence.
Qed.

(* the thread that changes: `placed` for t on vCPU y, before and after.  The state is read through modth / modvc
   while it still occurs once, under the `let`s of `placed`; unfolding `live` and `place_ok` first is much slower. *)
Ltac open_placed I t y :=
  generalize (i_placed _ I t y); unfold placed; simp_st; rewrite ?Nat.eqb_refl; unfold live, place_ok; cbv zeta.

(* a SLEEPING thread (no wait queue) becomes READY at the tail of its own vCPU's run queue *)
Lemma inv1_wake_same : forall s v t, Inv1 s ->
  th_state (s_th s t) = SLEEPING -> th_vcpu (s_th s t) = v -> th_waitq (s_th s t) = None ->
  Inv1 (modvc (modth s t (fun th => set_th_insleep (set_th_state th READY) false)) v
              (fun x => set_v_runq (set_v_sleepq x (remove_tid t (v_sleepq x))) (v_runq x ++ [t]))).
Proof.
  intros s v t I Es Ev Ew.
  destruct (sleeping_facts s t (i_placed _ I t) Es) as (f1 & f2 & f3 & f4). rewrite Ev in *.
  eapply (inv1_upd s _ t); [exact I|intro; reflexivity|reflexivity|reflexivity|now right| |].
  - intros x y N. repeat split; solve_cnt.
  - intro y. open_placed I t y. cbn. rewrite Es, Ev, f1. cbn.
    destruct (Nat.eqb v y) eqn:Evy; neq_tac.
    + subst y. rewrite Nat.eqb_refl. cbn. rewrite cnt_snoc, cnt_remove_same, Nat.eqb_refl. lia.
    + eqb_false y v. auto.
Qed.

(* a SLEEPING thread becomes STANDBY in the standby queue of its vCPU (cross-vCPU wake-up) *)
Lemma inv1_wake_cross : forall s u t, Inv1 s ->
  th_state (s_th s t) = SLEEPING -> th_vcpu (s_th s t) = u -> th_waitq (s_th s t) = None ->
  Inv1 (modvc (modth s t (fun th => set_th_state th STANDBY)) u (fun x => set_v_standby x (v_standby x ++ [t]))).
Proof.
  intros s u t I Es Ev Ew.
  destruct (sleeping_facts s t (i_placed _ I t) Es) as (f1 & f2 & f3 & f4). rewrite Ev in *.
  eapply (inv1_upd s _ t); [exact I|intro; reflexivity|reflexivity|reflexivity|now right| |].
  - intros x y N. repeat split; solve_cnt.
  - intro y. open_placed I t y. cbn. rewrite Es, Ev, f1. cbn.
    destruct (Nat.eqb u y) eqn:Euy; neq_tac.
    + subst y. rewrite Nat.eqb_refl. cnt_norm. lia.
    + eqb_false y u. auto.
Qed.

Lemma inv1_switch_in : forall s v n, Inv1 s -> cnt n (v_runq (s_vc s v)) >= 1 -> Inv1 (switch_in s n).
Proof.
  intros s v n I Hn.
  destruct (in_runq_facts s n v (i_placed _ I n v) Hn) as (l1 & l2 & l3 & l4 & l5 & l6 & l7).
  unfold switch_in.
  eapply (inv1_upd s _ n); [exact I|intro; reflexivity| | |left; destruct l7 as [l7|[l7|l7]]; congruence| |].
  - destruct (th_fresh (s_th s n)); reflexivity.
  - destruct (th_fresh (s_th s n)); reflexivity.
  - intros x y N. repeat split; reflexivity.
  - intro y. open_placed I n y.
    destruct (th_fresh (s_th s n)); cbn; rewrite l3, l2;
      destruct l7 as [l7|[l7|l7]]; rewrite l7; cbn;
      (destruct (Nat.eqb v y) eqn:Evy; [apply Nat.eqb_eq in Evy; subst y|]; auto; lia).
Qed.

Lemma switch_in_vc : forall s n, s_vc (switch_in s n) = s_vc s. Proof. reflexivity. Qed.
Lemma switch_in_other : forall s n x, x <> n -> s_th (switch_in s n) x = s_th s x.
Proof. intros. unfold switch_in. simp_st. apply Nat.eqb_neq in H. now rewrite H. Qed.
Lemma switch_in_state : forall s n, th_state (s_th (switch_in s n) n) = RUNNING.
Proof. intros. unfold switch_in. simp_st. rewrite Nat.eqb_refl. destruct (th_fresh (s_th s n)); reflexivity. Qed.

(* the successor n of the CURRENT thread c is switched in; c stays RUNNING until it is dealt with *)
Lemma inv1_switch_next : forall s v c n rest, Inv1 s ->
  v_runq (s_vc s v) = c :: rest -> cnt n rest >= 1 -> c <> n -> th_state (s_th s c) = RUNNING ->
  Inv1 (switch_in s n) /\ th_state (s_th (switch_in s n) c) = RUNNING.
Proof.
  intros s v c n rest I Hq Hn N Ec. split.
  - apply (inv1_switch_in s v); auto. rewrite Hq, cnt_cons. lia.
  - rewrite switch_in_other; auto.
Qed.

(* the head of the run queue (RUNNING) goes to the tail as READY *)
Lemma inv1_rotate : forall s v c rest f, Inv1 s ->
  v_runq (s_vc s v) = c :: rest -> th_state (s_th s c) = RUNNING ->
  (forall th, th_vcpu (f th) = th_vcpu th /\ th_insleep (f th) = th_insleep th /\
              th_waitq (f th) = th_waitq th /\ th_joiners (f th) = th_joiners th /\ th_state (f th) = READY) ->
  forall p, Inv1 (modvc (modth s c f) v (fun x => set_v_pend (set_v_runq x (rest ++ [c])) p)).
Proof.
  intros s v c rest f I Hq Es Hf p.
  destruct (runq_head_facts s v c rest I Hq) as (l1 & l2 & l3 & l4 & l5 & l6 & l7).
  destruct (Hf (s_th s c)) as (h1 & h2 & h3 & h4 & h5).
  eapply (inv1_upd s _ c); [exact I|intro; reflexivity|exact h3|exact h4|left; congruence| |].
  - intros x y N. repeat split; solve_cnt. rewrite Hq. cnt_norm. split_eqb; try congruence; lia.
  - intro y. open_placed I c y.
    rewrite h1, h2, h5, Es, l3, l2. cbn.
    destruct (Nat.eqb v y) eqn:Evy; neq_tac.
    + subst y. rewrite Nat.eqb_refl. cbn. rewrite Hq. cnt_norm. lia.
    + eqb_false y v. auto.
Qed.

(* the head of the run queue goes to sleep (optionally into the wait queue of thread x) *)
Lemma inv1_sleep : forall s v c rest exp wq ts p, Inv1 s ->
  v_runq (s_vc s v) = c :: rest -> th_state (s_th s c) = RUNNING ->
  let s2 := modth s c (fun th => set_th_waitq (set_th_ts (set_th_insleep (set_th_state th SLEEPING) true) exp) wq) in
  let s3 := match wq with Some x => modth s2 x (fun th => set_th_joiners th (th_joiners th ++ [c])) | None => s2 end in
  Inv1 (modvc s3 v (fun x => set_v_pend (set_v_sleepq (set_v_runq x rest) (ins_sorted ts c (v_sleepq x))) p)).
Proof.
  intros s v c rest exp wq ts p I Hq Es s2 s3.
  destruct (runq_head_facts s v c rest I Hq) as (l1 & l2 & l3 & l4 & l5 & l6 & l7).
  assert (Hw : th_waitq (s_th s c) = None) by (apply no_waitq; auto; congruence).
  assert (Hr : cnt c rest = 0). { rewrite Hq, cnt_cons, Nat.eqb_refl in l4. lia. }
  assert (T3 : forall x, th_state (s_th s3 x) = (if Nat.eqb x c then SLEEPING else th_state (s_th s x)) /\
                         th_vcpu (s_th s3 x) = th_vcpu (s_th s x) /\
                         th_insleep (s_th s3 x) = (if Nat.eqb x c then true else th_insleep (s_th s x)) /\
                         th_waitq (s_th s3 x) = (if Nat.eqb x c then wq else th_waitq (s_th s x)) /\
                         th_joiners (s_th s3 x) =
                           (if opt_eqb wq x then th_joiners (s_th s x) ++ [c] else th_joiners (s_th s x))).
  { intro x. unfold s3. destruct wq as [w|]; cbn [opt_eqb].
    - (* x = w is looked at before x = c: nothing here says that c does not wait for itself *)
      rewrite th_modth, (Nat.eqb_sym w x).
      destruct (Nat.eqb_spec x w) as [->|_]; cbn [th_state th_vcpu th_insleep th_waitq th_joiners set_th_joiners];
        unfold s2; rewrite th_modth; [destruct (Nat.eqb_spec w c) as [->|_]|destruct (Nat.eqb_spec x c) as [->|_]];
        repeat split; reflexivity.
    - unfold s2. rewrite th_modth. destruct (Nat.eqb_spec x c) as [->|_]; repeat split; reflexivity. }
  assert (V3 : s_vc s3 = s_vc s). { unfold s3, s2. destruct wq; reflexivity. }
  constructor.
  - intros x y. generalize (i_placed _ I x y). unfold placed, live, place_ok. simp_st. rewrite V3.
    destruct (T3 x) as (t1 & t2 & t3 & _). rewrite t1, t2, t3.
    destruct (Nat.eqb x c) eqn:Exc; neq_tac.
    + subst x. rewrite Es, l3, l2. cbn.
      destruct (Nat.eqb v y) eqn:Evy; neq_tac.
      * subst y. rewrite Nat.eqb_refl. cnt_norm. rewrite Hr. lia.
      * eqb_false y v. auto.
    + destruct (Nat.eqb y v) eqn:Eyv; neq_tac; auto. subst y. cnt_norm. rewrite Hq. cnt_norm.
      eqb_false c x. cbn. auto.
  - intros j x. generalize (i_waits _ I j x). unfold waits. simp_st.
    destruct (T3 j) as (t1 & _ & _ & t4 & _). destruct (T3 x) as (_ & _ & _ & _ & J). rewrite t1, t4, J.
    destruct (Nat.eqb j c) eqn:Ejc; neq_tac.
    + subst j. rewrite Hw. cbn [opt_eqb]. intros [A _]. split; [|auto].
      destruct (opt_eqb wq x); cnt_norm; lia.
    + intros [A B]. split; auto.
      destruct (opt_eqb wq x); auto. cnt_norm. eqb_false c j. lia.
Qed.

Lemma inv1_drain_one : forall s v t, Inv1 s -> Inv1 (drain_one s v t).
Proof.
  intros s v t I. unfold drain_one, getvc.
  destruct (mem_tid t (v_standby (s_vc s v))) eqn:M; cbn [negb]; auto.
  apply mem_cnt in M.
  destruct (in_standby_facts s t v (i_placed _ I t v) M) as (l1 & l2 & l3 & l4 & l5 & l6).
  eapply (inv1_upd s _ t); [exact I|intro; reflexivity|reflexivity|reflexivity|left; congruence| |].
  - intros x y N. repeat split; solve_cnt.
  - intro y. open_placed I t y.
    cbn. rewrite l3, l2. cbn.
    destruct (Nat.eqb v y) eqn:Evy; neq_tac.
    + subst y. rewrite Nat.eqb_refl. cnt_norm. rewrite l4, l5, l6.
      destruct (th_insleep (s_th s t)); cbn; lia.
    + eqb_false y v. auto.
Qed.

(* work stealing moves a thread that is in u's run queue (not RUNNING) or standby queue, and in no
   sleep queue, to the tail of the thief's run queue *)
Lemma inv1_steal : forall s v u t (from_standby : bool) ntu ntv, Inv1 s -> u <> v ->
  th_insleep (s_th s t) = false ->
  (if from_standby then cnt t (v_standby (s_vc s u)) >= 1
   else cnt t (v_runq (s_vc s u)) >= 1 /\ th_state (s_th s t) <> RUNNING) ->
  let s0 := modvc s u (fun x => if from_standby then set_v_standby x (remove_tid t (v_standby x))
                                else set_v_runq x (remove_tid t (v_runq x))) in
  Inv1 (modvc (modvc (modth s0 t (fun x => set_th_vcpu x v)) u (fun x => set_v_nthreads x (ntu x))) v
              (fun x => set_v_nthreads (set_v_runq x (v_runq x ++ [t])) (ntv x))).
Proof.
  intros s v u t fs ntu ntv I Nuv Hi Hc s0.
  assert (F : live (s_th s t) = true /\ th_vcpu (s_th s t) = u /\
              cnt t (v_sleepq (s_vc s u)) = 0 /\
              (th_state (s_th s t) = READY \/ th_state (s_th s t) = STANDBY) /\
              (if fs then cnt t (v_standby (s_vc s u)) = 1 /\ cnt t (v_runq (s_vc s u)) = 0 /\ th_state (s_th s t) = STANDBY
               else cnt t (v_runq (s_vc s u)) = 1 /\ cnt t (v_standby (s_vc s u)) = 0)).
  { destruct fs.
    - destruct (in_standby_facts s t u (i_placed _ I t u) Hc) as (l1 & l2 & l3 & l4 & l5 & l6).
      rewrite Hi in l6. intuition.
    - destruct Hc as [Hc Nr].
      destruct (in_runq_facts s t u (i_placed _ I t u) Hc) as (l1 & l2 & l3 & l4 & l5 & l6 & l7).
      intuition. }
  destruct F as (l1 & l2 & l5 & l7 & F).
  unfold s0. eapply (inv1_upd s _ t); [exact I|intro; reflexivity|reflexivity|reflexivity|left; destruct l7; congruence| |].
  - intros x y N. repeat split; simp_st; split_eqb; destruct fs; cnt_norm; try congruence; try lia; auto.
    all: eqb_false t x; lia.
  - intro y. open_placed I t y.
    cbn. rewrite Hi, l2.
    destruct (Nat.eqb y v) eqn:Eyv; neq_tac.
    + subst y. rewrite Nat.eqb_refl. eqb_false u v. eqb_false v u. cbn.
      destruct l7 as [l7|l7]; rewrite l7; cbn; intros (a & b & c); cnt_norm; lia.
    + eqb_false v y. destruct (Nat.eqb y u) eqn:Eyu; neq_tac.
      * subst y. rewrite Nat.eqb_refl. cbn.
        destruct l7 as [l7|l7]; rewrite l7; cbn; intros _; destruct fs; cnt_norm; intuition lia.
      * eqb_false u y. destruct l7 as [l7|l7]; rewrite l7; cbn; auto.
Qed.

(* what dequeue does to the fields the invariants look at, when t waits in the queue of w *)
Lemma dequeue_fields : forall s t w x, th_waitq (s_th s t) = Some w ->
  th_joiners (s_th (dequeue s t) x) = (if Nat.eqb x w then remove_tid t (th_joiners (s_th s w)) else th_joiners (s_th s x)) /\
  th_waitq (s_th (dequeue s t) x) = (if Nat.eqb x t then None else th_waitq (s_th s x)) /\
  th_state (s_th (dequeue s t) x) = th_state (s_th s x) /\ th_vcpu (s_th (dequeue s t) x) = th_vcpu (s_th s x) /\
  th_insleep (s_th (dequeue s t) x) = th_insleep (s_th s x).
Proof.
  intros s t w x W. unfold dequeue, getth. rewrite W. simp_st.
  destruct (Nat.eqb x t) eqn:E1; neq_tac; subst; [destruct (Nat.eqb t w) eqn:E2|destruct (Nat.eqb x w) eqn:E2];
    neq_tac; subst; repeat split; reflexivity.
Qed.
Lemma dequeue_state : forall s t x, th_state (s_th (dequeue s t) x) = th_state (s_th s x).
Proof.
  intros. destruct (th_waitq (s_th s t)) as [w|] eqn:W; [apply (dequeue_fields s t w x W)|].
  unfold dequeue, getth. now rewrite W.
Qed.
Lemma dequeue_self : forall s t,
  th_waitq (s_th (dequeue s t) t) = None /\ th_state (s_th (dequeue s t) t) = th_state (s_th s t) /\
  th_vcpu (s_th (dequeue s t) t) = th_vcpu (s_th s t).
Proof.
  intros. destruct (th_waitq (s_th s t)) as [w|] eqn:W.
  - destruct (dequeue_fields s t w t W) as (_ & a & b & c & _). rewrite Nat.eqb_refl in a. auto.
  - unfold dequeue, getth. rewrite W. auto.
Qed.
Lemma dequeue_vc : forall s t, s_vc (dequeue s t) = s_vc s.
Proof. intros. unfold dequeue. destruct (th_waitq (getth s t)); reflexivity. Qed.

Lemma inv1_dequeue : forall s t, Inv1 s -> Inv1 (dequeue s t).
Proof.
  intros s t I. destruct (th_waitq (s_th s t)) as [w|] eqn:W; [|unfold dequeue, getth; now rewrite W].
  constructor.
  - intros x y. destruct (dequeue_fields s t w x W) as (_ & _ & a & b & c).
    apply (placed_ext s); auto; [| | |apply (i_placed _ I)]; unfold dequeue, getth; rewrite W; reflexivity.
  - intros j x. destruct (dequeue_fields s t w x W) as (J & _). destruct (dequeue_fields s t w j W) as (_ & Wq & St & _).
    unfold waits. rewrite J, Wq, St.
    destruct (i_waits _ I j x) as [A B]. destruct (i_waits _ I t w) as [A0 B0].
    rewrite W in A0. cbn [opt_eqb] in A0. rewrite Nat.eqb_refl in A0.
    destruct (Nat.eqb j t) eqn:Ejt; neq_tac.
    + subst j. cbn [opt_eqb]. split; [|congruence].
      destruct (Nat.eqb x w) eqn:Exw; neq_tac.
      * subst x. rewrite cnt_remove_same. lia.
      * rewrite A, W. cbn [opt_eqb]. eqb_false w x. reflexivity.
    + split; auto. destruct (Nat.eqb x w) eqn:Exw; neq_tac; auto.
      subst x. rewrite cnt_remove_other by congruence. auto.
Qed.

Lemma inv1_wake : forall s v t e, Inv1 s -> th_state (s_th s t) = SLEEPING -> Inv1 (wake s v t e).
Proof.
  intros s v t e I Es. unfold wake.
  set (s0 := modth s t (fun th => set_th_err th e)).
  assert (I0 : Inv1 s0) by neutral.
  assert (E0 : th_state (s_th s0 t) = SLEEPING). { unfold s0. simp_st. rewrite Nat.eqb_refl. exact Es. }
  pose proof (inv1_dequeue s0 t I0) as I1.
  destruct (dequeue_self s0 t) as (d1 & d2 & d3).
  unfold getth.
  destruct (Nat.eqb (th_vcpu (s_th (dequeue s0 t) t)) v) eqn:Ev.
  - neq_tac. apply (inv1_wake_same (dequeue s0 t) v t I1); congruence.
  - apply (inv1_wake_cross (dequeue s0 t) _ t I1); congruence.
Qed.

Lemma wake_runq_head : forall s v t e c rest,
  v_runq (s_vc s v) = c :: rest ->
  exists rest', v_runq (s_vc (wake s v t e) v) = c :: rest' /\
                (forall x, cnt x rest <= cnt x rest').
Proof.
  intros s v t e c rest Hq. unfold wake, getth.
  set (s1 := dequeue (modth s t (fun th => set_th_err th e)) t).
  assert (V : s_vc s1 = s_vc s). { unfold s1. rewrite dequeue_vc. reflexivity. }
  destruct (Nat.eqb (th_vcpu (s_th s1 t)) v) eqn:Ev.
  - simp_st. rewrite Nat.eqb_refl, V. cbn. rewrite Hq. exists (rest ++ [t]). split; auto.
    intro x. rewrite cnt_app. lia.
  - simp_st. rewrite V. neq_tac. destruct (Nat.eqb v (th_vcpu (s_th s1 t))) eqn:E2; neq_tac; [congruence|].
    rewrite Hq. exists rest. split; auto.
Qed.

Lemma wake_other_thread : forall s v t e x, x <> t ->
  th_state (s_th (wake s v t e) x) = th_state (s_th s x).
Proof.
  intros s v t e x N. unfold wake, getth.
  set (s0 := modth s t (fun th => set_th_err th e)).
  assert (D : th_state (s_th (dequeue s0 t) x) = th_state (s_th s x)).
  { rewrite dequeue_state. unfold s0. simp_st. apply Nat.eqb_neq in N. now rewrite N. }
  destruct (Nat.eqb (th_vcpu (s_th (dequeue s0 t) t)) v); simp_st; apply Nat.eqb_neq in N; rewrite N; exact D.
Qed.

Definition head_run (s : state) (v : nat) : Prop :=
  forall c rest, v_runq (s_vc s v) = c :: rest -> th_state (s_th s c) = RUNNING.
Lemma head_run_same : forall s s' v, s_th s' = s_th s -> s_vc s' = s_vc s -> head_run s v -> head_run s' v.
Proof. unfold head_run. intros s s' v -> ->. auto. Qed.

Lemma running_head_run : forall s w c, running s w c -> head_run s w.
Proof. intros s w c (a & b & _) c' rest E. rewrite E in a. inversion a; subst. exact b. Qed.

(* thread_join about to wait (cond.wait): the target's lock is taken and the phase recorded; the caller still heads
   its ring *)
Lemma join_wait_ready : forall s w c j, Inv1 s -> running s w c ->
  Inv1 (setk (modth s j (fun x => set_th_lock x LJoin)) c 2) /\ head_run (setk (modth s j (fun x => set_th_lock x LJoin)) c 2) w.
Proof.
  intros s w c j I R. split; [apply inv1_setk; neutral|]. eapply running_head_run, running_setk, running_modth; eauto.
Qed.

Lemma head_not_second : forall s v c n rest, Inv1 s -> v_runq (s_vc s v) = c :: n :: rest -> c <> n.
Proof.
  intros s v c n rest I Hq E. subst n.
  destruct (runq_head_facts s v c _ I Hq) as (_ & _ & _ & l4 & _).
  rewrite Hq, !cnt_cons, Nat.eqb_refl in l4. lia.
Qed.

Lemma inv1_yield : forall s v ce d, Inv1 s ->
  head_run s v ->
  Inv1 (do_yield s v ce d).
Proof.
  intros s v ce d I Hr. unfold do_yield, getvc.
  destruct (v_runq (s_vc s v)) as [|c [|n rest]] eqn:Hq; try (apply (inv1_same s); auto; fail).
  destruct (inv1_switch_next s v c n _ I Hq (cnt_head n rest) (head_not_second s v c n rest I Hq) (Hr c _ Hq)) as [In Ec].
  apply (inv1_rotate (switch_in s n) v c (n :: rest)); auto.
  intro th. destruct ce; cbn; repeat split.
Qed.

Lemma inv1_do_sleep : forall s v exp wq d, Inv1 s ->
  head_run s v ->
  Inv1 (do_sleep s v exp wq d).
Proof.
  intros s v exp wq d I Hr. unfold do_sleep, getvc.
  destruct (v_runq (s_vc s v)) as [|c [|n rest]] eqn:Hq; try (apply (inv1_same s); auto; fail).
  destruct (inv1_switch_next s v c n _ I Hq (cnt_head n rest) (head_not_second s v c n rest I Hq) (Hr c _ Hq)) as [In Ec].
  match goal with |- Inv1 (if ?b then set_s_tie ?X true else ?X) =>
    assert (IX : Inv1 X); [| destruct b; auto; apply (inv1_same X); auto] end.
  apply (inv1_sleep (switch_in s n) v c (n :: rest)); auto.
Qed.

Lemma inv1_do_create : forall s v k jn ws, Inv1 s -> th_state (s_th s k) = NOTCREATED -> Inv1 (do_create s v k jn ws).
Proof.
  intros s v k jn ws I En. unfold do_create, getth.
  assert (L : live (s_th s k) = false) by (unfold live; rewrite En; reflexivity).
  assert (Hw : th_waitq (s_th s k) = None) by (apply no_waitq; auto; congruence).
  eapply (inv1_upd s _ k); [exact I|intro; reflexivity|exact (eq_sym Hw)|reflexivity|now right| |].
  - intros x y N. repeat split; solve_cnt.
  - intro y. destruct (dead_facts s k y (i_placed _ I k y) L) as (d1 & d2 & d3).
    unfold placed. simp_st. cbn [s_th set_s_th]. rewrite updp_eq. unfold live, place_ok. cbn.
    destruct (Nat.eqb v y) eqn:Evy; neq_tac.
    + subst y. rewrite Nat.eqb_refl. cnt_norm. lia.
    + eqb_false y v. auto.
Qed.

Lemma head_running : forall s v, 
  (forall c rest, v_runq (s_vc s v) = c :: rest -> th_state (s_th s c) = RUNNING) -> True.
Proof. auto. Qed.

(* thread::die as seen by the invariants: after cond.notify_one (s1) the dying thread c still heads the ring and
   its successor n is still in it; then n is switched in and c leaves *)
Lemma do_die_inv : forall s v rv s', Inv1 s -> head_run s v -> do_die s v rv = Some s' ->
  (s_th s' = s_th s /\ s_vc s' = s_vc s /\ s_n s' = s_n s /\ s_nv s' = s_nv s) \/
  exists c n rest rest' s1,
    v_runq (s_vc s v) = c :: n :: rest /\ th_lock (s_th s c) = LFree /\ c <> n /\
    (s1 = s \/ exists j, th_state (s_th s j) = SLEEPING /\ s1 = wake s v j (-1)) /\
    Inv1 s1 /\ v_runq (s_vc s1 v) = c :: rest' /\ cnt n rest' >= 1 /\ th_state (s_th s1 c) = RUNNING /\
    s' = modvc (modth (switch_in s1 n) c
                  (fun x => set_g_finished (set_th_retval (set_th_state (set_th_lock x LSelf) DONE) rv) (S (g_finished x))))
               v (fun x => set_v_pend (set_v_nthreads (set_v_runq x (remove_tid c (v_runq x))) (v_nthreads x - 1)) (PDie c)).
Proof.
  intros s v rv s' I Hr. unfold do_die, getvc, getth.
  destruct (v_runq (s_vc s v)) as [|c [|n rest]] eqn:Hq; try (intro H; inversion H; subst; left; auto; fail).
  cbv zeta. destruct (lock_free (th_lock (s_th s c))) eqn:Lc; cbn [andb negb]; [|discriminate].
  match goal with |- (if negb ?b then _ else _) = _ -> _ => destruct b end; cbn [negb]; [|discriminate].
  intro H. inversion H; subst s'; clear H. right.
  pose proof (Hr c _ Hq) as Ec. pose proof (head_not_second s v c n rest I Hq) as Ncn.
  exists c, n, rest. destruct (th_joiners (s_th s c)) as [|j js] eqn:Ej.
  - exists (n :: rest), s. rewrite cnt_cons, Nat.eqb_refl. repeat (split; [solve [auto using lock_free_true|lia]|]). reflexivity.
  - destruct (i_waits _ I j c) as [A B]. rewrite Ej, cnt_cons, Nat.eqb_refl in A.
    assert (Sj : th_state (s_th s j) = SLEEPING).
    { apply B. destruct (th_waitq (s_th s j)); [discriminate|]. cbn in A. lia. }
    assert (Njc : j <> c) by (intro; subst; congruence).
    destruct (wake_runq_head s v j (-1) c (n :: rest) Hq) as (r' & E1 & E2).
    specialize (E2 n). rewrite cnt_cons, Nat.eqb_refl in E2.
    exists r', (wake s v j (-1)). rewrite wake_other_thread by auto.
    repeat (split; [solve [eauto using lock_free_true, inv1_wake|lia]|]). reflexivity.
Qed.

Lemma inv1_do_die : forall s v rv s', Inv1 s -> head_run s v -> do_die s v rv = Some s' -> Inv1 s'.
Proof.
  intros s v rv s' I Hr D.
  destruct (do_die_inv s v rv s' I Hr D) as [(a & b & _)|(c & n & rest & rest' & s1 & _ & _ & Ncn & _ & I1 & Hq1 & Hn1 & Ec1 & ->)].
  { now apply (inv1_same s). }
  destruct (inv1_switch_next s1 v c n rest' I1 Hq1 Hn1 Ncn Ec1) as [I2 Es].
  assert (Hq : v_runq (s_vc (switch_in s1 n) v) = c :: rest') by exact Hq1.
  (* from here on an arbitrary state s2, which simp_st and cbn cannot read through *)
  revert I2 Es Hq. generalize (switch_in s1 n). intros s2 I2 Es Hq.
  destruct (runq_head_facts s2 v c rest' I2 Hq) as (l1 & l2 & l3 & l4 & l5 & l6 & l7).
  eapply (inv1_upd s2 _ c); [exact I2|intro; reflexivity|reflexivity|reflexivity|left; congruence| |].
  - intros x y N. repeat split; solve_cnt.
  - intro y. open_placed I2 c y. cbn. destruct (Nat.eqb y v) eqn:Eyv; neq_tac.
    + subst y. cnt_norm. rewrite l4, l5, l6. auto.
    + rewrite Es, l2. cbn. eqb_false v y. cbn. auto.
Qed.

Lemma inv1_do_migrate : forall s v t u s' b, Inv1 s -> do_migrate s v t u = Some (s', b) -> Inv1 s'.
Proof.
  intros s v t u s' b I M. destruct (do_migrate_inv _ _ _ _ _ _ M) as [->|(Es & _ & Nuv & Hm & ->)]; auto.
  apply mem_cnt in Hm. unfold migrated.
  destruct (in_runq_facts s t v (i_placed _ I t v) Hm) as (l1 & l2 & l3 & l4 & l5 & l6 & l7).
  eapply (inv1_upd s _ t); [exact I|intro; reflexivity|reflexivity|reflexivity|left; congruence| |].
  - intros x y N. repeat split; solve_cnt.
  - intro y. open_placed I t y.
    cbn. rewrite Es, l2, l3. cbn.
    destruct (Nat.eqb y u) eqn:Eyu; neq_tac.
    + subst y. rewrite Nat.eqb_refl. eqb_false v u. eqb_false u v. cbn. cnt_norm. intros (a & q & c). lia.
    + eqb_false u y. destruct (Nat.eqb y v) eqn:Eyv; neq_tac.
      * subst y. rewrite Nat.eqb_refl. cbn. cnt_norm. lia.
      * eqb_false v y. cbn. auto.
Qed.

Lemma inv1_exec_pend : forall s v, Inv1 s -> Inv1 (exec_pend s v).
Proof.
  intros s v I. unfold exec_pend, getvc, getth.
  assert (I0 : Inv1 (modvc s v (fun x => set_v_pend x PNone))).
  { apply inv1_vc_neutral; [intro x; repeat split | auto]. }
  destruct (v_pend (s_vc s v)) as [|from d|from]; auto.
  - destruct d as [|t|t u]; auto.
    + neutral.
    + destruct (do_migrate _ v t u) as [[s1 b]|] eqn:M; auto. eapply inv1_do_migrate; eauto.
  - destruct (th_joinable _); neutral.
Qed.

Lemma inv1_do_resume : forall s v, Inv1 s -> Inv1 (do_resume s v).
Proof.
  intros s v I. unfold do_resume, getvc, getth.
  destruct (v_sleepq (s_vc s v)) as [|t rest] eqn:Hq; auto.
  destruct (Z.ltb _ _); auto. destruct (negb _); auto.
  assert (Hc : cnt t (v_sleepq (s_vc s v)) >= 1) by (rewrite Hq; apply cnt_head).
  destruct (tstate_eqb (th_state (s_th s t)) SLEEPING) eqn:Es.
  - assert (Es' : th_state (s_th s t) = SLEEPING) by now apply tstate_eqb_true.
    destruct (in_sleepq_facts s t v (i_placed _ I t v) Hc) as (l1 & l2 & _).
    pose proof (inv1_dequeue s t I) as I1. destruct (dequeue_self s t) as (d1 & d2 & d3).
    apply (inv1_wake_same (dequeue s t) v t I1); congruence.
  - (* interrupted from another vCPU: t leaves the sleep queue only *)
    apply tstate_eqb_false in Es.
    destruct (in_sleepq_facts s t v (i_placed _ I t v) Hc) as (l1 & l2 & l3 & l4 & l5 & [[l6 l7]|[l6 l7]]); [congruence|].
    eapply (inv1_upd s _ t); [exact I|intro; reflexivity|reflexivity|reflexivity|now left| |].
    + intros x y N. repeat split; solve_cnt.
    + intro y. open_placed I t y.
      cbn. rewrite l6, l2, l3. cbn.
      destruct (Nat.eqb v y) eqn:Evy; neq_tac.
      * subst y. rewrite Nat.eqb_refl. cnt_norm. lia.
      * eqb_false y v. auto.
Qed.

Lemma inv1_do_steal : forall s v u t, Inv1 s -> Inv1 (do_steal s v u t).
Proof.
  intros s v u t I. unfold do_steal, getth, getvc.
  destruct (negb _) eqn:G; auto. apply negb_false_iff in G.
  repeat (apply andb_true_iff in G; destruct G as [G ?]).
  assert (Nuv : u <> v).
  { match goal with H : negb (Nat.eqb u v) = true |- _ => apply negb_true_iff in H; now apply Nat.eqb_neq in H end. }
  assert (Hi : th_insleep (s_th s t) = false).
  { match goal with H : stealable _ = true |- _ => unfold stealable in H; apply andb_true_iff in H; destruct H as [_ H];
      now apply negb_true_iff in H end. }
  destruct (mem_tid t (v_standby (s_vc s u))) eqn:M1.
  - apply mem_cnt in M1.
    apply (inv1_steal s v u t true (fun x => (v_nthreads x - 1)%Z) (fun x => (v_nthreads x + 1)%Z)); auto.
  - destruct (_ && _) eqn:M2; auto. apply andb_true_iff in M2. destruct M2 as [M2 M3]. apply mem_cnt in M2.
    apply (inv1_steal s v u t false (fun x => (v_nthreads x - 1)%Z) (fun x => (v_nthreads x + 1)%Z)); auto.
    split; auto. intro E. rewrite E in M3. discriminate.
Qed.

Lemma inv1_move : forall progs guard w s s', Inv1 s -> move progs guard w s s' -> Inv1 s'.
Proof.
  intros progs guard w s s' I M. destruct M.
  - eapply inv1_same; eauto.
  - now apply inv1_setk.
  - neutral.
  - neutral.
  - apply inv1_yield; eauto using running_head_run.
  - apply inv1_do_sleep; eauto using running_head_run.
  - apply inv1_do_sleep; eapply join_wait_ready; eauto.
  - neutral.
  - now apply inv1_wake.
  - now apply inv1_do_create.
  - eapply inv1_do_die; eauto using running_head_run.
  - eapply inv1_do_migrate; eauto.
  - now apply inv1_exec_pend.
  - now apply inv1_drain_one.
  - now apply inv1_do_resume.
  - now apply inv1_do_steal.
Qed.

Lemma inv1_step : forall progs s l, Inv1 s -> Inv1 (step progs s l).
Proof.
  intros progs s l. apply (step_pres progs (fun _ _ => true) Inv1); auto.
  - intros. eapply inv1_move; eauto.
  - intros. now apply inv1_ret.
Qed.
Lemma inv1_run : forall progs ls s, Inv1 s -> Inv1 (run progs s ls).
Proof. intros progs. induction ls; cbn; auto using inv1_step. Qed.

Lemma init_thread_cases : forall nv n t, nv <= n ->
  (t < nv /\ init_thread nv n t = mkT RUNNING t KMain 0 0 false None [] false false LFree 0 0 0 false false 1 0 0 0 0) \/
  (n <= t < n + nv /\ init_thread nv n t = mkT READY (t - n) KIdler 0 0 false None [] true false LFree 0 0 0 false true 0 0 0 0 0) \/
  (nv <= t /\ (t < n \/ n + nv <= t) /\ init_thread nv n t = thread0).
Proof.
  intros nv n t Hn. unfold init_thread.
  destruct (Nat.ltb t nv) eqn:E1.
  - apply Nat.ltb_lt in E1. left. auto.
  - apply Nat.ltb_ge in E1. destruct (Nat.leb n t) eqn:E2; cbn [andb].
    + apply Nat.leb_le in E2. destruct (Nat.ltb t (n + nv)) eqn:E3.
      * apply Nat.ltb_lt in E3. right. left. auto.
      * apply Nat.ltb_ge in E3. right. right. auto.
    + apply Nat.leb_gt in E2. right. right. auto.
Qed.
Lemma init_vcpu_cases : forall nv n flags v,
  (v < nv /\ v_runq (init_vcpu nv n flags v) = [v; n + v] /\ v_sleepq (init_vcpu nv n flags v) = [] /\ v_standby (init_vcpu nv n flags v) = []) \/
  (nv <= v /\ init_vcpu nv n flags v = vcpu0).
Proof.
  intros. unfold init_vcpu. destruct (Nat.ltb v nv) eqn:E.
  - apply Nat.ltb_lt in E. left. auto.
  - apply Nat.ltb_ge in E. right. auto.
Qed.

Lemma init_pend : forall nv n flags t0 v, v_pend (s_vc (init_state nv n flags t0) v) = PNone.
Proof. intros. cbn [init_state s_vc]. unfold init_vcpu. destruct (Nat.ltb v nv); reflexivity. Qed.

Lemma inv1_init : forall nv n flags t0, nv <= n -> Inv1 (init_state nv n flags t0).
Proof.
  intros nv n flags t0 Hn. constructor.
  - intros t v. unfold placed, init_state. cbn [s_th s_vc].
    destruct (init_thread_cases nv n t Hn) as [[T1 ->]|[[T1 ->]|(T1 & T2 & ->)]];
    destruct (init_vcpu_cases nv n flags v) as [(V1 & -> & -> & ->)|[V1 ->]];
      cbn [live th_state th_vcpu th_insleep tstate_eqb negb andb thread0 vcpu0 v_runq v_sleepq v_standby place_ok];
      rewrite ?cnt_cons, ?cnt_nil.
    + destruct (Nat.eqb t v) eqn:E; neq_tac.
      * subst v. rewrite Nat.eqb_refl. eqb_false (n + t) t. lia.
      * eqb_false v t. eqb_false (n + v) t. auto.
    + eqb_false t v. auto.
    + destruct (Nat.eqb (t - n) v) eqn:E; neq_tac.
      * subst v. eqb_false (t - n) t. replace (n + (t - n)) with t by lia. rewrite Nat.eqb_refl. lia.
      * eqb_false v t. eqb_false (n + v) t. auto.
    + eqb_false (t - n) v. auto.
    + eqb_false v t. eqb_false (n + v) t. auto.
    + auto.
  - intros j x. unfold waits, init_state. cbn [s_th].
    destruct (init_thread_cases nv n j Hn) as [[_ ->]|[[_ ->]|(_ & _ & ->)]];
    destruct (init_thread_cases nv n x Hn) as [[_ ->]|[[_ ->]|(_ & _ & ->)]];
      cbn; (split; [reflexivity|congruence]).
Qed.

Definition reachable (progs : tid -> list op) (nv n : nat) (flags : nat -> bool * bool) (t0 : Z) (s : state) : Prop :=
  exists ls, s = run progs (init_state nv n flags t0) ls.

Lemma reachable_inv1 : forall progs nv n flags t0 s, nv <= n -> reachable progs nv n flags t0 s -> Inv1 s.
Proof. intros progs nv n flags t0 s Hn [ls ->]. apply inv1_run. now apply inv1_init. Qed.

(* the placement invariant of a reachable state read as "exactly one": occurrences over ALL vCPUs and queues *)
Lemma placement_exactly_one_proof : forall progs nv n flags t0 s, nv <= n -> reachable progs nv n flags t0 s ->
  forall t, live (s_th s t) = true ->
    let v := th_vcpu (s_th s t) in
    cnt t (v_runq (s_vc s v)) + cnt t (v_sleepq (s_vc s v)) +
      (if th_insleep (s_th s t) then 0 else cnt t (v_standby (s_vc s v))) = 1 /\
    (forall u, u <> v -> cnt t (v_runq (s_vc s u)) = 0 /\ cnt t (v_sleepq (s_vc s u)) = 0 /\ cnt t (v_standby (s_vc s u)) = 0).
Proof.
  intros progs nv n flags t0 s Hn R t L v.
  pose proof (reachable_inv1 _ _ _ _ _ _ Hn R) as I. split.
  - generalize (i_placed _ I t v). unfold placed. rewrite L. fold v. rewrite Nat.eqb_refl. cbn.
    unfold place_ok. destruct (th_state (s_th s t)), (th_insleep (s_th s t)); try tauto; lia.
  - intros u Nu. generalize (i_placed _ I t u). unfold placed. rewrite L. fold v.
    assert (Nat.eqb v u = false) as -> by (apply Nat.eqb_neq; congruence). auto.
Qed.

(* not lost / not resurrected: a thread is in some queue iff it exists and is not DONE *)
Lemma placed_iff_live_proof : forall progs nv n flags t0 s, nv <= n -> reachable progs nv n flags t0 s ->
  forall t, (exists v, cnt t (v_runq (s_vc s v)) + cnt t (v_sleepq (s_vc s v)) + cnt t (v_standby (s_vc s v)) >= 1)
            <-> live (s_th s t) = true.
Proof.
  intros progs nv n flags t0 s Hn R t.
  pose proof (reachable_inv1 _ _ _ _ _ _ Hn R) as I. split.
  - intros [v H]. generalize (i_placed _ I t v). unfold placed.
    destruct (live (s_th s t)); auto. cbn. lia.
  - intro L. exists (th_vcpu (s_th s t)).
    destruct (placement_exactly_one_proof _ _ _ _ _ _ Hn R t L) as [H _]. cbn in H.
    destruct (th_insleep (s_th s t)); lia.
Qed.

(* Stack level: refuted (finding F23; stack_exclusive_refuted in C05_Properties.v).
   `phys s v` is the thread whose stack vCPU v is physically executing on: after the queue block of
   a context switch and until its pending part (context save) has run, that is still the OLD
   thread, which is already READY in the run queue.  A thief may take it in that window and switch
   to it: two vCPUs are then on the same stack.  Witness: vCPU 0 (passive) runs thread 2
   (stealable) which yields; before vCPU 0 saves the context, vCPU 1 (active, idle) steals thread 2
   and switches to it. *)
Definition f20_progs : tid -> list op :=
  fun t => match t with
           | 0 => [OCreate 2 true true; OYield]
           | 1 => [OUsleep 1000]
           | 2 => [OYield; ONop]
           | _ => []
           end.
Definition f20_flags : nat -> bool * bool := fun v => match v with 0 => (false, true) | _ => (true, false) end.
Definition f20_schedule : list label :=
  [ LStep 0;            (* main of vCPU 0: create 2 *)
    LStep 0;            (* main of vCPU 0: yield -> queue block, CURRENT := idler ... *)
    LStep 0;            (*   pending part: context of main saved *)
    LStep 0;            (* idler of vCPU 0 yields: CURRENT := thread 2 *)
    LStep 0;            (*   pending part *)
    LStep 1; LStep 1;   (* main of vCPU 1 goes to sleep (queue block + pending part): its idler runs *)
    LStep 0;            (* thread 2: thread_yield(): queue block done (READY, run-queue lock released) ... *)
    LSteal 1 0 2;       (* ... vCPU 1 steals thread 2 BEFORE vCPU 0 has saved its context *)
    LStep 1;            (* idler of vCPU 1 yields: CURRENT := thread 2 *)
    LStep 1 ].          (*   pending part: vCPU 1 now executes on the stack of thread 2 *)
