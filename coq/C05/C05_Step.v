(* C05_Step.v — what one transition of the life-cycle model (C05_Model.v) is made of.

   `step` is a deep case analysis, but every branch is a short sequence of calls of the model's own block functions
   (do_yield, do_sleep, wake, do_create, do_die, do_migrate, exec_pend, drain_one, do_resume, do_steal, and a few
   one-field updates), each behind tests that the model itself makes, optionally followed by the `ret` of the op that
   the CURRENT thread is executing.  That is said once here (`move`, `blk`, `step_blk`); a predicate on states that
   is kept by every move and by `ret` is kept by `step` (`step_pres`).  The invariant proofs of the other files are
   case analyses over `move`. *)
From Coq Require Import ZArith List Bool Arith.
From PV Require Import Base.U64 C05.C05_Model.
Import ListNotations.
Local Open Scope nat_scope.

Lemma updp_eq : forall A (f : nat -> A) k v, updp f k v k = v.
Proof. intros. unfold updp. now rewrite Nat.eqb_refl. Qed.
Lemma updp_neq : forall A (f : nat -> A) k v x, x <> k -> updp f k v x = f x.
Proof. intros. unfold updp. destruct (Nat.eqb x k) eqn:E; auto. apply Nat.eqb_eq in E. congruence. Qed.

Lemma th_modth : forall s t f x, s_th (modth s t f) x = if Nat.eqb x t then f (s_th s t) else s_th s x.
Proof. reflexivity. Qed.
Lemma vc_modth : forall s t f, s_vc (modth s t f) = s_vc s. Proof. reflexivity. Qed.
Lemma th_modvc : forall s v g, s_th (modvc s v g) = s_th s. Proof. reflexivity. Qed.
Lemma vc_modvc : forall s v g y, s_vc (modvc s v g) y = if Nat.eqb y v then g (s_vc s v) else s_vc s y.
Proof. reflexivity. Qed.

Lemma tstate_eqb_true : forall a b, tstate_eqb a b = true -> a = b.
Proof. destruct a, b; cbn; congruence. Qed.
Lemma tstate_eqb_false : forall a b, tstate_eqb a b = false -> a <> b.
Proof. intros a b H E. subst. destruct b; discriminate. Qed.
Lemma lock_free_true : forall l, lock_free l = true -> l = LFree.
Proof. destruct l; cbn; congruence. Qed.

(* do_thread_migrate either refuses and changes nothing, or moves a READY thread of v's ring to u's standby queue *)
Definition migrated (s : state) (v : nat) (t : tid) (u : nat) : state :=
  modvc (modvc (modth s t (fun x => set_th_vcpu (set_th_state x STANDBY) u)) v
               (fun x => set_v_nthreads (set_v_runq x (remove_tid t (v_runq x))) (v_nthreads x - 1))) u
        (fun x => set_v_nthreads (set_v_standby x (v_standby x ++ [t])) (v_nthreads x + 1)).
Lemma do_migrate_inv : forall s v t u s' b, do_migrate s v t u = Some (s', b) ->
  s' = s \/
  (th_state (s_th s t) = READY /\ th_vcpu (s_th s t) = v /\ u <> v /\ mem_tid t (v_runq (s_vc s v)) = true /\
   s' = migrated s v t u).
Proof.
  intros s v t u s' b. unfold do_migrate, getth, getvc. destruct (negb _); [discriminate|].
  match goal with |- (if ?c then _ else _) = _ -> _ => destruct c eqn:C end; intro H; inversion H; subst; auto.
  apply andb_true_iff in C. destruct C as [C _]. apply andb_true_iff in C. destruct C as [C C4].
  apply andb_true_iff in C. destruct C as [C C3]. apply andb_true_iff in C. destruct C as [C1 C2].
  apply tstate_eqb_true in C1. apply Nat.eqb_eq in C2. apply negb_true_iff, Nat.eqb_neq in C3. right. auto.
Qed.

(* thread c is executing on vCPU w: it heads the ring, is RUNNING, and no switch of w is still pending *)
Definition running (s : state) (w : nat) (c : tid) : Prop :=
  hd_error (v_runq (s_vc s w)) = Some c /\ th_state (s_th s c) = RUNNING /\ v_pend (s_vc s w) = PNone.

Lemma running_modth : forall s w c t f, (forall th, th_state (f th) = th_state th) ->
  running s w c -> running (modth s t f) w c.
Proof.
  intros s w c t f Hf (a & b & d). split; [exact a|split; [|exact d]].
  rewrite th_modth. destruct (Nat.eqb c t) eqn:E; auto. apply Nat.eqb_eq in E. subst. now rewrite Hf.
Qed.
Lemma running_setk : forall s w c c' k, running s w c -> running (setk s c' k) w c.
Proof. intros. apply running_modth; auto. Qed.

(* the deferred part that a yield may carry: nothing, or the self-migration of a program thread *)
Definition mig_ok (s : state) (d : deferred) : Prop :=
  match d with DNone => True | DUnlock _ => False | DMigrate t _ => is_user (th_kind (s_th s t)) = true end.
Lemma mig_ok_setk : forall s c k d, mig_ok s d -> mig_ok (setk s c k) d.
Proof.
  intros s c k d. destruct d as [|t|t u]; auto. unfold mig_ok, setk. rewrite th_modth.
  destruct (Nat.eqb t c) eqn:E; auto. apply Nat.eqb_eq in E. subst. auto.
Qed.

Definition actor (l : label) : nat :=
  match l with LStep v | LDrain v | LResume v | LSteal v _ _ => v | LTick _ => 0 end.

Section STEP.
  Variable progs : tid -> list op.
  (* which labels may be taken: everything for `step`; C05_Proofs5.v restricts the steals *)
  Variable guard : state -> label -> bool.

  (* one block executed by vCPU w; the hypotheses are what the model has tested when it gets there *)
  Inductive move (w : nat) (s : state) : state -> Prop :=
  | m_aux : forall s', s_th s' = s_th s -> s_vc s' = s_vc s -> s_n s' = s_n s -> s_nv s' = s_nv s -> move w s s'
  | m_setk : forall c k, move w s (setk s c k)
  | m_err : forall t e, move w s (modth s t (fun x => set_th_err x e))
  | m_claim : forall j, move w s (modth s j (fun x => set_th_claimed x true))
  | m_yield : forall c ce d, running s w c -> mig_ok s d -> move w s (do_yield s w ce d)
  | m_sleep : forall c exp, running s w c -> move w s (do_sleep s w exp None DNone)
  (* thread_join on a thread that has not finished: cond.wait(lock) — take j's lock, sleep in its queue, unlock on
     the next stack *)
  | m_join_wait : forall c j, running s w c ->
      th_joinable (s_th s j) = true -> th_lock (s_th s j) = LFree -> th_state (s_th s j) <> NOTCREATED ->
      move w s (do_sleep (setk (modth s j (fun x => set_th_lock x LJoin)) c 2) w MAX64 (Some j) (DUnlock j))
  | m_join_done : forall j,
      th_joinable (s_th s j) = true -> th_lock (s_th s j) = LFree -> th_state (s_th s j) = DONE ->
      move w s (modth s j (fun x => set_g_joinval (set_g_joinret (set_g_disposed (set_th_lock x LJoin) (S (g_disposed x)))
                                                   (S (g_joinret x))) (th_retval x)))
  | m_wake : forall t e, th_state (s_th s t) = SLEEPING -> move w s (wake s w t e)
  | m_create : forall k jn ws, th_state (s_th s k) = NOTCREATED -> s_nv s <= k < s_n s -> move w s (do_create s w k jn ws)
  | m_die : forall c rv s', running s w c -> th_kind (s_th s c) = KUser -> do_die s w rv = Some s' -> move w s s'
  | m_migrate : forall t u s' b, v_pend (s_vc s w) = PNone -> is_user (th_kind (s_th s t)) = true ->
      offline progs s u = false -> do_migrate s w t u = Some (s', b) -> move w s s'
  | m_pend : pend_to_offline progs s w = false -> move w s (exec_pend s w)
  | m_drain : forall t, move w s (drain_one s w t)
  | m_resume : move w s (do_resume s w)
  | m_steal : forall u t, guard s (LSteal w u t) = true -> offline progs s u = false -> move w s (do_steal s w u t).

  Inductive moves (w : nat) (s : state) : state -> Prop :=
  | ms_nil : moves w s s
  | ms_snoc : forall s1 s2, moves w s s1 -> move w s1 s2 -> moves w s s2.

  (* when the op of thread c returns this is the last thing that happens in the step.  The return from `fini`
     (vCPU w goes offline) happens straight from s, by w's main thread, with the loop test of wait_all false *)
  Definition fini_gate (s : state) (w : nat) (c : tid) (X : state) : Prop :=
    nth_error (progs c) (th_pc (s_th s c)) = Some OFini -> X = s /\ c = w /\ wait_cond s w = false.
  Inductive blk (w : nat) (s : state) : state -> Prop :=
  | b_moves : forall X, moves w s X -> blk w s X
  | b_ret : forall X c r e, moves w s X -> running s w c -> fini_gate s w c X -> blk w s (ret X c r e).

  Lemma ms_one : forall w s s', move w s s' -> moves w s s'.
  Proof. intros. eapply ms_snoc; [apply ms_nil|assumption]. Qed.
  Lemma blk_one : forall w s s', move w s s' -> blk w s s'.
  Proof. intros. now apply b_moves, ms_one. Qed.
  (* a thread spinning on a held lock, a label that is refused: the state is returned unchanged *)
  Lemma blk_stutter : forall w s, blk w s s.
  Proof. intros. apply b_moves, ms_nil. Qed.
  Lemma blk_stuck : forall w s, blk w s (stuck s).
  Proof. intros. apply blk_one, m_aux; reflexivity. Qed.
  Lemma blk_ret : forall w s c r e, running s w c -> fini_gate s w c s -> blk w s (ret s c r e).
  Proof. intros. apply b_ret; auto. apply ms_nil. Qed.

  Lemma blk_setk_yield : forall w s c k ce d, running s w c -> mig_ok s d -> blk w s (do_yield (setk s c k) w ce d).
  Proof.
    intros. apply b_moves. eapply ms_snoc; [apply ms_one, m_setk|].
    apply (m_yield _ _ c); [now apply running_setk|now apply mig_ok_setk].
  Qed.
  Lemma blk_setk_sleep : forall w s c k exp, running s w c -> blk w s (do_sleep (setk s c k) w exp None DNone).
  Proof.
    intros. apply b_moves. eapply ms_snoc; [apply ms_one, m_setk|]. apply (m_sleep _ _ c). now apply running_setk.
  Qed.
  Lemma sen_moves : forall w s c, moves w s (fst (fst (set_error_number s c))).
  Proof. intros. unfold set_error_number. destruct (Z.eqb _ 0); cbn; [apply ms_nil|apply ms_one, m_err]. Qed.
  Lemma blk_sen_setk : forall w s c k, blk w s (let '(s1, _, _) := set_error_number s c in setk s1 c k).
  Proof.
    intros. pose proof (sen_moves w s c) as M. destruct (set_error_number s c) as [[s1 r] e]. cbn in M.
    apply b_moves. eapply ms_snoc; [exact M|apply m_setk].
  Qed.

  Lemma interrupt_moves : forall w s t e s', do_interrupt s w t e = Some s' -> moves w s s'.
  Proof.
    intros w s t e s'. unfold do_interrupt, getth. destruct (th_state (s_th s t)) eqn:Es; intro H;
      try (inversion H; subst; apply ms_nil).
    - destruct (Z.eqb _ 0); inversion H; subst; [apply ms_one, m_err|apply ms_nil].
    - destruct (lock_free _); inversion H; subst. now apply ms_one, m_wake.
  Qed.

  Lemma join_check_blk : forall w s c j, running s w c -> (forall X, fini_gate s w c X) ->
    blk w s (join_check s w c j).
  Proof.
    intros w s c j R NF. unfold join_check, getth.
    destruct (tstate_eqb (th_state (s_th s j)) NOTCREATED) eqn:En. { apply blk_stuck. }
    apply tstate_eqb_false in En.
    destruct (th_joinable (s_th s j)) eqn:Ej; cbn [negb]; [|now apply blk_ret].
    destruct (lock_free (th_lock (s_th s j))) eqn:Lj; cbn [negb]; [|apply blk_stutter].
    apply lock_free_true in Lj.
    destruct (tstate_eqb (th_state (s_th s j)) DONE) eqn:Ed.
    - apply tstate_eqb_true in Ed. apply b_ret; auto. now apply ms_one, m_join_done.
    - destruct (negb _); [apply blk_stutter|]. now apply blk_one, (m_join_wait _ _ c).
  Qed.

  Lemma wait_all_op_blk : forall w s c f, running s w c -> (f = false -> fini_gate s w c s) ->
    blk w s (wait_all_op progs s w c f).
  Proof.
    intros w s c f R NF. unfold wait_all_op, getth.
    destruct (Nat.eqb c w) eqn:Ecw.
    2:{ destruct f; [apply blk_stuck|apply blk_ret; auto]. }
    apply Nat.eqb_eq in Ecw.
    assert (W : blk w s (wait_check progs s w c f)).
    { unfold wait_check, getth, getvc. destruct (wait_cond s w) eqn:Wc.
      - destruct (v_sleepq (s_vc s w)); [now apply blk_setk_yield|].
        destruct (expired _ _); [now apply blk_setk_yield|].
        destruct (lock_free _); [now apply blk_setk_sleep|apply blk_stutter].
      - apply blk_ret; auto. intros _. auto. }
    destruct (th_k (s_th s c)) as [|[|[|k]]]; auto.
    - apply blk_sen_setk.
    - apply blk_one, m_setk.
  Qed.

  Lemma exec_op_blk : forall w s c o, running s w c -> nth_error (progs c) (th_pc (s_th s c)) = Some o ->
    blk w s (exec_op progs s w c o).
  Proof.
    intros w s c o R No.
    assert (NF : o <> OFini -> forall X, fini_gate s w c X). { intros N X H. rewrite H in No. congruence. }
    unfold exec_op, getth, getvc.
    destruct o as [d| |j e|j jn ws|j| | |j|j u| |]; try specialize (NF ltac:(discriminate)).
    - destruct (th_k (s_th s c)) as [|[|k]].
      + destruct (expired _ _); [now apply blk_setk_yield|].
        destruct (lock_free _); [now apply blk_setk_sleep|apply blk_stutter].
      + pose proof (sen_moves w s c) as M. destruct (set_error_number s c) as [[s1 r] e]. now apply b_ret.
      + destruct (Z.eqb _ 0); now apply blk_ret.
    - destruct (th_k (s_th s c)); [now apply blk_setk_yield|now apply blk_ret].
    - destruct (alive progs s j); [|now apply blk_ret].
      destruct (do_interrupt s w j e) as [s1|] eqn:D; [|apply blk_stutter].
      apply b_ret; auto. eapply interrupt_moves; eauto.
    - destruct (Nat.leb (s_nv s) j && Nat.ltb j (s_n s) && tstate_eqb (th_state (s_th s j)) NOTCREATED) eqn:C;
        [|now apply blk_ret].
      apply andb_true_iff in C. destruct C as [C C3]. apply andb_true_iff in C. destruct C as [C1 C2].
      apply Nat.leb_le in C1. apply Nat.ltb_lt in C2. apply tstate_eqb_true in C3.
      apply b_ret; auto. apply ms_one, m_create; auto.
    - destruct (th_k (s_th s c)) as [|[|k]].
      + destruct (_ && _); [|now apply blk_ret].
        apply b_moves. eapply ms_snoc; [apply ms_one, m_claim|apply m_setk].
      + now apply join_check_blk.
      + apply blk_sen_setk.
    - now apply blk_ret.
    - now apply blk_ret.
    - destruct (_ && _); now apply blk_ret.
    - destruct (th_k (s_th s c)); [|now apply blk_ret].
      destruct (alive progs s j && Nat.ltb u (s_nv s) && is_user (th_kind (s_th s j)) && negb (offline progs s u)) eqn:G;
        cbn [negb]; [|now apply blk_ret].
      apply andb_true_iff in G. destruct G as [G G4]. apply andb_true_iff in G. destruct G as [_ G3].
      apply negb_true_iff in G4.
      destruct (Nat.eqb u w); [now apply blk_ret|].
      destruct (Nat.eqb j c) eqn:Ejc. { apply Nat.eqb_eq in Ejc. subst j. now apply blk_setk_yield. }
      destruct (negb _); [now apply blk_ret|].
      destruct (negb _); [now apply blk_ret|].
      destruct R as (R1 & R2 & R3).
      destruct (do_migrate s w j u) as [[s1 [|]]|] eqn:M; [| |apply blk_stutter];
        (apply b_ret; [eapply ms_one, m_migrate; eauto|repeat split; auto|auto]).
    - apply wait_all_op_blk; auto.
    - apply wait_all_op_blk; auto. discriminate.
  Qed.

  Lemma step_vcpu_blk : forall s w, pend_to_offline progs s w = false -> blk w s (step_vcpu progs s w).
  Proof.
    intros s w Po. unfold step_vcpu, getvc, getth.
    destruct (no_pending (v_pend (s_vc s w))) eqn:Np; cbn [negb]; [|now apply blk_one, m_pend].
    assert (Pn : v_pend (s_vc s w) = PNone) by (destruct (v_pend (s_vc s w)); try discriminate; reflexivity).
    destruct (v_runq (s_vc s w)) as [|c rest] eqn:Hq. { apply blk_stuck. }
    destruct (th_state (s_th s c)) eqn:Es; try apply blk_stuck.
    assert (R : running s w c). { unfold running. rewrite Hq. auto. }
    destruct (th_kind (s_th s c)) eqn:Ek.
    - destruct (nth_error _ _) eqn:No; [now apply exec_op_blk|].
      destruct (th_k (s_th s c)); [|apply blk_sen_setk].
      destruct (lock_free _); [now apply blk_setk_sleep|apply blk_stutter].
    - destruct rest; [apply blk_stutter|]. apply blk_one, (m_yield _ _ c); auto. exact Logic.I.
    - destruct (nth_error _ _) eqn:No; [now apply exec_op_blk|].
      destruct (do_die s w _) as [s1|] eqn:D; [|apply blk_stutter]. eapply blk_one, m_die; eauto.
  Qed.

  Lemma drain_moves : forall w l s0 s, moves w s0 s -> moves w s0 (drain_list s w l).
  Proof. induction l; cbn; intros; auto. apply IHl. eapply ms_snoc; eauto. apply m_drain. Qed.

  Theorem step_blk : forall s l, guard s l = true -> blk (actor l) s (step progs s l).
  Proof.
    intros s l G. unfold step. destruct (s_stuck s); [apply blk_stutter|].
    destruct (frozen progs s l) eqn:Fr; [apply blk_stutter|].
    destruct l as [v|v|v|v u t|d]; cbn [actor].
    - destruct (Nat.ltb _ _); [|apply blk_stutter].
      destruct (pend_to_offline progs s v) eqn:Po; [apply blk_stuck|now apply step_vcpu_blk].
    - destruct (_ && _); [|apply blk_stutter]. apply b_moves, drain_moves, ms_nil.
    - destruct (_ && _); [|apply blk_stutter]. apply blk_one, m_resume.
    - destruct (_ && _); [|apply blk_stutter]. cbn in Fr. apply orb_false_iff in Fr. now apply blk_one, m_steal.
    - destruct (Z.leb _ _); [|apply blk_stutter]. apply blk_one, m_aux; reflexivity.
  Qed.

  Section PRES.
    Variable P : state -> Prop.
    Hypothesis P_move : forall w s s', P s -> move w s s' -> P s'.
    Hypothesis P_ret : forall s c r e, P s -> P (ret s c r e).

    Lemma moves_pres : forall w s s', moves w s s' -> P s -> P s'.
    Proof. intros w s s' M I. induction M; eauto. Qed.
    Lemma blk_pres : forall w s s', blk w s s' -> P s -> P s'.
    Proof. intros w s s' [X M|X c r e M _ _] I; [|apply P_ret]; eapply moves_pres; eauto. Qed.
    Theorem step_pres : forall s l, guard s l = true -> P s -> P (step progs s l).
    Proof. intros s l G I. eapply blk_pres; [now apply step_blk|exact I]. Qed.
  End PRES.
End STEP.

Lemma run_pres : forall progs (P : state -> Prop),
  (forall w s s', P s -> move progs (fun _ _ => true) w s s' -> P s') ->
  (forall s c r e, P s -> P (ret s c r e)) ->
  forall ls s, P s -> P (run progs s ls).
Proof.
  intros progs P Hm Hr. induction ls as [|l ls IH]; cbn; intros s I; auto.
  apply IH. now apply (step_pres progs (fun _ _ => true) P Hm Hr).
Qed.
