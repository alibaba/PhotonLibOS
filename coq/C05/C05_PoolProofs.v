(* C05_PoolProofs.v — the ThreadPoolBase hand-shake: exactly-once / join-exact for the repaired code under
   every schedule INCLUDING interrupts of the waiting threads, the same for the code as it is when nobody
   interrupts a waiting thread (pool_exact_fixed, pool_exact_nointr in C05_Properties.v, from `prun_inv` and
   `pool_safe_of_inv` here); the refutation (F24) for the code as it is with an interrupt is pool_join_refuted there.

   The invariant `PInv` is the table of the stages that the round of the newest work item goes through (`round`),
   with every earlier round complete and every later one not begun (`others`).  A transition moves the newest round
   from one line of the table to another and changes the counters of that work item only. *)
From Coq Require Import List Bool Arith Lia.
From PV Require Import C05.C05_Pool.
Import ListNotations.

(* which labels are allowed: the repaired code tolerates everything; the code as it is, no interrupts *)
Definition allowed (fixed : bool) (l : plabel) : bool :=
  fixed || match l with PIntW | PIntJ => false | _ => true end.

#[local] Arguments upf : simpl never.
Lemma upf_eq : forall A (f : nat -> A) k v, upf f k v k = v.
Proof. intros. unfold upf. now rewrite Nat.eqb_refl. Qed.
Lemma upf_neq : forall A (f : nat -> A) k v x, x <> k -> upf f k v x = f x.
Proof. intros. unfold upf. now rewrite (proj2 (Nat.eqb_neq x k)). Qed.

(* join of work k: not called; or called and waiting for the pooled thread *)
Definition unjoined (s : pst) (k : nat) : Prop :=
  p_joinable s = p_jn s k /\ p_joined s k = 0 /\
  ((p_j s = JIdle /\ p_joining s = false /\ p_jcalled s k = false) \/
   (p_j s = JWait k /\ p_joining s = true /\ p_jnote s = false /\ p_jcalled s k = true /\ p_jn s k = true)).
Definition idle (s : pst) : Prop :=
  p_w s = WWait /\ p_start s = SNone /\ p_inpool s = true /\ p_joining s = false /\ p_j s = JIdle.

(* The round of the newest work item k, one line per stage: the work is in the block and the pooled thread has not
   reached after_work_done; the pooled thread waits for the joiner (before and after the join); the block is cleared
   (and back in the pool, or the joiner is about to return and put it back). *)
Definition round (fixed : bool) (s : pst) (k : nat) : Prop :=
  (p_start s = SWork k /\ p_inpool s = false /\ unjoined s k /\
   match p_w s with
   | WWait => p_runs s k = 0 /\ p_done s k = false
   | WRun k' => k' = k /\ p_runs s k = 1 /\ p_done s k = false
   | WDone k' => k' = k /\ p_runs s k = 1 /\ p_done s k = true
   | WJoinWait _ => False
   end) \/
  (p_w s = WJoinWait k /\ p_start s = SWork k /\ p_inpool s = false /\ p_runs s k = 1 /\ p_done s k = true /\
   p_joinable s = true /\ p_jn s k = true /\ p_j s = JIdle /\
   ((p_jcalled s k = false /\ p_wnote s = false /\ p_joining s = true /\ p_joined s k = 0) \/
    (p_jcalled s k = true /\ p_wnote s = true /\ p_joining s = negb fixed /\ p_joined s k = 1))) \/
  (p_w s = WWait /\ p_start s = SNone /\ p_joining s = false /\ p_runs s k = 1 /\ p_done s k = true /\
   ((p_inpool s = true /\ p_j s = JIdle /\ p_joined s k <= 1 /\ (p_jn s k = true -> p_jcalled s k = true)) \/
    (p_inpool s = false /\ p_j s = JWait k /\ p_jnote s = true /\ p_joined s k = 0 /\ p_jcalled s k = true))).

(* earlier rounds are complete and later ones have not begun; neither changes during round k *)
Definition others (s : pst) : Prop :=
  (forall k, S k < p_next s -> p_runs s k = 1 /\ p_done s k = true /\ p_joined s k <= 1 /\ (p_jn s k = true -> p_jcalled s k = true)) /\
  (forall k, p_next s <= k -> p_runs s k = 0 /\ p_done s k = false /\ p_jcalled s k = false /\ p_joined s k = 0).

Record PInv (fixed : bool) (s : pst) : Prop := mkPInv {
  pi_flags : p_early s = false /\ p_dput s = false /\ p_reuse s = false;
  pi_round : match p_next s with 0 => idle s | S k => round fixed s k end;
  pi_others : others s
}.

Lemma pinv_init : forall fixed, PInv fixed pinit.
Proof.
  intro. constructor; cbn; auto.
  - repeat split.
  - split; cbn; intros k H; [lia|auto].
Qed.

Lemma others_upd : forall s s' k, others s -> p_next s = S k -> p_next s' = S k -> p_jn s' = p_jn s ->
  (forall k', k' <> k -> p_runs s' k' = p_runs s k' /\ p_done s' k' = p_done s k' /\
                         p_joined s' k' = p_joined s k' /\ p_jcalled s' k' = p_jcalled s k') ->
  others s'.
Proof.
  intros s s' k [Past Fut] En En' Ejn A. unfold others. rewrite En', Ejn. rewrite En in Past, Fut.
  split; intros k' H; destruct (A k') as (-> & -> & -> & ->); auto; lia.
Qed.

Lemma pinv_take : forall fixed s, PInv fixed s -> PInv fixed (pstep fixed s PTake).
Proof.
  intros fixed s I. cbn [pstep]. destruct (p_w s) eqn:Ew; try exact I.
  destruct (p_start s) as [|k] eqn:Es; [exact I|]. destruct I as [Fl R O].
  destruct (p_next s) as [|k0] eqn:En; [destruct R as (_ & X & _); congruence|].
  destruct R as [(St & Ip & U & M)|[(X & _)|(_ & X & _)]]; try congruence.
  rewrite Ew in M. destruct M as (Ru & Dn). assert (k0 = k) by congruence. subst k0.
  constructor; cbn.
  - exact Fl.
  - left. unfold unjoined in *. cbn. rewrite upf_eq, Ru. auto 8.
  - apply (others_upd s _ k O En); cbn; auto using upf_neq.
Qed.

Lemma pinv_finish : forall fixed s, PInv fixed s -> PInv fixed (pstep fixed s PFinish).
Proof.
  intros fixed s I. cbn [pstep]. destruct (p_w s) as [|k| |] eqn:Ew; try exact I. destruct I as [Fl R O].
  destruct (p_next s) as [|k0] eqn:En; [destruct R as (X & _); congruence|].
  destruct R as [(St & Ip & U & M)|[(X & _)|(X & _)]]; try congruence.
  rewrite Ew in M. destruct M as (-> & Ru & Dn).
  constructor; cbn.
  - exact Fl.
  - left. unfold unjoined in *. cbn. rewrite upf_eq. auto 8.
  - apply (others_upd s _ k0 O En); cbn; auto using upf_neq.
Qed.

Lemma pinv_after : forall fixed s, PInv fixed s -> PInv fixed (pstep fixed s PAfter).
Proof.
  intros fixed s I. cbn [pstep]. destruct (p_w s) as [| |k|] eqn:Ew; try exact I. destruct I as [Fl R O].
  destruct (p_next s) as [|k0] eqn:En; [destruct R as (X & _); congruence|].
  destruct R as [(St & Ip & (Jb & Jd & U) & M)|[(X & _)|(X & _)]]; try congruence.
  rewrite Ew in M. destruct M as (-> & Ru & Dn).
  destruct (p_joining s) eqn:Eg; [|destruct (p_joinable s) eqn:Eb].
  - (* a joiner is waiting: wake it; it will put the block *)
    destruct U as [(_ & X & _)|(Jw & _ & Jnn & Jc & Jnk)]; [discriminate|].
    constructor; cbn; rewrite ?En; [exact Fl| |apply (others_upd s _ k0 O En); auto].
    right. right. cbn. rewrite Ip. repeat split; auto. right. repeat split; auto.
  - (* joinable: wait for the joiner *)
    destruct U as [(Ji & _ & Jc)|(_ & X & _)]; [|discriminate].
    constructor; cbn; [exact Fl| |apply (others_upd s _ k0 O En); auto].
    right. left. cbn. repeat split; auto.
  - (* not joinable: recycle *)
    destruct U as [(Ji & _ & Jc)|(_ & X & _)]; [|discriminate].
    constructor; cbn; rewrite ?En; [| |apply (others_upd s _ k0 O En); auto].
    + rewrite Ip. destruct Fl as (a & -> & c). auto.
    + right. right. cbn. repeat split; auto. left. repeat split; auto; [lia|congruence].
Qed.

Lemma inpool_complete : forall fixed s, PInv fixed s -> p_inpool s = true ->
  idle s /\ forall k, k < p_next s ->
    p_runs s k = 1 /\ p_done s k = true /\ p_joined s k <= 1 /\ (p_jn s k = true -> p_jcalled s k = true).
Proof.
  intros fixed s [_ R [Past _]] Ip. destruct (p_next s) as [|k0]; [split; [exact R|intros k H; lia]|].
  destruct R as [(_ & X & _)|[(_ & _ & X & _)|(Ew & Es & Eg & Ru & Dn & [(_ & Ej & J)|(X & _)])]]; try congruence.
  split; [repeat split; auto|]. intros k H. destruct (Nat.eq_dec k k0) as [->|N]; [auto|apply Past; lia].
Qed.

Lemma pinv_create : forall fixed s jn0, PInv fixed s -> PInv fixed (pstep fixed s (PCreate jn0)).
Proof.
  intros fixed s jn0 I. cbn [pstep]. destruct (p_inpool s) eqn:Ip; [|exact I].
  destruct (inpool_complete _ _ I Ip) as ((Ew & Es & _ & Eg & Ej) & C). destruct I as [Fl _ [_ Fut]].
  destruct (Fut _ (le_n _)) as (r1 & r2 & r3 & r4).
  constructor; cbn.
  - rewrite Ew. destruct Fl as (a & b & ->). auto.
  - left. unfold unjoined. cbn. rewrite Ew, upf_eq. repeat split; auto.
  - split; cbn; intros k H.
    + rewrite upf_neq by lia. apply C. lia.
    + apply Fut. lia.
Qed.

(* the pooled thread's wait for its joiner ends only after the join was called, whether it re-tests `joining`
   (repaired) or was notified (as it is, no interrupt); it then clears the block and puts it back *)
Lemma pinv_wwake : forall fixed s l k, allowed fixed l = true -> PInv fixed s -> p_w s = WJoinWait k ->
  (if fixed then negb (p_joining s) else match l with PIntW => true | _ => p_wnote s end) = true ->
  PInv fixed (pput (pclear s)).
Proof.
  intros fixed s l k Al [Fl R O] Ew Go.
  destruct (p_next s) as [|k0] eqn:En; [destruct R as (X & _); congruence|].
  destruct R as [(_ & _ & _ & M)|[(Ew' & St & Ip & Ru & Dn & _ & Jnk & Ji & U)|(X & _)]]; try congruence.
  { rewrite Ew in M. destruct M. }
  destruct U as [(_ & a & b & _)|(Jc & _ & _ & Jd)]. { rewrite a, b in Go. destruct fixed, l; discriminate. }
  constructor; cbn; rewrite ?En; [| |apply (others_upd s _ k0 O En); auto].
  - rewrite Ip. destruct Fl as (a & -> & c). auto.
  - right. right. cbn. repeat split; auto. left. repeat split; auto. lia.
Qed.

(* the joiner's wait ends only after the pooled thread has finished and cleared the block; do_thread_join then
   returns and puts the block back *)
Lemma pinv_jwake : forall fixed s l k, allowed fixed l = true -> PInv fixed s -> p_j s = JWait k ->
  (if fixed then negb (p_joining s) else match l with PIntJ => true | _ => p_jnote s end) = true ->
  PInv fixed (pput (pjret s k)).
Proof.
  intros fixed s l k Al [Fl R O] Ej Go.
  destruct (p_next s) as [|k0] eqn:En; [destruct R as (_ & _ & _ & _ & X); congruence|].
  destruct R as [(_ & _ & (_ & _ & [(X & _)|(_ & a & b & _)]) & _)|[(_ & _ & _ & _ & _ & _ & _ & X & _)|
                 (Ew & St & Jg & Ru & Dn & [(_ & X & _)|(Ip & Jw & _ & Jd & Jc)])]]; try congruence.
  { rewrite a, b in Go. destruct fixed, l; discriminate. }
  assert (k0 = k) by congruence. subst k0.
  constructor; cbn; rewrite ?En.
  - rewrite Dn, Ip. destruct Fl as (-> & -> & c). auto.
  - right. right. cbn. rewrite upf_eq, Jd. repeat split; auto.
  - apply (others_upd s _ k O En); cbn; auto using upf_neq.
Qed.

(* ThreadPoolBase::join by the holder of the handle of work k0: k0 is the newest work item, since the earlier joinable
   ones have been joined *)
Lemma pinv_join : forall fixed s k0, PInv fixed s -> PInv fixed (pstep fixed s (PJoin k0)).
Proof.
  intros fixed s k0 I. cbn [pstep]. destruct (p_j s) eqn:Ej; [|exact I].
  destruct (Nat.ltb k0 (p_next s) && p_jn s k0 && negb (p_jcalled s k0)) eqn:G; [|exact I].
  apply andb_true_iff in G. destruct G as [G G3]. apply andb_true_iff in G. destruct G as [G1 G2].
  apply Nat.ltb_lt in G1. apply negb_true_iff in G3. destruct I as [Fl R O].
  destruct (p_next s) as [|k] eqn:En; [lia|].
  assert (k0 = k).
  { destruct O as [Past _]. rewrite En in Past. destruct (Nat.eq_dec k0 k) as [|N]; auto.
    destruct (Past k0) as (_ & _ & _ & X); [lia|]. rewrite (X G2) in G3. discriminate. }
  subst k0. cbn.
  destruct R as [(St & Ip & (Jb & Jd & [(_ & Jg & _)|(X & _)]) & M)|
                 [(Ew & St & Ip & Ru & Dn & Jb & _ & _ & [(_ & Wn & Jg & Jd)|(X & _)])|
                  (_ & _ & _ & _ & _ & [(_ & _ & _ & X)|(_ & X & _)])]]; try congruence.
  - (* wait for the pooled thread *)
    rewrite Jb, G2, St, Jg. cbn.
    constructor; cbn; [exact Fl| |].
    + left. unfold unjoined. cbn. rewrite upf_eq. repeat split; auto. right. repeat split; auto.
    + apply (others_upd s _ k O En); cbn; auto using upf_neq.
  - (* the pooled thread is waiting for us: wake it; it will put the block *)
    rewrite Jb, St, Jg. cbn.
    constructor; cbn.
    + rewrite Dn. destruct Fl as (-> & b & c). auto.
    + right. left. cbn. rewrite !upf_eq, Jd. repeat split; auto.
    + apply (others_upd s _ k O En); cbn; auto using upf_neq.
  - specialize (X G2). congruence.
Qed.

Lemma pstep_inv : forall fixed s l, allowed fixed l = true -> PInv fixed s -> PInv fixed (pstep fixed s l).
Proof.
  intros fixed s l Al I.
  destruct l; auto using pinv_create, pinv_take, pinv_finish, pinv_after, pinv_join; cbn [pstep].
  1,3: destruct (p_w s) as [| | |k] eqn:Ew; try exact I;
    destruct (if fixed then negb (p_joining s) else _) eqn:Go; try exact I; eapply pinv_wwake; eauto.
  all: destruct (p_j s) as [|k] eqn:Ej; try exact I;
    destruct (if fixed then negb (p_joining s) else _) eqn:Go; try exact I; eapply pinv_jwake; eauto.
Qed.

Lemma prun_inv : forall fixed ls s, forallb (allowed fixed) ls = true -> PInv fixed s -> PInv fixed (prun fixed s ls).
Proof.
  induction ls as [|l ls IH]; cbn; intros s A I; auto.
  apply andb_true_iff in A. destruct A as [A1 A2]. apply IH; auto. now apply pstep_inv.
Qed.

Definition pool_safe (s : pst) : Prop :=
  p_early s = false /\ p_dput s = false /\ p_reuse s = false /\
  (forall k, p_runs s k <= 1 /\ (p_done s k = true -> p_runs s k = 1) /\
             p_joined s k <= 1 /\ (p_joined s k = 1 -> p_done s k = true) /\
             (p_next s <= k -> p_runs s k = 0)) /\
  (* when the pooled thread is idle and the block is empty, every work item handed to the pool has run exactly once *)
  (p_w s = WWait -> p_start s = SNone -> forall k, k < p_next s -> p_runs s k = 1 /\ p_done s k = true).

Lemma pinv_counts : forall fixed s k, PInv fixed s -> k < p_next s ->
  p_joined s k <= 1 /\
  (p_runs s k = 1 /\ p_done s k = true \/
   p_runs s k <= 1 /\ p_done s k = false /\ p_joined s k = 0 /\ p_start s = SWork k).
Proof.
  intros fixed s k [_ R [Past _]] H. destruct (p_next s) as [|k0]; [lia|].
  destruct (Nat.eq_dec k k0) as [->|N]; [|destruct (Past k) as (-> & -> & J & _); [lia|auto]].
  destruct R as [(St & _ & (_ & -> & _) & M)|[(_ & _ & _ & -> & -> & _ & _ & _ & [(_ & _ & _ & ->)|(_ & _ & _ & ->)])|
                 (_ & _ & _ & -> & -> & [(_ & _ & J & _)|(_ & _ & _ & -> & _)])]]; auto.
  destruct (p_w s); [destruct M as (-> & ->)|destruct M as (_ & -> & ->)|destruct M as (_ & -> & ->)|destruct M]; auto 6.
Qed.

Lemma pool_safe_of_inv : forall fixed s, PInv fixed s -> pool_safe s.
Proof.
  intros fixed s I. pose proof (fun k => pinv_counts _ _ k I) as C. destruct I as [(a & b & c) _ [_ Fut]].
  split; [exact a|split; [exact b|split; [exact c|split]]].
  - intro k. destruct (le_lt_dec (p_next s) k) as [G|L].
    + destruct (Fut k G) as (-> & -> & _ & ->). repeat split; auto; discriminate.
    + destruct (C k L) as (J & [[-> ->]|(Ru & -> & -> & _)]); repeat split; auto; try discriminate; lia.
  - intros _ Hs k Hk. destruct (C k Hk) as (_ & [X|(_ & _ & _ & X)]); [exact X|congruence].
Qed.

(* the schedules of pool_exact_nointr: no thread is interrupted while it waits in the hand-shake *)
Definition no_interrupt (l : plabel) : bool := match l with PIntW | PIntJ => false | _ => true end.

(* the F24 schedules (C05_Pool.v) are harmless for the repaired code *)
Example f24_fixed : p_early (prun true pinit f24_witness) = false /\ p_joined (prun true pinit f24_witness) 0 = 0 /\
                    p_reuse (prun true pinit f24_witness2) = false.
Proof. vm_compute. auto. Qed.
(* non-vacuity: a complete joinable round and a complete non-joinable round *)
Example pool_round :
  let s := prun false pinit [PCreate true; PTake; PFinish; PAfter; PJoin 0; PWWake; PCreate false; PTake; PFinish; PAfter] in
  p_runs s 0 = 1 /\ p_joined s 0 = 1 /\ p_runs s 1 = 1 /\ p_inpool s = true /\ p_next s = 2.
Proof. vm_compute. auto. Qed.
