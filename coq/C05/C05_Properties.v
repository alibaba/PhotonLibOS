From Coq Require Import ZArith List Bool Arith Lia.
From PV Require Import C05.C05_Asym C05.C05_AsymProofs C05.C05_AsymTSO C05.C05_Model C05.C05_Proofs C05.C05_Proofs2 C05.C05_Proofs3 C05.C05_Proofs4 C05.C05_Proofs5 C05.C05_Pool C05.C05_PoolProofs C05.C05_E4 C05.C05_E4Proofs C05.C05_FiniProofs.
Import ListNotations.

(* ---- asymmetric_spinLock (the run-queue lock) ------------------------------------------------- *)
(* under sequential consistency: for every number of stealers, every script length and every
   schedule, at most one participant is inside *)
Theorem asym_mutex_SC : forall rf rb sched p q,
  let s := sc_run (sc_init rf rb) sched in
  in_cs (pcs s p) = true -> in_cs (pcs s q) = true -> p = q.
Proof. intros rf rb sched p q. apply linv_mutex with (1 := sc_run_inv sched _ (inv_init rf rb)). Qed.
Print Assumptions asym_mutex_SC.

(* under x86-TSO (the lock as written: release store then acquire load, no fence) owner and stealer
   are inside together after 5 steps: finding F5 *)
Theorem asym_mutex_TSO_refuted :
  exists ls s, tso_run false (tso_init 1 (fun _ => 1%nat)) ls = Some s /\
               in_cs (t_pcs s 0) = true /\ in_cs (t_pcs s 1) = true /\ (0 <> 1)%nat /\ length ls = 5%nat.
Proof. exists f5_witness. eexists. repeat split. discriminate. Qed.
Print Assumptions asym_mutex_TSO_refuted.

(* with the full fence of the proposed repair (store; fence; loads) the lock IS mutually exclusive under x86-TSO:
   every number of stealers, every script length, every schedule of instruction and store-buffer-flush steps *)
Theorem asym_mutex_TSO_fenced : forall rf rb ls s p q,
  tso_run true (tso_init rf rb) ls = Some s ->
  in_cs (t_pcs s p) = true -> in_cs (t_pcs s q) = true -> p = q.
Proof. intros rf rb ls s p q R. apply linv_mutex with (1 := tso_run_inv ls _ _ (tinv_init rf rb) R). Qed.
Print Assumptions asym_mutex_TSO_fenced.

(* ---- life-cycle / placement: every program, every number of vCPUs and threads, every schedule ---- *)
(* for every thread t and every vCPU v, the numbers of occurrences of t in v's run / sleep / standby queue are exactly
   those dictated by t's own state and vCPU: a live thread is in exactly one place of its own vCPU (plus the documented
   sleep-queue/standby-queue overlap), in no queue of any other vCPU, and a thread that does not exist (any more) is in
   no queue at all *)
Theorem placement_unique : forall progs nv n flags t0 s, (nv <= n)%nat -> reachable progs nv n flags t0 s ->
  forall t v, placed s t v.
Proof. intros. eapply i_placed, reachable_inv1; eauto. Qed.
Print Assumptions placement_unique.

(* the same, read as "exactly one": occurrences over ALL vCPUs and queues *)
Theorem placement_exactly_one : forall progs nv n flags t0 s, (nv <= n)%nat -> reachable progs nv n flags t0 s ->
  forall t, live (s_th s t) = true ->
    let v := th_vcpu (s_th s t) in
    (cnt t (v_runq (s_vc s v)) + cnt t (v_sleepq (s_vc s v)) +
      (if th_insleep (s_th s t) then 0 else cnt t (v_standby (s_vc s v))) = 1)%nat /\
    (forall u, u <> v -> cnt t (v_runq (s_vc s u)) = 0%nat /\ cnt t (v_sleepq (s_vc s u)) = 0%nat /\ cnt t (v_standby (s_vc s u)) = 0%nat).
Proof. exact placement_exactly_one_proof. Qed.
Print Assumptions placement_exactly_one.

(* not lost / not resurrected: a thread is in some queue iff it exists and is not DONE *)
Theorem placed_iff_live : forall progs nv n flags t0 s, (nv <= n)%nat -> reachable progs nv n flags t0 s ->
  forall t, (exists v, (cnt t (v_runq (s_vc s v)) + cnt t (v_sleepq (s_vc s v)) + cnt t (v_standby (s_vc s v)) >= 1)%nat)
            <-> live (s_th s t) = true.
Proof. exact placed_iff_live_proof. Qed.
Print Assumptions placed_iff_live.

(* queue level: a thread is never the CURRENT thread of two vCPUs, and the CURRENT thread of a vCPU always exists
   and is not DONE *)
Theorem one_vcpu_at_a_time : forall progs nv n flags t0 s, (nv <= n)%nat -> reachable progs nv n flags t0 s ->
  forall v v' t, cur s v = Some t -> cur s v' = Some t ->
    v = v' /\ live (s_th s t) = true /\ th_vcpu (s_th s t) = v.
Proof.
  intros progs nv n flags t0 s Hn R v v' t C1 C2. pose proof (reachable_inv1 _ _ _ _ _ _ Hn R) as I.
  destruct (cur_facts s v t I C1) as [L E1], (cur_facts s v' t I C2) as [_ E2]. repeat split; congruence.
Qed.
Print Assumptions one_vcpu_at_a_time.

(* a thread waiting in a join queue is SLEEPING (so it is in the sleep queue of its vCPU and will be found by
   thread::die's notify_one) and is in that one queue only *)
Theorem join_queue_sound : forall progs nv n flags t0 s, (nv <= n)%nat -> reachable progs nv n flags t0 s ->
  forall j x, (cnt j (th_joiners (s_th s x)) >= 1)%nat ->
    th_state (s_th s j) = SLEEPING /\ th_waitq (s_th s j) = Some x /\ cnt j (th_joiners (s_th s x)) = 1%nat.
Proof.
  intros progs nv n flags t0 s Hn R j x H.
  destruct (i_waits _ (reachable_inv1 _ _ _ _ _ _ Hn R) j x) as [A B].
  destruct (th_waitq (s_th s j)) as [w|] eqn:W; cbn [opt_eqb] in A; [|lia].
  destruct (Nat.eqb w x) eqn:E; [|lia]. apply Nat.eqb_eq in E. subst w. repeat split; auto. apply B. discriminate.
Qed.
Print Assumptions join_queue_sound.

(* below the queues — which stack a vCPU is physically executing on — exclusiveness FAILS: finding F23 *)
Theorem stack_exclusive_refuted :
  exists s, reachable f20_progs 2 3 f20_flags 1000 s /\
            phys s 0 = Some 2%nat /\ phys s 1 = Some 2%nat /\ s_stuck s = false.
Proof.
  exists (run f20_progs (init_state 2 3 f20_flags 1000) f20_schedule).
  split; [exists f20_schedule; reflexivity|]. vm_compute. auto.
Qed.
Print Assumptions stack_exclusive_refuted.

(* runs_once: the entry of a thread starts at most once, finishes at most once and only after it started,
   `finished = 1` exactly for DONE threads, and at quiescence (no program thread left in any queue) every
   created program thread has started once and finished once *)
Theorem runs_once : forall progs nv n flags t0 s, (nv <= n)%nat -> reachable progs nv n flags t0 s ->
  forall t,
    (g_started (s_th s t) <= 1)%nat /\ (g_finished (s_th s t) <= g_started (s_th s t))%nat /\
    (g_finished (s_th s t) = 1%nat <-> th_state (s_th s t) = DONE) /\
    (quiescent s -> is_user (th_kind (s_th s t)) = true -> th_state (s_th s t) <> NOTCREATED ->
       g_started (s_th s t) = 1%nat /\ g_finished (s_th s t) = 1%nat).
Proof. exact runs_once_proof. Qed.
Print Assumptions runs_once.

(* join_exact: thread_join returns at most once, only for a DONE thread, with its return value; the stack is
   handed back at most once, only after DONE and never while the dying thread's own context switch is still
   pending; for a joinable thread exactly together with the join, a non-joinable thread is never joined *)
Theorem join_exact : forall progs nv n flags t0 s, (nv <= n)%nat -> reachable progs nv n flags t0 s ->
  forall t,
    (g_joinret (s_th s t) <= 1)%nat /\
    (g_joinret (s_th s t) = 1%nat -> th_state (s_th s t) = DONE /\ g_joinval (s_th s t) = th_retval (s_th s t) /\ th_joinable (s_th s t) = true) /\
    (g_disposed (s_th s t) <= 1)%nat /\
    (g_disposed (s_th s t) = 1%nat -> th_state (s_th s t) = DONE /\ forall v, v_pend (s_vc s v) <> PDie t) /\
    (th_joinable (s_th s t) = true -> g_disposed (s_th s t) = g_joinret (s_th s t)) /\
    (th_joinable (s_th s t) = false -> g_joinret (s_th s t) = 0%nat).
Proof. exact join_exact_proof. Qed.
Print Assumptions join_exact.

(* nthreads_restored: vcpu.nthreads = main + idler + the program threads that exist, have not finished and belong
   to that vCPU (whatever migrated / was stolen in between); when all created program threads are DONE every
   vCPU's count is back to its initial value *)
Theorem nthreads_restored : forall progs nv n flags t0 s, (nv <= n)%nat -> reachable progs nv n flags t0 s ->
  s_n s = n /\ s_nv s = nv /\
  forall v,
    v_nthreads (s_vc s v) = ((if Nat.ltb v nv then 2 else 0) + Z.of_nat (users_on s v))%Z /\
    ((forall t, is_user (th_kind (s_th s t)) = true -> th_state (s_th s t) = NOTCREATED \/ th_state (s_th s t) = DONE) ->
       v_nthreads (s_vc s v) = v_nthreads (s_vc (init_state nv n flags t0) v)).
Proof. exact nthreads_proof. Qed.
Print Assumptions nthreads_restored.

(* the positive side of F23: if work stealing never takes a thread from a vCPU that still has the pending part of a
   context switch away from that thread (the class guard of the finding; `gstep` skips exactly those steals), no two
   vCPUs ever execute on the same stack — every program, every number of vCPUs, every schedule *)
Theorem stack_exclusive_guarded : forall progs nv n flags t0 ls, (nv <= n)%nat ->
  let s := grun progs (init_state nv n flags t0) ls in
  forall v v' t, phys s v = Some t -> phys s v' = Some t -> v = v'.
Proof. exact stack_exclusive_guarded_proof. Qed.
Print Assumptions stack_exclusive_guarded.

(* ---- ThreadPoolBase hand-shake (thread-pool.cpp 33-139), one control block, any number of rounds ---- *)
(* the repaired code (repo_patches/C05-fix-pool-join-interrupt.diff): for EVERY schedule, interrupts of the waiting threads
   included: no join returns before the pooled entry function returned, the block is never put twice nor re-used while
   work is running, every work item runs at most once, a join returns at most once and only after the work is done, and when
   the pooled thread is idle with an empty block every work item handed to the pool has run exactly once *)
Theorem pool_exact_fixed : forall ls, pool_safe (prun true pinit ls).
Proof.
  intro ls. apply pool_safe_of_inv with true, prun_inv; [|apply pinv_init]. induction ls; cbn; auto.
Qed.
Print Assumptions pool_exact_fixed.

(* the code as it is: the same, provided no thread is interrupted while it waits inside the hand-shake *)
Theorem pool_exact_nointr : forall ls, forallb no_interrupt ls = true -> pool_safe (prun false pinit ls).
Proof. intros ls H. apply pool_safe_of_inv with false, prun_inv; [exact H|apply pinv_init]. Qed.
Print Assumptions pool_exact_nointr.

(* the code as it is, with an interrupt of the joining thread: finding F24 *)
Theorem pool_join_refuted :
  p_early (prun false pinit f24_witness) = true /\ p_done (prun false pinit f24_witness) 0 = false /\
  p_joined (prun false pinit f24_witness) 0 = 1%nat /\ p_reuse (prun false pinit f24_witness2) = true.
Proof. vm_compute. auto. Qed.
Print Assumptions pool_join_refuted.

(* ---- engine E4: every state visited by a controlled multi-vCPU replay (the states whose placement dumps are compared
   with the real scheduler after every command) is a reachable state of the proved transition system ---- *)
Theorem e4_reachable : forall progs nv n flags t0 cs,
  reachable progs nv n flags t0 (e4_run progs (init_state nv n flags t0) cs).
Proof. exact e4_reachable_proof. Qed.
Print Assumptions e4_reachable.

(* ---- vCPU wind-down: wait_all / vcpu_fini (thread.cpp 2200-2217, 2334-2350) ---------------------------------------------
   `offline progs s v` = the main thread of vCPU v has returned from vcpu_fini.  In every reachable state (any programs, any
   number of vCPUs, any schedule — including migrations into v, cross-vCPU wake-ups and steals while v's main thread is inside
   wait_all) a finalised vCPU has an empty sleep queue, an empty standby queue, no pending switch and at most two ring members
   headed by its main thread; every live thread that belongs to it is one of those two (the main thread and the idler that
   vcpu_fini joins and destroys): wait_all returned only when run queue (minus main / idler), sleep queue AND standby queue
   were empty, and nothing entered afterwards.  No thread is lost by finalising a vCPU. *)
Theorem fini_loses_nothing : forall progs nv n flags t0 s v, (nv <= n)%nat -> reachable progs nv n flags t0 s ->
  offline progs s v = true ->
  clean s v /\
  (forall t, live (s_th s t) = true -> th_vcpu (s_th s t) = v -> In t (v_runq (s_vc s v))) /\
  (forall t, th_vcpu (s_th s t) = v -> th_state (s_th s t) <> SLEEPING /\ th_state (s_th s t) <> STANDBY \/ In t (v_runq (s_vc s v))).
Proof. exact fini_loses_nothing_proof. Qed.
Print Assumptions fini_loses_nothing.

(* the same system with wait_all's loop test WITHOUT `!standbyq.empty()` (seeded change C05_2): a thread migrated into the
   standby queue of a vCPU whose main thread then calls vcpu_fini is lost — it is live, never ran, belongs to the finalised
   vCPU and sits in its standby queue for ever *)
Theorem fini_without_standby_test_refuted :
  exists ls t, let s := run_ns c052_progs (init_state 2 3 c052_flags 1000) ls in
    s_stuck s = false /\ offline c052_progs s 0%nat = true /\
    live (s_th s t) = true /\ th_vcpu (s_th s t) = 0%nat /\ g_started (s_th s t) = 0%nat /\ v_standby (s_vc s 0%nat) = [t].
Proof. exists (c052_pre ++ [LStep 0]), 2%nat. vm_compute. repeat split; reflexivity. Qed.
Print Assumptions fini_without_standby_test_refuted.
