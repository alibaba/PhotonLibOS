(* C05_Proofs2.v — second invariant layer of the life-cycle model: the ghost counters `started` / `finished`
   (runs_once).  Rests on the placement invariant Inv1 of C05_Proofs.v. *)
From Coq Require Import ZArith List Bool Arith Lia.
From PV Require Import C05.C05_Model C05.C05_Step C05.C05_Proofs.
Import ListNotations.
Local Open Scope nat_scope.

Definition g_ok (th : thread) : Prop :=
  g_finished th = (if tstate_eqb (th_state th) DONE then 1 else 0) /\
  g_started th = (if th_fresh th then 0 else 1) /\
  (th_state th = RUNNING \/ th_state th = DONE -> th_fresh th = false).

Definition Inv2 (s : state) : Prop := forall t, g_ok (s_th s t).

Lemma run_fin0 : forall s c, Inv2 s -> th_state (s_th s c) = RUNNING -> g_finished (s_th s c) = 0.
Proof. intros s c I2 E. destruct (I2 c) as (a & _). rewrite a, E. reflexivity. Qed.

Lemma inv2_modth : forall s t f, Inv2 s -> g_ok (f (s_th s t)) -> Inv2 (modth s t f).
Proof.
  intros s t f I H x. rewrite th_modth. destruct (Nat.eqb x t) eqn:E; auto.
Qed.
Lemma inv2_same : forall s s', s_th s' = s_th s -> Inv2 s -> Inv2 s'.
Proof. intros s s' E I x. rewrite E. apply I. Qed.
Lemma inv2_modvc : forall s v g, Inv2 s -> Inv2 (modvc s v g).
Proof. intros. apply (inv2_same s); auto. Qed.

Definition same_ghost (a b : thread) : Prop :=
  th_state a = th_state b /\ th_fresh a = th_fresh b /\ g_started a = g_started b /\ g_finished a = g_finished b.
Lemma g_ok_same : forall a b, same_ghost a b -> g_ok b -> g_ok a.
Proof. unfold same_ghost, g_ok. intros a b (h1 & h2 & h3 & h4). rewrite h1, h2, h3, h4. auto. Qed.
Lemma inv2_neutral : forall s t f, (forall th, same_ghost (f th) th) -> Inv2 s -> Inv2 (modth s t f).
Proof. intros s t f Hf I. apply inv2_modth; auto. eapply g_ok_same; eauto. Qed.

(* a state change between live states *)
Lemma g_ok_set_state : forall th th' ns,
  th_state th <> DONE -> ns <> DONE -> ns <> RUNNING ->
  th_state th' = ns -> th_fresh th' = th_fresh th -> g_started th' = g_started th -> g_finished th' = g_finished th ->
  g_ok th -> g_ok th'.
Proof.
  unfold g_ok. intros th th' ns N1 N2 N3 h1 h2 h3 h4 (a & b & c). rewrite h1, h2, h3, h4.
  split; [|split]; auto.
  - rewrite a. destruct (th_state th), ns; try reflexivity; congruence.
  - intros [H|H]; congruence.
Qed.

Ltac ghost_neutral := apply inv2_neutral; [intro th; repeat split | auto].

Lemma inv2_switch_in : forall s v n, Inv1 s -> Inv2 s -> cnt n (v_runq (s_vc s v)) >= 1 -> Inv2 (switch_in s n).
Proof.
  intros s v n I1 I2 Hn. unfold switch_in. apply inv2_modth; auto.
  destruct (in_runq_facts s n v (i_placed _ I1 n v) Hn) as (_ & _ & _ & _ & _ & _ & l7).
  destruct (I2 n) as (a & b & c). unfold g_ok.
  destruct (th_fresh (s_th s n)) eqn:F; cbn; rewrite ?F; repeat split; auto; try lia;
    rewrite a; destruct l7 as [l7|[l7|l7]]; rewrite l7; reflexivity.
Qed.

(* the successor n of the CURRENT thread c is switched in; c is not touched *)
Lemma inv2_switch_next : forall s v c n rest, Inv1 s -> Inv2 s -> v_runq (s_vc s v) = c :: n :: rest ->
  Inv2 (switch_in s n) /\ s_th (switch_in s n) c = s_th s c.
Proof.
  intros s v c n rest I1 I2 Hq. split.
  - apply (inv2_switch_in s v); auto. rewrite Hq, !cnt_cons, Nat.eqb_refl. lia.
  - apply switch_in_other. eapply head_not_second; eauto.
Qed.

Lemma inv2_dequeue : forall s t, Inv2 s -> Inv2 (dequeue s t).
Proof.
  intros s t I. unfold dequeue. destruct (th_waitq (getth s t)); auto. ghost_neutral. ghost_neutral.
Qed.

Lemma inv2_wake : forall s v t e, Inv2 s -> th_state (s_th s t) = SLEEPING -> Inv2 (wake s v t e).
Proof.
  intros s v t e I Es. unfold wake.
  set (s1 := dequeue (modth s t (fun th => set_th_err th e)) t).
  assert (I1 : Inv2 s1). { unfold s1. apply inv2_dequeue. ghost_neutral. }
  assert (E1 : th_state (s_th s1 t) = SLEEPING).
  { unfold s1. rewrite dequeue_state, th_modth, Nat.eqb_refl. exact Es. }
  destruct (Nat.eqb (th_vcpu (getth s1 t)) v); apply inv2_modvc; apply inv2_modth; auto.
  - apply (g_ok_set_state (s_th s1 t) _ READY); auto; try congruence.
  - apply (g_ok_set_state (s_th s1 t) _ STANDBY); auto; try congruence.
Qed.

Lemma inv2_yield : forall s v ce d, Inv1 s -> Inv2 s -> head_run s v -> Inv2 (do_yield s v ce d).
Proof.
  intros s v ce d I1 I2 Hr. unfold do_yield, getvc.
  destruct (v_runq (s_vc s v)) as [|c [|n rest]] eqn:Hq; try (apply (inv2_same s); auto; fail).
  destruct (inv2_switch_next s v c n rest I1 I2 Hq) as [In Ec].
  apply inv2_modvc. apply inv2_modth; auto.
  apply (g_ok_set_state (s_th (switch_in s n) c) _ READY); try congruence; try (destruct ce; reflexivity); auto.
  rewrite Ec, (Hr c _ Hq). discriminate.
Qed.

Lemma inv2_do_sleep : forall s v exp wq d, Inv1 s -> Inv2 s -> head_run s v -> Inv2 (do_sleep s v exp wq d).
Proof.
  intros s v exp wq d I1 I2 Hr. unfold do_sleep, getvc.
  destruct (v_runq (s_vc s v)) as [|c [|n rest]] eqn:Hq; try (apply (inv2_same s); auto; fail).
  destruct (inv2_switch_next s v c n rest I1 I2 Hq) as [In Ec].
  match goal with |- Inv2 (if ?b then set_s_tie ?X true else ?X) =>
    assert (IX : Inv2 X); [| destruct b; auto; apply (inv2_same X); auto] end.
  apply inv2_modvc.
  assert (I3 : Inv2 (modth (switch_in s n) c
             (fun th => set_th_waitq (set_th_ts (set_th_insleep (set_th_state th SLEEPING) true) exp) wq))).
  { apply inv2_modth; auto. apply (g_ok_set_state (s_th (switch_in s n) c) _ SLEEPING); try congruence; auto.
    rewrite Ec, (Hr c _ Hq). discriminate. }
  destruct wq; auto. ghost_neutral.
Qed.

Lemma inv2_do_create : forall s v k jn ws, Inv2 s -> Inv2 (do_create s v k jn ws).
Proof.
  intros s v k jn ws I. unfold do_create. apply inv2_modvc. intro x. cbn [s_th set_s_th]. unfold updp.
  destruct (Nat.eqb x k); auto. unfold g_ok. cbn. repeat split; auto. intros [H|H]; discriminate.
Qed.

Lemma inv2_do_die : forall s v rv s', Inv1 s -> Inv2 s -> head_run s v -> do_die s v rv = Some s' -> Inv2 s'.
Proof.
  intros s v rv s' I1 I2 Hr D.
  destruct (do_die_inv s v rv s' I1 Hr D) as [(a & _)|(c & n & rest & rest' & s1 & _ & _ & Ncn & S1 & J1 & Hq1 & Hn1 & Ec1 & ->)].
  { now apply (inv2_same s). }
  assert (J2 : Inv2 s1). { destruct S1 as [->|(j & Sj & ->)]; [auto|now apply inv2_wake]. }
  assert (K2 : Inv2 (switch_in s1 n)). { apply (inv2_switch_in s1 v); auto. rewrite Hq1, cnt_cons. lia. }
  apply inv2_modvc. apply inv2_modth; auto. rewrite switch_in_other by auto.
  destruct (J2 c) as (a & b & cc). unfold g_ok. cbn. rewrite Ec1 in *. cbn in a. repeat split; auto; try lia.
Qed.

Lemma inv2_do_migrate : forall s v t u s' b, Inv2 s -> do_migrate s v t u = Some (s', b) -> Inv2 s'.
Proof.
  intros s v t u s' b I M. destruct (do_migrate_inv _ _ _ _ _ _ M) as [->|(Es & _ & _ & _ & ->)]; auto.
  do 2 apply inv2_modvc. apply inv2_modth; auto.
  apply (g_ok_set_state (s_th s t) _ STANDBY); auto; congruence.
Qed.

Lemma inv2_exec_pend : forall s v, Inv2 s -> Inv2 (exec_pend s v).
Proof.
  intros s v I. unfold exec_pend, getvc, getth.
  destruct (v_pend (s_vc s v)) as [|from d|from]; auto.
  - destruct d as [|t|t u]; [now apply inv2_modvc| |].
    + ghost_neutral.
    + destruct (do_migrate _ v t u) as [[s1 b]|] eqn:M; auto. eapply inv2_do_migrate; [|eauto]. now apply inv2_modvc.
  - destruct (th_joinable _); ghost_neutral.
Qed.

Lemma inv2_ret : forall s c r e, Inv2 s -> Inv2 (ret s c r e).
Proof. intros. unfold ret. apply inv2_neutral; [intro th; repeat split | apply (inv2_same s); auto]. Qed.
Lemma inv2_setk : forall s c k, Inv2 s -> Inv2 (setk s c k).
Proof. intros. unfold setk. ghost_neutral. Qed.

Lemma inv2_drain_one : forall s v t, Inv1 s -> Inv2 s -> Inv2 (drain_one s v t).
Proof.
  intros s v t I1 I2. unfold drain_one, getvc.
  destruct (mem_tid t (v_standby (s_vc s v))) eqn:M; cbn [negb]; auto.
  apply mem_cnt in M.
  destruct (in_standby_facts s t v (i_placed _ I1 t v) M) as (_ & _ & l3 & _).
  apply inv2_modvc. apply inv2_modth; auto.
  apply (g_ok_set_state (s_th s t) _ READY); auto; congruence.
Qed.
Lemma inv2_do_resume : forall s v, Inv2 s -> Inv2 (do_resume s v).
Proof.
  intros s v I. unfold do_resume, getvc, getth.
  destruct (v_sleepq (s_vc s v)) as [|t rest] eqn:Hq; auto.
  destruct (Z.ltb _ _); auto. destruct (negb _); auto.
  destruct (tstate_eqb (th_state (s_th s t)) SLEEPING) eqn:Es.
  - assert (Es' : th_state (s_th s t) = SLEEPING) by now apply tstate_eqb_true.
    apply inv2_modvc. apply inv2_modth; [now apply inv2_dequeue|].
    apply (g_ok_set_state (s_th (dequeue s t) t) _ READY); auto; try congruence.
    + rewrite dequeue_state. congruence.
    + apply inv2_dequeue; auto.
  - apply inv2_modvc. ghost_neutral.
Qed.

Lemma inv2_do_steal : forall s v u t, Inv2 s -> Inv2 (do_steal s v u t).
Proof.
  intros s v u t I. unfold do_steal, getth, getvc.
  destruct (negb _); auto.
  destruct (mem_tid t (v_standby (s_vc s u))).
  - do 2 apply inv2_modvc. ghost_neutral.
  - destruct (_ && _); auto. do 2 apply inv2_modvc. ghost_neutral.
Qed.

Lemma inv2_move : forall progs guard w s s', Inv1 s -> Inv2 s -> move progs guard w s s' -> Inv2 s'.
Proof.
  intros progs guard w s s' I1 I2 M. destruct M.
  - eapply inv2_same; eauto.
  - now apply inv2_setk.
  - ghost_neutral.
  - ghost_neutral.
  - apply inv2_yield; eauto using running_head_run.
  - apply inv2_do_sleep; eauto using running_head_run.
  - destruct (join_wait_ready s w c j I1 H) as [K1 K2]. apply inv2_do_sleep; auto. apply inv2_setk. ghost_neutral.
  - ghost_neutral.
  - now apply inv2_wake.
  - now apply inv2_do_create.
  - eapply inv2_do_die; eauto using running_head_run.
  - eapply inv2_do_migrate; eauto.
  - now apply inv2_exec_pend.
  - now apply inv2_drain_one.
  - now apply inv2_do_resume.
  - now apply inv2_do_steal.
Qed.

Definition Inv12 (s : state) : Prop := Inv1 s /\ Inv2 s.
Lemma inv12_move : forall progs guard w s s', Inv12 s -> move progs guard w s s' -> Inv12 s'.
Proof. intros progs guard w s s' [I1 I2] M. split; [eapply inv1_move|eapply inv2_move]; eauto. Qed.
Lemma inv12_ret : forall s c r e, Inv12 s -> Inv12 (ret s c r e).
Proof. intros s c r e [I1 I2]. split; [now apply inv1_ret|now apply inv2_ret]. Qed.

Lemma inv2_init : forall nv n flags t0, nv <= n -> Inv2 (init_state nv n flags t0).
Proof.
  intros nv n flags t0 Hn t. unfold init_state. cbn [s_th].
  destruct (init_thread_cases nv n t Hn) as [[_ ->]|[[_ ->]|(_ & _ & ->)]]; unfold g_ok; cbn;
    repeat split; auto; intros [H|H]; discriminate.
Qed.

Lemma reachable_inv12 : forall progs nv n flags t0 s, nv <= n -> reachable progs nv n flags t0 s -> Inv12 s.
Proof.
  intros progs nv n flags t0 s Hn [ls ->]. apply (run_pres progs Inv12).
  - intros. eapply inv12_move; eauto.
  - apply inv12_ret.
  - split; [now apply inv1_init|now apply inv2_init].
Qed.

(* nothing is left in any queue but main / idler threads; by runs_once every created program thread has then finished *)
Definition quiescent (s : state) : Prop :=
  forall t, is_user (th_kind (s_th s t)) = true ->
    forall v, cnt t (v_runq (s_vc s v)) = 0 /\ cnt t (v_sleepq (s_vc s v)) = 0 /\ cnt t (v_standby (s_vc s v)) = 0.

Lemma runs_once_proof : forall progs nv n flags t0 s, nv <= n -> reachable progs nv n flags t0 s ->
  forall t,
    g_started (s_th s t) <= 1 /\ g_finished (s_th s t) <= g_started (s_th s t) /\
    (g_finished (s_th s t) = 1 <-> th_state (s_th s t) = DONE) /\
    (quiescent s -> is_user (th_kind (s_th s t)) = true -> th_state (s_th s t) <> NOTCREATED ->
       g_started (s_th s t) = 1 /\ g_finished (s_th s t) = 1).
Proof.
  intros progs nv n flags t0 s Hn R t.
  destruct (reachable_inv12 _ _ _ _ _ _ Hn R) as [I1 I2].
  destruct (I2 t) as (a & b & c).
  assert (D : th_state (s_th s t) = DONE -> g_started (s_th s t) = 1 /\ g_finished (s_th s t) = 1).
  { intro E. rewrite a, b, E. cbn. rewrite (c (or_intror E)). auto. }
  split; [|split; [|split]].
  - rewrite b. destruct (th_fresh (s_th s t)); lia.
  - rewrite a, b. destruct (tstate_eqb (th_state (s_th s t)) DONE) eqn:E; [|lia].
    assert (E' : th_state (s_th s t) = DONE) by now apply tstate_eqb_true.
    rewrite (c (or_intror E')). lia.
  - rewrite a. split.
    + destruct (th_state (s_th s t)); cbn; intros; try discriminate; reflexivity.
    + intros ->. reflexivity.
  - intros Q U N. apply D.
    destruct (live (s_th s t)) eqn:L.
    + exfalso. destruct (placed_iff_live_proof progs nv n flags t0 s Hn R t) as [_ H].
      destruct (H L) as [v Hv]. destruct (Q t U v) as (q1 & q2 & q3). lia.
    + unfold live in L. destruct (th_state (s_th s t)); cbn in L; try discriminate; congruence.
Qed.

(* non-vacuity: concrete reachable states *)
Definition ex_progs : tid -> list op :=
  fun t => match t with 0 => [OCreate 1 true false; OJoin 1; ONthreads] | 1 => [OYield; ONop] | _ => [] end.
Definition ex_state : state := run ex_progs (init_state 1 2 (fun _ => (false, false)) 1000) (repeat (LStep 0) 40).
Example ex_reachable : reachable ex_progs 1 2 (fun _ => (false, false)) 1000 ex_state.
Proof. exists (repeat (LStep 0) 40). reflexivity. Qed.
(* thread 1 was created, ran once, finished, was joined with its return value, its stack was handed back
   once, and the thread count is back to main + idler *)
Example ex_lifecycle :
  th_state (s_th ex_state 1) = DONE /\ g_started (s_th ex_state 1) = 1 /\ g_finished (s_th ex_state 1) = 1 /\
  g_joinret (s_th ex_state 1) = 1 /\ g_joinval (s_th ex_state 1) = 1001%Z /\ g_disposed (s_th ex_state 1) = 1 /\
  v_nthreads (s_vc ex_state 0) = 2%Z /\ s_stuck ex_state = false /\
  v_runq (s_vc ex_state 0) = [2] /\ v_sleepq (s_vc ex_state 0) = [0].
Proof. vm_compute. repeat split; reflexivity. Qed.
(* a state with the documented overlap: thread 2 sleeps on vCPU 0 and is interrupted from vCPU 1 *)
Definition ov_progs : tid -> list op :=
  fun t => match t with 0 => [OCreate 2 true false; OUsleep 100000] | 1 => [OYield; OInterrupt 2 4] | 2 => [OUsleep 5000] | _ => [] end.
Definition ov_state : state :=
  run ov_progs (init_state 2 3 (fun _ => (false, false)) 1000)
      [LStep 0; LStep 0; LStep 0; LStep 0; LStep 0; LStep 0; LStep 0; LStep 1; LStep 1; LStep 1; LStep 1; LStep 1; LStep 1].
Example ov_overlap :
  th_state (s_th ov_state 2) = STANDBY /\ th_insleep (s_th ov_state 2) = true /\
  cnt 2 (v_sleepq (s_vc ov_state 0)) = 1 /\ cnt 2 (v_standby (s_vc ov_state 0)) = 1 /\ s_stuck ov_state = false.
Proof. vm_compute. repeat split; reflexivity. Qed.
