(* C05_Proofs3.v — what the blocks of the model leave alone (`frame`), and the third invariant layer: thread.lock /
   pending actions / dispose and join counters (join_exact). *)
From Coq Require Import ZArith List Bool Arith Lia.
From PV Require Import Base.U64 C05.C05_Model C05.C05_Step C05.C05_Proofs C05.C05_Proofs2.
Import ListNotations.
Local Open Scope nat_scope.

Definition same_cfg (s s' : state) : Prop := s_n s' = s_n s /\ s_nv s' = s_nv s.
Lemma same_cfg_refl : forall s, same_cfg s s. Proof. split; reflexivity. Qed.
Lemma same_cfg_trans : forall a b c, same_cfg a b -> same_cfg b c -> same_cfg a c.
Proof. unfold same_cfg. intros a b c [] []. split; congruence. Qed.

Lemma cfg_switch_in : forall s n, same_cfg s (switch_in s n). Proof. intros. split; reflexivity. Qed.

(* A frame: s' is s up to what is not watched.  `wt x` is what is watched of the record of thread x, `wv` what is
   watched of every vCPU record, and a vCPU outside D is not touched at all.  Frames are equalities of projections, so
   they compose for free; every layer has its own wt / wv (`Lrel`, `Nrel`, `prel`), states "my invariant is kept along
   my frame" once, and inherits what the blocks of the model do from the strongest frame (`cframe`) by `frame_weaken`. *)
Section FRAME.
  Context {A B : Type}.
  Variables (wt : tid -> thread -> A) (wv : vcpu -> B) (D : nat -> Prop).
  Definition frame (s s' : state) : Prop :=
    (forall x, wt x (s_th s' x) = wt x (s_th s x)) /\
    (forall v, wv (s_vc s' v) = wv (s_vc s v) /\ (D v \/ s_vc s' v = s_vc s v)) /\
    same_cfg s s'.
  Lemma frame_refl : forall s, frame s s.
  Proof. intro. split; [|split]; auto using same_cfg_refl. Qed.
  Lemma frame_trans : forall a b c, frame a b -> frame b c -> frame a c.
  Proof.
    intros a b c (A1 & A2 & A3) (B1 & B2 & B3). split; [|split; [|eapply same_cfg_trans; eauto]].
    - intro x. now rewrite B1.
    - intro v. destruct (A2 v) as [E1 [d|e1]], (B2 v) as [E2 [d'|e2]]; (split; [congruence|]); auto. right. congruence.
  Qed.
  Lemma frame_modth1 : forall s t f, wt t (f (s_th s t)) = wt t (s_th s t) -> frame s (modth s t f).
  Proof.
    intros s t f H. split; [|split; [auto|split; reflexivity]].
    intro x. rewrite th_modth. destruct (Nat.eqb x t) eqn:E; auto. apply Nat.eqb_eq in E. now subst.
  Qed.
  Lemma frame_modth : forall s t f, (forall th, wt t (f th) = wt t th) -> frame s (modth s t f).
  Proof. intros. now apply frame_modth1. Qed.
  Lemma frame_modvc : forall s u g, D u -> (forall x, wv (g x) = wv x) -> frame s (modvc s u g).
  Proof.
    intros s u g Du H. split; [auto|split; [|split; reflexivity]]. intro v. rewrite vc_modvc.
    destruct (Nat.eqb v u) eqn:E; auto. apply Nat.eqb_eq in E. subst. auto.
  Qed.
  Lemma frame_same : forall s s', s_th s' = s_th s -> s_vc s' = s_vc s -> same_cfg s s' -> frame s s'.
  Proof. intros s s' Et Ev C. split; [|split; auto]; intros; rewrite ?Et, ?Ev; auto. Qed.
  Lemma frame_tie : forall X b, frame X (set_s_tie X b).
  Proof. intros. apply frame_same; [reflexivity|reflexivity|split; reflexivity]. Qed.
  Lemma frame_stuck : forall X, frame X (stuck X).
  Proof. intros. apply frame_same; [reflexivity|reflexivity|split; reflexivity]. Qed.
End FRAME.

Lemma frame_weaken : forall A B A' B' (wt : tid -> thread -> A) (wv : vcpu -> B) (wt' : tid -> thread -> A') (wv' : vcpu -> B')
    (D D' : nat -> Prop) s s',
  (forall x a b, wt x a = wt x b -> wt' x a = wt' x b) -> (forall a b, wv a = wv b -> wv' a = wv' b) -> (forall v, D v -> D' v) ->
  frame wt wv D s s' -> frame wt' wv' D' s s'.
Proof.
  intros A B A' B' wt wv wt' wv' D D' s s' Ht Hv Hd (F1 & F2 & F3). split; [|split; auto].
  - intro x. apply Ht, F1.
  - intro v. destruct (F2 v) as [E [d|e]]; auto.
Qed.

(* peels the outermost update off the target state.  The side conditions are about a variable record, so that
   `reflexivity` computes the projections and never unfolds the state under them *)
Ltac fstep :=
  match goal with
  | |- frame _ _ _ ?s ?s => apply frame_refl
  | |- frame _ _ _ ?s (modvc ?X _ _) => apply (frame_trans _ _ _ s X); [|apply frame_modvc; [cbv beta; auto|intro; reflexivity]]
  | |- frame _ _ _ ?s (modth ?X _ _) => apply (frame_trans _ _ _ s X); [|apply frame_modth; intro; reflexivity]
  | |- frame _ _ _ ?s (set_s_tie ?X _) => apply (frame_trans _ _ _ s X); [|apply frame_tie]
  | |- frame _ _ _ ?s (stuck ?X) => apply (frame_trans _ _ _ s X); [|apply frame_stuck]
  | |- frame _ _ _ ?s (setk ?X _ _) => apply (frame_trans _ _ _ s X); [|unfold setk; apply frame_modth; intro; reflexivity]
  end.

(* What the queue blocks (switch_in, dequeue, wake, drain_one, do_resume, and yield / sleep / die up to their pending
   action) never write: everything but the scheduling state, the queue links, error number and phase; they do not
   create a thread either (last component).  Of a vCPU they change the queues only. *)
Definition core (_ : tid) (th : thread) :=
  (th_vcpu th, th_kind th, th_ws th, th_joinable th, th_lock th, th_retval th, th_pc th,
   g_finished th, g_disposed th, g_joinret th, g_joinval th, tstate_eqb (th_state th) NOTCREATED).
Definition vcore (x : vcpu) := (v_nthreads x, v_pend x).
Definition cframe := frame core vcore.

Lemma switch_in_frame : forall D s n, tstate_eqb (th_state (s_th s n)) NOTCREATED = false -> cframe D s (switch_in s n).
Proof.
  intros D s n H. unfold switch_in. apply frame_modth1. unfold core. destruct (th_fresh (s_th s n)); cbn; now rewrite H.
Qed.
Lemma dequeue_frame : forall D s t, cframe D s (dequeue s t).
Proof. intros. unfold cframe, dequeue. destruct (th_waitq _); repeat fstep. Qed.

Lemma nc_of_state : forall th st, th_state th = st -> st <> NOTCREATED -> tstate_eqb (th_state th) NOTCREATED = false.
Proof. intros th st -> N. destruct st; auto; congruence. Qed.
Lemma nc_of_live : forall th, live th = true -> tstate_eqb (th_state th) NOTCREATED = false.
Proof. unfold live. intros th L. apply andb_true_iff in L. now apply negb_true_iff. Qed.

(* a thread that exists gets a new scheduling state *)
Lemma resched_frame : forall D s t f, tstate_eqb (th_state (s_th s t)) NOTCREATED = false ->
  (forall th, core t (f th) = core t (set_th_state th READY)) -> cframe D s (modth s t f).
Proof. intros D s t f H Hf. apply frame_modth1. rewrite Hf. unfold core. now rewrite H. Qed.

Lemma wake_frame : forall (D : nat -> Prop) s w t e, D w -> D (th_vcpu (s_th s t)) -> th_state (s_th s t) = SLEEPING ->
  cframe D s (wake s w t e).
Proof.
  intros D s w t e Dw Dt Es. unfold wake, getth. set (s1 := dequeue _ t).
  assert (R : cframe D s s1). { unfold s1. eapply frame_trans; [|apply dequeue_frame]. unfold cframe. repeat fstep. }
  pose proof (proj1 R t) as E. unfold core in E. injection E as Ev _ _ _ _ _ _ _ _ _ _ En.
  rewrite (nc_of_state _ _ Es) in En by discriminate. rewrite Ev.
  destruct (Nat.eqb _ w); (apply (frame_trans _ _ _ s s1); [exact R|]); unfold cframe; fstep;
    now apply resched_frame.
Qed.

Lemma drain_one_frame : forall (D : nat -> Prop) s v t, D v -> Inv1 s -> cframe D s (drain_one s v t).
Proof.
  intros D s v t Dv I1. unfold drain_one, getvc. destruct (mem_tid t (v_standby (s_vc s v))) eqn:M; cbn [negb]; [|apply frame_refl].
  apply mem_cnt in M. destruct (in_standby_facts s t v (i_placed _ I1 t v) M) as (l1 & _).
  unfold cframe. fstep. apply resched_frame; [now apply nc_of_live|reflexivity].
Qed.
Lemma resume_frame : forall (D : nat -> Prop) s v, D v -> cframe D s (do_resume s v).
Proof.
  intros D s v Dv. unfold do_resume, getvc, getth. destruct (v_sleepq _) as [|t rest]; [apply frame_refl|].
  destruct (Z.ltb _ _); [apply frame_refl|]. destruct (negb _); [apply frame_refl|].
  destruct (tstate_eqb (th_state (s_th s t)) SLEEPING) eqn:Es; unfold cframe.
  - apply tstate_eqb_true in Es. fstep. apply (frame_trans _ _ _ s (dequeue s t)); [apply dequeue_frame|].
    apply resched_frame; [|reflexivity]. rewrite dequeue_state. now rewrite Es.
  - repeat fstep.
Qed.

(* the queue block of a context switch (thread_yield, thread_usleep, cond.wait, die) up to the point where the
   pending action is recorded: the next thread n is switched in, the running thread c gets its new state *)
Lemma switch_frame : forall D s v c n rest f, Inv1 s -> head_run s v -> v_runq (s_vc s v) = c :: n :: rest ->
  (forall th, core c (f th) = core c (set_th_state th READY)) -> cframe D s (modth (switch_in s n) c f).
Proof.
  intros D s v c n rest f I1 Hr Hq Hf.
  assert (Cn : tstate_eqb (th_state (s_th s n)) NOTCREATED = false).
  { apply nc_of_live. assert (Hn : cnt n (v_runq (s_vc s v)) >= 1) by (rewrite Hq, !cnt_cons, Nat.eqb_refl; lia).
    apply (in_runq_facts s n v (i_placed _ I1 n v) Hn). }
  apply (frame_trans _ _ _ s (switch_in s n)); [now apply switch_in_frame|]. apply resched_frame; auto.
  rewrite switch_in_other by (eapply head_not_second; eauto). eapply nc_of_state; [apply (Hr c _ Hq)|discriminate].
Qed.

(* thread_yield, thread_usleep and cond.wait have one shape: nothing happens (ring too short: stuck), or a queue block
   and then v records the pending action `PSwitch c d` of the thread c that was running *)
Definition switched (s : state) (v : nat) (d : deferred) (s' : state) : Prop :=
  forall D : nat -> Prop, cframe D s s' \/
  exists c X g, hd_error (v_runq (s_vc s v)) = Some c /\ cframe D s X /\
    cframe D (modvc X v g) s' /\ (forall x, v_nthreads (g x) = v_nthreads x /\ v_pend (g x) = PSwitch c d).

Lemma yield_switched : forall s v ce d, Inv1 s -> head_run s v -> switched s v d (do_yield s v ce d).
Proof.
  intros s v ce d I1 Hr D. unfold do_yield, getvc.
  destruct (v_runq (s_vc s v)) as [|c [|n rest]] eqn:Hq; try (left; apply frame_stuck).
  right. eexists c, _, _. split; [reflexivity|split; [|split; [apply frame_refl|intro; split; reflexivity]]].
  apply (switch_frame D s v c n rest); auto. intro th. destruct ce; reflexivity.
Qed.
Lemma sleep_switched : forall s v exp wq d, Inv1 s -> head_run s v -> switched s v d (do_sleep s v exp wq d).
Proof.
  intros s v exp wq d I1 Hr D. unfold do_sleep, getvc.
  destruct (v_runq (s_vc s v)) as [|c [|n rest]] eqn:Hq; try (left; apply frame_stuck).
  right. cbv zeta. set (s2 := modth (switch_in s n) c _).
  assert (R2 : cframe D s s2) by (apply (switch_frame D s v c n rest); auto).
  set (s3 := match wq with Some x => modth s2 x _ | None => s2 end).
  assert (R3 : cframe D s s3). { unfold s3. destruct wq; auto. apply (frame_trans _ _ _ s s2); auto. apply frame_modth. reflexivity. }
  eexists c, s3, _. split; [reflexivity|split; [exact R3|split]].
  - match goal with |- cframe _ _ (if ?b then _ else _) => destruct b end; [apply frame_tie|apply frame_refl].
  - intro. split; reflexivity.
Qed.

(* thread::die up to the point where the dying thread c leaves the ring: cond.notify_one, then the next thread is
   switched in *)
Lemma die_frame : forall (D : nat -> Prop) s v rv s', Inv1 s -> head_run s v -> do_die s v rv = Some s' ->
  D v -> (forall j, th_state (s_th s j) = SLEEPING -> D (th_vcpu (s_th s j))) ->
  cframe D s s' \/
  exists c n rest s2, v_runq (s_vc s v) = c :: n :: rest /\ th_lock (s_th s c) = LFree /\ cframe D s s2 /\
    s' = modvc (modth s2 c (fun x => set_g_finished (set_th_retval (set_th_state (set_th_lock x LSelf) DONE) rv) (S (g_finished x))))
               v (fun x => set_v_pend (set_v_nthreads (set_v_runq x (remove_tid c (v_runq x))) (v_nthreads x - 1)) (PDie c)).
Proof.
  intros D s v rv s' I1 Hr Dd Dv Dj.
  destruct (do_die_inv s v rv s' I1 Hr Dd) as [(a & b & e & f)|(c & n & rest & rest' & s1 & Hq & Lf & _ & S1 & J1 & Hq1 & Hn1 & _ & ->)].
  { left. apply frame_same; [auto|auto|now split]. }
  right. exists c, n, rest, (switch_in s1 n). repeat (split; [assumption|]). split; [|reflexivity].
  apply (frame_trans _ _ _ s s1).
  - destruct S1 as [->|(j & Sj & ->)]; [apply frame_refl|apply wake_frame; auto].
  - apply switch_in_frame, nc_of_live. assert (Hn : cnt n (v_runq (s_vc s1 v)) >= 1) by (rewrite Hq1, cnt_cons; lia).
    apply (in_runq_facts s1 n v (i_placed _ J1 n v) Hn).
Qed.

(* try_work_stealing either refuses and changes nothing, or moves a live thread t of u that allows stealing to the tail
   of v's ring, after g has taken it out of u's standby queue or ring *)
Lemma steal_facts : forall s v u t, Inv1 s -> do_steal s v u t = s \/
  exists g, (forall x, v_nthreads (g x) = v_nthreads x /\ v_pend (g x) = v_pend x) /\ u <> v /\ th_ws (s_th s t) = true /\
    live (s_th s t) = true /\ th_vcpu (s_th s t) = u /\
    do_steal s v u t =
      modvc (modvc (modth (modvc s u g) t (fun x => set_th_vcpu x v)) u (fun x => set_v_nthreads x (v_nthreads x - 1)))
            v (fun x => set_v_nthreads (set_v_runq x (v_runq x ++ [t])) (v_nthreads x + 1)).
Proof.
  intros s v u t I1. unfold do_steal, getth, getvc. destruct (negb _) eqn:G; auto. apply negb_false_iff in G.
  apply andb_true_iff in G. destruct G as [G _]. apply andb_true_iff in G. destruct G as [G St].
  do 2 (apply andb_true_iff in G; destruct G as [G _]). apply andb_true_iff in G. destruct G as [_ Nuv].
  apply negb_true_iff, Nat.eqb_neq in Nuv. apply andb_true_iff in St. destruct St as [Ws _].
  destruct (mem_tid t (v_standby (s_vc s u))) eqn:M1.
  - apply mem_cnt in M1. destruct (in_standby_facts s t u (i_placed _ I1 t u) M1) as (l1 & l2 & _).
    right. exists (fun x => set_v_standby x (remove_tid t (v_standby x))). split; [intro; split; reflexivity|auto].
  - destruct (_ && _) eqn:M2; auto. apply andb_true_iff in M2. destruct M2 as [M2 _]. apply mem_cnt in M2.
    destruct (in_runq_facts s t u (i_placed _ I1 t u) M2) as (l1 & l2 & _).
    right. exists (fun x => set_v_runq x (remove_tid t (v_runq x))). split; [intro; split; reflexivity|auto].
Qed.

(* What every move leaves alone: the configuration, the program counters of the main threads 0..nv-1 (only the
   `ret` that ends a step advances one), and the whole record of a vCPU outside D.  A move of vCPU w touches w, the
   vCPU of a sleeper it wakes, and the target of a migration or the victim of a steal, which are not offline. *)
Definition wpc (nv : nat) (x : tid) (th : thread) : option nat := if Nat.ltb x nv then Some (th_pc th) else None.
Definition prel (nv : nat) : (nat -> Prop) -> state -> state -> Prop := frame (wpc nv) (fun _ => tt).
Lemma prel_core : forall nv D s s', cframe D s s' -> prel nv D s s'.
Proof.
  intros nv D s s'. apply frame_weaken; auto. intros x a b E. unfold wpc. injection E; intros. destruct (Nat.ltb x nv); congruence.
Qed.

Lemma switched_prel : forall nv (D : nat -> Prop) s v d s', D v -> switched s v d s' -> prel nv D s s'.
Proof.
  intros nv D s v d s' Dv Sw. destruct (Sw D) as [R|(c & X & g & _ & R1 & R2 & _)]; [now apply prel_core|].
  apply (frame_trans _ _ _ s (modvc X v g)); [|now apply prel_core]. unfold prel. fstep. now apply prel_core.
Qed.
Lemma migrate_prel : forall nv (D : nat -> Prop) s w t u s' b, D w -> D u -> do_migrate s w t u = Some (s', b) -> prel nv D s s'.
Proof.
  intros nv D s w t u s' b Dw Du M. destruct (do_migrate_inv _ _ _ _ _ _ M) as [->|(_ & _ & _ & _ & ->)]; [apply frame_refl|].
  unfold migrated, prel. repeat fstep.
Qed.

Lemma move_prel : forall progs guard nv (D : nat -> Prop) w s s', Inv1 s -> nv <= s_nv s -> D w ->
  (forall t, th_state (s_th s t) = SLEEPING -> D (th_vcpu (s_th s t))) -> (forall u, offline progs s u = false -> D u) ->
  move progs guard w s s' -> prel nv D s s'.
Proof.
  intros progs guard nv D w s s' I1 Hnv Dw Ds Do M. destruct M; try (unfold prel; repeat fstep; fail).
  - apply frame_same; auto. now split.
  - eapply switched_prel, yield_switched; eauto using running_head_run.
  - eapply switched_prel, sleep_switched; eauto using running_head_run.
  - destruct (join_wait_ready s w c j I1 H) as [K1 K2].
    eapply frame_trans; [|eapply switched_prel, sleep_switched; eauto]. unfold prel. repeat fstep.
  - apply prel_core, wake_frame; auto.
  - unfold do_create, prel. cbv zeta. fstep. split; [|split; [auto|split; reflexivity]]. intro x. cbn [s_th set_s_th].
    unfold updp, wpc. destruct (Nat.eqb x k) eqn:E; auto. apply Nat.eqb_eq in E. subst x.
    replace (Nat.ltb k nv) with false by (symmetry; apply Nat.ltb_ge; lia). reflexivity.
  - destruct (die_frame D s w rv s' I1 (running_head_run _ _ _ H) H1 Dw Ds) as [R|(c0 & n & rest & s2 & _ & _ & R & ->)];
      [now apply prel_core|]. unfold prel. do 2 fstep. now apply prel_core.
  - apply (migrate_prel nv D s w t u s' b); auto.
  - unfold exec_pend, getvc. destruct (v_pend (s_vc s w)) as [|f d|f] eqn:P; try apply frame_refl.
    + destruct d as [|t|t u]; try (unfold prel; repeat fstep; fail).
      destruct (do_migrate _ w t u) as [[s1 b]|] eqn:M; [|apply frame_refl].
      apply (frame_trans _ _ _ s (modvc s w (fun x => set_v_pend x PNone))); [unfold prel; repeat fstep|].
      apply (migrate_prel nv D _ w t u s1 b); auto. apply Do. unfold pend_to_offline, getvc in H. now rewrite P in H.
    + destruct (th_joinable _); unfold prel; repeat fstep.
  - apply prel_core, drain_one_frame; auto.
  - apply prel_core, resume_frame; auto.
  - pose proof (Do u H0) as Du. unfold do_steal, prel. cbv zeta. destruct (negb _); [apply frame_refl|].
    destruct (mem_tid _ _); [repeat fstep|]. destruct (_ && _); repeat fstep.
Qed.

Lemma reachable_cfg : forall progs nv n flags t0 s, nv <= n -> reachable progs nv n flags t0 s -> s_n s = n /\ s_nv s = nv.
Proof.
  intros progs nv n flags t0 s Hn [ls ->]. apply (run_pres progs (fun s => Inv1 s /\ s_n s = n /\ s_nv s = nv)).
  - intros w a b (I & En & Ev) M. split; [eapply inv1_move; eauto|].
    destruct (move_prel progs _ 0 (fun _ => True) w a b I (Nat.le_0_l _) Logic.I (fun _ _ => Logic.I) (fun _ _ => Logic.I) M)
      as (_ & _ & C1 & C2). split; congruence.
  - intros a c r e (I & En & Ev). split; [now apply inv1_ret|auto].
  - split; [now apply inv1_init|split; reflexivity].
Qed.

Definition thr_ok (th : thread) : Prop :=
  ((g_joinret th = 0 /\ (th_joinable th = true -> g_disposed th = 0)) \/
   (g_joinret th = 1 /\ th_joinable th = true /\ g_disposed th = 1 /\ g_finished th = 1 /\
    th_lock th = LJoin /\ g_joinval th = th_retval th)) /\
  (th_joinable th = false -> g_disposed th <= 1 /\ (g_disposed th = 1 -> g_finished th = 1 /\ th_lock th = LSelf)).

(* the thread whose lock a pending action is going to release, with the way the lock is held until then: by the
   dying thread itself (thread::die), by its joiner (cond.wait in thread_join) *)
Definition holds_for (p : pending) : option (tid * lockst) :=
  match p with PDie t => Some (t, LSelf) | PSwitch _ (DUnlock t) => Some (t, LJoin) | _ => None end.
Definition held (th : thread) (l : lockst) : Prop :=
  th_lock th = l /\
  match l with
  | LSelf => g_finished th = 1 /\ g_disposed th = 0
  | _ => g_joinret th = 0 /\ th_state th <> NOTCREATED
  end.

Record InvL (s : state) : Prop := mkInvL {
  l_pend : forall v t l, holds_for (v_pend (s_vc s v)) = Some (t, l) ->
             held (s_th s t) l /\ (forall v', holds_for (v_pend (s_vc s v')) = Some (t, l) -> v' = v);
  l_thr : forall t, thr_ok (s_th s t)
}.

(* what InvL looks at *)
Definition Lw (_ : tid) (th : thread) :=
  (th_lock th, th_joinable th, th_retval th, g_finished th, g_disposed th, g_joinret th, g_joinval th,
   tstate_eqb (th_state th) NOTCREATED).
Definition Lrel : state -> state -> Prop := frame Lw v_pend (fun _ => True).

Lemma Lrel_core : forall D s s', cframe D s s' -> Lrel s s'.
Proof.
  intros D s s'. apply frame_weaken; auto.
  - intros x a b E. unfold Lw. injection E; intros; congruence.
  - intros a b E. injection E; auto.
Qed.

Lemma thr_ok_same : forall x a b, Lw x a = Lw x b -> thr_ok b -> thr_ok a.
Proof. unfold thr_ok. intros x a b E. injection E as h1 h2 h3 h4 h5 h6 h7 _. rewrite h1, h2, h3, h4, h5, h6, h7. auto. Qed.

Lemma nc_neq : forall a b, tstate_eqb (th_state a) NOTCREATED = tstate_eqb (th_state b) NOTCREATED ->
  th_state b <> NOTCREATED -> th_state a <> NOTCREATED.
Proof. intros a b E N Ea. rewrite Ea in E. destruct (th_state b); try discriminate. congruence. Qed.

Lemma held_same : forall x a b l, Lw x a = Lw x b -> held b l -> held a l.
Proof.
  unfold held. intros x a b l E. injection E as h1 _ _ h4 h5 h6 _ h8. rewrite h1, h4, h5, h6. intros [H1 H2]. split; auto.
  destruct l; auto; destruct H2; eauto using nc_neq.
Qed.

Lemma invL_frame : forall s s', Lrel s s' -> InvL s -> InvL s'.
Proof.
  intros s s' (Ht & Hp & _) I. constructor.
  - intros v t l E. rewrite (proj1 (Hp v)) in E. destruct (l_pend _ I v t l E) as [H U]. split.
    + eapply held_same; eauto.
    + intros v' E'. rewrite (proj1 (Hp v')) in E'. auto.
  - intro t. eapply thr_ok_same; [apply Ht|apply (l_thr _ I)].
Qed.
Lemma invL_core : forall D s s', cframe D s s' -> InvL s -> InvL s'.
Proof. intros D s s' R. eapply invL_frame, Lrel_core, R. Qed.

Lemma Lrel_migrate : forall s v t u s' b, do_migrate s v t u = Some (s', b) -> Lrel s s'.
Proof.
  intros s v t u s' b M. destruct (do_migrate_inv _ _ _ _ _ _ M) as [->|(Es & _ & _ & _ & ->)]; [apply frame_refl|].
  unfold migrated, Lrel. do 2 fstep. apply frame_modth1. unfold Lw. cbn. now rewrite Es.
Qed.
Lemma Lrel_ret : forall s c r e, Lrel s (ret s c r e).
Proof. intros. unfold ret, Lrel. fstep. apply frame_same; [reflexivity|reflexivity|split; reflexivity]. Qed.
Lemma Lrel_steal : forall s v u t, Lrel s (do_steal s v u t).
Proof.
  intros. unfold do_steal, Lrel. destruct (negb _); [apply frame_refl|].
  destruct (mem_tid _ _); [repeat fstep|]. destruct (_ && _); repeat fstep.
Qed.

Definition pend_ok (s : state) (v : nat) (p : pending) : Prop :=
  match p with
  | PDie t => g_finished (s_th s t) = 1 /\ th_lock (s_th s t) = LSelf /\ g_disposed (s_th s t) = 0 /\
              (forall v', v' <> v -> v_pend (s_vc s v') <> PDie t)
  | PSwitch _ (DUnlock t) => th_lock (s_th s t) = LJoin /\ g_joinret (s_th s t) = 0 /\ th_state (s_th s t) <> NOTCREATED /\
              (forall v' f', v' <> v -> v_pend (s_vc s v') <> PSwitch f' (DUnlock t))
  | _ => True
  end.

Lemma pend_ok_held : forall s v p t l, pend_ok s v p -> holds_for p = Some (t, l) ->
  held (s_th s t) l /\ (forall v', v' <> v -> holds_for (v_pend (s_vc s v')) <> Some (t, l)).
Proof.
  intros s v p t l P E. destruct p as [|f [|t0|t0 u]|t0]; inversion E; subst; destruct P as (a & b & c & d);
    (split; [repeat split; auto|]); intros v' N E'; destruct (v_pend (s_vc s v')) as [|f' [|t1|t1 u1]|t1] eqn:Pv;
    inversion E'; subst; eapply d; eauto.
Qed.

Lemma invL_pend : forall s v g p, InvL s -> pend_ok s v p -> (forall x, v_pend (g x) = p) -> InvL (modvc s v g).
Proof.
  intros s v g p I P Hg. constructor; [|intro t; rewrite th_modvc; apply (l_thr _ I)].
  assert (Vp : forall y, v_pend (s_vc (modvc s v g) y) = if Nat.eqb y v then p else v_pend (s_vc s y)).
  { intro y. rewrite vc_modvc. destruct (Nat.eqb y v); auto. }
  intros v0 t l. rewrite Vp, th_modvc. destruct (Nat.eqb v0 v) eqn:E0; intro E.
  - apply Nat.eqb_eq in E0. subst v0. destruct (pend_ok_held _ _ _ _ _ P E) as [H U]. split; auto.
    intros v'. rewrite Vp. destruct (Nat.eqb v' v) eqn:E1; [now apply Nat.eqb_eq in E1|].
    apply Nat.eqb_neq in E1. intro X. destruct (U v' E1 X).
  - apply Nat.eqb_neq in E0. destruct (l_pend _ I v0 t l E) as [H U]. split; auto.
    intros v'. rewrite Vp. destruct (Nat.eqb v' v) eqn:E1; [|apply U]. apply Nat.eqb_eq in E1. subst v'. intro X.
    destruct (pend_ok_held _ _ _ _ _ P X) as [_ U']. destruct (U' v0 E0 E).
Qed.

Lemma pend_ok_rel : forall s s' v p, Lrel s s' -> pend_ok s v p -> pend_ok s' v p.
Proof.
  intros s s' v p (Ht & Hp & _) P. destruct p as [|f d|t]; auto.
  - destruct d as [|t|t u]; auto. destruct P as (a & b & c & d). injection (Ht t) as h1 _ _ _ _ h6 _ h8.
    cbn. rewrite h1, h6. repeat split; eauto using nc_neq. intros. rewrite (proj1 (Hp _)). auto.
  - destruct P as (a & b & c & d). injection (Ht t) as h1 _ _ h4 h5 _ _ _.
    cbn. rewrite h1, h4, h5. repeat split; auto. intros. rewrite (proj1 (Hp _)). auto.
Qed.

(* thread_yield, thread_usleep, cond.wait *)
Lemma invL_switched : forall s v d s', InvL s -> (forall c, pend_ok s v (PSwitch c d)) -> switched s v d s' -> InvL s'.
Proof.
  intros s v d s' I P Sw. destruct (Sw (fun _ => True)) as [R|(c & X & g & _ & R1 & R2 & Hg)]; [eapply invL_core; eauto|].
  apply (invL_core _ _ _ R2). apply Lrel_core in R1.
  apply (invL_pend X v g (PSwitch c d)); [apply (invL_frame s); auto|eapply pend_ok_rel; eauto|intro; apply Hg].
Qed.

Lemma thr_ok_zero : forall th, g_joinret th = 0 -> g_disposed th = 0 -> thr_ok th.
Proof. intros th a b. unfold thr_ok. rewrite a, b. split; [left; auto|]. intros _. split; [lia|]. intro H. discriminate. Qed.

(* replacing the record of ONE thread t to which no pending action refers *)
Lemma invL_modth_free : forall s t f, InvL s -> (forall v l, holds_for (v_pend (s_vc s v)) <> Some (t, l)) ->
  thr_ok (f (s_th s t)) -> InvL (modth s t f).
Proof.
  intros s t f I Nf Hok. constructor.
  - intros v x l E. rewrite vc_modth in E. destruct (l_pend _ I v x l E) as [H U].
    assert (N : x <> t) by (intro; subst; eapply Nf; eauto).
    rewrite th_modth. apply Nat.eqb_neq in N. rewrite N. split; [exact H|exact U].
  - intro x. rewrite th_modth. destruct (Nat.eqb x t) eqn:E; [|apply (l_thr _ I)]. exact Hok.
Qed.

Lemma invL_create : forall s v k jn ws, Inv2 s -> InvL s -> th_state (s_th s k) = NOTCREATED -> InvL (do_create s v k jn ws).
Proof.
  intros s v k jn ws I2 I En. unfold do_create.
  assert (Hfin : g_finished (s_th s k) = 0). { destruct (I2 k) as (a & _). rewrite a, En. reflexivity. }
  match goal with |- InvL (modvc (set_s_th s (updp _ k ?th)) _ _) => assert (I1 : InvL (modth s k (fun _ => th))) end.
  { apply invL_modth_free; auto; [|apply thr_ok_zero; reflexivity].
    intros v0 l E. destruct (l_pend _ I v0 k l E) as [[_ H] _]. destruct l; destruct H; congruence. }
  eapply invL_frame; [|exact I1]. unfold Lrel. fstep. apply frame_refl.
Qed.

(* a thread whose lock is free is mentioned by no pending action and has not been joined *)
Lemma free_facts : forall s j, InvL s -> th_lock (s_th s j) = LFree ->
  (forall v l, holds_for (v_pend (s_vc s v)) <> Some (j, l)) /\
  g_joinret (s_th s j) = 0 /\ (th_joinable (s_th s j) = true -> g_disposed (s_th s j) = 0).
Proof.
  intros s j I Lf. split.
  - intros v l E. destruct (l_pend _ I v j l E) as [[x _] _]. rewrite Lf in x. subst l.
    destruct (v_pend (s_vc s v)) as [|? [|?|? ?]|?]; discriminate.
  - destruct (l_thr _ I j) as [[(x & y)|(_ & _ & _ & _ & x & _)] _]; [auto|congruence].
Qed.

Lemma invL_die : forall s v rv s', Inv1 s -> Inv2 s -> InvL s -> head_run s v -> do_die s v rv = Some s' -> InvL s'.
Proof.
  intros s v rv s' I1 I2 I Hr D.
  destruct (die_frame (fun _ => True) s v rv s' I1 Hr D) as [R|(c & n & rest & s2 & Hq & Lf & R & ->)]; auto.
  { eapply invL_core; eauto. }
  pose proof (Hr c _ Hq) as Ec.
  pose proof (run_fin0 s c I2 Ec) as Fin0.
  pose proof (invL_core _ _ _ R I) as J2. injection (proj1 R c) as _ _ _ _ h1 _ _ h7 _ _ _ _.
  destruct (free_facts s2 c J2 (eq_trans h1 Lf)) as (Nf & Jr).
  destruct (l_thr _ J2 c) as [_ T2].
  assert (Dz : g_disposed (s_th s2 c) = 0).
  { destruct (th_joinable (s_th s2 c)) eqn:Ej; [apply Jr; auto|].
    destruct (T2 eq_refl) as (a & b). destruct (g_disposed (s_th s2 c)) as [|[|k]]; auto; [|lia].
    destruct (b eq_refl) as (b1 & _). rewrite h7 in b1. lia. }
  match goal with |- InvL (modvc (modth s2 c ?f) v ?g) =>
    assert (J3 : InvL (modth s2 c f)) end.
  { apply invL_modth_free; auto. unfold thr_ok. cbn. destruct Jr as [j1 j2]. split; [left; auto|].
    intros _. rewrite Dz. split; [lia|]. intro X. discriminate. }
  eapply (invL_pend _ v _ (PDie c)); [exact J3| |reflexivity].
  unfold pend_ok. rewrite th_modth, Nat.eqb_refl. cbn. rewrite h7, Fin0. repeat split; auto.
  intros v' _ E. apply (Nf v' LSelf). now rewrite E.
Qed.

(* once v's pending action is cleared nothing refers to the thread it held *)
Lemma cleared_free : forall s v t l, InvL s -> holds_for (v_pend (s_vc s v)) = Some (t, l) ->
  forall v0 l0, holds_for (v_pend (s_vc (modvc s v (fun x => set_v_pend x PNone)) v0)) <> Some (t, l0).
Proof.
  intros s v t l I E v0 l0 E0. rewrite vc_modvc in E0. destruct (Nat.eqb v0 v) eqn:N; [discriminate|].
  destruct (l_pend _ I v t l E) as [[a _] U]. destruct (l_pend _ I v0 t l0 E0) as [[b _] _].
  apply Nat.eqb_neq in N. apply N, U. congruence.
Qed.

Lemma invL_exec_pend : forall s v, InvL s -> InvL (exec_pend s v).
Proof.
  intros s v I. unfold exec_pend, getvc, getth.
  assert (I0 : InvL (modvc s v (fun x => set_v_pend x PNone))) by (apply (invL_pend s v _ PNone); auto; exact Logic.I).
  destruct (v_pend (s_vc s v)) as [|from d|t] eqn:Ep; auto.
  - destruct d as [|t|t u]; auto.
    + destruct (l_pend _ I v t LJoin) as [(a & b & c) _]; [now rewrite Ep|].
      apply invL_modth_free; auto.
      * apply (cleared_free s v t LJoin); auto. now rewrite Ep.
      * rewrite th_modvc. destruct (l_thr _ I t) as [T1 T2]. unfold thr_ok. cbn.
        split.
        -- destruct T1 as [T1|(x & _)]; [left; auto|lia].
        -- intro Ej. destruct (T2 Ej) as (x & y). split; auto. intro Z. destruct (y Z) as (_ & y2). congruence.
    + destruct (do_migrate _ v t u) as [[s1 b]|] eqn:M; auto.
      apply (invL_frame (modvc s v (fun x => set_v_pend x PNone))); auto. eapply Lrel_migrate; eauto.
  - destruct (l_pend _ I v t LSelf) as [(b & a & c) _]; [now rewrite Ep|].
    assert (Nf : forall v0 l0, holds_for (v_pend (s_vc (modvc s v (fun x => set_v_pend x PNone)) v0)) <> Some (t, l0)).
    { apply (cleared_free s v t LSelf); auto. now rewrite Ep. }
    destruct (l_thr _ I t) as [T1 T2].
    rewrite th_modvc.
    destruct (th_joinable (s_th s t)) eqn:Ej; apply invL_modth_free; auto; rewrite th_modvc; unfold thr_ok; cbn; rewrite ?Ej.
    + split; [|intro; discriminate]. destruct T1 as [T1|(_ & _ & _ & _ & x & _)]; [left; auto|congruence].
    + split.
      * destruct T1 as [(x & y)|(_ & x & _)]; [left; split; auto; intro; discriminate|congruence].
      * intros _. rewrite c. split; [lia|]. intros _. auto.
Qed.

(* thread_join, target DONE: retval, dispose *)
Lemma invL_join_done : forall s j, Inv2 s -> InvL s ->
  th_joinable (s_th s j) = true -> th_lock (s_th s j) = LFree -> th_state (s_th s j) = DONE ->
  InvL (modth s j (fun x => set_g_joinval (set_g_joinret (set_g_disposed (set_th_lock x LJoin) (S (g_disposed x)))
                                           (S (g_joinret x))) (th_retval x))).
Proof.
  intros s j I2 I Ej Lf Ed. destruct (free_facts s j I Lf) as (Nf & Jr & Dz). specialize (Dz Ej).
  assert (Fin : g_finished (s_th s j) = 1). { destruct (I2 j) as (a & _). rewrite a, Ed. reflexivity. }
  apply invL_modth_free; auto. unfold thr_ok. cbn. rewrite Ej, Jr, Dz, Fin.
  split; [right; repeat split; auto|intro; discriminate].
Qed.

(* cond.wait(lock): keep the lock, sleep, unlock on the next stack *)
Lemma invL_join_wait : forall s v c j, Inv1 s -> running s v c -> InvL s ->
  th_joinable (s_th s j) = true -> th_lock (s_th s j) = LFree -> th_state (s_th s j) <> NOTCREATED ->
  InvL (do_sleep (setk (modth s j (fun x => set_th_lock x LJoin)) c 2) v MAX64 (Some j) (DUnlock j)).
Proof.
  intros s v c j I1 Rn I Ej Lf Snc. destruct (free_facts s j I Lf) as (Nf & Jr & Dz). specialize (Dz Ej).
  set (s1 := modth s j (fun x => set_th_lock x LJoin)).
  assert (I1' : InvL s1).
  { apply invL_modth_free; auto. unfold thr_ok. cbn. rewrite Ej, Jr, Dz. split; [left; auto|intro; discriminate]. }
  assert (R : Lrel s1 (setk s1 c 2)) by (unfold Lrel; repeat fstep).
  destruct (join_wait_ready s v c j I1 Rn) as [K1 K2].
  eapply invL_switched; [apply (invL_frame s1); eauto| |apply sleep_switched; eauto].
  intro c0. apply (pend_ok_rel s1); [exact R|].
  unfold pend_ok, s1. rewrite th_modth, Nat.eqb_refl. cbn. repeat split; auto.
  intros v' f' _ E. apply (Nf v' LJoin). now rewrite E.
Qed.

Lemma pend_ok_trivial_none : forall s v c, pend_ok s v (PSwitch c DNone). Proof. intros. exact Logic.I. Qed.
Lemma pend_ok_trivial_mig : forall s v c t u, pend_ok s v (PSwitch c (DMigrate t u)). Proof. intros. exact Logic.I. Qed.

Lemma invL_move : forall progs guard w s s', Inv1 s -> Inv2 s -> InvL s -> move progs guard w s s' -> InvL s'.
Proof.
  intros progs guard w s s' I1 I2 I M. destruct M;
    (* the phase, error and claim updates write nothing InvL looks at *)
    try (apply (invL_frame s); [unfold Lrel; repeat fstep|exact I]; fail).
  - apply (invL_frame s); [apply frame_same; auto; now split|exact I].
  - eapply invL_switched; [exact I| |apply yield_switched; eauto using running_head_run].
    intro c0. destruct d; [exact Logic.I|contradiction|exact Logic.I].
  - eapply invL_switched; [exact I| |apply sleep_switched; eauto using running_head_run]. intro; exact Logic.I.
  - eapply invL_join_wait; eauto.
  - now apply invL_join_done.
  - eapply invL_core; [apply (wake_frame (fun _ => True)); auto|exact I].
  - now apply invL_create.
  - eapply invL_die; eauto using running_head_run.
  - eapply invL_frame; [eapply Lrel_migrate; eauto|exact I].
  - now apply invL_exec_pend.
  - eapply invL_core; [apply (drain_one_frame (fun _ => True)); auto|exact I].
  - eapply invL_core; [apply (resume_frame (fun _ => True)); auto|exact I].
  - eapply invL_frame; [apply Lrel_steal|exact I].
Qed.

Definition Inv12L (s : state) : Prop := Inv12 s /\ InvL s.
Lemma inv12L_move : forall progs guard w s s', Inv12L s -> move progs guard w s s' -> Inv12L s'.
Proof. intros progs guard w s s' [[I1 I2] IL] M. split; [eapply inv12_move; eauto; now split|eapply invL_move; eauto]. Qed.
Lemma inv12L_ret : forall s c r e, Inv12L s -> Inv12L (ret s c r e).
Proof. intros s c r e [I12 IL]. split; [now apply inv12_ret|]. eapply invL_frame; [apply Lrel_ret|exact IL]. Qed.

Lemma invL_init : forall nv n flags t0, nv <= n -> InvL (init_state nv n flags t0).
Proof.
  intros nv n flags t0 Hn. constructor.
  - intros v t l. rewrite init_pend. discriminate.
  - intro t. unfold init_state. cbn [s_th].
    destruct (init_thread_cases nv n t Hn) as [[_ ->]|[[_ ->]|(_ & _ & ->)]]; apply thr_ok_zero; reflexivity.
Qed.

Lemma reachable_inv12L : forall progs nv n flags t0 s, nv <= n -> reachable progs nv n flags t0 s -> Inv12L s.
Proof.
  intros progs nv n flags t0 s Hn [ls ->]. apply (run_pres progs Inv12L).
  - intros. eapply inv12L_move; eauto.
  - apply inv12L_ret.
  - split; [split; [now apply inv1_init|now apply inv2_init]|now apply invL_init].
Qed.

Lemma join_exact_proof : forall progs nv n flags t0 s, nv <= n -> reachable progs nv n flags t0 s ->
  forall t,
    (* thread_join(t) returns at most once; when it has returned the entry function of t had returned
       (t is DONE) and the value handed to the joiner is its return value *)
    g_joinret (s_th s t) <= 1 /\
    (g_joinret (s_th s t) = 1 -> th_state (s_th s t) = DONE /\ g_joinval (s_th s t) = th_retval (s_th s t) /\ th_joinable (s_th s t) = true) /\
    (* the stack is handed back at most once, only after the thread is DONE, and never while the dying
       thread's own switch (PDie) is still pending, i.e. while a vCPU may still be on that stack *)
    g_disposed (s_th s t) <= 1 /\
    (g_disposed (s_th s t) = 1 -> th_state (s_th s t) = DONE /\ forall v, v_pend (s_vc s v) <> PDie t) /\
    (* joinable: released exactly when (and not before) the join returns *)
    (th_joinable (s_th s t) = true -> g_disposed (s_th s t) = g_joinret (s_th s t)) /\
    (* not joinable: never joined *)
    (th_joinable (s_th s t) = false -> g_joinret (s_th s t) = 0).
Proof.
  intros progs nv n flags t0 s Hn R t.
  destruct (reachable_inv12L _ _ _ _ _ _ Hn R) as [[I1 I2] IL].
  destruct (l_thr _ IL t) as [T1 T2]. destruct (I2 t) as (a & _).
  assert (FD : g_finished (s_th s t) = 1 -> th_state (s_th s t) = DONE).
  { rewrite a. destruct (th_state (s_th s t)); cbn; intros; try discriminate; reflexivity. }
  assert (ND : g_disposed (s_th s t) = 1 -> forall v, v_pend (s_vc s v) <> PDie t).
  { intros D v E. destruct (l_pend _ IL v t LSelf) as [(_ & _ & z) _]; [now rewrite E|lia]. }
  destruct (th_joinable (s_th s t)) eqn:Ej.
  - destruct T1 as [(x & y)|(x & _ & y & z & _ & w)].
    + rewrite x, (y eq_refl). repeat split; auto; try lia; intros; try discriminate.
    + rewrite x, y. repeat split; auto; try lia; intros; try discriminate; auto.
  - destruct (T2 eq_refl) as (d1 & d2).
    destruct T1 as [(x & y)|(_ & x & _)]; [|discriminate].
    rewrite x. repeat split; auto; try lia; intros; try discriminate; try (apply FD; apply d2; auto); try (apply ND; auto).
Qed.
