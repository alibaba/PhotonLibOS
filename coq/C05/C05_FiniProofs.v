(* C05_FiniProofs.v — vCPU wind-down: wait_all / vcpu_fini lose no thread (fini_loses_nothing), and the variant of
   wait_all without the standby-queue test (`run_ns`, bottom of the file) does (fini_without_standby_test_refuted in
   C05_Properties.v: seeded change C05_2).

   `offline progs s v` (C05_Model.v) = the main thread of vCPU v has completed a `fini` op.  By `move_prel`
   (C05_Proofs3.v) no move changes the program counter of a thread 0..nv-1; only the `ret` that ends a step advances
   one — so a vCPU goes offline only by its own main thread returning from wait_check with the loop test false.  And
   the record of an offline vCPU v (queues, pending switch, counter) is not touched by a move of another vCPU w: a
   cross-vCPU wake-up of one of v's sleepers is excluded because v's sleep queue is empty, a migration into v by the
   guards (SKIPPED / undefined), a steal from v because v has left the list. *)
From Coq Require Import ZArith List Bool Arith Lia.
From PV Require Import C05.C05_Model C05.C05_Step C05.C05_Proofs C05.C05_Proofs3.
Import ListNotations.
Local Open Scope nat_scope.

Lemma vc_ret : forall s c r e, s_vc (ret s c r e) = s_vc s. Proof. reflexivity. Qed.
Definition is_fini_op (o : op) : Prop := o = OFini.

Section VC.
  Variable v : nat.
  Definition vcq (s s' : state) : Prop := s_vc s' v = s_vc s v.
  Lemma vcq_same : forall s s', s_vc s' = s_vc s -> vcq s s'. Proof. unfold vcq. intros s s' ->. reflexivity. Qed.

  Lemma no_sleeper : forall s t, Inv1 s -> v_sleepq (s_vc s v) = [] -> th_state (s_th s t) = SLEEPING -> th_vcpu (s_th s t) <> v.
  Proof.
    intros s t I Q S E. generalize (i_placed _ I t v). unfold placed, live, place_ok. rewrite S, E, Nat.eqb_refl, Q. cbn.
    rewrite cnt_nil. destruct (th_insleep _); intuition discriminate.
  Qed.

  (* a move of another vCPU while v is offline (so v's sleep queue is empty) *)
  Lemma move_vcq : forall progs guard w s s', Inv1 s -> v_sleepq (s_vc s v) = [] -> offline progs s v = true -> w <> v ->
    move progs guard w s s' -> vcq s s'.
  Proof.
    intros progs guard w s s' I Q Off Nw M.
    destruct (move_prel progs guard 0 (fun u => u <> v) w s s' I (Nat.le_0_l _) Nw) as (_ & R & _); auto.
    - intros t S. now apply no_sleeper.
    - intros u Ou E. subst. congruence.
    - destruct (R v) as [_ [N|E]]; [congruence|exact E].
  Qed.
End VC.

Section MAIN.
  Variable progs : tid -> list op.

  (* what vcpu_fini leaves behind: nothing but the (now destroyed) main thread and idler — no sleeper, no thread in
     the standby queue, no pending switch, at most two ring members with the main thread v at the head *)
  Definition clean (s : state) (v : nat) : Prop :=
    v_sleepq (s_vc s v) = [] /\ v_standby (s_vc s v) = [] /\ v_pend (s_vc s v) = PNone /\
    length (v_runq (s_vc s v)) <= 2 /\ hd_error (v_runq (s_vc s v)) = Some v.
  Definition FiniOK (s : state) : Prop := forall v, offline progs s v = true -> clean s v.

  Lemma offline_prel : forall D s s' v, prel (s_nv s) D s s' -> offline progs s' v = offline progs s v.
  Proof.
    intros D s s' v (B & _ & _ & A). unfold offline, getth. rewrite A. specialize (B v). unfold wpc in B.
    destruct (Nat.ltb v (s_nv s)); [|reflexivity]. injection B as ->. reflexivity.
  Qed.
  Lemma existsb_firstn_S : forall (f : op -> bool) l n,
    existsb f (firstn (S n) l) = existsb f (firstn n l) || match nth_error l n with Some o => f o | None => false end.
  Proof.
    intros f l. induction l as [|a l IH]; intros [|n]; try reflexivity.
    - cbn. now rewrite orb_false_r.
    - change (existsb f (firstn (S (S n)) (a :: l))) with (f a || existsb f (firstn (S n) l)).
      rewrite (IH n). apply orb_assoc.
  Qed.
  Lemma pc_ret : forall s c r e x,
    th_pc (s_th (ret s c r e) x) = if Nat.eqb x c then S (th_pc (s_th s c)) else th_pc (s_th s x).
  Proof. intros. unfold ret. rewrite th_modth. destruct (Nat.eqb x c); reflexivity. Qed.
  (* only the return from a `fini` takes a vCPU offline, and only that of the returning thread *)
  Lemma offline_ret : forall s c r e v, offline progs s v = false -> offline progs (ret s c r e) v = true ->
    v = c /\ nth_error (progs c) (th_pc (s_th s c)) = Some OFini.
  Proof.
    intros s c r e v Off Off'. unfold offline, getth in *. change (s_nv (ret s c r e)) with (s_nv s) in Off'.
    rewrite pc_ret in Off'. destruct (Nat.eqb v c) eqn:E; [|congruence].
    apply Nat.eqb_eq in E. subst v. split; [reflexivity|].
    destruct (Nat.ltb c (s_nv s)); [|discriminate]. cbn [andb] in *. rewrite existsb_firstn_S, Off in Off'.
    destruct (nth_error (progs c) (th_pc (s_th s c))) as [[]|]; try discriminate. reflexivity.
  Qed.
  Lemma wait_cond_false : forall s v, wait_cond s v = false ->
    v_sleepq (s_vc s v) = [] /\ v_standby (s_vc s v) = [] /\ length (v_runq (s_vc s v)) <= 2.
  Proof.
    intros s v. unfold wait_cond, getvc. intro H.
    apply orb_false_iff in H. destruct H as [H H3]. apply orb_false_iff in H. destruct H as [H1 H2].
    apply negb_false_iff in H1, H2, H3. apply Nat.leb_le in H1.
    destruct (v_sleepq _); [|discriminate]. destruct (v_standby _); [|discriminate]. auto.
  Qed.

  (* the moves of a vCPU w that is online take no vCPU offline and leave the offline ones alone *)
  Lemma finiok_moves : forall guard w s X, moves progs guard w s X -> Inv1 s -> FiniOK s -> offline progs s w = false ->
    Inv1 X /\ FiniOK X /\ prel (s_nv s) (fun _ => True) s X.
  Proof.
    intros guard w s X M I F Ow. induction M as [|s1 s2 M IH Mv]; [split; [|split]; auto; apply frame_refl|].
    destruct IH as (I1 & F1 & Q1). assert (Ev : s_nv s1 = s_nv s) by apply Q1.
    assert (Q2 : prel (s_nv s1) (fun _ => True) s1 s2) by (apply (move_prel progs guard _ _ w); auto).
    split; [eapply inv1_move; eauto|split; [|rewrite Ev in Q2; eapply frame_trans; eauto]].
    intros v Off. rewrite (offline_prel _ _ _ v Q2) in Off. pose proof (F1 v Off) as C.
    assert (Nw : w <> v). { intro; subst v. rewrite (offline_prel _ _ _ w Q1) in Off. congruence. }
    unfold clean. rewrite (move_vcq v progs guard w s1 s2 I1 (proj1 C) Off Nw Mv). exact C.
  Qed.

  Lemma finiok_blk : forall guard w s s', blk progs guard w s s' -> Inv1 s -> FiniOK s -> offline progs s w = false ->
    FiniOK s'.
  Proof.
    intros guard w s s' B I F Ow.
    destruct B as [X M|X c r e M R G]; destruct (finiok_moves _ _ _ _ M I F Ow) as (IX & FX & QT & _ & _ & QV); [exact FX|].
    intros v Off. unfold clean. rewrite vc_ret. destruct (offline progs X v) eqn:OX; [exact (FX v OX)|].
    destruct (offline_ret _ _ _ _ _ OX Off) as [-> Ef]. destruct R as (R1 & _ & R3).
    assert (Hc : Nat.ltb c (s_nv s) = true).
    { unfold offline in Off. apply andb_true_iff in Off. destruct Off as [L _].
      change (s_nv (ret X c r e)) with (s_nv X) in L. now rewrite QV in L. }
    specialize (QT c). unfold wpc in QT. rewrite Hc in QT. injection QT as QT. rewrite QT in Ef.
    destruct (G Ef) as (-> & <- & Wc).
    destruct (wait_cond_false s c Wc) as (A1 & A2 & A3). auto.
  Qed.

  Lemma finiok_step : forall s l, Inv1 s -> FiniOK s -> FiniOK (step progs s l).
  Proof.
    intros s l I F. pose proof (step_blk progs (fun _ _ => true) s l eq_refl) as B. unfold step in *.
    destruct (s_stuck s); [exact F|]. destruct (frozen progs s l) eqn:Fr; [exact F|].
    destruct l as [w|w|w|w u t|d]; cbn [actor frozen] in *.
    5:{ destruct (Z.leb _ _); exact F. }
    4: apply orb_false_iff in Fr; destruct Fr as [Fr _].
    all: eapply finiok_blk; eauto.
  Qed.

  Lemma finiok_init : forall nv n flags t0, FiniOK (init_state nv n flags t0).
  Proof.
    intros nv n flags t0 v. unfold offline, init_state, getth. cbn [s_th s_nv]. unfold init_thread.
    destruct (Nat.ltb v nv); cbn; discriminate.
  Qed.

  Lemma finiok_run : forall ls s, Inv1 s -> FiniOK s -> FiniOK (run progs s ls).
  Proof.
    induction ls as [|l r IH]; cbn; intros s I F; auto. apply IH; [now apply inv1_step|now apply finiok_step].
  Qed.

  Lemma fini_loses_nothing_proof : forall nv n flags t0 s v, nv <= n -> reachable progs nv n flags t0 s ->
    offline progs s v = true ->
    clean s v /\
    (* ... so every thread that is live and belongs to v is one of the (at most two) members of v's run queue:
       the main thread that ran vcpu_fini and the idler it joined *)
    (forall t, live (s_th s t) = true -> th_vcpu (s_th s t) = v -> In t (v_runq (s_vc s v))) /\
    (* ... and no thread is asleep or waiting in a standby queue there *)
    (forall t, th_vcpu (s_th s t) = v -> th_state (s_th s t) <> SLEEPING /\ th_state (s_th s t) <> STANDBY \/ In t (v_runq (s_vc s v))).
  Proof.
    intros nv n flags t0 s v Hn [ls ->] Off.
    pose proof (inv1_run progs ls _ (inv1_init nv n flags t0 Hn)) as I.
    pose proof (finiok_run ls _ (inv1_init nv n flags t0 Hn) (finiok_init nv n flags t0) v Off) as C.
    set (s := run progs (init_state nv n flags t0) ls) in *.
    destruct C as (Q & B & P & L & H).
    assert (K : forall t, live (s_th s t) = true -> th_vcpu (s_th s t) = v -> In t (v_runq (s_vc s v))).
    { intros t Lv Ev. generalize (i_placed _ I t v). unfold placed. rewrite Lv, Ev, Nat.eqb_refl. cbn [andb].
      rewrite Q, B, !cnt_nil. unfold place_ok. intro PO.
      assert (cnt t (v_runq (s_vc s v)) >= 1).
      { destruct (th_state (s_th s t)), (th_insleep (s_th s t)); try tauto; lia. }
      unfold cnt in H0. apply (count_occ_In Nat.eq_dec). lia. }
    split; [repeat split; auto|]. split; [exact K|].
    intros t Ev. destruct (th_state (s_th s t)) eqn:St; try (left; split; discriminate); right; apply K; auto; unfold live; rewrite St; reflexivity.
  Qed.
End MAIN.

(* non-vacuity: the scenario of seeded change C05_2 — vCPU 1 creates thread 2 and migrates it into vCPU 0's standby queue,
   then vCPU 0's main thread runs vcpu_fini: wait_all yields until the idler has drained the standby queue and thread 2
   has run to completion; only then vCPU 0 goes offline, clean. *)
Definition c052_progs (t : tid) : list op :=
  match t with
  | 0 => [OFini]
  | 1 => [OCreate 2 false false; OMigrate 2 0; ONop]
  | 2 => [ONop]
  | _ => []
  end.
Definition c052_flags (v : nat) : bool * bool := (false, false).
Definition c052_pre : list label := [LStep 1; LStep 1].
Definition c052_fini : list label :=
  [LStep 0; LStep 0; LDrain 0; LStep 0; LStep 0; LStep 0; LStep 0; LStep 0; LStep 0; LStep 0; LStep 0; LStep 0; LStep 0; LStep 0; LStep 0].
Example c052_scenario :
  let s1 := run c052_progs (init_state 2 3 c052_flags 1000) c052_pre in
  let s2 := run c052_progs s1 c052_fini in
  v_standby (s_vc s1 0) = [2] /\ th_state (s_th s1 2) = STANDBY /\ th_vcpu (s_th s1 2) = 0 /\ wait_cond s1 0 = true /\
  offline c052_progs s1 0 = false /\
  offline c052_progs s2 0 = true /\ th_state (s_th s2 2) = DONE /\ g_started (s_th s2 2) = 1 /\ g_finished (s_th s2 2) = 1 /\
  s_stuck s2 = false.
Proof. vm_compute. repeat split; reflexivity. Qed.

(* Refuted: wait_all WITHOUT the standby-queue test (seeded change C05_2).
   The variant differs from the code in one place: the loop test.  Its transition function `step_ns` is `step` except that
   a `fini` / `waitall` block of a main thread whose loop test differs (standby queue not empty, everything else empty)
   takes the variant's branch: wait_all returns at once. *)
Definition wait_cond_ns (s : state) (v : nat) : bool :=
  let vc := getvc s v in negb (Nat.leb (length (v_runq vc)) 2) || negb (is_nil (v_sleepq vc)).
Definition at_wait_test (progs : tid -> list op) (s : state) (v : nat) : option bool :=
  match v_pend (getvc s v), v_runq (getvc s v) with
  | PNone, c :: _ =>
      if Nat.eqb c v && tstate_eqb (th_state (getth s c)) RUNNING &&
         (Nat.eqb (th_k (getth s c)) 0 || Nat.eqb (th_k (getth s c)) 3) then
        match nth_error (progs c) (th_pc (getth s c)) with
        | Some OFini => Some true | Some OWaitAll => Some false | _ => None
        end
      else None
  | _, _ => None
  end.
Definition step_ns (progs : tid -> list op) (s : state) (l : label) : state :=
  match l with
  | LStep v =>
      if negb (s_stuck s) && negb (frozen progs s l) && Nat.ltb v (s_nv s) && wait_cond s v && negb (wait_cond_ns s v) then
        match at_wait_test progs s v with
        | Some f => ret s v (if f then online_count progs s - 1 else 0)%Z 0     (* the variant's wait_all returns here *)
        | None => step progs s l
        end
      else step progs s l
  | _ => step progs s l
  end.
Fixpoint run_ns (progs : tid -> list op) (s : state) (ls : list label) : state :=
  match ls with [] => s | l :: r => run_ns progs (step_ns progs s l) r end.
