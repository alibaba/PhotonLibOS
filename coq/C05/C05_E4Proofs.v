(* C05_E4Proofs.v — the E4 command layer is a scheduler of labels of the PROVED transition system:
   every state a controlled multi-vCPU replay visits (the states whose placement dumps bin/check
   compares with the real scheduler) is `reachable`, so placement_unique, one_vcpu_at_a_time,
   runs_once, join_exact and nthreads_restored hold in it. *)
From Coq Require Import ZArith List Bool Arith.
From PV Require Import C05.C05_Model C05.C05_Proofs C05.C05_E4.
Import ListNotations.

Lemma run_app : forall progs l1 l2 s, run progs s (l1 ++ l2) = run progs (run progs s l1) l2.
Proof. induction l1 as [|l r IH]; intros l2 s; cbn; [reflexivity|apply IH]. Qed.

Fixpoint e4_labels (progs : tid -> list op) (s : state) (cs : list cmd) : list label :=
  match cs with
  | [] => []
  | c :: r => cmd_labels progs s c ++ e4_labels progs (e4_cmd progs s c) r
  end.

Lemma e4_run_is_run : forall progs cs s, e4_run progs s cs = run progs s (e4_labels progs s cs).
Proof.
  induction cs as [|c r IH]; intros s; cbn [e4_run e4_labels]; [reflexivity|].
  rewrite run_app. apply IH.
Qed.

Lemma e4_reachable_proof : forall progs nv n flags t0 cs,
  reachable progs nv n flags t0 (e4_run progs (init_state nv n flags t0) cs).
Proof. intros. exists (e4_labels progs (init_state nv n flags t0) cs). apply e4_run_is_run. Qed.

(* e.g. the placement theorem instantiated to replay states *)
Lemma e4_placement_proof : forall progs nv n flags t0 cs, (nv <= n)%nat ->
  forall t v, placed (e4_run progs (init_state nv n flags t0) cs) t v.
Proof. intros. eapply i_placed, reachable_inv1; eauto using e4_reachable_proof. Qed.

(* non-vacuity + regression anchor: the standby-queue scenario of seeded change C05_1.  vCPU 0 (passive) holds in its standby
   queue the migrated stealable thread 3 and, behind it, the cross-vCPU-interrupted sleeper 2 that is still in its sleep
   queue; the steal scan of vCPU 1 takes thread 3 ONLY. *)
Definition c051_progs (t : tid) : list op :=
  match t with
  | 0%nat => [OCreate 2 true true; OUsleep 100000]
  | 1%nat => [OCreate 3 false true; OYield; OInterrupt 2 4]
  | 2%nat => [OUsleep 50000; ONop]
  | 3%nat => [OMigrate 3 0; ONop]
  | _ => []
  end.
Definition c051_flags (v : nat) : bool * bool := match v with 0%nat => (false, true) | _ => (true, false) end.
Definition c051_cmds : list cmd :=
  [CStep 0; CStep 0; CStep 0; CStep 0; CStep 1; CStep 1; CStep 1; CStep 1; CStep 1; CStep 1]%nat.
Example c051_scan :
  let s := e4_run c051_progs (init_state 2 4 c051_flags 1000) c051_cmds in
  v_standby (s_vc s 0%nat) = [3; 2]%nat /\ th_insleep (s_th s 2%nat) = true /\
  cmd_labels c051_progs s (CScan 1) = [LSteal 1 0 3]%nat /\
  let s' := e4_cmd c051_progs s (CScan 1) in
  v_standby (s_vc s' 0%nat) = [2]%nat /\ v_runq (s_vc s' 1%nat) = [5; 3]%nat /\ th_vcpu (s_th s' 2%nat) = 0%nat.
Proof. vm_compute. repeat split; reflexivity. Qed.
