(* C05_Proofs4.v — fourth invariant layer: vcpu.nthreads = (main + idler) + number of live program threads
   whose `vcpu` is this vCPU (nthreads_restored). *)
From Coq Require Import ZArith List Bool Arith Lia.
From PV Require Import C05.C05_Model C05.C05_Step C05.C05_Proofs C05.C05_Proofs2 C05.C05_Proofs3.
Import ListNotations.
Local Open Scope nat_scope.

Definition created (th : thread) : bool := negb (tstate_eqb (th_state th) NOTCREATED).
(* program thread, exists, entry function not finished, owned by vCPU v *)
Definition counts (s : state) (v : nat) (t : tid) : bool :=
  is_user (th_kind (s_th s t)) && created (s_th s t) && Nat.eqb (g_finished (s_th s t)) 0 && Nat.eqb (th_vcpu (s_th s t)) v.
Definition users_on (s : state) (v : nat) : nat := length (filter (counts s v) (seq 0 (s_n s))).
Definition base (s : state) (v : nat) : Z := if Nat.ltb v (s_nv s) then 2%Z else 0%Z.

Record InvN (s : state) : Prop := mkInvN {
  n_kind : forall t, is_user (th_kind (s_th s t)) = false -> th_ws (s_th s t) = false;
  n_range : forall t, is_user (th_kind (s_th s t)) = true -> created (s_th s t) = true -> t < s_n s;
  n_mig : forall v f t u, v_pend (s_vc s v) = PSwitch f (DMigrate t u) -> is_user (th_kind (s_th s t)) = true;
  n_cnt : forall v, v_nthreads (s_vc s v) = (base s v + Z.of_nat (users_on s v))%Z
}.

Definition b2n (b : bool) : nat := if b then 1 else 0.
Lemma filter_upd : forall (f g : nat -> bool) t l, (forall x, x <> t -> f x = g x) ->
  length (filter g l) + cnt t l * b2n (f t) = length (filter f l) + cnt t l * b2n (g t).
Proof.
  intros f g t l H. induction l as [|a l IH]; cbn [filter length].
  - rewrite cnt_nil. lia.
  - rewrite cnt_cons. destruct (Nat.eqb a t) eqn:E.
    + apply Nat.eqb_eq in E. subst a. destruct (f t), (g t); cbn [length b2n] in *; lia.
    + apply Nat.eqb_neq in E. rewrite (H a E). destruct (g a); cbn [length]; lia.
Qed.
Lemma cnt_seq : forall t n, t < n -> cnt t (seq 0 n) = 1.
Proof.
  intros t n H. unfold cnt.
  assert (I : In t (seq 0 n)) by (apply in_seq; lia).
  pose proof (seq_NoDup n 0) as ND. rewrite (NoDup_count_occ Nat.eq_dec) in ND. specialize (ND t).
  apply (count_occ_In Nat.eq_dec) in I. lia.
Qed.

Lemma users_upd : forall s s' v t, s_n s' = s_n s -> (forall x, x <> t -> counts s' v x = counts s v x) -> t < s_n s ->
  users_on s' v + b2n (counts s v t) = users_on s v + b2n (counts s' v t).
Proof.
  intros s s' v t En H Ht. unfold users_on. rewrite En.
  pose proof (filter_upd (counts s v) (counts s' v) t (seq 0 (s_n s))) as F.
  rewrite (cnt_seq t (s_n s) Ht) in F. rewrite !Nat.mul_1_l in F. apply F. intros x Nx. symmetry. auto.
Qed.
Lemma users_same : forall s s' v, s_n s' = s_n s -> (forall x, counts s' v x = counts s v x) -> users_on s' v = users_on s v.
Proof.
  intros s s' v En H. unfold users_on. rewrite En. f_equal. apply filter_ext. auto.
Qed.

(* what InvN (and the pending-switch invariant of C05_Proofs5.v) looks at *)
Definition Nw (_ : tid) (th : thread) :=
  (th_kind th, th_ws th, th_vcpu th, g_finished th, tstate_eqb (th_state th) NOTCREATED).
Definition Nrel : state -> state -> Prop := frame Nw vcore (fun _ => True).
Lemma Nrel_core : forall D s s', cframe D s s' -> Nrel s s'.
Proof. intros D s s'. apply frame_weaken; auto. intros x a b E. unfold Nw. injection E; intros; congruence. Qed.
Lemma Nrel_ret : forall s c r e, Nrel s (ret s c r e).
Proof. intros. unfold ret, Nrel. fstep. apply frame_same; [reflexivity|reflexivity|split; reflexivity]. Qed.

Lemma counts_rel : forall s s' v x, Nw x (s_th s' x) = Nw x (s_th s x) -> counts s' v x = counts s v x.
Proof. unfold counts, created. intros s s' v x E. injection E as a _ c d e. rewrite a, c, d, e. reflexivity. Qed.

Lemma invN_frame : forall s s', Nrel s s' -> InvN s -> InvN s'.
Proof.
  intros s s' (Ht & Hv & Cn & Cv) I. constructor.
  - intros t. injection (Ht t) as a b _ _ _. rewrite a, b. apply (n_kind _ I).
  - intros t. injection (Ht t) as a _ _ _ e. unfold created. rewrite a, e, Cn. apply (n_range _ I).
  - intros v f t u E. injection (proj1 (Hv v)) as _ P. rewrite P in E. injection (Ht t) as a _ _ _ _. rewrite a. eapply n_mig; eauto.
  - intro v. injection (proj1 (Hv v)) as Nn _. rewrite Nn, (n_cnt _ I v). unfold base. rewrite Cv. f_equal. f_equal.
    symmetry. apply users_same; auto. intro x. apply counts_rel. auto.
Qed.
Lemma invN_core : forall D s s', cframe D s s' -> InvN s -> InvN s'.
Proof. intros D s s' R. eapply invN_frame, Nrel_core, R. Qed.

(* one thread changes its contribution *)
Lemma invN_upd1 : forall s s' t, InvN s -> t < s_n s ->
  same_cfg s s' ->
  (forall x, x <> t -> Nw x (s_th s' x) = Nw x (s_th s x)) ->
  (is_user (th_kind (s_th s' t)) = false -> th_ws (s_th s' t) = false) ->
  (forall v f x u, v_pend (s_vc s' v) = PSwitch f (DMigrate x u) -> exists v0 f0, v_pend (s_vc s v0) = PSwitch f0 (DMigrate x u)) ->
  (is_user (th_kind (s_th s t)) = true -> is_user (th_kind (s_th s' t)) = true) ->
  (forall v, (v_nthreads (s_vc s' v) + Z.of_nat (b2n (counts s v t)) = v_nthreads (s_vc s v) + Z.of_nat (b2n (counts s' v t)))%Z) ->
  InvN s'.
Proof.
  intros s s' t I Ht [Cn Cv] Hx Hk Hp Hm Hn. constructor.
  - intro x. destruct (Nat.eq_dec x t) as [->|N]; auto. injection (Hx x N) as a b _ _ _. rewrite a, b. apply (n_kind _ I).
  - intro x. rewrite Cn. destruct (Nat.eq_dec x t) as [->|N]; auto. injection (Hx x N) as a _ _ _ e. unfold created. rewrite a, e. apply (n_range _ I).
  - intros v f x u E. destruct (Hp v f x u E) as (v0 & f0 & E0). pose proof (n_mig _ I v0 f0 x u E0) as U.
    destruct (Nat.eq_dec x t) as [->|N]; auto. injection (Hx x N) as a _ _ _ _. rewrite a. exact U.
  - intro v. specialize (Hn v). rewrite (n_cnt _ I v) in Hn. unfold base in *. rewrite Cv.
    pose proof (users_upd s s' v t Cn) as U.
    assert (U' : users_on s' v + b2n (counts s v t) = users_on s v + b2n (counts s' v t)).
    { apply U; auto. intros x N. apply counts_rel. auto. }
    lia.
Qed.

Definition pendN_ok (s : state) (p : pending) : Prop :=
  match p with PSwitch _ (DMigrate t _) => is_user (th_kind (s_th s t)) = true | _ => True end.
Lemma invN_pend : forall s v g p, InvN s -> pendN_ok s p ->
  (forall x, v_nthreads (g x) = v_nthreads x /\ v_pend (g x) = p) -> InvN (modvc s v g).
Proof.
  intros s v g p I P Hg. constructor.
  - intro t. rewrite th_modvc. apply (n_kind _ I).
  - intro t. rewrite th_modvc. apply (n_range _ I).
  - intros v0 f t u. rewrite vc_modvc, th_modvc. destruct (Nat.eqb v0 v) eqn:E; [|apply (n_mig _ I)].
    destruct (Hg (s_vc s v)) as [_ ->]. intro Ep. subst p. exact P.
  - intro v0. rewrite vc_modvc. change (base (modvc s v g) v0) with (base s v0).
    change (users_on (modvc s v g) v0) with (users_on s v0). destruct (Nat.eqb v0 v) eqn:E; [|apply (n_cnt _ I)].
    apply Nat.eqb_eq in E. subst v0. destruct (Hg (s_vc s v)) as [-> _]. apply (n_cnt _ I).
Qed.
Lemma pendN_ok_rel : forall s s' p, Nrel s s' -> pendN_ok s p -> pendN_ok s' p.
Proof.
  intros s s' p (Ht & _) P. destruct p as [|f d|t]; auto. destruct d as [|t|t u]; auto.
  cbn in *. injection (Ht t) as a _ _ _ _. congruence.
Qed.

(* thread_yield, thread_usleep, cond.wait *)
Lemma invN_switched : forall s v d s', InvN s -> (forall c, pendN_ok s (PSwitch c d)) -> switched s v d s' -> InvN s'.
Proof.
  intros s v d s' I P Sw. destruct (Sw (fun _ => True)) as [R|(c & X & g & _ & R1 & R2 & Hg)]; [eapply invN_core; eauto|].
  apply (invN_core _ _ _ R2). apply Nrel_core in R1.
  apply (invN_pend X v g (PSwitch c d)); [apply (invN_frame s); auto|eapply pendN_ok_rel; eauto|exact Hg].
Qed.

Lemma invN_create : forall s v k jn ws, InvN s -> th_state (s_th s k) = NOTCREATED -> k < s_n s -> InvN (do_create s v k jn ws).
Proof.
  intros s v k jn ws I En Hk. unfold do_create, getth.
  eapply (invN_upd1 s _ k I Hk).
  - split; reflexivity.
  - intros x N. rewrite th_modvc. cbn [s_th set_s_th]. rewrite updp_neq by auto. reflexivity.
  - rewrite th_modvc. cbn [s_th set_s_th]. rewrite updp_eq. cbn. discriminate.
  - intros v0 f x u. rewrite vc_modvc. destruct (Nat.eqb v0 v) eqn:E.
    + apply Nat.eqb_eq in E. subst v0. cbn. intro X. exists v, f. exact X.
    + intro X. exists v0, f. exact X.
  - intros _. rewrite th_modvc. cbn [s_th set_s_th]. rewrite updp_eq. reflexivity.
  - intro v0. rewrite vc_modvc. unfold counts. rewrite th_modvc. cbn [s_th set_s_th]. rewrite updp_eq. cbn.
    unfold created. rewrite En. cbn. rewrite andb_false_r. cbn.
    destruct (Nat.eqb v0 v) eqn:E.
    + apply Nat.eqb_eq in E. subst v0. rewrite Nat.eqb_refl. cbn. lia.
    + rewrite (Nat.eqb_sym v v0), E. cbn. lia.
Qed.

Lemma live_facts : forall s t, Inv2 s -> live (s_th s t) = true -> created (s_th s t) = true /\ g_finished (s_th s t) = 0.
Proof.
  intros s t I2 L. unfold live in L. apply andb_true_iff in L. destruct L as [L1 L2]. split; [exact L1|].
  destruct (I2 t) as (a & _). rewrite a. apply negb_true_iff in L2. rewrite L2. reflexivity.
Qed.

(* a live program thread t of vCPU a becomes a thread of vCPU b, the two counters follow (migrate, steal); s0 is s
   up to the queues *)
Lemma invN_transfer : forall s s0 t a b f ga gb, Inv2 s -> InvN s -> a <> b ->
  s_th s0 = s_th s -> same_cfg s s0 ->
  (forall y, v_nthreads (s_vc s0 y) = v_nthreads (s_vc s y) /\ v_pend (s_vc s0 y) = v_pend (s_vc s y)) ->
  is_user (th_kind (s_th s t)) = true -> live (s_th s t) = true -> th_vcpu (s_th s t) = a ->
  (forall th, th_kind (f th) = th_kind th /\ g_finished (f th) = g_finished th /\ th_vcpu (f th) = b /\
              (created th = true -> created (f th) = true)) ->
  (forall x, v_nthreads (ga x) = (v_nthreads x - 1)%Z /\ v_pend (ga x) = v_pend x) ->
  (forall x, v_nthreads (gb x) = (v_nthreads x + 1)%Z /\ v_pend (gb x) = v_pend x) ->
  InvN (modvc (modvc (modth s0 t f) a ga) b gb).
Proof.
  intros s s0 t a b f ga gb I2 I Nab Et [Cn Cv] Ev Ut L Ea Hf Ha Hb.
  destruct (live_facts s t I2 L) as [Cr Fin]. destruct (Hf (s_th s t)) as (f1 & f2 & f3 & f4).
  assert (Vc : forall y, s_vc (modvc (modvc (modth s0 t f) a ga) b gb) y =
                         if Nat.eqb y b then gb (s_vc s0 b) else if Nat.eqb y a then ga (s_vc s0 a) else s_vc s0 y).
  { intro y. rewrite !vc_modvc, vc_modth. replace (Nat.eqb b a) with false by (symmetry; apply Nat.eqb_neq; congruence).
    reflexivity. }
  eapply (invN_upd1 s _ t I (n_range _ I t Ut Cr)).
  - split; assumption.
  - intros x N. rewrite !th_modvc, th_modth, Et. apply Nat.eqb_neq in N. rewrite N. reflexivity.
  - rewrite !th_modvc, th_modth, Nat.eqb_refl, Et, f1, Ut. discriminate.
  - intros y f0 x u0. rewrite Vc. exists y, f0. revert H.
    destruct (Nat.eqb y b) eqn:E1; [apply Nat.eqb_eq in E1; subst y; rewrite (proj2 (Hb _))|
      destruct (Nat.eqb y a) eqn:E2; [apply Nat.eqb_eq in E2; subst y; rewrite (proj2 (Ha _))|]];
      rewrite (proj2 (Ev _)); auto.
  - intros _. rewrite !th_modvc, th_modth, Nat.eqb_refl, Et, f1. exact Ut.
  - intro y. rewrite Vc. unfold counts. rewrite !th_modvc, th_modth, Nat.eqb_refl, Et, f1, f2, f3, (f4 Cr), Ut, Cr, Fin, Ea. cbn.
    destruct (Nat.eqb y b) eqn:E1; [apply Nat.eqb_eq in E1; subst y|].
    + rewrite Nat.eqb_refl, (proj1 (Hb _)), (proj1 (Ev _)).
      replace (Nat.eqb a b) with false by (symmetry; apply Nat.eqb_neq; congruence). cbn. lia.
    + rewrite (Nat.eqb_sym b y), E1. destruct (Nat.eqb y a) eqn:E2; [apply Nat.eqb_eq in E2; subst y|].
      * rewrite Nat.eqb_refl, (proj1 (Ha _)), (proj1 (Ev _)). cbn. lia.
      * rewrite (Nat.eqb_sym a y), E2, (proj1 (Ev _)). cbn. lia.
Qed.

Lemma invN_migrate : forall s v t u s' b, Inv2 s -> InvN s -> is_user (th_kind (s_th s t)) = true ->
  do_migrate s v t u = Some (s', b) -> InvN s'.
Proof.
  intros s v t u s' b I2 I Hu M. destruct (do_migrate_inv _ _ _ _ _ _ M) as [->|(Es & Ev & Nuv & _ & ->)]; auto.
  apply (invN_transfer s s); auto using same_cfg_refl. unfold live. rewrite Es. reflexivity.
Qed.

Lemma invN_die : forall s v rv s', Inv1 s -> Inv2 s -> InvN s -> head_run s v ->
  (forall c rest, v_runq (s_vc s v) = c :: rest -> is_user (th_kind (s_th s c)) = true) ->
  do_die s v rv = Some s' -> InvN s'.
Proof.
  intros s v rv s' I1 I2 I Hr Hu D.
  destruct (die_frame (fun _ => True) s v rv s' I1 Hr D) as [R|(c & n & rest & s2 & Hq & _ & R & ->)]; auto.
  { eapply invN_core; eauto. }
  pose proof (Hr c _ Hq) as Ec. pose proof (Hu c _ Hq) as Uc.
  destruct (runq_head_facts s v c _ I1 Hq) as (_ & Evc & _).
  pose proof (invN_core _ _ _ R I) as J2. injection (proj1 R c) as k3 k1 _ _ _ _ _ k4 _ _ _ k5.
  pose proof (run_fin0 s c I2 Ec) as Fin.
  assert (Cc : created (s_th s2 c) = true). { unfold created. rewrite k5, Ec. reflexivity. }
  assert (Hlt : c < s_n s2). { apply (n_range _ J2); [rewrite k1; auto|exact Cc]. }
  eapply (invN_upd1 s2 _ c J2 Hlt).
  - split; reflexivity.
  - intros x N. rewrite th_modvc, th_modth. apply Nat.eqb_neq in N. rewrite N. reflexivity.
  - rewrite th_modvc, th_modth, Nat.eqb_refl. cbn. rewrite k1, Uc. discriminate.
  - intros v0 f x u. rewrite vc_modvc, vc_modth. destruct (Nat.eqb v0 v) eqn:E; cbn; intro X; [discriminate|eauto].
  - intros _. rewrite th_modvc, th_modth, Nat.eqb_refl. cbn. rewrite k1. exact Uc.
  - intro v0. rewrite vc_modvc, vc_modth. unfold counts. rewrite th_modvc, th_modth, Nat.eqb_refl. cbn. rewrite k1, k3, k4, Cc, Uc, Fin, Evc.
    cbn. destruct (Nat.eqb v0 v) eqn:E.
    + apply Nat.eqb_eq in E. subst v0. rewrite Nat.eqb_refl. cbn. lia.
    + rewrite (Nat.eqb_sym v v0), E. cbn. lia.
Qed.

Lemma invN_steal : forall s v u t, Inv1 s -> Inv2 s -> InvN s -> InvN (do_steal s v u t).
Proof.
  intros s v u t I1 I2 I. destruct (steal_facts s v u t I1) as [->|(g & Hg & Nuv & Ws & L & Eu & ->)]; auto.
  assert (Ut : is_user (th_kind (s_th s t)) = true).
  { destruct (is_user (th_kind (s_th s t))) eqn:E; auto. rewrite (n_kind _ I t E) in Ws. discriminate. }
  apply (invN_transfer s); auto; try (intro; split; reflexivity); try (split; reflexivity).
  intro y. rewrite vc_modvc. destruct (Nat.eqb y u) eqn:E; [apply Nat.eqb_eq in E; subst y; apply Hg|split; reflexivity].
Qed.

Lemma invN_exec_pend : forall s v, Inv2 s -> InvN s -> InvN (exec_pend s v).
Proof.
  intros s v I2 I. unfold exec_pend, getvc, getth.
  assert (I0 : InvN (modvc s v (fun x => set_v_pend x PNone))).
  { apply (invN_pend s v _ PNone); [exact I|exact Logic.I|intro; split; reflexivity]. }
  destruct (v_pend (s_vc s v)) as [|from d|t] eqn:Ep; auto.
  - destruct d as [|t|t u]; auto.
    + eapply invN_frame; [|exact I0]. unfold Nrel. repeat fstep.
    + destruct (do_migrate _ v t u) as [[s1 b]|] eqn:M; auto.
      apply (invN_migrate (modvc s v (fun x => set_v_pend x PNone)) v t u s1 b); auto.
      rewrite th_modvc. eapply n_mig; eauto.
  - destruct (th_joinable _); (eapply invN_frame; [|exact I0]); unfold Nrel; repeat fstep.
Qed.

Lemma invN_move : forall progs guard w s s', Inv1 s -> Inv2 s -> InvN s -> move progs guard w s s' -> InvN s'.
Proof.
  intros progs guard w s s' I1 I2 I M. destruct M;
    (* the phase, error, claim and join-done updates write nothing InvN looks at *)
    try (apply (invN_frame s); [unfold Nrel; repeat fstep|exact I]; fail).
  - apply (invN_frame s); [apply frame_same; auto; now split|exact I].
  - eapply invN_switched; [exact I| |apply yield_switched; eauto using running_head_run].
    intro c0. destruct d; [exact Logic.I|contradiction|assumption].
  - eapply invN_switched; [exact I| |apply sleep_switched; eauto using running_head_run]. intro; exact Logic.I.
  - destruct (join_wait_ready s w c j I1 H) as [K1 K2].
    eapply invN_switched; [| |apply sleep_switched; eauto]; [|intro; exact Logic.I].
    apply (invN_frame s); [unfold Nrel; repeat fstep|exact I].
  - eapply invN_core; [apply (wake_frame (fun _ => True)); auto|exact I].
  - apply invN_create; auto. lia.
  - eapply invN_die; eauto using running_head_run.
    intros c' r' E. destruct H as (a & _). rewrite E in a. inversion a; subst. rewrite H0. reflexivity.
  - eapply invN_migrate; eauto.
  - now apply invN_exec_pend.
  - eapply invN_core; [apply (drain_one_frame (fun _ => True)); auto|exact I].
  - eapply invN_core; [apply (resume_frame (fun _ => True)); auto|exact I].
  - now apply invN_steal.
Qed.

Definition Inv12N (s : state) : Prop := Inv12 s /\ InvN s.
Lemma inv12N_move : forall progs guard w s s', Inv12N s -> move progs guard w s s' -> Inv12N s'.
Proof. intros progs guard w s s' [[I1 I2] IN] M. split; [eapply inv12_move; eauto; now split|eapply invN_move; eauto]. Qed.
Lemma inv12N_ret : forall s c r e, Inv12N s -> Inv12N (ret s c r e).
Proof. intros s c r e [I12 IN]. split; [now apply inv12_ret|]. eapply invN_frame; [apply Nrel_ret|exact IN]. Qed.

Lemma users_on_zero : forall s v, (forall t, t < s_n s -> counts s v t = false) -> users_on s v = 0.
Proof.
  intros s v H. unfold users_on.
  assert (G : forall l, (forall t, In t l -> counts s v t = false) -> length (filter (counts s v) l) = 0).
  { induction l as [|a l IH]; cbn; intros; auto. rewrite (H0 a (or_introl eq_refl)). apply IH. intros; apply H0; now right. }
  apply G. intros t Ht. apply H. apply in_seq in Ht. lia.
Qed.

Lemma invN_init : forall nv n flags t0, nv <= n -> InvN (init_state nv n flags t0).
Proof.
  intros nv n flags t0 Hn. constructor.
  - intro t. unfold init_state. cbn [s_th].
    destruct (init_thread_cases nv n t Hn) as [[_ ->]|[[_ ->]|(_ & _ & ->)]]; cbn; intros; try reflexivity; try discriminate.
  - intro t. unfold init_state. cbn [s_th s_n].
    destruct (init_thread_cases nv n t Hn) as [[_ ->]|[[_ ->]|(_ & _ & ->)]]; cbn; intros; discriminate.
  - intros v f t u. rewrite init_pend. discriminate.
  - intro v. rewrite users_on_zero.
    + unfold base, init_state. cbn [s_vc s_nv]. unfold init_vcpu. destruct (Nat.ltb v nv); reflexivity.
    + intros t _. unfold counts, init_state. cbn [s_th].
      destruct (init_thread_cases nv n t Hn) as [[_ ->]|[[_ ->]|(_ & _ & ->)]]; reflexivity.
Qed.

Lemma reachable_inv12N : forall progs nv n flags t0 s, nv <= n -> reachable progs nv n flags t0 s -> Inv12N s.
Proof.
  intros progs nv n flags t0 s Hn [ls ->]. apply (run_pres progs Inv12N).
  - intros. eapply inv12N_move; eauto.
  - apply inv12N_ret.
  - split; [split; [now apply inv1_init|now apply inv2_init]|now apply invN_init].
Qed.

Lemma nthreads_proof : forall progs nv n flags t0 s, nv <= n -> reachable progs nv n flags t0 s ->
  s_n s = n /\ s_nv s = nv /\
  forall v,
    (* the counter of a vCPU = main + idler + the program threads that exist, have not finished, and belong to it *)
    v_nthreads (s_vc s v) = ((if Nat.ltb v nv then 2 else 0) + Z.of_nat (users_on s v))%Z /\
    (* restored: when every created program thread is DONE the counter is back to its initial value *)
    ((forall t, is_user (th_kind (s_th s t)) = true -> th_state (s_th s t) = NOTCREATED \/ th_state (s_th s t) = DONE) ->
       v_nthreads (s_vc s v) = v_nthreads (s_vc (init_state nv n flags t0) v)).
Proof.
  intros progs nv n flags t0 s Hn R.
  destruct (reachable_inv12N _ _ _ _ _ _ Hn R) as [[I1 I2] IN]. destruct (reachable_cfg _ _ _ _ _ _ Hn R) as [Cn Cv].
  split; [exact Cn|split; [exact Cv|]]. intro v.
  pose proof (n_cnt _ IN v) as E. unfold base in E. rewrite Cv in E. split; [exact E|].
  intro Q. rewrite E, users_on_zero.
  - cbn [init_state s_vc]. unfold init_vcpu. destruct (Nat.ltb v nv); cbn; lia.
  - intros t _. unfold counts. destruct (is_user (th_kind (s_th s t))) eqn:U; auto.
    destruct (Q t U) as [X|X].
    + unfold created. rewrite X. reflexivity.
    + destruct (I2 t) as (a & _). rewrite a, X. cbn. rewrite andb_false_r. reflexivity.
Qed.
