(* C05_AsymTSO.v — the proposed repair of F5 is sufficient: with a full fence between the store and the loads of
   foreground_lock, asymmetric_spinLock is mutually exclusive under x86-TSO for every number of stealers, every
   script length and every schedule of instruction and store-buffer-flush steps (asym_mutex_TSO_fenced in
   C05_Properties.v, from `tso_run_inv` here and `linv_mutex`).

   The invariant is `LInv` of C05_AsymProofs.v; `linv_exec` and `linv_flush` there cover the two kinds of step.  What
   x86-TSO adds to the argument under SC: every load of either side reads memory, because the owner's buffer is empty
   from its fence to its releasing store and a stealer never buffers a store to the word it loads; and a stealer whose
   releasing store is still buffered counts as holding background_locked. *)
From Coq Require Import ZArith List Bool Arith.
From PV Require Import C05.C05_Asym C05.C05_AsymProofs.
Import ListNotations.

Definition TInv (s : tso_state) : Prop := LInv (t_fg s) (t_bg s) (t_pcs s) (t_buf s).

Lemma tinv_init : forall rf rb, TInv (tso_init rf rb).
Proof. exact inv_init. Qed.

Lemma lookup_nil : forall a, buf_lookup [] a = None. Proof. reflexivity. Qed.
Lemma lookup_bgf_fg : buf_lookup [(BG, false)] FG = None. Proof. reflexivity. Qed.

Lemma tso_step_inv : forall s l s', TInv s -> tso_step true s l = Some s' -> TInv s'.
Proof.
  intros s [p|p] s' I H; cbn [tso_step] in H.
  - generalize (linv_exec true _ _ _ _ p I). revert H. unfold TInv.
    destruct (instr_of (t_pcs s p)) as [a|a v|a v| |]; intros H X.
    + injection H as <-. exact X.
    + injection H as <-. exact (proj2 X eq_refl).
    + destruct X as [-> X]. destruct (t_buf s p); [|discriminate]. injection H as <-. exact (X eq_refl).
    + destruct (t_buf s p); [|discriminate]. injection H as <-. exact (X eq_refl).
    + injection H as <-. exact I.
  - destruct (t_buf s p) as [|[a v] r] eqn:B; [discriminate|]. injection H as <-.
    destruct a; exact (linv_flush _ _ _ _ _ _ _ _ I B).
Qed.

Lemma tso_run_inv : forall ls s s', TInv s -> tso_run true s ls = Some s' -> TInv s'.
Proof.
  induction ls as [|l ls IH]; cbn; intros s s' I H.
  - inversion H; subst; auto.
  - destruct (tso_step true s l) as [s1|] eqn:E; [|discriminate]. eapply IH; [|eauto]. eapply tso_step_inv; eauto.
Qed.
