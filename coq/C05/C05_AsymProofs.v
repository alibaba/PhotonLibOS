(* C05_AsymProofs.v — mutual exclusion of asymmetric_spinLock under SC: the inductive invariant (any
   number of stealers, any script lengths, any schedule: `sc_run_inv`) and what it gives (`linv_mutex`);
   asym_mutex_SC and the refutation under x86-TSO are stated in C05_Properties.v.

   The invariant `LInv` is stated over the components of a state (the two flags in memory, the
   pcs, the store buffers), so that it serves both semantics: under SC every buffer is empty;
   C05_AsymTSO.v uses it, with `linv_exec` and `linv_flush`, for the fenced lock under x86-TSO. *)
From Coq Require Import ZArith List Bool Arith.
From PV Require Import C05.C05_Asym.
Import ListNotations.

#[local] Arguments updp : simpl never.

Lemma updp_eq : forall A (f : nat -> A) k v, updp f k v k = v.
Proof. intros. unfold updp. now rewrite Nat.eqb_refl. Qed.
Lemma updp_neq : forall A (f : nat -> A) k v x, x <> k -> updp f k v x = f x.
Proof. intros. unfold updp. destruct (Nat.eqb x k) eqn:E; auto. apply Nat.eqb_eq in E. congruence. Qed.

(* a stealer "holds" background_locked from its successful exchange to its releasing store *)
Definition holds (c : pc) : bool :=
  match c with PB BChk _ | PB BRel _ | PB BIn _ => true | _ => false end.
(* the owner has foreground_locked set from its store to its releasing store *)
Definition flocked (c : pc) : bool :=
  match c with PF FSt _ => false | PF _ _ => true | PB _ _ => false end.
Definition is_fg (c : pc) : bool := match c with PF _ _ => true | PB _ _ => false end.
(* only between its store and its fence (and after the releasing store) may the owner have stores in flight *)
Definition may_buffer (c : pc) : bool :=
  match c with PF FSt _ | PF FFence _ => true | _ => false end.

Lemma holds_PF : forall c r, holds (PF c r) = false.
Proof. reflexivity. Qed.

Lemma incs_holds : forall c, is_fg c = false -> in_cs c = true -> holds c = true.
Proof. intros [fc r|[] r]; cbn; auto. Qed.

Lemma next_pc_side : forall f c v, is_fg (next_pc f c v) = is_fg c.
Proof. intros f [[] r|[] r] v; destruct f, v; reflexivity. Qed.

Lemma owner_prog : forall f c, is_fg c = true ->
  match instr_of c with
  | ILoad a => a = BG /\ may_buffer c = false /\
      forall v, flocked (next_pc f c v) = flocked c /\ may_buffer (next_pc f c v) = false /\
                (in_cs (next_pc f c v) = true -> v = false)
  | IStore a v => a = FG /\
      forall w, flocked (next_pc f c w) = v /\ in_cs (next_pc f c w) = false /\
                (f = true -> may_buffer (next_pc f c w) = true)
  | IFence => forall w, flocked (next_pc f c w) = flocked c /\ in_cs (next_pc f c w) = false
  | IXchg _ _ => False
  | IHalt => True
  end.
Proof.
  intros f [[] [|r]|] W; try discriminate; cbn; auto;
    repeat split; try destruct v; try destruct w; destruct f; cbn; auto; discriminate.
Qed.

Lemma stealer_prog : forall f c, is_fg c = false ->
  match instr_of c with
  | ILoad a => a = FG /\
      forall v, holds (next_pc f c v) = holds c /\ (in_cs (next_pc f c v) = true -> v = false)
  | IStore a v => a = BG /\ v = false /\ holds c = true /\
      forall w, holds (next_pc f c w) = false /\ in_cs (next_pc f c w) = false
  | IXchg a v => a = BG /\ v = true /\ holds c = false /\
      forall o, holds (next_pc f c o) = negb o /\ in_cs (next_pc f c o) = false
  | IFence => False
  | IHalt => True
  end.
Proof.
  intros f [|[] [|r]] W; try discriminate; cbn; auto;
    repeat split; try destruct v; try destruct w; try destruct o; cbn; auto; discriminate.
Qed.

(* what a participant reads: its newest buffered store to the address, else memory (t_read) *)
Definition view (b : list (addr * bool)) (a : addr) (m : bool) : bool :=
  match buf_lookup b a with Some v => v | None => m end.

Definition owner_ok (c : pc) (b : list (addr * bool)) (fg : bool) : Prop :=
  is_fg c = true /\ Forall (fun e => fst e = FG) b /\ view b FG fg = flocked c /\
  (may_buffer c = false -> b = []).
Definition stealer_ok (c : pc) (b : list (addr * bool)) : Prop :=
  is_fg c = false /\ (b = [] \/ holds c = false /\ b = [(BG, false)]).
(* the stealer holds background_locked, or its releasing store is still in its store buffer *)
Definition pending (pcs : nat -> pc) (buf : nat -> list (addr * bool)) (i : nat) : Prop :=
  holds (pcs (S i)) = true \/ buf (S i) <> [].

Record LInv (fg bg : bool) (pcs : nat -> pc) (buf : nat -> list (addr * bool)) : Prop := mkLInv {
  l_own : owner_ok (pcs 0) (buf 0) fg;
  l_st : forall i, stealer_ok (pcs (S i)) (buf (S i));
  l_uniq : forall i j, pending pcs buf i -> pending pcs buf j -> i = j;
  l_bg : forall i, pending pcs buf i -> bg = true;
  l_excl : in_cs (pcs 0) = true -> forall i, in_cs (pcs (S i)) = false
}.
Arguments l_own {fg bg pcs buf}.
Arguments l_st {fg bg pcs buf}.

Lemma owner_in : forall c b fg, owner_ok c b fg -> in_cs c = true -> fg = true.
Proof.
  intros [[] r|] b fg (W & _ & V & Q) H; try discriminate.
  rewrite (Q eq_refl) in V. exact V.
Qed.

Lemma linv_mutex : forall fg bg pcs buf p q, LInv fg bg pcs buf ->
  in_cs (pcs p) = true -> in_cs (pcs q) = true -> p = q.
Proof.
  intros fg bg pcs buf p q [_ St U _ E] Hp Hq.
  destruct p as [|i], q as [|j]; auto.
  - rewrite (E Hp j) in Hq. discriminate.
  - rewrite (E Hq i) in Hp. discriminate.
  - f_equal. apply U; left; apply incs_holds; auto; apply St.
Qed.

Lemma owner_move : forall fg bg pcs buf fg' pcs' buf',
  LInv fg bg pcs buf ->
  (forall k, k <> 0 -> pcs' k = pcs k /\ buf' k = buf k) ->
  owner_ok (pcs' 0) (buf' 0) fg' ->
  (in_cs (pcs' 0) = true -> in_cs (pcs 0) = true \/ bg = false) ->
  LInv fg' bg pcs' buf'.
Proof.
  intros fg bg pcs buf fg' pcs' buf' [_ St U G E] F O' C.
  assert (Fp : forall i, pcs' (S i) = pcs (S i)) by (intro i; apply F; discriminate).
  assert (Fb : forall i, buf' (S i) = buf (S i)) by (intro i; apply F; discriminate).
  constructor.
  - exact O'.
  - intro i. rewrite Fp, Fb. apply St.
  - intros i j. unfold pending. rewrite !Fp, !Fb. apply U.
  - intro i. unfold pending. rewrite Fp, Fb. apply G.
  - intros H i. rewrite Fp. destruct (C H) as [H0| ->]; [now apply E|].
    destruct (in_cs (pcs (S i))) eqn:X; [|reflexivity].
    discriminate (G i (or_introl (incs_holds _ (proj1 (St i)) X))).
Qed.

(* Stealer i keeps, takes or drops background_locked: taking needs the word false in memory, so
   nobody else is pending; dropping is by the one that is pending, so nobody is afterwards. *)
Lemma stealer_move : forall fg bg pcs buf i bg' pcs' buf',
  LInv fg bg pcs buf ->
  (forall k, k <> S i -> pcs' k = pcs k /\ buf' k = buf k) ->
  stealer_ok (pcs' (S i)) (buf' (S i)) ->
  (bg' = bg /\ (pending pcs' buf' i -> pending pcs buf i) \/ bg = false /\ bg' = true \/
   pending pcs buf i /\ ~ pending pcs' buf' i) ->
  (in_cs (pcs' (S i)) = true -> in_cs (pcs (S i)) = true \/ fg = false) ->
  LInv fg bg' pcs' buf'.
Proof.
  intros fg bg pcs buf i bg' pcs' buf' [O St U G E] F S' M C.
  destruct (F 0 (Nat.neq_0_succ i)) as [F0p F0b].
  assert (Fk : forall k, k <> i -> pcs' (S k) = pcs (S k) /\ buf' (S k) = buf (S k))
    by (intros k N; apply F; congruence).
  assert (X : (forall a b, pending pcs' buf' a -> pending pcs' buf' b -> a = b) /\
              (forall a, pending pcs' buf' a -> bg' = true)).
  { assert (Fn : forall k, k <> i -> pending pcs' buf' k -> pending pcs buf k).
    { intros k N. unfold pending. destruct (Fk k N) as [-> ->]. auto. }
    destruct M as [[-> K]|[[-> ->]|[Pi N]]].
    - assert (Y : forall k, pending pcs' buf' k -> pending pcs buf k)
        by (intro k; destruct (Nat.eq_dec k i) as [->|]; auto).
      split; eauto.
    - assert (Y : forall k, pending pcs' buf' k -> k = i).
      { intros k Pk. destruct (Nat.eq_dec k i) as [|N]; auto. discriminate (G k (Fn k N Pk)). }
      split; auto. intros a b Ha Hb. now rewrite (Y a Ha), (Y b Hb).
    - assert (Y : forall k, ~ pending pcs' buf' k).
      { intros k Pk. destruct (Nat.eq_dec k i) as [->|Nk]; [exact (N Pk)|]. apply Nk, U; auto. }
      split; intros; exfalso; eapply Y; eauto. }
  constructor; try apply X.
  - now rewrite F0p, F0b.
  - intro k. destruct (Nat.eq_dec k i) as [->|N]; auto. destruct (Fk k N) as [-> ->]. apply St.
  - rewrite F0p. intros H k. destruct (Nat.eq_dec k i) as [->|N].
    + destruct (in_cs (pcs' (S i))) eqn:Y; auto. destruct (C eq_refl) as [Z|Z].
      * rewrite (E H i) in Z. discriminate.
      * rewrite (owner_in _ _ _ O H) in Z. discriminate.
    + destruct (Fk k N) as [-> _]. now apply E.
Qed.

Lemma lookup_app : forall b a v, buf_lookup (b ++ [(a, v)]) a = Some v.
Proof.
  induction b as [|[a' w] b IH]; intros a v; cbn.
  - destruct a; reflexivity.
  - now rewrite IH.
Qed.

(* One instruction of participant p keeps LInv, whichever way memory is reached: a load reads p's view; a store goes
   to memory when nothing of p's is in flight, or to the end of p's buffer when the fence is still ahead; an exchange
   and a fence wait for p's buffer to be empty. *)
Lemma linv_exec : forall f fg bg pcs buf p, LInv fg bg pcs buf ->
  let c := pcs p in
  let mem a := match a with FG => fg | BG => bg end in
  match instr_of c with
  | ILoad a => LInv fg bg (updp pcs p (next_pc f c (view (buf p) a (mem a)))) buf
  | IStore a v =>
      (buf p = [] -> LInv (match a with FG => v | BG => fg end) (match a with FG => bg | BG => v end)
                          (updp pcs p (next_pc f c false)) buf) /\
      (f = true -> LInv fg bg (updp pcs p (next_pc f c false)) (updp buf p (buf p ++ [(a, v)])))
  | IXchg a v => a = BG /\ (buf p = [] -> LInv fg v (updp pcs p (next_pc f c bg)) buf)
  | IFence => buf p = [] -> LInv fg bg (updp pcs p (next_pc f c false)) buf
  | IHalt => True
  end.
Proof.
  intros f fg bg pcs buf p L.
  assert (F : forall c' k, k <> p -> updp pcs p c' k = pcs k /\ buf k = buf k)
    by (intros; now rewrite updp_neq).
  assert (Fb : forall c' b' k, k <> p -> updp pcs p c' k = pcs k /\ updp buf p b' k = buf k)
    by (intros; now rewrite !updp_neq).
  destruct p as [|i]; cbn zeta.
  - destruct (l_own L) as (W & A & V & Q). generalize (owner_prog f _ W).
    destruct (instr_of (pcs 0)) as [a|a v|a v| |].
    + (* a load of background_locked: nothing is in flight, it reads memory *)
      intros (-> & Pm & P). destruct (P (view (buf 0) BG bg)) as (Pf & Pq & Pc).
      apply (owner_move _ _ _ _ _ _ _ L (F _)); rewrite updp_eq.
      * split; [now rewrite next_pc_side|]. rewrite Pf. auto.
      * rewrite (Q Pm) in Pc |- *. intro X. right. exact (Pc X).
    + intros (-> & P). destruct (P false) as (Pf & Pc & Pb). split.
      * intro B. apply (owner_move _ _ _ _ _ _ _ L (F _)); rewrite updp_eq.
        -- rewrite B. split; [now rewrite next_pc_side|]. rewrite Pf. auto.
        -- rewrite Pc. discriminate.
      * (* the fence is still ahead *)
        intros ->. apply (owner_move _ _ _ _ _ _ _ L (Fb _ _)); rewrite !updp_eq.
        -- split; [now rewrite next_pc_side|]. split; [apply Forall_app; split; [exact A|repeat constructor]|].
           unfold view. rewrite lookup_app, (Pb eq_refl). split; [now rewrite Pf|discriminate].
        -- rewrite Pc. discriminate.
    + intros [].
    + intros P B. destruct (P false) as (Pf & Pc).
      apply (owner_move _ _ _ _ _ _ _ L (F _)); rewrite updp_eq.
      * split; [now rewrite next_pc_side|]. rewrite Pf. auto.
      * rewrite Pc. discriminate.
    + auto.
  - destruct (l_st L i) as (W & B). generalize (stealer_prog f _ W).
    assert (R : view (buf (S i)) FG fg = fg) by (destruct B as [-> |[_ ->]]; reflexivity).
    destruct (instr_of (pcs (S i))) as [a|a v|a v| |].
    + (* a load of foreground_locked reads memory: a stealer buffers no store to it *)
      intros (-> & P). rewrite R. destruct (P fg) as (Ph & Pc).
      apply (stealer_move _ _ _ _ i _ _ _ L (F _)); unfold pending; rewrite updp_eq, ?Ph.
      * split; [now rewrite next_pc_side|now rewrite Ph].
      * left. auto.
      * auto.
    + intros (-> & -> & Hh & P). destruct (P false) as (Ph & Pc). split.
      * intro E. apply (stealer_move _ _ _ _ i _ _ _ L (F _)); unfold pending; rewrite updp_eq, ?Ph, ?E.
        -- split; [now rewrite next_pc_side|auto].
        -- right. right. split; [now left|]. intros [Z|Z]; [discriminate|now elim Z].
        -- rewrite Pc. discriminate.
      * (* the releasing store goes to the buffer: the stealer stays pending *)
        intros _. destruct B as [B|[B _]]; [|congruence].
        apply (stealer_move _ _ _ _ i _ _ _ L (Fb _ _)); unfold pending; rewrite !updp_eq, ?Ph, ?B.
        -- split; [now rewrite next_pc_side|auto].
        -- left. auto.
        -- rewrite Pc. discriminate.
    + intros (-> & -> & Hh & P). split; [reflexivity|intro E]. destruct (P bg) as (Ph & Pc).
      apply (stealer_move _ _ _ _ i _ _ _ L (F _)); unfold pending; rewrite updp_eq, ?Ph, ?E.
      * split; [now rewrite next_pc_side|auto].
      * destruct bg; [left|right; left]; split; auto. intros [Z|Z]; [discriminate|now elim Z].
      * rewrite Pc. discriminate.
    + intros [].
    + auto.
Qed.

Lemma view_flush : forall a' v r a m, view ((a', v) :: r) a m = view r a (if addr_eqb a' a then v else m).
Proof. intros. unfold view. cbn. destruct (buf_lookup r a); [|destruct (addr_eqb a' a)]; reflexivity. Qed.

Lemma linv_flush : forall fg bg pcs buf p a v r, LInv fg bg pcs buf -> buf p = (a, v) :: r ->
  LInv (match a with FG => v | BG => fg end) (match a with FG => bg | BG => v end) pcs (updp buf p r).
Proof.
  intros fg bg pcs buf p a v r L B.
  assert (F : forall k, k <> p -> pcs k = pcs k /\ updp buf p r k = buf k) by (intros; now rewrite updp_neq).
  destruct p as [|i].
  - (* the owner's buffer: a store to foreground_locked, not past the fence *)
    destruct (l_own L) as (W & A & V & Q). rewrite B in A, V, Q.
    inversion A as [|e b Ea A']. cbn in Ea. subst.
    apply (owner_move _ _ _ _ _ _ _ L F); rewrite ?updp_eq.
    + split; [exact W|]. split; [exact A'|]. rewrite view_flush in V. split; [exact V|]. intro X. discriminate (Q X).
    + auto.
  - (* a stealer's buffer: its releasing store *)
    destruct (l_st L i) as (W & [E|[Hh E]]); rewrite B in E; [discriminate|]. injection E as -> -> ->.
    apply (stealer_move _ _ _ _ i _ _ _ L F); unfold pending; rewrite ?updp_eq, ?Hh, ?B.
    + split; auto.
    + right. right. split; [right; discriminate|]. intros [Z|Z]; [discriminate|now elim Z].
    + auto.
Qed.

Definition Inv (s : sc_state) : Prop := LInv (m_fg s) (m_bg s) (pcs s) (fun _ => []).

Lemma inv_init : forall rf rb, Inv (sc_init rf rb).
Proof.
  intros. constructor; cbn.
  - repeat split; auto.
  - intro i. split; auto.
  - intros i j [H|H]; [discriminate|congruence].
  - intros i [H|H]; [discriminate|congruence].
  - discriminate.
Qed.

Lemma sc_step_frame : forall s p k, k <> p -> pcs (sc_step s p) k = pcs s k.
Proof.
  intros s p k N. unfold sc_step, sc_step_obs.
  destruct (instr_of (pcs s p)) as [a|[] v|[] v| |]; cbn; auto using updp_neq.
Qed.

Lemma sc_step_inv : forall s p, Inv s -> Inv (sc_step s p).
Proof.
  intros s p I. generalize (linv_exec false _ _ _ _ p I). unfold Inv, sc_step, sc_step_obs.
  destruct (instr_of (pcs s p)) as [a|[] v|a v| |]; cbn; intro X.
  - exact X.
  - exact (proj1 X eq_refl).
  - exact (proj1 X eq_refl).
  - destruct X as [-> X]. exact (X eq_refl).
  - exact (X eq_refl).
  - exact I.
Qed.

Lemma sc_run_inv : forall sched s, Inv s -> Inv (sc_run s sched).
Proof. induction sched; cbn; intros; auto. apply IHsched. now apply sc_step_inv. Qed.

(* the lock word discipline that the life-cycle model relies on: while the owner is inside, the
   flag the stealers test is set; while a stealer is inside, the flag the owner tests is set *)
Lemma asym_flags_SC_proof : forall rf rb sched,
  let s := sc_run (sc_init rf rb) sched in
  (in_cs (pcs s 0) = true -> m_fg s = true) /\
  (forall i, in_cs (pcs s (S i)) = true -> m_bg s = true).
Proof.
  intros rf rb sched s.
  destruct (sc_run_inv sched _ (inv_init rf rb)) as [O St _ G _]. fold s in O, St, G.
  split.
  - apply (owner_in _ _ _ O).
  - intros i H. apply (G i). left. apply incs_holds; auto. apply St.
Qed.

(* non-vacuity: a schedule after which the owner is inside, and one after which a stealer is *)
Example sc_owner_inside :
  in_cs (pcs (sc_run (sc_init 1 (fun _ => 1)) [0; 0]) 0) = true.
Proof. reflexivity. Qed.
Example sc_stealer_inside :
  in_cs (pcs (sc_run (sc_init 1 (fun _ => 1)) [1; 1; 1]) 1) = true.
Proof. reflexivity. Qed.
(* the owner arriving while a stealer is inside waits (FWi), the stealer arriving second backs off *)
Example sc_owner_waits :
  pcs (sc_run (sc_init 1 (fun _ => 1)) [1; 1; 1; 0; 0]) 0 = PF FWi 1.
Proof. reflexivity. Qed.
Example sc_stealer_backs_off :
  pcs (sc_run (sc_init 1 (fun _ => 1)) [1; 1; 0; 0; 1]) 1 = PB BRel 1.
Proof. reflexivity. Qed.

(* under x86-TSO owner and stealer get inside together: finding F5, asym_mutex_TSO_refuted in C05_Properties.v *)
Definition tso_both_inside (s : tso_state) : bool :=
  in_cs (t_pcs s 0) && in_cs (t_pcs s 1).

(* with the full fence of the proposed repair the F5 witness (C05_Asym.v) is not even executable (the
   fence needs the store buffer drained) and after the drain the stealer backs off *)
Example f5_witness_blocked_by_fence :
  tso_run true (tso_init 1 (fun _ => 1)) f5_witness = None.
Proof. reflexivity. Qed.
Example f5_fenced_run :
  match tso_run true (tso_init 1 (fun _ => 1))
        [TExec 0; TFlush 0; TExec 0; TExec 0; TExec 1] with
  | Some s => in_cs (t_pcs s 0) = true /\ t_pcs s 1 = PB BWi 1
  | None => False
  end.
Proof. vm_compute. auto. Qed.
