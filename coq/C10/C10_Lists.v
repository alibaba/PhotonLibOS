(* C10 part 2 — the two kinds of table both engine models are built from: association lists keyed by an integer
   (the in-flight table, the thread tables, the readiness masks) and lists of records found by an integer field
   (the kernel's interest lists).  Each model writes these functions out over its own types; those are, by
   computation, the instances of the ones below, so a fact proved here holds of them as it stands. *)
From Coq Require Import ZArith List.
Import ListNotations.
Local Open Scope Z_scope.

Section Assoc.
  Context {V R : Type} (none : R) (some : V -> R).
  Fixpoint lookup (k : Z) (l : list (Z * V)) : R :=
    match l with [] => none | (x, v) :: r => if x =? k then some v else lookup k r end.
  Fixpoint update (k : Z) (v : V) (l : list (Z * V)) : list (Z * V) :=
    match l with [] => [(k, v)] | (x, w) :: r => if x =? k then (x, v) :: r else (x, w) :: update k v r end.

  Lemma lookup_update_same k v l : lookup k (update k v l) = some v.
  Proof.
    induction l as [|[x w] r IH]; cbn [update lookup].
    - rewrite Z.eqb_refl. reflexivity.
    - destruct (x =? k) eqn:E; cbn [lookup]; rewrite E; [reflexivity|exact IH].
  Qed.
  Lemma lookup_update_other k v l k' : k <> k' -> lookup k' (update k v l) = lookup k' l.
  Proof.
    intros Hne. apply Z.eqb_neq in Hne. induction l as [|[x w] r IH]; cbn [update lookup].
    - rewrite Hne. reflexivity.
    - destruct (x =? k) eqn:E; cbn [lookup]; [|rewrite IH; reflexivity].
      apply Z.eqb_eq in E. subst x. rewrite Hne. reflexivity.
  Qed.
End Assoc.

Section Keyed.
  Context {A : Type} (key : A -> Z).
  Fixpoint find (k : Z) (l : list A) : option A :=
    match l with [] => None | e :: r => if key e =? k then Some e else find k r end.
  Fixpoint replace (n : A) (l : list A) : list A :=
    match l with [] => [] | e :: r => if key e =? key n then n :: r else e :: replace n r end.

  Lemma find_app_other l x k : key x <> k -> find k (l ++ [x]) = find k l.
  Proof.
    intros Hne. apply Z.eqb_neq in Hne. induction l as [|e r IH]; cbn [app find]; [rewrite Hne|rewrite IH]; reflexivity.
  Qed.
  Lemma find_replace_other n l k : key n <> k -> find k (replace n l) = find k l.
  Proof.
    intros Hne. apply Z.eqb_neq in Hne. induction l as [|e r IH]; [reflexivity|]. cbn [replace].
    destruct (key e =? key n) eqn:E; cbn [find]; [|rewrite IH; reflexivity].
    apply Z.eqb_eq in E. rewrite E, Hne. reflexivity.
  Qed.
End Keyed.
