(* C10 part 2 — proofs about the engine bookkeeping model (see C10_Engine.v). *)
From Coq Require Import ZArith List Lia Bool.
From PV Require Import C10.C10_Lists C10.C10_Engine.
Import ListNotations.
Local Open Scope Z_scope.

Lemma kfind_kreplace_other n l fd : ke_fd n <> fd -> kfind fd (kreplace n l) = kfind fd l.
Proof. exact (find_replace_other ke_fd n l fd). Qed.

Lemma kfind_kreplace_same fd ev a l e0 :
  kfind fd l = Some e0 -> kfind fd (kreplace (mkkent fd ev a) l) = Some (mkkent fd ev a).
Proof.
  induction l as [|e r IH]; [discriminate|]. cbn [kfind kreplace ke_fd].
  destruct (ke_fd e =? fd) eqn:E.
  - intros _. cbn [kfind ke_fd]. rewrite Z.eqb_refl. reflexivity.
  - intros H. cbn [kfind]. rewrite E. apply IH. exact H.
Qed.

Lemma kfind_kremove_other x l fd : x <> fd -> kfind fd (kremove x l) = kfind fd l.
Proof.
  intros Hne. induction l as [|e r IH]; [reflexivity|]. cbn [kremove].
  destruct (ke_fd e =? x) eqn:E.
  - apply Z.eqb_eq in E. cbn [kfind]. destruct (ke_fd e =? fd) eqn:E2; [apply Z.eqb_eq in E2; lia|reflexivity].
  - cbn [kfind]. rewrite IH. reflexivity.
Qed.

Lemma kfind_app_other l x fd : ke_fd x <> fd -> kfind fd (l ++ [x]) = kfind fd l.
Proof. exact (find_app_other ke_fd l x fd). Qed.

Lemma k_ctl_frame op fd events k fd' :
  fd <> fd' -> kfind fd' (kn_list (snd (k_ctl op fd events k))) = kfind fd' (kn_list k).
Proof.
  intros Hne. unfold k_ctl. destruct (kfind fd (kn_list k)).
  - destruct (op =? CTL_ADD); [reflexivity|]. destruct (op =? CTL_MOD); cbn [snd kn_list].
    + apply kfind_kreplace_other. exact Hne.
    + apply kfind_kremove_other. exact Hne.
  - destruct (op =? CTL_ADD); cbn [snd kn_list]; [|reflexivity].
    apply kfind_app_other. exact Hne.
Qed.

Lemma tab_get_set_other fd v l fd' : fd <> fd' -> tab_get fd' (tab_set fd v l) = tab_get fd' l.
Proof. exact (lookup_update_other ife0 (fun e => e) fd v l fd'). Qed.

Lemma tab_get_set_same fd v l : tab_get fd (tab_set fd v l) = v.
Proof. exact (lookup_update_same ife0 (fun e => e) fd v l). Qed.

(* the part of the state that belongs to descriptor fd': its table entry and its kernel entry *)
Definition fd_view (fd' : Z) (s : st) : ife * option kent := (tab_get fd' (s_tab s), kfind fd' (kn_list (s_k s))).

Lemma ctl_frame fd op events ign s fd' : fd <> fd' -> fd_view fd' (snd (ctl fd op events ign s)) = fd_view fd' s.
Proof.
  intros Hne. unfold ctl, fd_view.
  pose proof (k_ctl_frame op fd events (s_k s) fd' Hne) as Hk.
  destruct (k_ctl op fd events (s_k s)) as [res k'] eqn:E. cbn [snd] in Hk.
  destruct (res =? 0); [cbn; rewrite Hk; reflexivity|].
  destruct ((ign =? 0) || negb (ign =? res)); cbn; rewrite Hk; reflexivity.
Qed.

Lemma rm_interest_frame fd ints s fd' : fd <> fd' -> fd_view fd' (snd (rm_interest fd ints s)) = fd_view fd' s.
Proof.
  intros Hne. unfold rm_interest.
  (* whatever ctl call is made first, the call ends by rewriting the table entry of fd, or leaves the table alone *)
  assert (Hfin : forall r e1 s1, fd_view fd' s1 = fd_view fd' s ->
            fd_view fd' (snd (if r <? 0 then (-1, s1) else (0, upd_tab (tab_set fd e1 (s_tab s1)) s1))) = fd_view fd' s).
  { intros r e1 s1 H. destruct (r <? 0); [exact H|]. unfold fd_view in *. cbn. rewrite tab_get_set_other by exact Hne. exact H. }
  destruct ((fd <? 0) || (s_size s <=? fd)); [reflexivity|].
  destruct (ints =? 0); [reflexivity|].
  destruct (Z.land ints (Z.land (i_int (tab_get fd (s_tab s))) EV_RWEO) =? 0); [reflexivity|].
  match goal with |- context [if ?c then _ else _] => destruct c end; [apply (Hfin 0); reflexivity|].
  match goal with |- context [if ?c then _ else _] => destruct c end;
    match goal with |- context [ctl fd ?op ?ev ?ign s] =>
      pose proof (ctl_frame fd op ev ign s fd' Hne) as E; destruct (ctl fd op ev ign s) as [r s1] end;
    apply Hfin, E.
Qed.

(* the master engine (fdcb always true) drains the whole batch: nothing is left behind *)
Lemma process_master_drains : forall rb s acc, snd (fst (process rb None s acc)) = [].
Proof.
  induction rb as [|e r IH]; intros s acc; [reflexivity|].
  cbn [process]. destruct (fire_one e s) as [out s1]. apply IH.
Qed.

(* engine_kernel_agree — "whenever a thread waits for (fd, direction), the kernel entry of fd is armed for the
   translation of that direction" — does NOT hold: EPOLLHUP, which the kernel reports regardless of the requested
   events, consumes the one-shot arming of an EVENT_ERROR waiter, is not in ERRBIT, so nobody is woken and nothing
   re-arms the descriptor; a later EPOLLERR is never delivered. *)
Definition armed_for (s : st) (fd interest : Z) : bool :=
  match kfind fd (kn_list (s_k s)) with
  | Some e => ke_armed e && negb (Z.land (ke_events e) (translate interest) =? 0)
  | None => false
  end.
Definition engine_kernel_agree_at (s : st) : Prop :=
  forall t fd i d, In (t, Waiting fd i d) (s_thr s) -> armed_for s fd i = true.
Definition no_close (x : step) : bool := match x with SClose _ => false | SWait _ _ i _ => negb (i =? 0) | _ => true end.
