(* C10 part 2b — the inductive invariant of the epoll-ng model over ALL scripts (both variants of add_interest):
     ents_ok : every entry of a direction poller's kernel list carries the id of a thread that is asleep in
               wait_for_fd on exactly that descriptor, with that direction among its interests;
     rem_ok  : every reaped-but-undelivered event (events[0..remains) of a direction poller) points to such a thread.
   Consequences: a datacb never dereferences the Event of a waiter that has returned (no stale access), and never
   fires a waiter for a direction it did not register (fire only registered). *)
From Coq Require Import ZArith List Lia Bool.
From PV Require Import C10.C10_Lists C10.C10_Engine C10.C10_EngineNG C10.C10_ProofsNG.
Import ListNotations.
Local Open Scope Z_scope.

Definition tst (s : nst) (t : Z) : option nwst := nthr_get t (n_thr s).
Definition winfo (w : option nwst) : option (Z * Z) :=
  match w with
  | Some (NWaiting fd i _) | Some (NNotified fd i) | Some (NTail fd i) => Some (fd, i)
  | _ => None
  end.
Definition alive_dir (w : option nwst) (p : pid) : Prop := exists fd i, winfo w = Some (fd, i) /\ has i (dirbit p) = true.
Definition waiting_dir (w : option nwst) (p : pid) : Prop := exists fd i dl, w = Some (NWaiting fd i dl) /\ has i (dirbit p) = true.
Definition not_waiting (w : option nwst) : Prop := match w with Some (NWaiting _ _ _) => False | _ => True end.

Lemma waiting_alive w p : waiting_dir w p -> alive_dir w p.
Proof. intros (fd & i & dl & -> & H). exists fd, i. split; [reflexivity|exact H]. Qed.

Definition ents_ok (s : nst) : Prop :=
  forall p e, p <> PEng -> In e (klist p (n_k s)) ->
    0 <= nk_fd e /\ exists i dl, tst s (nk_data e) = Some (NWaiting (nk_fd e) i dl) /\ has i (dirbit p) = true.
Definition rem_ok (P : option nwst -> pid -> Prop) (s : nst) : Prop :=
  forall p, p <> PEng ->
    0 <= pl_rem (get_pl p s) /\
    forall j, (j < Z.to_nat (pl_rem (get_pl p s)))%nat -> P (tst s (nth j (pl_ev (get_pl p s)) (-1))) p.
Definition clean (s : nst) : Prop := n_stale s = false /\ n_misfire s = false.
Definition eng_ok (s : nst) : Prop := NoDup (map nk_data (klist PEng (n_k s))) /\ pl_rem (n_pe s) = 0.
Definition thr_mono (s s' : nst) : Prop := forall t, not_waiting (tst s t) -> not_waiting (tst s' t).

(* between two engine calls every undelivered event belongs to a sleeper (Inv); while a batch is being delivered
   its owner may already have been made READY by an earlier event of the batch, or be the caller itself (DInv) *)
Definition Inv_of (P : option nwst -> pid -> Prop) (s : nst) : Prop := ents_ok s /\ rem_ok P s /\ clean s /\ eng_ok s.
Definition DInv : nst -> Prop := Inv_of alive_dir.
Definition Inv : nst -> Prop := Inv_of waiting_dir.

Lemma Inv_DInv s : Inv s -> DInv s.
Proof.
  intros (A & B & C). split; [exact A|]. split; [|exact C].
  intros p Hp. destruct (B p Hp) as [H0 H1]. split; [exact H0|]. intros j Hj. apply waiting_alive, H1, Hj.
Qed.

Lemma thr_mono_refl s : thr_mono s s.
Proof. intros t H; exact H. Qed.
Lemma thr_mono_trans a b c : thr_mono a b -> thr_mono b c -> thr_mono a c.
Proof. intros H1 H2 t H. apply H2, H1, H. Qed.
Lemma thr_mono_same a b : n_thr b = n_thr a -> thr_mono a b.
Proof. intros E t H. unfold tst in *. rewrite E. exact H. Qed.

Lemma nthr_get_set_same t w l : nthr_get t (nthr_set t w l) = Some w.
Proof. exact (lookup_update_same None Some t w l). Qed.
Lemma nthr_get_set_other t w l u : t <> u -> nthr_get u (nthr_set t w l) = nthr_get u l.
Proof. exact (lookup_update_other None Some t w l u). Qed.
Lemma nthr_set_set t w w' l : nthr_set t w' (nthr_set t w l) = nthr_set t w' l.
Proof.
  induction l as [|[x v] r IH]; cbn [nthr_set].
  - rewrite Z.eqb_refl. reflexivity.
  - destruct (x =? t) eqn:E; cbn [nthr_set]; rewrite E; [reflexivity|rewrite IH; reflexivity].
Qed.
Lemma tst_set_same t w s : tst (set_thr t w s) t = Some w.
Proof. apply nthr_get_set_same. Qed.
Lemma tst_set_other t w s u : t <> u -> tst (set_thr t w s) u = tst s u.
Proof. apply nthr_get_set_other. Qed.

(* the thread table and the kernel lists are changed by different calls *)
Lemma pctl_set_thr p fd op ev d t w s :
  pctl p fd op ev d (set_thr t w s) = (fst (pctl p fd op ev d s), set_thr t w (snd (pctl p fd op ev d s))).
Proof. unfold pctl. cbn [n_k set_thr nupd_thr]. destruct (nk_ctl p op fd ev d (n_k s)) as [res k']. destruct (res =? 0); reflexivity. Qed.
Lemma del_if_set_thr b p fd t w s : del_if b p fd (set_thr t w s) = set_thr t w (del_if b p fd s).
Proof. destruct b; [|reflexivity]. unfold del_if. rewrite pctl_set_thr. reflexivity. Qed.
Lemma rm_interest_set_thr fd i t w s :
  snd (rm_interest fd i (set_thr t w s)) = set_thr t w (snd (rm_interest fd i s)).
Proof. rewrite !rm_interest_dels. destruct (fd <? 0); [reflexivity|]. rewrite !del_if_set_thr. reflexivity. Qed.

Definition klists_incl (s s' : nst) : Prop := forall q, incl (klist q (n_k s')) (klist q (n_k s)).

Lemma rm_interest_incl fd ints s : klists_incl s (snd (rm_interest fd ints s)).
Proof.
  intros q. rewrite rm_interest_klist. destruct (negb (fd <? 0) && touches ints q); [apply nkremove_incl|apply incl_refl].
Qed.
Lemma rm_interest_removes fd ints s p e :
  0 <= fd -> p <> PEng -> has ints (dirbit p) = true ->
  In e (klist p (n_k (snd (rm_interest fd ints s)))) -> nk_fd e <> fd.
Proof.
  intros Hfd Hp Hh. rewrite rm_interest_klist, (touches_dir _ _ Hp), Hh.
  replace (fd <? 0) with false by (symmetry; apply Z.ltb_ge, Hfd). apply nkremove_no.
Qed.

Lemma same_engine_pl s s' : same_engine s s' -> forall p, get_pl p s' = get_pl p s.
Proof. intros (A & B & C & D & _) p. destruct p; assumption. Qed.

Lemma shrink_pres P s s' :
  same_engine s s' -> klists_incl s s' -> klist PEng (n_k s') = klist PEng (n_k s) -> Inv_of P s -> Inv_of P s'.
Proof.
  intros SE HI HEn (HE & HR & [C1 C2] & G1 & G2). pose proof (same_engine_pl _ _ SE) as Ep.
  destruct SE as (Epe & _ & _ & _ & _ & Et & _ & Es & Em & _).
  split; [|split; [|split; [split; congruence|split; [rewrite HEn; exact G1|rewrite Epe; exact G2]]]].
  - intros p e Hp He. unfold tst. rewrite Et. apply (HE p e Hp), (HI p), He.
  - intros p Hp. rewrite Ep. unfold tst. rewrite Et. apply (HR p Hp).
Qed.

Lemma rm_interest_pres P fd i s :
  Inv_of P s -> Inv_of P (snd (rm_interest fd i s)) /\ n_thr (snd (rm_interest fd i s)) = n_thr s /\
  forall q, get_pl q (snd (rm_interest fd i s)) = get_pl q s.
Proof.
  intros HI. pose proof (rm_interest_same_engine fd i s) as SE.
  split; [|split; [apply SE|apply same_engine_pl, SE]].
  apply (shrink_pres P s); [exact SE|apply rm_interest_incl| |exact HI].
  apply rm_interest_other_dir. left. reflexivity.
Qed.

(* a thread whose state changes keeps the invariant if no kernel entry is its own and the new state is as good
   as the old one for its undelivered events *)
Lemma set_thr_pres P t w s :
  Inv_of P s -> (forall p e, p <> PEng -> In e (klist p (n_k s)) -> nk_data e <> t) ->
  (forall p, P (tst s t) p -> P (Some w) p) -> Inv_of P (set_thr t w s).
Proof.
  intros (HE & HR & HC & HG) Hno Hw. split; [|split; [|split; [exact HC|exact HG]]].
  - intros p e Hp He. rewrite tst_set_other by (apply not_eq_sym, (Hno p e Hp He)). apply (HE p e Hp He).
  - intros p Hp. assert (Hpl : get_pl p (set_thr t w s) = get_pl p s) by (destruct p; reflexivity). rewrite Hpl.
    destruct (HR p Hp) as [H0 HRj]. split; [exact H0|]. intros j Hj. specialize (HRj j Hj).
    destruct (Z.eq_dec t (nth j (pl_ev (get_pl p s)) (-1))) as [E|Hne].
    + rewrite <- E in HRj |- *. rewrite tst_set_same. apply Hw, HRj.
    + rewrite tst_set_other by exact Hne. exact HRj.
Qed.

(* the sleeper t is unregistered (by the engine that fires it, or by itself in its failure tail) *)
Lemma unregister_pres t fd i dl w s :
  DInv s -> tst s t = Some (NWaiting fd i dl) -> winfo (Some w) = Some (fd, i) ->
  DInv (set_thr t w (snd (rm_interest fd i s))).
Proof.
  intros HD Ht Hw. destruct (rm_interest_pres _ fd i s HD) as (D1 & Et & _).
  apply set_thr_pres; [exact D1| |].
  - intros p e Hp He Ed. destruct HD as (HE & _).
    destruct (HE p e Hp (rm_interest_incl fd i s p e He)) as [H0 (i1 & dl1 & Hst & Hd)].
    rewrite Ed, Ht in Hst. injection Hst as E1 E2 _. subst i1.
    apply (rm_interest_removes fd i s p e); [rewrite E1; exact H0|exact Hp|exact Hd|exact He|symmetry; exact E1].
  - intros p (f1 & i1 & Hw1 & Hh1). unfold tst in Hw1. rewrite Et in Hw1. fold (tst s t) in Hw1. rewrite Ht in Hw1.
    injection Hw1 as <- <-. exists fd, i. split; [exact Hw|exact Hh1].
Qed.

Lemma fire_spec p t s :
  p <> PEng -> DInv s -> alive_dir (tst s t) p ->
  DInv (fire p t s) /\ thr_mono s (fire p t s) /\ (forall q, get_pl q (fire p t s) = get_pl q s).
Proof.
  intros Hp HD (fd & i & Hw & Hh). unfold fire. fold (tst s t).
  destruct (rm_interest_pres _ fd i s HD) as (D1 & Et1 & Ep1).
  destruct (tst s t) as [[fd0 i0 dl|fd0 i0|fd0 i0|]|] eqn:Et; cbn [winfo] in Hw; try discriminate;
    injection Hw as -> ->; rewrite Hh.
  (* READY already (a second direction of the same waiter), or the running thread itself in its failure tail: only the DELs *)
  2, 3: exact (conj D1 (conj (thr_mono_same _ _ Et1) Ep1)).
  (* asleep: unregistered, made READY *)
  split; [exact (unregister_pres t fd i dl (NNotified fd i) s HD Et eq_refl)|]. split; [|exact Ep1].
  intros u Hu. destruct (Z.eq_dec t u) as [<-|Ne].
  - unfold tst. cbn. rewrite nthr_get_set_same. exact I.
  - unfold tst. cbn. rewrite nthr_get_set_other, Et1 by exact Ne. exact Hu.
Qed.

Lemma get_set_pl_same p x s : get_pl p (set_pl p x s) = x.
Proof. destruct p; reflexivity. Qed.
Lemma get_set_pl_other p q x s : p <> q -> get_pl q (set_pl p x s) = get_pl q s.
Proof. destruct p, q; intros H; try reflexivity; contradiction. Qed.
Lemma set_pl_k p x s : n_k (set_pl p x s) = n_k s.
Proof. destruct p; reflexivity. Qed.
Lemma set_pl_thr p x s : n_thr (set_pl p x s) = n_thr s.
Proof. destruct p; reflexivity. Qed.
Lemma set_pl_clean p x s : clean s -> clean (set_pl p x s).
Proof. destruct p; exact (fun H => H). Qed.

Lemma notify_one_sum p s :
  p <> PEng -> DInv s ->
  exists a s', notify_one p s = (a, s') /\ DInv s' /\ thr_mono s s' /\ (a = 0 \/ a = 1) /\
               (a = 0 -> pl_rem (get_pl p s) = 0) /\
               pl_rem (get_pl p s') = pl_rem (get_pl p s) - a /\
               (forall q, q <> p -> get_pl q s' = get_pl q s).
Proof.
  intros Hp (HE & HR & HC & HG). unfold notify_one.
  destruct (HR p Hp) as [Hnn HRj].
  destruct (0 <? pl_rem (get_pl p s)) eqn:Epos.
  - apply Z.ltb_lt in Epos.
    set (ev := pl_ev (get_pl p s)) in *. set (rm := pl_rem (get_pl p s)) in *.
    set (s0 := set_pl p (mkpl ev (rm - 1)) s).
    set (d := nth (Z.to_nat (rm - 1)) ev (-1)).
    assert (E0 : ents_ok s0).
    { intros q e Hq He. unfold s0 in He. rewrite set_pl_k in He. unfold tst, s0. rewrite set_pl_thr. apply (HE q e Hq He). }
    assert (R0 : rem_ok alive_dir s0).
    { intros q Hq. unfold tst, s0. rewrite set_pl_thr. destruct (pid_eq_dec p q) as [<-|Hne].
      - rewrite get_set_pl_same. cbn [pl_rem pl_ev]. split; [lia|]. intros j Hj. apply HRj. fold rm. lia.
      - rewrite get_set_pl_other by exact Hne. apply (HR q Hq). }
    assert (G0 : eng_ok s0).
    { destruct HG as [G1 G2]. unfold s0. split; [rewrite set_pl_k; exact G1|].
      change (n_pe (set_pl p (mkpl ev (rm - 1)) s)) with (get_pl PEng (set_pl p (mkpl ev (rm - 1)) s)).
      rewrite get_set_pl_other by exact Hp. exact G2. }
    assert (A0 : alive_dir (tst s0 d) p).
    { unfold tst, s0. rewrite set_pl_thr. apply HRj. fold rm. lia. }
    destruct (fire_spec p d s0 Hp (conj E0 (conj R0 (conj (set_pl_clean p _ s HC) G0))) A0) as (D1 & M1 & P1).
    exists 1, (fire p d s0). split; [reflexivity|]. split; [exact D1|].
    split. { intros t Ht. apply M1. unfold tst, s0. rewrite set_pl_thr. exact Ht. }
    split; [right; reflexivity|]. split; [intros H; discriminate|]. split.
    + rewrite P1. unfold s0. rewrite get_set_pl_same. reflexivity.
    + intros q Hq. rewrite P1. unfold s0. apply get_set_pl_other. congruence.
  - apply Z.ltb_ge in Epos. exists 0, s. split; [reflexivity|]. split; [exact (conj HE (conj HR (conj HC HG)))|].
    split; [apply thr_mono_refl|]. split; [left; reflexivity|]. split; [intros _; lia|].
    split; [lia|reflexivity].
Qed.

Definition rems (s : nst) : Z := pl_rem (n_pr s) + pl_rem (n_pw s) + pl_rem (n_px s).
Definition rems_zero (s : nst) : Prop := forall p, p <> PEng -> pl_rem (get_pl p s) = 0.

(* the do/while loop ends when a round fires nothing, i.e. when every direction poller's remains is 0;
   each other round takes at least one event off [rems] *)
Lemma drain_spec : forall f s fired,
  DInv s -> (Z.to_nat (rems s) < f)%nat ->
  exists fired' s', drain f s fired = (fired', s') /\ DInv s' /\ thr_mono s s' /\ rems_zero s'.
Proof.
  induction f as [|f IH]; intros s fired HD Hf; [lia|].
  cbn [drain].
  destruct (notify_one_sum PRd s ltac:(discriminate) HD) as (a & s1 & E1 & D1 & M1 & A1 & Z1 & R1 & O1). rewrite E1.
  destruct (notify_one_sum PWr s1 ltac:(discriminate) D1) as (b & s2 & E2 & D2 & M2 & A2 & Z2 & R2 & O2). rewrite E2.
  destruct (notify_one_sum PEr s2 ltac:(discriminate) D2) as (c & s3 & E3 & D3 & M3 & A3 & Z3 & R3 & O3). rewrite E3.
  assert (M : thr_mono s s3) by (eapply thr_mono_trans; [exact M1|]; eapply thr_mono_trans; eassumption).
  assert (Hr3 : pl_rem (n_pr s3) = pl_rem (n_pr s) - a).
  { change (pl_rem (get_pl PRd s3) = pl_rem (get_pl PRd s) - a). rewrite O3, O2 by discriminate. exact R1. }
  assert (Hw3 : pl_rem (n_pw s3) = pl_rem (n_pw s) - b /\ pl_rem (n_pw s1) = pl_rem (n_pw s)).
  { change (pl_rem (get_pl PWr s3) = pl_rem (get_pl PWr s) - b /\ pl_rem (get_pl PWr s1) = pl_rem (get_pl PWr s)).
    rewrite O3, <- (O1 PWr) by discriminate. split; [exact R2|reflexivity]. }
  assert (He3 : pl_rem (n_px s3) = pl_rem (n_px s) - c /\ pl_rem (n_px s2) = pl_rem (n_px s)).
  { change (pl_rem (get_pl PEr s3) = pl_rem (get_pl PEr s) - c /\ pl_rem (get_pl PEr s2) = pl_rem (get_pl PEr s)).
    rewrite <- (O1 PEr), <- (O2 PEr) by discriminate. split; [exact R3|reflexivity]. }
  cbn [get_pl] in Z1, Z2, Z3.
  destruct (a + b + c =? 0) eqn:Et.
  - apply Z.eqb_eq in Et. exists fired, s3. split; [reflexivity|]. split; [exact D3|]. split; [exact M|].
    assert (a = 0 /\ b = 0 /\ c = 0) as (-> & -> & ->) by (clear - A1 A2 A3 Et; lia).
    intros p Hp. destruct p; [contradiction| | |]; cbn [get_pl]; clear - Z1 Z2 Z3 Hr3 Hw3 He3; lia.
  - apply Z.eqb_neq in Et.
    destruct (IH s3 (fired + (a + b + c)) D3) as (fired' & s' & E & D' & M' & Z').
    { destruct D3 as (_ & HR3 & _).
      pose proof (proj1 (HR3 PRd ltac:(discriminate))) as N1. pose proof (proj1 (HR3 PWr ltac:(discriminate))) as N2.
      pose proof (proj1 (HR3 PEr ltac:(discriminate))) as N3. cbn [get_pl] in N1, N2, N3.
      unfold rems in *. clear - Hf Et A1 A2 A3 Hr3 Hw3 He3 N1 N2 N3. lia. }
    exists fired', s'. split; [exact E|]. split; [exact D'|]. split; [exact (thr_mono_trans _ _ _ M M')|exact Z'].
Qed.

Definition fd_data (e : nkent) : Z * Z := (nk_fd e, nk_data e).
Lemma nk_scan_spec rep l : forall max evs l', nk_scan rep max l = (evs, l') ->
  map fd_data l' = map fd_data l /\
  (forall x, In x (map snd evs) -> In x (map nk_data l)) /\
  (NoDup (map nk_data l) -> NoDup (map snd evs)).
Proof.
  induction l as [|e r IH]; intros max evs l' H; cbn [nk_scan] in H.
  - injection H as <- <-. split; [reflexivity|]. split; [intros x []|intros; constructor].
  - destruct max as [|m].
    + injection H as <- <-. split; [reflexivity|]. split; [intros x []|intros; constructor].
    + destruct (rep e =? 0).
      * destruct (nk_scan rep (S m) r) as [evs0 l0] eqn:E. injection H as <- <-.
        destruct (IH _ _ _ E) as (A & B & C). cbn [map]. split; [f_equal; exact A|].
        split; [intros x Hx; right; apply B, Hx|]. intros Hn. apply NoDup_cons_iff in Hn as [_ Hn]. apply C, Hn.
      * destruct (nk_scan rep m r) as [evs0 l0] eqn:E. injection H as <- <-.
        destruct (IH _ _ _ E) as (A & B & C). cbn [map snd]. split.
        { f_equal; [|exact A]. destruct (has (nk_events e) EPOLLONESHOT || has (nk_events e) EPOLLET); reflexivity. }
        split. { intros x [Hx|Hx]; [left; exact Hx|right; apply B, Hx]. }
        intros Hn. apply NoDup_cons_iff in Hn as [Hn1 Hn2]. constructor; [intros Hin; apply Hn1, B, Hin|apply C, Hn2].
Qed.
Lemma map_data_of_fd_data l : map nk_data l = map snd (map fd_data l).
Proof. rewrite map_map. reflexivity. Qed.
Lemma in_fd_data l l' e' : map fd_data l' = map fd_data l -> In e' l' -> exists e, In e l /\ nk_fd e = nk_fd e' /\ nk_data e = nk_data e'.
Proof.
  intros Hm Hin. apply (in_map fd_data) in Hin. rewrite Hm in Hin. apply in_map_iff in Hin as (e & He & Hin).
  exists e. split; [exact Hin|]. unfold fd_data in He. injection He as E1 E2. split; assumption.
Qed.

(* the state between the drain and the end of wait_and_fire_events *)
Definition RInv (s : nst) : Prop :=
  ents_ok s /\ rem_ok waiting_dir s /\ clean s /\ NoDup (map nk_data (klist PEng (n_k s))).

(* epoll_wait on a poller with nothing undelivered: what it reaps lies in events[0..remains) afterwards *)
Lemma reap_spec p s :
  RInv s -> pl_rem (get_pl p s) = 0 ->
  exists ds rest,
    RInv (reap p s) /\ n_thr (reap p s) = n_thr s /\ (p = PEng -> NoDup ds) /\
    get_pl p (reap p s) = mkpl (ds ++ rest) (Z.of_nat (length ds)) /\
    (forall q, q <> p -> get_pl q (reap p s) = get_pl q s).
Proof.
  intros (HE & HR & HC & HN) Hz. unfold reap, nk_wait.
  set (rep := match p with PEng => eng_rep (n_k s) | _ => sub_rep (n_k s) end). clearbody rep.
  destruct (nk_scan rep 16 (klist p (n_k s))) as [evs l'] eqn:Esc.
  destruct (nk_scan_spec rep _ _ _ _ Esc) as (Hm & Hin & Hnd).
  set (ds := map (fun x : Z * Z * Z => snd x) evs) in *.
  set (k' := set_klist p l' (n_k s)).
  set (pl' := mkpl (ds ++ skipn (length ds) (pl_ev (get_pl p s))) (pl_rem (get_pl p s) + Z.of_nat (length ds))).
  set (s' := nadd_log (NWaitL p evs) (set_pl p pl' (upd_k k' s))).
  assert (Ethr : n_thr s' = n_thr s) by (unfold s'; cbn; rewrite set_pl_thr; reflexivity).
  assert (Ek : n_k s' = k') by (unfold s'; cbn; rewrite set_pl_k; reflexivity).
  assert (Epl : forall q, q <> p -> get_pl q s' = get_pl q s).
  { intros q Hq. unfold s'. transitivity (get_pl q (set_pl p pl' (upd_k k' s))); [destruct q; reflexivity|].
    rewrite get_set_pl_other by congruence. destruct q; reflexivity. }
  assert (Eplp : get_pl p s' = pl').
  { unfold s'. transitivity (get_pl p (set_pl p pl' (upd_k k' s))); [destruct p; reflexivity|]. apply get_set_pl_same. }
  exists ds, (skipn (length ds) (pl_ev (get_pl p s))).
  split; [|split; [exact Ethr|split; [intros ->; apply Hnd, HN|split; [rewrite Eplp; unfold pl'; rewrite Hz; reflexivity|exact Epl]]]].
  split; [|split; [|split]].
  - intros q e Hq He. rewrite Ek in He. unfold tst. rewrite Ethr. destruct (pid_eq_dec p q) as [<-|Hne].
    + unfold k' in He. rewrite klist_set_same in He. destruct (in_fd_data _ _ _ Hm He) as (e0 & Hin0 & Ef & Ed).
      rewrite <- Ef, <- Ed. apply (HE p e0 Hq Hin0).
    + unfold k' in He. rewrite klist_set_other in He by exact Hne. apply (HE q e Hq He).
  - intros q Hq. destruct (pid_eq_dec p q) as [<-|Hne].
    + rewrite Eplp. unfold pl'. cbn [pl_rem pl_ev]. rewrite Hz. split; [lia|]. intros j Hj.
      assert (Hj' : (j < length ds)%nat) by lia.
      rewrite app_nth1 by exact Hj'.
      assert (Hind : In (nth j ds (-1)) (map nk_data (klist p (n_k s)))) by (apply Hin, nth_In, Hj').
      apply in_map_iff in Hind as (e0 & Ed & Hin0).
      destruct (HE p e0 Hq Hin0) as [_ (i & dl & Hst & Hd)].
      exists (nk_fd e0), i, dl. split; [|exact Hd]. unfold tst. rewrite Ethr. rewrite <- Ed. exact Hst.
    + rewrite Epl by congruence. unfold tst. rewrite Ethr. apply (HR q Hq).
  - unfold s'. destruct HC as [C1 C2]. split; cbn; destruct p; assumption.
  - rewrite Ek. unfold k'. destruct (pid_eq_dec p PEng) as [->|Hp].
    + rewrite klist_set_same, map_data_of_fd_data, Hm, <- map_data_of_fd_data. exact HN.
    + rewrite klist_set_other by exact Hp. exact HN.
Qed.

(* the data under which init() adds the descriptor of a sub-poller to the engine poller *)
Definition tag (p : pid) : Z := match p with PEng => 0 | PRd => 1 | PWr => 2 | PEr => 3 end.
Definition sub_zero (d : Z) (s : nst) : Prop := forall p, p <> PEng -> d = tag p -> pl_rem (get_pl p s) = 0.

Lemma eng_dispatch_spec d s :
  RInv s -> sub_zero d s ->
  RInv (eng_dispatch d s) /\ n_thr (eng_dispatch d s) = n_thr s /\ n_pe (eng_dispatch d s) = n_pe s /\
  (forall d', d' <> d -> sub_zero d' s -> sub_zero d' (eng_dispatch d s)).
Proof.
  intros HI Hz.
  assert (Hsub : forall p, p <> PEng -> d = tag p ->
            RInv (reap p s) /\ n_thr (reap p s) = n_thr s /\ n_pe (reap p s) = n_pe s /\
            (forall d', d' <> d -> sub_zero d' s -> sub_zero d' (reap p s))).
  { intros p Hp Hd. destruct (reap_spec p s HI (Hz p Hp Hd)) as (ds & rest & A & B & _ & _ & C).
    split; [exact A|]. split; [exact B|]. split; [apply (C PEng), not_eq_sym, Hp|].
    intros d' Hd' Hz' q Hq Hdq. rewrite C; [apply (Hz' q Hq Hdq)|]. intros ->. apply Hd'. congruence. }
  unfold eng_dispatch.
  destruct (Z.eqb_spec d 1) as [E|_]; [apply (Hsub PRd); [discriminate|exact E]|].
  destruct (Z.eqb_spec d 2) as [E|_]; [apply (Hsub PWr); [discriminate|exact E]|].
  destruct (Z.eqb_spec d 3) as [E|_]; [apply (Hsub PEr); [discriminate|exact E]|].
  destruct (d =? 4); (split; [exact HI|]); (split; [reflexivity|]); (split; [reflexivity|]); intros d' _ H; exact H.
Qed.

Lemma eng_notify_all_spec : forall ds rest s,
  n_pe s = mkpl (ds ++ rest) (Z.of_nat (length ds)) -> RInv s -> NoDup ds -> (forall d, In d ds -> sub_zero d s) ->
  RInv (eng_notify_all (length ds) s) /\ n_thr (eng_notify_all (length ds) s) = n_thr s /\
  pl_rem (n_pe (eng_notify_all (length ds) s)) = 0.
Proof.
  induction ds as [|d ds IH] using rev_ind; intros rest s Hpe HI Hnd Hz.
  - cbn. split; [exact HI|]. split; [reflexivity|]. rewrite Hpe. reflexivity.
  - rewrite app_length in Hpe |- *. cbn [length] in Hpe |- *. rewrite Nat.add_1_r in Hpe |- *.
    cbn [eng_notify_all]. rewrite Hpe. cbn [pl_rem pl_ev].
    replace (0 <? Z.of_nat (S (length ds))) with true by (symmetry; apply Z.ltb_lt; lia).
    replace (Z.to_nat (Z.of_nat (S (length ds)) - 1)) with (length ds) by lia.
    replace (nth (length ds) ((ds ++ [d]) ++ rest) (-1)) with d.
    2:{ rewrite <- app_assoc. rewrite app_nth2 by lia. rewrite Nat.sub_diag. reflexivity. }
    set (s0 := set_pl PEng (mkpl ((ds ++ [d]) ++ rest) (Z.of_nat (S (length ds)) - 1)) s).
    assert (HI0 : RInv s0).
    { destruct HI as (A & B & C & D). split; [exact A|]. split; [|split; [exact C|exact D]].
      intros q Hq. destruct q; try contradiction; apply (B _ Hq). }
    assert (Hz0 : forall d', In d' (ds ++ [d]) -> sub_zero d' s0).
    { intros d' Hd q Hq. destruct q; try contradiction; apply (Hz d' Hd _ Hq). }
    destruct (eng_dispatch_spec d s0 HI0 (Hz0 d ltac:(apply in_or_app; right; left; reflexivity))) as (A & B & C & D).
    apply NoDup_remove in Hnd as [Hnd1 Hnd2]. rewrite app_nil_r in Hnd1, Hnd2.
    destruct (IH (d :: rest) (eng_dispatch d s0)) as (A' & B' & C').
    + rewrite C. unfold s0.
      change (n_pe (set_pl PEng (mkpl ((ds ++ [d]) ++ rest) (Z.of_nat (S (length ds)) - 1)) s))
        with (mkpl ((ds ++ [d]) ++ rest) (Z.of_nat (S (length ds)) - 1)).
      f_equal; [rewrite <- app_assoc; reflexivity|lia].
    + exact A.
    + exact Hnd1.
    + intros d' Hd'. apply D; [intros ->; contradiction|]. apply Hz0. apply in_or_app. left. exact Hd'.
    + split; [exact A'|]. split; [|exact C']. etransitivity; [exact B'|]. etransitivity; [exact B|]. reflexivity.
Qed.

(* after any wait_and_fire_events every undelivered entry points to a thread that is asleep *)
Lemma waf_spec s : DInv s -> Inv (snd (wait_and_fire s)) /\ thr_mono s (snd (wait_and_fire s)).
Proof.
  intros HD. unfold wait_and_fire.
  destruct (drain_spec (drain_fuel s) s 0 HD ltac:(unfold drain_fuel, rems; lia)) as (fired & s1 & E & D1 & M1 & Z1).
  rewrite E. destruct D1 as (E1 & R1 & C1 & (G1 & G2)).
  assert (RW : rem_ok waiting_dir s1).
  { intros q Hq. rewrite (Z1 q Hq). split; [lia|intros j Hj; cbn in Hj; lia]. }
  destruct (fired =? 0).
  - destruct (reap_spec PEng s1 (conj E1 (conj RW (conj C1 G1))) G2) as (ds & rest & I2 & T2 & N2 & P2 & O2).
    specialize (N2 eq_refl). change (get_pl PEng (reap PEng s1)) with (n_pe (reap PEng s1)) in P2.
    cbn [snd]. rewrite P2. cbn [pl_rem]. rewrite Nat2Z.id.
    destruct (eng_notify_all_spec ds rest (reap PEng s1) P2 I2 N2) as ((A & B & C & D) & T3 & Z3).
    { intros d _ q Hq _. rewrite O2 by exact Hq. apply (Z1 q Hq). }
    split; [exact (conj A (conj B (conj C (conj D Z3))))|].
    eapply thr_mono_trans; [exact M1|]. apply thr_mono_same. rewrite T3, T2. reflexivity.
  - cbn [snd]. split; [exact (conj E1 (conj RW (conj C1 (conj G1 G2))))|exact M1].
Qed.

Lemma set_finished_inv t s : Inv s -> not_waiting (tst s t) -> Inv (set_thr t NFinished s).
Proof.
  intros HI Hn. apply set_thr_pres; [exact HI| |].
  - intros p e Hp He Ed. destruct HI as (HE & _). destruct (HE p e Hp He) as [_ (i & dl & Hst & _)].
    rewrite Ed in Hst. rewrite Hst in Hn. exact Hn.
  - intros p (fd & i & dl & Hst & _). rewrite Hst in Hn. contradiction.
Qed.

Lemma run_notified_inv s : Inv s -> Inv (run_notified s).
Proof.
  unfold run_notified. change (Inv s -> Inv (fold_left run_one (n_runq s) s)). generalize (n_runq s). intros l; revert s.
  induction l as [|t l IH]; intros s HI; [exact HI|]. cbn [fold_left]. apply IH. unfold run_one. fold (tst s t).
  destruct (tst s t) as [[| | |]|] eqn:E; try exact HI.
  change (Inv (set_thr t NFinished s)). apply (set_finished_inv t s HI). rewrite E. exact I.
Qed.

Lemma wait_fail_inv t fd ints dl e s : Inv s -> tst s t = Some (NWaiting fd ints dl) -> Inv (wait_fail t fd ints e s).
Proof.
  intros HI Ht. unfold wait_fail. rewrite rm_interest_set_thr.
  pose proof (unregister_pres t fd ints dl (NTail fd ints) s (Inv_DInv s HI) Ht eq_refl) as D1.
  set (s1 := set_thr t (NTail fd ints) (snd (rm_interest fd ints s))) in *.
  (* its own wait_and_fire_events(0) delivers what was reaped for it while its frame is alive *)
  destruct (waf_spec s1 D1) as [I2 M2]. destruct (wait_and_fire s1) as [n s2]. cbn [snd] in *.
  apply run_notified_inv. change (Inv (set_thr t NFinished s2)).
  apply set_finished_inv; [exact I2|]. apply M2. unfold s1. rewrite tst_set_same. exact I.
Qed.

(* only the last state written for t before the tail matters *)
Lemma wait_fail_set_thr t fd ints e w s : wait_fail t fd ints e (set_thr t w s) = wait_fail t fd ints e s.
Proof. unfold wait_fail, set_thr, nupd_thr. cbn. rewrite nthr_set_set. reflexivity. Qed.

Lemma has_lor_oneshot i p : p <> PEng -> has (Z.lor i ONE_SHOT) (dirbit p) = has i (dirbit p).
Proof.
  intros Hp. unfold has. rewrite Z.land_lor_distr_l.
  destruct p; [contradiction|..]; exact (f_equal (fun x => negb (x =? 0)) (Z.lor_0_r _)).
Qed.

Lemma add_interest_neg_fd g fd ints t s : 0 <= fst (add_interest g fd ints t s) -> 0 <= fd.
Proof. unfold add_interest. destruct (fd <? 0) eqn:E; [cbn; lia|]. intros _. apply Z.ltb_ge in E. exact E. Qed.

Lemma swait_inv g t fd ints tmo s : Inv s -> tst s t = None -> Inv (wait_for_fd_begin g t fd ints tmo s).
Proof.
  intros HI Ht. unfold wait_for_fd_begin.
  destruct (ints =? 0).
  { change (Inv (set_thr t NFinished s)). apply set_finished_inv; [exact HI|]. rewrite Ht. exact I. }
  destruct (add_interest_spec g fd (Z.lor ints ONE_SHOT) t s) as [SE SP].
  pose proof (add_interest_neg_fd g fd (Z.lor ints ONE_SHOT) t s) as NEG.
  destruct (add_interest g fd (Z.lor ints ONE_SHOT) t s) as [r s1]. cbn [fst snd] in *.
  assert (ENG : klist PEng (n_k s1) = klist PEng (n_k s)) by (destruct (SP PEng) as [H|[H _]]; [exact H|contradiction]).
  assert (Et1 : n_thr s1 = n_thr s) by apply SE.
  destruct (r <? 0) eqn:Lr.
  - (* nothing of this call is left in the kernel *)
    change (Inv (set_thr t NFinished s1)).
    apply set_finished_inv; [apply (shrink_pres _ s s1 SE); [|exact ENG|exact HI]|unfold tst; rewrite Et1; fold (tst s t); rewrite Ht; exact I].
    intros q. destruct (SP q) as [->|(_ & _ & ->)]; [apply incl_refl|apply nkremove_incl].
  - apply Z.ltb_ge in Lr. specialize (NEG Lr).
    assert (HW : forall dl, Inv (set_thr t (NWaiting fd ints dl) s1)).
    { intros dl. destruct HI as (HE & HR & HC & (G1 & G2)).
      assert (Ep1 : forall q, get_pl q s1 = get_pl q s) by apply (same_engine_pl _ _ SE).
      split; [|split; [|split; [change (clean s1); destruct SE as (_ & _ & _ & _ & _ & _ & _ & A & B & _), HC; split; congruence|]]].
      - intros q e Hq He. change (klist q (n_k (set_thr t (NWaiting fd ints dl) s1))) with (klist q (n_k s1)) in He.
        assert (Ho : In e (klist q (n_k s)) \/ nk_data e = t /\ nk_fd e = fd /\ has (Z.lor ints ONE_SHOT) (dirbit q) = true).
        { destruct (SP q) as [E|(_ & Eh & ev & E)]; rewrite E in He; [left; exact He|].
          apply in_app_or in He as [He|[<-|[]]]; [left; exact He|right; cbn; auto]. }
        destruct Ho as [Ho|(Ed & Ef & Eh)].
        + destruct (HE q e Hq Ho) as [H0 (i & dl' & Hst & Hd)]. split; [exact H0|]. exists i, dl'. split; [|exact Hd].
          rewrite tst_set_other by (intros E; rewrite <- E, Ht in Hst; discriminate). unfold tst. rewrite Et1. exact Hst.
        + split; [lia|]. exists ints, dl. rewrite Ed, Ef, tst_set_same. rewrite has_lor_oneshot in Eh by exact Hq. auto.
      - intros q Hq.
        assert (Hp : get_pl q (set_thr t (NWaiting fd ints dl) s1) = get_pl q s) by (rewrite <- Ep1; destruct q; reflexivity).
        rewrite Hp. destruct (HR q Hq) as [H0 HRj]. split; [exact H0|]. intros j Hj.
        destruct (HRj j Hj) as (f1 & i1 & d1 & Hst & Hd). exists f1, i1, d1. split; [|exact Hd].
        rewrite tst_set_other by (intros E; rewrite <- E, Ht in Hst; discriminate). unfold tst. rewrite Et1. exact Hst.
      - change (eng_ok s1). split; [rewrite ENG; exact G1|].
        change (pl_rem (get_pl PEng s1) = 0). rewrite Ep1. exact G2. }
    destruct (tmo =? 0); [|apply HW].
    rewrite <- (wait_fail_set_thr t fd ints ETIMEDOUT (NWaiting fd ints 0) s1).
    apply (wait_fail_inv t fd ints 0); [apply HW|apply tst_set_same].
Qed.

Lemma NoDup_map_filter {A B} (f : A -> B) (g : A -> bool) l : NoDup (map f l) -> NoDup (map f (filter g l)).
Proof.
  induction l as [|x l IH]; cbn [map filter]; intros H; [constructor|].
  apply NoDup_cons_iff in H as [H1 H2]. destruct (g x); cbn [map]; [|apply IH, H2].
  constructor; [|apply IH, H2]. intros Hin. apply H1. apply in_map_iff in Hin as (y & Ey & Hy).
  apply in_map_iff. exists y. split; [exact Ey|]. apply filter_In in Hy. apply Hy.
Qed.

(* the kernel alone changes (readiness, close): entries can only disappear *)
Lemma same_lists_inv s k' :
  (forall q, incl (klist q k') (klist q (n_k s))) -> NoDup (map nk_data (klist PEng k')) -> Inv s -> Inv (upd_k k' s).
Proof.
  intros Hi Hn (HE & HR & HC & (G1 & G2)). split; [|split; [|split; [exact HC|split; [exact Hn|exact G2]]]].
  - intros q e Hq He. apply (HE q e Hq). apply (Hi q), He.
  - intros q Hq. destruct q; try contradiction; apply (HR _ Hq).
Qed.

Lemma nexpire_inv : forall f lim s, Inv s -> Inv (nexpire_until f lim s).
Proof.
  induction f as [|f IH]; intros lim s HI; [exact HI|]. cbn [nexpire_until].
  destruct (nnext_expiry lim (n_thr s) None) as [[[[t fd0] i0] d]|]; [|exact HI].
  destruct (nthr_get t (n_thr s)) as [[fd i dl| | |]|] eqn:Et; try exact HI.
  apply IH. apply (wait_fail_inv t fd i dl); [exact HI|exact Et].
Qed.

Definition ng_step_ok (x : nstep) (s : nst) : Prop :=
  match x with
  | NSWait t _ _ _ => nthr_get t (n_thr s) = None      (* a NEW photon thread *)
  | NSIntr _ e => e <> EOK                               (* nobody but the engine interrupts with EOK *)
  | _ => True
  end.

Lemma step_inv g x s : Inv s -> ng_step_ok x s -> Inv (ndo_step g x s).
Proof.
  intros HI Hok. destruct x as [t fd i tmo|fd m| |t e|d| |fd]; cbn [ndo_step ng_step_ok] in *.
  2, 6: apply same_lists_inv; [intros q; destruct q; apply incl_refl|apply HI|exact HI].
  - apply swait_inv; [exact HI|exact Hok].
  - destruct (waf_spec s (Inv_DInv s HI)) as [I1 _]. destruct (wait_and_fire s) as [n s1]. apply run_notified_inv, I1.
  - destruct (nthr_get t (n_thr s)) as [[fd i dl| | |]|] eqn:Et; try exact HI.
    destruct (e =? EOK) eqn:Ee; [apply Z.eqb_eq in Ee; contradiction|].
    apply (wait_fail_inv t fd i dl e s HI Et).
  - apply (nexpire_inv _ _ s HI).
  - apply same_lists_inv; [intros q; destruct q; apply nkremove_incl| |exact HI].
    apply NoDup_map_filter, HI.
Qed.

Fixpoint ng_guarded (g : bool) (steps : list nstep) (s : nst) : Prop :=
  match steps with
  | [] => True
  | x :: r => ng_step_ok x s /\ ng_guarded g r (ndo_step g x (nadd_log NMark s))
  end.

Lemma run_inv g : forall steps s, Inv s -> ng_guarded g steps s ->
  Inv (fold_left (fun s x => ndo_step g x (nadd_log NMark s)) steps s).
Proof.
  induction steps as [|x r IH]; intros s HI Hg; [exact HI|]. cbn [fold_left]. destruct Hg as [Hok Hg].
  apply IH; [|exact Hg]. apply step_inv; [exact HI|exact Hok].
Qed.

Lemma init_inv : Inv ng_init.
Proof.
  split; [|split; [|split; [split; reflexivity|split]]].
  - intros p e Hp He. destruct p; try contradiction; vm_compute in He; contradiction.
  - intros p Hp. destruct p; try contradiction; (split; [vm_compute; discriminate|intros j Hj; vm_compute in Hj; lia]).
  - vm_compute. repeat constructor; cbn; intuition discriminate.
  - reflexivity.
Qed.

Theorem ng_inv g steps : ng_guarded g steps ng_init -> Inv (run_ng_g g steps).
Proof. intros H. apply run_inv; [apply init_inv|exact H]. Qed.

(* the kernel-side form: whatever a direction poller's kernel list holds, and whatever it has reaped and not yet
   delivered, belongs to a thread asleep in wait_for_fd on that descriptor with that direction among its interests *)
Definition ng_entries_owned (s : nst) : Prop :=
  (forall p e, p <> PEng -> In e (klist p (n_k s)) ->
     exists i dl, nthr_get (nk_data e) (n_thr s) = Some (NWaiting (nk_fd e) i dl) /\ has i (dirbit p) = true) /\
  (forall p j, p <> PEng -> (j < Z.to_nat (pl_rem (get_pl p s)))%nat ->
     exists fd i dl, nthr_get (nth j (pl_ev (get_pl p s)) (-1)) (n_thr s) = Some (NWaiting fd i dl) /\ has i (dirbit p) = true).
Lemma Inv_entries_owned s : Inv s -> ng_entries_owned s.
Proof.
  intros (HE & HR & _). split.
  - intros p e Hp He. apply (HE p e Hp He).
  - intros p j Hp Hj. apply (HR p Hp), Hj.
Qed.

(* the guard is satisfiable by a script that goes through the reap -> timeout -> notify window *)
Example ng_guarded_example :
  ng_guarded false [NSWait 1 5 EV_READ 7; NSWait 2 6 EV_WRITE (-1); NSReady 5 EPOLLIN; NSReady 6 EPOLLOUT; NSPoll;
                    NSSleep 10; NSPoll; NSWait 3 5 EV_READ (-1); NSIntr 3 4] ng_init.
Proof. cbn [ng_guarded ng_step_ok]. repeat split; try (vm_compute; reflexivity); discriminate. Qed.

(* without the guard the hazard is real in the model: a third party that interrupts a waiter with EOK makes it return
   0 WITHOUT rm_interest; the kernel later hands its dead Event to the datacb *)
Lemma ng_stale_without_guard :
  n_stale (run_ng_g false [NSWait 1 5 EV_READ (-1); NSIntr 1 EOK; NSReady 5 EPOLLIN; NSPoll; NSPoll]) = true.
Proof. vm_compute. reflexivity. Qed.
