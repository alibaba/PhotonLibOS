(* C10 part 1 — theorems about the stream calls of KernelSocketStream, for every kernel oracle. *)
From Coq Require Import ZArith List Lia.
From PV Require Import Base.U64 C10.C10_Model C10.C10_Proofs C10.C10_ProofsLoop.
Import ListNotations.
Local Open Scope Z_scope.

Definition wf_lens (lens : list Z) : Prop := Forall (fun l => 0 <= l < W64) lens.

(* the byte positions the caller asked to move, in stream order *)
Definition requested (o : op) (lens : list Z) : list Z :=
  match o with
  | OpRead | OpWrite | OpRecv | OpSend => flat [mkiov 0 (nth 0 lens 0)]
  | OpSendfile => flat [mkiov (nth 0 lens 0) (nth 1 lens 0)]
  | OpReadv | OpWritev | OpRecvv | OpSendv => flat (mk_iovs 0 lens)
  end.
Definition is_loop (o : op) : bool :=
  match o with OpRead | OpWrite | OpReadv | OpWritev | OpSendfile => true | _ => false end.

Lemma wf_lens_nth lens i : wf_lens lens -> 0 <= nth i lens 0 < W64.
Proof.
  intros H. destruct (lt_dec i (length lens)) as [Hi|Hi].
  - eapply Forall_forall in H; [exact H|]. apply nth_In. exact Hi.
  - rewrite nth_overflow by lia. split; [lia|reflexivity].
Qed.

Lemma mk_iovs_wf : forall lens i, wf_lens lens -> wf_view (mk_iovs i lens).
Proof.
  induction lens as [|l r IH]; intros i H; [constructor|].
  inversion H; subst. cbn [mk_iovs]. constructor; [cbn; lia|]. apply IH. assumption.
Qed.

(* every stream call is the iovec loop, or one doio_once, on a view of the requested addresses; sendfile_n alone
   runs without the stream timeout *)
Lemma run_op_shape o tmo flags lens sys wt :
  wf_lens lens -> wf_script sys ->
  exists sk fl wk tmo' v,
    wf_view v /\ flat v = requested o lens /\ (o <> OpSendfile -> tmo' = tmo) /\
    if is_loop o
    then head_ok v /\ run_op o tmo flags lens sys wt = loop_v (S (length sys)) sk fl wk tmo' v 0 (init_kst sys wt)
    else run_op o tmo flags lens sys wt = doio_once (S (length sys)) sk fl wk tmo' v (init_kst sys wt).
Proof.
  intros Hw Hs. pose proof (wf_lens_nth lens 0 Hw) as H0. pose proof (wf_lens_nth lens 1 Hw) as H1.
  pose proof (mk_iovs_wf lens 0 Hw) as Hv. destruct (skip_empty_spec 1 _ Hv) as (Hv1 & Hf1).
  pose proof (skip_empty_head 1 _ (Z.le_refl 1) Hv) as Hh1.
  assert (Hbuf : forall sk fl wk tmo' b c, 0 <= c < W64 ->
            wf_view [mkiov b c] /\ head_ok [mkiov b c] /\
            loop_buf (S (length sys)) sk fl wk tmo' b c 0 (init_kst sys wt) =
            loop_v (S (length sys)) sk fl wk tmo' [mkiov b c] 0 (init_kst sys wt)).
  { intros sk fl wk tmo' b c Hc. split; [constructor; [cbn; lia|constructor]|]. split; [|apply loop_buf_as_v; assumption].
    destruct (Z.eq_dec c 0) as [->|Hc0]; [left; reflexivity|right]. exists (mkiov b c), []. split; [reflexivity|cbn; lia]. }
  unfold run_op. destruct o; cbn [is_loop requested].
  - destruct (Hbuf 0 0 1 tmo 0 _ H0) as (A & B & C). exists 0, 0, 1, tmo, [mkiov 0 (nth 0 lens 0)].
    exact (conj A (conj eq_refl (conj (fun _ => eq_refl) (conj B C)))).
  - destruct (Hbuf 1 MSG_NOSIGNAL 2 tmo 0 _ H0) as (A & B & C). exists 1, MSG_NOSIGNAL, 2, tmo, [mkiov 0 (nth 0 lens 0)].
    exact (conj A (conj eq_refl (conj (fun _ => eq_refl) (conj B C)))).
  - exists 2, 0, 1, tmo, (skip_empty 1 (mk_iovs 0 lens)).
    exact (conj Hv1 (conj Hf1 (conj (fun _ => eq_refl) (conj Hh1 eq_refl)))).
  - exists 3, MSG_NOSIGNAL, 2, tmo, (skip_empty 1 (mk_iovs 0 lens)).
    exact (conj Hv1 (conj Hf1 (conj (fun _ => eq_refl) (conj Hh1 eq_refl)))).
  - exists 0, flags, 1, tmo, [mkiov 0 (nth 0 lens 0)].
    exact (conj (proj1 (Hbuf 0 0 0 0 0 _ H0)) (conj eq_refl (conj (fun _ => eq_refl) eq_refl))).
  - exists 1, (Z.lor flags MSG_NOSIGNAL), 2, tmo, [mkiov 0 (nth 0 lens 0)].
    exact (conj (proj1 (Hbuf 0 0 0 0 0 _ H0)) (conj eq_refl (conj (fun _ => eq_refl) eq_refl))).
  - exists 2, flags, 1, tmo, (mk_iovs 0 lens). exact (conj Hv (conj eq_refl (conj (fun _ => eq_refl) eq_refl))).
  - exists 3, (Z.lor flags MSG_NOSIGNAL), 2, tmo, (mk_iovs 0 lens).
    exact (conj Hv (conj eq_refl (conj (fun _ => eq_refl) eq_refl))).
  - destruct (Hbuf 4 0 2 MAX64 (nth 0 lens 0) _ H1) as (A & B & C). exists 4, 0, 2, MAX64, [mkiov (nth 0 lens 0) (nth 1 lens 0)].
    exact (conj A (conj eq_refl (conj (fun H => False_ind _ (H eq_refl)) (conj B C)))).
Qed.

(* doio_stream_exact: read/write/readv/writev/sendfile_n: the bytes moved are a prefix of the requested stream, in order, each
   once; the return value is the number moved, which is the full count unless the kernel answered EOF to a
   non-empty request; or it is -1, and then (and only then) the last thing that happened is a kernel error
   other than EINTR/EAGAIN (errno = it), a wait that timed out (errno = ETIMEDOUT) or an interrupted wait. *)
Definition stream_exact (o : op) (lens : list Z) (ret : Z) (k : kst) : Prop :=
  exists m : nat,
    (m <= length (requested o lens))%nat /\ tch k = firstn m (requested o lens) /\
    ((ret = Z.of_nat m /\ (m = length (requested o lens) \/ eof k)) \/ (ret = -1 /\ fail_reason k)).

(* recv/send: at most the requested count, at least one byte unless EOF (or nothing was asked) *)
Definition once_exact (o : op) (lens : list Z) (ret : Z) (k : kst) : Prop :=
  (0 <= ret <= Z.of_nat (length (requested o lens)) /\ tch k = firstn (Z.to_nat ret) (requested o lens) /\
   (ret = 0 -> requested o lens = [] \/ eof k))
  \/ (ret = -1 /\ tch k = [] /\ fail_reason k).

(* the hypotheses of the theorems are met by a readv over an empty middle element with an EAGAIN between two transfers *)
Lemma examples_hold :
  wf_lens [2; 0; 3] /\ wf_script [Ret 2; Fail 11; Ret 9] /\
  exists k, run_op OpReadv MAX64 0 [2; 0; 3] [Ret 2; Fail 11; Ret 9] [WReady 5] = Done (5, k).
Proof.
  split; [repeat constructor; cbn; lia|]. split; [repeat constructor; cbn; lia|].
  eexists. vm_compute. reflexivity.
Qed.
