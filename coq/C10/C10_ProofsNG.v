(* C10 part 2b — proofs about the epoll-ng bookkeeping model (C10_EngineNG.v), first part:
   what one waiter's add_interest / rm_interest can touch in the four kernel interest lists, and the
   refutation of same-descriptor non-interference for the code as it is (finding F41 of known_findings.json;
   `f40_witness` is its witness). *)
From Coq Require Import ZArith List Lia Bool.
From PV Require Import C10.C10_Lists C10.C10_Engine C10.C10_EngineNG.
Import ListNotations.
Local Open Scope Z_scope.

Definition pid_eq_dec (p q : pid) : {p = q} + {p <> q}.
Proof. decide equality. Defined.

Lemma klist_set_same p l k : klist p (set_klist p l k) = l.
Proof. destruct p; reflexivity. Qed.
Lemma klist_set_other p q l k : p <> q -> klist q (set_klist p l k) = klist q k.
Proof. destruct p, q; intros H; try reflexivity; contradiction. Qed.
Lemma ready_set_klist p l k : nk_ready (set_klist p l k) = nk_ready k.
Proof. destruct p; reflexivity. Qed.

Lemma nkfind_app_other l x fd : nk_fd x <> fd -> nkfind fd (l ++ [x]) = nkfind fd l.
Proof. exact (find_app_other nk_fd l x fd). Qed.
Lemma nkfind_remove_other x l fd : x <> fd -> nkfind fd (nkremove x l) = nkfind fd l.
Proof.
  intros Hne. unfold nkremove. induction l as [|e r IH]; [reflexivity|]. cbn [filter nkfind].
  destruct (nk_fd e =? x) eqn:E; cbn [negb].
  - apply Z.eqb_eq in E. destruct (nk_fd e =? fd) eqn:E2; [apply Z.eqb_eq in E2; lia|exact IH].
  - cbn [nkfind]. rewrite IH. reflexivity.
Qed.
Lemma nkfind_replace_other n l fd : nk_fd n <> fd -> nkfind fd (nkreplace n l) = nkfind fd l.
Proof. exact (find_replace_other nk_fd n l fd). Qed.

Lemma nkfind_none_remove fd l : nkfind fd l = None -> nkremove fd l = l.
Proof.
  unfold nkremove. induction l as [|e r IH]; [reflexivity|]. cbn [nkfind filter].
  destruct (nk_fd e =? fd); [discriminate|]. intros H. cbn [negb]. rewrite IH by exact H. reflexivity.
Qed.
Lemma nkremove_incl fd l : incl (nkremove fd l) l.
Proof. intros x Hx. apply filter_In in Hx. apply Hx. Qed.
Lemma nkremove_no fd l e : In e (nkremove fd l) -> nk_fd e <> fd.
Proof.
  intros Hx. apply filter_In in Hx. destruct Hx as [_ Hx].
  destruct (nk_fd e =? fd) eqn:E; [discriminate|]. apply Z.eqb_neq in E. exact E.
Qed.

Lemma nk_ctl_other_poller p op fd ev d k q : p <> q -> klist q (snd (nk_ctl p op fd ev d k)) = klist q k.
Proof.
  intros Hne. unfold nk_ctl. destruct (nkfind fd (klist p k)).
  - destruct (op =? CTL_ADD); [reflexivity|]. destruct (op =? CTL_MOD); cbn [snd]; apply klist_set_other; exact Hne.
  - destruct (op =? CTL_ADD); cbn [snd]; [apply klist_set_other; exact Hne|reflexivity].
Qed.
Lemma nk_ctl_other_fd p op fd ev d k q fd' :
  fd <> fd' -> nkfind fd' (klist q (snd (nk_ctl p op fd ev d k))) = nkfind fd' (klist q k).
Proof.
  intros Hne. destruct (pid_eq_dec p q) as [->|Hpq]; [|rewrite nk_ctl_other_poller by exact Hpq; reflexivity].
  unfold nk_ctl. destruct (nkfind fd (klist q k)).
  - destruct (op =? CTL_ADD); [reflexivity|]. destruct (op =? CTL_MOD); cbn [snd]; rewrite klist_set_same.
    + apply nkfind_replace_other. exact Hne.
    + apply nkfind_remove_other. exact Hne.
  - destruct (op =? CTL_ADD); cbn [snd]; [|reflexivity]. rewrite klist_set_same. apply nkfind_app_other. exact Hne.
Qed.
Lemma nk_ctl_ready p op fd ev d k : nk_ready (snd (nk_ctl p op fd ev d k)) = nk_ready k.
Proof.
  unfold nk_ctl. destruct (nkfind fd (klist p k)).
  - destruct (op =? CTL_ADD); [reflexivity|]. destruct (op =? CTL_MOD); cbn [snd]; apply ready_set_klist.
  - destruct (op =? CTL_ADD); cbn [snd]; [apply ready_set_klist|reflexivity].
Qed.

(* what Poller::ctl leaves alone: everything but the kernel, errno and the log *)
Definition same_engine (s s' : nst) : Prop :=
  n_pe s' = n_pe s /\ n_pr s' = n_pr s /\ n_pw s' = n_pw s /\ n_px s' = n_px s /\ n_now s' = n_now s /\
  n_thr s' = n_thr s /\ n_runq s' = n_runq s /\ n_stale s' = n_stale s /\ n_misfire s' = n_misfire s /\
  nk_ready (n_k s') = nk_ready (n_k s).
Lemma same_engine_refl s : same_engine s s.
Proof. repeat split. Qed.
Lemma same_engine_trans a b c : same_engine a b -> same_engine b c -> same_engine a c.
Proof. unfold same_engine. intuition congruence. Qed.

Lemma pctl_same_engine p fd op ev d s : same_engine s (snd (pctl p fd op ev d s)).
Proof.
  unfold pctl. pose proof (nk_ctl_ready p op fd ev d (n_k s)) as Hr.
  destruct (nk_ctl p op fd ev d (n_k s)) as [res k']. cbn [snd] in Hr.
  destruct (res =? 0); cbn [snd]; repeat split; exact Hr.
Qed.
Lemma pctl_other_poller p fd op ev d s q : p <> q -> klist q (n_k (snd (pctl p fd op ev d s))) = klist q (n_k s).
Proof.
  intros Hne. unfold pctl. pose proof (nk_ctl_other_poller p op fd ev d (n_k s) q Hne) as H.
  destruct (nk_ctl p op fd ev d (n_k s)) as [res k']. cbn [snd] in H. destruct (res =? 0); exact H.
Qed.
Lemma pctl_other_fd p fd op ev d s q fd' :
  fd <> fd' -> nkfind fd' (klist q (n_k (snd (pctl p fd op ev d s)))) = nkfind fd' (klist q (n_k s)).
Proof.
  intros Hne. unfold pctl. pose proof (nk_ctl_other_fd p op fd ev d (n_k s) q fd' Hne) as H.
  destruct (nk_ctl p op fd ev d (n_k s)) as [res k']. cbn [snd] in H. destruct (res =? 0); exact H.
Qed.
(* DEL, whatever it answers, leaves the poller's list without an entry of fd *)
Lemma pctl_del_list p fd s :
  klist p (n_k (snd (pctl p fd CTL_DEL 0 0 s))) = nkremove fd (klist p (n_k s)).
Proof.
  unfold pctl, nk_ctl. destruct (nkfind fd (klist p (n_k s))) eqn:F.
  - change (CTL_DEL =? CTL_ADD) with false. change (CTL_DEL =? CTL_MOD) with false. cbn. rewrite klist_set_same. reflexivity.
  - change (CTL_DEL =? CTL_ADD) with false. cbn. symmetry. apply nkfind_none_remove, F.
Qed.

(* "q is the poller of a direction that is not in ints" *)
Definition dir_untouched (ints : Z) (q : pid) : Prop := q = PEng \/ has ints (dirbit q) = false.
Definition touches (ints : Z) (q : pid) : bool := match q with PEng => false | _ => has ints (dirbit q) end.

Lemma untouched_touches ints q : dir_untouched ints q -> touches ints q = false.
Proof. intros [->|H]; [reflexivity|]. destruct q; [reflexivity|exact H..]. Qed.
Lemma touches_dir ints q : q <> PEng -> touches ints q = has ints (dirbit q).
Proof. destruct q; [contradiction|reflexivity..]. Qed.

(* rm_interest is up to three DELs, one per direction in ints *)
Definition del_if (b : bool) (p : pid) (fd : Z) (s : nst) : nst := if b then snd (pctl p fd CTL_DEL 0 0 s) else s.

Lemma rm_interest_dels fd ints s :
  snd (rm_interest fd ints s) =
  if fd <? 0 then nupd_errno EINVAL s
  else del_if (has ints EV_ERROR) PEr fd (del_if (has ints EV_WRITE) PWr fd (del_if (has ints EV_READ) PRd fd s)).
Proof.
  unfold rm_interest, del_if. destruct (fd <? 0); [reflexivity|].
  destruct (has ints EV_READ); [destruct (pctl PRd fd CTL_DEL 0 0 s) as [r1 s1]|]; cbn [snd];
    (destruct (has ints EV_WRITE); [destruct (pctl PWr fd CTL_DEL 0 0 _) as [r2 s2]|]); cbn [snd];
    (destruct (has ints EV_ERROR); [destruct (pctl PEr fd CTL_DEL 0 0 _) as [r3 s3]|]); reflexivity.
Qed.

Lemma del_if_same_engine b p fd s : same_engine s (del_if b p fd s).
Proof. destruct b; [apply pctl_same_engine|apply same_engine_refl]. Qed.
Lemma del_if_klist b p fd s q :
  klist q (n_k (del_if b p fd s)) =
  if b then if pid_eq_dec p q then nkremove fd (klist q (n_k s)) else klist q (n_k s) else klist q (n_k s).
Proof.
  destruct b; [|reflexivity]. cbn [del_if].
  destruct (pid_eq_dec p q) as [<-|Hne]; [apply pctl_del_list|apply pctl_other_poller, Hne].
Qed.

Lemma rm_interest_klist fd ints s q :
  klist q (n_k (snd (rm_interest fd ints s))) =
  if negb (fd <? 0) && touches ints q then nkremove fd (klist q (n_k s)) else klist q (n_k s).
Proof.
  rewrite rm_interest_dels. destruct (fd <? 0); [reflexivity|]. rewrite !del_if_klist.
  destruct q; cbn [touches dirbit]; destruct (has ints EV_READ), (has ints EV_WRITE), (has ints EV_ERROR); reflexivity.
Qed.

Lemma rm_interest_same_engine fd ints s : same_engine s (snd (rm_interest fd ints s)).
Proof.
  rewrite rm_interest_dels. destruct (fd <? 0); [repeat split|].
  eapply same_engine_trans; [eapply same_engine_trans|]; apply del_if_same_engine.
Qed.

Lemma rm_interest_other_dir fd ints s q :
  dir_untouched ints q -> klist q (n_k (snd (rm_interest fd ints s))) = klist q (n_k s).
Proof. intros Hq. rewrite rm_interest_klist, (untouched_touches _ _ Hq), andb_false_r. reflexivity. Qed.

Lemma rm_interest_other_fd fd ints s q fd' :
  fd <> fd' -> nkfind fd' (klist q (n_k (snd (rm_interest fd ints s)))) = nkfind fd' (klist q (n_k s)).
Proof.
  intros Hne. rewrite rm_interest_klist.
  destruct (negb (fd <? 0) && touches ints q); [apply nkfind_remove_other, Hne|reflexivity].
Qed.

Lemma pctl_add_spec p fd ev d s :
  (fst (pctl p fd CTL_ADD ev d s) < 0 /\ forall q, klist q (n_k (snd (pctl p fd CTL_ADD ev d s))) = klist q (n_k s)) \/
  (fst (pctl p fd CTL_ADD ev d s) = 0 /\ klist p (n_k (snd (pctl p fd CTL_ADD ev d s))) = klist p (n_k s) ++ [mknk fd ev true d]).
Proof.
  unfold pctl, nk_ctl. destruct (nkfind fd (klist p (n_k s))) eqn:F.
  - left. change (CTL_ADD =? CTL_ADD) with true. cbn. split; [reflexivity|intros; reflexivity].
  - right. change (CTL_ADD =? CTL_ADD) with true. cbn. split; [reflexivity|apply klist_set_same].
Qed.
Lemma nkremove_app_new fd l ev a d : nkremove fd (l ++ [mknk fd ev a d]) = nkremove fd l.
Proof. unfold nkremove. rewrite filter_app. cbn. rewrite Z.eqb_refl. apply app_nil_r. Qed.

(* add_interest is one pass over the direction pollers: ADD where the direction is asked for, stop at the first
   refusal, and on the way back from a refusal DEL from every poller passed (with g = false also from one where this
   call added nothing).  The last poller is never rolled back: nothing after it can fail. *)
Fixpoint add_dirs (g : bool) (fd ints data : Z) (ps : list (pid * Z)) (r0 : Z) (s : nst) : Z * nst :=
  match ps with
  | [] => (r0, s)
  | (p, ev) :: ps' =>
      let '(r1, s1) := if has ints (dirbit p) then pctl p fd CTL_ADD ev data s else (r0, s) in
      if r1 <? 0 then (r1, s1)
      else
        let '(r2, s2) := add_dirs g fd ints data ps' r1 s1 in
        (r2, if r2 <? 0 then if g && negb (has ints (dirbit p)) then s2 else snd (pctl p fd CTL_DEL 0 0 s2) else s2)
  end.

Lemma add_interest_dirs g fd ints data s :
  add_interest g fd ints data s =
  if fd <? 0 then (-1, nupd_errno EINVAL s)
  else
    let md := if has ints ONE_SHOT then EPOLLONESHOT else 0 in
    add_dirs g fd ints data [(PRd, Z.lor md (Z.lor EPOLLIN EPOLLRDHUP)); (PWr, Z.lor md EPOLLOUT); (PEr, Z.lor md EPOLLERR)] 0 s.
Proof.
  unfold add_interest. destruct (fd <? 0); [reflexivity|]. cbn [add_dirs dirbit].
  destruct (if has ints EV_READ then _ else _) as [r1 s1]. destruct (r1 <? 0); [reflexivity|].
  destruct (if has ints EV_WRITE then _ else _) as [r2 s2]. destruct (r2 <? 0) eqn:L2; [cbv beta iota; rewrite L2; reflexivity|].
  destruct (if has ints EV_ERROR then _ else _) as [r3 s3]. destruct (r3 <? 0) eqn:L3; cbv beta iota; rewrite ?L3; reflexivity.
Qed.

(* one ADD stage: skipped, refused (nothing changes), or the new entry is appended *)
Lemma add_stage (b : bool) p fd ev d r0 s : 0 <= r0 ->
  exists r1 s1, (if b then pctl p fd CTL_ADD ev d s else (r0, s)) = (r1, s1) /\ same_engine s s1 /\
    (forall q, p <> q -> klist q (n_k s1) = klist q (n_k s)) /\
    (r1 < 0 /\ klist p (n_k s1) = klist p (n_k s) \/
     0 <= r1 /\ klist p (n_k s1) = if b then klist p (n_k s) ++ [mknk fd ev true d] else klist p (n_k s)).
Proof.
  intros Hr. destruct b.
  - pose proof (pctl_add_spec p fd ev d s) as H. pose proof (pctl_other_poller p fd CTL_ADD ev d s) as HO.
    pose proof (pctl_same_engine p fd CTL_ADD ev d s) as SE.
    destruct (pctl p fd CTL_ADD ev d s) as [r1 s1]. cbn [fst snd] in *. exists r1, s1.
    split; [reflexivity|]. split; [exact SE|]. split; [exact HO|].
    destruct H as [[F U]|[F U]]; [left; split; [exact F|apply U]|right; split; [lia|exact U]].
  - exists r0, s. split; [reflexivity|]. split; [apply same_engine_refl|]. split; [reflexivity|]. right. split; [exact Hr|reflexivity].
Qed.
(* one roll-back, run only after a refusal (f): skipped or DEL *)
Lemma undo_stage (f c : bool) p fd s :
  exists s', (if f then if c then s else snd (pctl p fd CTL_DEL 0 0 s) else s) = s' /\ same_engine s s' /\
    (forall q, p <> q -> klist q (n_k s') = klist q (n_k s)) /\
    klist p (n_k s') = if f && negb c then nkremove fd (klist p (n_k s)) else klist p (n_k s).
Proof.
  destruct f, c; eexists; (split; [reflexivity|]); try (split; [apply same_engine_refl|split; reflexivity]).
  split; [apply pctl_same_engine|]. split; [intros q; apply pctl_other_poller|apply pctl_del_list].
Qed.

(* the fate of the list of poller q depends only on q's own direction bit and on where the pass stopped: unchanged;
   or, after a refusal, without its entry of fd (q was rolled back); or, after success, with the new entry *)
Lemma add_dirs_spec g fd ints data : forall ps r0 s, NoDup (map fst ps) -> 0 <= r0 ->
  exists r s', add_dirs g fd ints data ps r0 s = (r, s') /\ same_engine s s' /\
    forall q, klist q (n_k s') = klist q (n_k s) \/
      In q (map fst ps) /\
      if r <? 0 then g && negb (has ints (dirbit q)) = false /\ klist q (n_k s') = nkremove fd (klist q (n_k s))
      else has ints (dirbit q) = true /\ exists ev, klist q (n_k s') = klist q (n_k s) ++ [mknk fd ev true data].
Proof.
  induction ps as [|[p ev] ps IH]; intros r0 s Hnd Hr; cbn [add_dirs].
  { exists r0, s. split; [reflexivity|]. split; [apply same_engine_refl|]. left. reflexivity. }
  cbn [map fst] in Hnd. apply NoDup_cons_iff in Hnd as [Hp Hnd].
  destruct (add_stage (has ints (dirbit p)) p fd ev data r0 s Hr) as (r1 & s1 & -> & SE1 & O1 & [[F1 E1]|[F1 E1]]).
  { apply Z.ltb_lt in F1. rewrite F1. exists r1, s1. split; [reflexivity|]. split; [exact SE1|]. intros q. left.
    destruct (pid_eq_dec p q) as [<-|Hq]; [exact E1|apply O1, Hq]. }
  replace (r1 <? 0) with false by (symmetry; apply Z.ltb_ge, F1).
  destruct (IH r1 s1 Hnd F1) as (r2 & s2 & -> & SE2 & H2).
  destruct (undo_stage (r2 <? 0) (g && negb (has ints (dirbit p))) p fd s2) as (s' & -> & SE' & O' & U').
  exists r2, s'. split; [reflexivity|].
  split; [exact (same_engine_trans _ _ _ SE1 (same_engine_trans _ _ _ SE2 SE'))|]. intros q.
  destruct (H2 q) as [H|[I R]]; destruct (pid_eq_dec p q) as [<-|Hq]; try contradiction.
  - (* q = p, which nothing after its own stage touched before the roll-back *)
    rewrite U', H, E1. destruct (r2 <? 0); cbn [andb].
    + destruct (g && negb (has ints (dirbit p))) eqn:C; cbn [negb].
      * destruct (has ints (dirbit p)); [rewrite andb_false_r in C; discriminate|]. left. reflexivity.
      * right. split; [left; reflexivity|]. split; [reflexivity|].
        destruct (has ints (dirbit p)); [apply nkremove_app_new|reflexivity].
    + destruct (has ints (dirbit p)); [|left; reflexivity]. right. split; [left; reflexivity|]. split; [reflexivity|].
      exists ev. reflexivity.
  - rewrite (O' q Hq), H. left. apply O1, Hq.
  - rewrite (O' q Hq), <- (O1 q Hq). right. split; [right; exact I|exact R].
Qed.

Lemma add_interest_spec g fd ints data s :
  same_engine s (snd (add_interest g fd ints data s)) /\
  forall q, klist q (n_k (snd (add_interest g fd ints data s))) = klist q (n_k s) \/
    q <> PEng /\
    if fst (add_interest g fd ints data s) <? 0
    then g && negb (has ints (dirbit q)) = false /\
         klist q (n_k (snd (add_interest g fd ints data s))) = nkremove fd (klist q (n_k s))
    else has ints (dirbit q) = true /\
         exists ev, klist q (n_k (snd (add_interest g fd ints data s))) = klist q (n_k s) ++ [mknk fd ev true data].
Proof.
  rewrite add_interest_dirs. destruct (fd <? 0); [split; [repeat split|left; reflexivity]|].
  set (md := if has ints ONE_SHOT then EPOLLONESHOT else 0). cbv zeta.
  destruct (add_dirs_spec g fd ints data
              [(PRd, Z.lor md (Z.lor EPOLLIN EPOLLRDHUP)); (PWr, Z.lor md EPOLLOUT); (PEr, Z.lor md EPOLLERR)] 0 s)
    as (r & s' & -> & SE & H); [repeat constructor; cbn; intuition discriminate|lia|].
  split; [exact SE|]. intros q. destruct (H q) as [E|[I R]]; [left; exact E|right; split; [|exact R]].
  intros ->. cbn in I. intuition discriminate.
Qed.

(* other descriptors: whatever the variant *)
Lemma add_interest_other_fd g fd ints data s q fd' :
  fd <> fd' -> nkfind fd' (klist q (n_k (snd (add_interest g fd ints data s)))) = nkfind fd' (klist q (n_k s)).
Proof.
  intros Hne. destruct (proj2 (add_interest_spec g fd ints data s) q) as [->|[_ H]]; [reflexivity|].
  destruct (fst (add_interest g fd ints data s) <? 0).
  - destruct H as [_ ->]. apply nkfind_remove_other, Hne.
  - destruct H as (_ & ev & ->). apply nkfind_app_other, Hne.
Qed.

(* every waiting thread still has its own registration (its thread id as data) in the poller of each direction it
   waits for, with EPOLLONESHOT, and that entry is armed or its event has been reaped and awaits delivery *)
Definition registered_at (s : nst) (t fd : Z) (p : pid) : Prop :=
  exists e, In e (klist p (n_k s)) /\ nk_fd e = fd /\ nk_data e = t /\ has (nk_events e) EPOLLONESHOT = true /\
            (nk_armed e = true \/ In t (firstn (Z.to_nat (pl_rem (get_pl p s))) (pl_ev (get_pl p s)))).
Definition ng_agree_at (s : nst) : Prop :=
  forall t fd ints dl p, nthr_get t (n_thr s) = Some (NWaiting fd ints dl) ->
    p <> PEng -> has ints (dirbit p) = true -> registered_at s t fd p.

(* scripts in which every thread waits for ONE direction, nothing is closed, nobody is interrupted *)
Definition plain_step (x : nstep) : bool :=
  match x with
  | NSWait _ fd i _ => (0 <=? fd) && ((i =? EV_READ) || (i =? EV_WRITE) || (i =? EV_ERROR))
  | NSClose _ | NSIntr _ _ => false
  | _ => true
  end.
Definition f40_witness : list nstep := [NSWait 1 5 EV_READ (-1); NSWait 2 5 EV_WRITE (-1); NSWait 3 5 EV_WRITE (-1)].

(* the same script with the roll-back guarded keeps the reader's registration *)
Example f40_witness_repaired :
  nk_r (n_k (run_ng_g true f40_witness)) = [mknk 5 (Z.lor EPOLLONESHOT (Z.lor EPOLLIN EPOLLRDHUP)) true 1].
Proof. vm_compute. reflexivity. Qed.
