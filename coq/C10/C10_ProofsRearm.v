(* C10 part 2 — rm_interest on a one-shot entry, and with it no_cross_talk for the other direction(s) of the SAME
   descriptor (the MOD-after-one-shot case): when one direction of a one-shot entry is removed (its event fired, or
   its waiter timed out / was interrupted) while other directions are still registered, those stay registered with
   their data and the kernel entry is re-armed for exactly them. *)
From Coq Require Import ZArith List Lia Bool.
From PV Require Import C10.C10_Engine C10.C10_ProofsEngine C10.C10_ProofsAgree.
Import ListNotations.
Local Open Scope Z_scope.

Lemma ctl_mod_existing fd ev s e0 :
  kfind fd (kn_list (s_k s)) = Some e0 ->
  ctl fd CTL_MOD ev 0 s =
  (0, add_log (LCtl CTL_MOD fd ev 0)
        (upd_k (mkkern (kreplace (mkkent fd ev true) (kn_list (s_k s))) (kn_ready (s_k s))) s)).
Proof. intros H. unfold ctl, k_ctl. rewrite H. reflexivity. Qed.

Lemma rm_misc fd ints s :
  s_size (snd (rm_interest fd ints s)) = s_size s /\ s_thr (snd (rm_interest fd ints s)) = s_thr s /\
  s_evfd (snd (rm_interest fd ints s)) = s_evfd s /\ s_batch (snd (rm_interest fd ints s)) = s_batch s /\
  s_now (snd (rm_interest fd ints s)) = s_now s /\ kn_ready (s_k (snd (rm_interest fd ints s))) = kn_ready (s_k s).
Proof.
  unfold rm_interest.
  destruct ((fd <? 0) || (s_size s <=? fd)); [cbn; repeat split|].
  destruct (ints =? 0); [cbn; repeat split|].
  match goal with |- context [if ?c then _ else _] => destruct c end; [cbn; repeat split|].
  match goal with |- context [if ?c then _ else _] => destruct c end; [cbn; repeat split|].
  match goal with |- context [if ?c then _ else _] => destruct c end.
  - destruct (ctl_spec fd CTL_DEL 0 ENOENT s) as [(T & Sz & Th & Ev & Ba & No & Rd) _].
    destruct (ctl fd CTL_DEL 0 ENOENT s) as [r s1]. cbn [fst snd] in *.
    destruct (r <? 0); cbn; repeat split; assumption.
  - match goal with |- context [ctl fd CTL_MOD ?ev 0 s] =>
      destruct (ctl_spec fd CTL_MOD ev 0 s) as [(T & Sz & Th & Ev & Ba & No & Rd) _];
      destruct (ctl fd CTL_MOD ev 0 s) as [r s1] end. cbn [fst snd] in *.
    destruct (r <? 0); cbn; repeat split; assumption.
Qed.

(* removing the directions F from the one-shot entry ONE_SHOT+m of descriptor fd *)
Lemma rm_spec fd F m s :
  0 <= fd < s_size s -> 1 <= F <= 7 -> 0 <= m <= 7 ->
  i_int (tab_get fd (s_tab s)) = ONE_SHOT + m ->
  (1 <= minus m F -> exists e0, kfind fd (kn_list (s_k s)) = Some e0) ->
  let entry := tab_get fd (s_tab s) in
  let r := rm_interest fd F s in
  fst r = 0 /\
  ((Z.land F m = 0 /\ snd r = s) \/
   (Z.land F m <> 0 /\
    tab_get fd (s_tab (snd r)) =
      mkife (ONE_SHOT + minus m F) (if has F 1 && has m 1 then 0 else i_rd entry)
            (if has F 2 && has m 2 then 0 else i_wr entry) (if has F 4 && has m 4 then 0 else i_er entry) /\
    (minus m F = 0 -> s_k (snd r) = s_k s) /\
    (1 <= minus m F -> kfind fd (kn_list (s_k (snd r))) =
                       Some (mkkent fd (Z.lor (translate (minus m F)) EPOLLONESHOT) true)))).
Proof.
  intros Hfd HF Hm Hint Hk entry r. subst r. unfold rm_interest.
  replace ((fd <? 0) || (s_size s <=? fd)) with false
    by (symmetry; apply orb_false_iff; split; [apply Z.ltb_ge|apply Z.leb_gt]; lia).
  replace (F =? 0) with false by (symmetry; apply Z.eqb_neq; lia).
  fold entry. cbv beta zeta.
  destruct (ar_mask m Hm) as (Am & _). destruct (ar_rm F m ltac:(lia) Hm) as (R1 & R2 & R3 & R4 & R5 & R6 & R7 & R8).
  replace (i_int entry) with (ONE_SHOT + m) by (symmetry; exact Hint). rewrite Am, R1.
  destruct (Z.eqb_spec (Z.land F m) 0) as [Ei|Ei]; [split; [reflexivity|left; split; [exact Ei|reflexivity]]|].
  rewrite R2, R4, R5, R6, R7, R8.
  destruct (Z.eqb_spec (minus m F) 0) as [Ez|Ez].
  - cbn [fst snd s_tab s_k upd_tab]. rewrite tab_get_set_same.
    split; [reflexivity|right]. split; [exact Ei|]. split; [reflexivity|]. split; [reflexivity|intros; lia].
  - destruct (Hk ltac:(lia)) as [e0 He0]. destruct (ar_mask (minus m F) R3) as (_ & _ & Hos & Htr). rewrite Hos, Htr.
    rewrite (ctl_mod_existing fd _ s e0 He0). change (0 <? 0) with false.
    cbv iota beta. cbn [fst snd s_tab s_k upd_tab add_log upd_k kn_list]. rewrite tab_get_set_same.
    split; [reflexivity|right]. split; [exact Ei|]. split; [reflexivity|].
    split; [intros; lia|intros _; apply (kfind_kreplace_same fd _ true _ e0 He0)].
Qed.

(* a proper, non-empty part F of the registered directions m is removed: the rest stays registered with its data and
   the kernel entry is re-armed for exactly the rest (EPOLL_CTL_MOD) *)
Lemma rm_part_rearms_rest fd F m s e0 :
  0 <= fd < s_size s -> 1 <= F <= 7 -> 0 <= m <= 7 -> Z.land F m = F -> m <> F ->
  i_int (tab_get fd (s_tab s)) = ONE_SHOT + m ->
  kfind fd (kn_list (s_k s)) = Some e0 ->
  let entry := tab_get fd (s_tab s) in
  let r := rm_interest fd F s in
  fst r = 0 /\
  tab_get fd (s_tab (snd r)) =
    mkife (ONE_SHOT + (m - F)) (if has F 1 && has m 1 then 0 else i_rd entry)
          (if has F 2 && has m 2 then 0 else i_wr entry) (if has F 4 && has m 4 then 0 else i_er entry) /\
  kfind fd (kn_list (s_k (snd r))) = Some (mkkent fd (Z.lor (translate (m - F)) EPOLLONESHOT) true).
Proof.
  intros Hfd HF Hm Hland Hne Hint Hk entry r.
  destruct (ar_rm F m ltac:(lia) Hm) as (_ & _ & Hmin & _).
  destruct (rm_spec fd F m s Hfd HF Hm Hint (fun _ => ex_intro _ e0 Hk)) as (H0 & [(Hz & _)|(_ & Ht & _ & Hk1)]); [lia|].
  unfold minus in *. rewrite Hland in *. split; [exact H0|]. split; [exact Ht|]. apply Hk1. lia.
Qed.

(* the hypotheses are met by the state in which a reader and a writer wait on descriptor 5 (m = READ|WRITE, d = READ) *)
Example rearm_hypotheses_hold :
  let s := run_engine [SWait 1 5 EV_READ (-1); SWait 2 5 EV_WRITE (-1)] in
  0 <= 5 < s_size s /\ Z.land EV_READ 3 = EV_READ /\ 3 <> EV_READ /\
  i_int (tab_get 5 (s_tab s)) = ONE_SHOT + 3 /\
  kfind 5 (kn_list (s_k s)) = Some (mkkent 5 (Z.lor (translate 3) EPOLLONESHOT) true).
Proof. vm_compute. repeat split; congruence. Qed.
