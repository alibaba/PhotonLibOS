(* C10 part 2 — engine_kernel_agree: the inductive invariant of the level-triggered engine's bookkeeping over all
   sequences of engine calls and kernel events, under the guard that excludes the class of finding F32. *)
From Coq Require Import ZArith List Lia Bool.
From PV Require Import C10.C10_Engine C10.C10_ProofsEngine.
Import ListNotations.
Local Open Scope Z_scope.

(* the sets of directions are the numbers 0..7: facts about them are checked on each *)
Lemma mask_cases m : 0 <= m <= 7 -> m = 0 \/ m = 1 \/ m = 2 \/ m = 3 \/ m = 4 \/ m = 5 \/ m = 6 \/ m = 7.
Proof. lia. Qed.
Ltac enum7 m := destruct (mask_cases m ltac:(lia)) as [-> | [-> | [-> | [-> | [-> | [-> | [-> | ->]]]]]]].
Definition is_dir (i : Z) : Prop := i = 1 \/ i = 2 \/ i = 4.
Definition dir_data (i : Z) (e : ife) : Z :=
  if i =? 1 then i_rd e else if i =? 2 then i_wr e else i_er e.
Definition valid_int (x : Z) : Prop := x = 0 \/ exists m, 0 <= m <= 7 /\ x = ONE_SHOT + m.

Lemma kfind_app_new l fd ev a : kfind fd l = None -> kfind fd (l ++ [mkkent fd ev a]) = Some (mkkent fd ev a).
Proof.
  induction l as [|e r IH]; cbn [app kfind ke_fd].
  - intros _. rewrite Z.eqb_refl. reflexivity.
  - destruct (ke_fd e =? fd); [discriminate|exact IH].
Qed.

Lemma k_ctl_fail op fd ev k : fst (k_ctl op fd ev k) <> 0 -> snd (k_ctl op fd ev k) = k.
Proof.
  unfold k_ctl. destruct (kfind fd (kn_list k)).
  - destruct (op =? CTL_ADD); [reflexivity|]. destruct (op =? CTL_MOD); cbn; congruence.
  - destruct (op =? CTL_ADD); cbn; congruence.
Qed.

Lemma k_ctl_addmod_ok op fd ev k :
  op = CTL_ADD \/ op = CTL_MOD -> fst (k_ctl op fd ev k) = 0 ->
  kfind fd (kn_list (snd (k_ctl op fd ev k))) = Some (mkkent fd ev true) /\
  kn_ready (snd (k_ctl op fd ev k)) = kn_ready k /\
  (op = CTL_ADD -> kfind fd (kn_list k) = None).
Proof.
  unfold k_ctl. intros Hop. destruct (kfind fd (kn_list k)) eqn:E.
  - destruct Hop as [-> | ->]; cbn; [discriminate|]. intros _.
    split; [eapply kfind_kreplace_same; exact E|]. split; [reflexivity|discriminate].
  - destruct Hop as [-> | ->]; cbn; [|discriminate]. intros _.
    split; [apply kfind_app_new; exact E|]. split; reflexivity.
Qed.

Lemma k_ctl_add_exists fd ev k e : kfind fd (kn_list k) = Some e -> fst (k_ctl CTL_ADD fd ev k) <> 0.
Proof. unfold k_ctl. intros ->. cbn. discriminate. Qed.

Lemma k_ctl_res_pos op fd ev k : 0 <= fst (k_ctl op fd ev k).
Proof.
  unfold k_ctl. destruct (kfind fd (kn_list k)).
  - destruct (op =? CTL_ADD); [cbn; unfold EEXIST; lia|]. destruct (op =? CTL_MOD); cbn; lia.
  - destruct (op =? CTL_ADD); cbn; [lia|unfold ENOENT; lia].
Qed.

(* the parts of the state that no engine call of this file touches *)
Definition same_misc (s s' : st) : Prop :=
  s_tab s' = s_tab s /\ s_size s' = s_size s /\ s_thr s' = s_thr s /\ s_evfd s' = s_evfd s /\
  s_batch s' = s_batch s /\ s_now s' = s_now s /\ kn_ready (s_k s') = kn_ready (s_k s).

Lemma ctl_spec fd op ev ign s :
  same_misc s (snd (ctl fd op ev ign s)) /\
  ((fst (ctl fd op ev ign s) = 0 /\ fst (k_ctl op fd ev (s_k s)) = 0 /\ s_k (snd (ctl fd op ev ign s)) = snd (k_ctl op fd ev (s_k s)))
   \/ (fst (ctl fd op ev ign s) <> 0 /\ s_k (snd (ctl fd op ev ign s)) = s_k s /\
       (fst (ctl fd op ev ign s) < 0 \/ (fst (ctl fd op ev ign s) = 1 /\ ign <> 0)))).
Proof.
  unfold ctl. pose proof (k_ctl_res_pos op fd ev (s_k s)) as Hp. pose proof (k_ctl_fail op fd ev (s_k s)) as Hf.
  destruct (k_ctl op fd ev (s_k s)) as [res k'] eqn:E. cbn [fst snd] in *.
  assert (Hr : kn_ready k' = kn_ready (s_k s)).
  { destruct (Z.eq_dec res 0) as [Hz|Hz]; [|rewrite (Hf Hz); reflexivity].
    revert E. unfold k_ctl. destruct (kfind fd (kn_list (s_k s)));
      repeat match goal with |- context [if ?c then _ else _] => destruct c end; intros E; inversion E; reflexivity. }
  destruct (res =? 0) eqn:Ez.
  - apply Z.eqb_eq in Ez. subst res. cbn. split; [repeat split; auto|]. left. auto.
  - apply Z.eqb_neq in Ez. rewrite (Hf Ez).
    destruct ((ign =? 0) || negb (ign =? res)) eqn:Ei; cbn.
    + split; [repeat split; auto|]. right. split; [lia|]. split; [reflexivity|]. left. lia.
    + split; [repeat split; auto|]. right. split; [lia|]. split; [reflexivity|]. right. split; [reflexivity|].
      apply orb_false_iff in Ei. destruct Ei as [Ei _]. apply Z.eqb_neq in Ei. exact Ei.
Qed.

Lemma same_misc_refl s : same_misc s s.
Proof. repeat split. Qed.
Lemma same_misc_trans a b c : same_misc a b -> same_misc b c -> same_misc a c.
Proof. unfold same_misc. intuition congruence. Qed.

Lemma ar_dir_ints i : is_dir i -> Z.land (Z.lor i ONE_SHOT) EV_RWEO = ONE_SHOT + i /\ (Z.lor i ONE_SHOT =? 0) = false.
Proof. intros [-> | [-> | ->]]; split; reflexivity. Qed.

Lemma ar_mask m : 0 <= m <= 7 ->
  Z.land (ONE_SHOT + m) EV_RWEO = ONE_SHOT + m /\ (ONE_SHOT + m =? 0) = false /\
  has (ONE_SHOT + m) ONE_SHOT = true /\ translate (ONE_SHOT + m) = translate m.
Proof. intros H. enum7 m; repeat split; reflexivity. Qed.

Lemma ar_merge i m : is_dir i -> 0 <= m <= 7 ->
  has (Z.lxor (ONE_SHOT + m) (ONE_SHOT + i)) ONE_SHOT = false /\
  Z.lor (ONE_SHOT + m) (ONE_SHOT + i) = ONE_SHOT + Z.lor m i /\ 0 <= Z.lor m i <= 7 /\ has (Z.lor m i) i = true.
Proof. intros [-> | [-> | ->]] H; enum7 m; repeat split; try reflexivity; cbv; discriminate. Qed.

Lemma ar_merge_other i j m : is_dir i -> is_dir j -> i <> j -> 0 <= m <= 7 -> has (Z.lor m i) j = has m j.
Proof. intros [-> | [-> | ->]] [-> | [-> | ->]] Hne H; try congruence; enum7 m; reflexivity. Qed.

Lemma ar_dmask i m rd wr er data : is_dir i -> 0 <= m <= 7 ->
  has (Z.land (ONE_SHOT + i) (ONE_SHOT + m))
      (Z.lor (if rd =? data then 0 else EV_READ) (Z.lor (if wr =? data then 0 else EV_WRITE) (if er =? data then 0 else EV_ERROR)))
  = has m i && negb (dir_data i (mkife 0 rd wr er) =? data).
Proof.
  intros [-> | [-> | ->]] H; unfold dir_data; cbn [i_rd i_wr i_er Z.eqb Pos.eqb];
    enum7 m; destruct (rd =? data), (wr =? data), (er =? data); reflexivity.
Qed.

Lemma ar_set_data i data e : is_dir i ->
  set_data (ONE_SHOT + i) data e =
  mkife (i_int e) (if i =? 1 then data else i_rd e) (if i =? 2 then data else i_wr e) (if i =? 4 then data else i_er e).
Proof. intros [-> | [-> | ->]]; reflexivity. Qed.

(* removing the directions F from ONE_SHOT + m *)
Definition minus (m F : Z) : Z := m - Z.land F m.
Lemma ar_rm F m : 0 <= F <= 7 -> 0 <= m <= 7 ->
  Z.land F (ONE_SHOT + m) = Z.land F m /\
  Z.lxor (ONE_SHOT + m) (Z.land F m) = ONE_SHOT + minus m F /\
  0 <= minus m F <= 7 /\
  (ONE_SHOT + minus m F =? ONE_SHOT) = (minus m F =? 0) /\
  (ONE_SHOT + minus m F =? 0) = false /\
  has (Z.land F m) EV_READ = has F 1 && has m 1 /\
  has (Z.land F m) EV_WRITE = has F 2 && has m 2 /\
  has (Z.land F m) EV_ERROR = has F 4 && has m 4.
Proof. intros HF Hm. unfold minus. enum7 F; enum7 m; repeat split; try reflexivity; cbv; discriminate. Qed.

Lemma ar_rm_has F m j : 0 <= F <= 7 -> 0 <= m <= 7 -> is_dir j -> has (minus m F) j = has m j && negb (has F j).
Proof. intros HF Hm [-> | [-> | ->]]; unfold minus; enum7 F; enum7 m; reflexivity. Qed.

Lemma ar_dir_range i : is_dir i -> 1 <= i <= 7.
Proof. intros [-> | [-> | ->]]; lia. Qed.

Lemma ar_has_dir_pos m i : 0 <= m <= 7 -> is_dir i -> has m i = true -> 1 <= m.
Proof. intros H [-> | [-> | ->]]; enum7 m; cbn; intros; (lia || discriminate). Qed.

Lemma ar_armed m i : 1 <= m <= 7 -> is_dir i -> has m i = true ->
  negb (Z.land (Z.lor (translate m) EPOLLONESHOT) (translate i) =? 0) = true.
Proof. intros H [-> | [-> | ->]]; enum7 m; cbn; intros; (lia || discriminate || reflexivity). Qed.

Lemma ctl_addmod_spec fd op ev ign s :
  op = CTL_ADD \/ op = CTL_MOD ->
  same_misc s (snd (ctl fd op ev ign s)) /\
  ((fst (ctl fd op ev ign s) = 0 /\
    kfind fd (kn_list (s_k (snd (ctl fd op ev ign s)))) = Some (mkkent fd ev true) /\
    (forall fd', fd <> fd' -> kfind fd' (kn_list (s_k (snd (ctl fd op ev ign s)))) = kfind fd' (kn_list (s_k s))) /\
    (op = CTL_ADD -> kfind fd (kn_list (s_k s)) = None))
   \/ (s_k (snd (ctl fd op ev ign s)) = s_k s /\
       (fst (ctl fd op ev ign s) < 0 \/ (fst (ctl fd op ev ign s) = 1 /\ ign <> 0)))).
Proof.
  intros Hop. destruct (ctl_spec fd op ev ign s) as [Hm [(H0 & Hk0 & Hk)|(Hn & Hk & Hr)]].
  - split; [exact Hm|]. left. split; [exact H0|]. rewrite Hk.
    destruct (k_ctl_addmod_ok op fd ev (s_k s) Hop Hk0) as (A & _ & C).
    split; [exact A|]. split; [|exact C]. intros fd' Hne. apply k_ctl_frame. exact Hne.
  - split; [exact Hm|]. right. auto.
Qed.

Lemma add_attempt_spec fd ints data op eint s :
  has eint ONE_SHOT = true -> op = CTL_ADD \/ op = CTL_MOD ->
  (fst (add_attempt fd ints data op eint s) = -1 /\ same_misc s (snd (add_attempt fd ints data op eint s)) /\
   s_k (snd (add_attempt fd ints data op eint s)) = s_k s)
  \/ (exists s1, add_attempt fd ints data op eint s = add_finish fd ints data eint s1 /\ same_misc s s1 /\
        kfind fd (kn_list (s_k s1)) = Some (mkkent fd (Z.lor (translate eint) EPOLLONESHOT) true) /\
        (forall fd', fd <> fd' -> kfind fd' (kn_list (s_k s1)) = kfind fd' (kn_list (s_k s))) /\
        (op = CTL_ADD -> kfind fd (kn_list (s_k s)) = None)).
Proof.
  intros Hos Hop. unfold add_attempt. rewrite Hos.
  set (ev := Z.lor (translate eint) EPOLLONESHOT).
  destruct Hop as [-> | ->].
  - replace (CTL_ADD =? CTL_MOD) with false by reflexivity.
    destruct (ctl_addmod_spec fd CTL_ADD ev 0 s (or_introl eq_refl)) as [Hm Hc].
    destruct (ctl fd CTL_ADD ev 0 s) as [r2 s2]. cbn [fst snd] in *.
    destruct Hc as [(H0 & A & B & C)|(Hk & [Hr|[_ Hr]])]; [| |congruence].
    + subst r2. replace (0 <? 0) with false by reflexivity. right. exists s2. auto.
    + replace (r2 <? 0) with true by (symmetry; apply Z.ltb_lt; exact Hr). left. auto.
  - replace (CTL_MOD =? CTL_MOD) with true by reflexivity.
    destruct (ctl_addmod_spec fd CTL_MOD ev ENOENT s (or_intror eq_refl)) as [Hm Hc].
    destruct (ctl fd CTL_MOD ev ENOENT s) as [r s1]. cbn [fst snd] in *.
    destruct Hc as [(H0 & A & B & C)|(Hk & [Hr|[Hr _]])].
    + subst r. replace (0 =? 0) with true by reflexivity. right. exists s1. split; [reflexivity|]. split; [exact Hm|].
      split; [exact A|]. split; [exact B|]. discriminate.
    + replace (r =? 0) with false by (symmetry; apply Z.eqb_neq; lia).
      replace (0 <? r) with false by (symmetry; apply Z.ltb_ge; lia). left. auto.
    + subst r. replace (1 =? 0) with false by reflexivity. replace (0 <? 1) with true by reflexivity.
      destruct (ctl_addmod_spec fd CTL_ADD ev 0 s1 (or_introl eq_refl)) as [Hm2 Hc2].
      destruct (ctl fd CTL_ADD ev 0 s1) as [r2 s2]. cbn [fst snd] in *.
      destruct Hc2 as [(H0 & A & B & C)|(Hk2 & [Hr|[_ Hr]])]; [| |congruence].
      * subst r2. replace (0 <? 0) with false by reflexivity. right. exists s2. split; [reflexivity|].
        split; [eapply same_misc_trans; eassumption|]. split; [exact A|].
        split; [intros fd' Hne; rewrite (B fd' Hne), Hk; reflexivity|discriminate].
      * replace (r2 <? 0) with true by (symmetry; apply Z.ltb_lt; exact Hr). left. cbn [fst snd].
        split; [reflexivity|]. split; [eapply same_misc_trans; eassumption|]. rewrite Hk2, Hk. reflexivity.
Qed.

(* the resize at the head of add_interest *)
Definition resized (fd : Z) (s : st) : st := if s_size s <=? fd then upd_size (fd * 2 + 2) s else s.
Lemma resized_spec fd s : 0 <= fd ->
  s_tab (resized fd s) = s_tab s /\ s_k (resized fd s) = s_k s /\ s_thr (resized fd s) = s_thr s /\
  s_evfd (resized fd s) = s_evfd s /\ s_batch (resized fd s) = s_batch s /\ s_now (resized fd s) = s_now s /\
  fd < s_size (resized fd s) /\ s_size s <= s_size (resized fd s).
Proof.
  intros H. unfold resized. destruct (s_size s <=? fd) eqn:E; cbn.
  - apply Z.leb_le in E. repeat split; lia.
  - apply Z.leb_gt in E. repeat split; lia.
Qed.

(* what an engine call may change besides the table and the kernel's interest list: nothing, but the table may grow *)
Definition grown (s s' : st) : Prop :=
  s_thr s' = s_thr s /\ s_evfd s' = s_evfd s /\ s_batch s' = s_batch s /\ s_now s' = s_now s /\
  kn_ready (s_k s') = kn_ready (s_k s) /\ s_size s <= s_size s'.

(* result of wait_for_fd's add_interest({fd, i | ONE_SHOT, t}) on an entry ONE_SHOT+m (or a fresh entry, m = 0) *)
Lemma add_interest_spec fd i data s m :
  0 <= fd -> is_dir i -> 0 <= m <= 7 ->
  (i_int (tab_get fd (s_tab s)) = 0 /\ m = 0 \/ i_int (tab_get fd (s_tab s)) = ONE_SHOT + m) ->
  let r := add_interest fd (Z.lor i ONE_SHOT) data s in
  let entry := tab_get fd (s_tab s) in
  grown s (snd r) /\
  ((fst r = -1 /\ s_tab (snd r) = s_tab s /\ s_k (snd r) = s_k s)
   \/
   (fst r = 0 /\ (has m i = true -> dir_data i entry = data) /\
    s_tab (snd r) = tab_set fd (mkife (ONE_SHOT + Z.lor m i)
                                     (if i =? 1 then data else i_rd entry) (if i =? 2 then data else i_wr entry)
                                     (if i =? 4 then data else i_er entry)) (s_tab s) /\
    kfind fd (kn_list (s_k (snd r))) = Some (mkkent fd (Z.lor (translate (Z.lor m i)) EPOLLONESHOT) true) /\
    (forall fd', fd <> fd' -> kfind fd' (kn_list (s_k (snd r))) = kfind fd' (kn_list (s_k s))) /\
    (i_int entry = 0 -> kfind fd (kn_list (s_k s)) = None) /\
    fd < s_size (snd r))).
Proof.
  intros Hfd Hi Hm Hx r entry. subst r.
  destruct (resized_spec fd s Hfd) as (Rt & Rk & Rth & Rev & Rb & Rn & Rlt & Rle).
  destruct (ar_dir_ints i Hi) as (Ai & Az).
  destruct (ar_merge i m Hi Hm) as (M1 & M2 & M3 & M5).
  destruct (ar_mask (Z.lor m i) M3) as (_ & _ & Hos & Htr).
  (* the call ends in a conflict, or in one attempt for the merged interests: ADD for a fresh entry, else MOD *)
  assert (Hcall : add_interest fd (Z.lor i ONE_SHOT) data s = (-1, upd_errno EALREADY (resized fd s)) \/
            exists op, (op = CTL_ADD \/ op = CTL_MOD) /\ (i_int entry = 0 -> op = CTL_ADD) /\
              add_interest fd (Z.lor i ONE_SHOT) data s =
                add_attempt fd (ONE_SHOT + i) data op (ONE_SHOT + Z.lor m i) (resized fd s) /\
              Z.lor (i_int entry) (ONE_SHOT + Z.lor m i) = ONE_SHOT + Z.lor m i /\
              (has m i = true -> dir_data i entry = data)).
  { unfold add_interest. replace (fd <? 0) with false by (symmetry; apply Z.ltb_ge; lia). rewrite Az.
    fold (resized fd s). rewrite Ai, Rt. fold entry.
    destruct Hx as [[Hx0 ->] | Hxm]; fold entry in Hx0 || fold entry in Hxm.
    - right. exists CTL_ADD. rewrite Hx0. split; [left; reflexivity|]. split; [reflexivity|]. split; [reflexivity|].
      split; [reflexivity|]. intros Hh. destruct Hi as [-> | [-> | ->]]; discriminate Hh.
    - destruct (ar_mask m Hm) as (Am & Amz & _ & _). rewrite Hxm, Am, Amz, M1.
      rewrite (ar_dmask i m (i_rd entry) (i_wr entry) (i_er entry) data Hi Hm).
      change (dir_data i (mkife 0 (i_rd entry) (i_wr entry) (i_er entry))) with (dir_data i entry).
      destruct (has m i && negb (dir_data i entry =? data)) eqn:Hconf; [left; reflexivity|right].
      exists CTL_MOD. rewrite M2. split; [right; reflexivity|]. split; [unfold ONE_SHOT; lia|]. split; [reflexivity|].
      split; [clear - Hi Hm; destruct Hi as [-> | [-> | ->]]; enum7 m; reflexivity|].
      intros Hh. rewrite Hh in Hconf. apply negb_false_iff, Z.eqb_eq in Hconf. exact Hconf. }
  destruct Hcall as [Hc | (op & Hop & Hfresh & Heq & Hlor & Hdat)]; [rewrite Hc | rewrite Heq].
  { cbn [fst snd]. split; [repeat split; cbn; congruence || exact Rle|left; repeat split; cbn; assumption]. }
  destruct (add_attempt_spec fd (ONE_SHOT + i) data op _ (resized fd s) Hos Hop)
    as [(F1 & (T & Sz & Th & Ev & Ba & No & Rd) & F3) | (s1 & Heq1 & (T & Sz & Th & Ev & Ba & No & Rd) & A & B & C)].
  - split; [repeat split; congruence || (rewrite Sz; exact Rle)|left; repeat split; congruence].
  - rewrite Heq1. unfold add_finish, grown. cbn [fst snd s_tab s_k s_size s_thr s_evfd s_batch s_now upd_tab].
    split; [repeat split; congruence || (rewrite Sz; exact Rle)|right].
    split; [reflexivity|]. split; [exact Hdat|]. rewrite T, Rt. fold entry.
    rewrite (ar_set_data i data _ Hi). cbn [i_int i_rd i_wr i_er]. rewrite Hlor.
    split; [reflexivity|]. split; [rewrite A, Htr; reflexivity|].
    split; [intros fd' Hne; rewrite (B fd' Hne), Rk; reflexivity|].
    split; [intros H0; rewrite <- Rk; apply C, Hfresh, H0|]. rewrite Sz. exact Rlt.
Qed.
