(* C10 part 1 — doio_once / doio_loop theorems for every kernel oracle. *)
From Coq Require Import ZArith List Lia.
From PV Require Import Base.U64 C10.C10_Model C10.C10_Proofs.
Import ListNotations.
Local Open Scope Z_scope.

(* the time spent waiting never exceeds the stream timeout *)
Definition el_ok (tmo : Z) (k : kst) : Prop := tmo = MAX64 \/ k_elapsed k <= tmo.

(* every answer of a wait leaves the state [mkkst (k_sys k) rest errno elapsed' (k_touched k) (EWait .. :: k_log k)];
   with a finite timeout the time left is tmo - elapsed, and whichever comes first, event or expiry, ends the wait *)
Lemma kwait_spec kind tmo k w k1 :
  kwait kind tmo k = Done (w, k1) ->
  k_sys k1 = k_sys k /\ tch k1 = tch k /\ (el_ok tmo k -> el_ok tmo k1) /\
  ((w = 0 /\ k_errno k1 = k_errno k) \/ (w = -1 /\ fail_reason k1)).
Proof.
  unfold kwait, remaining, el_ok. intros H.
  destruct (k_wt k) as [|a rest]; [discriminate|].
  destruct (Z.eqb_spec tmo MAX64) as [Et|Et].
  - destruct a as [d| |d e]; inversion H; subst w k1; clear H;
      (split; [reflexivity|]); (split; [reflexivity|]); (split; [intros _; left; exact Et|]); [left|right];
      (split; [reflexivity|]); unfold fail_reason; cbn; auto.
  - set (rem := sat_sub tmo (k_elapsed k)) in H.
    assert (Hel : forall el', el' <= k_elapsed k + rem -> tmo = MAX64 \/ k_elapsed k <= tmo -> tmo = MAX64 \/ el' <= tmo).
    { intros el' Hle [?|Hk]; [contradiction|right]. unfold rem, sat_sub in Hle. destruct (Z.ltb_spec tmo (k_elapsed k)); lia. }
    destruct a as [d| |d e]; [destruct (Z.ltb_spec d rem)| |destruct (Z.ltb_spec d rem)];
      inversion H; subst w k1; clear H; (split; [reflexivity|]); (split; [reflexivity|]);
      (split; [apply Hel; cbn [k_elapsed]; lia|]); [left|right..];
      (split; [reflexivity|]); unfold fail_reason; cbn; auto.
Qed.

(* what one doio_once call can do *)
Definition once_post (sk fl : Z) (v : view) (k : kst) (ret : Z) (k1 : kst) : Prop :=
  wf_script (k_sys k1) /\ (length (k_sys k1) < length (k_sys k))%nat /\
  ((0 <= ret <= vsum v /\ tch k1 = tch k ++ firstn (Z.to_nat ret) (flat v) /\
    exists l, k_log k1 = ESys sk fl v ret :: l)
   \/ (ret = -1 /\ tch k1 = tch k /\ fail_reason k1)).

Lemma doio_once_spec : forall fuel sk fl wk tmo v k ret k1,
  wf_view v -> wf_script (k_sys k) ->
  doio_once fuel sk fl wk tmo v k = Done (ret, k1) ->
  once_post sk fl v k ret k1 /\ (el_ok tmo k -> el_ok tmo k1).
Proof.
  induction fuel as [|f IH]; intros sk fl wk tmo v k ret k1 Hv Hs H; [discriminate|].
  cbn [doio_once] in H.
  destruct (ksys sk fl v k) as [[r ka]|] eqn:Ek; [|discriminate].
  destruct (ksys_spec _ _ _ _ _ _ Hv Hs Ek) as (a & Hsys & Hwf1 & _ & Hel & Hcase).
  assert (Hlen : (length (k_sys ka) < length (k_sys k))%nat) by (rewrite Hsys; simpl; lia).
  assert (Helk : el_ok tmo k -> el_ok tmo ka) by (unfold el_ok; rewrite Hel; auto).
  destruct Hcase as [(n & -> & Hr & Hrange & Htch & Hlog) | (e & -> & He & Hr & Htch & Herr & Hlog)].
  - destruct (r <? 0) eqn:Hneg; [apply Z.ltb_lt in Hneg; lia|].
    inversion H; subst; clear H. split; [|assumption].
    split; [assumption|]. split; [assumption|]. left. split; [lia|]. split; [assumption|]. eexists; eassumption.
  - subst r. cbn in H. rewrite Herr in H.
    destruct (e =? EINTR) eqn:E1.
    + destruct (IH _ _ _ _ _ _ _ _ Hv Hwf1 H) as [(P1 & P2 & P3) P4].
      split; [|auto]. split; [assumption|]. split; [lia|].
      rewrite Htch in P3. exact P3.
    + destruct (e =? EAGAIN) eqn:E2.
      * destruct (kwait wk tmo ka) as [[w kb]| | |] eqn:Ew; try discriminate.
        destruct (kwait_spec _ _ _ _ _ Ew) as (Ws & Wt & Wel & Wc).
        destruct (w =? 0) eqn:Ew0.
        -- assert (Hwfb : wf_script (k_sys kb)) by (rewrite Ws; assumption).
           destruct (IH _ _ _ _ _ _ _ _ Hv Hwfb H) as [(P1 & P2 & P3) P4].
           split; [|auto]. split; [assumption|]. split; [rewrite Ws in P2; lia|].
           rewrite Wt, Htch in P3. exact P3.
        -- inversion H; subst; clear H. apply Z.eqb_neq in Ew0.
           destruct Wc as [[? _]|[_ Wf]]; [contradiction|].
           split; [|auto]. split; [rewrite Ws; assumption|]. split; [rewrite Ws; assumption|].
           right. split; [reflexivity|]. split; [rewrite Wt; assumption|assumption].
      * inversion H; subst; clear H. apply Z.eqb_neq in E1. apply Z.eqb_neq in E2.
        split; [|assumption]. split; [assumption|]. split; [assumption|].
        right. split; [reflexivity|]. split; [assumption|].
        unfold fail_reason. rewrite Hlog. repeat split; auto.
Qed.

Lemma ksys_len kind fl v k r ka : ksys kind fl v k = Some (r, ka) -> S (length (k_sys ka)) = length (k_sys k).
Proof.
  unfold ksys. destruct (k_sys k) as [|a rest]; [discriminate|].
  destruct a; intros H; inversion H; subst; reflexivity.
Qed.

Lemma kwait_no_oof kind tmo k : kwait kind tmo k <> OutOfFuel.
Proof.
  unfold kwait. destruct (k_wt k) as [|a rest]; [discriminate|].
  destruct (remaining tmo (k_elapsed k)); destruct a; try discriminate;
    match goal with |- context [if ?c then _ else _] => destruct c end; discriminate.
Qed.

Lemma doio_once_fuel : forall fuel sk fl wk tmo v k,
  (length (k_sys k) < fuel)%nat -> doio_once fuel sk fl wk tmo v k <> OutOfFuel.
Proof.
  induction fuel as [|f IH]; intros sk fl wk tmo v k Hlen; [lia|].
  cbn [doio_once]. destruct (ksys sk fl v k) as [[r ka]|] eqn:Ek; [|discriminate].
  apply ksys_len in Ek.
  destruct (r <? 0); [|discriminate].
  destruct (k_errno ka =? EINTR). { apply IH. lia. }
  destruct (k_errno ka =? EAGAIN); [|discriminate].
  destruct (kwait wk tmo ka) as [[w kb]| | |] eqn:Ew; try discriminate.
  - destruct (w =? 0); [|discriminate]. apply IH. rewrite (proj1 (kwait_spec _ _ _ _ _ Ew)). lia.
  - exfalso. exact (kwait_no_oof _ _ _ Ew).
Qed.

(* result of a full-count loop that started with n bytes already counted and view v *)
Definition loop_post (v : view) (n : Z) (k : kst) (ret : Z) (k' : kst) : Prop :=
  exists m : nat,
    (m <= length (flat v))%nat /\ tch k' = tch k ++ firstn m (flat v) /\
    ((ret = n + Z.of_nat m /\ (m = length (flat v) \/ eof k')) \/ (ret = -1 /\ fail_reason k')).

Lemma loop_v_spec : forall fuel sk fl wk tmo v n k ret k',
  wf_view v -> head_ok v -> wf_script (k_sys k) ->
  loop_v fuel sk fl wk tmo v n k = Done (ret, k') ->
  loop_post v n k ret k' /\ (el_ok tmo k -> el_ok tmo k').
Proof.
  induction fuel as [|f IH]; intros sk fl wk tmo v n k ret k' Hv Hh Hs H; [discriminate|].
  cbn [loop_v] in H.
  destruct (doio_once (S f) sk fl wk tmo v k) as [[r k1]| | |] eqn:Eo; try discriminate.
  destruct (doio_once_spec _ _ _ _ _ _ _ _ _ Hv Hs Eo) as [(Hwf1 & Hlen & Hc) Hel].
  pose proof (flat_length v Hv) as Hfl.
  destruct Hc as [(Hr & Htch & (l & Hlog)) | (-> & Htch & Hf)].
  - destruct (r <? 0) eqn:Hneg; [apply Z.ltb_lt in Hneg; lia|].
    destruct (r =? 0) eqn:Hz.
    + apply Z.eqb_eq in Hz. subst r. inversion H; subst; clear H. split; [|assumption].
      exists 0%nat. split; [lia|]. split; [cbn [firstn] in *; exact Htch|]. left. split; [lia|].
      destruct (head_ok_vsum v Hv Hh) as [He|Hp]; [left; rewrite He; reflexivity|right].
      unfold eof. rewrite Hlog. exact Hp.
    + apply Z.eqb_neq in Hz.
      destruct (extract_front_spec v r Hv ltac:(lia)) as (Hwe & Hsplit).
      destruct (skip_empty_spec 0 _ Hwe) as (Hws & Hfs).
      set (v2 := skip_empty 0 (snd (extract_front r v))) in *.
      assert (Hlenm : (Z.to_nat r <= length (flat v))%nat) by lia.
      destruct (0 <? Z.of_nat (length v2)) eqn:Hcont.
      * assert (Hh2 : head_ok v2) by (apply skip_empty_head; [lia|exact Hwe]).
        destruct (IH _ _ _ _ _ _ _ _ _ Hws Hh2 Hwf1 H) as [(m & Hm & Ht & Hres) Hel2].
        split; [|auto].
        exists (Z.to_nat r + m)%nat.
        assert (Hl1 : length (firstn (Z.to_nat r) (flat v)) = Z.to_nat r) by (apply firstn_length_le; lia).
        rewrite <- Hfs in Hsplit.
        remember (firstn (Z.to_nat r) (flat v)) as A eqn:HA.
        split. { rewrite Hsplit, app_length, Hl1. lia. }
        split.
        { rewrite Ht, Htch, <- app_assoc. f_equal.
          rewrite Hsplit, <- Hl1. symmetry. apply firstn_app_2. }
        destruct Hres as [(Hret & Hfull)|Hfail]; [left|right; assumption].
        split; [lia|]. destruct Hfull as [Hfull|Heof]; [left|right; assumption].
        rewrite Hsplit, app_length, Hl1. lia.
      * inversion H; subst; clear H. split; [|assumption].
        assert (Hv2 : v2 = []) by (destruct v2; [reflexivity|cbn in Hcont; discriminate]).
        rewrite <- Hfs in Hsplit. rewrite Hv2 in Hsplit. cbn [flat] in Hsplit. rewrite app_nil_r in Hsplit.
        exists (Z.to_nat r). split; [assumption|]. split; [assumption|]. left. split; [lia|]. left.
        rewrite Hsplit at 1. rewrite firstn_length. lia.
  - cbn in H. inversion H; subst; clear H. split; [|assumption].
    exists 0%nat. split; [lia|]. split; [cbn [firstn]; rewrite app_nil_r; assumption|]. right. auto.
Qed.

(* BufStep(buf, count) walks the one-element view: extract_front leaves (buf + ret, count - ret), or nothing *)
Lemma loop_buf_as_v : forall fuel sk fl wk tmo buf count n k,
  0 <= count < W64 -> wf_script (k_sys k) ->
  loop_buf fuel sk fl wk tmo buf count n k = loop_v fuel sk fl wk tmo [mkiov buf count] n k.
Proof.
  induction fuel as [|f IH]; intros sk fl wk tmo buf count n k Hc Hs; [reflexivity|].
  cbn [loop_buf loop_v].
  assert (Hv : wf_view [mkiov buf count]) by (constructor; [cbn; lia|constructor]).
  destruct (doio_once (S f) sk fl wk tmo [mkiov buf count] k) as [[r k1]| | |] eqn:Eo; try reflexivity.
  destruct (doio_once_spec _ _ _ _ _ _ _ _ _ Hv Hs Eo) as [(Hwf1 & _ & Hcs) _].
  destruct (Z.ltb_spec r 0) as [Hneg|Hneg]; [reflexivity|]. destruct (r =? 0) eqn:Hz; [reflexivity|]. apply Z.eqb_neq in Hz.
  destruct Hcs as [(Hr & _)|(-> & _)]; [|lia]. cbn [vsum len] in Hr.
  replace (u64_sub count r) with (count - r) by (symmetry; apply wrap_small; lia).
  unfold extract_front. replace (r =? 0) with false by (symmetry; apply Z.eqb_neq, Hz).
  cbn [ef_loop len base]. replace (r <=? count) with true by (symmetry; apply Z.leb_le; lia).
  destruct (Z.eqb_spec (count - r) 0) as [E|E]; cbn [snd skip_empty length len Z.of_nat Z.ltb Z.compare andb].
  - rewrite E. reflexivity.
  - replace (count - r =? 0) with false by (symmetry; apply Z.eqb_neq, E).
    replace (0 <? count - r) with true by (symmetry; apply Z.ltb_lt; lia). apply IH; [lia|exact Hwf1].
Qed.

Lemma loop_v_fuel : forall fuel sk fl wk tmo v n k,
  wf_view v -> wf_script (k_sys k) ->
  (length (k_sys k) < fuel)%nat -> loop_v fuel sk fl wk tmo v n k <> OutOfFuel.
Proof.
  induction fuel as [|f IH]; intros sk fl wk tmo v n k Hv Hs Hlen; [lia|].
  cbn [loop_v].
  destruct (doio_once (S f) sk fl wk tmo v k) as [[r k1]| | |] eqn:Eo; try discriminate.
  - destruct (doio_once_spec _ _ _ _ _ _ _ _ _ Hv Hs Eo) as [(Hwf1 & Hl & Hc) _].
    destruct (r <? 0) eqn:Hn; [discriminate|]. destruct (r =? 0) eqn:Hz; [discriminate|].
    match goal with |- context [if ?c then _ else _] => destruct c end; [|discriminate].
    apply Z.eqb_neq in Hz.
    destruct Hc as [(Hr & _)|(-> & _)]; [|discriminate].
    destruct (extract_front_spec v r Hv ltac:(lia)) as (Hwe & _).
    apply IH; [apply skip_empty_spec; assumption | assumption | lia].
  - exfalso. eapply doio_once_fuel; [|exact Eo]. lia.
Qed.
