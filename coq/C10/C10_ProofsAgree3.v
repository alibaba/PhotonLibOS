(* C10 part 2 — engine_kernel_agree, final part: every step preserves the invariant. *)
From Coq Require Import ZArith List Lia Bool.
From PV Require Import C10.C10_Engine C10.C10_ProofsEngine C10.C10_ProofsRearm C10.C10_ProofsAgree C10.C10_ProofsAgree2.
Import ListNotations.
Local Open Scope Z_scope.

Lemma k_scan_spec k0 : forall l max fd e, kfind fd l = Some e ->
  exists e', kfind fd (snd (k_scan k0 max l)) = Some e' /\ ke_events e' = ke_events e /\
    (e' = e \/ (reportable k0 e <> 0 /\ In (fd, reportable k0 e) (fst (k_scan k0 max l)))).
Proof.
  induction l as [|x r IH]; intros max fd e H; [discriminate|].
  cbn [kfind] in H. cbn [k_scan]. destruct max as [|mx].
  - cbn [snd fst kfind]. destruct (ke_fd x =? fd); [exists e; inversion H; subst; auto|exists e; auto].
  - destruct (reportable k0 x =? 0) eqn:Er.
    + destruct (k_scan k0 (S mx) r) as [evs l'] eqn:Es. cbn [fst snd kfind].
      destruct (ke_fd x =? fd) eqn:Ex; [inversion H; subst; exists e; auto|].
      specialize (IH (S mx) fd e H). rewrite Es in IH. exact IH.
    + destruct (k_scan k0 mx r) as [evs l'] eqn:Es. cbn [fst snd kfind].
      apply Z.eqb_neq in Er.
      destruct (ke_fd x =? fd) eqn:Ex.
      * inversion H; subst. apply Z.eqb_eq in Ex.
        destruct (has (ke_events e) EPOLLONESHOT || has (ke_events e) EPOLLET); cbn [ke_fd]; rewrite Ex, Z.eqb_refl;
          eexists; (split; [reflexivity|]); (split; [reflexivity|]); right; (split; [exact Er|left; reflexivity]).
      * assert (Hx : ke_fd (if has (ke_events x) EPOLLONESHOT || has (ke_events x) EPOLLET
                             then mkkent (ke_fd x) (ke_events x) false else x) = ke_fd x)
          by (destruct (has (ke_events x) EPOLLONESHOT || has (ke_events x) EPOLLET); reflexivity).
        rewrite Hx, Ex. specialize (IH mx fd e H). rewrite Es in IH. cbn [fst snd] in IH.
        destruct IH as (e' & A & B & C). exists e'. split; [exact A|]. split; [exact B|].
        destruct C as [C|[C1 C2]]; [left; exact C|right; split; [exact C1|right; exact C2]].
Qed.

Lemma kfind_fd fd l e : kfind fd l = Some e -> ke_fd e = fd.
Proof.
  induction l as [|x r IH]; [discriminate|]. cbn [kfind]. destruct (ke_fd x =? fd) eqn:E; [|exact IH].
  intros H; inversion H; subst. apply Z.eqb_eq. exact E.
Qed.

(* the five bits a report can carry, and what the engine's three tests see of them *)
Lemma rep_bits a b c d e :
  let rep := Z.lor (bit_if a EPOLLIN) (Z.lor (bit_if b EPOLLOUT) (Z.lor (bit_if c EPOLLRDHUP)
                   (Z.lor (bit_if d EPOLLERR) (bit_if e EPOLLHUP)))) in
  (rep =? 0) = negb (a || b || c || d || e) /\
  has rep ERRBIT = d /\ has rep READBITS = a || c || d || e /\ has rep WRITEBITS = b || d || e.
Proof. destruct a, b, c, d, e; repeat split. Qed.

Lemma translate_bits m : 1 <= m <= 7 ->
  let ev := Z.lor (translate m) EPOLLONESHOT in
  has ev EPOLLIN = has m 1 /\ has ev EPOLLOUT = has m 2 /\ has ev EPOLLRDHUP = has m 1 /\
  has m 1 || has m 2 || has m 4 = true /\ (has m 1 = false -> has m 2 = false -> m = 4).
Proof. intros H. enum7 m; repeat split; try reflexivity; try lia; discriminate. Qed.

(* a report for an armed one-shot entry translate(m)|ONESHOT fires some registered direction, unless the entry is
   for EVENT_ERROR only and the descriptor reports HUP without ERR (the F32 class) *)
Lemma report_fires m k0 e :
  1 <= m <= 7 -> ke_events e = Z.lor (translate m) EPOLLONESHOT -> ke_armed e = true ->
  reportable k0 e <> 0 ->
  (m = 4 -> has (assoc (ke_fd e) (kn_ready k0)) EPOLLHUP = true -> has (assoc (ke_fd e) (kn_ready k0)) EPOLLERR = true) ->
  will_fire m (reportable k0 e) = true.
Proof.
  intros Hm Hev Ha. unfold reportable, will_fire. rewrite Ha, Hev.
  destruct (translate_bits m Hm) as (T1 & T2 & T3 & T4 & T5). rewrite T1, T2, T3.
  set (r := assoc (ke_fd e) (kn_ready k0)).
  destruct (rep_bits (has r EPOLLIN && has m 1) (has r EPOLLOUT && has m 2) (has r EPOLLRDHUP && has m 1)
                     (has r EPOLLERR) (has r EPOLLHUP)) as (B0 & B1 & B2 & B3).
  intros Hr Hg. rewrite B1, B2, B3. apply Z.eqb_neq in Hr. rewrite B0 in Hr.
  assert (Hg' : has m 1 = false -> has m 2 = false -> has r EPOLLHUP = true -> has r EPOLLERR = true)
    by (intros H1 H2; apply Hg, T5; assumption).
  change EV_ERROR with 4. change EV_READ with 1. change EV_WRITE with 2. clear - Hr Hg' T4.
  destruct (has m 1), (has m 2), (has m 4), (has r EPOLLERR), (has r EPOLLHUP), (has r EPOLLIN), (has r EPOLLOUT),
    (has r EPOLLRDHUP); try reflexivity; try discriminate; specialize (Hg' eq_refl eq_refl eq_refl); discriminate.
Qed.

Definition f32_free (s : st) : Prop :=
  forall fd, i_int (tab_get fd (s_tab s)) = ONE_SHOT + 4 ->
    has (assoc fd (kn_ready (s_k s))) EPOLLHUP = true -> has (assoc fd (kn_ready (s_k s))) EPOLLERR = true.

Lemma k_wait_pres s :
  Pinv s [] [] -> f32_free s ->
  forall P, (forall x, In x (fst (k_wait 16 (s_k s))) -> In x P) ->
  Pinv (upd_k (snd (k_wait 16 (s_k s))) s) P [].
Proof.
  intros ([V R E N] & Hk & Hw) Hg P HP. unfold k_wait.
  destruct (k_scan (s_k s) 16 (kn_list (s_k s))) as [evs l'] eqn:Es. cbn [fst snd] in *.
  assert (Hsc : forall fd e, kfind fd (kn_list (s_k s)) = Some e ->
            exists e', kfind fd l' = Some e' /\ ke_events e' = ke_events e /\
              (e' = e \/ (reportable (s_k s) e <> 0 /\ In (fd, reportable (s_k s) e) evs))).
  { intros fd e H. pose proof (k_scan_spec (s_k s) _ 16 fd e H) as X. rewrite Es in X. exact X. }
  assert (HP' : forall x, In x evs -> In x P).
  { intros x Hx. apply HP. unfold k_wait. rewrite Es. exact Hx. }
  split; [|split].
  - constructor; cbn [s_tab s_size s_evfd s_thr s_k upd_k kn_list]; try assumption.
    destruct E as (E1 & (e & E2) & E3). split; [exact E1|]. split; [|exact E3].
    destruct (Hsc EVFD e E2) as (e' & A & _). exists e'. exact A.
  - intros fd m Hm Hi. cbn [s_tab upd_k] in Hi. cbn [s_k upd_k kn_list].
    destruct (Hk fd m Hm Hi) as (e & A & B & C). destruct C as [C|(rep & [] & _)].
    destruct (Hsc fd e A) as (e' & A' & B' & C'). exists e'. split; [exact A'|]. split; [congruence|].
    destruct C' as [->|[C1 C2]]; [left; exact C|right].
    exists (reportable (s_k s) e). split; [apply HP'; exact C2|].
    apply report_fires; try assumption. intros -> Hh. pose proof (kfind_fd _ _ _ A) as Hfd. rewrite Hfd in *.
    apply (Hg fd Hi Hh).
  - exact Hw.
Qed.

(* thread t's entry is rewritten: every other waiter keeps its registration or its place among the fired, and a new
   waiting state of t must be registered in the table *)
Lemma thr_set_pres s t w fired fired' s' :
  Pinv s [] fired -> same_core (upd_thr (thr_set t w (s_thr s)) s) s' ->
  (forall t', In t' fired -> t' = t \/ In t' fired') ->
  (forall fd i d, w = Waiting fd i d ->
     is_dir i /\ has (i_int (tab_get fd (s_tab s))) i = true /\ dir_data i (tab_get fd (s_tab s)) = t) ->
  Pinv s' [] fired'.
Proof.
  intros ([V R E N] & Hk & Hw) Hc Hf Hnew. apply (Pinv_core _ s' _ _ Hc). split; [|split].
  - constructor; cbn [s_tab s_size s_evfd s_k s_thr upd_thr]; try assumption. apply thr_set_nodup. exact N.
  - exact Hk.
  - intros t' fd j d Hin. cbn [s_thr s_tab upd_thr] in *.
    destruct (Z.eq_dec t t') as [<-|Hne].
    + rewrite thr_get_set_same in Hin. injection Hin as Hx.
      destruct (Hnew fd j d Hx) as [A B]. split; [exact A|left; exact B].
    + rewrite thr_get_set_other in Hin by exact Hne.
      destruct (Hw _ _ _ _ Hin) as (Hdj & [Hreg|Hfd]); split; try exact Hdj; [left; exact Hreg|].
      destruct (Hf _ Hfd) as [Et|Hin']; [contradiction (Hne (eq_sym Et))|right; exact Hin'].
Qed.

Lemma fin_pres s t lg : Pinv s [] [] -> Pinv (add_log lg (upd_thr (thr_set t Finished (s_thr s)) s)) [] [].
Proof.
  intros HP. apply (thr_set_pres s t Finished [] [] _ HP); [repeat split|intros ? []|discriminate].
Qed.

(* the fired threads run one after the other; one that is not asleep any more has nothing registered *)
Lemma wake_pres : forall out s, Pinv s [] out ->
  Pinv (fold_left wake_event out s) [] [] /\ s_batch (fold_left wake_event out s) = s_batch s.
Proof.
  induction out as [|t r IH]; intros s HP; [split; [exact HP|reflexivity]|]. cbn [fold_left].
  assert (H1 : Pinv (wake_event s t) [] r /\ s_batch (wake_event s t) = s_batch s).
  { unfold wake_event. destruct (thr_get t (s_thr s)) as [[fd i d|]|] eqn:Eg.
    1: { split; [|reflexivity]. apply (thr_set_pres s t Finished (t :: r) r _ HP); [repeat split| |discriminate].
         intros t' [<-|H]; [left; reflexivity|right; exact H]. }
    all: split; [|reflexivity]; destruct HP as (I0 & Hk & Hw); (split; [exact I0|split; [exact Hk|]]);
      intros t' fd i d Hin; destruct (Hw _ _ _ _ Hin) as (Hd & [Hr|[<-|Hf]]);
      [split; [exact Hd|left; exact Hr]| |split; [exact Hd|right; exact Hf]];
      rewrite Hin in Eg; discriminate. }
  destruct H1 as [A B]. destruct (IH _ A) as [C D]. split; [exact C|congruence].
Qed.

Lemma poll_pres s : Inv s -> f32_free s -> Inv (do_step SPoll s).
Proof.
  intros [HP Hb] Hg. cbn [do_step]. unfold wait_for_events. rewrite Hb.
  destruct (k_wait 16 (s_k s)) as [evs k'] eqn:Ew.
  set (s1 := add_log (LWait evs) (upd_batch evs (upd_k k' s))).
  assert (HP1 : Pinv s1 (rev evs) []).
  { apply (Pinv_core (upd_k k' s) s1); [repeat split|].
    pose proof (k_wait_pres s HP Hg (rev evs)) as X. rewrite Ew in X. cbn [fst snd] in X. apply X.
    intros x Hx. apply -> in_rev. exact Hx. }
  replace (s_batch s1) with evs by reflexivity.
  pose proof (process_pres (rev evs) s1 [] HP1) as A.
  pose proof (process_master_drains (rev evs) s1 []) as Hd.
  destruct (process (rev evs) None s1 []) as [[out lft] s2]. cbn [fst snd] in *. subst lft. cbn [rev].
  assert (HP3 : Pinv (upd_batch [] s2) [] out) by (apply (Pinv_core s2); [repeat split|exact A]).
  destruct (wake_pres out _ HP3) as [C D]. split; [exact C|rewrite D; reflexivity].
Qed.

Lemma has_dir_cases i j : is_dir i -> is_dir j -> i <> j -> has i j = false.
Proof. intros [-> | [-> | ->]] [-> | [-> | ->]] H; try congruence; reflexivity. Qed.

Lemma wait_fail_pres s t fd i e :
  Pinv s [] [] -> is_dir i -> has (i_int (tab_get fd (s_tab s))) i = true -> dir_data i (tab_get fd (s_tab s)) = t ->
  Pinv (wait_fail t fd i e s) [] [] /\ s_batch (wait_fail t fd i e s) = s_batch s.
Proof.
  intros HP Hdir Hh Hd. pose proof HP as ([V R E N] & Hk & Hw).
  destruct (V fd) as [Hx|(m & Hm & Hx)]; [rewrite Hx in Hh; destruct Hdir as [-> | [-> | ->]]; discriminate|].
  rewrite Hx, (dir_has_mask m i Hm Hdir) in Hh.
  pose proof (ar_dir_range i Hdir) as Hir.
  assert (Hne : Z.land i m <> 0).
  { clear - Hh Hdir Hm. destruct Hdir as [-> | [-> | ->]]; enum7 m; cbn in *; (discriminate || lia). }
  destruct (rm_misc fd i s) as (_ & _ & _ & Ba & _). unfold wait_fail. split; [|exact Ba].
  apply (thr_set_pres (snd (rm_interest fd i s)) t Finished [t] []);
    [|repeat split|intros t' [<-|[]]; left; reflexivity|discriminate].
  apply (rm_pres s fd i m [] [] [] HP); try assumption; try lia.
  - intros ? ? _ [].
  - intros t' j d Hin. destruct (Hw t' fd j d Hin) as (Hdj & [(Hhj & Hdd)|[]]).
    destruct (Z.eq_dec i j) as [<-|Hij]; [right; right; left; congruence|].
    right. left. apply has_dir_cases; assumption.
  - intros ? [].
Qed.

Lemma dir_data_set i j t entry x : is_dir i -> is_dir j ->
  dir_data j (mkife x (if i =? 1 then t else i_rd entry) (if i =? 2 then t else i_wr entry) (if i =? 4 then t else i_er entry))
  = if i =? j then t else dir_data j entry.
Proof. intros [-> | [-> | ->]] [-> | [-> | ->]]; reflexivity. Qed.

Lemma begin_pres s t fd i tmo :
  Inv s -> is_dir i -> thr_get t (s_thr s) = None -> Inv (wait_for_fd_begin t fd i tmo s).
Proof.
  intros [HP Hb] Hdir Hfresh. pose proof HP as ([V R E N] & Hk & Hw).
  unfold wait_for_fd_begin.
  destruct (fd <? 0) eqn:Efd.
  { split; [apply fin_pres; apply (Pinv_core s); [repeat split|exact HP]|exact Hb]. }
  apply Z.ltb_ge in Efd.
  replace (negb (Z.land i (i - 1) =? 0)) with false by (destruct Hdir as [-> | [-> | ->]]; reflexivity).
  replace (i =? 0) with false by (destruct Hdir as [-> | [-> | ->]]; reflexivity).
  assert (Hm : exists m, 0 <= m <= 7 /\ (i_int (tab_get fd (s_tab s)) = 0 /\ m = 0 \/ i_int (tab_get fd (s_tab s)) = ONE_SHOT + m)).
  { destruct (V fd) as [Hx|(m & Hm & Hx)]; [exists 0; split; [lia|left; auto]|exists m; auto]. }
  destruct Hm as (m & Hm & Hx).
  pose proof (add_interest_spec fd i t s m Efd Hdir Hm Hx) as Spec. cbv zeta in Spec.
  destruct (add_interest fd (Z.lor i ONE_SHOT) t s) as [r s1]. cbn [fst snd] in Spec.
  set (entry := tab_get fd (s_tab s)) in *.
  destruct Spec as ((Th & Ev & Ba & No & Rd & Sz) & [(-> & T & K)|(-> & Hconf & T & Kfd & Kfr & Knone & Sz1)]).
  - (* add_interest failed: nothing is registered *)
    replace (-1 <? 0) with true by reflexivity.
    assert (HP1 : Pinv s1 [] []).
    { split; [|split].
      - constructor; rewrite ?T, ?K, ?Th, ?Ev; try assumption. intros fd' H. specialize (R fd' H). lia.
      - unfold kern_ok. rewrite T, K. exact Hk.
      - unfold wait_ok. rewrite T, Th. exact Hw. }
    split; [apply fin_pres; exact HP1|]. cbn. congruence.
  - replace (0 <? 0) with false by reflexivity.
    destruct (ar_merge i m Hdir Hm) as (_ & _ & M3 & M5).
    assert (Hfe : fd <> EVFD).
    { intros ->. destruct E as (_ & (e & E2) & E3). fold entry in E3. rewrite (Knone E3) in E2. discriminate. }
    assert (Hget : tab_get fd (s_tab s1) = mkife (ONE_SHOT + Z.lor m i) (if i =? 1 then t else i_rd entry)
                     (if i =? 2 then t else i_wr entry) (if i =? 4 then t else i_er entry))
      by (rewrite T; apply tab_get_set_same).
    assert (Hoth : forall fd', fd <> fd' -> tab_get fd' (s_tab s1) = tab_get fd' (s_tab s))
      by (intros fd' Hd; rewrite T; apply tab_get_set_other; exact Hd).
    assert (HP1 : Pinv s1 [] []).
    { split; [|split].
      - constructor.
        + intros fd'. destruct (Z.eq_dec fd fd') as [<-|Hd]; [rewrite Hget; right; exists (Z.lor m i); auto|rewrite (Hoth fd' Hd); apply V].
        + intros fd'. destruct (Z.eq_dec fd fd') as [<-|Hd]; [intros _; lia|]. rewrite (Hoth fd' Hd). intros H. specialize (R fd' H). lia.
        + rewrite Ev. destruct E as (E1 & E2 & E3). split; [exact E1|]. rewrite (Kfr EVFD Hfe), (Hoth EVFD Hfe). auto.
        + rewrite Th. exact N.
      - intros fd' m' Hm' Hi'. destruct (Z.eq_dec fd fd') as [<-|Hd].
        + rewrite Hget in Hi'. cbn [i_int] in Hi'. assert (m' = Z.lor m i) by (unfold ONE_SHOT in Hi'; lia). subst m'.
          eexists. split; [exact Kfd|]. split; [reflexivity|left; reflexivity].
        + rewrite (Hoth fd' Hd) in Hi'. rewrite (Kfr fd' Hd). apply Hk; assumption.
      - intros t' fd' j d Hin. rewrite Th in Hin. destruct (Hw t' fd' j d Hin) as (Hdj & [(Hh & Hd)|[]]). split; [exact Hdj|left].
        destruct (Z.eq_dec fd fd') as [<-|Hdf]; [|rewrite (Hoth fd' Hdf); auto].
        fold entry in Hh, Hd.
        assert (Hxm : i_int entry = ONE_SHOT + m).
        { destruct Hx as [[Hx0 _]|Hx']; [|exact Hx']. rewrite Hx0 in Hh. destruct Hdj as [-> | [-> | ->]]; discriminate. }
        rewrite Hxm, (dir_has_mask m j Hm Hdj) in Hh.
        destruct (Z.eq_dec i j) as [<-|Hij].
        * rewrite <- (Hconf Hh), Hd, Hin in Hfresh. discriminate.
        * rewrite Hget. cbn [i_int]. rewrite (dir_has_mask _ j M3 Hdj), (ar_merge_other i j m Hdir Hdj Hij Hm), Hh.
          split; [reflexivity|]. rewrite (dir_data_set i j t entry _ Hdir Hdj).
          replace (i =? j) with false by (symmetry; apply Z.eqb_neq; exact Hij). exact Hd. }
    assert (Hreg : has (i_int (tab_get fd (s_tab s1))) i = true /\ dir_data i (tab_get fd (s_tab s1)) = t).
    { rewrite Hget. cbn [i_int]. rewrite (dir_has_mask _ i M3 Hdir), M5. split; [reflexivity|].
      rewrite (dir_data_set i i t entry _ Hdir Hdir), Z.eqb_refl. reflexivity. }
    destruct (tmo =? 0).
    + destruct (wait_fail_pres s1 t fd i ETIMEDOUT HP1 Hdir (proj1 Hreg) (proj2 Hreg)) as [A B]. split; [exact A|]. congruence.
    + split; [|cbn; congruence]. eapply (thr_set_pres s1 t _ [] [] _ HP1); [repeat split|intros ? []|].
      intros fd0 i0 d0 Hw0. inversion Hw0; subst. exact (conj Hdir Hreg).
Qed.

Definition step_ok (s : st) (x : step) : Prop :=
  match x with
  | SWait t fd i tmo => is_dir i /\ thr_get t (s_thr s) = None   (* a valid direction, a new thread *)
  | SIntr t e => e <> EOK
  | SPoll => f32_free s                                            (* the complement of finding F32 *)
  | SReady _ _ | SSleep _ | SKick => True
  | SClose _ | SAdd _ _ _ | SRm _ _ _ | SEvents _ _ => False       (* descriptor closed under the engine; cascading API *)
  end.

Lemma next_expiry_in limit : forall l best t fd i d,
  next_expiry limit l best = Some (t, fd, i, d) -> best = Some (t, fd, i, d) \/ In (t, Waiting fd i d) l.
Proof.
  induction l as [|[x w] r IH]; intros best t fd i d H; [left; exact H|].
  cbn [next_expiry] in H. destruct w as [fd' i' d'|].
  - match type of H with context [if ?c then _ else _] => destruct c end.
    + destruct (IH _ t fd i d H) as [X|X]; [inversion X; subst; right; left; reflexivity|right; right; exact X].
    + destruct (IH _ t fd i d H) as [X|X]; [left; exact X|right; right; exact X].
  - destruct (IH _ t fd i d H) as [X|X]; [left; exact X|right; right; exact X].
Qed.

Lemma expire_pres : forall fuel limit s, Inv s -> Inv (expire_until fuel limit s).
Proof.
  induction fuel as [|f IH]; intros limit s HI; [exact HI|]. cbn [expire_until].
  destruct (next_expiry limit (s_thr s) None) as [[[[t fd] i] d]|] eqn:En; [|exact HI].
  destruct (next_expiry_in limit (s_thr s) None t fd i d En) as [X|Hin]; [discriminate|].
  apply IH. destruct HI as [HP Hb]. pose proof HP as (I0 & _ & Hw).
  destruct (Hw t fd i d (in_thr_get _ _ _ (i_keys _ I0) Hin)) as (Hdir & [(Hh & Hd)|[]]).
  assert (HP' : Pinv (upd_now d s) [] []) by (apply (Pinv_core s); [repeat split|exact HP]).
  destruct (wait_fail_pres (upd_now d s) t fd i ETIMEDOUT HP' Hdir Hh Hd) as [A B]. split; [exact A|]. rewrite B. exact Hb.
Qed.

Lemma step_pres s x : Inv s -> step_ok s x -> Inv (do_step x s).
Proof.
  intros HI Hok. destruct x; cbn [step_ok] in Hok; try contradiction.
  - destruct Hok as [Hd Hf]. apply begin_pres; assumption.
  - destruct HI as [HP Hb]. cbn [do_step]. split; [apply (Pinv_core s); [repeat split|exact HP]|exact Hb].
  - apply poll_pres; assumption.
  - cbn [do_step]. destruct (thr_get t (s_thr s)) as [[fd i d|]|] eqn:Eg; try exact HI.
    replace (e =? EOK) with false by (symmetry; apply Z.eqb_neq; exact Hok).
    destruct HI as [HP Hb]. pose proof HP as (_ & _ & Hw).
    destruct (Hw t fd i d Eg) as (Hdir & [(Hh & Hd)|[]]).
    destruct (wait_fail_pres s t fd i e HP Hdir Hh Hd) as [A B]. split; [exact A|congruence].
  - cbn [do_step]. pose proof (expire_pres (length (s_thr s)) (s_now s + d) s HI) as [HP Hb].
    split; [apply (Pinv_core (expire_until (length (s_thr s)) (s_now s + d) s)); [repeat split|exact HP]|exact Hb].
  - destruct HI as [HP Hb]. cbn [do_step]. split; [|exact Hb].
    destruct HP as ([V R E N] & Hk & Hw). unfold k_kick.
    destruct (kfind (s_evfd s) (kn_list (s_k s))) as [e0|] eqn:Ee.
    + assert (Hfr : forall fd', s_evfd s <> fd' -> kfind fd' (kreplace (mkkent (s_evfd s) (ke_events e0) true) (kn_list (s_k s))) = kfind fd' (kn_list (s_k s)))
        by (intros fd' Hd; apply kfind_kreplace_other; exact Hd).
      split; [|split].
      * constructor; cbn [s_tab s_size s_evfd s_k s_thr upd_k kn_list]; try assumption.
        destruct E as (E1 & E2 & E3). split; [exact E1|]. split; [|exact E3].
        rewrite E1 in *. eexists. eapply kfind_kreplace_same. exact Ee.
      * intros fd m Hm Hi. cbn [s_tab upd_k] in Hi. cbn [s_k upd_k kn_list].
        destruct (Z.eq_dec (s_evfd s) fd) as [Hd|Hd]; [|rewrite (Hfr fd Hd); apply Hk; assumption].
        exfalso. destruct E as (E1 & _ & E3). rewrite <- Hd, E1, E3 in Hi. unfold ONE_SHOT in Hi. lia.
      * exact Hw.
    + apply (Pinv_core s); [repeat split|]. split; [constructor; assumption|auto].
Qed.

Fixpoint guarded (steps : list step) (s : st) : Prop :=
  match steps with
  | [] => True
  | x :: r => step_ok (add_log LMark s) x /\ guarded r (do_step x (add_log LMark s))
  end.

Lemma init_inv : Inv init_st.
Proof.
  split; [|reflexivity]. split; [|split].
  - constructor.
    + intros fd. left. reflexivity.
    + intros fd H. exfalso. apply H. reflexivity.
    + split; [reflexivity|]. split; [eexists; vm_compute; reflexivity|reflexivity].
    + constructor.
  - intros fd m Hm Hi. change (0 = ONE_SHOT + m) in Hi. unfold ONE_SHOT in Hi. lia.
  - intros t fd i d H. discriminate H.
Qed.

Lemma run_inv : forall steps s, Inv s -> guarded steps s -> Inv (fold_left (fun s x => do_step x (add_log LMark s)) steps s).
Proof.
  induction steps as [|x r IH]; intros s HI Hg; [exact HI|]. cbn [fold_left]. destruct Hg as [Hok Hr].
  apply IH; [|exact Hr]. apply step_pres; [|exact Hok].
  destruct HI as [HP Hb]. split; [apply (Pinv_core s); [repeat split|exact HP]|exact Hb].
Qed.

(* engine_kernel_agree: where the invariant holds (so in every state reached by a guarded script), every thread that
   waits for (fd, direction) has the kernel entry of fd armed for (at least) the translation of that direction *)
Lemma Inv_agree s : Inv s -> engine_kernel_agree_at s.
Proof.
  intros [([V R E N] & Hk & Hw) _] t fd i d Hin.
  destruct (Hw t fd i d (in_thr_get _ _ _ N Hin)) as (Hdir & [(Hh & _)|[]]).
  destruct (V fd) as [Hx|(m & Hm & Hx)]; [rewrite Hx in Hh; destruct Hdir as [-> | [-> | ->]]; discriminate|].
  rewrite Hx, (dir_has_mask m i Hm Hdir) in Hh.
  assert (Hm1 : 1 <= m <= 7) by (split; [eapply ar_has_dir_pos; eassumption|lia]).
  destruct (Hk fd m Hm1 Hx) as (e & A & B & [C|(rep & [] & _)]).
  unfold armed_for. rewrite A, C, B. cbn [andb]. apply ar_armed; assumption.
Qed.

(* the guard is met by a non-trivial script: reader and writer on one descriptor, a timeout, readiness, an interrupt *)
Example guarded_example :
  guarded [SWait 1 5 EV_READ 7; SWait 2 5 EV_WRITE (-1); SSleep 10; SReady 5 (Z.lor EPOLLIN EPOLLHUP);
           SWait 3 5 EV_READ (-1); SIntr 3 4; SKick] init_st.
Proof. cbn [guarded step_ok]. repeat split; try (vm_compute; auto; fail); try discriminate; vm_compute; auto. Qed.
