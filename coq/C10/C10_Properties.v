From Coq Require Import ZArith List Lia.
From PV Require Import Base.U64 C10.C10_Model C10.C10_Proofs C10.C10_ProofsLoop C10.C10_ProofsTop C10.C10_Engine C10.C10_ProofsEngine C10.C10_ProofsRearm C10.C10_ProofsAgree C10.C10_ProofsAgree2 C10.C10_ProofsAgree3.
From PV Require C10.C10_EngineNG C10.C10_ProofsNG C10.C10_ProofsNG2.
Import ListNotations.
Local Open Scope Z_scope.

Theorem doio_stream_exact : forall o tmo flags lens sys wt ret k,
  is_loop o = true -> wf_lens lens -> wf_script sys ->
  run_op o tmo flags lens sys wt = Done (ret, k) ->
  stream_exact o lens ret k.
Proof.
  intros o tmo flags lens sys wt ret k Hl Hw Hs H.
  destruct (run_op_shape o tmo flags lens sys wt Hw Hs) as (sk & fl & wk & tmo' & v & Hv & Hf & _ & Hrun).
  rewrite Hl in Hrun. destruct Hrun as [Hh Hrun]. rewrite Hrun in H.
  destruct (loop_v_spec _ _ _ _ _ _ _ (init_kst sys wt) _ _ Hv Hh Hs H) as [Hpost _].
  unfold stream_exact. rewrite <- Hf. exact Hpost.
Qed.
Print Assumptions doio_stream_exact.

Theorem recv_send_bounds : forall o tmo flags lens sys wt ret k,
  is_loop o = false -> wf_lens lens -> wf_script sys ->
  run_op o tmo flags lens sys wt = Done (ret, k) ->
  once_exact o lens ret k.
Proof.
  intros o tmo flags lens sys wt ret k Hl Hw Hs H.
  destruct (run_op_shape o tmo flags lens sys wt Hw Hs) as (sk & fl & wk & tmo' & v & Hv & Hf & _ & Hrun).
  rewrite Hl in Hrun. rewrite Hrun in H.
  destruct (doio_once_spec _ _ _ _ _ _ (init_kst sys wt) _ _ Hv Hs H) as [(_ & _ & Hc) _].
  pose proof (flat_length v Hv) as Hfl. unfold once_exact. rewrite <- Hf.
  destruct Hc as [(Hr & Ht & (l & Hlog))|(-> & Ht & Hf')]; [left|right; auto].
  split; [lia|]. split; [exact Ht|]. intros ->.
  destruct (Z.eq_dec (vsum v) 0) as [Hz|Hz].
  - left. destruct (flat v); [reflexivity|cbn in Hfl; lia].
  - right. unfold eof. rewrite Hlog. lia.
Qed.
Print Assumptions recv_send_bounds.

Theorem doio_timeout_bound : forall o tmo flags lens sys wt ret k,
  o <> OpSendfile -> wf_lens lens -> wf_script sys -> 0 <= tmo -> tmo <> MAX64 ->
  run_op o tmo flags lens sys wt = Done (ret, k) ->
  k_elapsed k <= tmo.
Proof.
  intros o tmo flags lens sys wt ret k Hsf Hw Hs Ht Hm H.
  destruct (run_op_shape o tmo flags lens sys wt Hw Hs) as (sk & fl & wk & tmo' & v & Hv & _ & Ht' & Hrun).
  rewrite (Ht' Hsf) in Hrun.
  assert (Hel0 : el_ok tmo (init_kst sys wt)) by (right; exact Ht).
  assert (G : el_ok tmo k).
  { destruct (is_loop o); [destruct Hrun as [Hh Hrun]|]; rewrite Hrun in H.
    - apply (proj2 (loop_v_spec _ _ _ _ _ _ _ (init_kst sys wt) _ _ Hv Hh Hs H)), Hel0.
    - apply (proj2 (doio_once_spec _ _ _ _ _ _ (init_kst sys wt) _ _ Hv Hs H)), Hel0. }
  destruct G; [contradiction|assumption].
Qed.
Print Assumptions doio_timeout_bound.

Theorem doio_terminates : forall o tmo flags lens sys wt,
  wf_lens lens -> wf_script sys -> run_op o tmo flags lens sys wt <> OutOfFuel.
Proof.
  intros o tmo flags lens sys wt Hw Hs.
  destruct (run_op_shape o tmo flags lens sys wt Hw Hs) as (sk & fl & wk & tmo' & v & Hv & _ & _ & Hrun).
  assert (Hlen : (length (k_sys (init_kst sys wt)) < S (length sys))%nat) by exact (le_n _).
  destruct (is_loop o); [destruct Hrun as [_ Hrun]|]; rewrite Hrun; [apply loop_v_fuel|apply doio_once_fuel]; assumption.
Qed.
Print Assumptions doio_terminates.

(* whatever one kernel event fires is registered data of that very descriptor, in a direction whose epoll bits
   intersect the reported event (ERR for the error waiter; IN/RDHUP/ERR/HUP for the reader; OUT/ERR/HUP for the writer) *)
Theorem fire_only_registered : forall fd evs s d,
  In d (fst (fire_one (fd, evs) s)) ->
  fd <> s_evfd s /\ fd < s_size s /\
  let entry := tab_get fd (s_tab s) in
  (d = i_er entry /\ has evs ERRBIT = true /\ has (i_int entry) EV_ERROR = true) \/
  (d = i_rd entry /\ has evs READBITS = true /\ has (i_int entry) EV_READ = true) \/
  (d = i_wr entry /\ has evs WRITEBITS = true /\ has (i_int entry) EV_WRITE = true).
Proof.
  intros fd evs s d. unfold fire_one. destruct (fd =? s_evfd s) eqn:E1; [cbn; tauto|].
  destruct (s_size s <=? fd) eqn:E2; [cbn; tauto|].
  apply Z.eqb_neq in E1. apply Z.leb_gt in E2.
  set (entry := tab_get fd (s_tab s)).
  set (fe := andb (has evs ERRBIT) (has (i_int entry) EV_ERROR)).
  set (fr := andb (has evs READBITS) (has (i_int entry) EV_READ)).
  set (fw := andb (has evs WRITEBITS) (has (i_int entry) EV_WRITE)).
  intros Hin.
  assert (Hin' : In d ((if fe then [i_er entry] else []) ++ (if fr then [i_rd entry] else []) ++ (if fw then [i_wr entry] else []))).
  { match type of Hin with context [if ?c then _ else _] => destruct c end; exact Hin. }
  clear Hin. split; [assumption|]. split; [assumption|]. cbn zeta.
  apply in_app_or in Hin'. destruct Hin' as [H|H].
  - left. destruct fe eqn:F; [|destruct H]. destruct H as [<-|[]]. apply Bool.andb_true_iff in F. tauto.
  - apply in_app_or in H. destruct H as [H|H].
    + right; left. destruct fr eqn:F; [|destruct H]. destruct H as [<-|[]]. apply Bool.andb_true_iff in F. tauto.
    + right; right. destruct fw eqn:F; [|destruct H]. destruct H as [<-|[]]. apply Bool.andb_true_iff in F. tauto.
Qed.
Print Assumptions fire_only_registered.

(* no_cross_talk across descriptors, for a timeout / interrupt of a waiter: the failure tail of wait_for_fd
   (rm_interest + return) leaves the registration and the kernel arming of every OTHER descriptor intact *)
Theorem no_cross_talk_other_fd : forall t fd interest e s fd',
  fd <> fd' -> fd_view fd' (wait_fail t fd interest e s) = fd_view fd' s.
Proof.
  intros t fd interest e s fd' Hne. unfold wait_fail. unfold fd_view at 1. cbn.
  exact (rm_interest_frame fd interest s fd' Hne).
Qed.
Print Assumptions no_cross_talk_other_fd.

Theorem batch_boundary_master_drains : forall rb s acc, snd (fst (process rb None s acc)) = [].
Proof. exact process_master_drains. Qed.
Print Assumptions batch_boundary_master_drains.

(* the cascading engine stops only when fewer than 3 output slots are left, and what it has not processed
   stays in the batch in order (it is processed by the next call before a new epoll_wait: [wait_for_events]) *)
Theorem batch_boundary_leftover_kept : forall rb room s acc, exists pre, rb = pre ++ snd (fst (process rb room s acc)).
Proof.
  induction rb as [|e r IH]; intros room s acc; [exists []; reflexivity|].
  cbn [process]. destruct (match room with None => true | Some n => 3 <=? n end).
  - destruct (fire_one e s) as [out s1].
    destruct (IH (match room with None => None | Some n => Some (n - Z.of_nat (length out)) end) s1 (acc ++ out)) as [pre Hp].
    exists (e :: pre). cbn [app]. f_equal. exact Hp.
  - exists []. reflexivity.
Qed.
Print Assumptions batch_boundary_leftover_kept.

Theorem engine_kernel_agree_refuted :
  exists steps, forallb no_close steps = true /\ ~ engine_kernel_agree_at (run_engine steps).
Proof.
  exists [SWait 1 5 EV_ERROR (-1); SReady 5 EPOLLHUP; SPoll; SReady 5 (Z.lor EPOLLERR EPOLLHUP); SPoll].
  split; [reflexivity|]. intros H.
  specialize (H 1 5 EV_ERROR (-1)). vm_compute in H. specialize (H (or_introl eq_refl)). discriminate.
Qed.
Print Assumptions engine_kernel_agree_refuted.

Theorem no_cross_talk_same_fd : forall fd d m s e0,
  0 <= fd < s_size s -> (d = EV_READ \/ d = EV_WRITE \/ d = EV_ERROR) -> 0 <= m <= 7 ->
  Z.land d m = d -> m <> d ->
  i_int (tab_get fd (s_tab s)) = ONE_SHOT + m ->
  kfind fd (kn_list (s_k s)) = Some e0 ->
  let entry := tab_get fd (s_tab s) in
  let r := rm_interest fd d s in
  let entry' := tab_get fd (s_tab (snd r)) in
  fst r = 0 /\
  i_int entry' = ONE_SHOT + (m - d) /\
  (d <> EV_READ -> i_rd entry' = i_rd entry) /\
  (d <> EV_WRITE -> i_wr entry' = i_wr entry) /\
  (d <> EV_ERROR -> i_er entry' = i_er entry) /\
  kfind fd (kn_list (s_k (snd r))) = Some (mkkent fd (Z.lor (translate (m - d)) EPOLLONESHOT) true).
Proof.
  intros fd d m s e0 Hfd Hd Hm Hland Hne Hint Hk entry r entry'.
  assert (HF : 1 <= d <= 7) by (destruct Hd as [-> | [-> | ->]]; split; discriminate).
  destruct (rm_part_rearms_rest fd d m s e0 Hfd HF Hm Hland Hne Hint Hk) as (H0 & Ht & Hk1).
  subst r entry' entry. split; [exact H0|]. rewrite Ht. cbn [i_int i_rd i_wr i_er]. split; [reflexivity|].
  destruct Hd as [-> | [-> | ->]]; (repeat split; [..|exact Hk1]); intros Hn; (reflexivity || contradiction).
Qed.
Print Assumptions no_cross_talk_same_fd.

Theorem engine_kernel_agree : forall steps,
  guarded steps init_st -> engine_kernel_agree_at (run_engine steps).
Proof. intros steps Hg. apply Inv_agree, run_inv; [exact init_inv|exact Hg]. Qed.
Print Assumptions engine_kernel_agree.

Theorem ng_fire_only_registered : forall g steps,
  C10_ProofsNG2.ng_guarded g steps C10_EngineNG.ng_init -> C10_EngineNG.n_misfire (C10_EngineNG.run_ng_g g steps) = false.
Proof. intros g steps H. apply (C10_ProofsNG2.ng_inv g steps H). Qed.
Print Assumptions ng_fire_only_registered.

Theorem ng_no_stale_waiter_access : forall g steps,
  C10_ProofsNG2.ng_guarded g steps C10_EngineNG.ng_init -> C10_EngineNG.n_stale (C10_EngineNG.run_ng_g g steps) = false.
Proof. intros g steps H. apply (C10_ProofsNG2.ng_inv g steps H). Qed.
Print Assumptions ng_no_stale_waiter_access.

Theorem ng_entries_owned_by_waiters : forall g steps,
  C10_ProofsNG2.ng_guarded g steps C10_EngineNG.ng_init -> C10_ProofsNG2.ng_entries_owned (C10_EngineNG.run_ng_g g steps).
Proof. intros g steps H. apply C10_ProofsNG2.Inv_entries_owned, C10_ProofsNG2.ng_inv, H. Qed.
Print Assumptions ng_entries_owned_by_waiters.

Theorem ng_no_cross_talk_other_fd : forall g fd ints data s q fd',
  fd <> fd' ->
  C10_EngineNG.nkfind fd' (C10_EngineNG.klist q (C10_EngineNG.n_k (snd (C10_EngineNG.add_interest g fd ints data s)))) = C10_EngineNG.nkfind fd' (C10_EngineNG.klist q (C10_EngineNG.n_k s)) /\
  C10_EngineNG.nkfind fd' (C10_EngineNG.klist q (C10_EngineNG.n_k (snd (C10_EngineNG.rm_interest fd ints s)))) = C10_EngineNG.nkfind fd' (C10_EngineNG.klist q (C10_EngineNG.n_k s)).
Proof.
  intros g fd ints data s q fd' H.
  split; [apply C10_ProofsNG.add_interest_other_fd, H|apply C10_ProofsNG.rm_interest_other_fd, H].
Qed.
Print Assumptions ng_no_cross_talk_other_fd.

Theorem ng_no_cross_talk_other_direction_rm : forall fd ints s q,
  C10_ProofsNG.dir_untouched ints q -> C10_EngineNG.klist q (C10_EngineNG.n_k (snd (C10_EngineNG.rm_interest fd ints s))) = C10_EngineNG.klist q (C10_EngineNG.n_k s).
Proof. exact C10_ProofsNG.rm_interest_other_dir. Qed.
Print Assumptions ng_no_cross_talk_other_direction_rm.

(* the other direction of the same descriptor: only with the roll-back guarded (the proposed repair) *)
Theorem ng_no_cross_talk_other_direction_add_repaired : forall fd ints data s q,
  C10_ProofsNG.dir_untouched ints q -> C10_EngineNG.klist q (C10_EngineNG.n_k (snd (C10_EngineNG.add_interest true fd ints data s))) = C10_EngineNG.klist q (C10_EngineNG.n_k s).
Proof.
  intros fd ints data s q Hq.
  destruct (proj2 (C10_ProofsNG.add_interest_spec true fd ints data s) q) as [H|[Hp H]]; [exact H|].
  destruct Hq as [->|Hq]; [contradiction|]. rewrite Hq in H.
  destruct (fst (C10_EngineNG.add_interest true fd ints data s) <? 0); destruct H as [H _]; discriminate H.
Qed.
Print Assumptions ng_no_cross_talk_other_direction_add_repaired.

Theorem ng_no_cross_talk_other_direction_refuted :
  exists steps, forallb C10_ProofsNG.plain_step steps = true /\ ~ C10_ProofsNG.ng_agree_at (C10_EngineNG.run_ng_g false steps).
Proof.
  exists C10_ProofsNG.f40_witness. split; [reflexivity|].
  intros H. specialize (H 1 5 EV_READ (-1) C10_EngineNG.PRd).
  assert (E : C10_EngineNG.nthr_get 1 (C10_EngineNG.n_thr (C10_EngineNG.run_ng_g false C10_ProofsNG.f40_witness)) = Some (C10_EngineNG.NWaiting 5 EV_READ (-1))) by (vm_compute; reflexivity).
  specialize (H E). destruct H as [e [Hin _]]; [discriminate|vm_compute; reflexivity|].
  vm_compute in Hin. exact Hin.
Qed.
Print Assumptions ng_no_cross_talk_other_direction_refuted.
