(* C10 part 2 — engine_kernel_agree, continued: the invariant and its preservation by every step. *)
From Coq Require Import ZArith List Lia Bool.
From PV Require Import C10.C10_Lists C10.C10_Engine C10.C10_ProofsEngine C10.C10_ProofsRearm C10.C10_ProofsAgree.
Import ListNotations.
Local Open Scope Z_scope.

Lemma thr_set_keys_in t w l x : In x (map fst (thr_set t w l)) -> x = t \/ In x (map fst l).
Proof.
  induction l as [|[y v] r IH]; cbn [thr_set map fst].
  - intros [H|[]]; left; auto.
  - destruct (y =? t) eqn:E; cbn [map fst]; intros [H|H].
    + apply Z.eqb_eq in E. left. congruence.
    + right. right. exact H.
    + right. left. exact H.
    + destruct (IH H); [left|right; right]; assumption.
Qed.
Lemma thr_set_nodup t w l : NoDup (map fst l) -> NoDup (map fst (thr_set t w l)).
Proof.
  induction l as [|[y v] r IH]; cbn [thr_set map fst]; intros H.
  - constructor; [intros []|constructor].
  - inversion H as [|? ? Hn Hr]; subst. destruct (y =? t) eqn:E; cbn [map fst].
    + constructor; assumption.
    + constructor; [|apply IH; assumption]. intros Hin. apply thr_set_keys_in in Hin.
      apply Z.eqb_neq in E. destruct Hin; [congruence|contradiction].
Qed.
Lemma thr_get_set_same t w l : thr_get t (thr_set t w l) = Some w.
Proof. exact (lookup_update_same None Some t w l). Qed.
Lemma thr_get_set_other t w l u : t <> u -> thr_get u (thr_set t w l) = thr_get u l.
Proof. exact (lookup_update_other None Some t w l u). Qed.

Definition will_fire (m rep : Z) : bool :=
  (has rep ERRBIT && has m EV_ERROR) || (has rep READBITS && has m EV_READ) || (has rep WRITEBITS && has m EV_WRITE).

Definition kern_ok (s : st) (pending : list (Z * Z)) : Prop :=
  forall fd m, 1 <= m <= 7 -> i_int (tab_get fd (s_tab s)) = ONE_SHOT + m ->
    exists e, kfind fd (kn_list (s_k s)) = Some e /\ ke_events e = Z.lor (translate m) EPOLLONESHOT /\
      (ke_armed e = true \/ exists rep, In (fd, rep) pending /\ will_fire m rep = true).

Record Inv0 (s : st) : Prop := mkInv0 {
  i_valid : forall fd, valid_int (i_int (tab_get fd (s_tab s)));
  i_rng : forall fd, i_int (tab_get fd (s_tab s)) <> 0 -> 0 <= fd < s_size s;
  i_evfd : s_evfd s = EVFD /\ (exists e, kfind EVFD (kn_list (s_k s)) = Some e) /\ i_int (tab_get EVFD (s_tab s)) = 0;
  i_keys : NoDup (map fst (s_thr s)) }.

Definition wait_ok (s : st) (fired : list Z) : Prop :=
  forall t fd i d, thr_get t (s_thr s) = Some (Waiting fd i d) ->
    is_dir i /\ ((has (i_int (tab_get fd (s_tab s))) i = true /\ dir_data i (tab_get fd (s_tab s)) = t) \/ In t fired).

Definition Pinv (s : st) (pending : list (Z * Z)) (fired : list Z) : Prop := Inv0 s /\ kern_ok s pending /\ wait_ok s fired.
Definition Inv (s : st) : Prop := Pinv s [] [] /\ s_batch s = [].

(* states that differ only in log / errno / now / batch *)
Definition same_core (s s' : st) : Prop :=
  s_tab s' = s_tab s /\ kn_list (s_k s') = kn_list (s_k s) /\ s_size s' = s_size s /\ s_thr s' = s_thr s /\ s_evfd s' = s_evfd s.
Lemma Pinv_core s s' P f : same_core s s' -> Pinv s P f -> Pinv s' P f.
Proof.
  intros (T & K & Sz & Th & Ev) ([V R E N] & Hk & Hw). split; [|split].
  - constructor; rewrite ?T, ?K, ?Sz, ?Th, ?Ev; assumption.
  - unfold kern_ok. rewrite T, K. exact Hk.
  - unfold wait_ok. rewrite T, Th. exact Hw.
Qed.

Lemma dir_has_mask m i : 0 <= m <= 7 -> is_dir i -> has (ONE_SHOT + m) i = has m i.
Proof. intros H [-> | [-> | ->]]; enum7 m; reflexivity. Qed.

Lemma dir_data_rm F m j entry : is_dir j -> has F j = false ->
  dir_data j (mkife (ONE_SHOT + minus m F) (if has F 1 && has m 1 then 0 else i_rd entry)
                    (if has F 2 && has m 2 then 0 else i_wr entry) (if has F 4 && has m 4 then 0 else i_er entry))
  = dir_data j entry.
Proof. intros [-> | [-> | ->]] H; unfold dir_data; cbn [Z.eqb Pos.eqb i_rd i_wr i_er]; rewrite H; reflexivity. Qed.

Lemma rm_pres s fd F m P P' fired :
  Pinv s P fired ->
  (forall fd' rep, fd' <> fd -> In (fd', rep) P -> In (fd', rep) P') ->
  1 <= F <= 7 -> 0 <= m <= 7 -> i_int (tab_get fd (s_tab s)) = ONE_SHOT + m -> Z.land F m <> 0 ->
  forall fired',
  (forall t i d, thr_get t (s_thr s) = Some (Waiting fd i d) -> In t fired \/ has F i = false \/ In t fired') ->
  (forall t, In t fired -> In t fired') ->
  Pinv (snd (rm_interest fd F s)) P' fired'.
Proof.
  intros ([V R E N] & Hk & Hw) HP HF Hm Hint Hne fired' Hfd' Hsub.
  assert (Hrng : 0 <= fd < s_size s) by (apply R; rewrite Hint; unfold ONE_SHOT; lia).
  assert (Hent : 1 <= minus m F -> exists e0, kfind fd (kn_list (s_k s)) = Some e0).
  { intros _. assert (Hm1 : 1 <= m <= 7).
    { split; [|lia]. destruct (Z.eq_dec m 0) as [->|]; [|lia]. exfalso. apply Hne. apply Z.land_0_r. }
    destruct (Hk fd m Hm1 Hint) as (e & He & _). exists e. exact He. }
  destruct (rm_spec fd F m s Hrng HF Hm Hint Hent) as (_ & [(Hz & _)|(_ & Ht & Hk0 & Hk1)]); [contradiction|].
  destruct (rm_misc fd F s) as (Sz & Th & Ev & Ba & No & Rd).
  assert (Hfr : forall fd', fd <> fd' -> tab_get fd' (s_tab (snd (rm_interest fd F s))) = tab_get fd' (s_tab s) /\
                                kfind fd' (kn_list (s_k (snd (rm_interest fd F s)))) = kfind fd' (kn_list (s_k s))).
  { intros fd' Hd. pose proof (rm_interest_frame fd F s fd' Hd) as Fr. unfold fd_view in Fr. inversion Fr. auto. }
  destruct (ar_rm F m ltac:(lia) Hm) as (_ & _ & R3 & _).
  assert (Hfe : fd <> EVFD).
  { intros ->. destruct E as (_ & _ & E0). rewrite E0 in Hint. unfold ONE_SHOT in Hint. lia. }
  split; [|split].
  - constructor.
    + intros fd'. destruct (Z.eq_dec fd fd') as [<-|Hd].
      * rewrite Ht. cbn [i_int]. right. exists (minus m F). auto.
      * rewrite (proj1 (Hfr fd' Hd)). apply V.
    + intros fd'. rewrite Sz. destruct (Z.eq_dec fd fd') as [<-|Hd]; [intros _; exact Hrng|].
      rewrite (proj1 (Hfr fd' Hd)). apply R.
    + rewrite Ev. destruct E as (E1 & E2 & E3). split; [exact E1|].
      rewrite (proj1 (Hfr EVFD Hfe)), (proj2 (Hfr EVFD Hfe)). auto.
    + rewrite Th. exact N.
  - intros fd' m' Hm' Hi'. destruct (Z.eq_dec fd fd') as [<-|Hd].
    + rewrite Ht in Hi'. cbn [i_int] in Hi'. assert (m' = minus m F) by (unfold ONE_SHOT in Hi'; lia). subst m'.
      eexists. split; [apply Hk1; lia|]. split; [reflexivity|]. left. reflexivity.
    + rewrite (proj1 (Hfr fd' Hd)) in Hi'. rewrite (proj2 (Hfr fd' Hd)).
      destruct (Hk fd' m' Hm' Hi') as (e & A & B & C). exists e. split; [exact A|]. split; [exact B|].
      destruct C as [C|(rep & C1 & C2)]; [left; exact C|right]. exists rep. split; [|exact C2]. apply HP; [congruence|exact C1].
  - intros t fd' i d Hin. rewrite Th in Hin. destruct (Hw t fd' i d Hin) as (Hdir & Hreg). split; [exact Hdir|].
    destruct Hreg as [(Hh & Hd)|Hf]; [|right; apply Hsub; exact Hf].
    destruct (Z.eq_dec fd fd') as [<-|Hdf].
    + destruct (Hfd' t i d Hin) as [Hf|[Hnf|Hf]]; [right; apply Hsub; exact Hf| |right; exact Hf].
      left. rewrite Ht. cbn [i_int]. rewrite (dir_has_mask _ i R3 Hdir), (ar_rm_has F m i ltac:(lia) Hm Hdir).
      rewrite Hint, (dir_has_mask m i Hm Hdir) in Hh. rewrite Hh, Hnf. split; [reflexivity|].
      rewrite (dir_data_rm F m i _ Hdir Hnf). exact Hd.
    + left. rewrite (proj1 (Hfr fd' Hdf)). auto.
Qed.

Lemma in_thr_get t w l : NoDup (map fst l) -> In (t, w) l -> thr_get t l = Some w.
Proof.
  induction l as [|[y v] r IH]; [intros _ []|]. cbn [map fst thr_get]. intros Hn [H|H].
  - inversion H; subst. rewrite Z.eqb_refl. reflexivity.
  - inversion Hn as [|? ? Hy Hr]; subst. destruct (y =? t) eqn:E.
    + apply Z.eqb_eq in E. subst y. exfalso. apply Hy. apply (in_map fst) in H. exact H.
    + apply IH; assumption.
Qed.

Lemma kern_ok_drop s fd rep r :
  kern_ok s ((fd, rep) :: r) ->
  (forall m, 1 <= m <= 7 -> i_int (tab_get fd (s_tab s)) = ONE_SHOT + m -> will_fire m rep = false) ->
  kern_ok s r.
Proof.
  intros Hk Hn fd' m Hm Hi. destruct (Hk fd' m Hm Hi) as (e & A & B & C). exists e. split; [exact A|]. split; [exact B|].
  destruct C as [C|(rep' & [C1|C1] & C2)]; [left; exact C| |right; exists rep'; auto].
  inversion C1; subst. rewrite (Hn m Hm Hi) in C2. discriminate.
Qed.

Lemma ar_fire a b c m : 0 <= m <= 7 ->
  let fe := a && has m 4 in let fr := b && has m 1 in let fw := c && has m 2 in
  let F := Z.lor (if fe then EV_ERROR else 0) (Z.lor (if fr then EV_READ else 0) (if fw then EV_WRITE else 0)) in
  (F =? 0) = negb (fe || fr || fw) /\ 0 <= F <= 7 /\ (fe || fr || fw = true -> Z.land F m <> 0) /\
  has F 4 = fe /\ has F 1 = fr /\ has F 2 = fw.
Proof. intros H. destruct a, b, c; enum7 m; cbn; repeat split; try lia; try discriminate. Qed.

Lemma fold_log_core out : forall s, same_core s (fold_left (fun s d => add_log (LFire d) s) out s).
Proof.
  induction out as [|d r IH]; intros s; [repeat split|]. cbn [fold_left].
  destruct (IH (add_log (LFire d) s)) as (A & B & C & D & E). repeat split; assumption.
Qed.

Lemma fire_one_pres s fd rep r acc :
  Pinv s ((fd, rep) :: r) acc ->
  Pinv (snd (fire_one (fd, rep) s)) r (acc ++ fst (fire_one (fd, rep) s)).
Proof.
  intros HP. pose proof HP as ([V R E N] & Hk & Hw). unfold fire_one.
  assert (Hweak : forall s', same_core s s' ->
            (forall m, 1 <= m <= 7 -> i_int (tab_get fd (s_tab s)) = ONE_SHOT + m -> will_fire m rep = false) ->
            Pinv s' r (acc ++ [])).
  { intros s' Hc Hn. rewrite app_nil_r. apply (Pinv_core s s' r acc Hc).
    split; [constructor; assumption|]. split; [eapply kern_ok_drop; eassumption|exact Hw]. }
  destruct (fd =? s_evfd s) eqn:E1.
  - apply Z.eqb_eq in E1. cbn [fst snd]. apply Hweak; [repeat split|].
    intros m Hm Hi. destruct E as (E0 & _ & E3). rewrite E1, E0, E3 in Hi. unfold ONE_SHOT in Hi. lia.
  - destruct (s_size s <=? fd) eqn:E2.
    + apply Z.leb_le in E2. cbn [fst snd]. apply Hweak; [repeat split|].
      intros m Hm Hi. assert (0 <= fd < s_size s) by (apply R; rewrite Hi; unfold ONE_SHOT; lia). lia.
    + set (entry := tab_get fd (s_tab s)).
      destruct (V fd) as [Hx|(m & Hm & Hx)]; fold entry in Hx.
      * rewrite Hx. replace (has 0 EV_ERROR) with false by reflexivity. replace (has 0 EV_READ) with false by reflexivity.
        replace (has 0 EV_WRITE) with false by reflexivity. rewrite !andb_false_r. cbn [app fold_left fst snd Z.lor Z.eqb negb andb].
        apply Hweak; [repeat split|]. intros m Hm Hi. fold entry in Hi. rewrite Hx in Hi. unfold ONE_SHOT in Hi. lia.
      * rewrite Hx. change EV_ERROR with 4. change EV_READ with 1. change EV_WRITE with 2.
        rewrite !(dir_has_mask m) by (auto; unfold is_dir; auto).
        destruct (ar_fire (has rep ERRBIT) (has rep READBITS) (has rep WRITEBITS) m Hm) as (F0 & Frng & Fne & F4 & F1 & F2).
        change EV_ERROR with 4 in *. change EV_READ with 1 in *. change EV_WRITE with 2 in *.
        set (fe := has rep ERRBIT && has m 4) in *. set (fr := has rep READBITS && has m 1) in *.
        set (fw := has rep WRITEBITS && has m 2) in *.
        set (F := Z.lor (if fe then 4 else 0) (Z.lor (if fr then 1 else 0) (if fw then 2 else 0))) in *.
        set (out := (if fe then [i_er entry] else []) ++ (if fr then [i_rd entry] else []) ++ (if fw then [i_wr entry] else [])).
        set (s1 := fold_left (fun s d => add_log (LFire d) s) out s).
        pose proof (fold_log_core out s) as Hc1. fold s1 in Hc1.
        rewrite F0. destruct (ar_mask m Hm) as (_ & _ & Hos & _). rewrite Hos.
        destruct (fe || fr || fw) eqn:Efire; cbn [negb andb fst snd].
        -- (* something fires: rm_interest(fd, F) *)
           assert (HF : 1 <= F <= 7).
           { split; [|lia]. destruct (Z.eq_dec F 0) as [Hz|]; [|lia]. exfalso. apply (Fne eq_refl). rewrite Hz. reflexivity. }
           pose proof (Pinv_core s s1 _ _ Hc1 HP) as HP1. destruct Hc1 as (T1 & K1 & S1 & Th1 & Ev1).
           assert (Hint1 : i_int (tab_get fd (s_tab s1)) = ONE_SHOT + m) by (rewrite T1; exact Hx).
           apply (rm_pres s1 fd F m ((fd, rep) :: r) r acc HP1); try assumption.
           ++ intros fd' rep' Hne [Hin|Hin]; [inversion Hin; congruence|exact Hin].
           ++ apply Fne. reflexivity.
           ++ intros t i d Hin. rewrite Th1 in Hin. destruct (Hw t fd i d Hin) as (Hdir & [(Hh & Hd)|Hf]); [|left; exact Hf].
              destruct (has F i) eqn:EF; [|right; left; reflexivity]. right. right. apply in_or_app. right.
              fold entry in Hd. subst out. unfold dir_data in Hd.
              destruct Hdir as [-> | [-> | ->]]; cbn [Z.eqb Pos.eqb] in Hd.
              ** rewrite F1 in EF. rewrite EF. apply in_or_app. right. apply in_or_app. left. left. exact Hd.
              ** rewrite F2 in EF. rewrite EF. apply in_or_app. right. apply in_or_app. right. left. exact Hd.
              ** rewrite F4 in EF. rewrite EF. apply in_or_app. left. left. exact Hd.
           ++ intros t Hin. apply in_or_app. left. exact Hin.
        -- (* nothing fires *)
           assert (Hout : out = []).
           { subst out. apply orb_false_iff in Efire. destruct Efire as [Ef Ew]. apply orb_false_iff in Ef. destruct Ef as [Ee Er].
             rewrite Ee, Er, Ew. reflexivity. }
           subst s1. rewrite Hout in *. cbn [fold_left] in *. apply Hweak; [repeat split|].
           intros m' Hm' Hi'. fold entry in Hi'. rewrite Hx in Hi'. assert (m' = m) by (unfold ONE_SHOT in Hi'; lia). subst m'.
           unfold will_fire. change EV_ERROR with 4. change EV_READ with 1. change EV_WRITE with 2. exact Efire.
Qed.

Lemma process_pres : forall rb s acc,
  Pinv s rb acc -> Pinv (snd (process rb None s acc)) [] (fst (fst (process rb None s acc))).
Proof.
  induction rb as [|[fd rep] r IH]; intros s acc HP; [exact HP|].
  cbn [process]. destruct (fire_one (fd, rep) s) as [out s1] eqn:Ef.
  pose proof (fire_one_pres s fd rep r acc HP) as A. rewrite Ef in A. apply IH, A.
Qed.
