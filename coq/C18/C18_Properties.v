(* C18_Properties.v — the property theorems of C18 (RangeLock), each derived from the lemmas of
   C18_Proofs.v and C18_Waiters.v. *)
From Coq Require Import ZArith List Lia.
From PV Require Import Base.U64 C18.C18_Model C18.C18_Proofs C18.C18_Waiters.
Import ListNotations.
Local Open Scope Z_scope.

(* For EVERY interleaving of RangeLock method calls and wake-ups by any number of threads (reachable = any
   sequence of atomic steps), with requests that do not reach past 2^64-1 (guard = class of known finding F4):
   the held ranges are pairwise disjoint as byte sets and m_index is ordered by the comparator. *)
Theorem rl_disjoint : forall s, reachable G_safe s -> disjoint_held (idx s) /\ ordered (idx s).
Proof.
  intros s H. pose proof (reachable_inv G_safe s (fun c Hc => proj1 Hc) H) as [Ho _ _].
  destruct (reachable_P nosat G_safe s (fun c Hc => proj2 Hc) H) as [Hn _].
  split; auto. apply ordered_nosat_disjoint; auto.
Qed.
Print Assumptions rl_disjoint.

(* the same for every scripted operation sequence (induction over op lists), as run by the correspondence check *)
Theorem rl_disjoint_ops : forall cs, Forall G_safe cs ->
  disjoint_held (idx (fst (run_ops init_state cs))) /\ ordered (idx (fst (run_ops init_state cs))).
Proof. intros cs H. apply rl_disjoint, run_ops_reachable; auto. constructor. Qed.
Print Assumptions rl_disjoint_ops.

(* no guard at all is needed for the ordering of the set (zero lengths, saturating ends included) *)
Theorem rl_ordered : forall s, reachable op_u64 s -> ordered (idx s) /\ NoDup (map e_id (idx s)).
Proof. intros s H. destruct (reachable_inv op_u64 s (fun c Hc => Hc) H) as [Ho _ [_ Hn]]. auto. Qed.
Print Assumptions rl_ordered.

(* F4: without the guard byte 2^64-1 can be held twice *)
Theorem rl_disjoint_refuted : exists cs, Forall op_u64 cs /\ ~ disjoint_held (idx (fst (run_ops init_state cs))).
Proof.
  exists [OTry 1 KT (MAX64 - 9) 10; OTry 2 KT MAX64 1]. split.
  { unfold op_u64, u64; rewrite MAX64_val; repeat constructor; lia. }
  intros H. apply (H 0%nat 1%nat (mkE (MAX64 - 9) 10 0 []) (mkE MAX64 1 1 []) MAX64); try reflexivity;
    try discriminate; unfold byte_in; rewrite MAX64_val; cbn; lia.
Qed.
Print Assumptions rl_disjoint_refuted.

Theorem rl_retry_succeeds : forall s t k o l,
  inv s ->
  Forall (fun e => nosat (e_off e) (e_len e)) (idx s) -> Forall (fun e => nonempty (e_off e) (e_len e)) (idx s) ->
  u64 o -> u64 l -> nosat o l -> nonempty o l ->
  (forall e x, In e (idx s) -> byte_in x e -> o <= x < o + l -> False) ->
  exists pre post, idx s = pre ++ post /\
    attempt s t k o l = (mkSt (pre ++ mkE o l (nid s) [] :: post) (nid s + 1) (pend s) (ready s), [EvAcq t k (nid s)]).
Proof. intros s t k o l _ _ Hne _ _ Nsat Nemp. apply attempt_free; auto. Qed.
Print Assumptions rl_retry_succeeds.

Theorem rl_unlock_erases : forall s t o l s' evs,
  inv s ->
  Forall (fun e => nosat (e_off e) (e_len e)) (idx s) -> Forall (fun e => nonempty (e_off e) (e_len e)) (idx s) ->
  u64 o -> u64 l -> nosat o l ->
  unlock_range s t o l = (s', evs) ->
  forall e, In e (idx s') -> ~ (o <= e_off e /\ e_off e + e_len e <= o + l).
Proof.
  intros s t o l s' evs Hinv Hns Hne _ _ Nsat H e He [Hc1 Hc2].
  change s' with (fst (s', evs)) in He. rewrite <- H in He.
  pose proof (sub_In _ _ _ (unlock_range_sub s t o l) He) as Hin. rewrite Forall_forall in Hns, Hne.
  specialize (Hns e Hin). specialize (Hne e Hin). unfold r_contains, nosat, nonempty in *.
  destruct (unlock_range_keeps s t o l Hinv e He) as [Hk|[Hk|Hk]]; rewrite ?e_end_min, ?r_end_min in Hk; try lia.
  apply Bool.andb_false_iff in Hk. rewrite !Z.leb_gt, !r_end_min in Hk. lia.
Qed.
Print Assumptions rl_unlock_erases.

(* F3: with an empty range the statement fails ... *)
Theorem rl_unlock_erases_refuted :
  exists s t o l e, reachable op_u64 s /\ Forall (fun e => nosat (e_off e) (e_len e)) (idx s) /\ u64 o /\ u64 l /\ nosat o l /\
    In e (idx (fst (unlock_range s t o l))) /\ o <= e_off e /\ e_off e + e_len e <= o + l.
Proof.
  exists (fst (run_ops init_state [OTry 1 KT 5 0])), 1, 5, 0, (mkE 5 0 0 []).
  split. { apply run_ops_reachable; [constructor|reflexivity|]. unfold op_u64, u64; rewrite MAX64_val; repeat constructor; lia. }
  unfold u64, nosat; rewrite MAX64_val. cbn. repeat split; try lia; auto. repeat constructor. cbn. lia.
Qed.
Print Assumptions rl_unlock_erases_refuted.

Theorem rl_adjust_safe : forall s t h o l s' evs,
  inv s -> Forall (fun e => nosat (e_off e) (e_len e)) (idx s) -> u64 o -> u64 l -> nosat o l ->
  adjust_range s t (Some h) o l = (s', evs) ->
  (s' = s /\ (evs = [EvRet t (-1)] \/ evs = [EvStale t])) \/
  (evs = [EvRet t 0] /\ inv s' /\ exists a x b, idx s = a ++ x :: b /\ e_id x = h /\
     idx s' = a ++ clear_wait (set_range x o l) :: b /\ ready s' = ready s ++ e_wait x /\
     (forall e y, In e (a ++ b) -> byte_in y e -> o <= y < o + l -> False)).
Proof.
  intros s t h o l s' evs Hinv Hns Uo Ul Nsat H.
  pose proof (adjust_range_inv s t (Some h) o l Hinv Uo Ul) as Hinv'.
  destruct (adjust_range_spec s t (Some h) o l) as [[E|E]|(a & x & b & Hl & [= ->] & _ & _ & E)];
    rewrite E in H, Hinv'; injection H as <- <-; auto.
  right. split; auto. split; auto. exists a, x, b. repeat split; auto.
  intros e y He Hy Hy'. destruct Hinv' as [Ho' _ _]. eapply ordered_mid_disjoint; [exact Ho'| |exact He|exact Hy|exact Hy'].
  rewrite Hl, Forall_app, Forall_cons_iff in Hns. destruct Hns as (Ha & _ & Hb). apply Forall_app. auto.
Qed.
Print Assumptions rl_adjust_safe.

Theorem lower_bound_partition : forall o t, ordered (inorder t) -> Forall wf_e (inorder t) ->
  tree_lb o t [] = snd (lb_split o (inorder t)).
Proof. intros o t Ho Hw. rewrite (tree_lb_spec o t []); rewrite ?app_nil_r; auto. Qed.
Print Assumptions lower_bound_partition.

(* the position is the one emplace_hint needs: everything before it is < r, nothing from it on is *)
Theorem hint_exact : forall s o pre post, inv s -> lb_split o (idx s) = (pre, post) ->
  Forall (fun x => r_lt (e_off x) (e_len x) o = true) pre /\
  Forall (fun x => r_lt (e_off x) (e_len x) o = false) post.
Proof.
  intros s o pre post [Ho Hw _] E. split.
  - destruct (lb_split_spec _ _ _ _ E) as (_ & H & _). revert H. apply Forall_impl. intros x Hx. apply Z.leb_le. exact Hx.
  - pose proof (lb_split_post _ _ _ _ Ho Hw E) as H. revert H. apply Forall_impl. intros x Hx. apply Z.leb_gt. exact Hx.
Qed.
Print Assumptions hint_exact.

(* rl_waiter_woken, step form: every node removed by unlock(offset,length) / unlock(handle) hands all
   its waiters to the ready set *)
Theorem rl_waiter_woken_range : forall s t o l s' evs, unlock_range s t o l = (s', evs) ->
  forall y, In y (idx s) -> In y (idx s') \/ (forall w, In w (e_wait y) -> In w (ready s')).
Proof.
  intros s t o l s' evs. destruct (unlock_range_spec s t o l) as (pre & post & Hl & _ & ->). intros [= <- _] y. cbn.
  rewrite Hl, !in_app_iff. intros [Hy|Hy]; auto.
  destruct (unlock_loop_wakes o l post y Hy) as [H|H]; auto. right. intros w Hw. rewrite in_app_iff. auto.
Qed.
Print Assumptions rl_waiter_woken_range.

Theorem rl_waiter_woken_handle : forall s t h a x b, find_id h (idx s) = Some (a, x, b) ->
  idx (fst (unlock_handle s t h)) = a ++ b /\
  (forall w, In w (e_wait x) -> In w (ready (fst (unlock_handle s t h)))) /\
  snd (unlock_handle s t h) = [EvRet t 0].
Proof.
  intros s t h a x b E. unfold unlock_handle, wake_all. rewrite E. cbn. auto using in_or_app.
Qed.
Print Assumptions rl_waiter_woken_handle.

(* rl_waiter_woken, interleaving form (any guard G on the ops, any number of threads, any schedule) *)
Theorem rl_waiter_woken : forall (G : op -> Prop) s, reachable G s ->
  forall t p, In (t, p) (pend s) ->
    In t (ready s) \/ exists e, In e (idx s) /\ In t (e_wait e).
Proof.
  intros G s Hr t p Hin. destruct (reachable_winv G s Hr) as [_ Hp _].
  apply (in_map fst) in Hin. apply (Permutation.Permutation_in _ Hp) in Hin. rewrite in_app_iff in Hin.
  destruct Hin; auto. right. apply in_flat_map. auto.
Qed.
Print Assumptions rl_waiter_woken.

Theorem rl_waiters_exact : forall (G : op -> Prop) s, reachable G s ->
  NoDup (ready s ++ parked (idx s)) /\ (forall t, In t (ready s ++ parked (idx s)) <-> In t (ptids s)).
Proof.
  intros G s Hr. destruct (reachable_winv G s Hr) as [Hn Hp _]. split; [eapply Permutation.Permutation_NoDup; eauto|].
  intros t. rewrite Hp. tauto.
Qed.
Print Assumptions rl_waiters_exact.

(* no thread is parked on a node that does not conflict with its request (repaired adjust_range) *)
Theorem rl_no_stuck_waiter : forall (G : op -> Prop) s, reachable G s ->
  forall e w, In e (idx s) -> In w (e_wait e) ->
    exists p, lookup_pend w (pend s) = Some p /\ conflict p e.
Proof. intros G s Hr. apply (reachable_winv G s Hr). Qed.
Print Assumptions rl_no_stuck_waiter.

(* F20: the code before repo_patches/C18-fix-adjust-range-notify.diff violates it *)
Theorem rl_adjust_prefix_refuted :
  let s := fst (run_ops init_state [OTry 1 KL 0 4; OTry 2 KL 2 2]) in
  let s' := fst (adjust_range_gen false s 0 (Some 0) 0 1) in
  snd (adjust_range_gen false s 0 (Some 0) 0 1) = [EvRet 0 0] /\
  idx s' = [mkE 0 1 0 [2]] /\ lookup_pend 2 (pend s') = Some (mkP KL 2 2 0 4) /\ ready s' = [] /\
  ready (fst (adjust_range s 0 (Some 0) 0 1)) = [2] /\ idx (fst (adjust_range s 0 (Some 0) 0 1)) = [mkE 0 1 0 []].
Proof. vm_compute. repeat split; reflexivity. Qed.
Print Assumptions rl_adjust_prefix_refuted.

(* F3, consequence: after try_lock_wait(5,0); unlock(5,0) a locker of [4,6) parks on the leaked node *)
Theorem rl_f3_waits_forever_refuted :
  Forall op_u64 f3_ops /\ Forall (op_P nosat) f3_ops /\
  let s := fst (run_ops init_state f3_ops) in
  idx s = [mkE 5 0 0 [2]] /\ lookup_pend 2 (pend s) = Some (mkP KL 4 2 5 0) /\ ready s = [].
Proof.
  split; [|split; [|vm_compute; auto]]; unfold f3_ops, op_u64, op_P, nosat, u64; rewrite MAX64_val; repeat constructor; lia.
Qed.
Print Assumptions rl_f3_waits_forever_refuted.

(* F3, worst form: two empty ranges at one point violate std::set's Compare requirements (undefined behaviour) *)
Theorem rl_set_precondition_refuted :
  exists cs, Forall op_u64 cs /\ Forall (op_P nosat) cs /\
    exists n evs ix, nth_error (run_case cs) n = Some (evs, ix) /\ In (EvUB 2) evs.
Proof.
  exists [OTry 1 KL 1 0; OTry 2 KL 1 0].
  split. { unfold op_u64, u64; rewrite MAX64_val; repeat constructor; lia. }
  split. { unfold op_P, nosat; rewrite MAX64_val; repeat constructor; lia. }
  exists 1%nat. eexists. eexists. split; [vm_compute; reflexivity|]. left; reflexivity.
Qed.
Print Assumptions rl_set_precondition_refuted.

(* ... which cannot happen under the F3/F4 guards, in any interleaving *)
Theorem rl_no_ub : forall s, reachable G_strict s ->
  (forall c u, G_strict c -> ~ In (EvUB u) (snd (exec_op s c))) /\
  (forall t u, ~ In (EvUB u) (snd (wake s t))).
Proof.
  intros s Hr.
  destruct (reachable_P nosat G_strict s (fun c Hc => proj1 (proj2 Hc)) Hr) as [_ Hn].
  destruct (reachable_P nonempty G_strict s (fun c Hc => proj2 (proj2 Hc)) Hr) as [_ He].
  split.
  - intros c u (_ & Hc2 & Hc3) H. apply exec_op_ub in H. destruct H as (t & k & o & l & -> & H).
    revert H. apply attempt_no_ub; auto.
  - intros t u. unfold wake. destruct (lookup_pend t (pend s)) as [p|] eqn:E; [|cbn; tauto].
    apply lookup_pend_in in E. rewrite Forall_forall in Hn, He. specialize (Hn _ E). specialize (He _ E).
    destruct (p_kind p); try (cbn; intros [H|[]]; discriminate). apply attempt_no_ub; auto.
Qed.
Print Assumptions rl_no_ub.

(* at quiescence of every scripted run every still-blocked thread sleeps on a live node that conflicts with its request *)
Theorem rl_quiescent : forall (G : op -> Prop) cs, Forall G cs ->
  let s := fst (run_ops init_state cs) in
  ready s = [] /\
  forall t p, In (t, p) (pend s) -> exists e, In e (idx s) /\ In t (e_wait e) /\ conflict p e.
Proof.
  intros G cs HG s.
  destruct (run_ops_reachable G cs init_state (reach_init G) eq_refl HG) as [Hr Hr0]. fold s in Hr, Hr0.
  split; auto. intros t p Hin.
  destruct (rl_waiter_woken G s Hr t p Hin) as [H|(e & He & Hw)]; [rewrite Hr0 in H; destruct H|].
  exists e. split; [exact He|]. split; [exact Hw|].
  destruct (rl_no_stuck_waiter G s Hr e t He Hw) as (q & Hq & Hc). destruct (reachable_winv G s Hr) as [Hn _ _].
  rewrite (lookup_pend_unique t p (pend s) Hn Hin) in Hq. injection Hq as <-. exact Hc.
Qed.
Print Assumptions rl_quiescent.

(* waiters proceed when the conflict is gone: unlock(handle) of the node a lock() caller sleeps on makes it runnable,
   and if it is the next thread to resume it acquires its range, provided no other held range shares a byte with it *)
Theorem rl_handoff : forall s t0 t p a e b,
  inv s -> winv s ->
  idx s = a ++ e :: b -> In t (e_wait e) -> lookup_pend t (pend s) = Some p -> p_kind p = KL ->
  Forall (fun x => nosat (e_off x) (e_len x)) (idx s) -> Forall (fun x => nonempty (e_off x) (e_len x)) (idx s) ->
  u64 (p_off p) -> u64 (p_len p) -> nosat (p_off p) (p_len p) -> nonempty (p_off p) (p_len p) ->
  (forall x y, In x (a ++ b) -> byte_in y x -> p_off p <= y < p_off p + p_len p -> False) ->
  let s1 := fst (unlock_handle s t0 (e_id e)) in
  In t (ready s1) /\
  forall r1 r2, ready s1 = r1 ++ t :: r2 ->
    exists s2 pre post, wake (set_ready s1 (r1 ++ r2)) t = (s2, [EvAcq t KL (nid s)]) /\
                        idx s2 = pre ++ mkE (p_off p) (p_len p) (nid s) [] :: post /\ a ++ b = pre ++ post.
Proof. exact handoff. Qed.
Print Assumptions rl_handoff.
