(* C18_Model.v — executable model of common/range-lock.h (class RangeLock).
   Definitions only (no proofs) so that the model still runs when a proof breaks.

   m_index (std::set<Range> ordered by range_t::operator<) is a list of entries kept
   in the order the comparator induces.  Every entry carries
     - offset, length            (range_t, lines 110-132; end() saturates, line 120-123)
     - an id                     (the identity of the tree node = the LockHandle pointer value;
                                  ids are handed out in insertion order)
     - the FIFO queue of threads parked on its condition variable (Range::cond, line 136).
   All uint64_t arithmetic that can reach the 2^64 boundary is written out
   (sat_add for end(), u64_sub for the conflict length).

   One call of a RangeLock method runs under m_lock (SCOPED_LOCK, a spinlock) up to the
   point where it returns or parks in cond.wait(m_lock); that is one atomic step here.
   A parked thread is made runnable only by the erasure of the entry it waits on
   (~Range() { cond.notify_all(); }, line 139): its tid moves to the [ready] queue, and
   its continuation ([wake]) is: try_lock_wait returns -1 with the conflicting range,
   try_lock_wait2 returns nullptr, lock() loops and calls try_lock_wait2 again. *)
From Coq Require Import ZArith List Bool.
From PV Require Import Base.U64.
Import ListNotations.
Local Open Scope Z_scope.

(* ---- range_t (lines 110-132) ------------------------------------------------- *)
Definition r_end (o l : Z) : Z := sat_add o l.                       (* end(), 120-123 *)
Definition r_lt (o1 l1 o2 : Z) : bool := r_end o1 l1 <=? o2.         (* operator<, 124-127: end() <= rhs.offset *)
Definition r_contains (o l xo xl : Z) : bool :=                      (* contains, 128-131 *)
  (o <=? xo) && (r_end xo xl <=? r_end o l).

(* ---- Range = range_t + condition variable (133-140), plus node identity ------ *)
Record entry := mkE { e_off : Z; e_len : Z; e_id : Z; e_wait : list Z }.
Definition e_end (e : entry) : Z := r_end (e_off e) (e_len e).
Definition add_waiter (e : entry) (t : Z) : entry :=
  mkE (e_off e) (e_len e) (e_id e) (e_wait e ++ [t]).
Definition set_range (e : entry) (o l : Z) : entry :=
  mkE o l (e_id e) (e_wait e).

(* the three locking entry points *)
Inductive kind := KT (* try_lock_wait *) | KW (* try_lock_wait2 *) | KL (* lock *).

(* a parked call: what it asked for and (for try_lock_wait) the conflicting range it
   stored into its reference arguments before waiting (lines 34-35) *)
Record preq := mkP { p_kind : kind; p_off : Z; p_len : Z; p_coff : Z; p_clen : Z }.

Record state := mkSt {
  idx   : list entry;          (* m_index, in comparator order *)
  nid   : Z;                   (* next node identity *)
  pend  : list (Z * preq);     (* threads inside a blocking call: tid -> request *)
  ready : list Z               (* threads made runnable by notify_all, in wake-up order *)
}.
Definition init_state : state := mkSt [] 0 [] [].

(* observable results *)
Inductive ev :=
| EvAcq  (t : Z) (k : kind) (id : Z)         (* returned 0 / a handle; node id inserted *)
| EvFail (t : Z) (k : kind) (co cl : Z)      (* returned -1 with conflict range / nullptr *)
| EvPark (t : Z) (id : Z)                    (* parked on entry id (not a return) *)
| EvRet  (t : Z) (r : Z)                     (* unlock (0) / adjust_range (0 or -1) returned *)
| EvBusy (t : Z)                             (* script error: thread is inside a blocking call *)
| EvStale (t : Z)                            (* script error: handle does not name a live node (UB in C++) *)
| EvUB (t : Z).                              (* std::set precondition violated (see [dup_empty]); not executed *)

(* ---- std::set::lower_bound(r) on the ordered list ---------------------------
   first element x with !(x < r), i.e. !(x.end() <= r.offset); returned as the split
   (elements before it, it and the rest).  C18_Properties.lower_bound_partition shows
   that libstdc++'s tree descent returns the same position on every tree whose
   in-order sequence satisfies the ordering invariant. *)
Fixpoint lb_split (o : Z) (l : list entry) : list entry * list entry :=
  match l with
  | [] => ([], [])
  | x :: tl => if e_end x <=? o
               then let (a, b) := lb_split o tl in (x :: a, b)
               else ([], l)
  end.

(* ---- when the list model stops being a model of std::set ---------------------
   range_t::operator< is not irreflexive on a range whose end() equals its offset (length 0,
   or offset = 2^64-1 where end() saturates): such a range is "less than" itself.  Inserting
   a second one at the same point p is the only situation in which two keys are less than
   each other, i.e. in which the Compare requirements of std::set are violated.  libstdc++
   then decides the side in _M_insert_node by comp(new, parent) = true and overwrites the
   parent's left child when there is one (observed on the real class: three lock(1,0) calls
   lose a node and the process segfaults).  This is undefined behaviour; the model reports it
   as EvUB and does not execute the call, and so does the harness.  It cannot happen under
   the guards of known finding F3/F4 (length > 0, offset + length <= 2^64-1). *)
Definition dup_empty (pre : list entry) (o l : Z) : bool :=
  (r_end o l =? o) &&
  match rev pre with
  | x :: _ => (e_off x =? o) && (e_end x =? o)
  | [] => false
  end.

(* ---- try_lock_wait (28-42) / try_lock_wait2 (61-75), first half ------------- *)
Definition attempt (s : state) (t : Z) (k : kind) (o l : Z) : state * list ev :=
  let rend := r_end o l in
  let (pre, post) := lb_split o (idx s) in               (* it = m_index.lower_bound(r) *)
  let insert :=                                          (* m_index.emplace_hint(it, r) *)
    if dup_empty pre o l then (s, [EvUB t]) else
    (mkSt (pre ++ mkE o l (nid s) [] :: post) (nid s + 1) (pend s) (ready s),
     [EvAcq t k (nid s)]) in
  match post with
  | x :: post' =>
      if e_off x <? rend then                            (* it != end() && it->offset < r.end() *)
        let co := e_off x in                                           (* offset = it->offset *)
        let cl := u64_sub (Z.min (e_end x) rend) co in                 (* length = min(it->end(), r.end()) - offset *)
        (mkSt (pre ++ add_waiter x t :: post') (nid s)                 (* it->cond.wait(m_lock) *)
              (pend s ++ [(t, mkP k o l co cl)]) (ready s),
         [EvPark t (e_id x)])
      else insert
  | [] => insert
  end.

(* ---- erasing a node: ~Range() notifies all waiters (139) -------------------- *)
Definition wake_all (s_ready : list Z) (x : entry) : list Z := s_ready ++ e_wait x.

(* ---- unlock(offset, length) (44-57) ----------------------------------------- *)
(* the while loop from it = lower_bound(r): returns (surviving entries, woken tids) *)
Fixpoint unlock_loop (o l : Z) (post : list entry) : list entry * list Z :=
  match post with
  | [] => ([], [])
  | x :: tl =>
      if e_off x <? r_end o l then                       (* it != end() && it->offset < r.end() *)
        let (keep, wk) := unlock_loop o l tl in
        if r_contains o l (e_off x) (e_len x)
        then (keep, e_wait x ++ wk)                      (* it = m_index.erase(it) *)
        else (x :: keep, wk)                             (* ++it *)
      else (post, [])
  end.

Definition unlock_range (s : state) (t : Z) (o l : Z) : state * list ev :=
  let (pre, post) := lb_split o (idx s) in
  let (keep, wk) := unlock_loop o l post in
  (mkSt (pre ++ keep) (nid s) (pend s) (ready s ++ wk), [EvRet t 0]).

(* ---- handles: LockHandle pointer = iterator = node identity ------------------------- *)
Fixpoint find_id (h : Z) (l : list entry) : option (list entry * entry * list entry) :=
  match l with
  | [] => None
  | x :: tl => if e_id x =? h then Some ([], x, tl)
               else match find_id h tl with
                    | Some (a, y, b) => Some (x :: a, y, b)
                    | None => None
                    end
  end.

(* unlock(LockHandle h) (101-106) *)
Definition unlock_handle (s : state) (t : Z) (h : Z) : state * list ev :=
  match find_id h (idx s) with
  | None => (s, [EvStale t])
  | Some (a, x, b) => (mkSt (a ++ b) (nid s) (pend s) (wake_all (ready s) x), [EvRet t 0])
  end.

(* prev_end(it) (147-150) and next_offset(it) (143-146) *)
Definition prev_end (a : list entry) : Z :=
  match rev a with [] => 0 | p :: _ => e_end p end.
Definition next_offset (b : list entry) : Z :=
  match b with [] => MAX64 | n :: _ => e_off n end.

(* adjust_range (86-100); h = None is the null handle.
   [notify] = the line `it->cond.notify_all()` after the in-place mutation (the F20 repair,
   repo_patches/C18-fix-adjust-range-notify.diff): the threads parked on the adjusted node
   are made runnable so that they re-evaluate against the new range.  [notify = false] is
   the code before the repair (kept for the theorem rl_adjust_prefix_refuted). *)
Definition clear_wait (e : entry) : entry := mkE (e_off e) (e_len e) (e_id e) [].
Definition adjust_range_gen (notify : bool) (s : state) (t : Z) (h : option Z) (o l : Z) : state * list ev :=
  match h with
  | None => (s, [EvRet t (-1)])                                           (* if (!h) return -1 *)
  | Some h =>
    match find_id h (idx s) with
    | None => (s, [EvStale t])
    | Some (a, x, b) =>
        let r1end := r_end o l in
        if ((o <? e_off x) && (o <? prev_end a)) ||
           ((e_end x <? r1end) && (next_offset b <? r1end))
        then (s, [EvRet t (-1)])
        else if notify
        then (mkSt (a ++ clear_wait (set_range x o l) :: b) (nid s) (pend s) (wake_all (ready s) x), [EvRet t 0])
        else (mkSt (a ++ set_range x o l :: b) (nid s) (pend s) (ready s), [EvRet t 0])
    end
  end.
Definition adjust_range := adjust_range_gen true.

(* ---- threads ----------------------------------------------------------------- *)
Fixpoint lookup_pend (t : Z) (l : list (Z * preq)) : option preq :=
  match l with
  | [] => None
  | (u, p) :: tl => if u =? t then Some p else lookup_pend t tl
  end.
Fixpoint remove_pend (t : Z) (l : list (Z * preq)) : list (Z * preq) :=
  match l with
  | [] => []
  | (u, p) :: tl => if u =? t then tl else (u, p) :: remove_pend t tl
  end.
Definition is_pending (s : state) (t : Z) : bool :=
  match lookup_pend t (pend s) with Some _ => true | None => false end.

(* ---- a wake-up that is not a notification -------------------------------------
   cond.wait(m_lock) also returns when somebody calls photon::thread_interrupt on the
   parked thread (waitq::wait -> thread_usleep returns -1/EINTR); RangeLock ignores the
   result of wait, so the thread continues exactly as after a notification.  The thread
   leaves the node's wait queue and becomes runnable. *)
Definition unpark1 (u : Z) (e : entry) : entry :=
  mkE (e_off e) (e_len e) (e_id e) (filter (fun v => negb (v =? u)) (e_wait e)).
Definition unpark (u : Z) (l : list entry) : list entry := map (unpark1 u) l.
Definition is_parked (s : state) (u : Z) : bool :=
  existsb (fun e => existsb (Z.eqb u) (e_wait e)) (idx s).
Definition interrupt (s : state) (t u : Z) : state * list ev :=
  if is_parked s u
  then (mkSt (unpark u (idx s)) (nid s) (pend s) (ready s ++ [u]), [EvRet t 0])
  else (s, [EvRet t (-1)]).             (* target not parked in this RangeLock: nothing to model *)

Inductive op :=
| OTry     (t : Z) (k : kind) (o l : Z)
| OUnlock  (t : Z) (o l : Z)
| OUnlockH (t : Z) (h : Z)
| OAdjust  (t : Z) (h : option Z) (o l : Z)
| OInterrupt (t : Z) (u : Z).
Definition op_tid (c : op) : Z :=
  match c with OTry t _ _ _ => t | OUnlock t _ _ => t | OUnlockH t _ => t | OAdjust t _ _ _ => t | OInterrupt t _ => t end.

(* one atomic step: thread [op_tid c] calls a method and runs it until it returns or parks *)
Definition exec_op (s : state) (c : op) : state * list ev :=
  if is_pending s (op_tid c) then (s, [EvBusy (op_tid c)])
  else match c with
       | OTry t k o l    => attempt s t k o l
       | OUnlock t o l   => unlock_range s t o l
       | OUnlockH t h    => unlock_handle s t h
       | OAdjust t h o l => adjust_range s t h o l
       | OInterrupt t u  => interrupt s t u
       end.

(* one atomic step: a notified thread [t] resumes after cond.wait (36-37, 67-68, 79-83).
   try_lock_wait returns -1 and the conflicting range; try_lock_wait2 returns nullptr;
   lock() calls try_lock_wait2 again with the original arguments. *)
Definition wake (s : state) (t : Z) : state * list ev :=
  match lookup_pend t (pend s) with
  | None => (s, [])
  | Some p =>
      let s' := mkSt (idx s) (nid s) (remove_pend t (pend s)) (ready s) in
      match p_kind p with
      | KT => (s', [EvFail t KT (p_coff p) (p_clen p)])
      | KW => (s', [EvFail t KW 0 0])
      | KL => attempt s' t KL (p_off p) (p_len p)
      end
  end.

(* the notified threads run in wake-up order (single vCPU: they were appended to the run
   queue in that order and none is pre-empted); resuming never erases a node, so no new
   thread becomes ready while the queue is drained *)
Fixpoint drain_list (rs : list Z) (s : state) : state * list ev :=
  match rs with
  | [] => (s, [])
  | t :: rs' => let (s1, e1) := wake s t in
                let (s2, e2) := drain_list rs' s1 in (s2, e1 ++ e2)
  end.
Definition drain (s : state) : state * list ev :=
  drain_list (ready s) (mkSt (idx s) (nid s) (pend s) []).

(* scripted run used by the correspondence check: the op, then everybody it woke *)
Definition run_op (s : state) (c : op) : state * list ev :=
  let (s1, e1) := exec_op s c in
  let (s2, e2) := drain s1 in (s2, e1 ++ e2).

Fixpoint run_ops (s : state) (cs : list op) : state * list (list ev * list entry) :=
  match cs with
  | [] => (s, [])
  | c :: tl => let (s1, e1) := run_op s c in
               let (s2, r) := run_ops s1 tl in (s2, (e1, idx s1) :: r)
  end.
Definition run_case (cs : list op) : list (list ev * list entry) := snd (run_ops init_state cs).

(* number of held ranges (also keeps [nat] in the extracted module for the runner's I/O glue) *)
Definition n_held (s : state) : nat := length (idx s).
