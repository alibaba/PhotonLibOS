(* C18_Waiters.v — the waiter invariants of the RangeLock model, for every interleaving:
   every thread inside a blocking call is either runnable (notified) or parked on a node that
   still exists AND still conflicts with its request.  Then the hand-over from unlock(handle) to a
   blocked lock() caller, and concrete states (the ex_ examples) in which the hypotheses of the property theorems hold. *)
From Coq Require Import ZArith List Lia Permutation.
From PV Require Import Base.U64 C18.C18_Model C18.C18_Proofs.
Import ListNotations.
Local Open Scope Z_scope.

Definition parked (l : list entry) : list Z := flat_map e_wait l.
Definition ptids (s : state) : list Z := map fst (pend s).

(* the request p conflicts with the node e (the test of lines 33/66, both directions) *)
Definition conflict (p : preq) (e : entry) : Prop :=
  e_off e < r_end (p_off p) (p_len p) /\ p_off p < e_end e.

Record winv (s : state) : Prop := mkW {
  w_nodup : NoDup (ptids s);
  w_perm  : Permutation (ptids s) (ready s ++ parked (idx s));
  w_conf  : forall e w, In e (idx s) -> In w (e_wait e) ->
            exists p, lookup_pend w (pend s) = Some p /\ conflict p e
}.

Lemma parked_app l1 l2 : parked (l1 ++ l2) = parked l1 ++ parked l2.
Proof. apply flat_map_app. Qed.

(* removing the node x from a ++ x :: b moves its waiters to the ready set *)
Lemma parked_remove (M r : list Z) a x b :
  Permutation M (r ++ parked (a ++ x :: b)) -> Permutation M ((r ++ e_wait x) ++ parked (a ++ b)).
Proof.
  intros ->. rewrite !parked_app, <- app_assoc. cbn. apply Permutation_app_head, Permutation_app_swap_app.
Qed.

Lemma lookup_pend_app_l t l1 l2 p : lookup_pend t l1 = Some p -> lookup_pend t (l1 ++ l2) = Some p.
Proof. induction l1 as [|[u q] tl IH]; cbn; [discriminate|]. destruct (u =? t); auto. Qed.

Lemma lookup_pend_none t l : ~ In t (map fst l) -> lookup_pend t l = None.
Proof.
  induction l as [|[u q] tl IH]; cbn; auto. intros H.
  destruct (u =? t) eqn:E; [apply Z.eqb_eq in E; subst; tauto|]. apply IH. tauto.
Qed.

Lemma lookup_pend_some t l : In t (map fst l) -> exists p, lookup_pend t l = Some p.
Proof.
  induction l as [|[u q] tl IH]; cbn; [tauto|]. destruct (Z.eqb_spec u t); eauto. intros [|]; [tauto|auto].
Qed.

Lemma lookup_pend_app_new t l p : ~ In t (map fst l) -> lookup_pend t (l ++ [(t, p)]) = Some p.
Proof.
  induction l as [|[u q] tl IH]; cbn; intros H; [rewrite Z.eqb_refl; reflexivity|].
  destruct (Z.eqb_spec u t); [tauto|]. apply IH. tauto.
Qed.

Lemma lookup_remove_other t w l : w <> t -> lookup_pend w (remove_pend t l) = lookup_pend w l.
Proof.
  intros Hn. induction l as [|[u q] tl IH]; cbn; auto.
  destruct (Z.eqb_spec u t) as [->|]; cbn; [|rewrite IH; auto].
  destruct (Z.eqb_spec t w); congruence.
Qed.

Lemma remove_pend_split t l : In t (map fst l) ->
  exists l1 l2, map fst l = l1 ++ t :: l2 /\ map fst (remove_pend t l) = l1 ++ l2.
Proof.
  induction l as [|[u q] tl IH]; cbn; [tauto|]. intros H.
  destruct (Z.eqb_spec u t) as [->|E]; [exists [], (map fst tl); auto|].
  destruct H as [H|H]; [congruence|].
  destruct (IH H) as (l1 & l2 & H1 & H2). exists (u :: l1), l2. cbn. rewrite H1, H2. auto.
Qed.

Lemma NoDup_remove_mid {A} (l1 l2 : list A) a : NoDup (l1 ++ a :: l2) -> NoDup (l1 ++ l2) /\ ~ In a (l1 ++ l2).
Proof. apply NoDup_remove. Qed.

Lemma attempt_winv s t k o l : winv s -> ~ In t (ptids s) -> winv (fst (attempt s t k o l)).
Proof.
  intros [Hn Hp Hc] Ht. unfold ptids in *.
  destruct (attempt_spec s t k o l) as [_|pre post Hl _ _|pre x post Hl Hx Hlt]; cbn [fst]; [split; auto| |];
    rewrite Hl in *.
  - (* inserted: the threads are where they were, and the new node has no waiter *)
    split; unfold ptids; cbn [pend idx ready]; auto.
    + rewrite parked_app in *. exact Hp.
    + intros e w. rewrite in_app_iff in *. intros [He|[<-|He]]; [|intros []|]; apply Hc; auto using in_or_app.
  - (* parked: t joins [pend] and the queue of x; its conflict with x is the test attempt has just made *)
    split; unfold ptids; cbn [pend idx ready].
    + rewrite map_app. eapply Permutation_NoDup; [apply Permutation_cons_append|]. constructor; auto.
    + rewrite map_app. cbn [map fst]. rewrite <- Permutation_cons_append, Hp, !parked_app. cbn.
      rewrite !app_assoc, <- (app_assoc _ [t]). apply Permutation_middle.
    + set (q := mkP _ _ _ _ _).
      assert (Hc' : forall e w, In e (pre ++ x :: post) -> In w (e_wait e) ->
                exists p, lookup_pend w (pend s ++ [(t, q)]) = Some p /\ conflict p e).
      { intros e w He Hw. destruct (Hc e w He Hw) as (p & ? & ?). eauto using lookup_pend_app_l. }
      intros e w. rewrite in_app_iff. intros [He|[<-|He]] Hw; [apply Hc'; auto using in_or_app| |apply Hc'; auto using in_or_app, in_cons].
      cbn in Hw. rewrite in_app_iff in Hw. destruct Hw as [Hw|[<-|[]]].
      * apply (Hc' x w); auto using in_elt.
      * exists q. split; [apply lookup_pend_app_new; auto|]. split; auto.
Qed.

Lemma unlock_loop_perm o l post :
  Permutation (parked post) (snd (unlock_loop o l post) ++ parked (fst (unlock_loop o l post))).
Proof.
  induction post as [|x tl IH]; cbn; auto. destruct (e_off x <? r_end o l); [|reflexivity].
  destruct (unlock_loop o l tl) as [keep wk]. cbn in IH.
  destruct (r_contains o l (e_off x) (e_len x)); cbn; rewrite IH;
    [rewrite app_assoc; reflexivity | apply Permutation_app_swap_app].
Qed.

Lemma unlock_range_winv s t o l : winv s -> winv (fst (unlock_range s t o l)).
Proof.
  intros [Hn Hp Hc]. pose proof (unlock_range_sub s t o l) as Hs.
  destruct (unlock_range_spec s t o l) as (pre & post & Hl & _ & E). rewrite E in *. rewrite Hl in Hp.
  split; unfold ptids in *; cbn; auto.
  - rewrite Hp, !parked_app, (unlock_loop_perm o l post), <- app_assoc.
    apply Permutation_app_head, Permutation_app_swap_app.
  - intros e w He. apply Hc. revert He. apply (sub_In _ _ _ Hs).
Qed.

Lemma unlock_handle_winv s t h : winv s -> winv (fst (unlock_handle s t h)).
Proof.
  intros [Hn Hp Hc]. destruct (unlock_handle_spec s t h) as [->|(a & x & b & Hl & _ & ->)]; [split; auto|].
  rewrite Hl in *. split; unfold ptids in *; cbn; auto using parked_remove.
  intros e w He. apply Hc. revert He. apply sub_In, sub_remove.
Qed.

(* adjust_range AFTER the F20 repair: the adjusted node's waiters are notified *)
Lemma adjust_range_winv s t h o l : winv s -> winv (fst (adjust_range s t h o l)).
Proof.
  intros [Hn Hp Hc].
  destruct (adjust_range_spec s t h o l) as [[->| ->]|(a & x & b & Hl & _ & _ & _ & ->)]; try (split; auto; fail).
  rewrite Hl in *. split; unfold ptids in *; cbn; auto.
  - rewrite parked_app. cbn. rewrite <- parked_app. auto using parked_remove.
  - intros e w. rewrite in_app_iff in *. intros [He|[<-|He]]; [|intros []|]; apply Hc; rewrite in_app_iff; cbn; auto.
Qed.

Lemma parked_unpark u l : parked (unpark u l) = filter (fun v => negb (v =? u)) (parked l).
Proof. induction l as [|x l IH]; cbn; auto. rewrite filter_app. f_equal. exact IH. Qed.

Lemma filter_out_id u (L : list Z) : ~ In u L -> filter (fun v => negb (v =? u)) L = L.
Proof.
  induction L as [|a L IH]; cbn; auto. intros H.
  destruct (Z.eqb_spec a u); [tauto|]. cbn. f_equal. tauto.
Qed.

Lemma perm_filter_out u (L : list Z) : NoDup L -> In u L ->
  Permutation L (u :: filter (fun v => negb (v =? u)) L).
Proof.
  induction L as [|a L IH]; intros Hn Hin; [destruct Hin|].
  inversion Hn as [|? ? Ha Hn']; subst. cbn.
  destruct (Z.eqb_spec a u) as [->|E]; cbn; [rewrite filter_out_id; auto|].
  destruct Hin as [->|Hin]; [tauto|]. rewrite (IH Hn' Hin) at 1. apply perm_swap.
Qed.

Lemma is_parked_in s u : is_parked s u = true -> In u (parked (idx s)).
Proof.
  unfold is_parked, parked. rewrite existsb_exists, in_flat_map. intros (e & He & H). exists e. split; auto.
  apply existsb_exists in H. destruct H as (v & Hv & H). apply Z.eqb_eq in H. subst. auto.
Qed.

Lemma NoDup_app_r {A} (l1 l2 : list A) : NoDup (l1 ++ l2) -> NoDup l2.
Proof. induction l1; cbn; auto. intros H. inversion H; auto. Qed.

Lemma interrupt_winv s t u : winv s -> winv (fst (interrupt s t u)).
Proof.
  intros [Hn Hp Hc]. unfold interrupt. destruct (is_parked s u) eqn:Ep; [|split; auto].
  apply is_parked_in in Ep.
  pose proof (NoDup_app_r _ _ (Permutation_NoDup Hp Hn)) as Hnd.
  split; unfold ptids in *; cbn; auto.
  - rewrite parked_unpark, Hp, <- app_assoc. apply Permutation_app_head. cbn. apply perm_filter_out; auto.
  - intros e w He Hw. apply in_map_iff in He. destruct He as (z & <- & Hz).
    cbn in Hw. apply filter_In in Hw. apply (Hc z w); tauto.
Qed.

Lemma exec_op_winv s c : winv s -> winv (fst (exec_op s c)).
Proof.
  intros Hw. unfold exec_op, is_pending. destruct (lookup_pend (op_tid c) (pend s)) eqn:Ep; auto.
  destruct c; cbn [fst]; auto using unlock_range_winv, unlock_handle_winv, adjust_range_winv, interrupt_winv.
  apply attempt_winv; auto. intros H. apply lookup_pend_some in H. destruct H. cbn in Ep. congruence.
Qed.

Lemma wake_winv s t r1 r2 : winv s -> ready s = r1 ++ t :: r2 ->
  winv (fst (wake (set_ready s (r1 ++ r2)) t)).
Proof.
  intros [Hn Hp Hc] Hr. unfold ptids in *.
  rewrite Hr, <- app_assoc in Hp. cbn in Hp. rewrite <- Permutation_middle, app_assoc in Hp.
  assert (Hin : In t (map fst (pend s))) by (rewrite Hp; left; auto).
  destruct (lookup_pend_some t (pend s) Hin) as [p Hlp].
  destruct (remove_pend_split t (pend s) Hin) as (l1 & l2 & Hs1 & Hs2).
  pose proof (Permutation_NoDup Hp Hn) as Hnd. inversion Hnd as [|? ? Hnt _]; subst.
  rewrite Hs1 in Hn, Hp. apply NoDup_remove in Hn. apply Permutation_sym, Permutation_cons_app_inv in Hp.
  assert (Hw0 : winv (mkSt (idx s) (nid s) (remove_pend t (pend s)) (r1 ++ r2))).
  { split; unfold ptids; cbn; rewrite ?Hs2; [tauto|symmetry; exact Hp|].
    intros e w He Hw. destruct (Hc e w He Hw) as (q & Hq1 & Hq2). exists q. split; auto.
    rewrite lookup_remove_other; auto. intros ->. apply Hnt. rewrite in_app_iff. right.
    apply in_flat_map. eauto. }
  unfold wake. cbn [set_ready pend idx nid ready]. rewrite Hlp.
  destruct (p_kind p); auto. apply attempt_winv; auto. unfold ptids; cbn. rewrite Hs2. tauto.
Qed.

Lemma reachable_winv (G : op -> Prop) s : reachable G s -> winv s.
Proof.
  apply reachable_steps; [|auto using exec_op_winv | auto using wake_winv].
  split; unfold ptids; cbn; try constructor. intros e w [].
Qed.

Lemma lookup_pend_unique t p l : NoDup (map fst l) -> In (t, p) l -> lookup_pend t l = Some p.
Proof.
  induction l as [|[u q] tl IH]; cbn; intros Hn Hin; [destruct Hin|].
  inversion Hn as [|? ? Hu Hn']; subst. destruct Hin as [[= -> ->]|Hin]; [rewrite Z.eqb_refl; reflexivity|].
  destruct (Z.eqb_spec u t) as [->|]; auto. destruct Hu. apply (in_map fst _ _ Hin).
Qed.

Lemma find_id_found x : forall a b, ~ In (e_id x) (map e_id a) -> find_id (e_id x) (a ++ x :: b) = Some (a, x, b).
Proof.
  induction a as [|y a IH]; intros b Hn; cbn in *; [rewrite Z.eqb_refl; reflexivity|].
  destruct (Z.eqb_spec (e_id y) (e_id x)); [tauto|]. rewrite IH; auto.
Qed.

(* hand-over: a thread blocked in lock() on node e, whose request shares no byte with any OTHER held range,
   is made runnable by unlock(handle of e) and acquires its range if it is the next thread to resume, from any
   position in the ready set.  (The resumption is taken in the state right after the unlock: a thread woken
   together with it that runs first may take the range, and then it parks again.) *)
Lemma handoff s t0 t p a e b :
  inv s -> winv s ->
  idx s = a ++ e :: b -> In t (e_wait e) -> lookup_pend t (pend s) = Some p -> p_kind p = KL ->
  Forall (fun x => nosat (e_off x) (e_len x)) (idx s) -> Forall (fun x => nonempty (e_off x) (e_len x)) (idx s) ->
  u64 (p_off p) -> u64 (p_len p) -> nosat (p_off p) (p_len p) -> nonempty (p_off p) (p_len p) ->
  (forall x y, In x (a ++ b) -> byte_in y x -> p_off p <= y < p_off p + p_len p -> False) ->
  let s1 := fst (unlock_handle s t0 (e_id e)) in
  In t (ready s1) /\
  forall r1 r2, ready s1 = r1 ++ t :: r2 ->
    exists s2 pre post, wake (set_ready s1 (r1 ++ r2)) t = (s2, [EvAcq t KL (nid s)]) /\
                        idx s2 = pre ++ mkE (p_off p) (p_len p) (nid s) [] :: post /\ a ++ b = pre ++ post.
Proof.
  intros [_ _ [_ Hn]] _ Hl Ht Hlp Hk _ Hne _ _ Nsat Nemp Hfree s1.
  assert (Hs1 : s1 = mkSt (a ++ b) (nid s) (pend s) (ready s ++ e_wait e)).
  { unfold s1, unlock_handle. rewrite Hl, find_id_found; auto.
    rewrite Hl, map_app in Hn. apply NoDup_remove_2 in Hn. rewrite in_app_iff in *. tauto. }
  rewrite Hs1. split; [cbn; auto using in_or_app|].
  intros r1 r2 _. unfold wake. cbn [set_ready pend idx nid ready]. rewrite Hlp, Hk.
  edestruct (attempt_free (mkSt (a ++ b) (nid s) (remove_pend t (pend s)) (r1 ++ r2)) t KL)
    as (pre & post & Hpp & ->); eauto.
  - rewrite Hl in Hne. exact (sub_Forall _ _ _ (sub_remove a b e) Hne).
  - eexists. exists pre, post. auto.
Qed.

(* concrete non-trivial states meeting the hypotheses of the property theorems *)
Definition ex_ops : list op := [OTry 1 KL 0 4; OTry 2 KT 6 2; OTry 3 KL 2 4; OTry 4 KW 7 3].
Definition ex_state : state := fst (run_ops init_state ex_ops).

Lemma ex_ops_strict : Forall G_strict ex_ops.
Proof.
  unfold ex_ops, G_strict, op_u64, op_P, nosat, nonempty, u64. rewrite MAX64_val.
  repeat constructor; lia.
Qed.

(* two held ranges, thread 3 parked on [0,4), thread 4 parked on [6,8) *)
Example ex_state_val : ex_state =
  mkSt [mkE 0 4 0 [3]; mkE 6 2 1 [4]] 2 [(3, mkP KL 2 4 0 4); (4, mkP KW 7 3 6 2)] [].
Proof. vm_compute. reflexivity. Qed.

Example ex_reachable_strict : reachable G_strict ex_state.
Proof. apply run_ops_reachable; [constructor|reflexivity|apply ex_ops_strict]. Qed.

Example ex_reachable_safe : reachable G_safe ex_state /\ Forall G_safe ex_ops.
Proof.
  assert (H : Forall G_safe ex_ops).
  { eapply Forall_impl; [|apply ex_ops_strict]. intros c (H1 & H2 & H3). split; auto. }
  split; auto. apply run_ops_reachable; [constructor|reflexivity|exact H].
Qed.

Example ex_inv : inv ex_state.
Proof. apply (reachable_inv G_strict ex_state (fun c Hc => proj1 Hc) ex_reachable_strict). Qed.

(* hypotheses of rl_retry_succeeds: request [4,6) is free in ex_state *)
Example ex_retry_hyps :
  inv ex_state /\
  Forall (fun e => nosat (e_off e) (e_len e)) (idx ex_state) /\ Forall (fun e => nonempty (e_off e) (e_len e)) (idx ex_state) /\
  u64 4 /\ u64 2 /\ nosat 4 2 /\ nonempty 4 2 /\
  (forall e x, In e (idx ex_state) -> byte_in x e -> 4 <= x < 4 + 2 -> False).
Proof.
  split; [apply ex_inv|]. rewrite ex_state_val. cbn [idx]. unfold nosat, nonempty, u64, byte_in. rewrite MAX64_val.
  repeat split; try lia; try (repeat constructor; cbn; lia).
  intros e x [<-|[<-|[]]]; cbn; lia.
Qed.

(* hypotheses of rl_unlock_erases / rl_adjust_safe in ex_state: unlock(0,4), adjust(#1 -> [5,8)) *)
Example ex_unlock_hyps :
  Forall (fun e => nosat (e_off e) (e_len e)) (idx ex_state) /\ Forall (fun e => nonempty (e_off e) (e_len e)) (idx ex_state) /\
  u64 0 /\ u64 4 /\ nosat 0 4 /\
  fst (unlock_range ex_state 9 0 4) = mkSt [mkE 6 2 1 [4]] 2 [(3, mkP KL 2 4 0 4); (4, mkP KW 7 3 6 2)] [3].
Proof.
  rewrite ex_state_val. cbn [idx]. unfold nosat, nonempty, u64. rewrite MAX64_val.
  repeat split; try lia; try (repeat constructor; cbn; lia).
Qed.

Example ex_adjust_ok :
  adjust_range ex_state 9 (Some 1) 5 3 =
  (mkSt [mkE 0 4 0 [3]; mkE 5 3 1 []] 2 [(3, mkP KL 2 4 0 4); (4, mkP KW 7 3 6 2)] [4], [EvRet 9 0]) /\
  snd (adjust_range ex_state 9 (Some 1) 3 3) = [EvRet 9 (-1)].
Proof. rewrite ex_state_val. split; vm_compute; reflexivity. Qed.

(* hypotheses of lower_bound_partition: a 3-node tree in two shapes gives the same answer as the list *)
Definition ex_tree1 : tree := Node (Node Leaf (mkE 0 4 0 []) Leaf) (mkE 6 2 1 []) (Node Leaf (mkE 9 1 2 []) Leaf).
Definition ex_tree2 : tree := Node Leaf (mkE 0 4 0 []) (Node Leaf (mkE 6 2 1 []) (Node Leaf (mkE 9 1 2 []) Leaf)).
Example ex_tree_hyps : ordered (inorder ex_tree1) /\ Forall wf_e (inorder ex_tree1) /\ inorder ex_tree2 = inorder ex_tree1 /\
  tree_lb 5 ex_tree1 [] = [mkE 6 2 1 []; mkE 9 1 2 []] /\ tree_lb 5 ex_tree2 [] = [mkE 6 2 1 []; mkE 9 1 2 []].
Proof.
  split; [|split; [|split; [reflexivity|split; reflexivity]]].
  - cbn. repeat constructor; unfold before, e_end, r_end, sat_add; cbn; rewrite ?MAX64_val; lia.
  - unfold ex_tree1. cbn [inorder app]. repeat constructor; unfold u64; cbn [e_off e_len]; rewrite ?MAX64_val; lia.
Qed.

(* the conclusion of rl_no_stuck_waiter is not vacuous in ex_state: thread 3 waits on [0,4) for [2,6) *)
Example ex_parked_conflicts : exists p, lookup_pend 3 (pend ex_state) = Some p /\ conflict p (mkE 0 4 0 [3]).
Proof.
  rewrite ex_state_val. eexists. split; [reflexivity|]. unfold conflict, e_end, r_end, sat_add; cbn [p_off p_len e_off e_len]. rewrite MAX64_val. cbn. lia.
Qed.

(* the hypotheses of rl_handoff hold in ex_state for thread 3 (parked on node #0 = [0,4), wants [2,6)) *)
Example ex_handoff :
  In 3 (ready (fst (unlock_handle ex_state 9 0))) /\
  forall r1 r2, ready (fst (unlock_handle ex_state 9 0)) = r1 ++ 3 :: r2 ->
    exists s2 pre post, wake (set_ready (fst (unlock_handle ex_state 9 0)) (r1 ++ r2)) 3 = (s2, [EvAcq 3 KL (nid ex_state)]) /\
                        idx s2 = pre ++ mkE 2 4 (nid ex_state) [] :: post /\ [] ++ [mkE 6 2 1 [4]] = pre ++ post.
Proof.
  apply (handoff ex_state 9 3 (mkP KL 2 4 0 4) [] (mkE 0 4 0 [3]) [mkE 6 2 1 [4]]).
  - apply ex_inv.
  - apply (reachable_winv G_strict). apply ex_reachable_strict.
  - rewrite ex_state_val. reflexivity.
  - left; reflexivity.
  - rewrite ex_state_val. reflexivity.
  - reflexivity.
  - apply ex_retry_hyps.
  - apply ex_retry_hyps.
  - unfold u64; cbn; rewrite MAX64_val; lia.
  - unfold u64; cbn; rewrite MAX64_val; lia.
  - unfold nosat; cbn; rewrite MAX64_val; lia.
  - unfold nonempty; cbn; lia.
  - intros x y [<-|[]]; unfold byte_in; cbn; lia.
Qed.
