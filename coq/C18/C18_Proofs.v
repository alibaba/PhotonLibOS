(* C18_Proofs.v — invariants and proofs about the RangeLock model (C18_Model.v): the ordered-set
   invariant for every interleaving of atomic steps, byte disjointness, retry-succeeds,
   unlock-erases, adjust-safe, lower_bound on the tree.  The waiter invariants are in C18_Waiters.v. *)
From Coq Require Import ZArith List Lia Bool Sorted.
From PV Require Import Base.U64 C18.C18_Model.
Import ListNotations.
Local Open Scope Z_scope.

Lemma MAX64_val : MAX64 = 18446744073709551615. Proof. reflexivity. Qed.

Definition u64 (x : Z) : Prop := 0 <= x <= MAX64.

(* all arithmetic about ends is linear after this *)
Lemma r_end_min o l : r_end o l = Z.min (o + l) MAX64.
Proof. unfold r_end, sat_add. destruct (Z.ltb_spec MAX64 (o + l)); lia. Qed.

Lemma r_end_ge o l : 0 <= l -> o <= r_end o l \/ r_end o l = MAX64.
Proof. rewrite r_end_min. lia. Qed.

Lemma r_end_le_max o l : u64 o -> u64 l -> r_end o l <= MAX64.
Proof. rewrite r_end_min. lia. Qed.

Lemma r_end_le_true o l : 0 <= l -> r_end o l <= o + l.
Proof. rewrite r_end_min. lia. Qed.

(* well-formed entry: both fields are uint64_t values *)
Definition wf_e (e : entry) : Prop := u64 (e_off e) /\ u64 (e_len e).
(* the comparator order, pairwise: a.end() <= b.offset *)
Definition before (a b : entry) : Prop := e_end a <= e_off b.
Definition ordered (l : list entry) : Prop := StronglySorted before l.

Lemma e_end_min e : e_end e = Z.min (e_off e + e_len e) MAX64.
Proof. apply r_end_min. Qed.

Lemma wf_off_le_end e : wf_e e -> e_off e <= e_end e.
Proof. unfold wf_e, u64. rewrite e_end_min. lia. Qed.

Lemma e_end_add_waiter e t : e_end (add_waiter e t) = e_end e. Proof. reflexivity. Qed.
Lemma e_end_clear_wait e : e_end (clear_wait e) = e_end e. Proof. reflexivity. Qed.

(* both unlock methods only remove nodes; what the invariants need of that is the sublist relation *)
Inductive sub {A} : list A -> list A -> Prop :=
| sub_nil : sub [] []
| sub_keep x k l : sub k l -> sub (x :: k) (x :: l)
| sub_skip x k l : sub k l -> sub k (x :: l).

Lemma sub_refl {A} (l : list A) : sub l l.
Proof. induction l; constructor; auto. Qed.

Lemma sub_app {A} (k1 l1 k2 l2 : list A) : sub k1 l1 -> sub k2 l2 -> sub (k1 ++ k2) (l1 ++ l2).
Proof. induction 1; cbn; auto; constructor; auto. Qed.

Lemma sub_remove {A} (a b : list A) x : sub (a ++ b) (a ++ x :: b).
Proof. apply sub_app; [|constructor]; apply sub_refl. Qed.

Lemma sub_In {A} (k l : list A) x : sub k l -> In x k -> In x l.
Proof. induction 1; cbn; intuition. Qed.

Lemma sub_Forall {A} (P : A -> Prop) k l : sub k l -> Forall P l -> Forall P k.
Proof. rewrite !Forall_forall. eauto using sub_In. Qed.

Lemma sub_map {A B} (f : A -> B) k l : sub k l -> sub (map f k) (map f l).
Proof. induction 1; cbn; constructor; auto. Qed.

Lemma sub_sorted {A} (R : A -> A -> Prop) k l : sub k l -> StronglySorted R l -> StronglySorted R k.
Proof.
  induction 1 as [|x k l Hs IH|x k l Hs IH]; intros H; auto; inversion H; subst; auto.
  constructor; eauto using sub_Forall.
Qed.

Lemma sub_NoDup {A} (k l : list A) : sub k l -> NoDup l -> NoDup k.
Proof.
  induction 1 as [|x k l Hs IH|x k l Hs IH]; intros H; auto; inversion H; subst; auto.
  constructor; eauto using sub_In.
Qed.

Lemma lb_split_spec o l a b : lb_split o l = (a, b) ->
  l = a ++ b /\ Forall (fun x => e_end x <= o) a /\ match b with [] => True | x :: _ => o < e_end x end.
Proof.
  revert a. induction l as [|x tl IH]; cbn; intros a H.
  - injection H as <- <-. auto.
  - destruct (Z.leb_spec (e_end x) o).
    + destruct (lb_split o tl) as [a' b']. injection H as <- <-.
      destruct (IH _ eq_refl) as (-> & ? & ?). auto.
    + injection H as <- <-. auto.
Qed.

Lemma ordered_cons x l : ordered (x :: l) <-> ordered l /\ (forall b, In b l -> before x b).
Proof.
  rewrite <- Forall_forall. split; [intros H; inversion H; auto | intros []; constructor; auto].
Qed.

Lemma ordered_app l1 l2 : ordered (l1 ++ l2) <->
  ordered l1 /\ ordered l2 /\ (forall a b, In a l1 -> In b l2 -> before a b).
Proof.
  induction l1 as [|x l1 IH]; cbn.
  - split; [intros H; repeat split; auto; [constructor | intros ? ? []] | tauto].
  - rewrite !ordered_cons, IH. split.
    + intros ((H1 & H2 & H3) & H4). repeat split; auto using in_or_app.
      intros a b [<-|Ha] Hb; auto using in_or_app.
    + intros ((H1 & H2) & H3 & H4). repeat split; auto.
      intros b Hb. apply in_app_or in Hb. destruct Hb; auto.
Qed.

Lemma ordered_replace a x y b :
  ordered (a ++ x :: b) ->
  (forall p, In p a -> before p y) -> (forall n, In n b -> before y n) ->
  ordered (a ++ y :: b).
Proof.
  rewrite !ordered_app, !ordered_cons. intros (H1 & (H2 & _) & H3) Ha Hb. repeat split; auto.
  intros p q Hp [<-|Hq]; auto. apply H3; [|right]; auto.
Qed.

(* offsets and ends grow along an ordered well-formed list: this is what makes the comparator's
   "x < key" predicate a partition of the in-order sequence *)
Lemma next_offset_le b y : ordered b -> Forall wf_e b -> In y b -> next_offset b <= e_off y.
Proof.
  destruct b as [|x b]; cbn; [tauto|]. rewrite ordered_cons. intros [_ Ho] Hw [<-|Hy]; [lia|].
  inversion Hw as [|? ? Hx _]. specialize (Ho y Hy). apply wf_off_le_end in Hx. unfold before in Ho. lia.
Qed.

Lemma prev_end_ge a p : ordered a -> Forall wf_e a -> In p a -> e_end p <= prev_end a.
Proof.
  unfold prev_end. rewrite <- (rev_involutive a) at 1 2 3. destruct (rev a) as [|q r]; cbn; [tauto|].
  rewrite ordered_app, Forall_app, in_app_iff. intros (_ & _ & Ho) [_ Hw] [Hp|[<-|[]]]; [|lia].
  inversion Hw as [|? ? Hq _]. specialize (Ho p q Hp (or_introl eq_refl)).
  apply wf_off_le_end in Hq. unfold before in Ho. lia.
Qed.

Definition ids_below (n : Z) (l : list entry) : Prop := Forall (fun e => e_id e < n) l.
Record inv (s : state) : Prop := mkInv {
  inv_ord : ordered (idx s);
  inv_wf  : Forall wf_e (idx s);
  inv_ids : ids_below (nid s) (idx s) /\ NoDup (map e_id (idx s))
}.

(* well-formed op: every numeric argument is a uint64_t value *)
Definition op_u64 (c : op) : Prop :=
  match c with
  | OTry _ _ o l | OUnlock _ o l | OAdjust _ _ o l => u64 o /\ u64 l
  | OUnlockH _ _ | OInterrupt _ _ => True
  end.
(* guard excluding the class of known finding F4: no requested range reaches past 2^64-1
   (the theorems take it in the form [op_P nosat], and the next one as [op_P nonempty]) *)
Definition op_nosat (c : op) : Prop :=
  match c with
  | OTry _ _ o l | OAdjust _ _ o l => o + l <= MAX64
  | _ => True
  end.
(* guard excluding the class of known finding F3: no empty range is requested *)
Definition op_nonempty (c : op) : Prop :=
  match c with
  | OTry _ _ o l | OAdjust _ _ o l => 0 < l
  | _ => True
  end.

Lemma find_id_split h l : forall a x b, find_id h l = Some (a, x, b) -> l = a ++ x :: b /\ e_id x = h.
Proof.
  induction l as [|y tl IH]; intros a x b H; cbn in H; [discriminate|].
  destruct (e_id y =? h) eqn:E.
  - inversion H; subst. split; auto. apply Z.eqb_eq; auto.
  - destruct (find_id h tl) as [[[a' y'] b']|] eqn:E2; [|discriminate].
    inversion H; subst. destruct (IH _ _ _ eq_refl) as [-> ?]. split; auto.
Qed.

Lemma find_id_none h l : find_id h l = None -> ~ In h (map e_id l).
Proof.
  induction l as [|y tl IH]; cbn; intros H; [tauto|].
  destruct (e_id y =? h) eqn:E; [discriminate|].
  destruct (find_id h tl) as [[[a' y'] b']|] eqn:E2; [discriminate|].
  intros [H1|H1]; [apply Z.eqb_neq in E; auto | apply IH; auto].
Qed.

Lemma Forall_app_inv {A} (P : A -> Prop) l1 l2 : Forall P (l1 ++ l2) -> Forall P l1 /\ Forall P l2.
Proof. apply Forall_app. Qed.

Lemma last_pre_in (pre : list entry) x r : rev pre = x :: r -> In x pre.
Proof. intros H. apply in_rev. rewrite H. left; auto. Qed.

(* What each method does, read off its body once; every invariant below goes through these
   ([interrupt] and [wake] are short enough to be unfolded where they are used). *)
Inductive attempt_res (s : state) (t : Z) (k : kind) (o l : Z) : state * list ev -> Prop :=
| att_ub : r_end o l = o -> attempt_res s t k o l (s, [EvUB t])
| att_ins pre post : idx s = pre ++ post -> Forall (fun x => e_end x <= o) pre ->
    r_end o l <= next_offset post ->
    attempt_res s t k o l
      (mkSt (pre ++ mkE o l (nid s) [] :: post) (nid s + 1) (pend s) (ready s), [EvAcq t k (nid s)])
| att_park pre x post : idx s = pre ++ x :: post -> o < e_end x -> e_off x < r_end o l ->
    attempt_res s t k o l
      (mkSt (pre ++ add_waiter x t :: post) (nid s)
            (pend s ++ [(t, mkP k o l (e_off x) (u64_sub (Z.min (e_end x) (r_end o l)) (e_off x)))]) (ready s),
       [EvPark t (e_id x)]).

Lemma attempt_spec s t k o l : attempt_res s t k o l (attempt s t k o l).
Proof.
  unfold attempt. destruct (lb_split o (idx s)) as [pre post] eqn:E.
  destruct (lb_split_spec _ _ _ _ E) as (Hl & Hpre & Hx).
  set (ins := if dup_empty pre o l then _ else _).
  assert (Hins : r_end o l <= next_offset post -> attempt_res s t k o l ins).
  { intros H. subst ins. unfold dup_empty. destruct (Z.eqb_spec (r_end o l) o); cbn [andb].
    - destruct (match rev pre with [] => false | x :: _ => _ end); [apply att_ub | apply att_ins]; auto.
    - apply att_ins; auto. }
  destruct post as [|x post']; [apply Hins; cbn; rewrite r_end_min; lia|].
  destruct (Z.ltb_spec (e_off x) (r_end o l)); [apply att_park | apply Hins]; auto.
Qed.

Lemma unlock_loop_sub o l post : sub (fst (unlock_loop o l post)) post.
Proof.
  induction post as [|x tl IH]; cbn; [constructor|].
  destruct (e_off x <? r_end o l); [|apply sub_refl]. destruct (unlock_loop o l tl) as [keep wk].
  destruct (r_contains o l (e_off x) (e_len x)); constructor; auto.
Qed.

Lemma unlock_range_spec s t o l : exists pre post,
  idx s = pre ++ post /\ Forall (fun x => e_end x <= o) pre /\
  unlock_range s t o l = (mkSt (pre ++ fst (unlock_loop o l post)) (nid s) (pend s)
                               (ready s ++ snd (unlock_loop o l post)), [EvRet t 0]).
Proof.
  unfold unlock_range. destruct (lb_split o (idx s)) as [pre post] eqn:E.
  destruct (lb_split_spec _ _ _ _ E) as (Hl & Hpre & _). exists pre, post.
  destruct (unlock_loop o l post). auto.
Qed.

Lemma unlock_range_sub s t o l : sub (idx (fst (unlock_range s t o l))) (idx s).
Proof.
  destruct (unlock_range_spec s t o l) as (pre & post & -> & _ & ->).
  apply sub_app; [apply sub_refl | apply unlock_loop_sub].
Qed.

Lemma unlock_handle_spec s t h :
  unlock_handle s t h = (s, [EvStale t]) \/
  exists a x b, idx s = a ++ x :: b /\ e_id x = h /\
    unlock_handle s t h = (mkSt (a ++ b) (nid s) (pend s) (ready s ++ e_wait x), [EvRet t 0]).
Proof.
  unfold unlock_handle. destruct (find_id h (idx s)) as [[[a x] b]|] eqn:E; auto.
  destruct (find_id_split _ _ _ _ _ E). right. exists a, x, b. auto.
Qed.

(* adjust_range (with the notification): refused, or the node's range is replaced in place *)
Lemma adjust_range_spec s t h o l :
  (adjust_range s t h o l = (s, [EvRet t (-1)]) \/ adjust_range s t h o l = (s, [EvStale t])) \/
  exists a x b, idx s = a ++ x :: b /\ h = Some (e_id x) /\
    (e_off x <= o \/ prev_end a <= o) /\ (r_end o l <= e_end x \/ r_end o l <= next_offset b) /\
    adjust_range s t h o l =
      (mkSt (a ++ clear_wait (set_range x o l) :: b) (nid s) (pend s) (ready s ++ e_wait x), [EvRet t 0]).
Proof.
  unfold adjust_range, adjust_range_gen. destruct h as [h|]; auto.
  destruct (find_id h (idx s)) as [[[a x] b]|] eqn:E; auto.
  destruct (find_id_split _ _ _ _ _ E) as [Hl <-].
  destruct (_ || _) eqn:Ec; auto.
  apply orb_false_iff in Ec. rewrite !andb_false_iff, !Z.ltb_ge in Ec. right. exists a, x, b. tauto.
Qed.

Lemma inv_sub s k p r : inv s -> sub k (idx s) -> inv (mkSt k (nid s) p r).
Proof.
  intros [Ho Hw [Hi Hn]] H. split; cbn; [eapply sub_sorted | eapply sub_Forall | split]; eauto.
  - eapply sub_Forall; eauto.
  - eapply sub_NoDup; eauto using sub_map.
Qed.

(* one node is replaced by another with the same identity that fits into the same gap *)
Lemma inv_replace s a x y b p r : inv s -> idx s = a ++ x :: b -> e_id y = e_id x -> (wf_e x -> wf_e y) ->
  (forall q, In q a -> before q x -> before q y) -> (forall n, In n b -> before x n -> before y n) ->
  inv (mkSt (a ++ y :: b) (nid s) p r).
Proof.
  intros [Ho Hw [Hi Hn]] Hl Hid Hy Ha Hb. rewrite Hl in *. unfold ids_below in *.
  rewrite Forall_app, Forall_cons_iff in Hw, Hi. destruct Hw as (Hw1 & Hwx & Hwb), Hi as (Hi1 & Hix & Hib).
  split; cbn.
  - pose proof Ho as Ho'. rewrite ordered_app, ordered_cons in Ho'. destruct Ho' as (_ & (_ & H2) & H3).
    eapply ordered_replace; eauto. intros q Hq. apply Ha, H3; cbn; auto.
  - apply Forall_app; auto.
  - split.
    + apply Forall_app. split; auto. constructor; auto. rewrite Hid; auto.
    + rewrite map_app in *. cbn. rewrite Hid. auto.
Qed.

Lemma attempt_inv s t k o l : inv s -> u64 o -> u64 l -> inv (fst (attempt s t k o l)).
Proof.
  intros Hinv Uo Ul.
  destruct (attempt_spec s t k o l) as [_|pre post Hl Hpre Hpost|pre x post Hl _ _]; cbn [fst]; auto.
  - destruct Hinv as [Ho Hw [Hi Hn]]. rewrite Hl in *. unfold ids_below in *.
    assert (Hfresh : ~ In (nid s) (map e_id (pre ++ post))).
    { rewrite in_map_iff. intros (y & Hy1 & Hy2). rewrite Forall_forall in Hi. specialize (Hi y Hy2). lia. }
    rewrite ordered_app in Ho. rewrite Forall_app in Hw, Hi.
    destruct Ho as (Ho1 & Ho2 & Ho3), Hw as [Hw1 Hw2], Hi as [Hi1 Hi2].
    split; cbn.
    + rewrite ordered_app, ordered_cons. repeat split; auto.
      * intros n Hn'. pose proof (next_offset_le post n Ho2 Hw2 Hn'). unfold before, e_end; cbn. lia.
      * intros p q Hp [<-|Hq]; auto. rewrite Forall_forall in Hpre. apply Hpre; auto.
    + rewrite Forall_app. split; auto. constructor; auto. split; auto.
    + split.
      * assert (Hm : forall k, Forall (fun e => e_id e < nid s) k -> Forall (fun e => e_id e < nid s + 1) k)
          by (intro; apply Forall_impl; intros; lia).
        unfold ids_below. rewrite Forall_app. split; auto. constructor; auto. cbn. lia.
      * rewrite map_app in *. cbn. apply NoDup_Add with (a := nid s) (l := map e_id pre ++ map e_id post); auto using Add_app.
  - eapply inv_replace; eauto.
Qed.

Lemma unlock_range_inv s t o l : inv s -> inv (fst (unlock_range s t o l)).
Proof.
  intros H. pose proof (unlock_range_sub s t o l) as Hs.
  destruct (unlock_range_spec s t o l) as (pre & post & _ & _ & E). rewrite E in *. apply inv_sub; [exact H | exact Hs].
Qed.

Lemma unlock_handle_inv s t h : inv s -> inv (fst (unlock_handle s t h)).
Proof.
  intros H. destruct (unlock_handle_spec s t h) as [->|(a & x & b & Hl & _ & ->)]; cbn [fst]; auto.
  apply inv_sub; auto. rewrite Hl. apply sub_remove.
Qed.

Lemma adjust_range_inv s t h o l : inv s -> u64 o -> u64 l -> inv (fst (adjust_range s t h o l)).
Proof.
  intros H Uo Ul.
  destruct (adjust_range_spec s t h o l) as [[->| ->]|(a & x & b & Hl & _ & Hlo & Hhi & ->)]; cbn [fst]; auto.
  pose proof H as [Ho Hw _]. rewrite Hl, ordered_app, ordered_cons in Ho. rewrite Hl, Forall_app, Forall_cons_iff in Hw.
  destruct Ho as (Ho1 & (Ho2 & _) & _), Hw as (Hw1 & _ & Hw2).
  eapply inv_replace; eauto; unfold before, e_end; cbn.
  - split; auto.
  - intros q Hq Hqx. pose proof (prev_end_ge a q Ho1 Hw1 Hq). unfold e_end in *. lia.
  - intros n Hn Hxn. pose proof (next_offset_le b n Ho2 Hw2 Hn). unfold e_end in *. lia.
Qed.

Lemma ordered_map_same (f : entry -> entry) l :
  (forall x, e_off (f x) = e_off x /\ e_len (f x) = e_len x) -> ordered l -> ordered (map f l).
Proof.
  intros Hf H. induction H as [|x l Hs IH Hfa]; cbn; constructor; auto.
  rewrite Forall_forall in *. intros y Hy. apply in_map_iff in Hy. destruct Hy as (z & <- & Hz).
  unfold before, e_end. destruct (Hf x) as [-> ->]. destruct (Hf z) as [-> _]. apply Hfa; auto.
Qed.

Lemma interrupt_inv s t u : inv s -> inv (fst (interrupt s t u)).
Proof.
  intros [Ho Hw [Hi Hn]]. unfold interrupt. destruct (is_parked s u); [|split; auto].
  split; cbn; unfold ids_below, unpark in *; rewrite ?Forall_map, ?map_map; auto.
  apply ordered_map_same; auto.
Qed.

Lemma exec_op_inv s c : inv s -> op_u64 c -> inv (fst (exec_op s c)).
Proof.
  intros Hi Hc. unfold exec_op. destruct (is_pending s (op_tid c)); auto.
  destruct c; cbn in Hc; destruct Hc;
    auto using attempt_inv, unlock_range_inv, unlock_handle_inv, adjust_range_inv, interrupt_inv.
Qed.

Definition set_ready (s : state) (r : list Z) : state := mkSt (idx s) (nid s) (pend s) r.

(* One atomic step of the system, by any thread:
   - some thread calls a method (and runs it until it returns or parks), or
   - some notified thread (ANY element of the ready set, not only the first) resumes. *)
Inductive step (G : op -> Prop) : state -> state -> Prop :=
| step_op s c s' evs : G c -> exec_op s c = (s', evs) -> step G s s'
| step_wake s t r1 r2 s' evs : ready s = r1 ++ t :: r2 ->
    wake (set_ready s (r1 ++ r2)) t = (s', evs) -> step G s s'.

Inductive reachable (G : op -> Prop) : state -> Prop :=
| reach_init : reachable G init_state
| reach_step s s' : reachable G s -> step G s s' -> reachable G s'.

(* induction over runs, with the successor states as the model computes them *)
Lemma reachable_steps G (Q : state -> Prop) :
  Q init_state ->
  (forall s c, reachable G s -> Q s -> G c -> Q (fst (exec_op s c))) ->
  (forall s t r1 r2, reachable G s -> Q s -> ready s = r1 ++ t :: r2 -> Q (fst (wake (set_ready s (r1 ++ r2)) t))) ->
  forall s, reachable G s -> Q s.
Proof.
  intros H0 Hop Hwk s H. induction H as [|s s' Hr IH Hs]; auto.
  destruct Hs as [s c s' evs Hc He | s t r1 r2 s' evs Hr' Hw].
  - change s' with (fst (s', evs)). rewrite <- He. auto.
  - change s' with (fst (s', evs)). rewrite <- Hw. auto.
Qed.

Lemma lookup_pend_in t l p : lookup_pend t l = Some p -> In (t, p) l.
Proof.
  induction l as [|[u q] tl IH]; cbn; [discriminate|].
  destruct (Z.eqb_spec u t) as [->|]; [intros [= ->]|]; auto.
Qed.

Lemma remove_pend_sub t l : sub (remove_pend t l) l.
Proof. induction l as [|[u q] tl IH]; cbn; [|destruct (u =? t)]; constructor; auto using sub_refl. Qed.

Definition G_u64 (c : op) : Prop := op_u64 c.

(* If every range ever requested satisfies P, every held range and every parked request does. *)
Section RangePred.
  Variable P : Z -> Z -> Prop.
  Definition op_P (c : op) : Prop :=
    match c with OTry _ _ o l | OAdjust _ _ o l => P o l | _ => True end.
  Definition all_P (s : state) : Prop :=
    Forall (fun e => P (e_off e) (e_len e)) (idx s) /\
    Forall (fun tp => P (p_off (snd tp)) (p_len (snd tp))) (pend s).

  Lemma attempt_P s t k o l : all_P s -> P o l -> all_P (fst (attempt s t k o l)).
  Proof.
    intros [H1 H2] HP.
    destruct (attempt_spec s t k o l) as [_|pre post Hl _ _|pre x post Hl _ _]; [split; auto| |];
      rewrite Hl, Forall_app in H1; destruct H1 as [Ha Hb]; split; cbn; rewrite ?Forall_app; auto.
    inversion Hb; auto.
  Qed.

  Lemma exec_op_P s c : all_P s -> op_P c -> all_P (fst (exec_op s c)).
  Proof.
    intros HP Hc. unfold exec_op. destruct (is_pending s (op_tid c)); auto.
    destruct c as [t k o l|t o l|t h|t h o l|t u]; cbn [fst]; auto using attempt_P; destruct HP as [H1 H2].
    - pose proof (unlock_range_sub s t o l) as Hs.
      destruct (unlock_range_spec s t o l) as (pre & post & _ & _ & E). rewrite E in *. split; cbn; auto.
      eapply sub_Forall; [exact Hs | exact H1].
    - destruct (unlock_handle_spec s t h) as [->|(a & x & b & Hl & _ & ->)]; split; cbn; auto.
      rewrite Hl in H1. eapply sub_Forall; [apply sub_remove | exact H1].
    - destruct (adjust_range_spec s t h o l) as [[->| ->]|(a & x & b & Hl & _ & _ & _ & ->)]; split; cbn; auto.
      rewrite Hl, Forall_app, Forall_cons_iff in H1. destruct H1 as (Ha & _ & Hb). rewrite Forall_app; auto.
    - unfold interrupt. destruct (is_parked s u); split; cbn; auto. unfold unpark. rewrite Forall_map. auto.
  Qed.

  Lemma wake_P s t : all_P s -> all_P (fst (wake s t)).
  Proof.
    intros [H1 H2]. unfold wake. destruct (lookup_pend t (pend s)) as [p|] eqn:E; [|split; auto].
    assert (HP' : all_P (mkSt (idx s) (nid s) (remove_pend t (pend s)) (ready s))).
    { split; cbn; eauto using sub_Forall, remove_pend_sub. }
    destruct (p_kind p); auto. apply attempt_P; auto.
    apply lookup_pend_in in E. rewrite Forall_forall in H2. apply (H2 _ E).
  Qed.

  Lemma reachable_P (G : op -> Prop) s : (forall c, G c -> op_P c) -> reachable G s -> all_P s.
  Proof.
    intros HG. apply reachable_steps; [split; constructor | auto using exec_op_P | auto using wake_P].
  Qed.
End RangePred.

Lemma wake_inv s t : inv s -> all_P (fun o l => u64 o /\ u64 l) s -> inv (fst (wake s t)).
Proof.
  intros Hi [_ Hp]. unfold wake. destruct (lookup_pend t (pend s)) as [p|] eqn:E; auto.
  assert (Hi' : inv (mkSt (idx s) (nid s) (remove_pend t (pend s)) (ready s))) by (destruct Hi; split; auto).
  destruct (p_kind p); auto.
  apply lookup_pend_in in E. rewrite Forall_forall in Hp. destruct (Hp _ E). apply attempt_inv; auto.
Qed.

Lemma op_u64_P c : op_u64 c -> op_P (fun o l => u64 o /\ u64 l) c.
Proof. destruct c; cbn; auto. Qed.

Lemma reachable_inv (G : op -> Prop) s : (forall c, G c -> op_u64 c) -> reachable G s -> inv s.
Proof.
  intros HG. apply reachable_steps; [split; cbn; repeat constructor | auto using exec_op_inv |].
  intros s' t r1 r2 Hr IH _. apply wake_inv; [destruct IH; split; auto|].
  apply (reachable_P (fun o l => u64 o /\ u64 l) G s') in Hr; auto using op_u64_P.
Qed.

(* byte b belongs to the range held by e: the TRUE (unsaturated) range [offset, offset+length) *)
Definition byte_in (b : Z) (e : entry) : Prop := e_off e <= b < e_off e + e_len e.
Definition disjoint_held (l : list entry) : Prop :=
  forall i j a b x, i <> j -> nth_error l i = Some a -> nth_error l j = Some b ->
                    byte_in x a -> byte_in x b -> False.
Definition nosat (o l : Z) : Prop := o + l <= MAX64.
Definition nonempty (o l : Z) : Prop := 0 < l.
(* the guards on requests: G_safe excludes the class of known finding F4, G_strict also that of F3 *)
Definition G_safe (c : op) : Prop := op_u64 c /\ op_P nosat c.
Definition G_strict (c : op) : Prop := op_u64 c /\ op_P nosat c /\ op_P nonempty c.

Lemma ordered_nth l : ordered l -> forall i j a b, (i < j)%nat ->
  nth_error l i = Some a -> nth_error l j = Some b -> before a b.
Proof.
  induction l as [|x l IH]; intros Ho i j a b Hij Ha Hb; [destruct i; discriminate|].
  apply ordered_cons in Ho. destruct Ho as [Ho1 Ho2].
  destruct j as [|j]; [lia|]. destruct i as [|i]; cbn in Ha, Hb.
  - injection Ha as <-. eauto using nth_error_In.
  - apply (IH Ho1 i j); auto. lia.
Qed.

Lemma ordered_nosat_disjoint l : ordered l -> Forall (fun e => nosat (e_off e) (e_len e)) l -> disjoint_held l.
Proof.
  intros Ho Hn.
  assert (H : forall i j a b x, (i < j)%nat -> nth_error l i = Some a -> nth_error l j = Some b ->
                byte_in x a -> byte_in x b -> False).
  { intros i j a b x Hij Ha Hb [_ Ha2] [Hb1 _]. rewrite Forall_forall in Hn.
    pose proof (Hn a (nth_error_In _ _ Ha)) as Hna. pose proof (ordered_nth l Ho i j a b Hij Ha Hb) as H.
    unfold nosat, before in *. rewrite e_end_min in H. lia. }
  intros i j a b x Hij Ha Hb Hxa Hxb.
  destruct (Nat.lt_ge_cases i j); [eapply (H i j) | eapply (H j i)]; eauto. lia.
Qed.

Lemma set_ready_eta s : set_ready s (ready s) = s. Proof. destruct s; reflexivity. Qed.

(* a lock attempt neither reads nor writes the ready set *)
Lemma attempt_frame s t k o l r :
  attempt (set_ready s r) t k o l = (set_ready (fst (attempt s t k o l)) r, snd (attempt s t k o l)).
Proof.
  unfold attempt, set_ready; cbn. destruct (lb_split o (idx s)) as [pre [|x post]];
    [|destruct (e_off x <? r_end o l); [reflexivity|]]; destruct (dup_empty pre o l); reflexivity.
Qed.

Lemma wake_frame s t r :
  wake (set_ready s r) t = (set_ready (fst (wake s t)) r, snd (wake s t)).
Proof.
  unfold wake; cbn. destruct (lookup_pend t (pend s)) as [p|]; [|reflexivity].
  destruct (p_kind p); try reflexivity. apply (attempt_frame (mkSt _ _ _ (ready s))).
Qed.

Lemma wake_ready s t : ready (fst (wake s t)) = ready s.
Proof. pose proof (wake_frame s t (ready s)) as H. rewrite set_ready_eta in H. rewrite H. reflexivity. Qed.

(* scripted runs (what the correspondence check executes) are runs of [step]: draining the ready queue
   in FIFO order is one [step_wake] per thread, each taking the head of the ready set *)
Lemma drain_list_reachable G rs : forall s, ready s = [] -> reachable G (set_ready s rs) ->
  reachable G (fst (drain_list rs s)) /\ ready (fst (drain_list rs s)) = [].
Proof.
  induction rs as [|t rs IH]; intros s Hr0 Hr; cbn.
  - rewrite <- Hr0, set_ready_eta in Hr. auto.
  - pose proof (wake_ready s t) as Hw.
    destruct (wake s t) as [s1 e1] eqn:E1. destruct (drain_list rs s1) as [s2 e2] eqn:E2.
    change s2 with (fst (s2, e2)). rewrite <- E2. apply IH; [cbn in Hw; congruence|].
    eapply reach_step; [exact Hr|]. eapply (step_wake _ _ t [] rs); [reflexivity|].
    cbn [app]. change (set_ready (set_ready s (t :: rs)) rs) with (set_ready s rs).
    rewrite wake_frame, E1. reflexivity.
Qed.

Lemma run_op_reachable (G : op -> Prop) s c : reachable G s -> G c ->
  reachable G (fst (run_op s c)) /\ ready (fst (run_op s c)) = [].
Proof.
  intros Hr Hc. unfold run_op. destruct (exec_op s c) as [s1 e1] eqn:E1.
  pose proof (drain_list_reachable G (ready s1) (set_ready s1 []) eq_refl) as H. unfold drain.
  change (mkSt (idx s1) (nid s1) (pend s1) []) with (set_ready s1 []).
  destruct (drain_list (ready s1) (set_ready s1 [])). apply H.
  change (set_ready (set_ready s1 []) (ready s1)) with (set_ready s1 (ready s1)). rewrite set_ready_eta.
  eapply reach_step; eauto. eapply step_op; eauto.
Qed.

Lemma run_ops_reachable (G : op -> Prop) cs : forall s, reachable G s -> ready s = [] -> Forall G cs ->
  reachable G (fst (run_ops s cs)) /\ ready (fst (run_ops s cs)) = [].
Proof.
  induction cs as [|c cs IH]; intros s Hr Hr0 HG; cbn; auto.
  inversion HG; subst. destruct (run_op_reachable G s c Hr) as [Hr1 Hr10]; auto.
  destruct (run_op s c) as [s1 e1]. specialize (IH s1 Hr1 Hr10). destruct (run_ops s1 cs). auto.
Qed.

(* an attempt inserts its range when that shares no byte with a held range; only the held ranges'
   lengths and the request's own guards (F4: no saturation, F3: not empty) matter *)
Lemma attempt_free s t k o l :
  Forall (fun e => 0 < e_len e) (idx s) -> o + l <= MAX64 -> 0 < l ->
  (forall e x, In e (idx s) -> byte_in x e -> o <= x < o + l -> False) ->
  exists pre post, idx s = pre ++ post /\
    attempt s t k o l = (mkSt (pre ++ mkE o l (nid s) [] :: post) (nid s + 1) (pend s) (ready s), [EvAcq t k (nid s)]).
Proof.
  intros Hne Nsat Nemp Hfree.
  destruct (attempt_spec s t k o l) as [Hub|pre post Hl _ _|pre x post Hl Hx Hlt]; eauto;
    rewrite r_end_min in *; [lia|].
  exfalso. assert (Hin : In x (idx s)) by (rewrite Hl; auto using in_or_app, in_eq).
  rewrite Forall_forall in Hne. specialize (Hne x Hin). rewrite e_end_min in Hx.
  apply (Hfree x (Z.max o (e_off x)) Hin); unfold byte_in; lia.
Qed.

Lemma unlock_loop_keeps o l post : ordered post -> Forall wf_e post ->
  forall y, In y (fst (unlock_loop o l post)) ->
    r_contains o l (e_off y) (e_len y) = false \/ r_end o l <= e_off y.
Proof.
  induction post as [|x tl IH]; cbn; [tauto|]. rewrite ordered_cons. intros [Ho1 Ho2] Hw y.
  destruct (Z.ltb_spec (e_off x) (r_end o l)).
  - inversion Hw as [|? ? _ Hwt]; subst. specialize (IH Ho1 Hwt y). destruct (unlock_loop o l tl) as [keep wk].
    destruct (r_contains o l (e_off x) (e_len x)) eqn:E; cbn in *; [|intros [<-|]]; auto.
  - intros Hy. right. pose proof (next_offset_le (x :: tl) y) as Hn. rewrite ordered_cons in Hn.
    specialize (Hn (conj Ho1 Ho2) Hw Hy). cbn in Hn. lia.
Qed.

(* what survives unlock(offset,length) lies before the interval, is not contained, or lies behind it *)
Lemma unlock_range_keeps s t o l : inv s ->
  forall y, In y (idx (fst (unlock_range s t o l))) ->
    e_end y <= o \/ r_contains o l (e_off y) (e_len y) = false \/ r_end o l <= e_off y.
Proof.
  intros [Ho Hw _] y. destruct (unlock_range_spec s t o l) as (pre & post & Hl & Hpre & ->). cbn.
  rewrite Hl, ordered_app in Ho. rewrite Hl, Forall_app in Hw. rewrite in_app_iff. intros [Hy|Hy].
  - rewrite Forall_forall in Hpre. auto.
  - right. apply (unlock_loop_keeps o l post); tauto.
Qed.

(* every node that unlock(offset,length) removes hands all its waiters to the ready set *)
Lemma unlock_loop_wakes o l post y : In y post ->
  In y (fst (unlock_loop o l post)) \/ incl (e_wait y) (snd (unlock_loop o l post)).
Proof.
  induction post as [|x tl IH]; cbn; [tauto|]. destruct (e_off x <? r_end o l); [|auto].
  destruct (unlock_loop o l tl) as [keep wk]. cbn in IH.
  destruct (r_contains o l (e_off x) (e_len x)); cbn; intros [<-|Hy]; auto using incl_appl, incl_refl;
    destruct (IH Hy); auto using incl_appr.
Qed.

(* under the F4 guard the neighbours of a node in an ordered list share no byte with it *)
Lemma ordered_mid_disjoint a y b e x : ordered (a ++ y :: b) ->
  Forall (fun e => nosat (e_off e) (e_len e)) (a ++ y :: b) ->
  In e (a ++ b) -> byte_in x e -> byte_in x y -> False.
Proof.
  rewrite ordered_app, ordered_cons, Forall_forall, in_app_iff. unfold byte_in, before, nosat.
  intros (_ & (_ & Hb) & Ha) Hn [He|He] ? ?.
  - specialize (Ha e y He (in_eq _ _)). specialize (Hn e (in_or_app _ _ _ (or_introl He))).
    rewrite e_end_min in *. lia.
  - specialize (Hb e He). specialize (Hn y (in_elt _ _ _)). rewrite e_end_min in *. lia.
Qed.

(* libstdc++ _Rb_tree::_M_lower_bound(x, y, k):
     while (x != 0) if (!comp(key(x), k)) y = x, x = left(x); else x = right(x);  return iterator(y);
   An iterator is identified with the in-order suffix that starts at its node (end() = []).
   [y] is the suffix of the current candidate = everything after the current subtree. *)
Inductive tree := Leaf | Node (l : tree) (x : entry) (r : tree).
Fixpoint inorder (t : tree) : list entry :=
  match t with Leaf => [] | Node l x r => inorder l ++ x :: inorder r end.
Fixpoint tree_lb (o : Z) (t : tree) (y : list entry) : list entry :=
  match t with
  | Leaf => y
  | Node l x r => if e_end x <=? o                       (* comp(key(x), k): x.end() <= k.offset *)
                  then tree_lb o r y
                  else tree_lb o l (x :: inorder r ++ y)
  end.

Lemma lb_split_skip o a b : Forall (fun x => e_end x <= o) a -> snd (lb_split o (a ++ b)) = snd (lb_split o b).
Proof.
  induction 1 as [|x a Hx _ IH]; cbn; auto.
  apply Z.leb_le in Hx. rewrite Hx. destruct (lb_split o (a ++ b)). exact IH.
Qed.

Lemma ordered_end_mono a x b z : ordered (a ++ x :: b) -> Forall wf_e (a ++ x :: b) -> In z a -> e_end z <= e_end x.
Proof.
  rewrite ordered_app, Forall_app. intros (_ & _ & Ho) [_ Hw] Hz. inversion Hw as [|? ? Hx _].
  specialize (Ho z x Hz (in_eq _ _)). apply wf_off_le_end in Hx. unfold before in Ho. lia.
Qed.

Lemma tree_lb_spec o t : forall y,
  ordered (inorder t ++ y) -> Forall wf_e (inorder t ++ y) ->
  match y with [] => True | h :: _ => o < e_end h end ->
  tree_lb o t y = snd (lb_split o (inorder t ++ y)).
Proof.
  induction t as [|l IHl x r IHr]; intros y Ho Hw Hy; cbn [tree_lb inorder].
  - destruct y; cbn; [|apply Z.leb_gt in Hy; rewrite Hy]; reflexivity.
  - cbn [inorder] in Ho, Hw. rewrite <- app_assoc in *. cbn [app] in *.
    destruct (Z.leb_spec (e_end x) o) as [E|E]; [|apply IHl; auto].
    change (inorder l ++ x :: inorder r ++ y) with (inorder l ++ [x] ++ (inorder r ++ y)).
    rewrite app_assoc, lb_split_skip.
    + apply ordered_app in Ho. apply Forall_app in Hw. destruct Ho as (_ & Ho & _), Hw as [_ Hw].
      apply ordered_cons in Ho. inversion Hw. apply IHr; tauto.
    + apply Forall_app. split; [|auto]. apply Forall_forall. intros z Hz.
      pose proof (ordered_end_mono _ _ _ z Ho Hw Hz). lia.
Qed.

(* on an ordered list the split is exact: nothing from the lower bound on is < key *)
Lemma lb_split_post o l a b : ordered l -> Forall wf_e l -> lb_split o l = (a, b) ->
  Forall (fun x => o < e_end x) b.
Proof.
  intros Ho Hw H. destruct (lb_split_spec _ _ _ _ H) as (-> & _ & Hx).
  apply ordered_app in Ho. apply Forall_app in Hw. destruct Ho as (_ & Ho & _), Hw as [_ Hw].
  destruct b as [|x b]; constructor; auto. apply ordered_cons in Ho. destruct Ho as [_ Ho].
  inversion Hw as [|? ? _ Hwb]. rewrite Forall_forall in *. intros y Hy.
  specialize (Ho y Hy). pose proof (wf_off_le_end y (Hwb y Hy)). unfold before in Ho. lia.
Qed.

Lemma attempt_no_ub s t k o l u : nosat o l -> nonempty o l -> ~ In (EvUB u) (snd (attempt s t k o l)).
Proof.
  unfold nosat, nonempty. intros Hn He.
  destruct (attempt_spec s t k o l) as [Hub| |]; cbn; [rewrite r_end_min in Hub; lia| |]; intros [|[]]; discriminate.
Qed.

(* only a lock attempt can report the violated std::set precondition *)
Lemma exec_op_ub s c u : In (EvUB u) (snd (exec_op s c)) ->
  exists t k o l, c = OTry t k o l /\ In (EvUB u) (snd (attempt s t k o l)).
Proof.
  unfold exec_op. destruct (is_pending s (op_tid c)); [intros [|[]]; discriminate|].
  destruct c as [t k o l|t o l|t h|t h o l|t u0]; cbn [snd].
  - intros H. exists t, k, o, l. auto.
  - destruct (unlock_range_spec s t o l) as (? & ? & _ & _ & ->). intros [|[]]; discriminate.
  - destruct (unlock_handle_spec s t h) as [->|(? & ? & ? & _ & _ & ->)]; intros [|[]]; discriminate.
  - destruct (adjust_range_spec s t h o l) as [[->| ->]|(? & ? & ? & _ & _ & _ & _ & ->)]; intros [|[]]; discriminate.
  - unfold interrupt. destruct (is_parked s u0); intros [|[]]; discriminate.
Qed.

(* F3: unlock(5,0) does not erase the range taken by try_lock_wait(5,0), and the thread that later asks
   for [4,6) parks on that zero-length node although its owner released it *)
Definition f3_ops : list op := [OTry 1 KT 5 0; OUnlock 1 5 0; OTry 2 KL 4 2].
