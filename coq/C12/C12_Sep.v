(* C12_Sep.v — separation of address ranges and the refinement of the iovector extractions
   against the flat byte string (route (a) of ser_roundtrip):
   extract_front_continuous / extract_back_continuous, fast path and copying fallback into
   a fresh allocation slot (for the front the two paths are put together in C12_Hx.v, efc_h),
   return a pointer to the first / last n bytes of `flat`, leave a vector denoting the rest,
   and carry PROVENANCE: the returned range lies
   inside an element of the input vector or is the fresh slot; every remaining element lies
   inside an element of the input vector. *)
From Coq Require Import ZArith List Bool Lia.
From PV Require Import Base.U64 C12.C12_Model C12.C12_Mem C12.C12_MemC C12.C12_Iov C12.C12_Flat.
Import ListNotations.
Local Open Scope Z_scope.

Definition sep (r1 r2 : Z * Z) : Prop :=
  snd r1 <= 0 \/ snd r2 <= 0 \/ fst r1 + snd r1 <= fst r2 \/ fst r2 + snd r2 <= fst r1.
Definition within (r1 r2 : Z * Z) : Prop := fst r2 <= fst r1 /\ fst r1 + snd r1 <= fst r2 + snd r2.
Fixpoint psep (l : list (Z * Z)) : Prop :=
  match l with [] => True | x :: r => (forall y, In y r -> sep x y) /\ psep r end.

Lemma sep_sym a b : sep a b -> sep b a.
Proof. unfold sep. tauto. Qed.
Lemma within_refl a : within a a.
Proof. unfold within. lia. Qed.
Lemma within_trans a b c : within a b -> within b c -> within a c.
Proof. unfold within. lia. Qed.
Lemma within_sep a b c : within a b -> sep b c -> sep a c.
Proof. unfold within, sep. lia. Qed.
Lemma within_sep2 a b c d : within a b -> within c d -> sep b d -> sep a c.
Proof. unfold within, sep. lia. Qed.
Lemma sep_sub_r a b c : sep a c -> within b c -> sep a b.
Proof. intros S W. apply sep_sym. eapply within_sep; [exact W|apply sep_sym; exact S]. Qed.

(* psep, and pairwise_disj of C12_Walk.v, are instances: a list is pairwise related and splits at an append *)
Definition pairwise {A} (R : A -> A -> Prop) : list A -> Prop :=
  fix go l := match l with [] => True | x :: r => (forall y, In y r -> R x y) /\ go r end.

Lemma pairwise_app {A} (R : A -> A -> Prop) a b :
  pairwise R (a ++ b) <-> pairwise R a /\ pairwise R b /\ (forall x y, In x a -> In y b -> R x y).
Proof.
  induction a as [|h t IH]; cbn [app pairwise].
  - split; [intros H; split; [exact I|split; [exact H|intros x y []]]|tauto].
  - fold (pairwise R). rewrite IH. split.
    + intros [H1 [A1 [B C]]]. split; [split; [intros y Hy; apply H1; apply in_or_app; auto|exact A1]|].
      split; [exact B|]. intros x y [<-|Hx] Hy; [apply H1; apply in_or_app; auto|apply C; auto].
    + intros [[H1 A1] [B C]]. split; [|split; [exact A1|split; [exact B|intros x y Hx Hy; apply C; [right; exact Hx|exact Hy]]]].
      intros y Hy. apply in_app_or in Hy. destruct Hy as [Hy|Hy]; [apply H1; exact Hy|apply C; [left; reflexivity|exact Hy]].
Qed.

Lemma psep_app a b : psep (a ++ b) <-> psep a /\ psep b /\ (forall x y, In x a -> In y b -> sep x y).
Proof. exact (pairwise_app sep a b). Qed.

Lemma psep_rev l : psep l -> psep (rev l).
Proof.
  induction l as [|h t IH]; intros H; [exact I|]. cbn [rev]. destruct H as [H1 H2]. apply psep_app.
  split; [apply IH; exact H2|]. split; [split; [intros y []|exact I]|].
  intros x y Hx [<-|[]]. apply sep_sym. apply H1. apply in_rev. exact Hx.
Qed.

Lemma load_store_sep m b v m' a n : store m b v = Ok m' -> sep (a, n) (b, len v) -> load m' a n = load m a n.
Proof.
  intros H [S|[S|S]]; cbn [fst snd] in S.
  - rewrite !load_nonpos by exact S. reflexivity.
  - rewrite (store_nonpos _ _ _ _ S H). reflexivity.
  - eapply load_store_other; eauto.
Qed.

Lemma load_sub m a n bs o k : Forall (fun L => L <= STRIDE) (lens m) -> load m a n = Ok bs -> 0 <= a ->
  0 <= o -> 0 <= k -> o + k <= n ->
  load m (a + o) k = Ok (firstn (Z.to_nat k) (skipn (Z.to_nat o) bs)).
Proof.
  intros Hwf H Ha Ho Hk Hok.
  pose proof (load_suffix m a n bs o Hwf H ltac:(lia) Ha) as S.
  exact (load_prefix m (a + o) (n - o) _ k S ltac:(lia)).
Qed.

(* a list whose elements avoid the range R denotes the same bytes in a memory that differs only inside R *)
Lemma flat_frame m m' R el : (forall r k, sep (r, k) R -> load m' r k = load m r k) -> (forall e, In e el -> sep e R) -> flat m' el = flat m el.
Proof.
  intros Fr. induction el as [|[b l] r IH]; intros Hs; [reflexivity|]. cbn [flat].
  rewrite (Fr b l) by (apply (Hs (b, l)); left; reflexivity). rewrite IH; [reflexivity|]. intros e He. apply Hs. right. exact He.
Qed.

Lemma flat_store_sep m b v m' el : store m b v = Ok m' -> (forall e, In e el -> sep e (b, len v)) -> flat m' el = flat m el.
Proof. intros H. apply flat_frame. intros r k. apply (load_store_sep _ _ _ _ _ _ H). Qed.

Lemma flat_app_mem m x el : Forall (el_ok (lens m)) el -> flat (m ++ x) el = flat m el.
Proof.
  induction 1 as [|[b l] r He _ IH]; [reflexivity|]. cbn [flat]. destruct He as [_ [Hv _]]. cbn [fst snd] in Hv.
  rewrite (load_app m x b l Hv), IH. reflexivity.
Qed.

Lemma flat_app m a b : flat m (a ++ b) = (da <- flat m a ;; db <- flat m b ;; Ok (da ++ db)).
Proof.
  induction a as [|[eb l] r IH]; cbn [app flat bind].
  - destruct (flat m b); reflexivity.
  - destruct (load m eb l) as [d|]; cbn [bind]; [|reflexivity]. rewrite IH.
    destruct (flat m r) as [dr|]; cbn [bind]; [|reflexivity].
    destruct (flat m b) as [db|]; cbn [bind]; [|reflexivity]. rewrite app_assoc. reflexivity.
Qed.

Lemma flat_len m el w : Forall (el_ok (lens m)) el -> flat m el = Ok w -> len w = sum_el el.
Proof.
  intros Hel. revert w. induction Hel as [|[b l] r He _ IH]; intros w H.
  - inversion H. reflexivity.
  - cbn [flat] in H. destruct (load m b l) as [d|] eqn:Ed; cbn [bind] in H; [|discriminate].
    destruct (flat m r) as [dr|]; cbn [bind] in H; [|discriminate]. inversion H. subst w.
    destruct He as [Hl _]. cbn [snd] in Hl.
    rewrite len_app, sum_el_cons, (IH dr eq_refl), (load_len _ _ _ _ Ed). cbn [snd]. lia.
Qed.

Lemma flat_bytes_ok m el w : mem_bytes m -> flat m el = Ok w -> bytes_ok w.
Proof.
  intros Hm. revert w. induction el as [|[b l] r IH]; intros w H.
  - inversion H. constructor.
  - cbn [flat] in H. destruct (load m b l) as [d|] eqn:Ed; cbn [bind] in H; [|discriminate].
    destruct (flat m r) as [dr|]; cbn [bind] in H; [|discriminate]. inversion H. subst w.
    apply bytes_ok_app; [eapply load_bytes_ok; eauto|apply IH; reflexivity].
Qed.

Lemma fresh_sep ls a k n : Forall (fun L => L <= STRIDE) ls -> validb ls a k = true ->
  sep (a, k) (region_base (len ls), n).
Proof.
  intros Hwf H. unfold sep. cbn [fst snd]. destruct (Z_le_gt_dec k 0) as [Hk|Hk]; [left; exact Hk|].
  right. right. left. unfold validb in H. destruct (k <=? 0) eqn:E; [apply Z.leb_le in E; lia|].
  destruct (a <? ARENA) eqn:EA; [discriminate|]. apply Z.ltb_ge in EA.
  destruct (nth_z ls ((a - ARENA) / STRIDE)) as [L|] eqn:HL; [|discriminate]. apply Z.leb_le in H.
  pose proof (nth_z_some_range _ _ _ HL) as R. pose proof (nth_z_In _ _ _ HL) as Hin.
  rewrite Forall_forall in Hwf. specialize (Hwf _ Hin).
  pose proof (Z.div_mod (a - ARENA) STRIDE ltac:(pose proof STRIDE_pos; lia)) as Ed.
  pose proof (Z.mod_pos_bound (a - ARENA) STRIDE STRIDE_pos) as Hm.
  unfold region_base. pose proof STRIDE_pos. nia.
Qed.

Lemma xcopy_app_mem back m x : Forall (fun L => L <= STRIDE) (lens m) ->
  forall el n, Forall (el_ok (lens m)) el -> 0 <= n -> xcopy back (m ++ x) el n = xcopy back m el n.
Proof.
  intros Hwf. induction el as [|[b l] r IH]; intros n Hel Hn; [reflexivity|].
  inversion Hel as [|? ? He Hr]; subst. destruct He as [Hl [Hv [Hb0 Hbw]]]. cbn [fst snd] in *.
  cbn [xcopy]. destruct (n <=? l) eqn:E.
  - apply Z.leb_le in E. pose proof (xcopy_cut back b l n Hb0 Hbw ltac:(lia)) as C. cbv zeta in C.
    rewrite (load_app m x _ n); [reflexivity|]. apply (validb_sub' _ b l); auto; lia.
  - apply Z.leb_gt in E. rewrite (load_app m x b l Hv). rewrite IH by (auto; lia). reflexivity.
Qed.

Definition prov (el' el : list (Z * Z)) : Prop := forall e', In e' el' -> exists e, In e el /\ within e' e.

Lemma prov_refl el : prov el el.
Proof. intros e He. exists e. split; [exact He|apply within_refl]. Qed.

Lemma prov_trans a b c : prov a b -> prov b c -> prov a c.
Proof.
  intros P Q e He. destruct (P e He) as [e1 [H1 W1]]. destruct (Q e1 H1) as [e2 [H2 W2]].
  exists e2. split; [exact H2|eapply within_trans; eauto].
Qed.

Lemma xcopy_sub back m : forall el n d el', Forall (el_ok (lens m)) el -> 0 <= n ->
  xcopy back m el n = Ok (d, el') -> psep el -> psep el' /\ prov el' el.
Proof.
  induction el as [|[b l] r IH]; intros n d el' Hel Hn H Hp.
  - cbn in H. inversion H. split; [exact I|intros e []].
  - inversion Hel as [|? ? He Hr]; subst. destruct He as [Hl [Hv [Hb0 Hbw]]]. cbn [fst snd] in *.
    destruct Hp as [Hp1 Hp2]. cbn [xcopy] in H. destruct (n <=? l) eqn:E.
    + apply Z.leb_le in E. pose proof (xcopy_cut back b l n Hb0 Hbw ltac:(lia)) as C. cbv zeta in C.
      destruct (load m _ n) as [d0|]; cbn [bind] in H; [|discriminate].
      injection H as _ He'. subst el'. destruct (l - n =? 0) eqn:E0.
      * split; [exact Hp2|]. intros e He. exists e. split; [right; exact He|apply within_refl].
      * assert (W : within (if back then b else wrap (b + n), l - n) (b, l)) by (unfold within; cbn [fst snd]; lia).
        split; [split; [|exact Hp2]; intros y Hy; apply (within_sep _ (b, l)); [exact W|auto]|].
        intros e [<-|He]; [exists (b, l); split; [left; reflexivity|exact W]|].
        exists e. split; [right; exact He|apply within_refl].
    + apply Z.leb_gt in E. destruct (load m b l) as [d0|]; cbn [bind] in H; [|discriminate].
      destruct (xcopy back m r (n - l)) as [[d' e']|] eqn:Erec; cbn [bind] in H; [|discriminate].
      injection H as _ He'. subst el'.
      destruct (IH (n - l) d' e' Hr ltac:(lia) Erec Hp2) as [A B]. split; [exact A|].
      intros e He. destruct (B e He) as [e0 [H0 W]]. exists e0. split; [right; exact H0|exact W].
Qed.

Lemma vef_copy_sub m : forall el n d el', Forall (el_ok (lens m)) el -> 0 <= n ->
  vef_copy m el n = Ok (d, el') -> psep el -> psep el' /\ prov el' el.
Proof. intros el n d el'. rewrite vef_copy_x. apply xcopy_sub. Qed.

Lemma veb_copy_sub m : forall el n d el', Forall (el_ok (lens m)) el -> 0 <= n ->
  veb_copy m el n = Ok (d, el') -> psep el -> psep el' /\ prov el' el.
Proof. intros el n d el'. rewrite veb_copy_x. apply xcopy_sub. Qed.

Lemma flat_snoc m a b l : flat m (a ++ [(b, l)]) = (da <- flat m a ;; d <- load m b l ;; Ok (da ++ d)).
Proof.
  rewrite flat_app. destruct (flat m a) as [da|]; cbn [bind]; [|reflexivity]. cbn [flat].
  destruct (load m b l) as [d|]; cbn [bind]; [|reflexivity]. rewrite app_nil_r. reflexivity.
Qed.

Theorem veb_copy_flat m : Forall (fun L => L <= STRIDE) (lens m) ->
  forall rel bytes bs d rel', Forall (el_ok (lens m)) rel -> flat m (rev rel) = Ok bs -> 0 < bytes <= sum_el rel ->
  veb_copy m rel bytes = Ok (d, rel') ->
  d = skipn (Z.to_nat (len bs - bytes)) bs /\ flat m (rev rel') = Ok (firstn (Z.to_nat (len bs - bytes)) bs).
Proof.
  intros Hwf. induction rel as [|[b l] rest IH]; intros bytes bs d rel' Hel Hf Hb Hc.
  - rewrite sum_el_nil in Hb. lia.
  - inversion Hel as [|? ? He Hrest]; subst. destruct He as [Hl [Hv [Hb0 Hbw]]]. cbn [fst snd] in *.
    rewrite sum_el_cons in Hb. cbn [snd] in Hb.
    cbn [rev] in Hf. rewrite flat_snoc in Hf.
    destruct (flat m (rev rest)) as [rb|] eqn:Er; cbn [bind] in Hf; [|discriminate].
    destruct (load m b l) as [d0|] eqn:Ed0; cbn [bind] in Hf; [|discriminate]. inversion Hf. subst bs. clear Hf.
    pose proof (load_len _ _ _ _ Ed0) as HL0. rewrite Z.max_r in HL0 by lia.
    rewrite len_app, HL0. pose proof (len_nonneg rb) as Hrb.
    cbn [veb_copy] in Hc. destruct (bytes <=? l) eqn:E.
    + apply Z.leb_le in E. rewrite wrap_small in Hc by lia.
      pose proof (load_suffix m b l d0 (l - bytes) Hwf Ed0 ltac:(lia) Hb0) as S.
      replace (b + (l - bytes)) with (b + l - bytes) in S by lia. replace (l - (l - bytes)) with bytes in S by lia.
      rewrite S in Hc. cbn [bind] in Hc. injection Hc as Hd He'. subst d rel'. split.
      * rewrite skipn_app_ge by (unfold len in *; lia). f_equal. unfold len in *. lia.
      * destruct (l - bytes =? 0) eqn:E0.
        { apply Z.eqb_eq in E0. rewrite Er. f_equal. rewrite firstn_app_le by (unfold len in *; lia).
          rewrite firstn_all2; [reflexivity|unfold len in *; lia]. }
        apply Z.eqb_neq in E0. cbn [rev]. rewrite flat_snoc, Er. cbn [bind].
        rewrite (load_prefix m b l d0 (l - bytes) Ed0 ltac:(lia)). cbn [bind]. f_equal.
        rewrite firstn_app_ge by (unfold len in *; lia). f_equal. f_equal. unfold len in *. lia.
    + apply Z.leb_gt in E. rewrite Ed0 in Hc. cbn [bind] in Hc.
      destruct (veb_copy m rest (bytes - l)) as [[d' e']|] eqn:Erec; cbn [bind] in Hc; [|discriminate].
      injection Hc as Hd He'. subst d rel'.
      destruct (IH (bytes - l) rb d' e' Hrest eq_refl ltac:(lia) Erec) as [A B].
      assert (Hsum : len rb = sum_el rest).
      { rewrite <- sum_el_rev. apply (flat_len m); [apply Forall_rev; exact Hrest|exact Er]. }
      replace (len rb + l - bytes) with (len rb - (bytes - l)) by lia. split.
      * rewrite skipn_app_le by (unfold len in *; lia). rewrite <- A. reflexivity.
      * rewrite firstn_app_le by (unfold len in *; lia). exact B.
Qed.

Lemma prov_rev a b : prov a b -> prov (rev a) (rev b).
Proof. intros P e He. apply in_rev in He. destruct (P e He) as [e0 [H0 W]]. exists e0. split; [apply in_rev in H0; exact H0|exact W]. Qed.

Definition xpost (m : mem) (v : iovs) (n p : Z) (m' : mem) (v' : iovs) (got rest : list byte) : Prop :=
  inv m' v' /\ ext (lens m) (lens m') /\ i_cap v' = i_cap v /\ i_nb v <= i_nb v' <= i_nb v + 1 /\
  ptr_ok (lens m') p n /\ load m' p n = Ok got /\ flat m' (i_el v') = Ok rest /\
  psep (i_el v') /\ prov (i_el v') (i_el v) /\
  (forall e, In e (i_el v') -> sep e (p, n)) /\
  (forall a k, validb (lens m) a k = true -> load m' a k = load m a k) /\
  ((exists e, In e (i_el v) /\ within (p, n) e) \/ (p = region_base (len m) /\ exists d, m' = m ++ [d] /\ len d = n)).

(* anything readable before and separated from every element of the vector is separated from
   the extracted range and from every remaining element *)
Lemma xpost_sep m v n p m' v' got rest c : xpost m v n p m' v' got rest -> Forall (fun L => L <= STRIDE) (lens m) ->
  validb (lens m) (fst c) (snd c) = true -> (forall e, In e (i_el v) -> sep e c) ->
  sep (p, n) c /\ (forall e, In e (i_el v') -> sep e c).
Proof.
  intros [_ [_ [_ [_ [_ [_ [_ [_ [P [_ [_ Pv]]]]]]]]]]] Hwf Hc Hs. split; [|intros e' He'; destruct (P e' He') as [e [He W]]; eapply within_sep; eauto].
  destruct Pv as [[e [He W]]|[-> _]]; [eapply within_sep; eauto|].
  apply sep_sym. rewrite <- (len_lens m). destruct c as [ca ck]. apply fresh_sep; auto.
Qed.

(* when the extracted range is the fresh slot holding the copy d, xpost follows from what is
   known of the remaining elements in the old memory *)
Lemma xpost_fresh m v d v' rest : inv m v -> 0 < len d <= INT_MAX ->
  efc_post m v (len d) (region_base (len m)) (m ++ [d]) v' -> i_nb v <= i_nb v' <= i_nb v + 1 ->
  Forall (el_ok (lens m)) (i_el v') -> flat m (i_el v') = Ok rest -> psep (i_el v') -> prov (i_el v') (i_el v) ->
  xpost m v (len d) (region_base (len m)) (m ++ [d]) v' d rest.
Proof.
  intros Hinv Hd [Hi' [Hx' [Hc' [Hp' Hfr']]]] Hnb H4 Hfl Hps Hpv. pose proof Hinv as [_ [Hwf _]].
  assert (B1 : 0 < region_base (len m)) by (pose proof (len_nonneg m); unfold region_base, ARENA, STRIDE; lia).
  split; [exact Hi'|]. split; [exact Hx'|]. split; [exact Hc'|]. split; [exact Hnb|].
  split; [destruct Hp' as [Hp'|Hp']; [lia|exact Hp']|].
  split; [apply (load_store_same _ _ _ _ (store_fresh m d ltac:(lia) ltac:(unfold INT_MAX, STRIDE in *; lia))); lia|].
  split; [rewrite (flat_app_mem m [d] _ H4); exact Hfl|].
  split; [exact Hps|]. split; [exact Hpv|]. split.
  { intros [eb ek] He. rewrite <- (len_lens m). apply fresh_sep; [exact Hwf|].
    rewrite Forall_forall in H4. destruct (H4 _ He) as [_ [Hv _]]. exact Hv. }
  split; [exact Hfr'|]. right. split; [reflexivity|]. exists d. split; reflexivity.
Qed.

Lemma efc_slow_flat m v n w : inv m v -> 0 < n -> flat m (i_el v) = Ok w -> n <= len w -> psep (i_el v) ->
  i_nb v < i_cap v ->
  exists p m' v', efc_slow m v n = Ok (p, m', v') /\ xpost m v n p m' v' (firstn (Z.to_nat n) w) (skipn (Z.to_nat n) w).
Proof.
  intros Hinv Hn Hf Hnw Hp Hcap. pose proof Hinv as [Hbm [Hwf [Hel [Hsum [Hnb [Hroom Hcnt]]]]]].
  pose proof (flat_len _ _ _ Hel Hf) as Hlw.
  destruct (efc_slow_ok m v n Hinv Hn) as [p [m' [v' [He Hpost]]]].
  exists p, m', v'. split; [exact He|].
  destruct (vef_copy_ok m (i_el v) n Hbm Hwf Hel ltac:(lia)) as [d [el' [H1 [H2 [H3 [H4 [H5 H6]]]]]]].
  destruct (vef_copy_flat m Hwf (i_el v) n w d el' Hel Hf ltac:(lia) H1) as [Hd Hfl].
  destruct (vef_copy_sub m (i_el v) n d el' Hel ltac:(lia) H1 Hp) as [Hps Hpv].
  assert (Hc : view_extract_front_copy (m ++ [zeros n]) (i_el v) n = Ok (d, el')).
  { unfold view_extract_front_copy. destruct (n =? 0) eqn:Eb; [apply Z.eqb_eq in Eb; lia|].
    rewrite vef_copy_x, (xcopy_app_mem false m _ Hwf _ n Hel ltac:(lia)), <- vef_copy_x. exact H1. }
  rewrite efc_slow_eq, (slow_some _ _ m v n d el' Hinv ltac:(lia) Hcap Hc H2) in He. injection He as <- <- <-.
  subst n. rewrite <- Hd. apply xpost_fresh; [exact Hinv|lia|exact Hpost|cbn; lia|exact H4|exact Hfl|exact Hps|exact Hpv].
Qed.

(* the head element holds the n bytes: a view, nothing is copied *)
Lemma efc_fast_x m v n w b l rest : inv m v -> 0 < n -> psep (i_el v) -> flat m (i_el v) = Ok w ->
  i_el v = (b, l) :: rest -> n <= l ->
  xpost m v n b m (set_el v (if l - n =? 0 then rest else (wrap (b + n), l - n) :: rest))
    (firstn (Z.to_nat n) w) (skipn (Z.to_nat n) w).
Proof.
  intros Hinv Hn Hp Hf Eel E. pose proof Hinv as [Hbm [Hwf [Hel [Hsum [Hnb [Hroom Hcnt]]]]]].
  destruct (efc_ok m v n Hinv Hn) as [p [m' [v' [He [Hi' [Hx' [Hc' [Hp' Hfr']]]]]]]].
  revert He. unfold efc. rewrite Eel in *.
  destruct (l <? n) eqn:E1; [apply Z.ltb_lt in E1; lia|].
  intros He. injection He as <- <- <-.
  inversion Hel as [|? ? He Hrest]; subst. destruct He as [Hl [Hv [Hb0 Hbw]]]. cbn [fst snd] in *.
  set (el' := if l - n =? 0 then rest else (wrap (b + n), l - n) :: rest) in *.
  assert (Hvn : validb (lens m) b n = true) by (apply (validb_sub' _ b l); auto; lia).
  destruct (load_valid _ _ _ Hvn) as [dd Hdd].
  assert (Hvc : vef_copy m ((b, l) :: rest) n = Ok (dd, el')).
  { cbn [vef_copy]. destruct (n <=? l) eqn:E2; [|apply Z.leb_gt in E2; lia]. rewrite Hdd. reflexivity. }
  destruct (vef_copy_flat m Hwf _ n w dd el' Hel Hf ltac:(rewrite sum_el_cons; cbn [snd]; pose proof (sum_el_nonneg _ _ Hrest); lia) Hvc) as [Hd Hfl].
  destruct (vef_copy_sub m _ n dd el' Hel ltac:(lia) Hvc Hp) as [Hps Hpv].
  unfold xpost, set_el. cbn [i_el i_nb i_cap]. rewrite !Eel.
  split; [exact Hi'|]. split; [exact Hx'|]. split; [reflexivity|]. split; [lia|].
  split; [destruct Hp' as [Hp'|Hp']; [destruct (validb_fits _ _ _ Hwf Hv ltac:(lia)); pose proof ARENA_pos; lia|exact Hp']|].
  split; [rewrite <- Hd; exact Hdd|]. split; [exact Hfl|]. split; [exact Hps|]. split; [exact Hpv|].
  split.
  { destruct Hp as [Hp1 Hp2]. intros e He. unfold el' in He. destruct (l - n =? 0) eqn:E0.
    - apply sep_sym. apply (within_sep _ (b, l)); [unfold within; cbn [fst snd]; lia|auto].
    - apply Z.eqb_neq in E0. destruct He as [<-|He].
      + rewrite wrap_small by lia. unfold sep. cbn [fst snd]. lia.
      + apply sep_sym. apply (within_sep _ (b, l)); [unfold within; cbn [fst snd]; lia|auto]. }
  split; [auto|]. left. exists (b, l). split; [left; reflexivity|unfold within; cbn [fst snd]; lia].
Qed.

(* the last element holds the n bytes *)
Lemma ebc_fast_x m v n w b l rrest : inv m v -> 0 < n -> psep (i_el v) -> flat m (i_el v) = Ok w ->
  rev (i_el v) = (b, l) :: rrest -> n <= l ->
  xpost m v n (wrap (b + (l - n))) m (set_el_back v (rev (if l - n =? 0 then rrest else (b, l - n) :: rrest)))
    (skipn (Z.to_nat (len w - n)) w) (firstn (Z.to_nat (len w - n)) w).
Proof.
  intros Hinv Hn Hp Hf Erev E. pose proof Hinv as [Hbm [Hwf [Hel [Hsum [Hnb [Hroom Hcnt]]]]]].
  assert (Helr : Forall (el_ok (lens m)) (rev (i_el v))) by (apply Forall_rev; exact Hel).
  assert (Hpr : psep (rev (i_el v))) by (apply psep_rev; exact Hp).
  assert (Hfr : flat m (rev (rev (i_el v))) = Ok w) by (rewrite rev_involutive; exact Hf).
  destruct (ebc_ok m v n Hinv Hn) as [p [m' [v' [He [Hi' [Hx' [Hc' [Hp' Hfr']]]]]]]].
  revert He. unfold ebc. rewrite Erev in *.
  destruct (l <? n) eqn:E1; [apply Z.ltb_lt in E1; lia|].
  intros He. injection He as <- <- <-.
  inversion Helr as [|? ? He Hrest]; subst. destruct He as [Hl [Hv [Hb0 Hbw]]]. cbn [fst snd] in *.
  set (rel' := if l - n =? 0 then rrest else (b, l - n) :: rrest) in *.
  assert (Hvn : validb (lens m) (b + l - n) n = true) by (apply (validb_sub' _ b l); auto; lia).
  destruct (load_valid _ _ _ Hvn) as [dd Hdd].
  assert (Hvc : veb_copy m ((b, l) :: rrest) n = Ok (dd, rel')).
  { cbn [veb_copy]. destruct (n <=? l) eqn:E2; [|apply Z.leb_gt in E2; lia]. rewrite wrap_small by lia. rewrite Hdd. reflexivity. }
  assert (Hsr : sum_el ((b, l) :: rrest) = sum_el (i_el v)) by (rewrite <- Erev; apply sum_el_rev).
  pose proof (flat_len _ _ _ Hel Hf) as Hlw.
  assert (Hbnd : 0 < n <= sum_el ((b, l) :: rrest)).
  { rewrite sum_el_cons. cbn [snd]. pose proof (sum_el_nonneg _ _ Hrest). lia. }
  destruct (veb_copy_flat m Hwf _ n w dd rel' Helr Hfr Hbnd Hvc) as [Hd Hfl].
  destruct (veb_copy_sub m _ n dd rel' Helr ltac:(lia) Hvc Hpr) as [Hps Hpv].
  replace (b + (l - n)) with (b + l - n) in * by lia. rewrite wrap_small in * by lia.
  unfold xpost, set_el_back. cbn [i_el i_nb i_cap].
  split; [exact Hi'|]. split; [exact Hx'|]. split; [reflexivity|]. split; [lia|].
  split.
  { destruct Hp' as [Hp'|Hp']; [|exact Hp'].
    destruct (validb_fits _ _ _ Hwf Hv ltac:(lia)). pose proof ARENA_pos. lia. }
  split; [rewrite <- Hd; exact Hdd|]. split; [exact Hfl|].
  split; [apply psep_rev; exact Hps|].
  split; [rewrite <- (rev_involutive (i_el v)), Erev; apply prov_rev; exact Hpv|].
  split.
  { destruct Hpr as [Hp1 Hp2]. intros e He. apply in_rev in He. unfold rel' in He. destruct (l - n =? 0) eqn:E0.
    - apply sep_sym. apply (within_sep _ (b, l)); [unfold within; cbn [fst snd]; lia|auto].
    - apply Z.eqb_neq in E0. destruct He as [<-|He].
      + unfold sep. cbn [fst snd]. lia.
      + apply sep_sym. apply (within_sep _ (b, l)); [unfold within; cbn [fst snd]; lia|auto]. }
  split; [auto|]. left. exists (b, l). split; [apply in_rev; rewrite Erev; left; reflexivity|unfold within; cbn [fst snd]; lia].
Qed.

Lemma ebc_flat m v n w : inv m v -> 0 < n -> flat m (i_el v) = Ok w -> n <= len w -> psep (i_el v) ->
  i_nb v < i_cap v ->
  exists p m' v', ebc m v n = Ok (p, m', v') /\
    xpost m v n p m' v' (skipn (Z.to_nat (len w - n)) w) (firstn (Z.to_nat (len w - n)) w).
Proof.
  intros Hinv Hn Hf Hnw Hp Hcap. pose proof Hinv as [Hbm [Hwf [Hel [Hsum [Hnb [Hroom Hcnt]]]]]].
  pose proof (flat_len _ _ _ Hel Hf) as Hlw.
  assert (Helr : Forall (el_ok (lens m)) (rev (i_el v))) by (apply Forall_rev; exact Hel).
  assert (Hpr : psep (rev (i_el v))) by (apply psep_rev; exact Hp).
  assert (Hfr : flat m (rev (rev (i_el v))) = Ok w) by (rewrite rev_involutive; exact Hf).
  destruct (ebc_ok m v n Hinv Hn) as [p [m' [v' [He Hpost]]]].
  exists p, m', v'. split; [exact He|]. revert He. rewrite ebc_eq. cbv zeta. set (sl := slow _ _ m v n).
  assert (Hslow : sl = Ok (p, m', v') -> xpost m v n p m' v' (skipn (Z.to_nat (len w - n)) w) (firstn (Z.to_nat (len w - n)) w)).
  { destruct (xcopy_ok true m (rev (i_el v)) n Hbm Hwf Helr ltac:(rewrite sum_el_rev; lia)) as [d [rel' [H1 [H2 [H3 [H4 [H5 H6]]]]]]].
    rewrite <- veb_copy_x in H1.
    destruct (veb_copy_flat m Hwf (rev (i_el v)) n w d rel' Helr Hfr ltac:(rewrite sum_el_rev; lia) H1) as [Hd Hfl].
    destruct (veb_copy_sub m (rev (i_el v)) n d rel' Helr ltac:(lia) H1 Hpr) as [Hps Hpv].
    assert (Hc : (if n =? 0 then Ok ([], rev (i_el v)) else veb_copy (m ++ [zeros n]) (rev (i_el v)) n) = Ok (d, rel')).
    { destruct (n =? 0) eqn:Eb; [apply Z.eqb_eq in Eb; lia|].
      rewrite veb_copy_x, (xcopy_app_mem true m _ Hwf _ n Helr ltac:(lia)), <- veb_copy_x. exact H1. }
    unfold sl. rewrite (slow_some _ _ m v n d rel' Hinv ltac:(lia) Hcap Hc H2). intros He. injection He as <- <- <-.
    subst n. rewrite <- Hd. apply xpost_fresh; [exact Hinv|lia|exact Hpost|cbn; lia| | | |]; cbn [set_el_back i_el].
    - apply Forall_rev. exact H4.
    - exact Hfl.
    - apply psep_rev. exact Hps.
    - rewrite <- (rev_involutive (i_el v)). apply prov_rev. exact Hpv. }
  destruct (rev (i_el v)) as [|[b l] rrest] eqn:Erev; [exact Hslow|].
  destruct (l <? n) eqn:E; [exact Hslow|]. apply Z.ltb_ge in E.
  intros He. injection He as <- <- <-. exact (ebc_fast_x m v n w b l rrest Hinv Hn Hp Hf Erev E).
Qed.
