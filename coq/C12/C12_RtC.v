(* C12_RtC.v — CheckedMessage against the flat string (towards ser_roundtrip for checked shapes):
   the running checksum kept in m_checksum while Crc32Hasher::extend_hash walks an iovec list is
   the fold of the hash step over the FLAT byte string — whatever the fragmentation — provided no
   element overlaps the checksum word; validate_checksum compares the stored word against
   fold(fold(0, fields wire), body with the running value in its checksum field).
   The hash step is uninterpreted (Section variable) with the only assumption that it maps
   32-bit values and bytes to 32-bit values. *)
From Coq Require Import ZArith List Bool Lia.
From PV Require Import Base.U64 C12.C12_Model C12.C12_Mem C12.C12_MemC C12.C12_Iov C12.C12_Flat C12.C12_Deser C12.C12_Sep.
Import ListNotations.
Local Open Scope Z_scope.

Definition W32 : Z := 4294967296.

Lemma load_join m a n k x y : Forall (fun L => L <= STRIDE) (lens m) -> validb (lens m) a n = true -> 0 <= a -> 0 <= k <= n ->
  load m a k = Ok x -> load m (a + k) (n - k) = Ok y -> load m a n = Ok (x ++ y).
Proof.
  intros Hwf Hv Ha Hk Lx Ly. destruct (load_valid _ _ _ Hv) as [bs Lb].
  rewrite (load_prefix m a n bs k Lb Hk) in Lx. rewrite (load_suffix m a n bs k Hwf Lb Hk Ha) in Ly.
  inversion Lx. inversion Ly. rewrite Lb, firstn_skipn. reflexivity.
Qed.

Lemma le_enc_dec bs : bytes_ok bs -> le_enc (length bs) (le_dec bs) = bs.
Proof.
  induction bs as [|b r IH]; intros H; [reflexivity|]. inversion H; subst. cbn [length le_enc le_dec].
  rewrite (Z.mul_comm 256). rewrite Z_mod_plus_full, Z.div_add by lia.
  rewrite Z.mod_small, Z.div_small by lia. cbn [Z.add]. rewrite IH by assumption. reflexivity.
Qed.

Section HC.
  Variable hstep : Z -> byte -> Z.
  Hypothesis hstep_range : forall h b, 0 <= h < W32 -> 0 <= b < 256 -> 0 <= hstep h b < W32.

  Lemma hash_ext_range : forall bs h, bytes_ok bs -> 0 <= h < W32 -> 0 <= hash_ext hstep h bs < W32.
  Proof.
    induction bs as [|b r IH]; intros h Hb Hh; [exact Hh|]. inversion Hb; subst. unfold hash_ext. cbn [fold_left].
    apply IH; [assumption|]. apply hstep_range; assumption.
  Qed.

  Lemma hash_ext_app h a b : hash_ext hstep h (a ++ b) = hash_ext hstep (hash_ext hstep h a) b.
  Proof. unfold hash_ext. apply fold_left_app. Qed.

  Lemma le_dec_enc4 v : 0 <= v < W32 -> le_dec (le_enc 4 v) = v.
  Proof. intros H. apply le_dec_enc. exact H. Qed.

  (* a body whose first word is H: that word is read back, and the rest is what follows it *)
  Lemma stored_word H rest : 0 <= H < W32 -> le_dec (firstn 4 (le_enc 4 H ++ rest)) = H /\ skipn 4 (le_enc 4 H ++ rest) = rest.
  Proof.
    intros HH. assert (Hl4 : length (le_enc 4 H) = 4%nat) by reflexivity. split.
    - rewrite firstn_app, <- Hl4, firstn_all, Nat.sub_diag. cbn [firstn]. rewrite app_nil_r. apply le_dec_enc4. exact HH.
    - rewrite skipn_app, <- Hl4 at 1. rewrite skipn_all, Nat.sub_diag. reflexivity.
  Qed.

  (* the accumulator in memory after hashing an iovec list = fold over the flat string *)
  Lemma hash_iov_flat x : forall el m w h0, mem_bytes m -> (forall e, In e el -> sep e (x, 4)) ->
    load m x 4 = Ok (le_enc 4 h0) -> 0 <= h0 < W32 -> flat m el = Ok w ->
    exists m', hash_iov hstep m x el = Ok m' /\ load m' x 4 = Ok (le_enc 4 (hash_ext hstep h0 w)) /\
               0 <= hash_ext hstep h0 w < W32 /\ lens m' = lens m /\ mem_bytes m' /\
               (forall a k, sep (a, k) (x, 4) -> load m' a k = load m a k).
  Proof.
    induction el as [|[b l] r IH]; intros m w h0 Hbm Hs Lx Hh Hf.
    - cbn in Hf. inversion Hf. subst w. exists m. cbn [hash_iov hash_ext fold_left]. auto 10.
    - cbn [flat] in Hf. destruct (load m b l) as [d|] eqn:Ld; cbn [bind] in Hf; [|discriminate].
      destruct (flat m r) as [wr|] eqn:Fr; cbn [bind] in Hf; [|discriminate]. inversion Hf. subst w. clear Hf.
      cbn [hash_iov]. unfold load32 at 1. rewrite Lx. cbn [bind]. rewrite (le_dec_enc4 _ Hh), Ld. cbn [bind].
      pose proof (load_bytes_ok _ _ _ _ Hbm Ld) as Hd.
      pose proof (hash_ext_range d h0 Hd Hh) as Hh1. set (h1 := hash_ext hstep h0 d) in *.
      destruct (store_valid m x (le_enc 4 h1)) as [m1 [Hst Hl1]].
      { rewrite le_enc_len. apply (load_valid_inv _ _ _ _ Lx). }
      unfold store32. rewrite Hst. cbn [bind].
      assert (Hlen4 : len (le_enc 4 h1) = 4) by (rewrite le_enc_len; reflexivity).
      destruct (IH m1 wr h1) as [m' [A [B [C [D [E F]]]]]].
      + apply (store_bytes_ok m x (le_enc 4 h1) m1 Hbm (le_enc_bytes_ok 4 h1) Hst).
      + intros e He. apply Hs. right. exact He.
      + rewrite <- Hlen4 at 1. apply (load_store_same _ _ _ _ Hst). lia.
      + exact Hh1.
      + rewrite (flat_store_sep _ _ _ _ _ Hst); [exact Fr|]. rewrite Hlen4. intros e He. apply Hs. right. exact He.
      + exists m'. split; [exact A|]. rewrite hash_ext_app. fold h1. split; [exact B|]. split; [exact C|].
        split; [congruence|]. split; [exact E|].
        intros a k Hak. rewrite (F a k Hak). apply (load_store_sep _ _ _ _ _ _ Hst). rewrite Hlen4. exact Hak.
  Qed.

  (* validate_checksum on any fragmentation of the field bytes *)
  Lemma validate_flat m v t size wf body : inv m v -> 4 <= size -> validb (lens m) t size = true -> 0 <= t ->
    (forall e, In e (i_el v) -> sep e (t, 4)) -> flat m (i_el v) = Ok wf -> load m t size = Ok body ->
    let h1 := hash_ext hstep 0 wf in
    let H := hash_ext hstep h1 (le_enc 4 h1 ++ skipn 4 body) in
    exists m3, validate_checksum hstep m v t size = Ok (le_dec (firstn 4 body) =? H, m3) /\
      lens m3 = lens m /\ inv m3 v /\ flat m3 (i_el v) = Ok wf /\
      load m3 t size = Ok (le_enc 4 H ++ skipn 4 body) /\
      (forall a k, sep (a, k) (t, 4) -> load m3 a k = load m a k).
  Proof.
    intros Hinv Hsz Hv Ht Hs Hf Lb h1 H. pose proof (inv_wf _ _ Hinv) as Hwf. pose proof (inv_bytes _ _ Hinv) as Hbm.
    assert (Hv4 : validb (lens m) t 4 = true) by (apply (validb_sub' _ t size); auto; lia).
    pose proof (load_prefix m t size body 4 Lb ltac:(lia)) as L4. change (Z.to_nat 4) with 4%nat in L4.
    pose proof (load_suffix m t size body 4 Hwf Lb ltac:(lia) Ht) as Lr. change (Z.to_nat 4) with 4%nat in Lr.
    unfold validate_checksum. unfold load32 at 1. rewrite L4. cbn [bind].
    destruct (store32_ok m v t 0 Hinv Hv4) as [m1 [Hs1 [Hi1 Hl1]]]. rewrite Hs1. cbn [bind].
    assert (Hz : 0 <= 0 < W32) by (unfold W32; lia).
    assert (L1 : load m1 t 4 = Ok (le_enc 4 0)).
    { unfold store32 in Hs1. pose proof (load_store_same _ _ _ _ Hs1) as Q. rewrite le_enc_len in Q. apply Q. change (Z.of_nat 4) with 4. lia. }
    assert (F1 : flat m1 (i_el v) = Ok wf).
    { unfold store32 in Hs1. rewrite (flat_store_sep _ _ _ _ _ Hs1); [exact Hf|]. rewrite le_enc_len. exact Hs. }
    destruct (hash_iov_flat t (i_el v) m1 wf 0 (inv_bytes _ _ Hi1) Hs L1 Hz F1) as [m2 [A [B [C [D [E F]]]]]].
    rewrite A. cbn [bind]. fold h1 in B, C. unfold load32. rewrite B. cbn [bind]. rewrite (le_dec_enc4 _ C).
    assert (Lr2 : load m2 (t + 4) (size - 4) = Ok (skipn 4 body)).
    { rewrite F by (unfold sep; cbn [fst snd]; lia). unfold store32 in Hs1.
      rewrite (load_store_sep _ _ _ _ _ _ Hs1); [exact Lr|]. rewrite le_enc_len. unfold sep. cbn [fst snd]. change (Z.of_nat 4) with 4. lia. }
    assert (Wf2 : Forall (fun L => L <= STRIDE) (lens m2)) by (rewrite D, Hl1; exact Hwf).
    assert (V2 : validb (lens m2) t size = true) by (rewrite D, Hl1; exact Hv).
    rewrite (load_join m2 t size 4 _ _ Wf2 V2 Ht ltac:(lia) B Lr2). cbn [bind]. fold H.
    assert (HH : 0 <= H < W32).
    { apply hash_ext_range; [|exact C]. apply bytes_ok_app; [apply le_enc_bytes_ok|].
      apply bytes_ok_skipn. apply (load_bytes_ok m t size body Hbm Lb). }
    assert (Hi2 : inv m2 v).
    { destruct Hi1 as [_ [W [El [Su [Nb [Ro Cn]]]]]]. unfold inv. rewrite D. split; [exact E|]. split; [exact W|]. split; [exact El|].
      split; [exact Su|]. split; [exact Nb|]. split; [|exact Cn]. assert (len m2 = len m1) by (rewrite <- !len_lens, D; reflexivity). lia. }
    destruct (store32_ok m2 v t H Hi2 ltac:(rewrite D, Hl1; exact Hv4)) as [m3 [Hs3 [Hi3 Hl3]]]. rewrite Hs3. cbn [bind].
    exists m3. split; [reflexivity|]. split; [congruence|]. split; [exact Hi3|].
    assert (Hl4 : len (le_enc 4 H) = 4) by (rewrite le_enc_len; reflexivity).
    unfold store32 in Hs3, Hs1.
    split.
    { rewrite (flat_store_sep _ _ _ _ _ Hs3); [|rewrite Hl4; exact Hs]. rewrite (flat_frame m1 m2 (t, 4) _ F Hs). exact F1. }
    split.
    { apply (load_join m3 t size 4); [rewrite Hl3; exact Wf2|rewrite Hl3; exact V2|exact Ht|lia| |].
      - rewrite <- Hl4 at 1. apply (load_store_same _ _ _ _ Hs3). lia.
      - rewrite (load_store_sep _ _ _ _ _ _ Hs3); [exact Lr2|]. rewrite Hl4. unfold sep. cbn [fst snd]. lia. }
    intros a k Hak. rewrite (load_store_sep _ _ _ _ _ _ Hs3) by (rewrite Hl4; exact Hak). rewrite (F a k Hak).
    apply (load_store_sep _ _ _ _ _ _ Hs1). rewrite le_enc_len. exact Hak.
  Qed.
End HC.
