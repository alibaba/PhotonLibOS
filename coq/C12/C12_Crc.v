(* C12_Crc.v — the hash step of the checked round trip instantiated with the REAL CRC32C step
   (C12_Model.crc32c_step, common/checksum/crc.cpp 83-117): its 32-bit range bound, the checked
   round-trip theorem specialised to it, and a concrete checked message (CheckedMessage{int; string;
   buffer}, harness type T10) whose hypotheses are discharged by computation. *)
From Coq Require Import ZArith List Bool Lia.
From PV Require Import Base.U64 C12.C12_Model C12.C12_Mem C12.C12_MemC C12.C12_Iov C12.C12_Flat C12.C12_Deser C12.C12_Sep C12.C12_Wire C12.C12_RtD C12.C12_Perm C12.C12_RtC C12.C12_RtI C12.C12_RtS C12.C12_Rt C12.C12_RtC3 C12.C12_Proofs.
Import ListNotations.
Local Open Scope Z_scope.

Lemma lxor_bound a b n : 0 <= n -> 0 <= a < 2 ^ n -> 0 <= b < 2 ^ n -> 0 <= Z.lxor a b < 2 ^ n.
Proof.
  intros Hn Ha Hb. assert (H0 : 0 <= Z.lxor a b) by (apply Z.lxor_nonneg; split; intros; lia). split; [exact H0|].
  destruct (Z.eq_dec (Z.lxor a b) 0) as [Hz|Hz]; [rewrite Hz; apply Z.pow_pos_nonneg; lia|].
  destruct (Z.eq_dec n 0) as [->|Hn0].
  { change (2 ^ 0) with 1 in *. assert (a = 0) by lia. assert (b = 0) by lia. subst. cbn in Hz. congruence. }
  apply Z.log2_lt_pow2; [lia|]. pose proof (Z.log2_lxor a b ltac:(lia) ltac:(lia)) as H.
  assert (La : Z.log2 a < n).
  { destruct (Z.eq_dec a 0) as [->|Ha0]; [cbn; lia|]. apply Z.log2_lt_pow2; lia. }
  assert (Lb : Z.log2 b < n).
  { destruct (Z.eq_dec b 0) as [->|Hb0]; [cbn; lia|]. apply Z.log2_lt_pow2; lia. }
  lia.
Qed.

Lemma crc_bit_range c : 0 <= c < 2 ^ 32 -> 0 <= crc_bit c < 2 ^ 32.
Proof.
  intros Hc. unfold crc_bit. apply lxor_bound; [lia| |].
  - rewrite Z.shiftr_div_pow2 by lia. change (2 ^ 1) with 2. split; [apply Z.div_pos; lia|]. apply Z.div_lt_upper_bound; lia.
  - destruct (Z.odd c); unfold CRC32C_POLY; lia.
Qed.

(* the raw CRC32C step maps a 32-bit register and a byte to a 32-bit register *)
Theorem crc32c_step_range h b : 0 <= h < W32 -> 0 <= b < 256 -> 0 <= crc32c_step h b < W32.
Proof.
  change W32 with (2 ^ 32). intros Hh Hb. unfold crc32c_step.
  do 8 apply crc_bit_range. apply lxor_bound; lia.
Qed.

(* the checked round trip with the real CRC32C as hash *)
Theorem ser_roundtrip_noiov_checked_crc32c sh ms x sst vals wf Fs body0 mr v :
  shape_wf sh -> sh_checked sh = true ->
  sup_fs (sh_fields sh) -> lay_fs (sh_fields sh) -> (forall b, psep (aranges_fs (sh_fields sh) b)) ->
  mem_bytes ms -> Forall (fun L => L <= STRIDE) (lens ms) -> 0 <= x ->
  rd_fs (perm (sh_fields sh)) ms x = Ok (vals, wf, Fs) -> load ms x (sh_size sh) = Ok body0 ->
  load ms x 4 = Ok (le_enc 4 0) ->
  (forall r, In r Fs -> sep r (x, 4)) ->
  serialize crc32c_step cfg_final sh ms x = Ok sst -> s_full sst = false ->
  (forall e, In e (removelast (i_el (s_iov sst))) -> sep e (x, 4)) ->
  inv mr v -> psep (i_el v) -> flat mr (i_el v) = flat (s_mem sst) (i_el (s_iov sst)) ->
  i_nb v + 1 + len Fs <= i_cap v ->
  exists t st w2 F, deserialize crc32c_step cfg_final sh mr v = Ok (t, st) /\ t <> 0 /\
    ptr_ok (lens (d_mem st)) t (sh_size sh) /\
    rd_fs (perm (sh_fields sh)) (d_mem st) t = Ok (vals, w2, F) /\
    flat (d_mem st) (i_el (d_iov st)) = Ok [].
Proof. exact (ser_roundtrip_noiov_checked crc32c_step crc32c_step_range sh ms x sst vals wf Fs body0 mr v). Qed.

(* a concrete instance: CheckedMessage { uint32 a = 0x04030201; string s = "hi\0"; buffer b = {7,9} },
   45 wire bytes (string, buffer, 40-byte body with the CRC32C in its first word) cut 7 + 38 *)
Definition ex_c_sh : shape := mkShape 40 true (FCons 4 (FFixed 4) (FCons 8 FStr (FCons 24 FBuf FNil))).
Definition ex_c_body : list byte :=
  [0; 0; 0; 0] ++ [1; 2; 3; 4] ++ [0; 0; 0; 0; 1; 48; 0; 0] ++ [3; 0; 0; 0; 0; 0; 0; 0] ++
  [0; 0; 0; 0; 2; 48; 0; 0] ++ [2; 0; 0; 0; 0; 0; 0; 0].
Definition ex_c_ms : mem := [ex_c_body; [104; 105; 0]; [7; 9]].
Definition ex_c_wire : list byte :=
  match serialize crc32c_step cfg_final ex_c_sh ex_c_ms (region_base 0) with
  | Ok sst => match flat (s_mem sst) (i_el (s_iov sst)) with Ok w => w | Err _ => [] end
  | Err _ => []
  end.
Definition ex_c_mr : mem := [firstn 7 ex_c_wire; skipn 7 ex_c_wire].
Definition ex_c_v : iovs := mkIov 4 [(region_base 0, 7); (region_base 1, 38)] 0 32.

Example ser_roundtrip_checked_crc32c_inhabited :
  exists t st w2 F,
    deserialize crc32c_step cfg_final ex_c_sh ex_c_mr ex_c_v = Ok (t, st) /\ t <> 0 /\
    ptr_ok (lens (d_mem st)) t 40 /\
    rd_fs (perm (sh_fields ex_c_sh)) (d_mem st) t = Ok ([VFix [1; 2; 3; 4]; VBuf [104; 105; 0]; VBuf [7; 9]], w2, F) /\
    flat (d_mem st) (i_el (d_iov st)) = Ok [].
Proof.
  destruct (serialize crc32c_step cfg_final ex_c_sh ex_c_ms (region_base 0)) as [sst|] eqn:Hser; [|vm_compute in Hser; discriminate].
  eapply (ser_roundtrip_noiov_checked_crc32c ex_c_sh ex_c_ms (region_base 0) sst _ _ _ ex_c_body ex_c_mr ex_c_v).
  - unfold shape_wf. cbn. repeat split; lia.
  - reflexivity.
  - cbn. tauto.
  - cbn. tauto.
  - intros b. cbn. repeat split; try tauto; intros y Hy; cbn in Hy;
      repeat (destruct Hy as [<-|Hy]; [unfold sep; cbn [fst snd]; lia|]); destruct Hy.
  - apply mem_bytesb_ok. reflexivity.
  - change (lens ex_c_ms) with [40; 3; 2]. repeat constructor; unfold STRIDE; lia.
  - vm_compute. congruence.
  - vm_compute. reflexivity.
  - vm_compute. reflexivity.
  - vm_compute. reflexivity.
  - intros r Hr. cbn in Hr. repeat (destruct Hr as [<-|Hr]; [unfold sep, region_base, ARENA, STRIDE; cbn [fst snd]; lia|]). destruct Hr.
  - exact Hser.
  - vm_compute in Hser. inversion Hser. reflexivity.
  - vm_compute in Hser. inversion Hser. subst sst. intros e He. cbn in He.
    repeat (destruct He as [<-|He]; [unfold sep, region_base, ARENA, STRIDE; cbn [fst snd]; lia|]). destruct He.
  - apply invb_ok. vm_compute. reflexivity.
  - cbn. repeat split; try tauto; intros y Hy; cbn in Hy;
      repeat (destruct Hy as [<-|Hy]; [unfold sep, region_base, ARENA, STRIDE; cbn [fst snd]; lia|]); destruct Hy.
  - vm_compute in Hser. inversion Hser. subst sst. vm_compute. reflexivity.
  - vm_compute. congruence.
Qed.
