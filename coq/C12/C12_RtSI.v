(* C12_RtSI.v — route (d) of ser_roundtrip for ALL shapes: the serializer side including
   process_field(iovec_array&), which WRITES summed_size into the sender's struct while it builds the
   piece list.  Everything is evaluated in the memory AFTER serialization (that is what writev sends):
   for every memory mF that agrees with the serializer's final memory on the structs and on the dynamic
   ranges, the value is readable in mF, every summed_size in it is accurate (vsum), and the pieces pushed
   denote, in mF, exactly the wire string of that value.
   The sender's layout is given in a reference memory mI (the memory before serialization): the value
   is readable there (rd_f) and its dynamic ranges D (dn_f, C12_Dyn.v) are pairwise separated and
   separated from the static ranges — the message's buffers do not alias each other or the structs. *)
From Coq Require Import ZArith List Bool Lia.
From PV Require Import Base.U64 C12.C12_Model C12.C12_Mem C12.C12_MemC C12.C12_Iov C12.C12_Flat C12.C12_Deser C12.C12_Sep C12.C12_Wire C12.C12_RtD C12.C12_Perm C12.C12_Hx C12.C12_View C12.C12_Hb C12.C12_Hb2 C12.C12_RtI C12.C12_RtS C12.C12_Rt C12.C12_Dyn.
Import ListNotations.
Local Open Scope Z_scope.

Definition SSpost (st st' : sst) (S D : list (Z * Z)) : Prop :=
  lens (s_mem st') = lens (s_mem st) /\ mem_bytes (s_mem st') /\
  (forall x k, (forall r, In r S \/ In r D -> sep (x, k) r) -> load (s_mem st') x k = load (s_mem st) x k).

Lemma SSpost_same st st' S D : s_mem st' = s_mem st -> mem_bytes (s_mem st) -> SSpost st st' S D.
Proof. intros E Hb. unfold SSpost. rewrite E. auto. Qed.

Lemma SSpost_trans st st1 st2 S1 S2 D1 D2 : SSpost st st1 S1 D1 -> SSpost st1 st2 S2 D2 -> SSpost st st2 (S1 ++ S2) (D1 ++ D2).
Proof.
  intros [L1 [B1 F1]] [L2 [B2 F2]]. split; [congruence|]. split; [exact B2|].
  intros x k Hs. rewrite F2, F1; [reflexivity| |].
  - intros r [Hr|Hr]; apply Hs; [left|right]; apply in_or_app; left; exact Hr.
  - intros r [Hr|Hr]; apply Hs; [left|right]; apply in_or_app; right; exact Hr.
Qed.

(* one process_field(buffer&): the slot is read in the run's memory, the bytes in mF *)
Lemma ss_buffer st a st' mI p n bs :
  s_buffer st a = Ok st' -> load64 mI a = Ok p -> load64 mI (a + 8) = Ok n -> load mI p n = Ok bs ->
  agree mI (s_mem st) (a, 16) ->
  s_mem st' = s_mem st /\ (s_full st' = false -> s_full st = false /\
    forall mF w0, lens mF = lens mI -> agree (s_mem st) mF (a, 16) -> flat mF (i_el (s_iov st)) = Ok w0 ->
      exists bs', load64 mF a = Ok p /\ load64 mF (a + 8) = Ok n /\ load mF p n = Ok bs' /\ len bs' = len bs /\
        flat mF (i_el (s_iov st')) = Ok (w0 ++ bs')).
Proof.
  intros H L1 L2 L3 A. unfold s_buffer in H.
  rewrite (agree_load64 mI (s_mem st) _ a A), L1 in H by (unfold within; cbn; lia). cbn [bind] in H.
  rewrite (agree_load64 mI (s_mem st) _ (a + 8) A), L2 in H by (unfold within; cbn; lia). cbn [bind] in H.
  inversion H. subst st'. split; [apply s_push_mem|]. intros Hf. split; [eapply s_push_full; eauto|].
  intros mF w0 Hl AF Fl. destruct (load_lens _ mF _ _ _ L3 Hl) as [bs' [Hb Hlen]]. exists bs'.
  split; [rewrite (agree_load64 (s_mem st) mF _ a AF), (agree_load64 mI (s_mem st) _ a A) by (unfold within; cbn; lia); exact L1|].
  split; [rewrite (agree_load64 (s_mem st) mF _ (a + 8) AF), (agree_load64 mI (s_mem st) _ (a + 8) A) by (unfold within; cbn; lia); exact L2|].
  split; [exact Hb|]. split; [exact Hlen|]. apply s_push_flat; auto.
Qed.

Lemma rd_iovecs_lens mI mF : lens mF = lens mI -> forall k p bs Fp, rd_iovecs mI p k = Ok (bs, Fp) ->
  agree mI mF (p, 16 * Z.of_nat k) -> exists bs', rd_iovecs mF p k = Ok (bs', Fp) /\ len bs' = len bs.
Proof.
  intros Hl. induction k as [|k IH]; intros p bs Fp H A; cbn [rd_iovecs] in *.
  - inversion H. exists []. auto.
  - rewrite Nat2Z.inj_succ in A.
    rewrite (agree_load64 mI mF _ p A) by (unfold within; cbn [fst snd]; lia).
    rewrite (agree_load64 mI mF _ (p + 8) A) by (unfold within; cbn [fst snd]; lia).
    destruct (load64 mI p) as [b|]; cbn [bind] in *; [|discriminate].
    destruct (load64 mI (p + 8)) as [n|]; cbn [bind] in *; [|discriminate].
    destruct (load mI b n) as [d|] eqn:Ed; cbn [bind] in H; [|discriminate].
    destruct (rd_iovecs mI (p + 16) k) as [[bs2 F2]|] eqn:E2; cbn [bind] in H; [|discriminate].
    inversion H. subst bs Fp.
    destruct (load_lens _ mF _ _ _ Ed Hl) as [d' [Hd' Hld]]. rewrite Hd'. cbn [bind].
    destruct (IH _ _ _ E2) as [bs2' [H2' Hl2]]; [eapply agree_within; [exact A|]; unfold within; cbn [fst snd]; lia|].
    rewrite H2'. cbn [bind]. exists (d' ++ bs2'). split; [reflexivity|]. rewrite !len_app. lia.
Qed.

Lemma ss_iov_loop : forall k st p acc st' total, s_iov_loop st p k acc = Ok (st', total) ->
  s_mem st' = s_mem st /\ (s_full st' = false -> s_full st = false /\
   forall mF bs Fp w0, rd_iovecs mF p k = Ok (bs, Fp) -> agree (s_mem st) mF (p, 16 * Z.of_nat k) -> mem_bytes (s_mem st) ->
     0 <= acc -> acc + len bs < W64 -> flat mF (i_el (s_iov st)) = Ok w0 ->
     total = acc + len bs /\ flat mF (i_el (s_iov st')) = Ok (w0 ++ bs)).
Proof.
  induction k as [|k IH]; intros st p acc st' total H; cbn [s_iov_loop] in H.
  - inversion H. subst st' total. split; [reflexivity|]. intros Hf. split; [exact Hf|].
    intros mF bs Fp w0 Hr _ _ _ _ Fl. cbn in Hr. inversion Hr. rewrite len_nil, app_nil_r. split; [lia|exact Fl].
  - destruct (load64 (s_mem st) p) as [b|] eqn:Lb; cbn [bind] in H; [|discriminate].
    destruct (load64 (s_mem st) (p + 8)) as [n|] eqn:Ln; cbn [bind] in H; [|discriminate].
    destruct (IH _ _ _ _ _ H) as [Hm Hrest]. rewrite s_push_mem in Hm. split; [exact Hm|].
    intros Hf. destruct (Hrest Hf) as [Hf1 Hmf]. split; [eapply s_push_full; eauto|].
    intros mF bs Fp w0 Hr A Hbm Hacc Hbound Fl. rewrite Nat2Z.inj_succ in A. cbn [rd_iovecs] in Hr.
    rewrite (agree_load64 (s_mem st) mF _ p A), Lb in Hr by (unfold within; cbn [fst snd]; lia). cbn [bind] in Hr.
    rewrite (agree_load64 (s_mem st) mF _ (p + 8) A), Ln in Hr by (unfold within; cbn [fst snd]; lia). cbn [bind] in Hr.
    destruct (load mF b n) as [d|] eqn:Ed; cbn [bind] in Hr; [|discriminate].
    destruct (rd_iovecs mF (p + 16) k) as [[bs2 F2]|] eqn:E2; cbn [bind] in Hr; [|discriminate].
    inversion Hr. subst bs Fp.
    pose proof (load64_range _ _ _ Hbm Ln) as Rn. pose proof (load_len _ _ _ _ Ed) as Hld. rewrite Z.max_r in Hld by lia.
    rewrite len_app in Hbound. pose proof (len_nonneg bs2) as Hb2.
    destruct (Hmf mF bs2 F2 (w0 ++ d) E2) as [Ht Hfl].
    + rewrite s_push_mem. eapply agree_within; [exact A|]. unfold within. cbn [fst snd]. lia.
    + rewrite s_push_mem. exact Hbm.
    + rewrite wrap_small by lia. lia.
    + rewrite wrap_small by lia. lia.
    + apply s_push_flat; auto.
    + rewrite wrap_small in Ht by lia. split; [rewrite len_app; lia|]. rewrite Hfl, app_assoc. reflexivity.
Qed.

(* what a step st -> st' that pushed the wire w of a value with footprint F guarantees in every memory mF of the
   sender's layout that agrees with the step's final memory on the static ranges S and the dynamic ranges D:
   the value is readable there through rd, its sums are accurate (ok), and the pieces pushed denote its wire *)
Definition Fin {V} (rd : mem -> res (rd3 V)) (ok : V -> Prop) (st st' : sst) (mI : mem) (S D : list (Z * Z))
  (w : list byte) (F : list (Z * Z)) : Prop :=
  s_full st' = false -> s_full st = false /\
  forall mF w0, lens mF = lens mI -> (forall r, In r S \/ In r D -> agree (s_mem st') mF r) ->
    flat mF (i_el (s_iov st)) = Ok w0 ->
    exists val' w' F', rd mF = Ok (val', w', F') /\ ok val' /\ len w' = len w /\ len F' = len F /\ fpok F' S D /\
      flat mF (i_el (s_iov st')) = Ok (w0 ++ w').

Definition FinF (f : field) (st st' : sst) (mI : mem) (a : Z) := Fin (fun mF => rd_f f mF a) vsum st st' mI.
Definition FinFs (fs : fields) (st st' : sst) (mI : mem) (b : Z) := Fin (fun mF => rd_fs fs mF b) vsums st st' mI.

(* two consecutive steps whose ranges are separated: the first value is still read after the second step *)
Lemma fin_seq {V1 V2 V} (rd1 : mem -> res (rd3 V1)) (rd2 : mem -> res (rd3 V2)) (rd : mem -> res (rd3 V))
  (ok1 : V1 -> Prop) (ok2 : V2 -> Prop) (ok : V -> Prop) (pair : V1 -> V2 -> V) st st1 st2 mI S1 S2 D1 D2 w1 w2 F1 F2 :
  (forall mF v1 x1 G1 v2 x2 G2, rd1 mF = Ok (v1, x1, G1) -> rd2 mF = Ok (v2, x2, G2) -> rd mF = Ok (pair v1 v2, x1 ++ x2, G1 ++ G2)) ->
  (forall v1 v2, ok1 v1 -> ok2 v2 -> ok (pair v1 v2)) ->
  (forall x, In x S2 \/ In x D2 -> forall q, In q S1 \/ In q D1 -> sep x q) ->
  SSpost st1 st2 S2 D2 ->
  Fin rd1 ok1 st st1 mI S1 D1 w1 F1 -> Fin rd2 ok2 st1 st2 mI S2 D2 w2 F2 ->
  Fin rd ok st st2 mI (S1 ++ S2) (D1 ++ D2) (w1 ++ w2) (F1 ++ F2).
Proof.
  intros Hrd Hok Hsep2 [_ [_ Fr2]] Fin1 Fin2 Hf.
  destruct (Fin2 Hf) as [Hf1 HmF2]. destruct (Fin1 Hf1) as [Hf0 HmF1]. split; [exact Hf0|].
  intros mF w0 HlF AF Fl.
  destruct (HmF1 mF w0 HlF) as [v1' [w1' [F1' [Q1 [Q2 [Q3 [Q4 [Q6 Q5]]]]]]]]; [|exact Fl|].
  { intros x Hx y j W. rewrite <- Fr2.
    - apply (AF x); [destruct Hx as [Hx|Hx]; [left|right]; apply in_or_app; left; exact Hx|exact W].
    - intros q Hq. eapply within_sep; [exact W|]. apply sep_sym. apply Hsep2; auto. }
  destruct (HmF2 mF (w0 ++ w1') HlF) as [v2' [w2' [F2' [P1 [P2 [P3 [P4 [P6 P5]]]]]]]]; [|exact Q5|].
  { intros x [Hx|Hx]; apply AF; [left|right]; apply in_or_app; right; exact Hx. }
  exists (pair v1' v2'), (w1' ++ w2'), (F1' ++ F2'). split; [exact (Hrd _ _ _ _ _ _ _ Q1 P1)|].
  split; [apply Hok; assumption|]. split; [rewrite !len_app; lia|]. split; [rewrite !len_app; lia|].
  split; [apply fpok_app; assumption|]. rewrite P5, app_assoc. reflexivity.
Qed.

(* the static ranges may be replaced by ranges that cover them *)
Lemma SSpost_cover st st' S S' D : (forall s, In s S -> exists s', In s' S' /\ within s s') -> SSpost st st' S D -> SSpost st st' S' D.
Proof.
  intros Hc [L [B Fr]]. split; [exact L|]. split; [exact B|]. intros x k Hs. apply Fr.
  intros r [Hr|Hr]; [|apply Hs; right; exact Hr]. destruct (Hc r Hr) as [s' [Hs' W]]. eapply sep_sub_r; [apply Hs; left; exact Hs'|exact W].
Qed.

Lemma fin_cover {V} (rd : mem -> res (rd3 V)) (ok : V -> Prop) st st' mI S S' D w F :
  (forall s, In s S -> exists s', In s' S' /\ within s s') -> Fin rd ok st st' mI S D w F -> Fin rd ok st st' mI S' D w F.
Proof.
  intros Hc Fin0 Hf. destruct (Fin0 Hf) as [Hf0 HmF]. split; [exact Hf0|]. intros mF w0 HlF AF Fl.
  destruct (HmF mF w0 HlF) as [v' [w' [F' [Q1 [Q2 [Q3 [Q4 [Q6 Q5]]]]]]]]; [|exact Fl|].
  { intros r [Hr|Hr]; [|apply AF; right; exact Hr]. destruct (Hc r Hr) as [s' [Hs' W]]. eapply agree_within; [apply AF; left; exact Hs'|exact W]. }
  exists v', w', F'. split; [exact Q1|]. split; [exact Q2|]. split; [exact Q3|]. split; [exact Q4|]. split; [exact (fpok_cover _ _ _ _ Q6 Hc)|exact Q5].
Qed.

Definition SSf (f : field) : Prop := forall avail st a st' mI val w F D,
  field_wf avail f -> lay_f f -> psep (aranges_f f a) ->
  s_field cfg_final f st a = Ok st' ->
  mem_bytes (s_mem st) -> lens (s_mem st) = lens mI -> mem_bytes mI ->
  rd_f f mI a = Ok (val, w, F) -> dn_f f mI a = Ok D ->
  (forall r, In r (aranges_f f a) \/ In r D -> agree mI (s_mem st) r) ->
  psep D -> (forall s d, In s (aranges_f f a) -> In d D -> sep s d) -> len w < W64 ->
  SSpost st st' (aranges_f f a) D /\ FinF f st st' mI a (aranges_f f a) D w F.

Definition SSfs (fs : fields) : Prop := forall sz st b st' mI vals w F D,
  fields_wf sz fs -> lay_fs fs -> psep (aranges_fs fs b) ->
  s_fields cfg_final fs st b = Ok st' ->
  mem_bytes (s_mem st) -> lens (s_mem st) = lens mI -> mem_bytes mI ->
  rd_fs fs mI b = Ok (vals, w, F) -> dn_fs fs mI b = Ok D ->
  (forall r, In r (aranges_fs fs b) \/ In r D -> agree mI (s_mem st) r) ->
  psep D -> (forall s d, In s (aranges_fs fs b) -> In d D -> sep s d) -> len w < W64 ->
  SSpost st st' (aranges_fs fs b) D /\ FinFs fs st st' mI b (aranges_fs fs b) D w F.

Lemma fpok_buf a p n : fpok [(a, 16); (p, n)] [(a, 16)] [(p, n)].
Proof.
  apply fpok_in. intros r [<-|[<-|[]]]; [left|right]; left; reflexivity.
Qed.

(* buffer-like fields *)
Lemma ss_leaf f :
  (forall st a, s_field cfg_final f st a = s_buffer st a) ->
  (forall m a, rd_f f m a = rd_f FBuf m a) -> (forall m a, dn_f f m a = dn_f FBuf m a) ->
  (forall a, aranges_f f a = [(a, 16)]) -> SSf f.
Proof.
  intros Hd Hr Hn Ha avail st a st' mI val w F D _ _ _ Hrun Hbm Hl HbI Hrd Hdn A _ _ _.
  rewrite Hd in Hrun. rewrite Hr in Hrd. rewrite Hn in Hdn. rewrite Ha in *. cbn [rd_f dn_f] in Hrd, Hdn.
  destruct (load64 mI a) as [p|] eqn:L1; cbn [bind] in Hrd, Hdn; [|discriminate].
  destruct (load64 mI (a + 8)) as [n|] eqn:L2; cbn [bind] in Hrd, Hdn; [|discriminate].
  destruct (load mI p n) as [bs|] eqn:L3; cbn [bind] in Hrd; [|discriminate]. inversion Hrd. inversion Hdn. subst val w F D.
  destruct (ss_buffer st a st' mI p n bs Hrun L1 L2 L3 ltac:(apply A; left; left; reflexivity)) as [Hm Hfin].
  split; [apply SSpost_same; auto|]. intros Hf. destruct (Hfin Hf) as [Hf0 HmF]. split; [exact Hf0|].
  intros mF w0 HlF AF Fl.
  destruct (HmF mF w0 HlF) as [bs' [M1 [M2 [M3 [M4 M5]]]]]; [rewrite <- Hm; apply AF; left; left; reflexivity|exact Fl|].
  exists (VBuf bs'), bs', [(a, 16); (p, n)]. split; [rewrite Hr; cbn [rd_f]; rewrite M1; cbn [bind]; rewrite M2; cbn [bind]; rewrite M3; reflexivity|].
  split; [exact I|]. split; [exact M4|]. split; [reflexivity|]. split; [apply fpok_buf|exact M5].
Qed.

(* process_field(iovec_array&) *)
Lemma ss_iovarr st a st' mI val w F D :
  s_iovarr st a = Ok st' ->
  mem_bytes (s_mem st) -> lens (s_mem st) = lens mI -> mem_bytes mI ->
  rd_f FIov mI a = Ok (val, w, F) -> dn_f FIov mI a = Ok D ->
  (forall r, In r [(a, 24)] \/ In r D -> agree mI (s_mem st) r) ->
  (forall d, In d D -> sep (a, 24) d) -> len w < W64 ->
  SSpost st st' [(a, 24)] D /\ FinF FIov st st' mI a [(a, 24)] D w F.
Proof.
  destruct st as [m v fl]. cbn [s_mem s_iov s_full]. intros Hrun Hbm Hl HbI Hrd Hdn A Hsd Hw.
  cbn [rd_f dn_f] in Hrd, Hdn.
  destruct (load64 mI a) as [p|] eqn:L1; cbn [bind] in Hrd, Hdn; [|discriminate].
  destruct (load64 mI (a + 8)) as [n|] eqn:L2; cbn [bind] in Hrd, Hdn; [|discriminate].
  destruct (load64 mI (a + 16)) as [s|] eqn:L3; cbn [bind] in Hrd; [|discriminate].
  destruct (rd_iovecs mI p (Z.to_nat (n / 16))) as [[bs Fp]|] eqn:Er; cbn [bind] in Hrd; [|discriminate].
  rewrite (rd_dn_iovecs _ _ _ _ _ Er) in Hdn. cbn [bind] in Hdn. inversion Hrd. inversion Hdn. subst val w F D. clear Hrd Hdn.
  set (k := Z.to_nat (n / 16)) in *.
  pose proof (load64_range _ _ _ HbI L2) as Rn.
  assert (Hk16 : 16 * Z.of_nat k <= n).
  { pose proof (elems_fit n 16 ltac:(lia) ltac:(lia)). unfold k. lia. }
  assert (A24 : agree mI m (a, 24)) by (apply A; left; left; reflexivity).
  unfold s_iovarr in Hrun. cbn [s_mem s_iov s_full] in Hrun.
  rewrite (agree_load64 mI m _ a A24), L1 in Hrun by (unfold within; cbn; lia). cbn [bind] in Hrun.
  rewrite (agree_load64 mI m _ (a + 8) A24), L2 in Hrun by (unfold within; cbn; lia). cbn [bind] in Hrun.
  destruct (store64 m (a + 16) 0) as [m0|] eqn:S0; cbn [bind] in Hrun; [|discriminate].
  fold k in Hrun.
  destruct (s_iov_loop (mkS m0 v fl) p k 0) as [[st1 total]|] eqn:EL; cbn [bind] in Hrun; [|discriminate].
  destruct (ss_iov_loop _ _ _ _ _ _ EL) as [Hm1 Hloop]. cbn [s_mem s_full s_iov] in Hm1, Hloop. rewrite Hm1 in Hrun.
  destruct (store64 m0 (a + 16) total) as [m1|] eqn:S1; cbn [bind] in Hrun; [|discriminate].
  inversion Hrun. subst st'. clear Hrun. cbn [s_mem s_iov s_full].
  unfold store64 in S0, S1.
  assert (H8 : forall x, len (le_enc 8 x) = 8) by (intros x; rewrite le_enc_len; reflexivity).
  assert (Hb0 : mem_bytes m0) by (apply (store_bytes_ok _ _ _ _ Hbm (le_enc_bytes_ok 8 0) S0)).
  assert (Hb1 : mem_bytes m1) by (apply (store_bytes_ok _ _ _ _ Hb0 (le_enc_bytes_ok 8 total) S1)).
  assert (Fr0 : forall x j, sep (x, j) (a + 16, 8) -> load m0 x j = load m x j).
  { intros x j Hs. apply (load_store_sep _ _ _ _ _ _ S0). rewrite H8. exact Hs. }
  assert (Fr1 : forall x j, sep (x, j) (a + 16, 8) -> load m1 x j = load m0 x j).
  { intros x j Hs. apply (load_store_sep _ _ _ _ _ _ S1). rewrite H8. exact Hs. }
  assert (Hsub : forall r, sep r (a, 24) -> sep r (a + 16, 8)).
  { intros r Hs. eapply sep_sub_r; [exact Hs|]. unfold within. cbn [fst snd]. lia. }
  split.
  { unfold SSpost. cbn [s_mem]. split; [rewrite (store_lens _ _ _ _ S1), (store_lens _ _ _ _ S0); reflexivity|]. split; [exact Hb1|].
    intros x j Hs. rewrite Fr1, Fr0; [reflexivity| |]; apply Hsub; apply Hs; left; left; reflexivity. }
  unfold FinF, Fin. cbn [s_mem s_iov s_full]. intros Hf. destruct (Hloop Hf) as [Hf0 HmF]. split; [exact Hf0|].
  intros mF w0 HlF AF Fl.
  assert (AF24 : agree m1 mF (a, 24)) by (apply AF; left; left; reflexivity).
  assert (Apn : agree mI m (p, n)) by (apply A; right; left; reflexivity).
  assert (Spn : sep (p, n) (a, 24)) by (apply sep_sym; apply Hsd; left; reflexivity).
  (* the entries array is the same in mI, m, m0, m1 and mF *)
  assert (AE : forall x j, within (x, j) (p, n) -> load mF x j = load mI x j /\ load m0 x j = load mI x j).
  { intros x j W. assert (Sx : sep (x, j) (a + 16, 8)) by (apply Hsub; eapply within_sep; [exact W|exact Spn]).
    split.
    - rewrite (AF (p, n) ltac:(right; left; reflexivity) x j W), (Fr1 x j Sx), (Fr0 x j Sx). apply Apn. exact W.
    - rewrite (Fr0 x j Sx). apply Apn. exact W. }
  destruct (rd_iovecs_lens mI mF HlF k p bs Fp Er) as [bs' [Er' Hlb]].
  { intros x j W. apply (proj1 (AE x j ltac:(eapply within_trans; [exact W|]; unfold within; cbn [fst snd]; lia))). }
  destruct (HmF mF bs' Fp w0 Er') as [Ht Hfl].
  { intros x j W. assert (W2 : within (x, j) (p, n)) by (eapply within_trans; [exact W|]; unfold within; cbn [fst snd]; lia).
    rewrite (proj1 (AE x j W2)), (proj2 (AE x j W2)). reflexivity. }
  { exact Hb0. }
  { lia. }
  { lia. }
  { exact Fl. }
  pose proof (len_nonneg bs') as Hbs'.
  exists (VIov total bs'), bs', ((a, 24) :: (p, n) :: Fp).
  split.
  { cbn [rd_f].
    assert (E0 : load64 mF a = Ok p).
    { rewrite (agree_load64 m1 mF _ a AF24) by (unfold within; cbn; lia). unfold load64.
      rewrite Fr1, Fr0 by (unfold sep; cbn [fst snd]; lia). fold (load64 m a). rewrite (agree_load64 mI m _ a A24) by (unfold within; cbn; lia). exact L1. }
    assert (E1 : load64 mF (a + 8) = Ok n).
    { rewrite (agree_load64 m1 mF _ (a + 8) AF24) by (unfold within; cbn; lia). unfold load64.
      rewrite Fr1, Fr0 by (unfold sep; cbn [fst snd]; lia). fold (load64 m (a + 8)). rewrite (agree_load64 mI m _ (a + 8) A24) by (unfold within; cbn; lia). exact L2. }
    assert (E2 : load64 mF (a + 16) = Ok total).
    { rewrite (agree_load64 m1 mF _ (a + 16) AF24) by (unfold within; cbn; lia).
      apply (load64_store64_same m0 (a + 16) total m1 S1). lia. }
    rewrite E0. cbn [bind]. rewrite E1. cbn [bind]. rewrite E2. cbn [bind]. fold k. rewrite Er'. reflexivity. }
  split; [cbn [vsum]; lia|]. split; [exact Hlb|]. split; [reflexivity|]. split; [|exact Hfl].
  apply fpok_in. intros r [<-|Hr]; [left; left; reflexivity|right; exact Hr].
Qed.


(* the element loop of an array of messages *)
Lemma ss_loop efs esz : SSfs efs -> 0 < esz -> fields_wf esz efs -> lay_fs efs -> (forall e, psep (aranges_fs efs e)) ->
  forall k st e st' mI vss we Fe De,
  s_loop efs esz k st e = Ok st' ->
  mem_bytes (s_mem st) -> lens (s_mem st) = lens mI -> mem_bytes mI ->
  rd_elems (rd_fs efs mI) k e esz = Ok (vss, we, Fe) -> dn_elems (dn_fs efs mI) k e esz = Ok De ->
  (forall r, In r [(e, Z.of_nat k * esz)] \/ In r De -> agree mI (s_mem st) r) ->
  psep De -> (forall d, In d De -> sep (e, Z.of_nat k * esz) d) -> len we < W64 ->
  SSpost st st' [(e, Z.of_nat k * esz)] De /\
  Fin (fun mF => rd_elems (rd_fs efs mF) k e esz) vsumss st st' mI [(e, Z.of_nat k * esz)] De we Fe.
Proof.
  intros HP Hesz Hwf Hlay Hps. induction k as [|k IH]; intros st e st' mI vss we Fe De Hrun Hbm Hl HbI Hrd Hdn A HpD HsD Hw.
  - cbn in Hrun. inversion Hrun. subst st'. cbn in Hrd, Hdn. inversion Hrd. inversion Hdn. subst.
    split; [apply SSpost_same; auto|]. intros Hf. split; [exact Hf|]. intros mF w0 _ _ Fl.
    exists [], [], []. cbn. rewrite app_nil_r. repeat split; auto. intros r [].
  - assert (HS : Z.of_nat (S k) * esz = Z.of_nat k * esz + esz) by lia. rewrite HS in *. clear HS.
    set (K := Z.of_nat k) in *. assert (HK : 0 <= K) by (unfold K; lia). assert (HKe : 0 <= K * esz) by nia.
    rewrite s_loop_S in Hrun. destruct (s_fields cfg_final efs st e) as [st1|] eqn:E1; cbn [bind] in Hrun; [|discriminate].
    cbn [rd_elems dn_elems] in Hrd, Hdn.
    destruct (rd_fs efs mI e) as [[[v1 w1] F1]|] eqn:R1; cbn [bind] in Hrd; [|discriminate].
    destruct (rd_elems (rd_fs efs mI) k (e + esz) esz) as [[[vs w2] F2]|] eqn:R2; cbn [bind] in Hrd; [|discriminate].
    destruct (dn_fs efs mI e) as [D1|] eqn:N1; cbn [bind] in Hdn; [|discriminate].
    destruct (dn_elems (dn_fs efs mI) k (e + esz) esz) as [D2|] eqn:N2; cbn [bind] in Hdn; [|discriminate].
    inversion Hrd. inversion Hdn. subst vss we Fe De. clear Hrd Hdn.
    rewrite len_app in Hw. pose proof (len_nonneg w1). pose proof (len_nonneg w2).
    apply psep_app in HpD. destruct HpD as [Hp1 [Hp2 Hpx]].
    assert (HS1 : forall s, In s (aranges_fs efs e) -> within s (e, esz)) by (apply (proj2 aranges_within efs esz e Hwf)).
    assert (Hwhole : forall s, In s (aranges_fs efs e) -> within s (e, K * esz + esz)).
    { intros s Hs. eapply within_trans; [apply HS1; exact Hs|]. unfold within. cbn [fst snd]. lia. }
    assert (Aw : agree mI (s_mem st) (e, K * esz + esz)) by (apply A; left; left; reflexivity).
    destruct (HP esz st e st1 mI v1 w1 F1 D1 Hwf Hlay (Hps e) E1 Hbm Hl HbI R1 N1) as [SP1 Fin1].
    { intros r [Hr|Hr]; [eapply agree_within; [exact Aw|apply Hwhole; exact Hr]|apply A; right; apply in_or_app; left; exact Hr]. }
    { exact Hp1. }
    { intros s d Hs Hd. eapply within_sep; [apply Hwhole; exact Hs|]. apply HsD. apply in_or_app. left. exact Hd. }
    { lia. }
    pose proof SP1 as [Hl1 [Hb1 Fr1]].
    assert (Hsep2 : forall r, In r [(e + esz, K * esz)] \/ In r D2 -> forall q, In q (aranges_fs efs e) \/ In q D1 -> sep r q).
    { intros r [[<-|[]]|Hr] q [Hq|Hq].
      - apply sep_sym. eapply within_sep; [apply HS1; exact Hq|]. unfold sep. cbn [fst snd]. lia.
      - eapply within_sep; [|apply HsD; apply in_or_app; left; exact Hq]. unfold within. cbn [fst snd]. lia.
      - apply sep_sym. eapply within_sep; [apply Hwhole; exact Hq|]. apply HsD. apply in_or_app. right. exact Hr.
      - apply sep_sym. apply Hpx; auto. }
    destruct (IH st1 (e + esz) st' mI vs w2 F2 D2 Hrun Hb1 ltac:(congruence) HbI R2 N2) as [SP2 Fin2].
    { intros r Hr x j W. rewrite Fr1.
      - destruct Hr as [[<-|[]]|Hr]; [apply Aw; eapply within_trans; [exact W|]; unfold within; cbn [fst snd]; lia|].
        apply (A r); [right; apply in_or_app; right; exact Hr|exact W].
      - intros q Hq. eapply within_sep; [exact W|]. apply Hsep2; auto. }
    { exact Hp2. }
    { intros d Hd. eapply within_sep; [|apply HsD; apply in_or_app; right; exact Hd]. unfold within. cbn [fst snd]. lia. }
    { lia. }
    (* the first element's struct and the K others lie side by side in (e, K * esz + esz) *)
    pose proof (proj1 (proj2 (elem_ranges efs esz e K Hesz HKe Hwf))) as Hcov.
    split; [exact (SSpost_cover _ _ _ _ _ Hcov (SSpost_trans _ _ _ _ _ _ _ SP1 SP2))|].
    apply (fin_cover _ _ _ _ _ _ _ _ _ _ Hcov).
    apply (fin_seq (fun mF => rd_fs efs mF e) (fun mF => rd_elems (rd_fs efs mF) k (e + esz) esz) _ vsums vsumss _ cons
             st st1 st' mI _ _ _ _ _ _ _ _); [| |exact Hsep2|exact SP2|exact Fin1|exact Fin2].
    + intros mF v1' x1 G1 v2' x2 G2 Q1 P1. cbn [rd_elems]. rewrite Q1. cbn [bind]. rewrite P1. reflexivity.
    + intros v1' v2' Q2 P2. split; assumption.
Qed.

Lemma ss_arr esz efs : SSfs efs -> SSf (FArr esz efs).
Proof.
  intros IH avail st a st' mI val w F D [Hw16 [Hesz Hwfe]] [Hpse Hlaye] _ Hrun Hbm Hl HbI Hrd Hdn A HpD HsD Hw.
  cbn [aranges_f] in *. rewrite s_field_arr in Hrun. cbn [rd_f dn_f] in Hrd, Hdn.
  destruct (load64 mI a) as [p|] eqn:L1; cbn [bind] in Hrd, Hdn; [|discriminate].
  destruct (load64 mI (a + 8)) as [n|] eqn:L2; cbn [bind] in Hrd, Hdn; [|discriminate].
  destruct (load mI p n) as [bs|] eqn:L3; cbn [bind] in Hrd; [|discriminate].
  pose proof (load64_range _ _ _ HbI L2) as Rn.
  assert (A16 : agree mI (s_mem st) (a, 16)) by (apply A; left; left; reflexivity).
  destruct (s_buffer st a) as [st1|] eqn:E1; cbn [bind] in Hrun; [|discriminate].
  destruct (ss_buffer st a st1 mI p n bs E1 L1 L2 L3 A16) as [Hm1 Hfin1].
  destruct (fields_active efs) eqn:Ea.
  2:{ inversion Hrun. subst st1. inversion Hrd. inversion Hdn. subst val w F D.
      split; [apply SSpost_same; auto|]. intros Hf. destruct (Hfin1 Hf) as [Hf0 HmF]. split; [exact Hf0|].
      intros mF w0 HlF AF Fl.
      destruct (HmF mF w0 HlF) as [bs' [M1 [M2 [M3 [M4 M5]]]]]; [rewrite <- Hm1; apply AF; left; left; reflexivity|exact Fl|].
      exists (VArr n bs' []), bs', [(a, 16); (p, n)]. split; [cbn [rd_f]; rewrite M1; cbn [bind]; rewrite M2; cbn [bind]; rewrite M3; cbn [bind]; rewrite Ea; reflexivity|].
      split; [exact I|]. split; [exact M4|]. split; [reflexivity|]. split; [apply fpok_buf|exact M5]. }
  set (k := Z.to_nat (n / esz)) in *.
  destruct (rd_elems (rd_fs efs mI) k p esz) as [[[vs we] Fe]|] eqn:Re; cbn [bind] in Hrd; [|discriminate].
  destruct (dn_elems (dn_fs efs mI) k p esz) as [De|] eqn:Ne; cbn [bind] in Hdn; [|discriminate].
  inversion Hrd. inversion Hdn. subst val w F D. clear Hrd Hdn.
  rewrite len_app in Hw. pose proof (len_nonneg bs). pose proof (len_nonneg we).
  rewrite Hm1 in Hrun. rewrite (agree_load64 mI (s_mem st) _ a A16), L1 in Hrun by (unfold within; cbn; lia). cbn [bind] in Hrun.
  rewrite (agree_load64 mI (s_mem st) _ (a + 8) A16), L2 in Hrun by (unfold within; cbn; lia). cbn [bind] in Hrun. fold k in Hrun.
  assert (Hk : Z.of_nat k * esz <= n) by exact (elems_fit n esz ltac:(lia) Hesz).
  assert (Wp : within (p, Z.of_nat k * esz) (p, n)) by (unfold within; cbn [fst snd]; lia).
  destruct HpD as [HpD1 HpD2].
  assert (Apn : agree mI (s_mem st) (p, n)) by (apply A; right; left; reflexivity).
  destruct (ss_loop efs esz IH Hesz Hwfe Hlaye Hpse k st1 p st' mI vs we Fe De Hrun ltac:(rewrite Hm1; exact Hbm) ltac:(rewrite Hm1; exact Hl) HbI Re Ne)
    as [SP2 Fin2].
  { rewrite Hm1. intros r [[<-|[]]|Hr]; [eapply agree_within; [exact Apn|exact Wp]|apply A; right; right; exact Hr]. }
  { exact HpD2. }
  { intros d Hd. eapply within_sep; [exact Wp|]. apply HpD1. exact Hd. }
  { lia. }
  pose proof SP2 as [Hl2 [Hb2 Fr2]].
  split.
  { split; [rewrite Hl2, Hm1; reflexivity|]. split; [exact Hb2|]. intros x j Hs. rewrite Fr2, Hm1; [reflexivity|].
    intros q [[<-|[]]|Hq]; [eapply sep_sub_r; [apply Hs; right; left; reflexivity|exact Wp]|apply Hs; right; right; exact Hq]. }
  intros Hf. destruct (Fin2 Hf) as [Hf1 HmF2]. destruct (Hfin1 Hf1) as [Hf0 HmF1]. split; [exact Hf0|].
  intros mF w0 HlF AF Fl.
  assert (Sa : sep (a, 16) (p, n)) by (apply HsD; [left; reflexivity|left; reflexivity]).
  assert (AF16 : agree (s_mem st) mF (a, 16)).
  { intros x j W. rewrite (AF (a, 16) ltac:(left; left; reflexivity) x j W). rewrite Fr2, Hm1; [reflexivity|].
    intros q [[<-|[]]|Hq]; [eapply within_sep; [exact W|]; eapply sep_sub_r; [exact Sa|exact Wp]|].
    eapply within_sep; [exact W|]. apply HsD; [left; reflexivity|right; exact Hq]. }
  destruct (HmF1 mF w0 HlF AF16 Fl) as [bs' [M1 [M2 [M3 [M4 M5]]]]].
  destruct (HmF2 mF (w0 ++ bs') HlF) as [vs' [we' [Fe' [P1 [P2 [P3 [P4 [P6 P5]]]]]]]]; [|exact M5|].
  { intros r [[<-|[]]|Hr]; [eapply agree_within; [apply AF; right; left; reflexivity|exact Wp]|apply AF; right; right; exact Hr]. }
  exists (VArr n [] vs'), (bs' ++ we'), ((a, 16) :: (p, n) :: Fe').
  split; [cbn [rd_f]; rewrite M1; cbn [bind]; rewrite M2; cbn [bind]; rewrite M3; cbn [bind]; rewrite Ea; fold k; rewrite P1; reflexivity|].
  split; [rewrite vsum_arr; exact P2|]. split; [rewrite !len_app; lia|]. split; [rewrite !len_cons; lia|]. split; [|rewrite P5, app_assoc; reflexivity].
  intros r [<-|[<-|Hr]].
  + right. left. exists (a, 16). split; [left; reflexivity|apply within_refl].
  + right. right. exists (p, n). split; [left; reflexivity|apply within_refl].
  + destruct (P6 r Hr) as [Hz|[[s [[<-|[]] W]]|[c [Hc W]]]]; [left; exact Hz| |right; right; exists c; split; [right; exact Hc|exact W]].
    right. right. exists (p, n). split; [left; reflexivity|eapply within_trans; eauto].
Qed.

Lemma ss_map vsz vfs : SSf (FMap vsz vfs).
Proof.
  intros avail st a st' mI val w F D _ _ _ Hrun Hbm Hl HbI Hrd Hdn A _ _ _.
  cbn [aranges_f s_field rd_f dn_f] in *.
  destruct (load64 mI a) as [ip|] eqn:L1; cbn [bind] in Hrd, Hdn; [|discriminate].
  destruct (load64 mI (a + 8)) as [inn|] eqn:L2; cbn [bind] in Hrd, Hdn; [|discriminate].
  destruct (load mI ip inn) as [ibs|] eqn:L3; cbn [bind] in Hrd; [|discriminate].
  destruct (load64 mI (a + 16)) as [bp|] eqn:L4; cbn [bind] in Hrd, Hdn; [|discriminate].
  destruct (load64 mI (a + 24)) as [bn|] eqn:L5; cbn [bind] in Hrd, Hdn; [|discriminate].
  destruct (load mI bp bn) as [bbs|] eqn:L6; cbn [bind] in Hrd; [|discriminate].
  inversion Hrd. inversion Hdn. subst val w F D. clear Hrd Hdn.
  destruct (s_buffer st a) as [st1|] eqn:E1; cbn [bind] in Hrun; [|discriminate].
  assert (A1 : agree mI (s_mem st) (a, 16)) by (apply A; left; left; reflexivity).
  assert (A2 : agree mI (s_mem st) (a + 16, 16)) by (apply A; left; right; left; reflexivity).
  destruct (ss_buffer st a st1 mI ip inn ibs E1 L1 L2 L3 A1) as [Hm1 Hfin1].
  replace (a + 24) with (a + 16 + 8) in L5 by lia.
  destruct (ss_buffer st1 (a + 16) st' mI bp bn bbs Hrun L4 L5 L6 ltac:(rewrite Hm1; exact A2)) as [Hm2 Hfin2].
  split; [apply SSpost_same; [congruence|exact Hbm]|].
  intros Hf. destruct (Hfin2 Hf) as [Hf1 HmF2]. destruct (Hfin1 Hf1) as [Hf0 HmF1]. split; [exact Hf0|].
  intros mF w0 HlF AF Fl.
  destruct (HmF1 mF w0 HlF) as [ibs' [M1 [M2 [M3 [M4 M5]]]]]; [rewrite <- Hm1, <- Hm2; apply AF; left; left; reflexivity|exact Fl|].
  destruct (HmF2 mF (w0 ++ ibs') HlF) as [bbs' [N1 [N2 [N3 [N4 N5]]]]]; [rewrite <- Hm2; apply AF; left; right; left; reflexivity|exact M5|].
  exists (VMap ibs' bbs'), (ibs' ++ bbs'), [(a, 16); (ip, inn); (a + 16, 16); (bp, bn)].
  split.
  { cbn [rd_f]. rewrite M1. cbn [bind]. rewrite M2. cbn [bind]. rewrite M3. cbn [bind]. rewrite N1. cbn [bind].
    replace (a + 24) with (a + 16 + 8) by lia. rewrite N2. cbn [bind]. rewrite N3. reflexivity. }
  split; [exact I|]. split; [rewrite !len_app; lia|]. split; [reflexivity|]. split; [|rewrite N5, app_assoc; reflexivity].
  apply (fpok_app [(a, 16); (ip, inn)] [(a + 16, 16); (bp, bn)] [(a, 16)] [(a + 16, 16)] [(ip, inn)] [(bp, bn)]); apply fpok_buf.
Qed.

Lemma ss_cons off f r : SSf f -> SSfs r -> SSfs (FCons off f r).
Proof.
  intros IHf IHr sz st b st' mI vals w F D [Ho [Hwf Hwr]] [Hlf Hlr] Hps Hrun Hbm Hl HbI Hrd Hdn A HpD HsD Hw.
  cbn [aranges_fs] in *. apply psep_app in Hps. destruct Hps as [Hpf [Hpr Hpx]].
  rewrite s_fields_cons in Hrun. destruct (s_field cfg_final f st (b + off)) as [st1|] eqn:E1; cbn [bind] in Hrun; [|discriminate].
  cbn [rd_fs dn_fs] in Hrd, Hdn.
  destruct (rd_f f mI (b + off)) as [[[v1 w1] F1]|] eqn:R1; cbn [bind] in Hrd; [|discriminate].
  destruct (rd_fs r mI b) as [[[vs w2] F2]|] eqn:R2; cbn [bind] in Hrd; [|discriminate].
  destruct (dn_f f mI (b + off)) as [D1|] eqn:N1; cbn [bind] in Hdn; [|discriminate].
  destruct (dn_fs r mI b) as [D2|] eqn:N2; cbn [bind] in Hdn; [|discriminate].
  inversion Hrd. inversion Hdn. subst vals w F D. clear Hrd Hdn.
  rewrite len_app in Hw. pose proof (len_nonneg w1). pose proof (len_nonneg w2).
  apply psep_app in HpD. destruct HpD as [Hp1 [Hp2 Hpdx]].
  destruct (IHf (sz - off) st (b + off) st1 mI v1 w1 F1 D1 Hwf Hlf Hpf E1 Hbm Hl HbI R1 N1) as [SP1 Fin1].
  { intros x [Hx|Hx]; apply A; [left|right]; apply in_or_app; left; exact Hx. }
  { exact Hp1. }
  { intros s d Hs Hd. apply HsD; apply in_or_app; left; assumption. }
  { lia. }
  pose proof SP1 as [Hl1 [Hb1 Fr1]].
  assert (Hsep2 : forall x, In x (aranges_fs r b) \/ In x D2 -> forall q, In q (aranges_f f (b + off)) \/ In q D1 -> sep x q).
  { intros x [Hx|Hx] q [Hq|Hq].
    - apply sep_sym. apply Hpx; auto.
    - apply HsD; apply in_or_app; [right|left]; assumption.
    - apply sep_sym. apply HsD; apply in_or_app; [left|right]; assumption.
    - apply sep_sym. apply Hpdx; auto. }
  destruct (IHr sz st1 b st' mI vs w2 F2 D2 Hwr Hlr Hpr Hrun Hb1 ltac:(congruence) HbI R2 N2) as [SP2 Fin2].
  { intros x Hx y j W. rewrite Fr1.
    - apply (A x); [destruct Hx as [Hx|Hx]; [left|right]; apply in_or_app; right; exact Hx|exact W].
    - intros q Hq. eapply within_sep; [exact W|]. apply Hsep2; auto. }
  { exact Hp2. }
  { intros s d Hs Hd. apply HsD; apply in_or_app; right; assumption. }
  { lia. }
  split; [exact (SSpost_trans _ _ _ _ _ _ _ SP1 SP2)|].
  apply (fin_seq (fun mF => rd_f f mF (b + off)) (fun mF => rd_fs r mF b) _ vsum vsums _ cons
           st st1 st' mI _ _ _ _ _ _ _ _); [| |exact Hsep2|exact SP2|exact Fin1|exact Fin2].
  - intros mF v1' x1 G1 v2' x2 G2 Q1 P1. cbn [rd_fs]. rewrite Q1. cbn [bind]. rewrite P1. reflexivity.
  - intros v1' v2' Q2 P2. split; assumption.
Qed.

Lemma ss_all : (forall f, SSf f) /\ (forall fs, SSfs fs).
Proof.
  apply field_fields_mut.
  - (* FFixed *) intros n avail st a st' mI val w F D Hwf _ _ Hrun Hbm Hl HbI Hrd Hdn A _ _ _.
    cbn [s_field] in Hrun. inversion Hrun. subst st'. cbn [rd_f dn_f aranges_f] in *.
    destruct (load mI a n) as [bs|] eqn:Lb; cbn [bind] in Hrd; [|discriminate]. inversion Hrd. inversion Hdn. subst.
    split; [apply SSpost_same; auto|]. intros Hf. split; [exact Hf|]. intros mF w0 HlF _ Fl.
    destruct (load_lens _ mF _ _ _ Lb HlF) as [bs' [Hb' _]]. exists (VFix bs'), [], [(a, n)]. cbn [rd_f vsum]. rewrite Hb'. cbn [bind]. rewrite app_nil_r. repeat split; auto.
    apply fpok_in. intros r [<-|[]]. left. left. reflexivity.
  - (* FBuf *) apply ss_leaf; reflexivity.
  - (* FStr *) apply ss_leaf; reflexivity.
  - (* FFixBuf *) intros n. apply ss_leaf; reflexivity.
  - (* FABuf *) apply ss_leaf; reflexivity.
  - exact ss_arr.
  - (* FIov *) intros avail st a st' mI val w F D _ _ _ Hrun Hbm Hl HbI Hrd Hdn A _ HsD Hw. cbn [s_field aranges_f] in *.
    apply (ss_iovarr st a st' mI val w F D Hrun Hbm Hl HbI Hrd Hdn A); [|exact Hw]. intros d Hd. apply HsD; [left; reflexivity|exact Hd].
  - (* FAIov *) intros avail st a st' mI val w F D _ _ _ Hrun Hbm Hl HbI Hrd Hdn A _ HsD Hw. cbn [s_field aranges_f fix_nested_al cfg_final] in *.
    apply (ss_iovarr st a st' mI val w F D Hrun Hbm Hl HbI Hrd Hdn A); [|exact Hw]. intros d Hd. apply HsD; [left; reflexivity|exact Hd].
  - (* FNest *) intros fs IH avail st a st' mI val w F D Hwf Hlay Hps Hrun Hbm Hl HbI Hrd Hdn A HpD HsD Hw.
    cbn [field_wf lay_f aranges_f s_field rd_f dn_f] in *.
    destruct (rd_fs fs mI a) as [[[vs w1] F1]|] eqn:E; cbn [bind] in Hrd; [|discriminate]. inversion Hrd. subst val w F.
    destruct (IH avail st a st' mI vs w1 F1 D Hwf Hlay Hps Hrun Hbm Hl HbI E Hdn A HpD HsD Hw) as [SP Fin].
    split; [exact SP|]. intros Hf. destruct (Fin Hf) as [Hf0 HmF]. split; [exact Hf0|]. intros mF w0 HlF AF Fl.
    destruct (HmF mF w0 HlF AF Fl) as [vs' [w' [F' [P1 [P2 [P3 [P4 [P6 P5]]]]]]]].
    exists (VNest vs'), w', F'. split; [cbn [rd_f]; rewrite P1; reflexivity|]. split; [rewrite vsum_nest; exact P2|]. auto.
  - intros vsz vfs _. apply ss_map.
  - (* FNil *) intros sz st b st' mI vals w F D _ _ _ Hrun Hbm Hl HbI Hrd Hdn _ _ _ _.
    cbn in Hrun, Hrd, Hdn. inversion Hrun. inversion Hrd. inversion Hdn. subst.
    split; [apply SSpost_same; auto|]. intros Hf. split; [exact Hf|]. intros mF w0 _ _ Fl.
    exists [], [], []. cbn. rewrite app_nil_r. repeat split; auto. intros r [].
  - intros off f IHf r IHr. exact (ss_cons off f r IHf IHr).
Qed.
