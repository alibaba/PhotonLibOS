(* C12_Dyn.v — the DYNAMIC ranges of a message laid out in memory (every buffer / string / array buffer /
   map index and base / iovec array and every piece it names — everything a slot points to, to any depth),
   as an executable reader dn_f; the footprint of rd_f is covered by the static ranges and the dynamic ones
   (rd_fpok); dn_f depends on the static and dynamic ranges only (dn_stable).  Used to state that the
   sender's buffers do not alias each other or the structs (needed because SerializerIOV writes summed_size
   into the sender's structs while it builds the piece list). *)
From Coq Require Import ZArith List Bool Lia.
From PV Require Import Base.U64 C12.C12_Model C12.C12_Mem C12.C12_MemC C12.C12_Iov C12.C12_Flat C12.C12_Deser C12.C12_Sep C12.C12_Wire C12.C12_RtD C12.C12_Hx.
Import ListNotations.
Local Open Scope Z_scope.

Fixpoint dn_iovecs (m : mem) (p : Z) (k : nat) : res (list (Z * Z)) :=
  match k with
  | O => Ok []
  | S k' => b <- load64 m p ;; n <- load64 m (p + 8) ;; r <- dn_iovecs m (p + 16) k' ;; Ok ((b, n) :: r)
  end.
Fixpoint dn_elems (g : Z -> res (list (Z * Z))) (k : nat) (e esz : Z) : res (list (Z * Z)) :=
  match k with
  | O => Ok []
  | S k' => d1 <- g e ;; d2 <- dn_elems g k' (e + esz) esz ;; Ok (d1 ++ d2)
  end.
Fixpoint dn_f (f : field) (m : mem) (a : Z) {struct f} : res (list (Z * Z)) :=
  match f with
  | FFixed _ => Ok []
  | FBuf | FStr | FFixBuf _ | FABuf => p <- load64 m a ;; n <- load64 m (a + 8) ;; Ok [(p, n)]
  | FArr esz efs =>
      p <- load64 m a ;; n <- load64 m (a + 8) ;;
      if fields_active efs then d <- dn_elems (dn_fs efs m) (Z.to_nat (n / esz)) p esz ;; Ok ((p, n) :: d) else Ok [(p, n)]
  | FIov | FAIov => p <- load64 m a ;; n <- load64 m (a + 8) ;; d <- dn_iovecs m p (Z.to_nat (n / 16)) ;; Ok ((p, n) :: d)
  | FNest fs => dn_fs fs m a
  | FMap _ _ => ip <- load64 m a ;; inn <- load64 m (a + 8) ;; bp <- load64 m (a + 16) ;; bn <- load64 m (a + 24) ;; Ok [(ip, inn); (bp, bn)]
  end
with dn_fs (fs : fields) (m : mem) (base : Z) {struct fs} : res (list (Z * Z)) :=
  match fs with
  | FNil => Ok []
  | FCons off f r => d1 <- dn_f f m (base + off) ;; d2 <- dn_fs r m base ;; Ok (d1 ++ d2)
  end.

Lemma rd_dn_iovecs m : forall k p bs Fp, rd_iovecs m p k = Ok (bs, Fp) -> dn_iovecs m p k = Ok Fp.
Proof.
  induction k as [|k IH]; intros p bs Fp H; cbn [rd_iovecs dn_iovecs] in *; [inversion H; reflexivity|].
  destruct (load64 m p) as [b|]; cbn [bind] in *; [|discriminate].
  destruct (load64 m (p + 8)) as [n|]; cbn [bind] in *; [|discriminate].
  destruct (load m b n) as [d|]; cbn [bind] in H; [|discriminate].
  destruct (rd_iovecs m (p + 16) k) as [[bs' F']|] eqn:E; cbn [bind] in H; [|discriminate].
  inversion H. rewrite (IH _ _ _ E). reflexivity.
Qed.

Lemma rd_buf_fpok m a val w F : rd_f FBuf m a = Ok (val, w, F) -> exists D, dn_f FBuf m a = Ok D /\ fpok F [(a, 16)] D.
Proof.
  cbn [rd_f dn_f]. intros H. destruct (slot_inv _ _ _ _ H) as [p [n [bs [L1 [L2 [L3 HK]]]]]]. inversion HK. subst.
  rewrite L1. cbn [bind]. rewrite L2. cbn [bind]. exists [(p, n)]. split; [reflexivity|].
  apply fpok_in. intros r [<-|[<-|[]]]; [left|right]; left; reflexivity.
Qed.

Lemma rd_iov_fpok m a val w F : rd_f FIov m a = Ok (val, w, F) -> exists D, dn_f FIov m a = Ok D /\ fpok F [(a, 24)] D.
Proof.
  intros H. cbn [rd_f dn_f] in *.
  destruct (load64 m a) as [p|]; cbn [bind] in *; [|discriminate].
  destruct (load64 m (a + 8)) as [n|]; cbn [bind] in *; [|discriminate].
  destruct (load64 m (a + 16)) as [s|]; cbn [bind] in *; [|discriminate].
  destruct (rd_iovecs m p (Z.to_nat (n / 16))) as [[bs Fp]|] eqn:E; cbn [bind] in H; [|discriminate].
  inversion H. subst. rewrite (rd_dn_iovecs _ _ _ _ _ E). cbn [bind]. exists ((p, n) :: Fp). split; [reflexivity|].
  apply fpok_in. intros r [<-|Hr]; [left; left; reflexivity|right; exact Hr].
Qed.

(* k consecutive elements: the static ranges of all of them lie in the k * esz bytes they occupy *)
Lemma rd_elems_fpok m efs esz : 0 < esz -> fields_wf esz efs ->
  (forall b vals w F, rd_fs efs m b = Ok (vals, w, F) -> exists D, dn_fs efs m b = Ok D /\ fpok F (aranges_fs efs b) D) ->
  forall k e vs we Fe, rd_elems (rd_fs efs m) k e esz = Ok (vs, we, Fe) ->
    exists De, dn_elems (dn_fs efs m) k e esz = Ok De /\ fpok Fe [(e, Z.of_nat k * esz)] De.
Proof.
  intros Hesz Hwfe IH. induction k as [|k IHk]; intros e vs0 we0 Fe0 H0; cbn [rd_elems dn_elems] in *.
  - inversion H0. exists []. split; [reflexivity|]. intros r [].
  - destruct (rd_fs efs m e) as [[[v1 w1] F1]|] eqn:E1; cbn [bind] in H0; [|discriminate].
    destruct (rd_elems (rd_fs efs m) k (e + esz) esz) as [[[vs' w'] F']|] eqn:E2; cbn [bind] in H0; [|discriminate].
    inversion H0. subst. destruct (IH _ _ _ _ E1) as [D1 [Hd1 Hf1]]. destruct (IHk _ _ _ _ E2) as [D2 [Hd2 Hf2]].
    rewrite Hd1. cbn [bind]. rewrite Hd2. cbn [bind]. exists (D1 ++ D2). split; [reflexivity|].
    assert (HS : Z.of_nat (S k) * esz = Z.of_nat k * esz + esz) by lia. rewrite HS.
    exact (fpok_cover _ _ _ _ (fpok_app _ _ _ _ _ _ Hf1 Hf2) (proj1 (proj2 (elem_ranges efs esz e (Z.of_nat k) Hesz ltac:(nia) Hwfe)))).
Qed.

Lemma rd_fpok m : mem_bytes m ->
  (forall f avail a val w F, field_wf avail f -> rd_f f m a = Ok (val, w, F) -> exists D, dn_f f m a = Ok D /\ fpok F (aranges_f f a) D) /\
  (forall fs sz b vals w F, fields_wf sz fs -> rd_fs fs m b = Ok (vals, w, F) -> exists D, dn_fs fs m b = Ok D /\ fpok F (aranges_fs fs b) D).
Proof.
  intros Hbm. apply field_fields_mut.
  - intros n avail a val w F _ H. cbn [rd_f dn_f aranges_f] in *. destruct (load m a n); cbn [bind] in H; [|discriminate]. inversion H.
    exists []. split; [reflexivity|]. apply fpok_in. intros r [<-|[]]. left. left. reflexivity.
  - intros avail a val w F _. apply rd_buf_fpok.
  - intros avail a val w F _. apply rd_buf_fpok.
  - intros n avail a val w F _. apply rd_buf_fpok.
  - intros avail a val w F _. apply rd_buf_fpok.
  - (* FArr *) intros esz efs IH avail a val w F [_ [Hesz Hwfe]] H. cbn [rd_f] in H.
    destruct (slot_inv _ _ _ _ H) as [p [n [bs [L1 [L2 [L3 HK]]]]]]. cbn beta in HK. cbn [dn_f aranges_f]. rewrite L1. cbn [bind]. rewrite L2. cbn [bind].
    pose proof (load64_range _ _ _ Hbm L2) as Rn.
    destruct (fields_active efs).
    2:{ inversion HK. subst. exists [(p, n)]. split; [reflexivity|].
        apply fpok_in. intros r [<-|[<-|[]]]; [left|right]; left; reflexivity. }
    destruct (rd_elems (rd_fs efs m) (Z.to_nat (n / esz)) p esz) as [[[vs we] Fe]|] eqn:Ee; cbn [bind] in HK; [|discriminate].
    inversion HK. subst val w F. clear HK.
    destruct (rd_elems_fpok m efs esz Hesz Hwfe (fun b vals w F => IH esz b vals w F Hwfe) _ _ _ _ _ Ee) as [De [Hde Hfe]]. rewrite Hde. cbn [bind]. exists ((p, n) :: De). split; [reflexivity|].
    pose proof (elems_fit n esz ltac:(lia) Hesz) as Hk.
    intros r [<-|[<-|Hr]].
    + right. left. exists (a, 16). split; [left; reflexivity|apply within_refl].
    + right. right. exists (p, n). split; [left; reflexivity|apply within_refl].
    + destruct (Hfe r Hr) as [Hz|[[s [[<-|[]] W]]|[c [Hc W]]]]; [left; exact Hz| |right; right; exists c; split; [right; exact Hc|exact W]].
      right. right. exists (p, n). split; [left; reflexivity|]. eapply within_trans; [exact W|]. unfold within. cbn [fst snd]. lia.
  - intros avail a val w F _. apply rd_iov_fpok.
  - intros avail a val w F _. apply rd_iov_fpok.
  - (* FNest *) intros fs IH avail a val w F Hwf H. cbn [rd_f dn_f aranges_f field_wf] in *.
    destruct (rd_fs fs m a) as [[[vs w1] F1]|] eqn:E; cbn [bind] in H; [|discriminate]. inversion H. subst. eapply IH; eauto.
  - (* FMap *) intros vsz vfs _ avail a val w F _ H. cbn [rd_f dn_f aranges_f] in *.
    destruct (load64 m a) as [ip|]; cbn [bind] in *; [|discriminate].
    destruct (load64 m (a + 8)) as [inn|]; cbn [bind] in *; [|discriminate].
    destruct (load m ip inn) as [ibs|]; cbn [bind] in *; [|discriminate].
    destruct (load64 m (a + 16)) as [bp|]; cbn [bind] in *; [|discriminate].
    destruct (load64 m (a + 24)) as [bn|]; cbn [bind] in *; [|discriminate].
    destruct (load m bp bn) as [bbs|]; cbn [bind] in *; [|discriminate]. inversion H. subst.
    exists [(ip, inn); (bp, bn)]. split; [reflexivity|].
    apply fpok_in. intros r [<-|[<-|[<-|[<-|[]]]]]; cbn [In]; auto.
  - intros sz b vals w F _ H. cbn in H. inversion H. exists []. split; [reflexivity|]. intros r [].
  - intros off f IHf r IHr sz b vals w F [Ho [Hwf Hwr]] H. cbn [rd_fs] in H.
    destruct (rd_f f m (b + off)) as [[[v1 w1] F1]|] eqn:E1; cbn [bind] in H; [|discriminate].
    destruct (rd_fs r m b) as [[[vs w2] F2]|] eqn:E2; cbn [bind] in H; [|discriminate]. inversion H. subst.
    destruct (IHf _ _ _ _ _ Hwf E1) as [D1 [Hd1 Hf1]]. destruct (IHr _ _ _ _ _ Hwr E2) as [D2 [Hd2 Hf2]].
    cbn [dn_fs aranges_fs]. rewrite Hd1. cbn [bind]. rewrite Hd2. cbn [bind]. exists (D1 ++ D2). split; [reflexivity|]. apply fpok_app; assumption.
Qed.

Lemma dn_iovecs_stable m m' : forall k p P D, dn_iovecs m p k = Ok D -> agree m m' P -> within (p, 16 * Z.of_nat k) P -> dn_iovecs m' p k = Ok D.
Proof.
  induction k as [|k IH]; intros p P D H AP WP; [exact H|]. cbn [dn_iovecs] in *. rewrite Nat2Z.inj_succ in WP.
  rewrite (agree_load64 m m' P p AP) by (unfold within in *; cbn [fst snd] in *; lia).
  rewrite (agree_load64 m m' P (p + 8) AP) by (unfold within in *; cbn [fst snd] in *; lia).
  destruct (load64 m p) as [b|]; cbn [bind] in *; [|discriminate].
  destruct (load64 m (p + 8)) as [n|]; cbn [bind] in *; [|discriminate].
  destruct (dn_iovecs m (p + 16) k) as [r|] eqn:Er; cbn [bind] in H; [|discriminate].
  rewrite (IH (p + 16) P _ Er AP); [exact H|]. unfold within in *. cbn [fst snd] in *. lia.
Qed.

Lemma dn_buf_stable m m' a D : dn_f FBuf m a = Ok D -> (forall r, In r [(a, 16)] \/ In r D -> agree m m' r) -> dn_f FBuf m' a = Ok D.
Proof.
  cbn [dn_f]. intros H A. assert (A16 : agree m m' (a, 16)) by (apply A; left; left; reflexivity).
  rewrite (agree_load64 m m' _ a A16) by (unfold within; cbn; lia).
  rewrite (agree_load64 m m' _ (a + 8) A16) by (unfold within; cbn; lia). exact H.
Qed.

Lemma dn_iov_stable m m' a D : mem_bytes m ->
  dn_f FIov m a = Ok D -> (forall r, In r [(a, 24)] \/ In r D -> agree m m' r) -> dn_f FIov m' a = Ok D.
Proof.
  intros Hbm H A. cbn [dn_f] in *.
  assert (A24 : agree m m' (a, 24)) by (apply A; left; left; reflexivity).
  rewrite (agree_load64 m m' _ a A24) by (unfold within; cbn; lia).
  rewrite (agree_load64 m m' _ (a + 8) A24) by (unfold within; cbn; lia).
  destruct (load64 m a) as [p|]; cbn [bind] in *; [|discriminate].
  destruct (load64 m (a + 8)) as [n|] eqn:L2; cbn [bind] in *; [|discriminate].
  pose proof (load64_range _ _ _ Hbm L2) as Rn.
  destruct (dn_iovecs m p (Z.to_nat (n / 16))) as [Dp|] eqn:E; cbn [bind] in H; [|discriminate]. inversion H. subst D.
  rewrite (dn_iovecs_stable m m' _ p (p, n) _ E); [reflexivity| |].
  + apply A. right. left. reflexivity.
  + pose proof (elems_fit n 16 ltac:(lia) ltac:(lia)). unfold within. cbn [fst snd]. lia.
Qed.

(* k consecutive elements lying inside a range on which the memories agree *)
Lemma dn_elems_stable m m' efs esz p n : 0 < esz -> fields_wf esz efs -> agree m m' (p, n) ->
  (forall b D, dn_fs efs m b = Ok D -> (forall r, In r (aranges_fs efs b) \/ In r D -> agree m m' r) -> dn_fs efs m' b = Ok D) ->
  forall k e De, dn_elems (dn_fs efs m) k e esz = Ok De -> within (e, Z.of_nat k * esz) (p, n) ->
    (forall r, In r De -> agree m m' r) -> dn_elems (dn_fs efs m') k e esz = Ok De.
Proof.
  intros Hesz Hwfe Apn IH. induction k as [|k IHk]; intros e De0 H0 W AD; [exact H0|]. cbn [dn_elems] in *.
  assert (HS : Z.of_nat (S k) * esz = Z.of_nat k * esz + esz) by lia. rewrite HS in W. assert (HK : 0 <= Z.of_nat k * esz) by nia.
  destruct (dn_fs efs m e) as [D1|] eqn:E1; cbn [bind] in H0; [|discriminate].
  destruct (dn_elems (dn_fs efs m) k (e + esz) esz) as [D2|] eqn:E2; cbn [bind] in H0; [|discriminate].
  inversion H0. subst De0.
  rewrite (IH e D1 E1).
  - cbn [bind]. rewrite (IHk _ _ E2); [reflexivity| |].
    + unfold within in *. cbn [fst snd] in *. lia.
    + intros r Hr. apply AD. apply in_or_app. right. exact Hr.
  - intros r [Hr|Hr]; [|apply AD; apply in_or_app; left; exact Hr].
    eapply agree_within; [exact Apn|]. eapply within_trans; [apply (proj2 aranges_within efs esz e Hwfe r Hr)|].
    unfold within in *. cbn [fst snd] in *. lia.
Qed.

Lemma dn_stable m m' : mem_bytes m ->
  (forall f avail a D, field_wf avail f -> dn_f f m a = Ok D -> (forall r, In r (aranges_f f a) \/ In r D -> agree m m' r) -> dn_f f m' a = Ok D) /\
  (forall fs sz b D, fields_wf sz fs -> dn_fs fs m b = Ok D -> (forall r, In r (aranges_fs fs b) \/ In r D -> agree m m' r) -> dn_fs fs m' b = Ok D).
Proof.
  intros Hbm. apply field_fields_mut.
  - intros n avail a D _ H _. exact H.
  - intros avail a D _. apply dn_buf_stable.
  - intros avail a D _. apply dn_buf_stable.
  - intros n avail a D _. apply dn_buf_stable.
  - intros avail a D _. apply dn_buf_stable.
  - (* FArr *) intros esz efs IH avail a D [_ [Hesz Hwfe]] H A. cbn [dn_f aranges_f] in *.
    assert (A16 : agree m m' (a, 16)) by (apply A; left; left; reflexivity).
    rewrite (agree_load64 m m' _ a A16) by (unfold within; cbn; lia).
    rewrite (agree_load64 m m' _ (a + 8) A16) by (unfold within; cbn; lia).
    destruct (load64 m a) as [p|]; cbn [bind] in *; [|discriminate].
    destruct (load64 m (a + 8)) as [n|] eqn:L2; cbn [bind] in *; [|discriminate].
    pose proof (load64_range _ _ _ Hbm L2) as Rn.
    destruct (fields_active efs); [|exact H].
    destruct (dn_elems (dn_fs efs m) (Z.to_nat (n / esz)) p esz) as [De|] eqn:Ee; cbn [bind] in H; [|discriminate].
    inversion H. subst D. clear H.
    assert (Apn : agree m m' (p, n)) by (apply A; right; left; reflexivity).
    pose proof (elems_fit n esz ltac:(lia) Hesz) as Hk.
    rewrite (dn_elems_stable m m' efs esz p n Hesz Hwfe Apn (fun b D0 => IH esz b D0 Hwfe) _ _ _ Ee); [reflexivity| |].
    + unfold within. cbn [fst snd]. lia.
    + intros r Hr. apply A. right. right. exact Hr.
  - intros avail a D _. apply dn_iov_stable. exact Hbm.
  - intros avail a D _. apply dn_iov_stable. exact Hbm.
  - (* FNest *) intros fs IH avail a D Hwf H A. cbn [dn_f aranges_f field_wf] in *. eapply IH; eauto.
  - (* FMap *) intros vsz vfs _ avail a D _ H A. cbn [dn_f aranges_f] in *.
    assert (A1 : agree m m' (a, 16)) by (apply A; left; left; reflexivity).
    assert (A2 : agree m m' (a + 16, 16)) by (apply A; left; right; left; reflexivity).
    rewrite (agree_load64 m m' _ a A1) by (unfold within; cbn; lia).
    rewrite (agree_load64 m m' _ (a + 8) A1) by (unfold within; cbn; lia).
    rewrite (agree_load64 m m' _ (a + 16) A2) by (unfold within; cbn; lia).
    rewrite (agree_load64 m m' _ (a + 24) A2) by (unfold within; cbn; lia). exact H.
  - intros sz b D _ H _. exact H.
  - intros off f IHf r IHr sz b D [Ho [Hwf Hwr]] H A. cbn [dn_fs aranges_fs] in *.
    destruct (dn_f f m (b + off)) as [D1|] eqn:E1; cbn [bind] in H; [|discriminate].
    destruct (dn_fs r m b) as [D2|] eqn:E2; cbn [bind] in H; [|discriminate]. inversion H. subst D.
    rewrite (IHf _ _ _ Hwf E1); [cbn [bind]; rewrite (IHr _ _ _ Hwr E2); [reflexivity|]|].
    + intros x [Hx|Hx]; apply A; [left|right]; apply in_or_app; right; exact Hx.
    + intros x [Hx|Hx]; apply A; [left|right]; apply in_or_app; left; exact Hx.
Qed.
