(* C12_Walk.v — after a successful deserialize every slot of the message holds a null/empty
   pair or a pointer to a readable range, and walking the message (reading every byte of every
   field, through sv() for strings) never accesses memory out of range.
   Scope of this file (hence `_partial`): shapes without iovec_array fields and whose arrays
   have elements without fields to process (arrays of PODs, sorted_map index). *)
From Coq Require Import ZArith List Bool Lia.
From PV Require Import Base.U64 C12.C12_Model C12.C12_Mem C12.C12_MemC C12.C12_Iov C12.C12_Deser C12.C12_Sep C12.C12_Wire.
Import ListNotations.
Local Open Scope Z_scope.

Fixpoint field_simple (f : field) : Prop :=
  match f with
  | FIov | FAIov => False
  | FArr _ efs => fields_active efs = false
  | FNest fs => fields_simple fs
  | _ => True
  end
with fields_simple (fs : fields) : Prop :=
  match fs with FNil => True | FCons _ f r => field_simple f /\ fields_simple r end.

(* the address ranges written while a field is processed *)
Fixpoint franges (f : field) (a : Z) : list (Z * Z) :=
  match f with
  | FFixed _ => []
  | FBuf | FStr | FFixBuf _ | FABuf | FArr _ _ => [(a, 16)]
  | FIov | FAIov => [(a, 24)]
  | FNest fs => fsranges fs a
  | FMap _ _ => [(a, 16); (a + 16, 16)]
  end
with fsranges (fs : fields) (base : Z) : list (Z * Z) :=
  match fs with FNil => [] | FCons off f r => franges f (base + off) ++ fsranges r base end.

Definition disj (r1 r2 : Z * Z) : Prop := fst r1 + snd r1 <= fst r2 \/ fst r2 + snd r2 <= fst r1.
Definition inside (r1 r2 : Z * Z) : Prop := fst r2 <= fst r1 /\ fst r1 + snd r1 <= fst r2 + snd r2.
Fixpoint pairwise_disj (l : list (Z * Z)) : Prop :=
  match l with [] => True | x :: r => (forall y, In y r -> disj x y) /\ pairwise_disj r end.

Lemma pairwise_disj_app a b : pairwise_disj (a ++ b) <->
  pairwise_disj a /\ pairwise_disj b /\ (forall x y, In x a -> In y b -> disj x y).
Proof. exact (pairwise_app disj a b). Qed.

(* loads of ranges readable before that avoid every range of R are unchanged *)
Definition frameR (m m' : mem) (R : list (Z * Z)) : Prop :=
  forall x k, validb (lens m) x k = true -> (forall r, In r R -> disj (x, k) r) -> load m' x k = load m x k.

Lemma frameR_refl m R : frameR m m R.
Proof. intros x k _ _. reflexivity. Qed.

Lemma frameR_trans m1 m2 m3 R1 R2 : ext (lens m1) (lens m2) -> frameR m1 m2 R1 -> frameR m2 m3 R2 -> frameR m1 m3 (R1 ++ R2).
Proof.
  intros Hx F1 F2 x k Hv Hd. rewrite F2; [apply F1; [exact Hv|]|eapply validb_ext; eauto|].
  - intros r Hr. apply Hd. apply in_or_app. auto.
  - intros r Hr. apply Hd. apply in_or_app. auto.
Qed.

Lemma frameR_weaken m m' R R' : frameR m m' R -> (forall r, In r R -> In r R') -> frameR m m' R'.
Proof. intros F Hs x k Hv Hd. apply F; auto. Qed.

Fixpoint wgood_f (m : mem) (f : field) (a : Z) : Prop :=
  match f with
  | FFixed n => validb (lens m) a n = true
  | FBuf | FStr | FFixBuf _ | FABuf | FArr _ _ => slot_post m a
  | FIov | FAIov => True
  | FNest fs => wgood_fs m fs a
  | FMap _ _ => slot_post m a /\ slot_post m (a + 16)
  end
with wgood_fs (m : mem) (fs : fields) (base : Z) : Prop :=
  match fs with FNil => True | FCons off f r => wgood_f m f (base + off) /\ wgood_fs m r base end.

Lemma load64_valid m a p : load64 m a = Ok p -> validb (lens m) a 8 = true.
Proof. unfold load64. destruct (load m a 8) eqn:E; [|discriminate]. intros _. eapply load_valid_inv; eauto. Qed.

Lemma slot_post_frameR m m' R : ext (lens m) (lens m') -> frameR m m' R ->
  forall a, slot_post m a -> (forall r1 r2, In r1 [(a, 16)] -> In r2 R -> disj r1 r2) -> slot_post m' a.
Proof.
  intros Hx F a [p [n [L1 [L2 [Rn [Z0 P]]]]]] Hd. exists p, n.
  assert (E : forall x q, load64 m x = Ok q -> a <= x <= a + 8 -> load m' x 8 = load m x 8).
  { intros x q L Hx'. apply F; [eapply load64_valid; exact L|]. intros r Hr.
    specialize (Hd _ r (or_introl eq_refl) Hr). unfold disj in *. cbn [fst snd] in *. lia. }
  unfold load64. rewrite (E a p L1), (E (a + 8) n L2) by lia.
  split; [exact L1|]. split; [exact L2|]. split; [exact Rn|]. split; [exact Z0|].
  intros Hn. destruct (P Hn) as [A B]. split; [eapply validb_ext; eauto|exact B].
Qed.

Lemma wgood_stable m m' R : ext (lens m) (lens m') -> frameR m m' R ->
  (forall f a, wgood_f m f a -> (forall r1 r2, In r1 (franges f a) -> In r2 R -> disj r1 r2) -> wgood_f m' f a) /\
  (forall fs base, wgood_fs m fs base -> (forall r1 r2, In r1 (fsranges fs base) -> In r2 R -> disj r1 r2) -> wgood_fs m' fs base).
Proof.
  (* for the kinds with one slot wgood_f is slot_post and franges is the slot *)
  intros Hx F. pose proof (slot_post_frameR m m' R Hx F) as Hslot. apply field_fields_mut.
  - intros n a H _. cbn [wgood_f] in *. eapply validb_ext; eauto.
  - exact Hslot.
  - exact Hslot.
  - intros n. exact Hslot.
  - exact Hslot.
  - intros esz efs _. exact Hslot.
  - intros a _ _. exact I.
  - intros a _ _. exact I.
  - intros fs IH a H Hd. cbn [wgood_f franges] in *. apply IH; auto.
  - intros vsz vfs _ a [H1 H2] Hd. cbn [wgood_f franges] in *.
    split; apply Hslot; auto; intros r1 r2 [<-|[]]; apply Hd; cbn; auto.
  - intros base _ _. exact I.
  - intros off f IHf r IHr base [H1 H2] Hd. cbn [wgood_fs fsranges] in *. split.
    + apply IHf; auto. intros r1 r2 A B. apply Hd; [apply in_or_app; auto|exact B].
    + apply IHr; auto. intros r1 r2 A B. apply Hd; [apply in_or_app; auto|exact B].
Qed.

Lemma d_buffer_good st a avail : 16 <= avail -> inv (d_mem st) (d_iov st) -> validb (lens (d_mem st)) a avail = true ->
  exists st', d_buffer cfg_final st a = Ok st' /\ dpost st st' /\ slot_post (d_mem st') a /\
              frameR (d_mem st) (d_mem st') [(a, 16)].
Proof.
  intros Ha Hinv Hv. destruct (d_buffer_ok st a avail Ha Hinv Hv) as [st' [A [B [C D]]]].
  exists st'. split; [exact A|]. split; [exact B|]. split; [exact C|].
  intros x k Hx Hd. apply D; [exact Hx|]. specialize (Hd (a, 16) (or_introl eq_refl)). unfold disj in Hd. cbn [fst snd] in Hd. lia.
Qed.

Lemma q_all :
  (forall f avail st a, field_wf avail f -> field_simple f -> pairwise_disj (franges f a) ->
   inv (d_mem st) (d_iov st) -> validb (lens (d_mem st)) a avail = true ->
   exists st', d_field cfg_final f st a = Ok st' /\ dpost st st' /\ wgood_f (d_mem st') f a /\
               frameR (d_mem st) (d_mem st') (franges f a)) /\
  (forall fs sz st base, fields_wf sz fs -> fields_simple fs -> pairwise_disj (fsranges fs base) ->
   inv (d_mem st) (d_iov st) -> validb (lens (d_mem st)) base sz = true ->
   exists st', d_fields cfg_final fs st base = Ok st' /\ dpost st st' /\ wgood_fs (d_mem st') fs base /\
               frameR (d_mem st) (d_mem st') (fsranges fs base)).
Proof.
  (* the four buffer kinds: field_wf is 16 <= avail, field_simple is True, franges is the slot *)
  assert (Hbuf : forall avail st a, 16 <= avail -> True -> pairwise_disj [(a, 16)] -> inv (d_mem st) (d_iov st) -> validb (lens (d_mem st)) a avail = true ->
    exists st', d_buffer cfg_final st a = Ok st' /\ dpost st st' /\ slot_post (d_mem st') a /\ frameR (d_mem st) (d_mem st') [(a, 16)]).
  { intros avail st a Hw _ _. apply d_buffer_good. exact Hw. }
  apply field_fields_mut.
  - (* FFixed *) intros n avail st a Hw _ _ Hinv Hv. cbn [d_field field_wf wgood_f franges] in *.
    eexists. split; [reflexivity|]. split; [apply dpost_refl; auto|]. split; [|apply frameR_refl].
    apply (validb_sub' _ a avail); [eapply inv_wf; eauto|exact Hv|lia|lia].
  - exact Hbuf.
  - exact Hbuf.
  - intros n. exact Hbuf.
  - exact Hbuf.
  - (* FArr, elements without fields to process *)
    intros esz efs _ avail st a [Hw [Hesz _]] Hs _ Hinv Hv. cbn [field_simple] in Hs. cbn [d_field wgood_f franges].
    destruct (d_buffer_good st a avail Hw Hinv Hv) as [st1 [H1 [D1 [S1 F1]]]]. rewrite H1. cbn [bind].
    pose proof S1 as [p [n [Lp [Ln [Rn [Hp0 Hpn]]]]]]. rewrite Lp, Ln. cbn [bind].
    destruct (n / esz =? 0) eqn:Ec; [eauto 10|]. apply Z.eqb_neq in Ec.
    assert (Hn0 : n <> 0) by (intros ->; apply Ec; apply Z.div_0_l; lia).
    destruct (p =? 0) eqn:Ep; [apply Z.eqb_eq in Ep; specialize (Hp0 Ep); congruence|].
    rewrite Hs. eauto 10.
  - intros avail st a _ [].
  - intros avail st a _ [].
  - (* FNest *) intros fs IH avail st a Hw Hs Hd Hinv Hv. cbn [d_field field_wf field_simple wgood_f franges] in *. eapply IH; eauto.
  - (* FMap *) intros vsz vfs _ avail st a Hw _ _ Hinv Hv. cbn [d_field field_wf wgood_f franges] in *.
    destruct (d_buffer_good st a avail ltac:(lia) Hinv Hv) as [st1 [H1 [[Hi1 Hx1] [S1 F1]]]]. rewrite H1. cbn [bind].
    destruct (d_buffer_good st1 (a + 16) (avail - 16) ltac:(lia) Hi1) as [st2 [H2 [[Hi2 Hx2] [S2 F2]]]].
    { apply (validb_sub' _ a avail); [eapply inv_wf; eauto|eapply validb_ext; eauto|lia|lia]. }
    exists st2. split; [exact H2|]. split; [split; [exact Hi2|eapply ext_trans; eauto]|]. split.
    + split; [|exact S2]. apply (slot_post_frameR _ _ _ Hx2 F2); [exact S1|].
      intros r1 r2 [<-|[]] [<-|[]]. unfold disj. cbn [fst snd]. lia.
    + change [(a, 16); (a + 16, 16)] with ([(a, 16)] ++ [(a + 16, 16)]). eapply frameR_trans; eauto.
  - (* FNil *) intros sz st base _ _ _ Hinv _. cbn. eexists. split; [reflexivity|]. split; [apply dpost_refl; auto|]. split; [exact I|apply frameR_refl].
  - (* FCons *) intros off f IHf r IHr sz st base [Ho [Hwf Hwr]] [Hsf Hsr] Hd Hinv Hv.
    cbn [fsranges] in Hd. apply pairwise_disj_app in Hd. destruct Hd as [Hdf [Hdr Hdfr]].
    rewrite d_fields_cons.
    destruct (IHf (sz - off) st (base + off) Hwf Hsf Hdf Hinv) as [st1 [H1 [[Hi1 Hx1] [G1 F1]]]].
    { apply (validb_sub' _ base sz); [eapply inv_wf; eauto|exact Hv|lia|lia]. }
    rewrite H1. cbn [bind].
    destruct (IHr sz st1 base Hwr Hsr Hdr Hi1 ltac:(eapply validb_ext; eauto)) as [st2 [H2 [[Hi2 Hx2] [G2 F2]]]].
    exists st2. split; [exact H2|]. split; [split; [exact Hi2|eapply ext_trans; eauto]|].
    cbn [wgood_fs fsranges]. split; [split; [|exact G2]|eapply frameR_trans; eauto].
    apply (proj1 (wgood_stable _ _ _ Hx2 F2)); [exact G1|]. intros r1 r2 A B. apply Hdfr; auto.
Qed.

(* each of the two passes over the top-level fields is the field recursion over a sub-list *)
Lemma filt_ranges al base r : forall fs, In r (fsranges (filt al fs) base) -> In r (fsranges fs base).
Proof.
  induction fs as [|off f rest IH]; cbn [filt fsranges]; [auto|]. intros H. apply in_or_app.
  destruct (sel al f); [|right; auto]. cbn [fsranges] in H. apply in_app_or in H. destruct H; auto.
Qed.

Lemma filt_keeps al sz base : forall fs, fields_wf sz fs -> fields_simple fs -> pairwise_disj (fsranges fs base) ->
  fields_wf sz (filt al fs) /\ fields_simple (filt al fs) /\ pairwise_disj (fsranges (filt al fs) base).
Proof.
  induction fs as [|off f r IH]; [auto|]. intros [Ho [Hwf Hwr]] [Hsf Hsr] Hd.
  cbn [fsranges] in Hd. apply pairwise_disj_app in Hd. destruct Hd as [Hdf [Hdr Hdfr]].
  destruct (IH Hwr Hsr Hdr) as [A [B C]]. cbn [filt]. destruct (sel al f); [|auto].
  cbn [fields_wf fields_simple fsranges]. split; [auto|]. split; [auto|]. apply pairwise_disj_app.
  split; [exact Hdf|]. split; [exact C|]. intros x y Hx Hy. apply Hdfr; [exact Hx|]. eapply filt_ranges; eauto.
Qed.

Lemma filt_cross fs base : pairwise_disj (fsranges fs base) ->
  forall r1 r2, In r1 (fsranges (filt true fs) base) -> In r2 (fsranges (filt false fs) base) -> disj r1 r2.
Proof.
  induction fs as [|off f r IH]; cbn [filt fsranges]; [intros _ r1 r2 []|].
  intros Hd r1 r2 H1 H2. apply pairwise_disj_app in Hd. destruct Hd as [_ [Hdr Hdfr]].
  rewrite sel_compl in H1. destruct (sel false f); cbn [negb fsranges] in H1, H2.
  - apply in_app_or in H2. destruct H2 as [H2|H2]; [|apply IH; auto]. destruct (Hdfr r2 r1 H2 ltac:(eapply filt_ranges; eauto)); unfold disj; auto.
  - apply in_app_or in H1. destruct H1 as [H1|H1]; [|apply IH; auto]. apply Hdfr; [exact H1|eapply filt_ranges; eauto].
Qed.

Lemma wgood_filt_both m fs base : wgood_fs m (filt true fs) base -> wgood_fs m (filt false fs) base -> wgood_fs m fs base.
Proof.
  induction fs as [|off f r IH]; [auto|]. cbn [filt].
  rewrite sel_compl. destruct (sel false f); cbn [negb wgood_fs]; intros A B; split; try tauto; apply IH; tauto.
Qed.

Lemma slot_walk m a : Forall (fun L => L <= STRIDE) (lens m) -> slot_post m a ->
  exists p n bs, load64 m a = Ok p /\ load64 m (a + 8) = Ok n /\ load m p n = Ok bs /\ 0 <= n < W64 /\
                 (n <> 0 -> ptr_ok (lens m) p n).
Proof.
  intros Hwf [p [n [L1 [L2 [R [_ P]]]]]]. exists p, n.
  destruct (Z.eq_dec n 0) as [->|Hn].
  - exists []. split; [exact L1|]. split; [exact L2|]. split; [reflexivity|]. split; [exact R|]. intros H; congruence.
  - destruct (P Hn) as [A B]. destruct (load_valid _ _ _ A) as [bs Hb]. exists bs.
    split; [exact L1|]. split; [exact L2|]. split; [exact Hb|]. split; [exact R|]. intros _. exact (P Hn).
Qed.

Lemma walk_ok m : Forall (fun L => L <= STRIDE) (lens m) ->
  (forall f a, wgood_f m f a -> field_simple f -> exists it, w_field cfg_final f m a = Ok it) /\
  (forall fs base, wgood_fs m fs base -> fields_simple fs -> exists its, w_fields cfg_final fs m base = Ok its).
Proof.
  intros Hwf.
  assert (Hbuf : forall a, slot_post m a -> True -> exists it, w_field cfg_final FBuf m a = Ok it).
  { intros a H _. cbn [w_field]. destruct (slot_walk m a Hwf H) as [p [n [bs [L1 [L2 [L3 _]]]]]].
    rewrite L1, L2. cbn [bind]. rewrite L3. cbn. eauto. }
  apply field_fields_mut.
  - intros n a H _. cbn [wgood_f w_field] in *. destruct (load_valid _ _ _ H) as [bs Hb]. rewrite Hb. cbn. eauto.
  - exact Hbuf.
  - (* FStr: bytes, then sv() *)
    intros a H _. cbn [wgood_f w_field] in *. destruct (slot_walk m a Hwf H) as [p [n [bs [L1 [L2 [L3 [R P]]]]]]].
    rewrite L1, L2. cbn [bind]. rewrite L3. cbn [bind].
    unfold sv_of. cbn [fix_sv cfg_final]. destruct (n =? 0) eqn:E; cbn [andb].
    + cbn. eauto.
    + apply Z.eqb_neq in E. destruct (P E) as [A _]. rewrite wrap_small by lia.
      destruct (load_valid m p (n - 1)) as [sv Hsv]; [apply (validb_sub' _ p n); auto; lia|]. rewrite Hsv. cbn. eauto.
  - intros n. exact Hbuf.
  - exact Hbuf.
  - intros esz efs _ a H Hs. cbn [wgood_f w_field field_simple] in *.
    destruct (slot_walk m a Hwf H) as [p [n [bs [L1 [L2 [L3 _]]]]]].
    rewrite L1, L2. cbn [bind]. rewrite L3. cbn [bind]. rewrite Hs. eauto.
  - intros a _ [].
  - intros a _ [].
  - intros fs IH a H Hs. cbn [wgood_f field_simple] in *. rewrite w_field_nest. destruct (IH a H Hs) as [its Hi]. rewrite Hi. cbn. eauto.
  - intros vsz vfs _ a [H1 H2] _. cbn [w_field].
    destruct (slot_walk m a Hwf H1) as [p [n [bs [L1 [L2 [L3 _]]]]]].
    destruct (slot_walk m (a + 16) Hwf H2) as [p2 [n2 [bs2 [M1 [M2 [M3 _]]]]]].
    replace (a + 16 + 8) with (a + 24) in M2 by lia.
    rewrite L1, L2. cbn [bind]. rewrite L3. cbn [bind]. rewrite M1, M2. cbn [bind]. rewrite M3. cbn. eauto.
  - intros base _ _. cbn. eauto.
  - intros off f IHf r IHr base [H1 H2] [S1 S2]. rewrite w_fields_cons.
    destruct (IHf _ H1 S1) as [it Hi]. destruct (IHr _ H2 S2) as [its His]. rewrite Hi. cbn [bind]. rewrite His. cbn. eauto.
Qed.

Section H.
  Variable hstep : Z -> byte -> Z.

  Theorem deserialize_fields_in_bounds_partial sh m v :
    shape_wf sh -> fields_simple (sh_fields sh) -> (forall base, pairwise_disj (fsranges (sh_fields sh) base)) -> inv m v ->
    exists t st, deserialize hstep cfg_final sh m v = Ok (t, st) /\
      (t <> 0 -> ptr_ok (lens (d_mem st)) t (sh_size sh) /\
                 wgood_fs (d_mem st) (sh_fields sh) t /\
                 exists its, w_fields cfg_final (sh_fields sh) (d_mem st) t = Ok its).
  Proof.
    intros Hsh Hsimple Hdisj Hinv.
    destruct (deserialize_body hstep sh m v Hsh Hinv) as [[st [E _]]|[t [m2 [v1 [Hi2 [_ [[P1 P23] E]]]]]]].
    { exists 0, st. split; [exact E|congruence]. }
    destruct Hsh as [_ [Hwf _]]. rewrite E.
    rewrite d_pass_filt.
    destruct (filt_keeps true _ t _ Hwf Hsimple (Hdisj t)) as [Wt [St Dt]].
    destruct (filt_keeps false _ t _ Hwf Hsimple (Hdisj t)) as [Wf [Sf Df]].
    destruct (proj2 q_all _ (sh_size sh) (mkD m2 v1 false) t Wt St Dt Hi2 P1) as [st1 [H1 [[Hi3 Hx3] [G1 F1]]]].
    rewrite H1. cbn [bind]. rewrite d_pass_filt. cbn [d_mem] in Hx3, F1.
    assert (Hv3 : validb (lens (d_mem st1)) t (sh_size sh) = true) by (eapply validb_ext; eauto).
    destruct (proj2 q_all _ (sh_size sh) st1 t Wf Sf Df Hi3 Hv3) as [st2 [H2 [[Hi4 Hx4] [G2 F2]]]].
    rewrite H2. cbn [bind].
    eexists. eexists. split; [reflexivity|].
    destruct (d_failed st2); [congruence|]. intros _.
    assert (Hv4 : validb (lens (d_mem st2)) t (sh_size sh) = true) by (eapply validb_ext; eauto).
    split; [split; [exact Hv4|auto]|].
    assert (G : wgood_fs (d_mem st2) (sh_fields sh) t).
    { apply wgood_filt_both; [|exact G2].
      apply (proj2 (wgood_stable _ _ _ Hx4 F2)); [exact G1|]. apply filt_cross. apply Hdisj. }
    split; [exact G|]. apply (proj2 (walk_ok (d_mem st2) (inv_wf _ _ Hi4))); auto.
  Qed.
End H.

(* the hypotheses are met by ordinary layouts, e.g. CheckedMessage{int a; string s; buffer b} of the harness (T10) *)
Example t10_shape_ok :
  let sh := mkShape 40 true (FCons 4 (FFixed 4) (FCons 8 FStr (FCons 24 FBuf FNil))) in
  shape_wf sh /\ fields_simple (sh_fields sh) /\ (forall base, pairwise_disj (fsranges (sh_fields sh) base)).
Proof.
  cbn. split; [|split].
  - unfold shape_wf. cbn. repeat split; lia.
  - tauto.
  - intros base. cbn. repeat split; try tauto. intros y [<-|[]]. unfold disj. cbn. lia.
Qed.
