(* C12_Hb.v — deser_in_bounds on HOSTILE input, step lemmas.  No sender: the lengths found in the body
   are arbitrary, an extraction may fail.  Invariant HR: claimed ranges (body, every extracted buffer,
   every recorded iovec piece, every iovec-array slot) pairwise separated, separated from every
   remaining input element, readable.  hpost adds
   PROVENANCE: every newly claimed range lies inside an element of the input vector or inside an
   allocation slot made since (orig), and the remaining elements lie inside the old ones. *)
From Coq Require Import ZArith List Bool Lia.
From PV Require Import Base.U64 C12.C12_Model C12.C12_Mem C12.C12_MemC C12.C12_Iov C12.C12_Flat C12.C12_Deser C12.C12_Sep C12.C12_Wire C12.C12_RtD C12.C12_Hx C12.C12_View.
Import ListNotations.
Local Open Scope Z_scope.

Definition HR (m : mem) (v : iovs) (Own : list (Z * Z)) : Prop :=
  inv m v /\ psep (i_el v) /\ psep Own /\
  (forall e c, In e (i_el v) -> In c Own -> sep e c) /\
  (forall c, In c Own -> validb (lens m) (fst c) (snd c) = true).

Lemma HR_valid m v Own c x k : HR m v Own -> In c Own -> within (x, k) c -> validb (lens m) x k = true.
Proof.
  intros [Hinv [_ [_ [_ HvO]]]] Hc W. unfold within in W. cbn [fst snd] in W.
  apply (validb_sub' _ (fst c) (snd c)); [exact (inv_wf _ _ Hinv)|exact (HvO c Hc)|lia|lia].
Qed.

(* the state the field passes start from: the body, just extracted from the back, is the only claimed range *)
Lemma HR_body m v n t m1 v1 got rest m2 : xpost m v n t m1 v1 got rest -> inv m2 v1 -> lens m2 = lens m1 ->
  HR m2 v1 [(t, n)].
Proof.
  intros [_ [_ [_ [_ [[Pv _] [_ [_ [Ps1 [_ [Sp1 _]]]]]]]]]] Hi2 Hl2.
  split; [exact Hi2|]. split; [exact Ps1|]. split; [split; [intros y []|exact I]|].
  split; [intros e c He [<-|[]]; apply Sp1; exact He|]. intros c [<-|[]]. rewrite Hl2. exact Pv.
Qed.

Definition hpost (st st' : dst) (Own new W : list (Z * Z)) : Prop :=
  HR (d_mem st') (d_iov st') (Own ++ new) /\ ext (lens (d_mem st)) (lens (d_mem st')) /\
  prov (i_el (d_iov st')) (i_el (d_iov st)) /\
  (forall c, In c new -> orig (i_el (d_iov st)) (len (d_mem st)) (lens (d_mem st')) c) /\
  frameO (d_mem st) (d_mem st') Own W.

Lemma hpost_refl st Own W : HR (d_mem st) (d_iov st) Own -> hpost st st Own [] W.
Proof.
  intros H. unfold hpost. rewrite app_nil_r. split; [exact H|]. split; [apply ext_refl|]. split; [apply prov_refl|].
  split; [intros c []|apply frameO_refl].
Qed.

Lemma hpost_trans st st1 st2 Own new1 new2 W1 W2 :
  hpost st st1 Own new1 W1 -> hpost st1 st2 (Own ++ new1) new2 W2 -> hpost st st2 Own (new1 ++ new2) (W1 ++ W2).
Proof.
  intros [H1 [X1 [P1 [O1 F1]]]] [H2 [X2 [P2 [O2 F2]]]]. unfold hpost.
  split; [rewrite app_assoc; exact H2|]. split; [eapply ext_trans; eauto|]. split; [eapply prov_trans; eauto|].
  split.
  { intros c Hc. apply in_app_or in Hc. destruct Hc as [Hc|Hc].
    - eapply orig_ext; [exact X2|]. apply O1. exact Hc.
    - eapply orig_prov; [exact P1| |apply O2; exact Hc]. pose proof (ext_len _ _ X1) as L. rewrite !len_lens in L. exact L. }
  intros x k [c [Hc Wc]] Hs. rewrite F2.
  - apply F1; [exists c; auto|]. intros r Hr. apply Hs. apply in_or_app. left. exact Hr.
  - exists c. split; [apply in_or_app; left; exact Hc|exact Wc].
  - intros r Hr. apply Hs. apply in_or_app. right. exact Hr.
Qed.

Lemma hpost_weaken st st' Own new W W' : hpost st st' Own new W ->
  (forall r, In r W -> exists r', In r' W' /\ within r r') -> hpost st st' Own new W'.
Proof.
  intros [H1 [X1 [P1 [O1 F1]]]] HW. unfold hpost. split; [exact H1|]. split; [exact X1|]. split; [exact P1|]. split; [exact O1|].
  intros x k Hc Hs. apply F1; [exact Hc|]. intros r Hr. destruct (HW r Hr) as [r' [Hr' Wr]].
  eapply sep_sub_r; [apply Hs; exact Hr'|exact Wr].
Qed.

(* a write confined to W, inside what is already claimed, changes nothing the invariant speaks of *)
Lemma hpost_store m v fl m' Own W : HR m v Own -> inv m' v -> lens m' = lens m ->
  (forall x k, sep (x, k) W -> load m' x k = load m x k) -> hpost (mkD m v fl) (mkD m' v fl) Own [] [W].
Proof.
  intros [_ [Hpe [HpO [HeO HvO]]]] Hi Hl Fr. unfold hpost. cbn [d_mem d_iov]. rewrite app_nil_r. split.
  { split; [exact Hi|]. split; [exact Hpe|]. split; [exact HpO|]. split; [exact HeO|]. rewrite Hl. exact HvO. }
  split; [rewrite Hl; apply ext_refl|]. split; [apply prov_refl|]. split; [intros c []|].
  intros x k _ Hs. apply Fr. apply Hs. left. reflexivity.
Qed.

(* process_field(buffer&) on arbitrary bytes, against the byte string w0 the input denotes: it sets
   `failed` only for want of input or of an allocation slot; otherwise the slot's bytes are the next n of w0 *)
Lemma d_buffer_cases st a st' Own c0 w0 :
  HR (d_mem st) (d_iov st) Own -> In c0 Own -> within (a, 16) c0 ->
  flat (d_mem st) (i_el (d_iov st)) = Ok w0 ->
  d_buffer cfg_final st a = Ok st' ->
  exists n, load64 (d_mem st) (a + 8) = Ok n /\
    (d_failed st' = true /\ (len w0 < n \/ i_cap (d_iov st) <= i_nb (d_iov st)) \/
     d_failed st' = d_failed st /\ i_cap (d_iov st') = i_cap (d_iov st) /\ i_nb (d_iov st') <= i_nb (d_iov st) + 1 /\
     exists new p, hpost st st' Own new [(a, 16)] /\
       load64 (d_mem st') a = Ok p /\ load64 (d_mem st') (a + 8) = Ok n /\ 0 <= n < W64 /\
       (n = 0 /\ new = [] \/ new = [(p, n)] /\ p <> 0 /\ n <> 0) /\
       flat (d_mem st') (i_el (d_iov st')) = Ok (skipn (Z.to_nat n) w0) /\
       load (d_mem st') p n = Ok (firstn (Z.to_nat n) w0)).
Proof.
  destruct st as [m v fl]. cbn [d_mem d_iov d_failed].
  intros HR0 Hc0 Wa Hf Hrun. pose proof HR0 as [Hinv [Hpe [HpO [HeO HvO]]]].
  pose proof (inv_wf _ _ Hinv) as Hwf. pose proof (inv_bytes _ _ Hinv) as Hbm.
  pose proof (HR_valid _ _ _ _ _ _ HR0 Hc0 Wa) as Hv16.
  assert (Hva : validb (lens m) a 8 = true) by (apply (validb_sub' _ a 16); auto; lia).
  assert (Hvb : validb (lens m) (a + 8) 8 = true) by (apply (validb_sub' _ a 16); auto; lia).
  destruct (load64_ok m (a + 8) Hbm Hvb) as [n [En Rn]]. exists n. split; [exact En|].
  (* a word stored at a leaves every load off the slot alone *)
  assert (Hst : forall m1 m2 p, store64 m1 a p = Ok m2 -> forall x k, sep (x, k) (a, 16) -> load m2 x k = load m1 x k).
  { intros m1 m2 p Hs x k S. unfold store64 in Hs. apply (load_store_sep _ _ _ _ _ _ Hs). rewrite le_enc_len.
    eapply sep_sub_r; [exact S|]. unfold within. cbn. lia. }
  revert Hrun. unfold d_buffer. cbn [d_mem d_iov d_failed fix_zero_ptr fix_fail_len cfg_final]. rewrite En. cbn [bind].
  destruct (n =? 0) eqn:E0.
  - apply Z.eqb_eq in E0. subst n.
    destruct (store64_ok m v a 0 Hinv Hva) as [m1 [Hs [Hi1 Hl1]]]. rewrite Hs. cbn [bind].
    intros Hrun. inversion Hrun. subst st'. cbn [d_mem d_iov d_failed] in *. right.
    split; [reflexivity|]. split; [reflexivity|]. split; [lia|]. exists [], 0.
    split; [exact (hpost_store m v fl m1 Own (a, 16) HR0 Hi1 Hl1 (Hst _ _ _ Hs))|].
    split; [eapply load64_store64_same; eauto; unfold W64; lia|].
    split; [rewrite (load64_store_other _ _ _ _ _ Hs); [exact En|rewrite le_enc_len; right; lia]|].
    split; [unfold W64; lia|]. split; [left; auto|]. cbn [Z.to_nat skipn firstn]. split; [|apply load_nonpos; lia].
    rewrite (flat_frame m m1 (a, 16) (i_el v) (Hst _ _ _ Hs)); [exact Hf|].
    intros e He. eapply sep_sub_r; [apply (HeO e c0 He Hc0)|exact Wa].
  - apply Z.eqb_neq in E0.
    destruct (efc_h m v n w0 Hinv ltac:(lia) Hpe Hf) as [p [m1 [v1 [He X]]]]. rewrite He. cbn [bind].
    destruct X as [[-> [-> [-> Hwhy]]]|X].
    + (* the extraction failed: `failed` is set *)
      destruct (store64 m a 0) as [m2|]; cbn [bind]; [|discriminate]. rewrite Z.eqb_refl.
      destruct (store64 m2 (a + 8) 0) as [m3|]; cbn [bind]; [|discriminate].
      intros Hrun. inversion Hrun. subst st'. left. split; [reflexivity|exact Hwhy].
    + pose proof X as [Hi1 [Hx1 [Hc1 [Hn1 [[Pv [Pp Pw]] [Lp [Fl1 [Ps1 [Pr1 [Sp1 [Fr1 _]]]]]]]]]]].
      assert (Hva1 : validb (lens m1) a 8 = true) by (eapply validb_ext; eauto).
      destruct (store64_ok m1 v1 a p Hi1 Hva1) as [m2 [Hs2 [Hi2 Hl2]]]. rewrite Hs2. cbn [bind].
      destruct (p =? 0) eqn:Ep; [apply Z.eqb_eq in Ep; lia|]. apply Z.eqb_neq in Ep.
      intros Hrun. inversion Hrun. subst st'. cbn [d_mem d_iov d_failed] in *. right.
      assert (HsepO : forall c, In c Own -> sep (p, n) c /\ (forall e, In e (i_el v1) -> sep e c)).
      { intros c Hc. apply (xpost_sep _ _ _ _ _ _ _ _ c X Hwf (HvO c Hc)). intros e He'. apply HeO; auto. }
      split; [reflexivity|]. split; [exact Hc1|]. split; [lia|]. exists [(p, n)], p. split.
      { unfold hpost. cbn [d_mem d_iov]. split.
        { split; [exact Hi2|]. split; [exact Ps1|]. split.
          { apply psep_app. split; [exact HpO|]. split; [split; [intros y []|exact I]|].
            intros x y Hx [<-|[]]. apply sep_sym. apply (proj1 (HsepO x Hx)). }
          split.
          { intros e c He' Hc. apply in_app_or in Hc. destruct Hc as [Hc|[<-|[]]]; [apply (proj2 (HsepO c Hc)); exact He'|apply Sp1; exact He']. }
          intros c Hc. rewrite Hl2. apply in_app_or in Hc. destruct Hc as [Hc|[<-|[]]]; [eapply validb_ext; eauto|exact Pv]. }
        split; [rewrite Hl2; exact Hx1|]. split; [exact Pr1|].
        split; [intros c [<-|[]]; rewrite Hl2; apply (xpost_orig _ _ _ _ _ _ _ _ X); lia|].
        intros x k [c [Hc Wc]] Hsx. rewrite (Hst _ _ _ Hs2) by (apply Hsx; left; reflexivity).
        apply Fr1. exact (HR_valid _ _ _ _ _ _ HR0 Hc Wc). }
      split; [eapply load64_store64_same; eauto; lia|].
      split.
      { rewrite (load64_store_other _ _ _ _ _ Hs2); [|rewrite le_enc_len; right; lia].
        unfold load64. rewrite (Fr1 _ _ Hvb). exact En. }
      split; [exact Rn|]. split; [right; auto|]. split.
      * rewrite (flat_frame m1 m2 (a, 16) (i_el v1) (Hst _ _ _ Hs2)); [exact Fl1|].
        intros e He'. eapply sep_sub_r; [apply (proj2 (HsepO c0 Hc0)); exact He'|exact Wa].
      * rewrite (Hst _ _ _ Hs2); [exact Lp|]. eapply sep_sub_r; [apply (proj1 (HsepO c0 Hc0))|exact Wa].
Qed.

Lemma d_buffer_h st a st' Own c0 :
  HR (d_mem st) (d_iov st) Own -> In c0 Own -> within (a, 16) c0 ->
  d_buffer cfg_final st a = Ok st' -> d_failed st' = false ->
  exists new p n, hpost st st' Own new [(a, 16)] /\
    load64 (d_mem st') a = Ok p /\ load64 (d_mem st') (a + 8) = Ok n /\ 0 <= n < W64 /\
    (n = 0 /\ new = [] \/ new = [(p, n)] /\ p <> 0 /\ n <> 0).
Proof.
  intros HR0 Hc0 Wa Hrun Hnf. pose proof HR0 as [[_ [_ [Hel _]]] _].
  destruct (flat_total _ _ Hel) as [w0 Hf].
  destruct (d_buffer_cases st a st' Own c0 w0 HR0 Hc0 Wa Hf Hrun) as [n [_ [[Hft _]|[_ [_ [_ [new [p [HP [L1 [L2 [Rn [Hnew _]]]]]]]]]]]]]; [congruence|].
  exists new, p, n. auto.
Qed.

Lemma store3 m v a x y z : inv m v -> validb (lens m) a 24 = true -> 0 <= x < W64 -> 0 <= y < W64 -> 0 <= z < W64 ->
  exists m2 m3 m4, store64 m a x = Ok m2 /\ store64 m2 (a + 8) y = Ok m3 /\ store64 m3 (a + 16) z = Ok m4 /\
    inv m4 v /\ lens m4 = lens m /\ load64 m4 a = Ok x /\ load64 m4 (a + 8) = Ok y /\ load64 m4 (a + 16) = Ok z /\
    (forall r k, sep (r, k) (a, 24) -> load m4 r k = load m r k).
Proof.
  intros Hinv Hv Hx Hy Hz. pose proof (inv_wf _ _ Hinv) as Hwf.
  assert (Hv0 : validb (lens m) a 8 = true) by (apply (validb_sub' _ a 24); auto; lia).
  assert (Hv1 : validb (lens m) (a + 8) 8 = true) by (apply (validb_sub' _ a 24); auto; lia).
  assert (Hv2 : validb (lens m) (a + 16) 8 = true) by (apply (validb_sub' _ a 24); auto; lia).
  destruct (store64_ok m v a x Hinv Hv0) as [m2 [H2 [Hi2 Hl2]]].
  destruct (store64_ok m2 v (a + 8) y Hi2 ltac:(rewrite Hl2; exact Hv1)) as [m3 [H3 [Hi3 Hl3]]].
  destruct (store64_ok m3 v (a + 16) z Hi3 ltac:(rewrite Hl3, Hl2; exact Hv2)) as [m4 [H4 [Hi4 Hl4]]].
  exists m2, m3, m4. split; [exact H2|]. split; [exact H3|]. split; [exact H4|]. split; [exact Hi4|]. split; [congruence|].
  split.
  { rewrite (load64_store_other _ _ _ _ _ H4) by (rewrite le_enc_len; left; lia).
    rewrite (load64_store_other _ _ _ _ _ H3) by (rewrite le_enc_len; left; lia).
    eapply load64_store64_same; eauto. }
  split.
  { rewrite (load64_store_other _ _ _ _ _ H4) by (rewrite le_enc_len; left; lia).
    eapply load64_store64_same; eauto. }
  split; [eapply load64_store64_same; eauto|].
  intros r k S. unfold store64 in *.
  assert (S8 : forall o, 0 <= o <= 16 -> sep (r, k) (a + o, len (le_enc 8 0))).
  { intros o Ho. rewrite le_enc_len. unfold sep in *. cbn [fst snd] in *. change (Z.of_nat 8) with 8. lia. }
  rewrite (load_store_sep _ _ _ _ _ _ H4) by (rewrite le_enc_len; rewrite le_enc_len in S8; apply (S8 16); lia).
  rewrite (load_store_sep _ _ _ _ _ _ H3) by (rewrite le_enc_len; rewrite le_enc_len in S8; apply (S8 8); lia).
  apply (load_store_sep _ _ _ _ _ _ H2). rewrite le_enc_len. rewrite le_enc_len in S8. specialize (S8 0 ltac:(lia)). rewrite Z.add_0_r in S8. exact S8.
Qed.

(* the successful outcome, relative to the byte string w0 the remaining input denotes *)
Definition iov_ok (st : dst) (a : Z) (st' : dst) (Own : list (Z * Z)) (w0 : list byte) : Prop :=
  d_failed st' = d_failed st /\ i_cap (d_iov st') = i_cap (d_iov st) /\ i_nb (d_iov st') <= i_nb (d_iov st) + 1 /\
  exists new S, hpost st st' Own new [(a, 24)] /\ 0 <= S <= len w0 /\
    (i_nb (d_iov st) < i_cap (d_iov st) -> load64 (d_mem st) (a + 16) = Ok S) /\
    flat (d_mem st') (i_el (d_iov st')) = Ok (skipn (Z.to_nat S) w0) /\
    exists F, rd_f FIov (d_mem st') a = Ok (VIov S (firstn (Z.to_nat S) w0), firstn (Z.to_nat S) w0, F) /\ fpok F [(a, 24)] new.

(* the empty result (0, 0, 0) can always be written to the slot; nothing is claimed, nothing consumed *)
Lemma iovarr_empty m v fl a Own c0 w0 :
  HR m v Own -> In c0 Own -> within (a, 24) c0 -> flat m (i_el v) = Ok w0 ->
  (i_nb v < i_cap v -> load64 m (a + 16) = Ok 0) ->
  exists m2 m3 m4, store64 m a 0 = Ok m2 /\ store64 m2 (a + 8) 0 = Ok m3 /\ store64 m3 (a + 16) 0 = Ok m4 /\
    iov_ok (mkD m v fl) a (mkD m4 v fl) Own w0.
Proof.
  intros HR0 Hc0 Wa Hf Hsz. assert (H0 : 0 <= 0 < W64) by (unfold W64; lia).
  destruct (store3 m v a 0 0 0 (proj1 HR0) (HR_valid _ _ _ _ _ _ HR0 Hc0 Wa) H0 H0 H0) as [m2 [m3 [m4 [S2 [S3 [S4 [Hi4 [Hl4 [L0 [L1 [L2 Fr]]]]]]]]]]].
  exists m2, m3, m4. split; [exact S2|]. split; [exact S3|]. split; [exact S4|]. unfold iov_ok. cbn [d_mem d_iov d_failed].
  split; [reflexivity|]. split; [reflexivity|]. split; [lia|]. exists [], 0.
  split; [exact (hpost_store m v fl m4 Own (a, 24) HR0 Hi4 Hl4 Fr)|].
  split; [pose proof (len_nonneg w0); lia|]. split; [exact Hsz|].
  split.
  { cbn [Z.to_nat skipn]. rewrite (flat_frame m m4 (a, 24) (i_el v) Fr); [exact Hf|].
    destruct HR0 as [_ [_ [_ [HeO _]]]]. intros e He. eapply sep_sub_r; [apply (HeO e c0 He Hc0)|exact Wa]. }
  exists [(a, 24); (0, 0)]. split.
  { cbn [rd_f Z.to_nat firstn]. rewrite L0. cbn [bind]. rewrite L1. cbn [bind]. rewrite L2. cbn [bind]. reflexivity. }
  intros r [<-|[<-|[]]]; [|left; cbn; lia]. right. left. exists (a, 24). split; [left; reflexivity|apply within_refl].
Qed.

Lemma d_iovarr_cases st a st' Own c0 w0 :
  HR (d_mem st) (d_iov st) Own -> In c0 Own -> within (a, 24) c0 ->
  flat (d_mem st) (i_el (d_iov st)) = Ok w0 ->
  d_iovarr st a = Ok st' ->
  (d_failed st' = true /\ exists S, load64 (d_mem st) (a + 16) = Ok S /\ (len w0 < S \/ i_cap (d_iov st) <= i_nb (d_iov st))) \/
  iov_ok st a st' Own w0.
Proof.
  destruct st as [m v fl]. unfold iov_ok. cbn [d_mem d_iov d_failed].
  intros HR0 Hc0 Wa Hf Hrun. pose proof HR0 as [Hinv [Hpe [HpO [HeO HvO]]]].
  pose proof (inv_wf _ _ Hinv) as Hwf. pose proof (inv_bytes _ _ Hinv) as Hbm.
  pose proof Hinv as [_ [_ [Hel [Hsum [Hnb [Hroom Hcnt]]]]]].
  pose proof (flat_len _ _ _ Hel Hf) as Hlw. pose proof (len_nonneg w0) as Hw0.
  pose proof (HR_valid _ _ _ _ _ _ HR0 Hc0 Wa) as Hv24.
  assert (Hv2 : validb (lens m) (a + 16) 8 = true) by (apply (validb_sub' _ a 24); auto; lia).
  destruct (load64_ok m (a + 16) Hbm Hv2) as [summed [Es Rs]].
  unfold d_iovarr in Hrun. cbn [d_mem d_iov d_failed] in Hrun. rewrite Es in Hrun. cbn [bind] in Hrun. revert Hrun.
  destruct (Z.eq_dec summed 0) as [->|Hs0].
  { unfold extract_front_view. rewrite Z.eqb_refl. cbn [bind]. rewrite wrap_small by (unfold W64; lia). rewrite Z.eqb_refl.
    change (0 * 16) with 0. rewrite (load_nonpos m 0 0) by lia. cbn [bind].
    destruct (iovarr_empty m v fl a Own c0 w0 HR0 Hc0 Wa Hf (fun _ => Es)) as [m2 [m3 [m4 [S2 [S3 [S4 Hok]]]]]].
    rewrite S2. cbn [bind]. rewrite S3. cbn [bind]. rewrite S4. cbn [bind].
    intros Hrun. inversion Hrun. subst st'. right. exact Hok. }
  destruct (efv_spec m v summed w0 Hinv ltac:(lia) Hpe Hf) as [ret [ptr [cnt [m1 [v1 [He [Hi1 [Hx1 Hcase]]]]]]]].
  rewrite He. cbn [bind].
  destruct Hcase as [[-> [-> [-> [-> [-> Hcapf]]]]]|[Hret [Hptr Hvp]]].
  { (* allocation failure *)
    destruct (wrap (-1) =? summed).
    2:{ intros Hrun; inversion Hrun; subst st'; cbn [d_failed]. left. split; [reflexivity|]. exists summed. auto. }
    change (0 * 16) with 0. rewrite (load_nonpos m 0 0) by lia. cbn [bind]. rewrite Z.eqb_refl.
    destruct (iovarr_empty m v fl a Own c0 w0 HR0 Hc0 Wa Hf ltac:(intros Hc; exfalso; lia)) as [m2 [m3 [m4 [S2 [S3 [S4 Hok]]]]]].
    rewrite S2. cbn [bind]. rewrite S3. cbn [bind]. rewrite S4. cbn [bind].
    intros Hrun. inversion Hrun. subst st'. right. exact Hok. }
  assert (Hret2 : 0 <= ret <= INT_MAX) by lia.
  rewrite wrap_small by (unfold INT_MAX, W64 in *; lia).
  destruct (ret =? summed) eqn:Er.
  2:{ apply Z.eqb_neq in Er. intros Hrun; inversion Hrun; subst st'; cbn [d_failed]. left. split; [reflexivity|]. exists summed. split; [exact Es|]. left. lia. }
  apply Z.eqb_eq in Er.
  destruct (Hvp ltac:(lia)) as [out [Hcnt' [Hcpos [Hl1 [_ [Hcap1 [Hnb1 [Fr1 [Helo [Hpo [Hpv [Ps1 [Pr1 [Hso [Hrd [Hfl1 [Hlo Hcapnb]]]]]]]]]]]]]]]]].
  pose proof (inv_wf _ _ Hi1) as Hwf1.
  assert (Hvs : validb (lens m1) ptr (cnt * 16) = true).
  { rewrite Hl1, Hptr, <- (len_lens m). apply (validb_sub' _ (region_base (len (lens m))) (16 * len (i_el v))).
    - rewrite <- Hl1. exact Hwf1.
    - apply validb_fresh. pose proof (len_nonneg (i_el v)). lia.
    - lia.
    - lia. }
  destruct (load_valid _ _ _ Hvs) as [pcs Hpcs]. rewrite Hpcs. cbn [bind].
  pose proof (len_nonneg m) as Hlm.
  destruct (region_base_bound (len m) ltac:(lia)) as [B1 B2].
  assert (Hv24' : validb (lens m1) a 24 = true) by (eapply validb_ext; eauto).
  destruct (store3 m1 v1 a ptr (cnt * 16) (if cnt =? 0 then 0 else summed) Hi1 Hv24') as [m2 [m3 [m4 [S2 [S3 [S4 [Hi4 [Hl4 [L0 [L1 [L2 Fr4]]]]]]]]]]].
  { unfold STRIDE, W64 in *. lia. }
  { unfold W64. lia. }
  { destruct (cnt =? 0); [unfold W64; lia|exact Rs]. }
  rewrite S2. cbn [bind]. rewrite S3. cbn [bind]. rewrite S4. cbn [bind].
  intros Hrun. inversion Hrun. subst st'. cbn [d_mem d_iov d_failed] in *. right.
  split; [reflexivity|]. split; [exact Hcap1|]. split; [lia|].
  destruct (cnt =? 0) eqn:Ec0; [apply Z.eqb_eq in Ec0; lia|].
  set (slot := (ptr, cnt * 16)).
  (* separation facts *)
  assert (Hfresh : forall x k, validb (lens m) x k = true -> sep (x, k) slot).
  { intros x k Hv. unfold slot. rewrite Hptr, <- (len_lens m). apply fresh_sep; auto. }
  assert (HvEl : forall e, In e (i_el v) -> validb (lens m) (fst e) (snd e) = true).
  { intros e He'. rewrite Forall_forall in Hel. destruct (Hel e He') as [_ [Hv _]]. exact Hv. }
  assert (HvOut : forall o, In o out -> validb (lens m) (fst o) (snd o) = true).
  { intros o Ho. rewrite Forall_forall in Helo. destruct (Helo o Ho) as [_ [Hv _]]. exact Hv. }
  assert (Hsl_out : forall o, In o out -> sep slot o).
  { intros o Ho. apply sep_sym. destruct o as [ob on]. apply Hfresh. apply (HvOut (ob, on) Ho). }
  assert (Hout_own : forall o c, In o out -> In c Own -> sep o c).
  { intros o c Ho Hc. destruct (Hpv o Ho) as [e [He' We]]. eapply within_sep; [exact We|]. apply HeO; auto. }
  assert (Hel1_own : forall e c, In e (i_el v1) -> In c Own -> sep e c).
  { intros e c He' Hc. destruct (Pr1 e He') as [e0 [H0' We]]. eapply within_sep; [exact We|]. apply HeO; auto. }
  assert (Hel1_slot : forall e, In e (i_el v1) -> sep e slot).
  { intros e He'. destruct (Pr1 e He') as [e0 [H0' We]]. eapply within_sep; [exact We|]. destruct e0 as [eb en]. apply Hfresh. apply (HvEl (eb, en) H0'). }
  assert (Hslot_own : forall c, In c Own -> sep c slot).
  { intros c Hc. destruct c as [cb cn]. apply Hfresh. apply (HvO (cb, cn) Hc). }
  exists (slot :: out), summed. split.
  { unfold hpost. cbn [d_mem d_iov]. split.
    { split; [exact Hi4|]. split; [exact Ps1|]. split.
      { apply psep_app. split; [exact HpO|]. split.
        - split; [intros y Hy; apply Hsl_out; exact Hy|exact Hpo].
        - intros x y Hx [<-|Hy]; [apply Hslot_own; exact Hx|apply sep_sym; apply Hout_own; auto]. }
      split.
      { intros e c He' Hc. apply in_app_or in Hc. destruct Hc as [Hc|[<-|Hc]].
        - apply Hel1_own; auto.
        - apply Hel1_slot; auto.
        - apply sep_sym. apply Hso; auto. }
      intros c Hc. rewrite Hl4. apply in_app_or in Hc. destruct Hc as [Hc|[<-|Hc]].
      - eapply validb_ext; [exact Hx1|]. apply HvO. exact Hc.
      - exact Hvs.
      - eapply validb_ext; [exact Hx1|]. apply HvOut. exact Hc. }
    split; [rewrite Hl4; exact Hx1|]. split; [exact Pr1|].
    split.
    { intros c [<-|Hc].
      - right. exists (len m), (16 * len (i_el v)). split; [lia|]. split.
        + rewrite Hl4, Hl1, <- (len_lens m). apply nth_z_app_last.
        + unfold slot, within. cbn [fst snd]. rewrite Hptr. lia.
      - left. apply Hpv. exact Hc. }
    intros x k [c [Hc Wc]] Hsx. rewrite Fr4 by (apply Hsx; left; reflexivity).
    apply Fr1. exact (HR_valid _ _ _ _ _ _ HR0 Hc Wc). }
  split; [lia|]. split; [intros _; exact Es|].
  split.
  { rewrite (flat_frame m1 m4 (a, 24) (i_el v1) Fr4); [exact Hfl1|].
    intros e He'. eapply sep_sub_r; [apply (Hel1_own e c0 He' Hc0)|exact Wa]. }
  (* reading the iovec array back *)
  assert (Hc24 : sep slot (a, 24)).
  { apply sep_sym. eapply within_sep; [exact Wa|]. apply Hslot_own. exact Hc0. }
  assert (Hrd4 : rd_iovecs m4 ptr (length out) = Ok (firstn (Z.to_nat summed) w0, out)).
  { apply (rd_iovecs_stable m1 m4 (length out) ptr slot _ Hrd).
    - intros x k Wx. apply Fr4. eapply within_sep; [exact Wx|exact Hc24].
    - unfold slot, within. cbn [fst snd]. rewrite Hcnt'. unfold len. lia.
    - cbn [snd]. intros r Hr x k Wx. apply Fr4. eapply within_sep; [exact Wx|].
      apply sep_sym. eapply within_sep; [exact Wa|]. apply sep_sym. apply Hout_own; auto. }
  exists ((a, 24) :: slot :: out). split.
  { cbn [rd_f]. rewrite L0. cbn [bind]. rewrite L1. cbn [bind]. rewrite L2. cbn [bind].
    replace (Z.to_nat (cnt * 16 / 16)) with (length out) by (rewrite Z.div_mul by lia; rewrite Hcnt'; unfold len; lia).
    rewrite Hrd4. reflexivity. }
  apply fpok_in. intros r [<-|Hr]; [left; left; reflexivity|right; exact Hr].
Qed.

Lemma d_iovarr_h st a st' Own c0 :
  HR (d_mem st) (d_iov st) Own -> In c0 Own -> within (a, 24) c0 ->
  d_iovarr st a = Ok st' -> d_failed st' = false ->
  exists new, hpost st st' Own new [(a, 24)] /\
    exists val w F, rd_f FIov (d_mem st') a = Ok (val, w, F) /\ fpok F [(a, 24)] new.
Proof.
  intros HR0 Hc0 Wa Hrun Hnf. pose proof HR0 as [[_ [_ [Hel _]]] _].
  destruct (flat_total _ _ Hel) as [w0 Hf].
  destruct (d_iovarr_cases st a st' Own c0 w0 HR0 Hc0 Wa Hf Hrun) as [[Hft _]|[_ [_ [_ [new [S [HP [_ [_ [_ [F [Hrd Hfp]]]]]]]]]]]]; [congruence|].
  exists new. split; [exact HP|]. eauto.
Qed.
