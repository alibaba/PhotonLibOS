(* C12_Mem.v — lemmas about the byte memory of C12_Model: whether an access traps
   depends only on the region lengths; stores keep the lengths; little-endian words. *)
From Coq Require Import ZArith List Bool Lia.
From PV Require Import Base.U64 C12.C12_Model.
Import ListNotations.
Local Open Scope Z_scope.

Lemma len_nonneg {A} (l : list A) : 0 <= len l.
Proof. unfold len. lia. Qed.
Lemma len_app {A} (a b : list A) : len (a ++ b) = len a + len b.
Proof. unfold len. rewrite app_length. lia. Qed.
Lemma len_nil {A} : len (@nil A) = 0. Proof. reflexivity. Qed.
Lemma len_cons {A} (x : A) l : len (x :: l) = 1 + len l.
Proof. unfold len. cbn [length]. lia. Qed.

Lemma len_firstn {A} (l : list A) n : 0 <= n <= len l -> len (firstn (Z.to_nat n) l) = n.
Proof. unfold len. intros H. rewrite firstn_length. lia. Qed.
Lemma len_skipn {A} (l : list A) n : 0 <= n <= len l -> len (skipn (Z.to_nat n) l) = len l - n.
Proof. unfold len. intros H. rewrite skipn_length. lia. Qed.

(* region lengths decide whether an access is in range *)
Definition lens (m : mem) : list Z := map len m.

Lemma nth_z_map {A B} (f : A -> B) (l : list A) i : nth_z (map f l) i = option_map f (nth_z l i).
Proof.
  unfold nth_z, len. rewrite map_length.
  destruct ((i <? 0) || (Z.of_nat (length l) <=? i)); [reflexivity|].
  rewrite nth_error_map. reflexivity.
Qed.

Definition validb (ls : list Z) (a n : Z) : bool :=
  if n <=? 0 then true else
  if a <? ARENA then false else
  match nth_z ls ((a - ARENA) / STRIDE) with
  | None => false
  | Some L => (a - ARENA) mod STRIDE + n <=? L
  end.

Lemma load_valid m a n : validb (lens m) a n = true -> exists bs, load m a n = Ok bs.
Proof.
  unfold validb, load, lens. destruct (n <=? 0); [eauto|].
  destruct (a <? ARENA); [discriminate|].
  rewrite nth_z_map. destruct (nth_z m ((a - ARENA) / STRIDE)) as [bs|]; cbn [option_map]; [|discriminate].
  intros ->. eauto.
Qed.

Lemma load_valid_inv m a n bs : load m a n = Ok bs -> validb (lens m) a n = true.
Proof.
  unfold validb, load, lens. destruct (n <=? 0); [reflexivity|].
  destruct (a <? ARENA); [discriminate|].
  rewrite nth_z_map. destruct (nth_z m ((a - ARENA) / STRIDE)) as [r|]; cbn [option_map]; [|discriminate].
  destruct ((a - ARENA) mod STRIDE + n <=? len r); [reflexivity|discriminate].
Qed.

Lemma STRIDE_pos : 0 < STRIDE. Proof. reflexivity. Qed.

Lemma load_len m a n bs : load m a n = Ok bs -> len bs = Z.max 0 n.
Proof.
  unfold load. destruct (n <=? 0) eqn:Hn.
  - intros H. inversion H. apply Z.leb_le in Hn. rewrite len_nil. lia.
  - apply Z.leb_gt in Hn. destruct (a <? ARENA); [discriminate|].
    destruct (nth_z m ((a - ARENA) / STRIDE)) as [r|]; [|discriminate].
    destruct ((a - ARENA) mod STRIDE + n <=? len r) eqn:Hle; [|discriminate].
    apply Z.leb_le in Hle. intros H. inversion H. subst bs.
    pose proof (Z.mod_pos_bound (a - ARENA) STRIDE STRIDE_pos) as Hm.
    rewrite len_firstn; [lia|]. rewrite len_skipn; lia.
Qed.

Lemma load_nonpos m x k : k <= 0 -> load m x k = Ok [].
Proof. intros H. unfold load. apply Z.leb_le in H. rewrite H. reflexivity. Qed.
Lemma store_nonpos m a v m' : len v <= 0 -> store m a v = Ok m' -> m' = m.
Proof. intros H. unfold store. apply Z.leb_le in H. rewrite H. intros E. inversion E. reflexivity. Qed.

(* an access that is in range stays in range, with a result of the same length, in any memory with the same region lengths *)
Lemma load_lens m m' a n bs : load m a n = Ok bs -> lens m' = lens m -> exists bs', load m' a n = Ok bs' /\ len bs' = len bs.
Proof.
  intros H Hl. pose proof (load_valid_inv _ _ _ _ H) as Hv. rewrite <- Hl in Hv. destruct (load_valid _ _ _ Hv) as [bs' Hb].
  exists bs'. split; [exact Hb|]. rewrite (load_len _ _ _ _ Hb), (load_len _ _ _ _ H). reflexivity.
Qed.

Lemma nth_z_upd_len (m : mem) i x r : nth_z m i = Some r -> len x = len r ->
  lens (upd_nth m (Z.to_nat i) x) = lens m.
Proof.
  unfold nth_z. destruct ((i <? 0) || (len m <=? i)); [discriminate|].
  generalize (Z.to_nat i) as k. clear i. unfold lens.
  induction m as [|h t IH]; intros k Hn Hl; destruct k; cbn in *; try discriminate.
  - inversion Hn. subst. rewrite Hl. reflexivity.
  - rewrite (IH k Hn Hl). reflexivity.
Qed.

Lemma len_splice bs off v : 0 <= off -> off + len v <= len bs -> len (splice bs off v) = len bs.
Proof.
  intros H0 H1. unfold splice. rewrite !len_app. pose proof (len_nonneg v).
  rewrite len_firstn by lia. rewrite len_skipn by lia. lia.
Qed.

Lemma store_valid m a v : validb (lens m) a (len v) = true -> exists m', store m a v = Ok m' /\ lens m' = lens m.
Proof.
  unfold validb, store. destruct (len v <=? 0); [eauto|].
  destruct (a <? ARENA); [discriminate|]. unfold lens at 1. rewrite nth_z_map.
  destruct (nth_z m ((a - ARENA) / STRIDE)) as [r|] eqn:Hr; cbn [option_map]; [|discriminate].
  intros H. rewrite H. eexists. split; [reflexivity|].
  apply Z.leb_le in H. eapply nth_z_upd_len; [exact Hr|].
  pose proof (Z.mod_pos_bound (a - ARENA) STRIDE STRIDE_pos). apply len_splice; lia.
Qed.

Lemma store_lens m a v m' : store m a v = Ok m' -> lens m' = lens m.
Proof.
  intros H. assert (Hv : validb (lens m) a (len v) = true).
  { revert H. unfold validb, store, lens. destruct (len v <=? 0); [reflexivity|].
    destruct (a <? ARENA); [discriminate|]. rewrite nth_z_map.
    destruct (nth_z m ((a - ARENA) / STRIDE)) as [r|]; cbn [option_map]; [|discriminate].
    destruct ((a - ARENA) mod STRIDE + len v <=? len r); [reflexivity|discriminate]. }
  destruct (store_valid m a v Hv) as [m'' [H1 H2]]. rewrite H in H1. inversion H1. subst. exact H2.
Qed.

Lemma nth_z_app_l {A} (l r : list A) i x : nth_z l i = Some x -> nth_z (l ++ r) i = Some x.
Proof.
  unfold nth_z. rewrite len_app. pose proof (len_nonneg r).
  destruct (i <? 0) eqn:H0; [discriminate|]. destruct (len l <=? i) eqn:H1; [discriminate|].
  apply Z.ltb_ge in H0. apply Z.leb_gt in H1. cbn [orb].
  destruct (len l + len r <=? i) eqn:H2; [apply Z.leb_le in H2; lia|].
  intros Hn. rewrite nth_error_app1; [exact Hn|]. unfold len in H1. lia.
Qed.

Lemma validb_app ls extra a n : validb ls a n = true -> validb (ls ++ extra) a n = true.
Proof.
  unfold validb. destruct (n <=? 0); [reflexivity|]. destruct (a <? ARENA); [discriminate|].
  destruct (nth_z ls ((a - ARENA) / STRIDE)) as [L|] eqn:HL; [|discriminate].
  rewrite (nth_z_app_l _ _ _ _ HL). exact (fun H => H).
Qed.

Lemma addr_shift a d : ARENA <= a -> 0 <= d -> (a - ARENA) mod STRIDE + d < STRIDE ->
  (a + d - ARENA) / STRIDE = (a - ARENA) / STRIDE /\ (a + d - ARENA) mod STRIDE = (a - ARENA) mod STRIDE + d.
Proof.
  intros HA Hd Hs. pose proof STRIDE_pos as HS.
  pose proof (Z.div_mod (a - ARENA) STRIDE ltac:(lia)) as E. pose proof (Z.mod_pos_bound (a - ARENA) STRIDE HS) as B.
  split; symmetry; [apply (Z.div_unique_pos _ _ _ ((a - ARENA) mod STRIDE + d))|apply (Z.mod_unique_pos _ _ ((a - ARENA) / STRIDE))]; lia.
Qed.

Lemma validb_sub ls a n a' n' : validb ls a n = true -> 0 < n' -> a <= a' -> a' + n' <= a + n ->
  (a - ARENA) mod STRIDE + n <= STRIDE -> validb ls a' n' = true.
Proof.
  unfold validb. intros H Hn' Ha Hb Hs.
  destruct (n <=? 0) eqn:Hn; [apply Z.leb_le in Hn; lia|]. apply Z.leb_gt in Hn.
  destruct (n' <=? 0) eqn:Hn2; [reflexivity|].
  destruct (a <? ARENA) eqn:HA; [discriminate|]. apply Z.ltb_ge in HA.
  destruct (a' <? ARENA) eqn:HA'; [apply Z.ltb_lt in HA'; lia|].
  replace a' with (a + (a' - a)) by lia. destruct (addr_shift a (a' - a) HA ltac:(lia) ltac:(lia)) as [-> ->].
  destruct (nth_z ls ((a - ARENA) / STRIDE)) as [L|]; [|discriminate].
  apply Z.leb_le in H. apply Z.leb_le. lia.
Qed.

Lemma le_enc_len n v : len (le_enc n v) = Z.of_nat n.
Proof. revert v. induction n; intros v; [reflexivity|]. cbn [le_enc]. rewrite len_cons, IHn. lia. Qed.

Lemma le_dec_enc n v : 0 <= v < 256 ^ Z.of_nat n -> le_dec (le_enc n v) = v.
Proof.
  revert v. induction n as [|n IH]; intros v Hv.
  - cbn in *. lia.
  - cbn [le_enc le_dec]. rewrite Nat2Z.inj_succ, Z.pow_succ_r in Hv by lia.
    rewrite IH.
    + pose proof (Z.div_mod v 256 ltac:(lia)). lia.
    + split; [apply Z.div_pos; lia|]. apply Z.div_lt_upper_bound; lia.
Qed.
