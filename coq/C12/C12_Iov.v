(* C12_Iov.v — the iovector operations never trap on well-formed vectors, and what they
   return is readable: extract_front_continuous / extract_back_continuous incl. the copy
   fallback into a fresh allocation slot. *)
From Coq Require Import ZArith List Bool Lia.
From PV Require Import Base.U64 C12.C12_Model C12.C12_Mem C12.C12_MemC.
Import ListNotations.
Local Open Scope Z_scope.

Definition bytes_ok (bs : list byte) : Prop := Forall (fun b => 0 <= b < 256) bs.
Definition mem_bytes (m : mem) : Prop := Forall bytes_ok m.
Definition ext (ls ls' : list Z) : Prop := exists extra, ls' = ls ++ extra.

Lemma ext_refl ls : ext ls ls. Proof. exists []. symmetry. apply app_nil_r. Qed.
Lemma ext_trans a b c : ext a b -> ext b c -> ext a c.
Proof. intros [x ->] [y ->]. exists (x ++ y). symmetry. apply app_assoc. Qed.
Lemma validb_ext ls ls' a n : ext ls ls' -> validb ls a n = true -> validb ls' a n = true.
Proof. intros [x ->]. apply validb_app. Qed.

(* an iovec element: non-negative length, readable, no address wrap *)
Definition el_ok (ls : list Z) (e : Z * Z) : Prop :=
  0 <= snd e /\ validb ls (fst e) (snd e) = true /\ 0 <= fst e /\ fst e + snd e < W64.

Lemma el_ok_ext ls ls' e : ext ls ls' -> el_ok ls e -> el_ok ls' e.
Proof. intros H [A [B C]]. split; [auto|]. split; [eapply validb_ext; eauto|auto]. Qed.

Definition inv (m : mem) (v : iovs) : Prop :=
  mem_bytes m /\ Forall (fun L => L <= STRIDE) (lens m) /\ Forall (el_ok (lens m)) (i_el v) /\
  sum_el (i_el v) <= INT_MAX /\ 0 <= i_nb v /\ len m + (i_cap v - i_nb v) <= 65536 /\ len (i_el v) <= 65536.

Lemma fold_sum_acc (el : list (Z * Z)) acc : fold_left (fun s e => s + snd e) el acc = acc + sum_el el.
Proof.
  unfold sum_el. revert acc. induction el as [|e r IH]; intros acc; cbn [fold_left]; [lia|].
  rewrite (IH (acc + snd e)), (IH (0 + snd e)). lia.
Qed.
Lemma sum_el_cons e r : sum_el (e :: r) = snd e + sum_el r.
Proof. unfold sum_el at 1. cbn [fold_left]. rewrite fold_sum_acc. lia. Qed.
Lemma sum_el_nil : sum_el [] = 0. Proof. reflexivity. Qed.
Lemma sum_el_app a b : sum_el (a ++ b) = sum_el a + sum_el b.
Proof. induction a as [|e r IH]; [cbn [app]; rewrite sum_el_nil; lia|]. cbn [app]. rewrite !sum_el_cons, IH. lia. Qed.
Lemma sum_el_rev a : sum_el (rev a) = sum_el a.
Proof. induction a as [|e r IH]; [reflexivity|]. cbn [rev]. rewrite sum_el_app, !sum_el_cons, sum_el_nil, IH. lia. Qed.
Lemma sum_el_nonneg ls el : Forall (el_ok ls) el -> 0 <= sum_el el.
Proof. induction 1 as [|e r He _ IH]; [rewrite sum_el_nil; lia|]. rewrite sum_el_cons. destruct He. lia. Qed.

Lemma bytes_ok_app a b : bytes_ok a -> bytes_ok b -> bytes_ok (a ++ b).
Proof. unfold bytes_ok. intros. apply Forall_app. auto. Qed.
Lemma bytes_ok_firstn n bs : bytes_ok bs -> bytes_ok (firstn n bs).
Proof. unfold bytes_ok. intros H. rewrite <- (firstn_skipn n bs) in H. apply Forall_app in H. tauto. Qed.
Lemma bytes_ok_skipn n bs : bytes_ok bs -> bytes_ok (skipn n bs).
Proof. unfold bytes_ok. intros H. rewrite <- (firstn_skipn n bs) in H. apply Forall_app in H. tauto. Qed.
Lemma nth_z_In {A} (l : list A) i x : nth_z l i = Some x -> In x l.
Proof. unfold nth_z. destruct ((i <? 0) || (len l <=? i)); [discriminate|]. apply nth_error_In. Qed.

Lemma load_bytes_ok m a n bs : mem_bytes m -> load m a n = Ok bs -> bytes_ok bs.
Proof.
  unfold load. intros Hm. destruct (n <=? 0); [intros H; inversion H; constructor|].
  destruct (a <? ARENA); [discriminate|].
  destruct (nth_z m ((a - ARENA) / STRIDE)) as [r|] eqn:Hr; [|discriminate].
  destruct ((a - ARENA) mod STRIDE + n <=? len r); [|discriminate].
  intros H. inversion H. apply bytes_ok_firstn, bytes_ok_skipn.
  apply nth_z_In in Hr. unfold mem_bytes in Hm. rewrite Forall_forall in Hm. auto.
Qed.

Lemma Forall_upd_nth {A} (P : A -> Prop) l k x : Forall P l -> P x -> Forall P (upd_nth l k x).
Proof. intros H Hx. revert k. induction H as [|h t Hh Ht IH]; intros [|k]; cbn; constructor; auto. Qed.

Lemma store_bytes_ok m a v m' : mem_bytes m -> bytes_ok v -> store m a v = Ok m' -> mem_bytes m'.
Proof.
  intros Hm Hv H. destruct (Z_le_gt_dec (len v) 0) as [Hl|Hl].
  - rewrite (store_nonpos _ _ _ _ Hl H). exact Hm.
  - destruct (store_inv _ _ _ _ H ltac:(lia)) as [bs [_ [Hb [_ ->]]]].
    apply Forall_upd_nth; [exact Hm|]. unfold splice.
    assert (bytes_ok bs) by (apply nth_z_In in Hb; unfold mem_bytes in Hm; rewrite Forall_forall in Hm; auto).
    apply bytes_ok_app; [apply bytes_ok_firstn; auto|]. apply bytes_ok_app; [auto|apply bytes_ok_skipn; auto].
Qed.

Lemma le_enc_bytes_ok n v : bytes_ok (le_enc n v).
Proof.
  revert v. induction n as [|n IH]; intros v; [constructor|]. cbn [le_enc]. constructor; [|apply IH].
  apply Z.mod_pos_bound. lia.
Qed.

Lemma le_dec_range bs : bytes_ok bs -> 0 <= le_dec bs < 256 ^ len bs.
Proof.
  induction bs as [|b r IH]; intros H.
  - cbn. lia.
  - inversion H; subst. specialize (IH H3). cbn [le_dec]. rewrite len_cons.
    rewrite Z.pow_add_r by (pose proof (len_nonneg r); lia). change (256 ^ 1) with 256. lia.
Qed.

Lemma load64_ok m a : mem_bytes m -> validb (lens m) a 8 = true -> exists v, load64 m a = Ok v /\ 0 <= v < W64.
Proof.
  intros Hm H. destruct (load_valid _ _ _ H) as [bs Hbs]. unfold load64. rewrite Hbs. cbn [bind].
  eexists. split; [reflexivity|].
  pose proof (le_dec_range bs (load_bytes_ok _ _ _ _ Hm Hbs)) as R.
  rewrite (load_len _ _ _ _ Hbs) in R. exact R.
Qed.

Lemma load64_range m a v : mem_bytes m -> load64 m a = Ok v -> 0 <= v < W64.
Proof.
  intros Hm H. unfold load64 in H. destruct (load m a 8) as [bs|] eqn:E; cbn [bind] in H; [|discriminate]. inversion H. subst v.
  pose proof (le_dec_range bs (load_bytes_ok _ _ _ _ Hm E)) as R. rewrite (load_len _ _ _ _ E) in R. exact R.
Qed.

Lemma validb_fits ls a n : Forall (fun L => L <= STRIDE) ls -> validb ls a n = true -> 0 < n ->
  ARENA <= a /\ (a - ARENA) mod STRIDE + n <= STRIDE.
Proof.
  unfold validb. intros Hwf H Hn. destruct (n <=? 0) eqn:E; [apply Z.leb_le in E; lia|].
  destruct (a <? ARENA) eqn:HA; [discriminate|]. apply Z.ltb_ge in HA.
  destruct (nth_z ls ((a - ARENA) / STRIDE)) as [L|] eqn:HL; [|discriminate].
  apply Z.leb_le in H. apply nth_z_In in HL. rewrite Forall_forall in Hwf. specialize (Hwf _ HL). lia.
Qed.

Lemma validb_sub' ls a n a' n' : Forall (fun L => L <= STRIDE) ls -> validb ls a n = true ->
  a <= a' -> a' + n' <= a + n -> validb ls a' n' = true.
Proof.
  intros Hwf H Ha Hb. destruct (Z_le_gt_dec n' 0) as [Hn'|Hn'].
  - unfold validb. apply Z.leb_le in Hn'. rewrite Hn'. reflexivity.
  - assert (0 < n) by lia. destruct (validb_fits _ _ _ Hwf H ltac:(lia)) as [_ Hs].
    eapply validb_sub; eauto; lia.
Qed.

Lemma ARENA_pos : 0 < ARENA. Proof. reflexivity. Qed.

Lemma validb_fresh ls n : 0 <= n -> validb (ls ++ [n]) (region_base (len ls)) n = true.
Proof.
  intros Hn. unfold validb. destruct (n <=? 0) eqn:E; [reflexivity|]. apply Z.leb_gt in E.
  pose proof (len_nonneg ls) as Hl.
  destruct (region_base_decode (len ls) 0 Hl ltac:(pose proof STRIDE_pos; lia)) as [HA [Hq Ho]].
  rewrite Z.add_0_r in *. destruct (region_base (len ls) <? ARENA) eqn:EA; [apply Z.ltb_lt in EA; lia|].
  rewrite Hq, Ho, nth_z_app_last. apply Z.leb_le. lia.
Qed.

Lemma len_lens m : len (lens m) = len m.
Proof. unfold lens, len. rewrite map_length. reflexivity. Qed.

Lemma len_zeros n : 0 <= n -> len (zeros n) = n.
Proof. intros. unfold zeros, len. rewrite repeat_length. lia. Qed.

Lemma region_base_bound r : 0 <= r < 65536 -> 0 < region_base r /\ region_base r + STRIDE < W64.
Proof. unfold region_base, ARENA, STRIDE, W64. lia. Qed.

Lemma el_ok_sub ls b l b' l' : Forall (fun L => L <= STRIDE) ls -> el_ok ls (b, l) ->
  b <= b' -> b' + l' <= b + l -> 0 <= l' -> el_ok ls (b', l').
Proof.
  intros Hwf [Hl [Hv [Hb Hw]]] H1 H2 H3. unfold el_ok. cbn [fst snd] in *.
  split; [exact H3|]. split; [apply (validb_sub' _ b l); auto|lia].
Qed.

(* vef_copy and veb_copy are one recursion: whole elements are taken from the head of the list;
   the element that is split gives its front part (vef_copy) or, the list being reversed, its
   back part (veb_copy), and the bytes are joined in stream order *)
Fixpoint xcopy (back : bool) (m : mem) (el : list (Z * Z)) (bytes : Z) : res (list byte * list (Z * Z)) :=
  match el with
  | [] => Ok ([], [])
  | (b, l) :: rest =>
      if bytes <=? l then
        d <- load m (if back then wrap (b + l - bytes) else b) bytes ;;
        Ok (d, if l - bytes =? 0 then rest else (if back then b else wrap (b + bytes), l - bytes) :: rest)
      else
        d <- load m b l ;;
        '(d', el') <- xcopy back m rest (bytes - l) ;;
        Ok (if back then d' ++ d else d ++ d', el')
  end.

Lemma vef_copy_x m el n : vef_copy m el n = xcopy false m el n.
Proof. revert n. induction el as [|[b l] r IH]; intros n; [reflexivity|]. cbn [vef_copy xcopy]. rewrite IH. reflexivity. Qed.
Lemma veb_copy_x m el n : veb_copy m el n = xcopy true m el n.
Proof. revert n. induction el as [|[b l] r IH]; intros n; [reflexivity|]. cbn [veb_copy xcopy]. rewrite IH. reflexivity. Qed.

(* where the split element (b, l) is cut when n of its bytes are taken: the piece starts at p,
   the remainder at q *)
Lemma xcopy_cut (back : bool) b l n : 0 <= b -> b + l < W64 -> 0 <= n <= l ->
  let p := if back then wrap (b + l - n) else b in
  let q := if back then b else wrap (b + n) in
  b <= p /\ p + n <= b + l /\ b <= q /\ q + (l - n) <= b + l /\ (p + n <= q \/ q + (l - n) <= p).
Proof. intros H0 H1 H2. destruct back; cbv zeta; rewrite wrap_small by lia; lia. Qed.

Lemma xcopy_ok back m : forall el bytes, mem_bytes m -> Forall (fun L => L <= STRIDE) (lens m) ->
  Forall (el_ok (lens m)) el -> 0 < bytes <= sum_el el ->
  exists d el', xcopy back m el bytes = Ok (d, el') /\ len d = bytes /\ bytes_ok d /\
    Forall (el_ok (lens m)) el' /\ sum_el el' = sum_el el - bytes /\ len el' <= len el.
Proof.
  induction el as [|[b l] rest IH]; intros bytes Hm Hwf Hel Hb.
  - rewrite sum_el_nil in Hb. lia.
  - inversion Hel as [|? ? He Hrest]; subst. pose proof He as [Hl [Hv [Hb0 Hbw]]]. cbn [fst snd] in *.
    rewrite sum_el_cons in Hb. cbn [snd] in Hb. cbn [xcopy].
    destruct (bytes <=? l) eqn:E.
    + apply Z.leb_le in E. pose proof (xcopy_cut back b l bytes Hb0 Hbw ltac:(lia)) as C. cbv zeta in C.
      destruct (load_valid m (if back then wrap (b + l - bytes) else b) bytes) as [d Hd]; [apply (validb_sub' _ b l); auto; lia|].
      rewrite Hd. cbn [bind]. exists d. eexists. split; [reflexivity|].
      split; [rewrite (load_len _ _ _ _ Hd); lia|]. split; [eapply load_bytes_ok; eauto|].
      destruct (l - bytes =? 0) eqn:E0.
      * apply Z.eqb_eq in E0. split; [auto|]. split; [rewrite sum_el_cons; cbn [snd]; lia|]. rewrite len_cons. lia.
      * split; [constructor; [apply (el_ok_sub _ b l); auto; lia|auto]|].
        split; [rewrite !sum_el_cons; cbn [snd]; lia|]. rewrite !len_cons. lia.
    + apply Z.leb_gt in E.
      destruct (load_valid _ _ _ Hv) as [d Hd]. rewrite Hd. cbn [bind].
      destruct (IH (bytes - l) Hm Hwf Hrest ltac:(lia)) as [d' [el' [H1 [H2 [H3 [H4 [H5 H6]]]]]]].
      rewrite H1. cbn [bind]. eexists. exists el'. split; [reflexivity|].
      pose proof (load_len _ _ _ _ Hd) as Ld. pose proof (load_bytes_ok _ _ _ _ Hm Hd) as Bd.
      split; [destruct back; rewrite len_app, H2, Ld; lia|].
      split; [destruct back; apply bytes_ok_app; auto|].
      split; [auto|]. split; [rewrite sum_el_cons; cbn [snd]; lia|]. rewrite len_cons. lia.
Qed.

Lemma vef_copy_ok m : forall el bytes, mem_bytes m -> Forall (fun L => L <= STRIDE) (lens m) ->
  Forall (el_ok (lens m)) el -> 0 < bytes <= sum_el el ->
  exists d el', vef_copy m el bytes = Ok (d, el') /\ len d = bytes /\ bytes_ok d /\
    Forall (el_ok (lens m)) el' /\ sum_el el' = sum_el el - bytes /\ len el' <= len el.
Proof. intros el bytes. rewrite vef_copy_x. apply xcopy_ok. Qed.

(* what a successful extraction guarantees about the returned pointer *)
Definition ptr_ok (ls : list Z) (p n : Z) : Prop := validb ls p n = true /\ 0 < p /\ p + n < W64.

Definition efc_post (m : mem) (v : iovs) (bytes p : Z) (m' : mem) (v' : iovs) : Prop :=
  inv m' v' /\ ext (lens m) (lens m') /\ i_cap v' = i_cap v /\
  (p = 0 \/ ptr_ok (lens m') p bytes) /\
  (forall a n, validb (lens m) a n = true -> load m' a n = load m a n).

Lemma malloc_ok m v n : inv m v -> 0 <= n <= INT_MAX -> i_nb v < i_cap v ->
  do_malloc m v n = Ok (region_base (len m), m ++ [zeros n], mkIov (i_beg v) (i_el v) (i_nb v + 1) (i_cap v)) /\
  (region_base (len m) =? 0) = false /\ lens (m ++ [zeros n]) = lens m ++ [n] /\
  mem_bytes (m ++ [zeros n]) /\ Forall (fun L => L <= STRIDE) (lens (m ++ [zeros n])) /\
  Forall (el_ok (lens (m ++ [zeros n]))) (i_el v).
Proof.
  intros [Hbm [Hwf [Hel [_ [Hnb [Hroom _]]]]]] Hn Hcap. unfold do_malloc.
  destruct (INT_MAX <? n) eqn:EH; [apply Z.ltb_lt in EH; lia|].
  destruct (i_cap v <=? i_nb v) eqn:EC; [apply Z.leb_le in EC; lia|].
  pose proof (len_nonneg m) as Hlm. destruct (region_base_bound (len m) ltac:(lia)) as [B1 _].
  assert (Hl : lens (m ++ [zeros n]) = lens m ++ [n]) by (rewrite lens_app; cbn; rewrite len_zeros by lia; reflexivity).
  split; [reflexivity|]. split; [apply Z.eqb_neq; lia|]. split; [exact Hl|]. rewrite Hl. split; [|split].
  - apply Forall_app. split; [exact Hbm|]. constructor; [|constructor].
    apply Forall_forall. intros x Hx. apply repeat_spec in Hx. subst. lia.
  - apply Forall_app. split; [exact Hwf|]. constructor; [unfold INT_MAX, STRIDE in *; lia|constructor].
  - eapply Forall_impl; [|exact Hel]. intros e. apply el_ok_ext. exists [n]. reflexivity.
Qed.

(* the slow path of extract_front_continuous and of extract_back_continuous: allocate, copy out
   (copy), write the copy into the slot, adjust the vector (setter) *)
Definition slow (copy : mem -> iovs -> res (list byte * list (Z * Z))) (setter : iovs -> list (Z * Z) -> iovs)
  (m : mem) (v : iovs) (bytes : Z) : res (Z * mem * iovs) :=
  if sum_el (i_el v) <? bytes then Ok (0, m, v) else
  '(buf, m1, v1) <- do_malloc m v bytes ;;
  if buf =? 0 then Ok (0, m1, v1) else
  '(d, el') <- copy m1 v1 ;;
  m2 <- store m1 buf d ;;
  Ok (buf, m2, setter v1 el').

Lemma efc_slow_eq m v bytes :
  efc_slow m v bytes = slow (fun m1 v1 => view_extract_front_copy m1 (i_el v1) bytes) set_el m v bytes.
Proof. reflexivity. Qed.

Lemma ebc_eq m v bytes :
  ebc m v bytes =
  let sl := slow (fun m1 v1 => if bytes =? 0 then Ok ([], rev (i_el v1)) else veb_copy m1 (rev (i_el v1)) bytes)
                 (fun v1 rel' => set_el_back v1 (rev rel')) m v bytes in
  match rev (i_el v) with
  | (b, l) :: rrest =>
      if l <? bytes then sl
      else Ok (wrap (b + (l - bytes)), m, set_el_back v (rev (if l - bytes =? 0 then rrest else (b, l - bytes) :: rrest)))
  | [] => sl
  end.
Proof. reflexivity. Qed.

Lemma slow_none copy setter m v bytes : sum_el (i_el v) < bytes \/ bytes <= INT_MAX /\ i_cap v <= i_nb v ->
  slow copy setter m v bytes = Ok (0, m, v).
Proof.
  unfold slow, do_malloc. intros [H|[H1 H2]]; [apply Z.ltb_lt in H; rewrite H; reflexivity|].
  destruct (sum_el (i_el v) <? bytes); [reflexivity|].
  destruct (INT_MAX <? bytes) eqn:E; [apply Z.ltb_lt in E; lia|]. apply Z.leb_le in H2. rewrite H2. reflexivity.
Qed.

Lemma slow_some copy setter m v bytes d el' : inv m v -> 0 < bytes <= sum_el (i_el v) -> i_nb v < i_cap v ->
  copy (m ++ [zeros bytes]) (mkIov (i_beg v) (i_el v) (i_nb v + 1) (i_cap v)) = Ok (d, el') -> len d = bytes ->
  slow copy setter m v bytes =
  Ok (region_base (len m), m ++ [d], setter (mkIov (i_beg v) (i_el v) (i_nb v + 1) (i_cap v)) el').
Proof.
  intros Hinv Hb Hcap Hc Hd. pose proof Hinv as [_ [_ [_ [Hsum _]]]]. unfold slow.
  destruct (sum_el (i_el v) <? bytes) eqn:E; [apply Z.ltb_lt in E; lia|].
  destruct (malloc_ok m v bytes Hinv ltac:(lia) Hcap) as [Hm [Hz _]]. rewrite Hm. cbn [bind]. rewrite Hz, Hc. cbn [bind].
  subst bytes. rewrite store_fresh by (unfold INT_MAX, STRIDE in *; lia). reflexivity.
Qed.

Lemma slow_ok copy setter m v bytes : inv m v -> 0 < bytes ->
  (forall v0 el0, i_nb (setter v0 el0) = i_nb v0 /\ i_cap (setter v0 el0) = i_cap v0) ->
  (forall m1 v1, mem_bytes m1 -> Forall (fun L => L <= STRIDE) (lens m1) -> Forall (el_ok (lens m1)) (i_el v) ->
     i_el v1 = i_el v -> bytes <= sum_el (i_el v) ->
     exists d el', copy m1 v1 = Ok (d, el') /\ len d = bytes /\ bytes_ok d /\
       Forall (el_ok (lens m1)) (i_el (setter v1 el')) /\ sum_el (i_el (setter v1 el')) <= sum_el (i_el v) /\
       len (i_el (setter v1 el')) <= len (i_el v)) ->
  exists p m' v', slow copy setter m v bytes = Ok (p, m', v') /\ efc_post m v bytes p m' v'.
Proof.
  intros Hinv Hb Hset Hcopy. pose proof Hinv as [Hbm [Hwf [Hel [Hsum [Hnb [Hroom Hcnt]]]]]].
  assert (Hnone : slow copy setter m v bytes = Ok (0, m, v) -> exists p m' v', slow copy setter m v bytes = Ok (p, m', v') /\ efc_post m v bytes p m' v').
  { intros ->. exists 0, m, v. split; [reflexivity|]. split; [exact Hinv|]. split; [apply ext_refl|]. split; [reflexivity|]. split; [left; reflexivity|reflexivity]. }
  destruct (Z_lt_le_dec (sum_el (i_el v)) bytes) as [E|E]; [apply Hnone, slow_none; auto|].
  destruct (Z_le_gt_dec (i_cap v) (i_nb v)) as [EC|EC]; [apply Hnone, slow_none; right; lia|]. clear Hnone.
  destruct (malloc_ok m v bytes Hinv ltac:(lia) ltac:(lia)) as [_ [_ [Hl1 [Hbm1 [Hwf1 Hel1]]]]].
  set (v1 := mkIov (i_beg v) (i_el v) (i_nb v + 1) (i_cap v)).
  destruct (Hcopy _ v1 Hbm1 Hwf1 Hel1 eq_refl E) as [d [el' [Hc [Hd [Hdb [Hel' [Hs' Hc']]]]]]].
  rewrite (slow_some copy setter m v bytes d el' Hinv ltac:(lia) ltac:(lia) Hc Hd). fold v1.
  do 3 eexists. split; [reflexivity|]. destruct (Hset v1 el') as [S2 S3]. subst bytes.
  assert (Hlens : lens (m ++ [d]) = lens m ++ [len d]) by (rewrite lens_app; reflexivity).
  (* the slot has the same length zeroed and filled *)
  pose proof (len_nonneg m) as Hlm. rewrite <- Hlens in Hl1. rewrite Hl1 in *.
  split; [|split; [exists [len d]; exact Hlens|split; [rewrite S3; reflexivity|split; [right|intros a n; apply load_app]]]].
  - unfold inv. rewrite S2, S3. cbn [v1 i_nb i_cap].
    split; [apply Forall_app; split; [exact Hbm|constructor; [exact Hdb|constructor]]|].
    split; [exact Hwf1|]. split; [exact Hel'|].
    split; [lia|]. split; [lia|]. split; [rewrite len_app, len_cons, len_nil; lia|lia].
  - rewrite Hlens, <- (len_lens m). split; [apply validb_fresh; lia|]. rewrite len_lens.
    destruct (region_base_bound (len m) ltac:(lia)) as [B1 B2]. unfold INT_MAX, STRIDE in *. lia.
Qed.

Lemma efc_slow_ok m v bytes : inv m v -> 0 < bytes ->
  exists p m' v', efc_slow m v bytes = Ok (p, m', v') /\ efc_post m v bytes p m' v'.
Proof.
  intros Hinv Hb. rewrite efc_slow_eq. apply slow_ok; [exact Hinv|exact Hb|intros; split; reflexivity|].
  intros m1 v1 Hbm1 Hwf1 Hel1 Ev1 Hs. unfold view_extract_front_copy. destruct (bytes =? 0) eqn:Eb; [apply Z.eqb_eq in Eb; lia|].
  rewrite Ev1, vef_copy_x. cbn [set_el i_el].
  destruct (xcopy_ok false m1 (i_el v) bytes Hbm1 Hwf1 Hel1 ltac:(lia)) as [d [el' [H1 [H2 [H3 [H4 [H5 H6]]]]]]].
  exists d, el'. split; [exact H1|]. split; [exact H2|]. split; [exact H3|]. split; [exact H4|]. split; [lia|exact H6].
Qed.

Lemma efc_ok m v bytes : inv m v -> 0 < bytes ->
  exists p m' v', efc m v bytes = Ok (p, m', v') /\ efc_post m v bytes p m' v'.
Proof.
  intros Hinv Hb. pose proof Hinv as [Hbm [Hwf [Hel [Hsum [Hnb [Hroom Hcnt]]]]]].
  unfold efc. destruct (i_el v) as [|[b l] rest] eqn:Eel; [apply efc_slow_ok; auto|].
  destruct (l <? bytes) eqn:E; [apply efc_slow_ok; auto|]. apply Z.ltb_ge in E.
  inversion Hel as [|? ? He Hrest]; subst. pose proof He as [Hl [Hv [Hb0 Hbw]]]. cbn [fst snd] in *.
  rewrite sum_el_cons in Hsum. cbn [snd] in Hsum. rewrite len_cons in Hcnt.
  pose proof (sum_el_nonneg _ _ Hrest) as Hsr.
  destruct (validb_fits _ _ _ Hwf Hv ltac:(lia)) as [HA _]. pose proof ARENA_pos.
  exists b, m. eexists. split; [reflexivity|]. unfold efc_post.
  split.
  { unfold inv, set_el. cbn [i_el i_nb i_cap]. split; [auto|]. split; [auto|].
    destruct (l - bytes =? 0) eqn:E0.
    - apply Z.eqb_eq in E0. split; [auto|]. split; [lia|]. split; [auto|]. split; [auto|lia].
    - rewrite wrap_small by lia. split; [constructor; [apply (el_ok_sub _ b l); auto; lia|auto]|].
      rewrite sum_el_cons, len_cons. cbn [snd]. split; [lia|]. split; [auto|]. split; [auto|lia]. }
  split; [apply ext_refl|]. split; [reflexivity|].
  split; [right; split; [apply (validb_sub' _ b l); auto; lia|lia]|auto].
Qed.

Lemma len_rev {A} (l : list A) : len (rev l) = len l.
Proof. unfold len. rewrite rev_length. reflexivity. Qed.

Lemma ebc_ok m v bytes : inv m v -> 0 < bytes ->
  exists p m' v', ebc m v bytes = Ok (p, m', v') /\ efc_post m v bytes p m' v'.
Proof.
  intros Hinv Hb. pose proof Hinv as [Hbm [Hwf [Hel [Hsum [Hnb [Hroom Hcnt]]]]]].
  rewrite ebc_eq. cbv zeta. set (sl := slow _ _ m v bytes).
  assert (Hslow : exists p m' v', sl = Ok (p, m', v') /\ efc_post m v bytes p m' v').
  { apply slow_ok; [exact Hinv|exact Hb|intros; split; reflexivity|].
    intros m1 v1 Hbm1 Hwf1 Hel1 Ev1 Hs. destruct (bytes =? 0) eqn:Eb; [apply Z.eqb_eq in Eb; lia|].
    rewrite Ev1, veb_copy_x. cbn [set_el_back i_el].
    destruct (xcopy_ok true m1 (rev (i_el v)) bytes Hbm1 Hwf1 ltac:(apply Forall_rev; exact Hel1) ltac:(rewrite sum_el_rev; lia))
      as [d [rel' [H1 [H2 [H3 [H4 [H5 H6]]]]]]].
    exists d, rel'. rewrite sum_el_rev in *. rewrite len_rev in *.
    split; [exact H1|]. split; [exact H2|]. split; [exact H3|]. split; [apply Forall_rev; exact H4|]. split; [lia|exact H6]. }
  destruct (rev (i_el v)) as [|[b l] rrest] eqn:Erev; [exact Hslow|].
  destruct (l <? bytes) eqn:E; [exact Hslow|]. apply Z.ltb_ge in E. clear Hslow.
  assert (Hrel : Forall (el_ok (lens m)) ((b, l) :: rrest)) by (rewrite <- Erev; apply Forall_rev; exact Hel).
  inversion Hrel as [|? ? He Hrest]; subst. pose proof He as [Hl [Hv [Hb0 Hbw]]]. cbn [fst snd] in *.
  assert (Hs2 : sum_el (i_el v) = l + sum_el rrest) by (rewrite <- sum_el_rev, Erev, sum_el_cons; reflexivity).
  assert (Hc2 : len (i_el v) = 1 + len rrest) by (rewrite <- len_rev, Erev, len_cons; reflexivity).
  pose proof (sum_el_nonneg _ _ Hrest) as Hsr.
  destruct (validb_fits _ _ _ Hwf Hv ltac:(lia)) as [HA _]. pose proof ARENA_pos.
  rewrite wrap_small by lia.
  exists (b + (l - bytes)), m. eexists. split; [reflexivity|]. unfold efc_post.
  split.
  { unfold inv, set_el_back. cbn [i_el i_nb i_cap]. split; [auto|]. split; [auto|].
    rewrite sum_el_rev, len_rev. split; [apply Forall_rev|].
    - destruct (l - bytes =? 0); [auto|]. constructor; [apply (el_ok_sub _ b l); auto; lia|auto].
    - destruct (l - bytes =? 0) eqn:E0.
      + apply Z.eqb_eq in E0. split; [lia|]. split; [auto|]. split; [auto|lia].
      + rewrite sum_el_cons, len_cons. cbn [snd]. split; [lia|]. split; [auto|]. split; [auto|lia]. }
  split; [apply ext_refl|]. split; [reflexivity|].
  split; [right; split; [apply (validb_sub' _ b l); auto; lia|lia]|auto].
Qed.

(* stores preserve the invariant (it depends on the region lengths and on byte-ness only) *)
Lemma inv_store m v a x m' : inv m v -> bytes_ok x -> store m a x = Ok m' -> inv m' v /\ lens m' = lens m.
Proof.
  intros [Hbm [Hwf [Hel [Hsum [Hnb [Hroom Hcnt]]]]]] Hx H.
  pose proof (store_lens _ _ _ _ H) as HL. split; [|exact HL].
  unfold inv. rewrite HL. split; [eapply store_bytes_ok; eauto|].
  split; [auto|]. split; [auto|]. split; [auto|]. split; [auto|].
  split; [|auto]. assert (len m' = len m) by (rewrite <- !len_lens, HL; reflexivity). lia.
Qed.

Lemma vef_view_ok ls : forall el bytes room, Forall (el_ok ls) el -> Forall (fun L => L <= STRIDE) ls -> 0 <= room -> 0 < bytes ->
  forall ret out el', vef_view el bytes room = (ret, out, el') ->
  len out <= room /\ Forall (el_ok ls) el' /\ sum_el el' <= sum_el el /\ len el' <= len el.
Proof.
  induction el as [|[b l] rest IH]; intros bytes room Hel Hwf Hroom Hbytes ret out el' H.
  - cbn in H. inversion H. subst. rewrite len_nil. split; [lia|]. split; [constructor|]. split; lia.
  - inversion Hel as [|? ? He Hrest]; subst. pose proof He as [Hl [Hv [Hb0 Hbw]]]. cbn [fst snd] in *.
    pose proof (sum_el_nonneg _ _ Hrest) as Hsr.
    cbn [vef_view] in H. destruct (room <=? 0) eqn:Er.
    { inversion H. subst. rewrite len_nil. split; [lia|]. split; [exact Hel|]. split; lia. }
    apply Z.leb_gt in Er. destruct (bytes <=? l) eqn:Eb.
    + apply Z.leb_le in Eb. injection H as Hr Ho He'. subst out el'. clear Hr. rewrite len_cons, len_nil. split; [lia|].
      destruct (l - bytes =? 0) eqn:E0.
      * apply Z.eqb_eq in E0. split; [exact Hrest|]. rewrite sum_el_cons, len_cons. cbn [snd]. split; lia.
      * rewrite wrap_small by lia. split; [constructor; [apply (el_ok_sub _ b l); auto; lia|exact Hrest]|].
        rewrite !sum_el_cons, !len_cons. cbn [snd]. split; lia.
    + apply Z.leb_gt in Eb.
      destruct (vef_view rest (bytes - l) (room - 1)) as [[r o] e'] eqn:Erec.
      injection H as Hr Ho He'. subst out el'. clear Hr.
      destruct (IH (bytes - l) (room - 1) Hrest Hwf ltac:(lia) ltac:(lia) _ _ _ Erec) as [A [B [C D]]].
      rewrite len_cons. split; [lia|]. split; [exact B|]. rewrite sum_el_cons, len_cons. cbn [snd]. split; lia.
Qed.

Lemma store_iovecs_ok : forall out m v a, inv m v -> validb (lens m) a (16 * len out) = true ->
  exists m', store_iovecs m a out = Ok m' /\ inv m' v /\ lens m' = lens m.
Proof.
  induction out as [|[b n] r IH]; intros m v a Hinv Hv.
  - cbn. eauto.
  - cbn [store_iovecs]. rewrite len_cons in Hv. pose proof (len_nonneg r) as Hr.
    pose proof Hinv as [_ [Hwf _]].
    assert (Hv16 : validb (lens m) a 16 = true) by (apply (validb_sub' _ a (16 * (1 + len r))); auto; lia).
    destruct (store_valid m a (le_enc 8 b ++ le_enc 8 n)) as [m1 [Hs Hl]].
    { rewrite len_app, !le_enc_len. exact Hv16. }
    rewrite Hs. cbn [bind].
    destruct (inv_store m v a _ m1 Hinv ltac:(apply bytes_ok_app; apply le_enc_bytes_ok) Hs) as [Hi1 _].
    destruct (IH m1 v (a + 16) Hi1) as [m2 [H2 [Hi2 Hl2]]].
    { rewrite Hl. apply (validb_sub' _ a (16 * (1 + len r))); auto; lia. }
    exists m2. split; [exact H2|]. split; [exact Hi2|congruence].
Qed.

Lemma extract_front_view_ok m v bytes : inv m v -> 0 <= bytes ->
  exists ret ptr cnt m' v', extract_front_view m v bytes = Ok (ret, ptr, cnt, m', v') /\
    inv m' v' /\ ext (lens m) (lens m') /\ 0 <= cnt /\ (cnt = 0 \/ validb (lens m') ptr (cnt * 16) = true).
Proof.
  intros Hinv Hb. pose proof Hinv as [Hbm [Hwf [Hel [Hsum [Hnb [Hroom Hcnt]]]]]].
  unfold extract_front_view. destruct (bytes =? 0) eqn:E0.
  { do 5 eexists. split; [reflexivity|]. split; [exact Hinv|]. split; [apply ext_refl|]. split; [lia|auto]. }
  apply Z.eqb_neq in E0. pose proof (len_nonneg (i_el v)) as Hc0.
  destruct (Z_le_gt_dec (i_cap v) (i_nb v)) as [EC|EC].
  { unfold do_malloc. destruct (INT_MAX <? len (i_el v) * 16) eqn:EH; [apply Z.ltb_lt in EH; unfold INT_MAX in *; lia|].
    apply Z.leb_le in EC. rewrite EC. cbn. do 5 eexists. split; [reflexivity|]. split; [exact Hinv|]. split; [apply ext_refl|]. split; [lia|auto]. }
  set (sz := len (i_el v) * 16). assert (Hsz : 0 <= sz <= INT_MAX) by (unfold sz, INT_MAX; lia).
  destruct (malloc_ok m v sz Hinv Hsz ltac:(lia)) as [Hm [Hz [Hlens1 [Hbm1 [Hwf1 Hel1]]]]].
  rewrite Hm. cbn [bind]. rewrite Hz. cbn [i_el]. set (m1 := m ++ [zeros sz]) in *.
  pose proof (len_nonneg m) as Hlm.
  destruct (vef_view (i_el v) bytes (len (i_el v))) as [[ret out] el'] eqn:Ev.
  destruct (vef_view_ok (lens m1) (i_el v) bytes (len (i_el v)) Hel1 Hwf1 Hc0 ltac:(lia) _ _ _ Ev) as [A [B [C D]]].
  set (v1 := set_el (mkIov (i_beg v) (i_el v) (i_nb v + 1) (i_cap v)) el').
  assert (Hi1 : inv m1 v1).
  { unfold inv, v1, set_el. cbn [i_el i_nb i_cap]. split; [exact Hbm1|].
    split; [exact Hwf1|]. split; [exact B|]. split; [lia|]. split; [lia|].
    split; [unfold m1; rewrite len_app, len_cons, len_nil; lia|lia]. }
  assert (Hvp : validb (lens m1) (region_base (len m)) sz = true).
  { rewrite Hlens1, <- (len_lens m). apply validb_fresh. lia. }
  destruct (store_iovecs_ok out m1 v1 (region_base (len m)) Hi1) as [m2 [H2 [Hi2 Hl2]]].
  { apply (validb_sub' _ (region_base (len m)) sz); auto; unfold sz; lia. }
  rewrite H2. cbn [bind]. do 5 eexists. split; [reflexivity|].
  split; [exact Hi2|]. split; [rewrite Hl2; exists [sz]; exact Hlens1|]. pose proof (len_nonneg out). split; [lia|].
  right. rewrite Hl2. apply (validb_sub' _ (region_base (len m)) sz); auto; unfold sz; lia.
Qed.
