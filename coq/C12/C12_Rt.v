(* C12_Rt.v — ser_roundtrip: serialize, refragment arbitrarily, deserialize = the same value. *)
From Coq Require Import ZArith List Bool Lia.
From PV Require Import Base.U64 C12.C12_Model C12.C12_Mem C12.C12_MemC C12.C12_Iov C12.C12_Flat C12.C12_Deser C12.C12_Sep C12.C12_Wire C12.C12_RtD C12.C12_Perm C12.C12_RtC C12.C12_Hx C12.C12_View C12.C12_Hb C12.C12_RtI C12.C12_RtS C12.C12_Proofs.
Import ListNotations.
Local Open Scope Z_scope.

Section RT.
  Variable hstep : Z -> byte -> Z.

  (* (d) the serializer emits the wire string: aligned fields, other fields, body *)
  Theorem serialize_wire sh ms x sst vals wf Fs body :
    sh_checked sh = false -> sup_fs (sh_fields sh) ->
    serialize hstep cfg_final sh ms x = Ok sst -> s_full sst = false ->
    rd_fs (perm (sh_fields sh)) ms x = Ok (vals, wf, Fs) -> load ms x (sh_size sh) = Ok body ->
    s_mem sst = ms /\ flat ms (i_el (s_iov sst)) = Ok (wf ++ body).
  Proof.
    intros Hck Hsup H Hf Hrd Lb. destruct (serialize_inv _ _ _ _ _ H Hf) as [st2 [H2 [Hf2 [Hi [Hf3 Hm]]]]]. rewrite Hck in Hm.
    destruct (proj2 s_all (perm (sh_fields sh)) _ x st2 vals wf Fs [] (perm_sup _ Hsup) H2 Hf2 Hrd eq_refl) as [Hm2 Fl2].
    cbn [s_mem app] in Hm2, Fl2. rewrite Hm, Hm2. split; [reflexivity|]. rewrite Hi. apply s_push_flat; auto.
  Qed.

  (* ser_roundtrip, for shapes without iovec_array fields and without checksum *)
  Theorem ser_roundtrip_noiov_unchecked sh ms x sst vals wf Fs body mr v :
    shape_wf sh -> sh_checked sh = false ->
    sup_fs (sh_fields sh) -> lay_fs (sh_fields sh) -> (forall b, psep (aranges_fs (sh_fields sh) b)) ->
    (* the sender: any memory image in which the value is readable; the archive did not run out of its 28 pieces *)
    Forall (fun L => L <= STRIDE) (lens ms) ->
    rd_fs (perm (sh_fields sh)) ms x = Ok (vals, wf, Fs) -> load ms x (sh_size sh) = Ok body ->
    serialize hstep cfg_final sh ms x = Ok sst -> s_full sst = false ->
    (* the receiver: any memory, any vector whose elements are pairwise separated and denote the
       same byte string as the sender's pieces; enough allocation slots *)
    inv mr v -> psep (i_el v) -> flat mr (i_el v) = flat (s_mem sst) (i_el (s_iov sst)) ->
    i_nb v + 1 + len Fs <= i_cap v ->
    exists t st w2 F, deserialize hstep cfg_final sh mr v = Ok (t, st) /\ t <> 0 /\
      ptr_ok (lens (d_mem st)) t (sh_size sh) /\
      rd_fs (perm (sh_fields sh)) (d_mem st) t = Ok (vals, w2, F) /\
      flat (d_mem st) (i_el (d_iov st)) = Ok [].
  Proof.
    intros Hsh Hck Hsup Hlay Hps Hmswf Hrd Lb Hser Hfull Hinv Hpe Hfl Hnb.
    destruct (serialize_wire sh ms x sst vals wf Fs body Hck Hsup Hser Hfull Hrd Lb) as [Hm Hw].
    rewrite Hm, Hw in Hfl.
    destruct (deserialize_rt_any hstep sh ms x mr v vals wf Fs body Hsh Hlay Hps Hmswf Hrd (proj2 (sup_vsums ms) _ _ _ _ _ (perm_sup _ Hsup) Hrd) Lb
                ltac:(congruence) Hinv Hfl Hpe Hnb) as [t [st [w2 [F [H1 [H2 [H3 [H4 [H5 _]]]]]]]]].
    exists t, st, w2, F. auto.
  Qed.
End RT.

(* the hypotheses are inhabited: struct { uint64 a; string s; aligned_buffer b; } with
   s = "hi\0", b = {7,9}; the 45 wire bytes cut into elements of 1, 19 and 25 bytes, so that the
   aligned buffer and the body both straddle elements (copy fallback on both extractions) *)
Definition ex_rt_sh : shape := mkShape 40 false (FCons 0 (FFixed 8) (FCons 8 FStr (FCons 24 FABuf FNil))).
Definition ex_rt_body : list byte :=
  [1; 2; 3; 4; 5; 6; 7; 8] ++ [0; 0; 0; 0; 1; 48; 0; 0] ++ [3; 0; 0; 0; 0; 0; 0; 0] ++
  [0; 0; 0; 0; 2; 48; 0; 0] ++ [2; 0; 0; 0; 0; 0; 0; 0].
Definition ex_rt_ms : mem := [ex_rt_body; [104; 105; 0]; [7; 9]].
Definition ex_rt_wire : list byte := [7; 9] ++ [104; 105; 0] ++ ex_rt_body.
Definition ex_rt_mr : mem := [firstn 1 ex_rt_wire; firstn 19 (skipn 1 ex_rt_wire); skipn 20 ex_rt_wire].
Definition ex_rt_v : iovs := mkIov 4 [(region_base 0, 1); (region_base 1, 19); (region_base 2, 25)] 0 32.

Example ser_roundtrip_hyps_inhabited :
  let hs := (fun (h : Z) (_ : byte) => h) in
  exists vals wf Fs sst,
    shape_wf ex_rt_sh /\ sh_checked ex_rt_sh = false /\
    sup_fs (sh_fields ex_rt_sh) /\ lay_fs (sh_fields ex_rt_sh) /\ (forall b, psep (aranges_fs (sh_fields ex_rt_sh) b)) /\
    Forall (fun L => L <= STRIDE) (lens ex_rt_ms) /\
    rd_fs (perm (sh_fields ex_rt_sh)) ex_rt_ms (region_base 0) = Ok (vals, wf, Fs) /\
    load ex_rt_ms (region_base 0) (sh_size ex_rt_sh) = Ok ex_rt_body /\
    serialize hs cfg_final ex_rt_sh ex_rt_ms (region_base 0) = Ok sst /\ s_full sst = false /\
    inv ex_rt_mr ex_rt_v /\ psep (i_el ex_rt_v) /\
    flat ex_rt_mr (i_el ex_rt_v) = flat (s_mem sst) (i_el (s_iov sst)) /\
    i_nb ex_rt_v + 1 + len Fs <= i_cap ex_rt_v /\
    vals = [VBuf [7; 9]; VFix [1; 2; 3; 4; 5; 6; 7; 8]; VBuf [104; 105; 0]] /\
    exists t st w2 F, deserialize hs cfg_final ex_rt_sh ex_rt_mr ex_rt_v = Ok (t, st) /\ t <> 0 /\
      rd_fs (perm (sh_fields ex_rt_sh)) (d_mem st) t = Ok (vals, w2, F).
Proof.
  cbv zeta. do 4 eexists.
  split; [unfold shape_wf; cbn; repeat split; try lia; discriminate|].
  split; [reflexivity|]. split; [cbn; tauto|]. split; [cbn; tauto|].
  split.
  { intros b. cbn. repeat split; try tauto; intros y Hy; cbn in Hy;
      repeat (destruct Hy as [<-|Hy]; [unfold sep; cbn [fst snd]; lia|]); destruct Hy. }
  split; [change (lens ex_rt_ms) with [40; 3; 2]; repeat constructor; unfold STRIDE; lia|].
  split; [vm_compute; reflexivity|].
  split; [vm_compute; reflexivity|].
  split; [vm_compute; reflexivity|].
  split; [reflexivity|].
  split; [apply invb_ok; vm_compute; reflexivity|].
  split.
  { cbn. repeat split; try tauto; intros y Hy; cbn in Hy;
      repeat (destruct Hy as [<-|Hy]; [unfold sep, region_base, ARENA, STRIDE; cbn [fst snd]; lia|]); destruct Hy. }
  split; [vm_compute; reflexivity|].
  split; [vm_compute; congruence|].
  split; [reflexivity|].
  do 4 eexists. split; [vm_compute; reflexivity|]. split; [vm_compute; congruence|]. vm_compute. reflexivity.
Qed.
