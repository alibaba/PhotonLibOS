(* C12_Hx.v — the iovector extractions on HOSTILE input (no sender, lengths arbitrary): either the
   extraction fails (null pointer, state unchanged) or it satisfies the full post-condition xpost of
   C12_Sep.v (readable range, provenance: inside an input element or the fresh slot, separation kept).
   Also: `failed` is sticky, and the provenance predicate `orig` with its transport lemmas. *)
From Coq Require Import ZArith List Bool Lia.
From PV Require Import Base.U64 C12.C12_Model C12.C12_Mem C12.C12_MemC C12.C12_Iov C12.C12_Flat C12.C12_Deser C12.C12_Sep C12.C12_Wire C12.C12_RtD.
Import ListNotations.
Local Open Scope Z_scope.

Lemma flat_total m el : Forall (el_ok (lens m)) el -> exists w, flat m el = Ok w.
Proof.
  induction 1 as [|[b l] r He _ IH]; [eexists; reflexivity|]. destruct He as [_ [Hv _]]. cbn [fst snd] in Hv.
  destruct (load_valid _ _ _ Hv) as [d Hd]. destruct IH as [w Hw]. cbn [flat]. rewrite Hd, Hw. cbn. eauto.
Qed.

(* extract_front_continuous, against the byte string w the input denotes: it fails only for want of
   input or of an allocation slot *)
Lemma efc_slow_h m v n w : inv m v -> 0 < n -> psep (i_el v) -> flat m (i_el v) = Ok w ->
  exists p m' v', efc_slow m v n = Ok (p, m', v') /\
    (p = 0 /\ m' = m /\ v' = v /\ (len w < n \/ i_cap v <= i_nb v) \/
     xpost m v n p m' v' (firstn (Z.to_nat n) w) (skipn (Z.to_nat n) w)).
Proof.
  intros Hinv Hn Hp Hf. pose proof Hinv as [Hbm [Hwf [Hel [Hsum [Hnb [Hroom Hcnt]]]]]].
  pose proof (flat_len _ _ _ Hel Hf) as Hlw.
  assert (Hcase : n <= sum_el (i_el v) /\ i_nb v < i_cap v \/ (sum_el (i_el v) < n \/ n <= INT_MAX /\ i_cap v <= i_nb v)) by lia.
  destruct Hcase as [[Hs Hc]|Hno].
  - destruct (efc_slow_flat m v n w Hinv Hn Hf ltac:(lia) Hp Hc) as [p [m' [v' [He X]]]].
    exists p, m', v'. split; [exact He|]. right. exact X.
  - exists 0, m, v. split; [rewrite efc_slow_eq; apply slow_none; exact Hno|]. left. repeat split; lia.
Qed.

Lemma efc_h m v n w : inv m v -> 0 < n -> psep (i_el v) -> flat m (i_el v) = Ok w ->
  exists p m' v', efc m v n = Ok (p, m', v') /\
    (p = 0 /\ m' = m /\ v' = v /\ (len w < n \/ i_cap v <= i_nb v) \/
     xpost m v n p m' v' (firstn (Z.to_nat n) w) (skipn (Z.to_nat n) w)).
Proof.
  intros Hinv Hn Hp Hf. pose proof (efc_slow_h m v n w Hinv Hn Hp Hf) as Hslow.
  unfold efc. destruct (i_el v) as [|[b l] rest] eqn:Eel; [exact Hslow|].
  destruct (l <? n) eqn:E; [exact Hslow|]. apply Z.ltb_ge in E. rewrite <- Eel in Hp, Hf.
  exists b, m. eexists. split; [reflexivity|]. right. exact (efc_fast_x m v n w b l rest Hinv Hn Hp Hf Eel E).
Qed.

Definition xres (m : mem) (v : iovs) (n p : Z) (m' : mem) (v' : iovs) : Prop :=
  (p = 0 /\ m' = m /\ v' = v) \/ exists got rest, xpost m v n p m' v' got rest.

Lemma ebc_h m v n : inv m v -> 0 < n -> psep (i_el v) ->
  exists p m' v', ebc m v n = Ok (p, m', v') /\ xres m v n p m' v'.
Proof.
  intros Hinv Hn Hp. pose proof Hinv as [Hbm [Hwf [Hel [Hsum [Hnb [Hroom Hcnt]]]]]].
  destruct (flat_total m (i_el v) Hel) as [w Hf]. pose proof (flat_len _ _ _ Hel Hf) as Hlw.
  assert (Hcase : n <= sum_el (i_el v) /\ i_nb v < i_cap v \/ (sum_el (i_el v) < n \/ n <= INT_MAX /\ i_cap v <= i_nb v)) by lia.
  destruct Hcase as [[Hs Hc]|Hno].
  { destruct (ebc_flat m v n w Hinv Hn Hf ltac:(lia) Hp Hc) as [p [m' [v' [He X]]]].
    exists p, m', v'. split; [exact He|]. right. eauto. }
  (* the copying path gives up for want of input or of an allocation slot: only the last element can serve the request *)
  rewrite ebc_eq. cbv zeta. rewrite (slow_none _ _ m v n Hno).
  destruct (rev (i_el v)) as [|[b l] rrest] eqn:Erev; [exists 0, m, v; split; [reflexivity|left; auto]|].
  destruct (l <? n) eqn:E; [exists 0, m, v; split; [reflexivity|left; auto]|]. apply Z.ltb_ge in E.
  do 3 eexists. split; [reflexivity|]. right. do 2 eexists. exact (ebc_fast_x m v n w b l rrest Hinv Hn Hp Hf Erev E).
Qed.

(* `failed` is sticky *)
Lemma d_buffer_mono st a st' : d_buffer cfg_final st a = Ok st' -> d_failed st = true -> d_failed st' = true.
Proof.
  unfold d_buffer. cbn [fix_zero_ptr fix_fail_len cfg_final].
  destruct (load64 (d_mem st) (a + 8)) as [n|]; cbn [bind]; [|discriminate].
  destruct (n =? 0).
  - destruct (store64 (d_mem st) a 0); cbn [bind]; [|discriminate]. intros H. inversion H. auto.
  - destruct (efc (d_mem st) (d_iov st) n) as [[[p m1] v1]|]; cbn [bind]; [|discriminate].
    destruct (store64 m1 a p) as [m2|]; cbn [bind]; [|discriminate].
    destruct (p =? 0).
    + destruct (store64 m2 (a + 8) 0); cbn [bind]; [|discriminate]. intros H. inversion H. auto.
    + intros H. inversion H. auto.
Qed.

Lemma d_iovarr_mono st a st' : d_iovarr st a = Ok st' -> d_failed st = true -> d_failed st' = true.
Proof.
  unfold d_iovarr. destruct (load64 (d_mem st) (a + 16)) as [s|]; cbn [bind]; [|discriminate].
  destruct (extract_front_view (d_mem st) (d_iov st) s) as [[[[[ret ptr] cnt] m1] v1]|]; cbn [bind]; [|discriminate].
  destruct (wrap ret =? s); [|intros H; inversion H; auto].
  destruct (load m1 ptr (cnt * 16)); cbn [bind]; [|discriminate].
  destruct (store64 m1 a ptr) as [m2|]; cbn [bind]; [|discriminate].
  destruct (store64 m2 (a + 8) (cnt * 16)) as [m3|]; cbn [bind]; [|discriminate].
  destruct (store64 m3 (a + 16) (if cnt =? 0 then 0 else s)) as [m4|]; cbn [bind]; [|discriminate].
  intros H. inversion H. auto.
Qed.

Lemma d_loop_mono efs esz :
  (forall st base st', d_fields cfg_final efs st base = Ok st' -> d_failed st = true -> d_failed st' = true) ->
  forall k st e st', d_loop efs esz k st e = Ok st' -> d_failed st = true -> d_failed st' = true.
Proof.
  intros IH. induction k as [|k IHk]; intros st e st' H Hf; [inversion H; subst; exact Hf|].
  rewrite d_loop_S in H. destruct (d_fields cfg_final efs st e) as [st2|] eqn:E2; cbn [bind] in H; [|discriminate].
  eapply IHk; [exact H|]. eapply IH; eauto.
Qed.

Lemma d_mono :
  (forall f st a st', d_field cfg_final f st a = Ok st' -> d_failed st = true -> d_failed st' = true) /\
  (forall fs st base st', d_fields cfg_final fs st base = Ok st' -> d_failed st = true -> d_failed st' = true).
Proof.
  apply field_fields_mut.
  - intros n st a st' H. cbn in H. inversion H. auto.
  - intros st a st' H. cbn [d_field] in H. eapply d_buffer_mono; eauto.
  - intros st a st' H. cbn [d_field] in H. eapply d_buffer_mono; eauto.
  - intros n st a st' H. cbn [d_field] in H. eapply d_buffer_mono; eauto.
  - intros st a st' H. cbn [d_field fix_nested_al cfg_final] in H. eapply d_buffer_mono; eauto.
  - intros esz efs IH st a st' H Hf. destruct (d_field_arr_inv _ _ _ _ _ H) as [st1 [E1 Hrest]].
    pose proof (d_buffer_mono _ _ _ E1 Hf) as Hf1.
    destruct Hrest as [->|[k [p Hl]]]; [exact Hf1|]. exact (d_loop_mono efs esz IH _ _ _ _ Hl Hf1).
  - intros st a st' H. cbn [d_field] in H. eapply d_iovarr_mono; eauto.
  - intros st a st' H. cbn [d_field fix_nested_al cfg_final] in H. eapply d_iovarr_mono; eauto.
  - intros fs IH st a st' H. cbn [d_field] in H. eapply IH; eauto.
  - intros vsz vfs _ st a st' H Hf. cbn [d_field] in H.
    destruct (d_buffer cfg_final st a) as [st1|] eqn:E1; cbn [bind] in H; [|discriminate].
    eapply d_buffer_mono; [exact H|]. eapply d_buffer_mono; eauto.
  - intros st base st' H. cbn in H. inversion H. auto.
  - intros off f IHf r IHr st base st' H Hf. rewrite d_fields_cons in H.
    destruct (d_field cfg_final f st (base + off)) as [st1|] eqn:E1; cbn [bind] in H; [|discriminate].
    eapply IHr; [exact H|]. eapply IHf; eauto.
Qed.

(* provenance: a claimed range lies inside an element of the ORIGINAL input vector E, or inside an
   allocation slot (a region with index >= n0, i.e. appended after the start) *)
Definition orig (E : list (Z * Z)) (n0 : Z) (ls : list Z) (c : Z * Z) : Prop :=
  (exists e, In e E /\ within c e) \/
  (exists k L, n0 <= k /\ nth_z ls k = Some L /\ within c (region_base k, L)).

Lemma orig_ext E n0 ls ls' c : ext ls ls' -> orig E n0 ls c -> orig E n0 ls' c.
Proof.
  intros [x ->] [H|[k [L [Hk [Hn W]]]]]; [left; exact H|]. right. exists k, L. split; [exact Hk|]. split; [|exact W].
  apply nth_z_app_l. exact Hn.
Qed.

Lemma orig_prov E E' n0 n0' ls c : prov E' E -> n0 <= n0' -> orig E' n0' ls c -> orig E n0 ls c.
Proof.
  intros P Hn [[e [He W]]|[k [L [Hk [Hl W]]]]].
  - destruct (P e He) as [e0 [H0 W0]]. left. exists e0. split; [exact H0|eapply within_trans; eauto].
  - right. exists k, L. split; [lia|]. split; [exact Hl|exact W].
Qed.

Lemma ext_len ls ls' : ext ls ls' -> len ls <= len ls'.
Proof. intros [x ->]. rewrite len_app. pose proof (len_nonneg x). lia. Qed.

(* what xpost says about the provenance of the extracted range *)
Lemma xpost_orig m v n p m' v' got rest : xpost m v n p m' v' got rest -> 0 < n -> orig (i_el v) (len m) (lens m') (p, n).
Proof.
  intros [_ [_ [_ [_ [_ [_ [_ [_ [_ [_ [_ Pv]]]]]]]]]]] Hn.
  destruct Pv as [[e [He W]]|[-> [d [-> Hd]]]]; [left; eauto|].
  right. exists (len m), n. split; [lia|]. split; [|apply within_refl].
  rewrite lens_app. cbn [lens map]. rewrite Hd. rewrite <- (len_lens m). apply nth_z_app_last.
Qed.
