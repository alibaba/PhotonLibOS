(* C12_RtD.v — route (c) of ser_roundtrip: what the field recursion of the deserializer against the
   flat byte string is built from.  If the remaining input denotes  wire(f) ++ rest  (whatever its
   fragmentation; elements pairwise separated), processing field f consumes exactly wire(f),
   leaves a vector denoting rest, and the value read back from the receiver's memory equals the
   sender's value.  Here: frames and footprints over the claimed ranges (body, extracted buffers:
   each inside an input element or a fresh allocation slot); the length words the receiver must
   find (eq_f, blk).  The invariant and the recursion over the fields are in the files above. *)
From Coq Require Import ZArith List Bool Lia.
From PV Require Import Base.U64 C12.C12_Model C12.C12_Mem C12.C12_MemC C12.C12_Iov C12.C12_Flat C12.C12_Deser C12.C12_Sep C12.C12_Wire.
Import ListNotations.
Local Open Scope Z_scope.

(* loads inside a claimed range and separated from the written ranges W are unchanged *)
Definition frameO (m m' : mem) (Own W : list (Z * Z)) : Prop :=
  forall x k, (exists c, In c Own /\ within (x, k) c) -> (forall r, In r W -> sep (x, k) r) -> load m' x k = load m x k.

(* every range of a footprint is empty, or inside a static range of S, or inside a newly claimed range *)
Definition fpok (F S new : list (Z * Z)) : Prop :=
  forall r, In r F -> snd r <= 0 \/ (exists s, In s S /\ within r s) \/ (exists c, In c new /\ within r c).

Lemma agree_nonpos m m' r : snd r <= 0 -> agree m m' r.
Proof. intros H x k [W1 W2]. cbn [fst snd] in *. rewrite !load_nonpos by lia. reflexivity. Qed.

Lemma frame_agree m m' Own W r : frameO m m' Own W -> (exists c, In c Own /\ within r c) -> (forall q, In q W -> sep r q) -> agree m m' r.
Proof.
  intros F [c [Hc Wc]] Hs x k Hw. apply F.
  - exists c. split; [exact Hc|eapply within_trans; eauto].
  - intros q Hq. eapply within_sep; eauto.
Qed.

Lemma frameO_refl m Own W : frameO m m Own W.
Proof. intros x k _ _. reflexivity. Qed.

(* a footprint established while Own ++ new1 was claimed survives a later step that writes S2 inside c0 *)
Lemma stab m1 m2 Own new1 F S1 S2 c0 :
  fpok F S1 new1 -> frameO m1 m2 (Own ++ new1) S2 -> psep (Own ++ new1) -> In c0 Own ->
  (forall s, In s S1 -> within s c0) -> (forall s, In s S2 -> within s c0) ->
  (forall s1 s2, In s1 S1 -> In s2 S2 -> sep s1 s2) ->
  forall r, In r F -> agree m1 m2 r.
Proof.
  intros HF Fr Hp Hc0 H1 H2 H12 r Hr. apply psep_app in Hp. destruct Hp as [_ [_ Hx]].
  destruct (HF r Hr) as [H|[[s [Hs Ws]]|[c [Hc Wc]]]].
  - apply agree_nonpos. exact H.
  - eapply frame_agree; [exact Fr| |].
    + exists c0. split; [apply in_or_app; left; exact Hc0|eapply within_trans; eauto].
    + intros q Hq. eapply within_sep; [exact Ws|]. apply H12; auto.
  - eapply frame_agree; [exact Fr| |].
    + exists c. split; [apply in_or_app; right; exact Hc|exact Wc].
    + intros q Hq. apply (within_sep2 _ c _ c0 Wc (H2 q Hq)). apply sep_sym. apply Hx; auto.
Qed.

(* footprints: they add up, their static part may be replaced by covering ranges, and
   a value whose footprint was established by one step is still read after the next step *)
Lemma fpok_app F1 F2 S1 S2 D1 D2 : fpok F1 S1 D1 -> fpok F2 S2 D2 -> fpok (F1 ++ F2) (S1 ++ S2) (D1 ++ D2).
Proof.
  intros H1 H2 r Hr. apply in_app_or in Hr. destruct Hr as [Hr|Hr].
  - destruct (H1 r Hr) as [H|[[s [Hs W]]|[c [Hc W]]]]; [left; exact H|right; left; exists s; split; [apply in_or_app; left; exact Hs|exact W]|right; right; exists c; split; [apply in_or_app; left; exact Hc|exact W]].
  - destruct (H2 r Hr) as [H|[[s [Hs W]]|[c [Hc W]]]]; [left; exact H|right; left; exists s; split; [apply in_or_app; right; exact Hs|exact W]|right; right; exists c; split; [apply in_or_app; right; exact Hc|exact W]].
Qed.

Lemma fpok_in F S D : (forall r, In r F -> In r S \/ In r D) -> fpok F S D.
Proof. intros H r Hr. right. destruct (H r Hr) as [Hs|Hd]; [left|right]; exists r; split; auto; apply within_refl. Qed.

Lemma fpok_cover F S S' D : fpok F S D -> (forall s, In s S -> exists s', In s' S' /\ within s s') -> fpok F S' D.
Proof.
  intros H HS r Hr. destruct (H r Hr) as [Hz|[[s [Hs W]]|Hc]]; [left; exact Hz| |right; right; exact Hc].
  destruct (HS s Hs) as [s' [Hs' W']]. right. left. exists s'. split; [exact Hs'|eapply within_trans; eauto].
Qed.

(* the element structs of an array lie side by side: the first one, then K more *)
Lemma elem_ranges efs esz e K : 0 < esz -> 0 <= K * esz -> fields_wf esz efs ->
  (forall s, In s (aranges_fs efs e) -> within s (e, esz)) /\
  (forall s, In s (aranges_fs efs e ++ [(e + esz, K * esz)]) -> exists s', In s' [(e, K * esz + esz)] /\ within s s') /\
  (forall s1 s2, In s1 (aranges_fs efs e) -> In s2 [(e + esz, K * esz)] -> sep s1 s2).
Proof.
  intros Hesz HK Hwf. pose proof (proj2 aranges_within efs esz e Hwf) as HS1. split; [exact HS1|]. split.
  - intros s Hs. exists (e, K * esz + esz). split; [left; reflexivity|]. apply in_app_or in Hs. destruct Hs as [Hs|[<-|[]]].
    + eapply within_trans; [apply HS1; exact Hs|]. unfold within. cbn [fst snd]. lia.
    + unfold within. cbn [fst snd]. lia.
  - intros s1 s2 Hs1 [<-|[]]. eapply within_sep; [apply HS1; exact Hs1|]. unfold sep. cbn [fst snd]. lia.
Qed.

Lemma fpok_slot a p n new : (n = 0 /\ new = [] \/ new = [(p, n)] /\ p <> 0 /\ n <> 0) -> fpok [(a, 16); (p, n)] [(a, 16)] new.
Proof.
  intros Hnew r [<-|[<-|[]]].
  - right. left. exists (a, 16). split; [left; reflexivity|apply within_refl].
  - destruct Hnew as [[-> ->]|[-> _]]; [left; cbn; lia|]. right. right. exists (p, n). split; [left; reflexivity|apply within_refl].
Qed.

Lemma rd_kept m1 m2 Own new1 S1 S2 c0 :
  frameO m1 m2 (Own ++ new1) S2 -> psep (Own ++ new1) -> In c0 Own ->
  (forall s, In s S1 -> within s c0) -> (forall s, In s S2 -> within s c0) ->
  (forall s1 s2, In s1 S1 -> In s2 S2 -> sep s1 s2) ->
  (forall f a R, rd_f f m1 a = Ok R -> fpok (snd R) S1 new1 -> rd_f f m2 a = Ok R) /\
  (forall fs b R, rd_fs fs m1 b = Ok R -> fpok (snd R) S1 new1 -> rd_fs fs m2 b = Ok R).
Proof.
  intros Fr Hp Hc0 H1 H2 H12. split; intros x a R Hr Hf; [apply (proj1 (rd_stable m1 m2) x a R Hr)|apply (proj2 (rd_stable m1 m2) x a R Hr)];
    exact (stab _ _ Own new1 _ S1 S2 c0 Hf Fr Hp Hc0 H1 H2 H12).
Qed.

(* `failed` of the deserializer and `full` of the serializer are never cleared by a step: a flag that is
   clear after the step was clear before it *)
Lemma sticky_clear (b b' : bool) : (b = true -> b' = true) -> b' = false -> b = false.
Proof. destruct b; [|reflexivity]. intros H E. rewrite (H eq_refl) in E. discriminate. Qed.

(* what the receiver must find in a struct before it processes it: the length words *)
Fixpoint eq_f (f : field) (mr : mem) (a : Z) (ms : mem) (sa : Z) : Prop :=
  match f with
  | FFixed n => load mr a n = load ms sa n
  | FBuf | FStr | FFixBuf _ | FABuf | FArr _ _ => load64 mr (a + 8) = load64 ms (sa + 8)
  | FIov | FAIov => load64 mr (a + 16) = load64 ms (sa + 16)
  | FNest fs => eq_fs fs mr a ms sa
  | FMap _ _ => load64 mr (a + 8) = load64 ms (sa + 8) /\ load64 mr (a + 24) = load64 ms (sa + 24)
  end
with eq_fs (fs : fields) (mr : mem) (base : Z) (ms : mem) (sbase : Z) : Prop :=
  match fs with FNil => True | FCons off f r => eq_f f mr (base + off) ms (sbase + off) /\ eq_fs r mr base ms sbase end.

(* the two structs hold the same bytes *)
Definition blk (mr : mem) (a : Z) (ms : mem) (sa sz : Z) : Prop :=
  forall o k, 0 <= o -> 0 <= k -> o + k <= sz -> load mr (a + o) k = load ms (sa + o) k.

Lemma blk_shift mr a ms sa sz d : blk mr a ms sa sz -> 0 <= d -> blk mr (a + d) ms (sa + d) (sz - d).
Proof.
  intros B Hd o k Ho Hk Hok. replace (a + d + o) with (a + (d + o)) by lia. replace (sa + d + o) with (sa + (d + o)) by lia.
  apply B; lia.
Qed.

Lemma blk_sub mr a ms sa sz sz' : blk mr a ms sa sz -> sz' <= sz -> blk mr a ms sa sz'.
Proof. intros B H o k Ho Hk Hok. apply B; lia. Qed.

Lemma blk_load64 mr a ms sa sz o : blk mr a ms sa sz -> 0 <= o -> o + 8 <= sz -> load64 mr (a + o) = load64 ms (sa + o).
Proof. intros B Ho H. unfold load64. rewrite (B o 8) by lia. reflexivity. Qed.

Lemma blk_eq mr ms :
  (forall f avail a sa, field_wf avail f -> blk mr a ms sa avail -> eq_f f mr a ms sa) /\
  (forall fs sz base sbase, fields_wf sz fs -> blk mr base ms sbase sz -> eq_fs fs mr base ms sbase).
Proof.
  assert (Hlen : forall avail a sa, 16 <= avail -> blk mr a ms sa avail -> load64 mr (a + 8) = load64 ms (sa + 8)).
  { intros avail a sa H B. apply (blk_load64 _ _ _ _ _ 8 B); lia. }
  assert (Hsum : forall avail a sa, 24 <= avail -> blk mr a ms sa avail -> load64 mr (a + 16) = load64 ms (sa + 16)).
  { intros avail a sa H B. apply (blk_load64 _ _ _ _ _ 16 B); lia. }
  apply field_fields_mut; cbn [eq_f eq_fs field_wf fields_wf].
  - intros n avail a sa H B. specialize (B 0 n). rewrite !Z.add_0_r in B. apply B; lia.
  - exact Hlen.
  - exact Hlen.
  - intros n. exact Hlen.
  - exact Hlen.
  - intros esz efs _ avail a sa [H _]. apply Hlen. exact H.
  - exact Hsum.
  - exact Hsum.
  - intros fs IH avail a sa H B. eapply IH; eauto.
  - intros vsz vfs _ avail a sa H B. split; [apply (blk_load64 _ _ _ _ _ 8 B); lia|apply (blk_load64 _ _ _ _ _ 24 B); lia].
  - intros. exact I.
  - intros off f IHf r IHr sz base sbase [Ho [Hf Hr]] B. split.
    + apply (IHf (sz - off)); [exact Hf|]. apply blk_shift; auto.
    + eapply IHr; eauto.
Qed.

Lemma blk_of_loads mr a ms sa sz bs : Forall (fun L => L <= STRIDE) (lens mr) -> Forall (fun L => L <= STRIDE) (lens ms) ->
  load mr a sz = Ok bs -> load ms sa sz = Ok bs -> blk mr a ms sa sz.
Proof.
  intros W1 W2 L1 L2 o k Ho Hk Hok. destruct (Z.eq_dec k 0) as [->|Hk0]; [rewrite !load_nonpos by lia; reflexivity|].
  destruct (load_inv _ _ _ _ L1 ltac:(lia)) as [_ [A1 _]]. destruct (load_inv _ _ _ _ L2 ltac:(lia)) as [_ [A2 _]].
  pose proof ARENA_pos.
  rewrite (load_sub mr a sz bs o k W1 L1) by lia. rewrite (load_sub ms sa sz bs o k W2 L2) by lia. reflexivity.
Qed.

Lemma eq_stable mr mr' ms :
  (forall f a sa, (forall r, In r (aranges_f f a) -> agree mr mr' r) -> eq_f f mr a ms sa -> eq_f f mr' a ms sa) /\
  (forall fs base sbase, (forall r, In r (aranges_fs fs base) -> agree mr mr' r) -> eq_fs fs mr base ms sbase -> eq_fs fs mr' base ms sbase).
Proof.
  (* a length word at offset o of a slot of w bytes *)
  assert (Hword : forall w o, 0 <= o -> o + 8 <= w -> forall a sa, (forall r, In r [(a, w)] -> agree mr mr' r) ->
    load64 mr (a + o) = load64 ms (sa + o) -> load64 mr' (a + o) = load64 ms (sa + o)).
  { intros w o H0 H1 a sa A E. rewrite (agree_load64 mr mr' (a, w)); [exact E|apply A; left; reflexivity|unfold within; cbn; lia]. }
  apply field_fields_mut; cbn [eq_f eq_fs aranges_f aranges_fs].
  - intros n a sa A E. rewrite (A (a, n) (or_introl eq_refl) a n (within_refl _)). exact E.
  - exact (Hword 16 8 ltac:(lia) ltac:(lia)).
  - exact (Hword 16 8 ltac:(lia) ltac:(lia)).
  - intros n. exact (Hword 16 8 ltac:(lia) ltac:(lia)).
  - exact (Hword 16 8 ltac:(lia) ltac:(lia)).
  - intros esz efs _. exact (Hword 16 8 ltac:(lia) ltac:(lia)).
  - exact (Hword 24 16 ltac:(lia) ltac:(lia)).
  - exact (Hword 24 16 ltac:(lia) ltac:(lia)).
  - intros fs IH a sa A E. apply IH; auto.
  - intros vsz vfs _ a sa A [E1 E2]. split.
    + apply (Hword 16 8 ltac:(lia) ltac:(lia)); [|exact E1]. intros r [<-|[]]. apply A. left. reflexivity.
    + replace (a + 24) with (a + 16 + 8) in * by lia. replace (sa + 24) with (sa + 16 + 8) in * by lia.
      apply (Hword 16 8 ltac:(lia) ltac:(lia)); [|exact E2]. intros r [<-|[]]. apply A. right. left. reflexivity.
  - intros. exact I.
  - intros off f IHf r IHr base sbase A [E1 E2]. split.
    + apply IHf; [|exact E1]. intros x Hx. apply A. apply in_or_app. auto.
    + apply IHr; [|exact E2]. intros x Hx. apply A. apply in_or_app. auto.
Qed.

Fixpoint sup_f (f : field) : Prop :=
  match f with FIov | FAIov => False | FArr _ efs => sup_fs efs | FNest fs => sup_fs fs | _ => True end
with sup_fs (fs : fields) : Prop := match fs with FNil => True | FCons _ f r => sup_f f /\ sup_fs r end.

Lemma len2 {A} (x y : A) l : len (x :: y :: l) = 2 + len l.
Proof. rewrite !len_cons. lia. Qed.
