(* C12_MemC.v — content lemmas for the byte memory: what a load returns after a store. *)
From Coq Require Import ZArith List Bool Lia.
From PV Require Import Base.U64 C12.C12_Model C12.C12_Mem.
Import ListNotations.
Local Open Scope Z_scope.

Lemma upd_nth_length {A} (l : list A) k x : length (upd_nth l k x) = length l.
Proof. revert k. induction l as [|h t IH]; intros [|k]; cbn; auto. Qed.

Lemma nth_error_upd_same {A} (l : list A) k x : (k < length l)%nat -> nth_error (upd_nth l k x) k = Some x.
Proof. revert k. induction l as [|h t IH]; intros [|k] H; cbn in *; try lia; auto. apply IH. lia. Qed.

Lemma nth_error_upd_other {A} (l : list A) k k' x : k <> k' -> nth_error (upd_nth l k x) k' = nth_error l k'.
Proof. revert k k'. induction l as [|h t IH]; intros [|k] [|k'] H; cbn; auto; try congruence. Qed.

Lemma nth_z_some_range {A} (l : list A) i r : nth_z l i = Some r -> 0 <= i < len l.
Proof.
  unfold nth_z. destruct (i <? 0) eqn:E1; [discriminate|]. destruct (len l <=? i) eqn:E2; [discriminate|].
  apply Z.ltb_ge in E1. apply Z.leb_gt in E2. lia.
Qed.

Lemma nth_z_upd_same {A} (l : list A) i x r : nth_z l i = Some r -> nth_z (upd_nth l (Z.to_nat i) x) i = Some x.
Proof.
  intros H. pose proof (nth_z_some_range _ _ _ H) as R. unfold nth_z, len in *. rewrite upd_nth_length.
  destruct ((i <? 0) || (Z.of_nat (length l) <=? i)); [discriminate|].
  apply nth_error_upd_same. lia.
Qed.

Lemma nth_z_upd_other {A} (l : list A) i j x : 0 <= i -> i <> j -> nth_z (upd_nth l (Z.to_nat i) x) j = nth_z l j.
Proof.
  intros Hi Hij. unfold nth_z, len. rewrite upd_nth_length.
  destruct (j <? 0) eqn:E1; [reflexivity|]. cbn [orb]. destruct (Z.of_nat (length l) <=? j); [reflexivity|].
  apply Z.ltb_ge in E1. apply nth_error_upd_other. lia.
Qed.

Lemma skipn_skipn' {A} (x y : nat) (l : list A) : skipn x (skipn y l) = skipn (y + x) l.
Proof. revert l. induction y as [|y IH]; intros l; [reflexivity|]. destruct l; [destruct x; reflexivity|]. cbn. apply IH. Qed.

Lemma splice_read_inside (bs v : list byte) o : (o + length v <= length bs)%nat ->
  firstn (length v) (skipn o (firstn o bs ++ v ++ skipn (o + length v) bs)) = v.
Proof.
  intros H. rewrite skipn_app. rewrite firstn_length, Nat.min_l by lia.
  rewrite skipn_all2 by (rewrite firstn_length; lia). rewrite Nat.sub_diag. cbn [skipn app].
  rewrite firstn_app, firstn_all, Nat.sub_diag. cbn [firstn]. apply app_nil_r.
Qed.

Lemma splice_read_before (bs v : list byte) o oa n : (oa + n <= o)%nat -> (o + length v <= length bs)%nat ->
  firstn n (skipn oa (firstn o bs ++ v ++ skipn (o + length v) bs)) = firstn n (skipn oa bs).
Proof.
  intros H1 H2. rewrite skipn_app. rewrite firstn_length, Nat.min_l by lia.
  replace (oa - o)%nat with 0%nat by lia. cbn [skipn].
  rewrite firstn_app. rewrite skipn_length, firstn_length, Nat.min_l by lia.
  replace (n - (o - oa))%nat with 0%nat by lia. cbn [firstn]. rewrite app_nil_r.
  rewrite skipn_firstn_comm, firstn_firstn. rewrite Nat.min_l by lia. reflexivity.
Qed.

Lemma splice_read_after (bs v : list byte) o oa : (o + length v <= oa)%nat -> (o + length v <= length bs)%nat ->
  skipn oa (firstn o bs ++ v ++ skipn (o + length v) bs) = skipn oa bs.
Proof.
  intros H1 H2. rewrite skipn_app. rewrite firstn_length, Nat.min_l by lia.
  rewrite skipn_all2 by (rewrite firstn_length; lia). cbn [app].
  rewrite skipn_app. rewrite skipn_all2 by lia. cbn [app].
  rewrite skipn_skipn'. f_equal. lia.
Qed.

Lemma splice_nat bs off v : 0 <= off ->
  splice bs off v = firstn (Z.to_nat off) bs ++ v ++ skipn (Z.to_nat off + length v) bs.
Proof. intros H. unfold splice, len. do 3 f_equal. lia. Qed.

Lemma store_inv m a v m' : store m a v = Ok m' -> 0 < len v ->
  exists bs, ARENA <= a /\ nth_z m ((a - ARENA) / STRIDE) = Some bs /\
             (a - ARENA) mod STRIDE + len v <= len bs /\
             m' = upd_nth m (Z.to_nat ((a - ARENA) / STRIDE)) (splice bs ((a - ARENA) mod STRIDE) v).
Proof.
  unfold store. intros H Hv. destruct (len v <=? 0) eqn:E; [apply Z.leb_le in E; lia|].
  destruct (a <? ARENA) eqn:EA; [discriminate|]. apply Z.ltb_ge in EA.
  destruct (nth_z m ((a - ARENA) / STRIDE)) as [bs|] eqn:Hb; [|discriminate].
  destruct ((a - ARENA) mod STRIDE + len v <=? len bs) eqn:El; [|discriminate].
  apply Z.leb_le in El. inversion H. exists bs. auto.
Qed.

Lemma load_store_same m a v m' : store m a v = Ok m' -> 0 < len v -> load m' a (len v) = Ok v.
Proof.
  intros H Hv. destruct (store_inv _ _ _ _ H Hv) as [bs [HA [Hb [Hl ->]]]].
  pose proof (Z.mod_pos_bound (a - ARENA) STRIDE STRIDE_pos) as Hm.
  unfold load. destruct (len v <=? 0) eqn:E; [apply Z.leb_le in E; lia|].
  destruct (a <? ARENA) eqn:EA; [apply Z.ltb_lt in EA; lia|].
  rewrite (nth_z_upd_same _ _ _ _ Hb).
  rewrite len_splice by lia.
  destruct ((a - ARENA) mod STRIDE + len v <=? len bs) eqn:El; [|apply Z.leb_gt in El; lia].
  f_equal. rewrite splice_nat by lia.
  replace (Z.to_nat (len v)) with (length v) by (unfold len; lia).
  apply splice_read_inside. unfold len in *. lia.
Qed.

Lemma load_store_other m b v m' a n : store m b v = Ok m' -> (a + n <= b \/ b + len v <= a) ->
  load m' a n = load m a n.
Proof.
  intros H Hd. destruct (Z_le_gt_dec (len v) 0) as [Hv|Hv].
  { rewrite (store_nonpos _ _ _ _ Hv H). reflexivity. }
  destruct (store_inv _ _ _ _ H ltac:(lia)) as [bs [HA [Hb [Hl ->]]]].
  pose proof (Z.mod_pos_bound (b - ARENA) STRIDE STRIDE_pos) as Hmb.
  pose proof (Z.mod_pos_bound (a - ARENA) STRIDE STRIDE_pos) as Hma.
  pose proof (Z.div_mod (b - ARENA) STRIDE ltac:(pose proof STRIDE_pos; lia)) as Eb.
  pose proof (Z.div_mod (a - ARENA) STRIDE ltac:(pose proof STRIDE_pos; lia)) as Ea.
  pose proof (nth_z_some_range _ _ _ Hb) as Rb.
  unfold load. destruct (n <=? 0) eqn:En; [reflexivity|]. apply Z.leb_gt in En.
  destruct (a <? ARENA) eqn:EA; [reflexivity|]. apply Z.ltb_ge in EA.
  destruct (Z.eq_dec ((b - ARENA) / STRIDE) ((a - ARENA) / STRIDE)) as [Eq|Ne].
  - rewrite <- Eq. rewrite (nth_z_upd_same _ _ _ _ Hb), Hb. rewrite len_splice by lia.
    destruct ((a - ARENA) mod STRIDE + n <=? len bs) eqn:El; [|reflexivity]. apply Z.leb_le in El.
    f_equal. rewrite splice_nat by lia.
    set (ob := (b - ARENA) mod STRIDE) in *. set (oa := (a - ARENA) mod STRIDE) in *.
    assert (Hoff : oa + n <= ob \/ ob + len v <= oa) by (rewrite Eq in Eb; lia).
    destruct Hoff as [Hbef|Haft].
    + apply splice_read_before; unfold len in *; lia.
    + rewrite splice_read_after; [reflexivity| |]; unfold len in *; lia.
  - rewrite nth_z_upd_other by lia. reflexivity.
Qed.

Lemma load64_store64_same m a v m' : store64 m a v = Ok m' -> 0 <= v < W64 -> load64 m' a = Ok v.
Proof.
  unfold store64, load64. intros H Hv.
  pose proof (load_store_same _ _ _ _ H) as L. rewrite le_enc_len in L. change (Z.of_nat 8) with 8 in L.
  rewrite L by lia. cbn [bind]. f_equal. apply le_dec_enc. exact Hv.
Qed.

Lemma load64_store_other m b v m' a : store m b v = Ok m' -> (a + 8 <= b \/ b + len v <= a) ->
  load64 m' a = load64 m a.
Proof. intros H Hd. unfold load64. rewrite (load_store_other _ _ _ _ _ _ H Hd). reflexivity. Qed.

Lemma load_app m extra a n : validb (lens m) a n = true -> load (m ++ extra) a n = load m a n.
Proof.
  unfold validb, load, lens. destruct (n <=? 0); [reflexivity|]. destruct (a <? ARENA); [discriminate|].
  rewrite nth_z_map. destruct (nth_z m ((a - ARENA) / STRIDE)) as [bs|] eqn:Hb; cbn [option_map]; [|discriminate].
  rewrite (nth_z_app_l _ _ _ _ Hb). reflexivity.
Qed.

Lemma lens_app m extra : lens (m ++ extra) = lens m ++ lens extra.
Proof. unfold lens. apply map_app. Qed.

Lemma region_base_decode r off : 0 <= r -> 0 <= off < STRIDE ->
  ARENA <= region_base r + off /\ (region_base r + off - ARENA) / STRIDE = r /\ (region_base r + off - ARENA) mod STRIDE = off.
Proof.
  intros Hr Ho. unfold region_base. pose proof STRIDE_pos. pose proof (Z.mul_nonneg_nonneg r STRIDE Hr ltac:(lia)). split; [lia|]. split.
  - symmetry. apply (Z.div_unique_pos _ _ _ off); lia.
  - symmetry. apply (Z.mod_unique_pos _ _ r); lia.
Qed.

Lemma nth_z_app_last {A} (l : list A) x : nth_z (l ++ [x]) (len l) = Some x.
Proof.
  unfold nth_z, len. rewrite app_length. cbn [length].
  destruct (Z.of_nat (length l) <? 0) eqn:E1; [apply Z.ltb_lt in E1; lia|].
  destruct (Z.of_nat (length l + 1) <=? Z.of_nat (length l)) eqn:E2; [apply Z.leb_le in E2; lia|]. cbn [orb].
  rewrite Nat2Z.id. rewrite nth_error_app2 by lia. rewrite Nat.sub_diag. reflexivity.
Qed.

Lemma upd_nth_app_last {A} (l : list A) x y : upd_nth (l ++ [x]) (length l) y = l ++ [y].
Proof. induction l as [|h t IH]; cbn; [reflexivity|]. rewrite IH. reflexivity. Qed.

Lemma store_fresh m d : 0 < len d -> len d <= STRIDE ->
  store (m ++ [zeros (len d)]) (region_base (len m)) d = Ok (m ++ [d]).
Proof.
  intros Hd Hs. pose proof (len_nonneg m) as Hm.
  destruct (region_base_decode (len m) 0 Hm ltac:(pose proof STRIDE_pos; lia)) as [HA [Hq Ho]].
  rewrite Z.add_0_r in *. unfold store.
  destruct (len d <=? 0) eqn:E; [apply Z.leb_le in E; lia|].
  destruct (region_base (len m) <? ARENA) eqn:EA; [apply Z.ltb_lt in EA; lia|].
  rewrite Hq, Ho, nth_z_app_last.
  assert (Hz : len (zeros (len d)) = len d) by (unfold zeros, len; rewrite repeat_length; lia).
  rewrite Hz. destruct (0 + len d <=? len d) eqn:El; [|apply Z.leb_gt in El; lia].
  f_equal. replace (Z.to_nat (len m)) with (length m) by (unfold len; lia). rewrite upd_nth_app_last. f_equal. f_equal.
  unfold splice. cbn [Z.to_nat firstn app]. rewrite skipn_all2; [apply app_nil_r|].
  unfold zeros, len. rewrite repeat_length. lia.
Qed.
