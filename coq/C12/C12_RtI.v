(* C12_RtI.v — ser_roundtrip, receiver half, for every shape: if the remaining input denotes  wire(f) ++ rest
   (whatever its fragmentation), processing field f consumes exactly wire(f) without failing and the value read
   back from the receiver's memory is the sender's.  For iovec arrays the sender's value must carry accurate
   summed_size fields (vsum) — SerializerIOV::process_field(iovec_array&) establishes exactly that. *)
From Coq Require Import ZArith List Bool Lia.
From PV Require Import Base.U64 C12.C12_Model C12.C12_Mem C12.C12_MemC C12.C12_Iov C12.C12_Flat C12.C12_Deser C12.C12_Sep C12.C12_Wire C12.C12_RtD C12.C12_Perm C12.C12_RtC C12.C12_Hx C12.C12_View C12.C12_Hb C12.C12_Hb2.
Import ListNotations.
Local Open Scope Z_scope.

(* summed_size of every iovec array in a value equals the number of its bytes *)
Fixpoint vsum (v : value) : Prop :=
  match v with
  | VIov s bs => s = len bs
  | VArr _ _ es =>
      (fix go2 (l : list (list value)) : Prop :=
         match l with
         | [] => True
         | x :: r => (fix go (l1 : list value) : Prop := match l1 with [] => True | y :: r1 => vsum y /\ go r1 end) x /\ go2 r
         end) es
  | VNest vs => (fix go (l1 : list value) : Prop := match l1 with [] => True | y :: r1 => vsum y /\ go r1 end) vs
  | _ => True
  end.
Definition vsums := fix go (l1 : list value) : Prop := match l1 with [] => True | y :: r1 => vsum y /\ go r1 end.
Definition vsumss := fix go2 (l : list (list value)) : Prop := match l with [] => True | x :: r => vsums x /\ go2 r end.
Lemma vsum_nest vs : vsum (VNest vs) = vsums vs. Proof. reflexivity. Qed.
Lemma vsum_arr n bs es : vsum (VArr n bs es) = vsumss es. Proof. reflexivity. Qed.

Lemma vsums_app a b : vsums (a ++ b) <-> vsums a /\ vsums b.
Proof. induction a as [|x r IH]; cbn [app vsums]; [tauto|]. fold vsums. rewrite IH. tauto. Qed.

(* the honest receiver.  Memory safety (separation, provenance, frames) is the business of the hostile
   theorem h_all of C12_Hb2.v, which holds of every run; what is added here for a stream that a sender
   produced is: no step fails, each field consumes exactly its wire string, and the value read back is the
   sender's.  State: HR, not failed, and the remaining input denotes w. *)
Definition rpost (st st' : dst) (w' : list byte) (bound : Z) : Prop :=
  d_failed st' = false /\ flat (d_mem st') (i_el (d_iov st')) = Ok w' /\
  i_cap (d_iov st') = i_cap (d_iov st) /\ i_nb (d_iov st') <= i_nb (d_iov st) + bound.

Lemma rpost_trans st st1 st2 w1 w2 b1 b2 : rpost st st1 w1 b1 -> rpost st1 st2 w2 b2 -> rpost st st2 w2 (b1 + b2).
Proof. intros [_ [_ [C D]]] [A [B [C' D']]]. unfold rpost. split; [exact A|]. split; [exact B|]. split; [congruence|lia]. Qed.

Lemma rpost_refl st w b : d_failed st = false -> flat (d_mem st) (i_el (d_iov st)) = Ok w -> 0 <= b -> rpost st st w b.
Proof. intros A B C. unfold rpost. split; [exact A|]. split; [exact B|]. split; [reflexivity|lia]. Qed.

Lemma rpost_le st st' w b b' : rpost st st' w b -> b <= b' -> rpost st st' w b'.
Proof. intros [A [B [C D]]] H. unfold rpost. split; [exact A|]. split; [exact B|]. split; [exact C|lia]. Qed.

(* after process_field(buffer&) on a slot whose extraction did not fail, d_field of an array goes on to the elements *)
Lemma d_field_arr_run esz efs st a st1 p n new :
  d_buffer cfg_final st a = Ok st1 -> load64 (d_mem st1) a = Ok p -> load64 (d_mem st1) (a + 8) = Ok n ->
  (n = 0 /\ new = [] \/ new = [(p, n)] /\ p <> 0 /\ n <> 0) ->
  d_field cfg_final (FArr esz efs) st a = if fields_active efs then d_loop efs esz (Z.to_nat (n / esz)) st1 p else Ok st1.
Proof.
  intros Hdb L1 L2 Hnew. rewrite d_field_arr, Hdb. cbn [bind]. rewrite L1. cbn [bind]. rewrite L2. cbn [bind].
  destruct (n / esz =? 0) eqn:Ez.
  - apply Z.eqb_eq in Ez. rewrite Ez. destruct (fields_active efs); reflexivity.
  - apply Z.eqb_neq in Ez. destruct (p =? 0) eqn:Ep; [|reflexivity]. apply Z.eqb_eq in Ep.
    destruct Hnew as [[-> _]|[_ [Hp _]]]; [rewrite Zdiv_0_l in Ez|]; congruence.
Qed.

Section RT.
Variable ms : mem.
Hypothesis ms_wf : Forall (fun L => L <= STRIDE) (lens ms).

Definition Pf' (f : field) : Prop := forall avail st a sa Own c0 val wf Fs w',
  field_wf avail f -> lay_f f -> psep (aranges_f f a) ->
  HR (d_mem st) (d_iov st) Own -> In c0 Own -> within (a, avail) c0 ->
  d_failed st = false -> flat (d_mem st) (i_el (d_iov st)) = Ok (wf ++ w') ->
  rd_f f ms sa = Ok (val, wf, Fs) -> vsum val -> eq_f f (d_mem st) a ms sa ->
  i_nb (d_iov st) + len Fs <= i_cap (d_iov st) ->
  exists st', d_field cfg_final f st a = Ok st' /\ rpost st st' w' (len Fs) /\
    exists w2 F, rd_f f (d_mem st') a = Ok (val, w2, F).

Definition Pfs' (fs : fields) : Prop := forall sz st base sbase Own c0 vals wf Fs w',
  fields_wf sz fs -> lay_fs fs -> psep (aranges_fs fs base) ->
  HR (d_mem st) (d_iov st) Own -> In c0 Own -> within (base, sz) c0 ->
  d_failed st = false -> flat (d_mem st) (i_el (d_iov st)) = Ok (wf ++ w') ->
  rd_fs fs ms sbase = Ok (vals, wf, Fs) -> vsums vals -> eq_fs fs (d_mem st) base ms sbase ->
  i_nb (d_iov st) + len Fs <= i_cap (d_iov st) ->
  exists st', d_fields cfg_final fs st base = Ok st' /\ rpost st st' w' (len Fs) /\
    exists w2 F, rd_fs fs (d_mem st') base = Ok (vals, w2, F).

(* process_field(buffer&) on a slot (sa in the sender, a in the receiver) whose bytes head the input *)
Lemma rt_slot st a sa Own c0 ps ns bs w' :
  HR (d_mem st) (d_iov st) Own -> In c0 Own -> within (a, 16) c0 -> d_failed st = false ->
  flat (d_mem st) (i_el (d_iov st)) = Ok (bs ++ w') ->
  load64 ms sa = Ok ps -> load64 ms (sa + 8) = Ok ns -> load ms ps ns = Ok bs ->
  load64 (d_mem st) (a + 8) = Ok ns -> i_nb (d_iov st) < i_cap (d_iov st) ->
  exists st' new p, d_buffer cfg_final st a = Ok st' /\ rpost st st' w' 1 /\
    HR (d_mem st') (d_iov st') (Own ++ new) /\
    load64 (d_mem st') a = Ok p /\ load64 (d_mem st') (a + 8) = Ok ns /\ load (d_mem st') p ns = Ok bs /\
    (ns = 0 /\ new = [] \/ new = [(p, ns)] /\ p <> 0 /\ ns <> 0) /\
    frameO (d_mem st) (d_mem st') Own [(a, 16)].
Proof.
  intros HR0 Hc0 Wa Hnf Hfl Lps Lns Lbs Heq Hcap.
  destruct (d_buffer_ok st a 16 ltac:(lia) (proj1 HR0) (HR_valid _ _ _ _ _ _ HR0 Hc0 Wa)) as [st' [Hdb _]].
  pose proof (load_len _ _ _ _ Lbs) as Hlb. pose proof (len_nonneg w') as Hw'.
  destruct (d_buffer_cases st a st' Own c0 _ HR0 Hc0 Wa Hfl Hdb) as [n [En [[_ Hwhy]|[Hfd [Hc [Hn [new [p [HP [L1 [L2 [Rn [Hnew [Hfl' L3]]]]]]]]]]]]]];
    rewrite Heq in En; injection En as <-; [rewrite len_app in Hwhy; lia|].
  assert (Hnb : Z.to_nat ns = length bs) by (unfold len in Hlb; lia).
  rewrite (skipn_app_exact _ _ _ Hnb) in Hfl'. rewrite (firstn_app_exact _ _ _ Hnb) in L3.
  exists st', new, p. unfold rpost. rewrite Hfd. destruct HP as [HR' [_ [_ [_ Hfr]]]]. intuition.
Qed.

Lemma rt_leaf f :
  (forall st a, d_field cfg_final f st a = d_buffer cfg_final st a) ->
  (forall m a, rd_f f m a = rd_f FBuf m a) ->
  (forall avail, field_wf avail f -> 16 <= avail) ->
  (forall mr a sa, eq_f f mr a ms sa -> load64 mr (a + 8) = load64 ms (sa + 8)) ->
  Pf' f.
Proof.
  intros Hd Hr Hw He avail st a sa Own c0 val wf Fs w' Hwf _ _ HR0 Hc0 Wc Hnf Hfl Hrd _ Heq Hnb.
  rewrite Hr in Hrd. cbn [rd_f] in Hrd. destruct (slot_inv _ _ _ _ Hrd) as [ps [ns [bs [Lps [Lns [Lbs K]]]]]].
  inversion K. subst val wf Fs. rewrite len2, len_nil in *. specialize (Hw _ Hwf).
  destruct (rt_slot st a sa Own c0 ps ns bs w' HR0 Hc0) as [st' [new [p [Hdb [RP [_ [L1 [L2 [L3 _]]]]]]]]]; auto.
  { unfold within in *. cbn [fst snd] in *. lia. }
  { rewrite (He _ _ _ Heq). exact Lns. }
  { lia. }
  exists st'. split; [rewrite Hd; exact Hdb|]. split; [apply (rpost_le _ _ _ _ _ RP); lia|].
  exists bs, [(a, 16); (p, ns)]. rewrite Hr. cbn [rd_f]. rewrite L1. cbn [bind]. rewrite L2. cbn [bind]. rewrite L3. reflexivity.
Qed.

Lemma loop_rt' efs esz : Pfs' efs -> 0 < esz -> fields_wf esz efs -> lay_fs efs -> (forall e, psep (aranges_fs efs e)) ->
  forall k st e se Own c0 vss we Fe w',
  HR (d_mem st) (d_iov st) Own -> In c0 Own -> within (e, Z.of_nat k * esz) c0 ->
  d_failed st = false -> flat (d_mem st) (i_el (d_iov st)) = Ok (we ++ w') ->
  rd_elems (rd_fs efs ms) k se esz = Ok (vss, we, Fe) -> vsumss vss -> blk (d_mem st) e ms se (Z.of_nat k * esz) ->
  i_nb (d_iov st) + len Fe <= i_cap (d_iov st) ->
  exists st', d_loop efs esz k st e = Ok st' /\ rpost st st' w' (len Fe) /\
    exists w2 F, rd_elems (rd_fs efs (d_mem st')) k e esz = Ok (vss, w2, F).
Proof.
  intros HP Hesz Hwf Hlay Hps. induction k as [|k IH]; intros st e se Own c0 vss we Fe w' HR0 Hc0 Wc Hnf Hfl Hrd Hvs B Hnb.
  - cbn [rd_elems] in Hrd. inversion Hrd. subst vss we Fe. exists st. split; [reflexivity|].
    split; [apply rpost_refl; auto; apply len_nonneg|]. exists [], []. reflexivity.
  - assert (HS : Z.of_nat (S k) * esz = Z.of_nat k * esz + esz) by lia. rewrite HS in Wc, B. clear HS.
    set (K := Z.of_nat k) in *. assert (HKe : 0 <= K * esz) by (unfold K; nia).
    cbn [rd_elems] in Hrd.
    destruct (rd_fs efs ms se) as [[[v1 w1] F1]|] eqn:E1; cbn [bind] in Hrd; [|discriminate].
    destruct (rd_elems (rd_fs efs ms) k (se + esz) esz) as [[[vs w2] F2]|] eqn:E2; cbn [bind] in Hrd; [|discriminate].
    inversion Hrd. subst vss we Fe. clear Hrd. rewrite <- app_assoc in Hfl. rewrite len_app in *. destruct Hvs as [Hv1 Hvs].
    pose proof (len_nonneg F1) as HF1. pose proof (len_nonneg F2) as HF2.
    assert (W1 : within (e, esz) c0) by (unfold within in *; cbn [fst snd] in *; lia).
    assert (W2 : within (e + esz, K * esz) c0) by (unfold within in *; cbn [fst snd] in *; lia).
    destruct (elem_ranges efs esz e K Hesz HKe Hwf) as [HS1 [_ Hdis]].
    destruct (HP esz st e se Own c0 v1 w1 F1 (w2 ++ w') Hwf Hlay (Hps e) HR0 Hc0 W1 Hnf Hfl E1 Hv1) as [st1 [Hd1 [RP1 [w21 [F1' Hr1]]]]].
    { apply (proj2 (blk_eq _ _) efs esz e se Hwf). eapply blk_sub; [exact B|lia]. }
    { lia. }
    destruct (proj2 h_all efs esz st e st1 Own c0 Hwf Hlay (Hps e) HR0 Hc0 W1 Hd1 (proj1 RP1)) as [new1 [HP1 [vx [wx [Fx [Hrx Hf1]]]]]].
    rewrite Hr1 in Hrx. inversion Hrx. subst vx wx Fx. clear Hrx. pose proof HP1 as [HR1 [_ [_ [_ Fr1]]]].
    destruct (IH st1 (e + esz) (se + esz) (Own ++ new1) c0 vs w2 F2 w' HR1 ltac:(apply in_or_app; left; exact Hc0) W2 (proj1 RP1) (proj1 (proj2 RP1)) E2 Hvs)
      as [st2 [Hd2 [RP2 [w22 [F2' Hr2]]]]].
    { intros o j Ho Hj Hoj. rewrite Fr1.
      - replace (K * esz) with (K * esz + esz - esz) in Hoj by lia. apply (blk_shift _ _ _ _ _ esz B ltac:(lia)); lia.
      - exists c0. split; [exact Hc0|]. unfold within in *. cbn [fst snd] in *. lia.
      - intros r Hr. eapply sep_sub_r; [|apply HS1; exact Hr]. unfold sep. cbn [fst snd]. lia. }
    { destruct RP1 as [_ [_ [C D]]]. lia. }
    destruct (loop_h efs esz (proj2 h_all efs) Hesz Hwf Hlay Hps k st1 (e + esz) st2 (Own ++ new1) c0 HR1 ltac:(apply in_or_app; left; exact Hc0) W2 Hd2 (proj1 RP2))
      as [new2 [HP2 _]].
    exists st2. split; [rewrite d_loop_S, Hd1; exact Hd2|]. split; [exact (rpost_trans _ _ _ _ _ _ _ RP1 RP2)|].
    exists (w21 ++ w22), (F1' ++ F2'). cbn [rd_elems].
    rewrite (proj2 (h_kept _ _ _ _ _ _ _ _ c0 HP1 HP2 Hc0 ltac:(intros s Hs; eapply within_trans; [apply HS1; exact Hs|exact W1])
               ltac:(intros s [<-|[]]; exact W2) Hdis) efs e _ Hr1 Hf1).
    cbn [bind]. rewrite Hr2. reflexivity.
Qed.

Lemma rt_arr esz efs : Pfs' efs -> Pf' (FArr esz efs).
Proof.
  intros IH avail st a sa Own c0 val wf Fs w' [Hw16 [Hesz Hwfe]] [Hpse Hlaye] _ HR0 Hc0 Wc Hnf Hfl Hrd Hvs Heq Hnb.
  cbn [eq_f] in Heq. cbn [rd_f] in Hrd. destruct (slot_inv _ _ _ _ Hrd) as [ps [ns [bs [Lps [Lns [Lbs K]]]]]]. cbn beta in K. clear Hrd.
  assert (Wa : within (a, 16) c0) by (unfold within in *; cbn [fst snd] in *; lia).
  rewrite Lns in Heq.
  destruct (fields_active efs) eqn:Ea.
  2:{ (* elements without fields: like a buffer *)
    inversion K. subst val wf Fs. rewrite len2, len_nil in *.
    destruct (rt_slot st a sa Own c0 ps ns bs w' HR0 Hc0 Wa Hnf Hfl Lps Lns Lbs Heq ltac:(lia)) as [st' [new [p [Hdb [RP [_ [L1 [L2 [L3 [Hnew _]]]]]]]]]].
    exists st'. split; [rewrite (d_field_arr_run esz efs st a st' p ns new Hdb L1 L2 Hnew), Ea; reflexivity|].
    split; [apply (rpost_le _ _ _ _ _ RP); lia|].
    exists bs, [(a, 16); (p, ns)]. cbn [rd_f]. rewrite L1. cbn [bind]. rewrite L2. cbn [bind]. rewrite L3. cbn [bind]. rewrite Ea. reflexivity. }
  (* array of messages *)
  destruct (rd_elems (rd_fs efs ms) (Z.to_nat (ns / esz)) ps esz) as [[[vs we] Fe]|] eqn:Ee; cbn [bind] in K; [|discriminate].
  inversion K. subst val wf Fs. clear K. rewrite len2 in *. pose proof (len_nonneg Fe) as HFe. rewrite vsum_arr in Hvs.
  rewrite <- app_assoc in Hfl.
  destruct (rt_slot st a sa Own c0 ps ns bs (we ++ w') HR0 Hc0 Wa Hnf Hfl Lps Lns Lbs Heq ltac:(lia)) as [st1 [new [p [Hdb [RP1 [HR1 [L1 [L2 [L3 [Hnew _]]]]]]]]]].
  rewrite (d_field_arr_run esz efs st a st1 p ns new Hdb L1 L2 Hnew), Ea.
  destruct Hnew as [[Hns0 Hnew0]|[Hnew1 [Hp0 Hns0]]].
  { (* empty array *)
    subst ns new. rewrite Z.div_0_l in * by lia. cbn [Z.to_nat rd_elems] in Ee. inversion Ee. subst vs we Fe.
    exists st1. split; [reflexivity|]. split; [apply (rpost_le _ _ _ _ _ RP1); rewrite len_nil; lia|].
    exists (bs ++ []), [(a, 16); (p, 0)].
    cbn [rd_f]. rewrite L1. cbn [bind]. rewrite L2. cbn [bind]. rewrite L3. cbn [bind]. rewrite Ea. rewrite Z.div_0_l by lia. reflexivity. }
  subst new. set (k := Z.to_nat (ns / esz)) in *.
  pose proof HR1 as [Hinv1 _].
  assert (Hns : 0 <= ns) by (pose proof (load64_range _ _ _ (inv_bytes _ _ Hinv1) L2); lia).
  assert (Hk : Z.of_nat k * esz <= ns) by exact (elems_fit ns esz Hns Hesz).
  assert (Hin1 : In (p, ns) (Own ++ [(p, ns)])) by (apply in_or_app; right; left; reflexivity).
  assert (Wp : within (p, Z.of_nat k * esz) (p, ns)) by (unfold within; cbn [fst snd]; lia).
  destruct (loop_rt' efs esz IH Hesz Hwfe Hlaye Hpse k st1 p ps (Own ++ [(p, ns)]) (p, ns) vs we Fe w' HR1 Hin1 Wp (proj1 RP1) (proj1 (proj2 RP1)) Ee Hvs)
    as [st2 [Hd2 [RP2 [w2 [F2 Hr2]]]]].
  { eapply blk_sub; [apply (blk_of_loads _ _ _ _ _ bs (inv_wf _ _ Hinv1) ms_wf L3 Lbs)|exact Hk]. }
  { destruct RP1 as [_ [_ [C D]]]. lia. }
  destruct (loop_h efs esz (proj2 h_all efs) Hesz Hwfe Hlaye Hpse k st1 p st2 _ _ HR1 Hin1 Wp Hd2 (proj1 RP2)) as [new2 [HP2 [vssx [wx [Fx [Hrx Hf2]]]]]].
  rewrite Hr2 in Hrx. inversion Hrx. subst vssx wx Fx.
  destruct (rd_arr_back esz efs st1 st2 Own c0 a p ns new2 vs w2 F2 HR1 Hc0 Wa Hesz Hns HP2 L1 L2 Ea Hr2 Hf2) as [w [Hr _]].
  exists st2. split; [exact Hd2|]. split; [apply (rpost_le _ _ _ _ _ (rpost_trans _ _ _ _ _ _ _ RP1 RP2)); lia|]. eauto.
Qed.

Lemma rt_map vsz vfs : Pf' (FMap vsz vfs).
Proof.
  intros avail st a sa Own c0 val wf Fs w' Hw32 _ _ HR0 Hc0 Wc Hnf Hfl Hrd _ [Heq1 Heq2] Hnb.
  cbn [field_wf rd_f d_field] in *.
  destruct (slot_inv _ _ _ _ Hrd) as [ip [inn [ibs [Lip [Linn [Libs K]]]]]]. cbn beta in K. clear Hrd.
  destruct (load64 ms (sa + 16)) as [bp|] eqn:Lbp; cbn [bind] in K; [|discriminate].
  destruct (load64 ms (sa + 24)) as [bn|] eqn:Lbn; cbn [bind] in K; [|discriminate].
  destruct (load ms bp bn) as [bbs|] eqn:Lbbs; cbn [bind] in K; [|discriminate].
  inversion K. subst val wf Fs. clear K. rewrite !len2, len_nil in *. rewrite <- app_assoc in Hfl.
  assert (Wa : within (a, 16) c0) by (unfold within in *; cbn [fst snd] in *; lia).
  assert (Wb : within (a + 16, 16) c0) by (unfold within in *; cbn [fst snd] in *; lia).
  destruct (rt_slot st a sa Own c0 ip inn ibs (bbs ++ w') HR0 Hc0 Wa Hnf Hfl Lip Linn Libs ltac:(rewrite Heq1; exact Linn) ltac:(lia))
    as [st1 [new1 [p1 [Hdb1 [RP1 [HR1 [L1 [L2 [L3 [Hnew1 Hfr1]]]]]]]]]].
  replace (sa + 24) with (sa + 16 + 8) in Lbn by lia.
  destruct (rt_slot st1 (a + 16) (sa + 16) (Own ++ new1) c0 bp bn bbs w' HR1 ltac:(apply in_or_app; left; exact Hc0) Wb (proj1 RP1) (proj1 (proj2 RP1)) Lbp Lbn Lbbs)
    as [st2 [new2 [p2 [Hdb2 [RP2 [HR2 [M1 [M2 [M3 [Hnew2 Hfr2]]]]]]]]]].
  { replace (a + 16 + 8) with (a + 24) by lia. rewrite <- Heq2.
    unfold load64. rewrite Hfr1; [reflexivity| |].
    - exists c0. split; [exact Hc0|]. unfold within in *. cbn [fst snd] in *. lia.
    - intros r [<-|[]]. unfold sep. cbn [fst snd]. lia. }
  { destruct RP1 as [_ [_ [C D]]]. lia. }
  exists st2. split; [rewrite Hdb1; exact Hdb2|]. split; [apply (rpost_le _ _ _ _ _ (rpost_trans _ _ _ _ _ _ _ RP1 RP2)); lia|].
  do 2 eexists. destruct HR1 as [_ [_ [HpO1 _]]].
  apply (rd_map_back vsz vfs (d_mem st1) (d_mem st2) Own new1 c0 a p1 inn ibs p2 bn bbs Hfr2 HpO1 Hc0); auto.
  unfold within in *. cbn [fst snd] in *. lia.
Qed.

Lemma rt_iov f : (forall st a, d_field cfg_final f st a = d_iovarr st a) -> (forall m a, rd_f f m a = rd_f FIov m a) ->
  (forall avail, field_wf avail f -> 24 <= avail) ->
  (forall mr a sa, eq_f f mr a ms sa -> load64 mr (a + 16) = load64 ms (sa + 16)) -> Pf' f.
Proof.
  intros Hd Hr Hw He avail st a sa Own c0 val wf Fs w' Hwf _ _ HR0 Hc0 Wc Hnf Hfl Hrd Hvs Heq Hnb. specialize (Hw _ Hwf).
  rewrite Hr in Hrd. cbn [rd_f] in Hrd.
  destruct (load64 ms sa) as [ps|]; cbn [bind] in Hrd; [|discriminate].
  destruct (load64 ms (sa + 8)) as [ns|]; cbn [bind] in Hrd; [|discriminate].
  destruct (load64 ms (sa + 16)) as [s|] eqn:Ls; cbn [bind] in Hrd; [|discriminate].
  destruct (rd_iovecs ms ps (Z.to_nat (ns / 16))) as [[bs Fp]|]; cbn [bind] in Hrd; [|discriminate].
  inversion Hrd. subst val wf Fs. clear Hrd. cbn [vsum] in Hvs. subst s. rewrite len2 in *. pose proof (len_nonneg Fp) as HFp.
  assert (Wa : within (a, 24) c0) by (unfold within in *; cbn [fst snd] in *; lia).
  assert (Ls' : load64 (d_mem st) (a + 16) = Ok (len bs)) by (rewrite (He _ _ _ Heq); exact Ls).
  destruct (d_iovarr_ok st a 24 ltac:(lia) (proj1 HR0) (HR_valid _ _ _ _ _ _ HR0 Hc0 Wa)) as [st' [Hrun _]].
  exists st'. split; [rewrite Hd; exact Hrun|].
  (* the input holds the len bs bytes announced, and a slot is free: the extraction cannot fail *)
  destruct (d_iovarr_cases st a st' Own c0 (bs ++ w') HR0 Hc0 Wa Hfl Hrun) as [[_ [S [LS Hbad]]]|Hok].
  { rewrite Ls' in LS. inversion LS. subst S. rewrite len_app in Hbad. pose proof (len_nonneg w'). lia. }
  destruct Hok as [Hfl' [Hc [Hn [new [S [_ [_ [HLS [Hfl2 [F [Hrd _]]]]]]]]]]].
  specialize (HLS ltac:(lia)). rewrite Ls' in HLS. inversion HLS. subst S.
  assert (Hlb : Z.to_nat (len bs) = length bs) by (unfold len; lia).
  rewrite (firstn_app_exact _ _ _ Hlb) in Hrd. rewrite (skipn_app_exact _ _ _ Hlb) in Hfl2.
  split; [unfold rpost; split; [congruence|]; split; [exact Hfl2|]; split; [exact Hc|lia]|].
  exists bs, F. rewrite Hr. exact Hrd.
Qed.

Lemma rt_cons off f r : Pf' f -> Pfs' r -> Pfs' (FCons off f r).
Proof.
  intros IHf IHr sz st base sbase Own c0 vals wf Fs w' [Ho [Hwf Hwr]] [Hlf Hlr] Hps HR0 Hc0 Wc Hnf Hfl Hrd Hvs [Heqf Heqr] Hnb.
  cbn [aranges_fs] in *. apply psep_app in Hps. destruct Hps as [Hpf [Hpr Hpx]].
  cbn [rd_fs] in Hrd.
  destruct (rd_f f ms (sbase + off)) as [[[v1 w1] F1]|] eqn:E1; cbn [bind] in Hrd; [|discriminate].
  destruct (rd_fs r ms sbase) as [[[vs w2] F2]|] eqn:E2; cbn [bind] in Hrd; [|discriminate].
  inversion Hrd. subst vals wf Fs. clear Hrd. rewrite <- app_assoc in Hfl. rewrite len_app in *. destruct Hvs as [Hv1 Hvs].
  pose proof (len_nonneg F1) as HF1. pose proof (len_nonneg F2) as HF2.
  assert (W1 : within (base + off, sz - off) c0) by (unfold within in *; cbn [fst snd] in *; lia).
  destruct (IHf (sz - off) st (base + off) (sbase + off) Own c0 v1 w1 F1 (w2 ++ w') Hwf Hlf Hpf HR0 Hc0 W1 Hnf Hfl E1 Hv1 Heqf ltac:(lia))
    as [st1 [Hd1 [RP1 [w21 [F1' Hr1]]]]].
  destruct (proj1 h_all f (sz - off) st (base + off) st1 Own c0 Hwf Hlf Hpf HR0 Hc0 W1 Hd1 (proj1 RP1)) as [new1 [HP1 [vx [wx [Fx [Hrx Hf1]]]]]].
  rewrite Hr1 in Hrx. inversion Hrx. subst vx wx Fx. clear Hrx. pose proof HP1 as [HR1 [_ [_ [_ Fr1]]]].
  assert (HS1 : forall s, In s (aranges_f f (base + off)) -> within s c0).
  { intros s Hs. eapply within_trans; [apply (proj1 aranges_within f (sz - off) (base + off) Hwf s Hs)|exact W1]. }
  assert (HS2 : forall s, In s (aranges_fs r base) -> within s c0).
  { intros s Hs. eapply within_trans; [apply (proj2 aranges_within r sz base Hwr s Hs)|exact Wc]. }
  assert (Hc0' : In c0 (Own ++ new1)) by (apply in_or_app; left; exact Hc0).
  destruct (IHr sz st1 base sbase (Own ++ new1) c0 vs w2 F2 w' Hwr Hlr Hpr HR1 Hc0' Wc (proj1 RP1) (proj1 (proj2 RP1)) E2 Hvs)
    as [st2 [Hd2 [RP2 [w22 [F2' Hr2]]]]].
  { apply (proj2 (eq_stable (d_mem st) (d_mem st1) ms) r base sbase); [|exact Heqr].
    intros s Hs. eapply frame_agree; [exact Fr1|exists c0; split; [exact Hc0|apply HS2; exact Hs]|].
    intros q Hq. apply sep_sym. apply Hpx; auto. }
  { destruct RP1 as [_ [_ [C D]]]. lia. }
  destruct (proj2 h_all r sz st1 base st2 (Own ++ new1) c0 Hwr Hlr Hpr HR1 Hc0' Wc Hd2 (proj1 RP2)) as [new2 [HP2 _]].
  exists st2. split; [rewrite d_fields_cons, Hd1; exact Hd2|]. split; [exact (rpost_trans _ _ _ _ _ _ _ RP1 RP2)|].
  exists (w21 ++ w22), (F1' ++ F2'). cbn [rd_fs].
  rewrite (proj1 (h_kept _ _ _ _ _ _ _ _ c0 HP1 HP2 Hc0 HS1 HS2 Hpx) f _ _ Hr1 Hf1). cbn [bind]. rewrite Hr2. reflexivity.
Qed.

Lemma rt_all' : (forall f, Pf' f) /\ (forall fs, Pfs' fs).
Proof.
  apply field_fields_mut.
  - (* FFixed *) intros n avail st a sa Own c0 val wf Fs w' Hwf _ _ HR0 Hc0 Wc Hnf Hfl Hrd _ Heq Hnb.
    cbn [rd_f] in Hrd. destruct (load ms sa n) as [bs|] eqn:Lbs; cbn [bind] in Hrd; [|discriminate].
    inversion Hrd. subst val wf Fs. cbn [eq_f] in Heq. cbn [app] in Hfl.
    exists st. split; [reflexivity|]. split; [apply rpost_refl; auto; apply len_nonneg|].
    exists [], [(a, n)]. cbn [rd_f]. rewrite Heq, Lbs. reflexivity.
  - apply rt_leaf; try reflexivity; cbn [field_wf eq_f]; auto.
  - apply rt_leaf; try reflexivity; cbn [field_wf eq_f]; auto.
  - intros n. apply rt_leaf; try reflexivity; cbn [field_wf eq_f]; auto.
  - apply rt_leaf; try reflexivity; cbn [field_wf eq_f]; auto.
  - exact rt_arr.
  - apply rt_iov; try reflexivity; cbn [field_wf eq_f]; auto.
  - apply rt_iov; try reflexivity; cbn [field_wf eq_f]; auto.
  - (* FNest *) intros fs IH avail st a sa Own c0 val wf Fs w' Hwf Hlay Hps HR0 Hc0 Wc Hnf Hfl Hrd Hvs Heq Hnb.
    cbn [field_wf lay_f aranges_f eq_f rd_f d_field] in *.
    destruct (rd_fs fs ms sa) as [[[vs w1] F1]|] eqn:E1; cbn [bind] in Hrd; [|discriminate].
    inversion Hrd. subst val wf Fs. clear Hrd. rewrite vsum_nest in Hvs.
    destruct (IH avail st a sa Own c0 vs w1 F1 w' Hwf Hlay Hps HR0 Hc0 Wc Hnf Hfl E1 Hvs Heq Hnb) as [st' [Hd [RP [w2 [F Hr]]]]].
    exists st'. split; [exact Hd|]. split; [exact RP|]. exists w2, F. rewrite Hr. reflexivity.
  - intros vsz vfs _. apply rt_map.
  - (* FNil *) intros sz st base sbase Own c0 vals wf Fs w' _ _ _ HR0 _ _ Hnf Hfl Hrd _ _ _.
    cbn [rd_fs] in Hrd. inversion Hrd. subst vals wf Fs. cbn [app] in Hfl.
    exists st. split; [reflexivity|]. split; [apply rpost_refl; auto; apply len_nonneg|]. exists [], []. reflexivity.
  - intros off f IHf r IHr. exact (rt_cons off f r IHf IHr).
Qed.

End RT.

(* a value read through a shape without iovec arrays carries no summed_size *)
Lemma sup_vsums m :
  (forall f a val w F, sup_f f -> rd_f f m a = Ok (val, w, F) -> vsum val) /\
  (forall fs b vals w F, sup_fs fs -> rd_fs fs m b = Ok (vals, w, F) -> vsums vals).
Proof.
  apply field_fields_mut; try (intros; exact I).
  - intros n a val w F _ H. cbn [rd_f] in H. destruct (load m a n); cbn [bind] in H; [|discriminate]. inversion H. exact I.
  - intros a val w F _ H. cbn [rd_f] in H. destruct (slot_inv _ _ _ _ H) as [p [n [bs [_ [_ [_ K]]]]]]. inversion K. exact I.
  - intros a val w F _ H. cbn [rd_f] in H. destruct (slot_inv _ _ _ _ H) as [p [n [bs [_ [_ [_ K]]]]]]. inversion K. exact I.
  - intros n0 a val w F _ H. cbn [rd_f] in H. destruct (slot_inv _ _ _ _ H) as [p [n [bs [_ [_ [_ K]]]]]]. inversion K. exact I.
  - intros a val w F _ H. cbn [rd_f] in H. destruct (slot_inv _ _ _ _ H) as [p [n [bs [_ [_ [_ K]]]]]]. inversion K. exact I.
  - intros esz efs IH a val w F Hs H. cbn [sup_f] in Hs. cbn [rd_f] in H. destruct (slot_inv _ _ _ _ H) as [p [n [bs [_ [_ [_ K]]]]]].
    cbn beta in K. destruct (fields_active efs); [|inversion K; exact I].
    destruct (rd_elems (rd_fs efs m) (Z.to_nat (n / esz)) p esz) as [[[vs we] Fe]|] eqn:Ee; cbn [bind] in K; [|discriminate]. inversion K. rewrite vsum_arr.
    revert Ee. generalize (Z.to_nat (n / esz)) as k, p, vs, we, Fe. clear - IH Hs.
    induction k as [|k IHk]; intros e vs we Fe H; cbn [rd_elems] in H; [inversion H; exact I|].
    destruct (rd_fs efs m e) as [[[v1 w1] F1]|] eqn:E1; cbn [bind] in H; [|discriminate].
    destruct (rd_elems (rd_fs efs m) k (e + esz) esz) as [[[vs' w'] F']|] eqn:E2; cbn [bind] in H; [|discriminate]. inversion H. split; eauto.
  - intros a val w F [].
  - intros a val w F [].
  - intros fs IH a val w F Hs H. cbn [rd_f sup_f] in *. destruct (rd_fs fs m a) as [[[vs w1] F1]|] eqn:E; cbn [bind] in H; [|discriminate]. inversion H. rewrite vsum_nest. eauto.
  - intros vsz vfs _ a val w F _ H. cbn [rd_f] in H. destruct (slot_inv _ _ _ _ H) as [ip [inn [ibs [_ [_ [_ K]]]]]]. cbn beta in K.
    destruct (load64 m (a + 16)) as [bp|]; cbn [bind] in K; [|discriminate]. destruct (load64 m (a + 24)) as [bn|]; cbn [bind] in K; [|discriminate].
    destruct (load m bp bn); cbn [bind] in K; [|discriminate]. inversion K. exact I.
  - intros b vals w F _ H. inversion H. exact I.
  - intros off f IHf r IHr b vals w F [Hsf Hsr] H. cbn [rd_fs] in H.
    destruct (rd_f f m (b + off)) as [[[v1 w1] F1]|] eqn:E1; cbn [bind] in H; [|discriminate].
    destruct (rd_fs r m b) as [[[vs w2] F2]|] eqn:E2; cbn [bind] in H; [|discriminate]. inversion H. split; eauto.
Qed.

(* the receiver half of ser_roundtrip: deserialize on ANY fragmentation of  wire(fields) ++ body.
   For a CheckedMessage the stored word must be the value validate_checksum recomputes: the fold over the
   flat field bytes, then over the body with the running value in the checksum field. *)
Theorem deserialize_rt_any hstep sh ms x mr v vals wf Fs body :
  shape_wf sh -> lay_fs (sh_fields sh) -> (forall b, psep (aranges_fs (sh_fields sh) b)) ->
  Forall (fun L => L <= STRIDE) (lens ms) ->
  rd_fs (perm (sh_fields sh)) ms x = Ok (vals, wf, Fs) -> vsums vals -> load ms x (sh_size sh) = Ok body ->
  (sh_checked sh = true ->
     (forall h b, 0 <= h < W32 -> 0 <= b < 256 -> 0 <= hstep h b < W32) /\
     le_dec (firstn 4 body) = hash_ext hstep (hash_ext hstep 0 wf) (le_enc 4 (hash_ext hstep 0 wf) ++ skipn 4 body)) ->
  inv mr v -> flat mr (i_el v) = Ok (wf ++ body) -> psep (i_el v) ->
  i_nb v + 1 + len Fs <= i_cap v ->
  exists t st w2 F, deserialize hstep cfg_final sh mr v = Ok (t, st) /\ t <> 0 /\
    ptr_ok (lens (d_mem st)) t (sh_size sh) /\
    rd_fs (perm (sh_fields sh)) (d_mem st) t = Ok (vals, w2, F) /\
    flat (d_mem st) (i_el (d_iov st)) = Ok [] /\
    inv (d_mem st) (d_iov st).
Proof.
  intros [Hsz [Hwf Hck4]] Hlay Hps Hmswf Hrd Hvs Lb Hchk Hinv Hfl Hpe Hnb.
  pose proof (len_nonneg Fs) as HFs.
  pose proof (load_len _ _ _ _ Lb) as Hlb. rewrite Z.max_r in Hlb by lia.
  assert (Hlw : len (wf ++ body) - sh_size sh = len wf) by (rewrite len_app; lia).
  destruct (ebc_flat mr v (sh_size sh) (wf ++ body) Hinv Hsz Hfl ltac:(rewrite len_app; pose proof (len_nonneg wf); lia) Hpe ltac:(lia))
    as [t [m1 [v1 [He X]]]].
  rewrite Hlw in X. rewrite (skipn_app_exact wf body (len wf)), (firstn_app_exact wf body (len wf)) in X by (unfold len; lia).
  pose proof X as [Hi1 [Hx1 [Hc1 [Hn1 [[Pv [Pp Pw]] [Lp [Fl1 [Ps1 [Pr1 [Sp1 [Fr1 _]]]]]]]]]]].
  unfold deserialize. rewrite He. cbn [bind]. destruct (t =? 0) eqn:Et; [apply Z.eqb_eq in Et; lia|].
  (* checksum validation accepts and leaves the body as the sender had it *)
  assert (Hval : exists m2, (if sh_checked sh then validate_checksum hstep m1 v1 t (sh_size sh) else Ok (true, m1)) = Ok (true, m2) /\
            lens m2 = lens m1 /\ inv m2 v1 /\ flat m2 (i_el v1) = Ok wf /\ load m2 t (sh_size sh) = Ok body).
  { destruct (sh_checked sh); [|exists m1; auto]. destruct (Hchk eq_refl) as [Hrange Hsum].
    destruct (validate_flat hstep Hrange m1 v1 t (sh_size sh) wf body Hi1 (Hck4 eq_refl) Pv ltac:(lia)) as [m3 [Hv [Hl3 [Hi3 [Fl3 [Lb3 _]]]]]]; auto.
    { intros e He'. eapply sep_sub_r; [apply Sp1; exact He'|]. unfold within. cbn [fst snd]. specialize (Hck4 eq_refl). lia. }
    exists m3. rewrite Hv, Hsum, Z.eqb_refl. repeat (split; [assumption||reflexivity|]).
    rewrite Lb3, <- Hsum. f_equal. pose proof (load_bytes_ok _ _ _ _ (inv_bytes _ _ Hi1) Lp) as Hbb.
    assert (H4 : length (firstn 4 body) = 4%nat) by (rewrite firstn_length; specialize (Hck4 eq_refl); unfold len in Hlb; lia).
    rewrite <- H4 at 1. rewrite le_enc_dec by (apply bytes_ok_firstn; exact Hbb). apply firstn_skipn. }
  destruct Hval as [m2 [Hv [Hl2 [Hi2 [Fl2 Lb2]]]]]. rewrite Hv. cbn [bind negb].
  set (st0 := mkD m2 v1 false).
  pose proof (perm_wf _ _ Hwf) as Hwfp.
  assert (HR0 : HR (d_mem st0) (d_iov st0) [(t, sh_size sh)]) by exact (HR_body _ _ _ _ _ _ _ _ m2 X Hi2 Hl2).
  destruct (proj2 (rt_all' ms Hmswf) (perm (sh_fields sh)) (sh_size sh) st0 t x [(t, sh_size sh)] (t, sh_size sh) vals wf Fs []
              Hwfp (perm_lay _ Hlay) (perm_psep _ _ (Hps t)) HR0 (or_introl eq_refl) (within_refl _) eq_refl) as [st2 [Hd [[Hnf [Fl3 _]] [w2 [F Hr]]]]].
  { rewrite app_nil_r. exact Fl2. }
  { exact Hrd. }
  { exact Hvs. }
  { apply (proj2 (blk_eq _ _) _ (sh_size sh) t x Hwfp). cbn [st0 d_mem].
    apply (blk_of_loads _ _ _ _ _ body (inv_wf _ _ Hi2) Hmswf Lb2 Lb). }
  { cbn [st0 d_iov]. lia. }
  destruct (proj2 h_all _ _ _ _ _ _ _ Hwfp (perm_lay _ Hlay) (perm_psep _ _ (Hps t)) HR0 (or_introl eq_refl) (within_refl _) Hd Hnf) as [new [[[Hi3 _] [Hx2 _]] _]].
  apply d_passes_perm in Hd. destruct Hd as [st1 [Hd1 Hd2]]. rewrite Hd1. cbn [bind]. rewrite Hd2. cbn [bind]. rewrite Hnf.
  exists t, st2, w2, F. split; [reflexivity|]. split; [lia|].
  split; [split; [eapply validb_ext; [exact Hx2|]; cbn [st0 d_mem]; rewrite Hl2; exact Pv|lia]|]. auto.
Qed.
