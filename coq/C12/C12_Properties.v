From Coq Require Import ZArith List Lia.
From PV Require Import Base.U64 C12.C12_Model C12.C12_Mem C12.C12_MemC C12.C12_Iov C12.C12_Deser C12.C12_Walk C12.C12_Flat C12.C12_Proofs C12.C12_Sep C12.C12_Wire C12.C12_RtD C12.C12_RtS C12.C12_Rt C12.C12_RtC C12.C12_RtC3 C12.C12_Hx C12.C12_View C12.C12_Hb C12.C12_Hb2 C12.C12_RtI C12.C12_Crc C12.C12_Ord C12.C12_Dyn C12.C12_RtSI C12.C12_RtF C12.C12_Perm.
(* deserialize never traps: any byte memory, any fragmentation, any well-formed shape *)
Theorem deser_in_bounds_no_trap : forall hstep sh m v,
  shape_wf sh -> inv m v ->
  exists t st, deserialize hstep cfg_final sh m v = Ok (t, st) /\ inv (d_mem st) (d_iov st) /\
               ext (lens m) (lens (d_mem st)) /\ (t <> 0%Z -> ptr_ok (lens (d_mem st)) t (sh_size sh)).
Proof.
  intros hstep sh m v Hsh Hinv.
  destruct (deserialize_body hstep sh m v Hsh Hinv) as [[st [E [Hi Hx]]]|[t [m2 [v1 [Hi2 [Hx2 [[P1 P23] E]]]]]]].
  { exists 0%Z, st. split; [exact E|]. split; [exact Hi|]. split; [exact Hx|congruence]. }
  destruct Hsh as [_ [Hwf _]]. rewrite E.
  destruct (d_pass_ok true (sh_fields sh) (sh_size sh) Hwf (mkD m2 v1 false) t Hi2 P1) as [st1 [H1 [Hi3 Hx3]]].
  rewrite H1. cbn [bind]. cbn [d_mem] in Hx3.
  destruct (d_pass_ok false (sh_fields sh) (sh_size sh) Hwf st1 t Hi3 ltac:(eapply validb_ext; eauto)) as [st2 [H2 [Hi4 Hx4]]].
  rewrite H2. cbn [bind].
  assert (Hx : ext (lens m2) (lens (d_mem st2))) by (eapply ext_trans; eauto).
  eexists. eexists. split; [reflexivity|]. split; [exact Hi4|]. split; [eapply ext_trans; eauto|].
  destruct (d_failed st2); [congruence|]. intros _. split; [eapply validb_ext; eauto|exact P23].
Qed.
Print Assumptions deser_in_bounds_no_trap.
Theorem deser_in_bounds_fields_partial : forall hstep sh m v,
  shape_wf sh -> fields_simple (sh_fields sh) -> (forall base, pairwise_disj (fsranges (sh_fields sh) base)) -> inv m v ->
  exists t st, deserialize hstep cfg_final sh m v = Ok (t, st) /\
    (t <> 0%Z -> ptr_ok (lens (d_mem st)) t (sh_size sh) /\
                 wgood_fs (d_mem st) (sh_fields sh) t /\
                 exists its, w_fields cfg_final (sh_fields sh) (d_mem st) t = Ok its).
Proof. exact deserialize_fields_in_bounds_partial. Qed.
Print Assumptions deser_in_bounds_fields_partial.
Theorem deser_in_bounds_fields : forall hstep sh m v,
  shape_wf sh -> lay_fs (sh_fields sh) -> (forall b, psep (aranges_fs (sh_fields sh) b)) ->
  inv m v -> psep (i_el v) ->
  exists t st, deserialize hstep cfg_final sh m v = Ok (t, st) /\
    (t <> 0%Z -> exists C vals w F its,
       claimed_ok (i_el v) (len m) (d_mem st) C /\ In (t, sh_size sh) C /\
       rd_fs (perm (sh_fields sh)) (d_mem st) t = Ok (vals, w, F) /\
       (forall r, In r F -> (snd r <= 0)%Z \/ exists c, In c C /\ within r c) /\
       w_fields cfg_final (sh_fields sh) (d_mem st) t = Ok its).
Proof. exact deserialize_fields_in_bounds. Qed.
Print Assumptions deser_in_bounds_fields.
Theorem ser_roundtrip_front_copy_refines_flat_partial : forall m,
  Forall (fun L => (L <= STRIDE)%Z) (lens m) ->
  forall el bytes bs d el', Forall (el_ok (lens m)) el -> flat m el = Ok bs -> (0 < bytes <= sum_el el)%Z ->
  vef_copy m el bytes = Ok (d, el') ->
  d = firstn (Z.to_nat bytes) bs /\ flat m el' = Ok (skipn (Z.to_nat bytes) bs).
Proof. exact vef_copy_flat. Qed.
Print Assumptions ser_roundtrip_front_copy_refines_flat_partial.
(* sorted_map::find on a deserialized map: the map slot, the index array it names and the base
   buffer it names are readable => find reads nothing else, whatever the index contains *)
Theorem sorted_map_lookup_in_bounds : forall m a k ip inn bp bn,
  mem_bytes m -> mem_wf m ->
  validb (lens m) a 32 = true ->
  load64 m a = Ok ip -> load64 m (a + 8) = Ok inn -> load64 m (a + 16) = Ok bp -> load64 m (a + 24) = Ok bn ->
  validb (lens m) ip inn = true -> validb (lens m) bp bn = true ->
  (0 <= inn)%Z -> (0 <= bp)%Z -> (0 <= bn)%Z -> (bp + bn < W64)%Z ->
  exists pos, map_find cfg_final m a k = Ok pos /\ (0 <= pos <= inn / 32)%Z.
Proof.
  intros m a k ip inn bp bn Hb Hwf Ha E1 E2 E3 E4 Hidx Hbase Hinn Hbp Hbn Hsum. unfold map_find. rewrite E1, E2, E3, E4. cbn [bind].
  assert (Hc : (0 <= inn / 32)%Z) by (apply Z.div_pos; lia).
  destruct (lower_bound_ok (Z.to_nat (inn / 32) + 1) m ip bp bn k 0 (inn / 32) (inn / 32)) as [r [Hr Hrr]]; auto; try lia.
  { pose proof (Z.mul_div_le inn 32 ltac:(lia)). apply (validb_sub' _ ip inn); auto; lia. }
  exists r. split; [exact Hr|]. lia.
Qed.
Print Assumptions sorted_map_lookup_in_bounds.
Theorem slice_anchor_in_bounds : forall off length bp bn p n,
  (0 <= off < W64)%Z -> (0 <= length < W64)%Z -> (0 <= bp)%Z -> (0 <= bn)%Z -> (bp + bn < W64)%Z ->
  anchor cfg_final off length bp bn = (p, n) ->
  (p = 0%Z /\ n = 0%Z) \/ (n = length /\ p = (bp + off)%Z /\ (bp <= p)%Z /\ (p + n <= bp + bn)%Z).
Proof. exact anchor_in_bounds. Qed.
Print Assumptions slice_anchor_in_bounds.
Theorem slice_anchor_prefix_refuted :
  exists off length bp bn p n, anchor cfg_shipped off length bp bn = (p, n) /\ (0 < n)%Z /\ (bp + bn < p)%Z.
Proof. exists 4098%Z, 34%Z, (region_base 0 + 35)%Z, 36%Z. eexists. eexists. split; [vm_compute; reflexivity|]. split; vm_compute; reflexivity. Qed.
Print Assumptions slice_anchor_prefix_refuted.
Theorem string_sv_in_bounds : forall p n p' n',
  (0 <= n < W64)%Z -> sv_of cfg_final p n = (p', n') -> p' = p /\ (0 <= n' <= n)%Z.
Proof. exact sv_in_bounds. Qed.
Print Assumptions string_sv_in_bounds.
Theorem string_sv_prefix_refuted : forall p, sv_of cfg_shipped p 0 = (p, MAX64).
Proof. reflexivity. Qed.
Print Assumptions string_sv_prefix_refuted.
(* CheckedMessage: a message is only ever returned after the stored checksum has been
   compared, and found equal, to the value recomputed by validate_checksum
   (hstep = the per-byte step of the hash, uninterpreted) *)
Theorem checked_accept_only_after_compare : forall hstep c sh m v t st,
  sh_checked sh = true ->
  deserialize hstep c sh m v = Ok (t, st) -> t <> 0%Z ->
  exists t1 m1 v1 m2,
    ebc m v (sh_size sh) = Ok (t1, m1, v1) /\
    validate_checksum hstep m1 v1 t1 (sh_size sh) = Ok (true, m2).
Proof.
  intros hstep c sh m v t st Hc H Ht. unfold deserialize in H. rewrite Hc in H.
  destruct (ebc m v (sh_size sh)) as [[[t1 m1] v1]|] eqn:E; cbn [bind] in H; [|discriminate].
  destruct (t1 =? 0)%Z eqn:Et; [inversion H; subst; congruence|].
  destruct (validate_checksum hstep m1 v1 t1 (sh_size sh)) as [[okc m2]|] eqn:EV; cbn [bind] in H; [|discriminate].
  destruct okc; cbn [negb] in H; [|inversion H; subst; congruence].
  exists t1, m1, v1, m2. split; [reflexivity|exact EV].
Qed.
Print Assumptions checked_accept_only_after_compare.
(* what validate_checksum compares: the stored word against the fold of hstep over
   (a) the bytes of every remaining iovec element in order and (b) the body with the running
   value in its checksum field *)
Theorem checked_compare_covers : forall hstep m v t size okc m',
  validate_checksum hstep m v t size = Ok (okc, m') ->
  exists stored m1 m2 h1 body,
    load32 m t = Ok stored /\ store32 m t 0 = Ok m1 /\ hash_iov hstep m1 t (i_el v) = Ok m2 /\
    load32 m2 t = Ok h1 /\ load m2 t size = Ok body /\
    okc = (stored =? hash_ext hstep h1 body)%Z.
Proof.
  intros hstep m v t size okc m'. unfold validate_checksum. intros H.
  destruct (load32 m t) as [stored|] eqn:E0; cbn [bind] in H; [|discriminate].
  destruct (store32 m t 0) as [m1|] eqn:E1; cbn [bind] in H; [|discriminate].
  destruct (hash_iov hstep m1 t (i_el v)) as [m2|] eqn:E2; cbn [bind] in H; [|discriminate].
  destruct (load32 m2 t) as [h1|] eqn:E3; cbn [bind] in H; [|discriminate].
  destruct (load m2 t size) as [body|] eqn:E4; cbn [bind] in H; [|discriminate].
  destruct (store32 m2 t (hash_ext hstep h1 body)) as [m3|] eqn:E5; cbn [bind] in H; [|discriminate].
  inversion H. subst. exists stored, m1, m2, h1, body. repeat split; auto.
Qed.
Print Assumptions checked_compare_covers.
Theorem checked_rejects_alteration_is_refuted : ~ checked_rejects_alteration.
Proof.
  intros H. specialize (H ex_checked_good ex_checked_bad).
  assert (A : accepted ex_checked_good = true) by (vm_compute; reflexivity).
  assert (B : accepted ex_checked_bad = true) by (vm_compute; reflexivity).
  rewrite H in B; [discriminate|exact A|reflexivity|discriminate].
Qed.
Print Assumptions checked_rejects_alteration_is_refuted.
(* positive part of the checksum clause (hash uninterpreted): whenever the value recomputed
   over the remaining iovec bytes and the body differs from the stored word, the message is
   rejected: deserialize returns 0 *)
Theorem checked_rejects_on_hash_mismatch : forall hstep c sh m v t1 m1 v1 okc m2,
  sh_checked sh = true ->
  ebc m v (sh_size sh) = Ok (t1, m1, v1) -> t1 <> 0%Z ->
  validate_checksum hstep m1 v1 t1 (sh_size sh) = Ok (okc, m2) -> okc = false ->
  exists st, deserialize hstep c sh m v = Ok (0%Z, st).
Proof.
  intros hstep c sh m v t1 m1 v1 okc m2 Hc He Ht Hv Hk. unfold deserialize. rewrite He. cbn [bind].
  destruct (t1 =? 0)%Z eqn:E; [apply Z.eqb_eq in E; contradiction|].
  rewrite Hc, Hv. cbn [bind]. subst okc. cbn [negb]. eauto.
Qed.
Print Assumptions checked_rejects_on_hash_mismatch.
Theorem ser_roundtrip_noiov_unchecked_partial : forall hstep sh ms x sst vals wf Fs body mr v,
  shape_wf sh -> sh_checked sh = false ->
  sup_fs (sh_fields sh) -> lay_fs (sh_fields sh) -> (forall b, psep (aranges_fs (sh_fields sh) b)) ->
  Forall (fun L => (L <= STRIDE)%Z) (lens ms) ->
  rd_fs (perm (sh_fields sh)) ms x = Ok (vals, wf, Fs) -> load ms x (sh_size sh) = Ok body ->
  serialize hstep cfg_final sh ms x = Ok sst -> s_full sst = false ->
  inv mr v -> psep (i_el v) -> flat mr (i_el v) = flat (s_mem sst) (i_el (s_iov sst)) ->
  (i_nb v + 1 + len Fs <= i_cap v)%Z ->
  exists t st w2 F, deserialize hstep cfg_final sh mr v = Ok (t, st) /\ t <> 0%Z /\
    ptr_ok (lens (d_mem st)) t (sh_size sh) /\
    rd_fs (perm (sh_fields sh)) (d_mem st) t = Ok (vals, w2, F) /\
    flat (d_mem st) (i_el (d_iov st)) = Ok nil.
Proof. exact ser_roundtrip_noiov_unchecked. Qed.
Print Assumptions ser_roundtrip_noiov_unchecked_partial.
Theorem ser_roundtrip_serialize_emits_wire_partial : forall hstep sh ms x sst vals wf Fs body,
  sh_checked sh = false -> sup_fs (sh_fields sh) ->
  serialize hstep cfg_final sh ms x = Ok sst -> s_full sst = false ->
  rd_fs (perm (sh_fields sh)) ms x = Ok (vals, wf, Fs) -> load ms x (sh_size sh) = Ok body ->
  s_mem sst = ms /\ flat ms (i_el (s_iov sst)) = Ok (wf ++ body).
Proof. exact serialize_wire. Qed.
Print Assumptions ser_roundtrip_serialize_emits_wire_partial.
Theorem ser_roundtrip_deserialize_any_fragmentation_partial : forall hstep sh ms x mr v vals wf Fs body,
  shape_wf sh -> sh_checked sh = false ->
  sup_fs (sh_fields sh) -> lay_fs (sh_fields sh) -> (forall b, psep (aranges_fs (sh_fields sh) b)) ->
  Forall (fun L => (L <= STRIDE)%Z) (lens ms) ->
  rd_fs (perm (sh_fields sh)) ms x = Ok (vals, wf, Fs) -> load ms x (sh_size sh) = Ok body ->
  inv mr v -> flat mr (i_el v) = Ok (wf ++ body) -> psep (i_el v) ->
  (i_nb v + 1 + len Fs <= i_cap v)%Z ->
  exists t st w2 F, deserialize hstep cfg_final sh mr v = Ok (t, st) /\ t <> 0%Z /\
    ptr_ok (lens (d_mem st)) t (sh_size sh) /\
    rd_fs (perm (sh_fields sh)) (d_mem st) t = Ok (vals, w2, F) /\
    flat (d_mem st) (i_el (d_iov st)) = Ok nil /\
    inv (d_mem st) (d_iov st).
Proof.
  intros hstep sh ms x mr v vals wf Fs body Hsh Hck Hsup Hlay Hps Hms Hrd Lb.
  apply (deserialize_rt_any hstep sh ms x mr v vals wf Fs body Hsh Hlay Hps Hms Hrd (proj2 (sup_vsums ms) _ _ _ _ _ (perm_sup _ Hsup) Hrd) Lb).
  congruence.
Qed.
Print Assumptions ser_roundtrip_deserialize_any_fragmentation_partial.
Theorem ser_roundtrip_extract_front_refines_flat_partial : forall m v n w,
  inv m v -> (0 < n)%Z -> flat m (i_el v) = Ok w -> (n <= len w)%Z -> psep (i_el v) -> (i_nb v < i_cap v)%Z ->
  exists p m' v', efc m v n = Ok (p, m', v') /\ xpost m v n p m' v' (firstn (Z.to_nat n) w) (skipn (Z.to_nat n) w).
Proof.
  intros m v n w Hinv Hn Hf Hnw Hp Hcap.
  destruct (efc_h m v n w Hinv Hn Hp Hf) as [p [m' [v' [He [[_ [_ [_ Hfail]]]|X]]]]]; [lia|]. eauto.
Qed.
Print Assumptions ser_roundtrip_extract_front_refines_flat_partial.
Theorem ser_roundtrip_extract_back_refines_flat_partial : forall m v n w,
  inv m v -> (0 < n)%Z -> flat m (i_el v) = Ok w -> (n <= len w)%Z -> psep (i_el v) -> (i_nb v < i_cap v)%Z ->
  exists p m' v', ebc m v n = Ok (p, m', v') /\
    xpost m v n p m' v' (skipn (Z.to_nat (len w - n)) w) (firstn (Z.to_nat (len w - n)) w).
Proof. exact ebc_flat. Qed.
Print Assumptions ser_roundtrip_extract_back_refines_flat_partial.
Theorem ser_roundtrip_noiov_checked_partial : forall hstep,
  (forall h b, (0 <= h < W32)%Z -> (0 <= b < 256)%Z -> (0 <= hstep h b < W32)%Z) ->
  forall sh ms x sst vals wf Fs body0 mr v,
  shape_wf sh -> sh_checked sh = true ->
  sup_fs (sh_fields sh) -> lay_fs (sh_fields sh) -> (forall b, psep (aranges_fs (sh_fields sh) b)) ->
  mem_bytes ms -> Forall (fun L => (L <= STRIDE)%Z) (lens ms) -> (0 <= x)%Z ->
  rd_fs (perm (sh_fields sh)) ms x = Ok (vals, wf, Fs) -> load ms x (sh_size sh) = Ok body0 ->
  load ms x 4 = Ok (le_enc 4 0) ->
  (forall r, In r Fs -> sep r (x, 4%Z)) ->
  serialize hstep cfg_final sh ms x = Ok sst -> s_full sst = false ->
  (forall e, In e (removelast (i_el (s_iov sst))) -> sep e (x, 4%Z)) ->
  inv mr v -> psep (i_el v) -> flat mr (i_el v) = flat (s_mem sst) (i_el (s_iov sst)) ->
  (i_nb v + 1 + len Fs <= i_cap v)%Z ->
  exists t st w2 F, deserialize hstep cfg_final sh mr v = Ok (t, st) /\ t <> 0%Z /\
    ptr_ok (lens (d_mem st)) t (sh_size sh) /\
    rd_fs (perm (sh_fields sh)) (d_mem st) t = Ok (vals, w2, F) /\
    flat (d_mem st) (i_el (d_iov st)) = Ok nil.
Proof. exact ser_roundtrip_noiov_checked. Qed.
Print Assumptions ser_roundtrip_noiov_checked_partial.
(* the checksum does not depend on the fragmentation *)
Theorem ser_roundtrip_checksum_fragmentation_independent_partial : forall hstep,
  (forall h b, (0 <= h < W32)%Z -> (0 <= b < 256)%Z -> (0 <= hstep h b < W32)%Z) ->
  forall x1 x2 el1 el2 m1 m2 w h0 m1' m2',
  mem_bytes m1 -> mem_bytes m2 -> (forall e, In e el1 -> sep e (x1, 4%Z)) -> (forall e, In e el2 -> sep e (x2, 4%Z)) ->
  load m1 x1 4 = Ok (le_enc 4 h0) -> load m2 x2 4 = Ok (le_enc 4 h0) -> (0 <= h0 < W32)%Z ->
  flat m1 el1 = Ok w -> flat m2 el2 = Ok w ->
  hash_iov hstep m1 x1 el1 = Ok m1' -> hash_iov hstep m2 x2 el2 = Ok m2' ->
  load m1' x1 4 = load m2' x2 4 /\ load32 m1' x1 = Ok (hash_ext hstep h0 w).
Proof.
  intros hstep Hrange x1 x2 el1 el2 m1 m2 w h0 m1' m2' B1 B2 S1 S2 L1 L2 Hh F1 F2 H1 H2.
  destruct (hash_iov_flat hstep Hrange x1 el1 m1 w h0 B1 S1 L1 Hh F1) as [n1 [A1 [C1 [R1 _]]]].
  destruct (hash_iov_flat hstep Hrange x2 el2 m2 w h0 B2 S2 L2 Hh F2) as [n2 [A2 [C2 _]]].
  rewrite A1 in H1. rewrite A2 in H2. inversion H1. inversion H2. subst. rewrite C1, C2. split; [reflexivity|].
  unfold load32. rewrite C1. cbn [bind]. rewrite le_dec_enc4; auto.
Qed.
Print Assumptions ser_roundtrip_checksum_fragmentation_independent_partial.
Theorem ser_roundtrip_deserialize_any_fragmentation_iov_partial : forall hstep sh ms x mr v vals wf Fs body,
  shape_wf sh -> sh_checked sh = false ->
  lay_fs (sh_fields sh) -> (forall b, psep (aranges_fs (sh_fields sh) b)) ->
  Forall (fun L => (L <= STRIDE)%Z) (lens ms) ->
  rd_fs (perm (sh_fields sh)) ms x = Ok (vals, wf, Fs) -> vsums vals -> load ms x (sh_size sh) = Ok body ->
  inv mr v -> flat mr (i_el v) = Ok (wf ++ body) -> psep (i_el v) ->
  (i_nb v + 1 + len Fs <= i_cap v)%Z ->
  exists t st w2 F, deserialize hstep cfg_final sh mr v = Ok (t, st) /\ t <> 0%Z /\
    ptr_ok (lens (d_mem st)) t (sh_size sh) /\
    rd_fs (perm (sh_fields sh)) (d_mem st) t = Ok (vals, w2, F) /\
    flat (d_mem st) (i_el (d_iov st)) = Ok nil /\
    inv (d_mem st) (d_iov st).
Proof.
  intros hstep sh ms x mr v vals wf Fs body Hsh Hck Hlay Hps Hms Hrd Hvs Lb.
  apply (deserialize_rt_any hstep sh ms x mr v vals wf Fs body Hsh Hlay Hps Hms Hrd Hvs Lb). congruence.
Qed.
Print Assumptions ser_roundtrip_deserialize_any_fragmentation_iov_partial.
Theorem ser_roundtrip_deserialize_checked_any_fragmentation_iov_partial : forall hstep,
  (forall h b, (0 <= h < W32)%Z -> (0 <= b < 256)%Z -> (0 <= hstep h b < W32)%Z) ->
  forall sh ms x mr v vals wf Fs body,
  shape_wf sh -> sh_checked sh = true ->
  lay_fs (sh_fields sh) -> (forall b, psep (aranges_fs (sh_fields sh) b)) ->
  Forall (fun L => (L <= STRIDE)%Z) (lens ms) ->
  rd_fs (perm (sh_fields sh)) ms x = Ok (vals, wf, Fs) -> vsums vals -> load ms x (sh_size sh) = Ok body ->
  le_dec (firstn 4 body) =
    hash_ext hstep (hash_ext hstep 0 wf) (le_enc 4 (hash_ext hstep 0 wf) ++ skipn 4 body) ->
  inv mr v -> flat mr (i_el v) = Ok (wf ++ body) -> psep (i_el v) ->
  (i_nb v + 1 + len Fs <= i_cap v)%Z ->
  exists t st w2 F, deserialize hstep cfg_final sh mr v = Ok (t, st) /\ t <> 0%Z /\
    ptr_ok (lens (d_mem st)) t (sh_size sh) /\
    rd_fs (perm (sh_fields sh)) (d_mem st) t = Ok (vals, w2, F) /\
    flat (d_mem st) (i_el (d_iov st)) = Ok nil.
Proof.
  intros hstep Hrange sh ms x mr v vals wf Fs body Hsh Hck Hlay Hps Hms Hrd Hvs Lb Hsum Hinv Hfl Hpe Hnb.
  destruct (deserialize_rt_any hstep sh ms x mr v vals wf Fs body Hsh Hlay Hps Hms Hrd Hvs Lb (fun _ => conj Hrange Hsum) Hinv Hfl Hpe Hnb)
    as [t [st [w2 [F [H1 [H2 [H3 [H4 [H5 _]]]]]]]]].
  exists t, st, w2, F. auto.
Qed.
Print Assumptions ser_roundtrip_deserialize_checked_any_fragmentation_iov_partial.
Theorem ser_roundtrip_noiov_unchecked_declared_partial : forall hstep sh ms x sst vals wf0 Fs0 body mr v,
  shape_wf sh -> sh_checked sh = false ->
  sup_fs (sh_fields sh) -> lay_fs (sh_fields sh) -> (forall b, psep (aranges_fs (sh_fields sh) b)) ->
  Forall (fun L => (L <= STRIDE)%Z) (lens ms) ->
  rd_fs (sh_fields sh) ms x = Ok (vals, wf0, Fs0) -> load ms x (sh_size sh) = Ok body ->
  serialize hstep cfg_final sh ms x = Ok sst -> s_full sst = false ->
  inv mr v -> psep (i_el v) -> flat mr (i_el v) = flat (s_mem sst) (i_el (s_iov sst)) ->
  (i_nb v + 1 + len Fs0 <= i_cap v)%Z ->
  exists t st w2 F, deserialize hstep cfg_final sh mr v = Ok (t, st) /\ t <> 0%Z /\
    ptr_ok (lens (d_mem st)) t (sh_size sh) /\
    rd_fs (sh_fields sh) (d_mem st) t = Ok (vals, w2, F) /\
    flat (d_mem st) (i_el (d_iov st)) = Ok nil.
Proof. exact ser_roundtrip_noiov_unchecked_declared. Qed.
Print Assumptions ser_roundtrip_noiov_unchecked_declared_partial.
Theorem ser_roundtrip_noiov_checked_declared_partial : forall hstep,
  (forall h b, (0 <= h < W32)%Z -> (0 <= b < 256)%Z -> (0 <= hstep h b < W32)%Z) ->
  forall sh ms x sst vals wf0 Fs0 body0 mr v,
  shape_wf sh -> sh_checked sh = true ->
  sup_fs (sh_fields sh) -> lay_fs (sh_fields sh) -> (forall b, psep (aranges_fs (sh_fields sh) b)) ->
  mem_bytes ms -> Forall (fun L => (L <= STRIDE)%Z) (lens ms) -> (0 <= x)%Z ->
  rd_fs (sh_fields sh) ms x = Ok (vals, wf0, Fs0) -> load ms x (sh_size sh) = Ok body0 ->
  load ms x 4 = Ok (le_enc 4 0) ->
  (forall r, In r Fs0 -> sep r (x, 4%Z)) ->
  serialize hstep cfg_final sh ms x = Ok sst -> s_full sst = false ->
  (forall e, In e (removelast (i_el (s_iov sst))) -> sep e (x, 4%Z)) ->
  inv mr v -> psep (i_el v) -> flat mr (i_el v) = flat (s_mem sst) (i_el (s_iov sst)) ->
  (i_nb v + 1 + len Fs0 <= i_cap v)%Z ->
  exists t st w2 F, deserialize hstep cfg_final sh mr v = Ok (t, st) /\ t <> 0%Z /\
    ptr_ok (lens (d_mem st)) t (sh_size sh) /\
    rd_fs (sh_fields sh) (d_mem st) t = Ok (vals, w2, F) /\
    flat (d_mem st) (i_el (d_iov st)) = Ok nil.
Proof. exact ser_roundtrip_noiov_checked_declared. Qed.
Print Assumptions ser_roundtrip_noiov_checked_declared_partial.
Theorem crc32c_step_in_range : forall h b, (0 <= h < W32)%Z -> (0 <= b < 256)%Z -> (0 <= crc32c_step h b < W32)%Z.
Proof. exact crc32c_step_range. Qed.
Print Assumptions crc32c_step_in_range.
Theorem ser_roundtrip_noiov_checked_crc32c_partial : forall sh ms x sst vals wf Fs body0 mr v,
  shape_wf sh -> sh_checked sh = true ->
  sup_fs (sh_fields sh) -> lay_fs (sh_fields sh) -> (forall b, psep (aranges_fs (sh_fields sh) b)) ->
  mem_bytes ms -> Forall (fun L => (L <= STRIDE)%Z) (lens ms) -> (0 <= x)%Z ->
  rd_fs (perm (sh_fields sh)) ms x = Ok (vals, wf, Fs) -> load ms x (sh_size sh) = Ok body0 ->
  load ms x 4 = Ok (le_enc 4 0) ->
  (forall r, In r Fs -> sep r (x, 4%Z)) ->
  serialize crc32c_step cfg_final sh ms x = Ok sst -> s_full sst = false ->
  (forall e, In e (removelast (i_el (s_iov sst))) -> sep e (x, 4%Z)) ->
  inv mr v -> psep (i_el v) -> flat mr (i_el v) = flat (s_mem sst) (i_el (s_iov sst)) ->
  (i_nb v + 1 + len Fs <= i_cap v)%Z ->
  exists t st w2 F, deserialize crc32c_step cfg_final sh mr v = Ok (t, st) /\ t <> 0%Z /\
    ptr_ok (lens (d_mem st)) t (sh_size sh) /\
    rd_fs (perm (sh_fields sh)) (d_mem st) t = Ok (vals, w2, F) /\
    flat (d_mem st) (i_el (d_iov st)) = Ok nil.
Proof. exact ser_roundtrip_noiov_checked_crc32c. Qed.
Print Assumptions ser_roundtrip_noiov_checked_crc32c_partial.
Theorem ser_roundtrip : forall hstep sh ms x sst vals0 wf0 Fs0 D body0 mr v,
  (forall h b, (0 <= h < W32)%Z -> (0 <= b < 256)%Z -> (0 <= hstep h b < W32)%Z) ->
  shape_wf sh -> lay_fs (sh_fields sh) -> (forall b, psep (aranges_fs (sh_fields sh) b)) ->
  mem_bytes ms -> Forall (fun L => (L <= STRIDE)%Z) (lens ms) ->
  rd_fs (perm (sh_fields sh)) ms x = Ok (vals0, wf0, Fs0) -> dn_fs (perm (sh_fields sh)) ms x = Ok D ->
  psep D -> (forall d, In d D -> sep (x, sh_size sh) d) -> (len wf0 < W64)%Z ->
  load ms x (sh_size sh) = Ok body0 ->
  (sh_checked sh = true -> (0 <= x)%Z /\ load ms x 4 = Ok (le_enc 4 0) /\
     (forall r, In r (aranges_fs (perm (sh_fields sh)) x) -> sep r (x, 4%Z)) /\
     (forall e, In e (removelast (i_el (s_iov sst))) -> sep e (x, 4%Z))) ->
  serialize hstep cfg_final sh ms x = Ok sst -> s_full sst = false ->
  inv mr v -> psep (i_el v) -> flat mr (i_el v) = flat (s_mem sst) (i_el (s_iov sst)) ->
  (i_nb v + 1 + len Fs0 <= i_cap v)%Z ->
  exists vals ws Fss t st w2 F,
    rd_fs (sh_fields sh) (s_mem sst) x = Ok (vals, ws, Fss) /\
    deserialize hstep cfg_final sh mr v = Ok (t, st) /\ t <> 0%Z /\
    ptr_ok (lens (d_mem st)) t (sh_size sh) /\
    rd_fs (sh_fields sh) (d_mem st) t = Ok (vals, w2, F) /\
    flat (d_mem st) (i_el (d_iov st)) = Ok nil.
Proof. exact ser_roundtrip_all. Qed.
Print Assumptions ser_roundtrip.
Theorem ser_roundtrip_serialize_emits_wire : forall hstep sh ms x sst vals0 wf0 Fs0 D body0,
  sh_checked sh = false -> shape_wf sh -> lay_fs (sh_fields sh) -> (forall b, psep (aranges_fs (sh_fields sh) b)) ->
  mem_bytes ms ->
  serialize hstep cfg_final sh ms x = Ok sst -> s_full sst = false ->
  rd_fs (perm (sh_fields sh)) ms x = Ok (vals0, wf0, Fs0) -> dn_fs (perm (sh_fields sh)) ms x = Ok D ->
  psep D -> (forall d, In d D -> sep (x, sh_size sh) d) -> (len wf0 < W64)%Z ->
  load ms x (sh_size sh) = Ok body0 ->
  lens (s_mem sst) = lens ms /\ mem_bytes (s_mem sst) /\
  exists vals wf Fs body, rd_fs (perm (sh_fields sh)) (s_mem sst) x = Ok (vals, wf, Fs) /\ vsums vals /\
    len wf = len wf0 /\ len Fs = len Fs0 /\
    load (s_mem sst) x (sh_size sh) = Ok body /\ flat (s_mem sst) (i_el (s_iov sst)) = Ok (wf ++ body).
Proof.
  intros hstep sh ms x sst vals0 wf0 Fs0 D body0 Hck Hsh Hlay Hps Hbm Hser Hfull Hrd Hdn HpD HsD Hw Lb.
  destruct (serialize_wire_any hstep sh ms x sst vals0 wf0 Fs0 D body0 Hsh Hlay Hps Hbm Hser Hfull Hrd Hdn HpD HsD Hw Lb ltac:(congruence))
    as [Hl [Hb [vals [wf [Fs [body [Q1 [Q2 [Q3 [Q4 [Q5 [Q6 _]]]]]]]]]]]].
  split; [exact Hl|]. split; [exact Hb|]. exists vals, wf, Fs, body. auto 10.
Qed.
Print Assumptions ser_roundtrip_serialize_emits_wire.
