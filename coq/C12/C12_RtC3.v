(* C12_RtC3.v — the sender half for CHECKED shapes (add_checksum) and ser_roundtrip for checked shapes. *)
From Coq Require Import ZArith List Bool Lia.
From PV Require Import Base.U64 C12.C12_Model C12.C12_Mem C12.C12_MemC C12.C12_Iov C12.C12_Flat C12.C12_Deser C12.C12_Sep C12.C12_Wire C12.C12_RtD C12.C12_Perm C12.C12_RtC C12.C12_Hx C12.C12_View C12.C12_Hb C12.C12_RtI C12.C12_RtS C12.C12_Rt.
Import ListNotations.
Local Open Scope Z_scope.

Lemma hash_iov_app hstep x a : forall m b, hash_iov hstep m x (a ++ b) = (m' <- hash_iov hstep m x a ;; hash_iov hstep m' x b).
Proof.
  induction a as [|[eb l] r IH]; intros m b; [reflexivity|]. cbn [app hash_iov].
  destruct (load32 m x) as [hh|]; cbn [bind]; [|reflexivity]. destruct (load m eb l) as [dd|]; cbn [bind]; [|reflexivity].
  destruct (store32 m x (hash_ext hstep hh dd)); cbn [bind]; [apply IH|reflexivity].
Qed.

Section RTC3.
  Variable hstep : Z -> byte -> Z.
  Hypothesis hstep_range : forall h b, 0 <= h < W32 -> 0 <= b < 256 -> 0 <= hstep h b < W32.

  (* add_checksum over pieces el followed by the body, in a memory whose checksum word is 0 *)
  Lemma checksum_tail m2 x size el wf body2 m' :
    4 <= size -> mem_bytes m2 -> Forall (fun L => L <= STRIDE) (lens m2) -> 0 <= x ->
    flat m2 el = Ok wf -> load m2 x size = Ok body2 -> load m2 x 4 = Ok (le_enc 4 0) ->
    (forall e, In e el -> sep e (x, 4)) ->
    hash_iov hstep m2 x (el ++ [(x, size)]) = Ok m' ->
    let h := hash_ext hstep 0 wf in
    let H := hash_ext hstep h (le_enc 4 h ++ skipn 4 body2) in
    lens m' = lens m2 /\ flat m' (el ++ [(x, size)]) = Ok (wf ++ (le_enc 4 H ++ skipn 4 body2)) /\
    load m' x size = Ok (le_enc 4 H ++ skipn 4 body2) /\ 0 <= H < W32 /\
    (forall a k, sep (a, k) (x, 4) -> load m' a k = load m2 a k) /\ mem_bytes m'.
  Proof.
    intros Hsz Hbm Hwf Hx Fl2 Lb L0 Hsep Hh h H.
    rewrite hash_iov_app in Hh.
    assert (Hz : 0 <= 0 < W32) by (unfold W32; lia).
    destruct (hash_iov_flat hstep hstep_range x el m2 wf 0 Hbm Hsep L0 Hz Fl2) as [m1 [A [B [C [D [E F]]]]]].
    rewrite A in Hh. cbn [bind hash_iov] in Hh. fold h in B, C.
    unfold load32 in Hh. rewrite B in Hh. cbn [bind] in Hh. rewrite (le_dec_enc4 _ C) in Hh.
    assert (Hv : validb (lens m2) x size = true) by (eapply load_valid_inv; eauto).
    assert (Lr : load m1 (x + 4) (size - 4) = Ok (skipn 4 body2)).
    { rewrite F by (unfold sep; cbn [fst snd]; lia). pose proof (load_suffix m2 x size body2 4 Hwf Lb ltac:(lia) Hx) as Q. exact Q. }
    assert (Wf1 : Forall (fun L => L <= STRIDE) (lens m1)) by (rewrite D; exact Hwf).
    assert (V1 : validb (lens m1) x size = true) by (rewrite D; exact Hv).
    rewrite (load_join m1 x size 4 _ _ Wf1 V1 Hx ltac:(lia) B Lr) in Hh. cbn [bind] in Hh. fold H in Hh.
    destruct (store32 m1 x H) as [m3|] eqn:Hst; cbn [bind] in Hh; [|discriminate Hh]. inversion Hh. subst m'. clear Hh.
    unfold store32 in Hst.
    assert (Hl4 : len (le_enc 4 H) = 4) by (rewrite le_enc_len; reflexivity).
    assert (HH : 0 <= H < W32).
    { apply hash_ext_range; [exact hstep_range| |exact C]. apply bytes_ok_app; [apply le_enc_bytes_ok|].
      apply bytes_ok_skipn. apply (load_bytes_ok m2 x size body2 Hbm Lb). }
    assert (Hl2 : lens m3 = lens m2) by (rewrite (store_lens _ _ _ _ Hst); exact D).
    assert (Lb2 : load m3 x size = Ok (le_enc 4 H ++ skipn 4 body2)).
    { apply (load_join m3 x size 4); [rewrite Hl2; exact Hwf|rewrite Hl2; exact Hv|exact Hx|lia| |].
      - rewrite <- Hl4 at 1. apply (load_store_same _ _ _ _ Hst). lia.
      - rewrite (load_store_sep _ _ _ _ _ _ Hst); [exact Lr|]. rewrite Hl4. unfold sep. cbn [fst snd]. lia. }
    assert (Fr2 : forall a k, sep (a, k) (x, 4) -> load m3 a k = load m2 a k).
    { intros a k Hak. rewrite (load_store_sep _ _ _ _ _ _ Hst) by (rewrite Hl4; exact Hak). apply F. exact Hak. }
    split; [exact Hl2|]. split.
    { rewrite flat_snoc. rewrite (flat_frame m2 m3 (x, 4) el Fr2 Hsep), Fl2. cbn [bind]. rewrite Lb2. reflexivity. }
    split; [exact Lb2|]. split; [exact HH|]. split; [exact Fr2|].
    apply (store_bytes_ok _ _ _ _ E (le_enc_bytes_ok 4 H) Hst).
  Qed.

  (* ser_roundtrip for checked shapes (without iovec_array fields) *)
  Theorem ser_roundtrip_noiov_checked sh ms x sst vals wf Fs body0 mr v :
    shape_wf sh -> sh_checked sh = true ->
    sup_fs (sh_fields sh) -> lay_fs (sh_fields sh) -> (forall b, psep (aranges_fs (sh_fields sh) b)) ->
    mem_bytes ms -> Forall (fun L => L <= STRIDE) (lens ms) -> 0 <= x ->
    rd_fs (perm (sh_fields sh)) ms x = Ok (vals, wf, Fs) -> load ms x (sh_size sh) = Ok body0 ->
    (* the sender starts from m_checksum = 0; neither the value nor any emitted piece overlaps the checksum word *)
    load ms x 4 = Ok (le_enc 4 0) ->
    (forall r, In r Fs -> sep r (x, 4)) ->
    serialize hstep cfg_final sh ms x = Ok sst -> s_full sst = false ->
    (forall e, In e (removelast (i_el (s_iov sst))) -> sep e (x, 4)) ->
    inv mr v -> psep (i_el v) -> flat mr (i_el v) = flat (s_mem sst) (i_el (s_iov sst)) ->
    i_nb v + 1 + len Fs <= i_cap v ->
    exists t st w2 F, deserialize hstep cfg_final sh mr v = Ok (t, st) /\ t <> 0 /\
      ptr_ok (lens (d_mem st)) t (sh_size sh) /\
      rd_fs (perm (sh_fields sh)) (d_mem st) t = Ok (vals, w2, F) /\
      flat (d_mem st) (i_el (d_iov st)) = Ok [].
  Proof.
    intros Hsh Hck Hsup Hlay Hps Hbm Hwf Hx Hrd Lb L0 HsF Hser Hfull Hsp Hinv Hpe Hfl Hnb.
    pose proof Hsh as [_ [_ Hck4]]. specialize (Hck4 Hck).
    (* the sender leaves its memory alone up to the checksum word: pieces = wire, then add_checksum *)
    destruct (serialize_inv _ _ _ _ _ Hser Hfull) as [st2 [Hs2 [Hf2 [Hi [Hf3 Hh]]]]]. rewrite Hck in Hh.
    destruct (proj2 s_all (perm (sh_fields sh)) _ x st2 vals wf Fs [] (perm_sup _ Hsup) Hs2 Hf2 Hrd eq_refl) as [Hm2 Fl2].
    cbn [s_mem app] in Hm2, Fl2. rewrite Hi, (s_push_el _ _ _ Hf3 ltac:(lia)) in *. rewrite removelast_last in Hsp. rewrite Hm2 in Hh.
    destruct (checksum_tail ms x (sh_size sh) (i_el (s_iov st2)) wf body0 (s_mem sst) Hck4 Hbm Hwf Hx Fl2 Lb L0 Hsp Hh)
      as [Hl [Hw [Lb' [HH [Fr _]]]]].
    rewrite Hw in Hfl.
    set (h := hash_ext hstep 0 wf) in *. set (H := hash_ext hstep h (le_enc 4 h ++ skipn 4 body0)) in *.
    assert (Hrd' : rd_fs (perm (sh_fields sh)) (s_mem sst) x = Ok (vals, wf, Fs)).
    { apply (proj2 (rd_stable ms (s_mem sst)) _ _ _ Hrd). cbn [snd]. intros r Hr a k Wk. apply Fr.
      eapply within_sep; [exact Wk|apply HsF; exact Hr]. }
    destruct (deserialize_rt_any hstep sh (s_mem sst) x mr v vals wf Fs (le_enc 4 H ++ skipn 4 body0) Hsh Hlay Hps ltac:(rewrite Hl; exact Hwf) Hrd'
                (proj2 (sup_vsums _) _ _ _ _ _ (perm_sup _ Hsup) Hrd') Lb') as [t [st [w2 [F [H1 [H2 [H3 [H4 [H5 _]]]]]]]]]; auto.
    { intros _. split; [exact hstep_range|]. destruct (stored_word H (skipn 4 body0) HH) as [-> ->]. reflexivity. }
    exists t, st, w2, F. auto.
  Qed.
End RTC3.
