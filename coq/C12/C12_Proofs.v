(* C12_Proofs.v — the accessors on a deserialized message (slice anchoring, string::sv, sorted_map::find)
   stay in bounds under the repaired configuration; the CheckedMessage counterexample. *)
From Coq Require Import ZArith List Bool Lia.
From PV Require Import Base.U64 C12.C12_Model C12.C12_Mem C12.C12_MemC C12.C12_Iov.
Import ListNotations.
Local Open Scope Z_scope.

Definition cfg_shipped : cfg := mkCfg false false false false false.
Definition mem_wf (m : mem) : Prop := Forall (fun L => L <= STRIDE) (lens m).

Lemma signed64_nonneg x : 0 <= x < W64 -> (signed64 x <? 0) = false -> signed64 x = x /\ x < 9223372036854775808.
Proof.
  unfold signed64, W64. intros Hx. destruct (x <? 9223372036854775808) eqn:E.
  - apply Z.ltb_lt in E. intros _. lia.
  - apply Z.ltb_ge in E. intros H. apply Z.ltb_ge in H. lia.
Qed.

(* the string returned by the repaired anchor is empty or a sub-range of the base buffer *)
Lemma anchor_in_bounds off length bp bn p n :
  0 <= off < W64 -> 0 <= length < W64 -> 0 <= bp -> 0 <= bn -> bp + bn < W64 ->
  anchor cfg_final off length bp bn = (p, n) ->
  (p = 0 /\ n = 0) \/ (n = length /\ p = bp + off /\ bp <= p /\ p + n <= bp + bn).
Proof.
  intros Ho Hl Hbp Hbn Hsum. unfold anchor. cbn [fix_anchor cfg_final].
  destruct (signed64 off <? 0) eqn:E1; cbn [orb]; [intros H; inversion H; auto|].
  destruct (bn <? length) eqn:E2; cbn [orb]; [intros H; inversion H; auto|].
  destruct (bn - length <? off) eqn:E3; [intros H; inversion H; auto|].
  apply Z.ltb_ge in E2, E3. intros H. inversion H. subst. right.
  assert (Hw : wrap (bp + off) = bp + off) by (apply wrap_small; lia).
  rewrite Hw. lia.
Qed.

(* string::sv(): a prefix of the string, empty for an empty string *)
Lemma sv_in_bounds p n p' n' : 0 <= n < W64 -> sv_of cfg_final p n = (p', n') -> p' = p /\ 0 <= n' <= n.
Proof.
  intros Hn. unfold sv_of. cbn [fix_sv cfg_final]. destruct (n =? 0) eqn:E; cbn [andb].
  - apply Z.eqb_eq in E. intros H. inversion H. lia.
  - apply Z.eqb_neq in E. intros H. inversion H. subst. rewrite wrap_small by lia. lia.
Qed.

Lemma entry_lt_key_ok m e bp bn k :
  mem_bytes m -> mem_wf m ->
  validb (lens m) e 16 = true -> validb (lens m) bp bn = true ->
  0 <= bp -> 0 <= bn -> bp + bn < W64 ->
  exists b, entry_lt_key cfg_final m e bp bn k = Ok b.
Proof.
  intros Hb Hwf He Hbase Hbp Hbn Hsum. unfold entry_lt_key.
  destruct (load64_ok m e Hb) as [koff [E1 R1]]; [apply (validb_sub' _ e 16); auto; lia|].
  destruct (load64_ok m (e + 8) Hb) as [klen [E2 R2]]; [apply (validb_sub' _ e 16); auto; lia|].
  rewrite E1, E2. cbn [bind].
  destruct (anchor cfg_final koff klen bp bn) as [p n] eqn:EA.
  destruct (sv_of cfg_final p n) as [sp sn] eqn:ES.
  destruct (sv_of cfg_final 1 (len k)) as [k1 kn] eqn:EK.
  destruct (anchor_in_bounds _ _ _ _ _ _ R1 R2 Hbp Hbn Hsum EA) as [[-> ->]|[-> [-> [Hlo Hhi]]]].
  - (* empty string: nothing is read *)
    cbn in ES. inversion ES. subst.
    rewrite load_nonpos by lia. cbn [bind]. eauto.
  - destruct (sv_in_bounds _ _ _ _ R2 ES) as [-> Hsn].
    assert (Hv : validb (lens m) (bp + koff) (Z.min sn kn) = true).
    { apply (validb_sub' _ bp bn); auto; lia. }
    destruct (load_valid _ _ _ Hv) as [da Hda]. rewrite Hda. cbn [bind]. eauto.
Qed.

Lemma lower_bound_ok fuel : forall m ip bp bn k first length cnt,
  mem_bytes m -> mem_wf m ->
  validb (lens m) ip (32 * cnt) = true -> validb (lens m) bp bn = true ->
  0 <= bp -> 0 <= bn -> bp + bn < W64 ->
  0 <= first -> first + length <= cnt ->
  exists r, lower_bound cfg_final fuel m ip bp bn k first length = Ok r /\ first <= r <= first + Z.max 0 length.
Proof.
  induction fuel as [|fuel IH]; intros m ip bp bn k first length cnt Hb Hwf Hidx Hbase Hbp Hbn Hsum Hf Hl.
  - cbn. eexists. split; [reflexivity|]. lia.
  - cbn [lower_bound]. destruct (length <=? 0) eqn:E.
    + eexists. split; [reflexivity|]. lia.
    + apply Z.leb_gt in E.
      assert (Hh : 0 <= length / 2 < length) by (split; [apply Z.div_pos; lia|apply Z.div_lt_upper_bound; lia]).
      destruct (entry_lt_key_ok m (ip + 32 * (first + length / 2)) bp bn k Hb Hwf) as [b Hbk]; auto.
      { apply (validb_sub' _ ip (32 * cnt)); auto; lia. }
      rewrite Hbk. cbn [bind]. destruct b.
      * destruct (IH m ip bp bn k (first + length / 2 + 1) (length - length / 2 - 1) cnt) as [r [Hr Hrr]]; auto; try lia.
        eexists. split; [exact Hr|]. lia.
      * destruct (IH m ip bp bn k first (length / 2) cnt) as [r [Hr Hrr]]; auto; try lia.
        eexists. split; [exact Hr|]. lia.
Qed.

(* a concrete deserialized map meeting every hypothesis of sorted_map_lookup_in_bounds (C12_Properties.v):
   region 0 = the sorted_map slot (index ptr/len, base ptr/len), region 1 = one index entry
   (key slice (0,2), value slice (2,2)), region 2 = base buffer "k\0v\0" *)
Definition ex_mem : mem :=
  [ [0; 0; 0; 0; 1; 48; 0; 0; 32; 0; 0; 0; 0; 0; 0; 0; 0; 0; 0; 0; 2; 48; 0; 0; 4; 0; 0; 0; 0; 0; 0; 0];
    [0; 0; 0; 0; 0; 0; 0; 0; 2; 0; 0; 0; 0; 0; 0; 0; 2; 0; 0; 0; 0; 0; 0; 0; 2; 0; 0; 0; 0; 0; 0; 0];
    [107; 0; 118; 0] ].
Fixpoint bytes_okb (bs : list byte) : bool :=
  match bs with [] => true | b :: r => (0 <=? b) && (b <? 256) && bytes_okb r end.
Lemma bytes_okb_ok bs : bytes_okb bs = true -> bytes_ok bs.
Proof.
  induction bs as [|b r IH]; intros H; [constructor|]. cbn [bytes_okb] in H.
  apply andb_true_iff in H. destruct H as [H1 H2]. apply andb_true_iff in H1. destruct H1 as [H0 H1].
  apply Z.leb_le in H0. apply Z.ltb_lt in H1. constructor; [lia|exact (IH H2)].
Qed.
Lemma mem_bytesb_ok m : forallb bytes_okb m = true -> mem_bytes m.
Proof. intros H. apply Forall_forall. intros bs Hb. apply bytes_okb_ok. exact (proj1 (forallb_forall _ _) H bs Hb). Qed.

(* inv as a computation, for the concrete memories and vectors of the examples *)
Definition el_okb (ls : list Z) (e : Z * Z) : bool :=
  (0 <=? snd e) && validb ls (fst e) (snd e) && (0 <=? fst e) && (fst e + snd e <? W64).
Definition invb (m : mem) (v : iovs) : bool :=
  forallb bytes_okb m && forallb (fun L => L <=? STRIDE) (lens m) && forallb (el_okb (lens m)) (i_el v) &&
  (sum_el (i_el v) <=? INT_MAX) && (0 <=? i_nb v) && (len m + (i_cap v - i_nb v) <=? 65536) && (len (i_el v) <=? 65536).
Lemma invb_ok m v : invb m v = true -> inv m v.
Proof.
  unfold invb, inv. rewrite !andb_true_iff, !Z.leb_le. intros [[[[[[A B] C] D] E] F] G].
  split; [apply mem_bytesb_ok; exact A|]. split; [|split; [|tauto]]; apply Forall_forall.
  - intros L HL. apply Z.leb_le. exact (proj1 (forallb_forall _ _) B L HL).
  - intros e He. pose proof (proj1 (forallb_forall _ _) C e He) as H. unfold el_okb in H.
    rewrite !andb_true_iff, !Z.leb_le, Z.ltb_lt in H. unfold el_ok. tauto.
Qed.
Example map_find_hyps_inhabited :
  mem_bytes ex_mem /\ mem_wf ex_mem /\ validb (lens ex_mem) (region_base 0) 32 = true /\
  load64 ex_mem (region_base 0) = Ok (region_base 1) /\ load64 ex_mem (region_base 0 + 8) = Ok 32 /\
  load64 ex_mem (region_base 0 + 16) = Ok (region_base 2) /\ load64 ex_mem (region_base 0 + 24) = Ok 4 /\
  validb (lens ex_mem) (region_base 1) 32 = true /\ validb (lens ex_mem) (region_base 2) 4 = true /\
  map_find cfg_final ex_mem (region_base 0) [107; 0] = Ok 0 /\
  map_find cfg_final ex_mem (region_base 0) [122; 0] = Ok 1.
Proof.
  split; [|split].
  - apply mem_bytesb_ok. reflexivity.
  - unfold mem_wf. change (lens ex_mem) with [32; 32; 4]. repeat (apply Forall_cons; [unfold STRIDE; lia|]). apply Forall_nil.
  - repeat split; vm_compute; reflexivity.
Qed.

(* FINDING F25.  "A checked message whose bytes were altered is rejected" is FALSE for the
   code as it is: the accumulator of the hash is m_checksum itself, which lies inside the body
   that is hashed last; with the real CRC32C step the word equal to the running value resets
   the register, so the result does not depend on the variable-length fields.  Witness: two
   streams that differ in a byte of the string field carry the same stored checksum and are
   both accepted by the (faithful) model; replayed on the implementation (corpus). *)
Definition ex_checked_shape : shape := mkShape 24 true (FCons 8 FStr FNil).
Definition ex_checked_good : list byte :=
  [104; 105; 0; 68; 136; 122; 8; 7; 0; 0; 0; 52; 18; 0; 0; 0; 0; 0; 0; 3; 0; 0; 0; 0; 0; 0; 0].
Definition ex_checked_bad : list byte :=
  [104; 104; 0; 68; 136; 122; 8; 7; 0; 0; 0; 52; 18; 0; 0; 0; 0; 0; 0; 3; 0; 0; 0; 0; 0; 0; 0].
Definition accepted (bs : list byte) : bool :=
  match deserialize crc32c_step cfg_final ex_checked_shape [bs] (mkIov 4 [(region_base 0, len bs)] 0 32) with
  | Ok (t, _) => negb (t =? 0)
  | Err _ => false
  end.
(* the full-strength statement, kept as a Prop: every alteration of an accepted checked
   stream (same length, different bytes) is rejected *)
Definition checked_rejects_alteration : Prop :=
  forall bs bs', accepted bs = true -> len bs' = len bs -> bs' <> bs -> accepted bs' = false.
