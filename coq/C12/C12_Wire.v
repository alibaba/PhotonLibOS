(* C12_Wire.v — the pointer-free VALUE of a message laid out in memory, the flat-string
   specification of the wire format, and the footprint of both (route (b) of ser_roundtrip).

   rd_f f m a = Ok (value, wire, footprint):
     value     = what the message means, without any pointer: bytes of fixed members, bytes of
                 every buffer / string / array, element values of arrays of messages, the
                 concatenated bytes and summed_size of iovec arrays, index and base bytes of maps;
     wire      = the byte string the serializer emits for this field, in emission order
                 (buffer bytes; array bytes followed by the wires of the elements; map index then base);
     footprint = every address range the two depend on (slots, buffers, element buffers). *)
From Coq Require Import ZArith List Bool Lia.
From PV Require Import Base.U64 C12.C12_Model C12.C12_Mem C12.C12_MemC C12.C12_Iov C12.C12_Flat C12.C12_Deser C12.C12_Sep.
Import ListNotations.
Local Open Scope Z_scope.

Inductive value :=
| VFix (bs : list byte)
| VBuf (bs : list byte)
| VArr (n : Z) (bs : list byte) (elems : list (list value))   (* bs = [] when the elements are messages with fields *)
| VIov (summed : Z) (bs : list byte)
| VNest (vs : list value)
| VMap (ibs bbs : list byte).

Definition rd3 (V : Type) : Type := (V * list byte * list (Z * Z))%type.

Fixpoint rd_elems {V} (g : Z -> res (rd3 V)) (k : nat) (e esz : Z) : res (rd3 (list V)) :=
  match k with
  | O => Ok ([], [], [])
  | S k' => '(v1, w1, F1) <- g e ;; '(vs, w, F) <- rd_elems g k' (e + esz) esz ;; Ok (v1 :: vs, w1 ++ w, F1 ++ F)
  end.

Fixpoint rd_iovecs (m : mem) (p : Z) (k : nat) : res (list byte * list (Z * Z)) :=
  match k with
  | O => Ok ([], [])
  | S k' => b <- load64 m p ;; n <- load64 m (p + 8) ;; d <- load m b n ;;
            '(bs, F) <- rd_iovecs m (p + 16) k' ;; Ok (d ++ bs, (b, n) :: F)
  end.

Fixpoint rd_f (f : field) (m : mem) (a : Z) {struct f} : res (rd3 value) :=
  match f with
  | FFixed n => bs <- load m a n ;; Ok (VFix bs, [], [(a, n)])
  | FBuf | FStr | FFixBuf _ | FABuf =>
      p <- load64 m a ;; n <- load64 m (a + 8) ;; bs <- load m p n ;; Ok (VBuf bs, bs, [(a, 16); (p, n)])
  | FArr esz efs =>
      p <- load64 m a ;; n <- load64 m (a + 8) ;; bs <- load m p n ;;
      if fields_active efs then
        '(vs, w, F) <- rd_elems (rd_fs efs m) (Z.to_nat (n / esz)) p esz ;;
        Ok (VArr n [] vs, bs ++ w, (a, 16) :: (p, n) :: F)
      else Ok (VArr n bs [], bs, [(a, 16); (p, n)])
  | FIov | FAIov =>
      p <- load64 m a ;; n <- load64 m (a + 8) ;; s <- load64 m (a + 16) ;;
      '(bs, F) <- rd_iovecs m p (Z.to_nat (n / 16)) ;;
      Ok (VIov s bs, bs, (a, 24) :: (p, n) :: F)
  | FNest fs => '(vs, w, F) <- rd_fs fs m a ;; Ok (VNest vs, w, F)
  | FMap _ _ =>
      ip <- load64 m a ;; inn <- load64 m (a + 8) ;; ibs <- load m ip inn ;;
      bp <- load64 m (a + 16) ;; bn <- load64 m (a + 24) ;; bbs <- load m bp bn ;;
      Ok (VMap ibs bbs, ibs ++ bbs, [(a, 16); (ip, inn); (a + 16, 16); (bp, bn)])
  end
with rd_fs (fs : fields) (m : mem) (base : Z) {struct fs} : res (rd3 (list value)) :=
  match fs with
  | FNil => Ok ([], [], [])
  | FCons off f r =>
      '(v1, w1, F1) <- rd_f f m (base + off) ;; '(vs, w, F) <- rd_fs r m base ;; Ok (v1 :: vs, w1 ++ w, F1 ++ F)
  end.

(* static ranges of a struct: every slot and every fixed member *)
Fixpoint aranges_f (f : field) (a : Z) : list (Z * Z) :=
  match f with
  | FFixed n => [(a, n)]
  | FBuf | FStr | FFixBuf _ | FABuf | FArr _ _ => [(a, 16)]
  | FIov | FAIov => [(a, 24)]
  | FNest fs => aranges_fs fs a
  | FMap _ _ => [(a, 16); (a + 16, 16)]
  end
with aranges_fs (fs : fields) (base : Z) : list (Z * Z) :=
  match fs with FNil => [] | FCons off f r => aranges_f f (base + off) ++ aranges_fs r base end.

(* layout: the members of every struct (at every nesting level) do not overlap *)
Fixpoint lay_f (f : field) : Prop :=
  match f with
  | FArr _ efs => (forall e, psep (aranges_fs efs e)) /\ lay_fs efs
  | FNest fs => lay_fs fs
  | _ => True
  end
with lay_fs (fs : fields) : Prop :=
  match fs with FNil => True | FCons _ f r => lay_f f /\ lay_fs r end.

Lemma aranges_within :
  (forall f avail a, field_wf avail f -> forall r, In r (aranges_f f a) -> within r (a, avail)) /\
  (forall fs sz base, fields_wf sz fs -> forall r, In r (aranges_fs fs base) -> within r (base, sz)).
Proof.
  assert (Hone : forall w avail a, w <= avail -> forall r, In r [(a, w)] -> within r (a, avail)).
  { intros w avail a H r [<-|[]]. unfold within. cbn. lia. }
  apply field_fields_mut; cbn [aranges_f aranges_fs field_wf fields_wf].
  - intros n avail a H. apply Hone. lia.
  - exact (Hone 16).
  - exact (Hone 16).
  - intros n. exact (Hone 16).
  - exact (Hone 16).
  - intros esz efs _ avail a [H _]. apply Hone. exact H.
  - exact (Hone 24).
  - exact (Hone 24).
  - intros fs IH avail a H r Hr. eapply IH; eauto.
  - intros vsz vfs _ avail a H r [<-|[<-|[]]]; unfold within; cbn; lia.
  - intros sz base _ r [].
  - intros off f IHf r IHr sz base [Ho [Hf Hr]] x Hx. apply in_app_or in Hx. destruct Hx as [Hx|Hx].
    + specialize (IHf _ (base + off) Hf x Hx). unfold within in *. cbn [fst snd] in *. lia.
    + eapply IHr; eauto.
Qed.

(* the value depends on the footprint only *)
Definition agree (m m' : mem) (r : Z * Z) : Prop := forall x k, within (x, k) r -> load m' x k = load m x k.

Lemma agree_refl m r : agree m m r.
Proof. intros x k _. reflexivity. Qed.

Lemma agree_within m m' c r : agree m m' c -> within r c -> agree m m' r.
Proof. intros A W x k Wx. apply A. eapply within_trans; eauto. Qed.

Lemma agree_load64 m m' r a : agree m m' r -> within (a, 8) r -> load64 m' a = load64 m a.
Proof. intros A W. unfold load64. rewrite (A a 8 W). reflexivity. Qed.

Lemma rd_elems_stable {V} (g g' : Z -> res (rd3 V)) (m m' : mem) esz :
  (forall e R, g e = Ok R -> (forall r, In r (snd R) -> agree m m' r) -> g' e = Ok R) ->
  forall k e R, rd_elems g k e esz = Ok R -> (forall r, In r (snd R) -> agree m m' r) -> rd_elems g' k e esz = Ok R.
Proof.
  intros Hg. induction k as [|k IH]; intros e R H HA; [exact H|]. cbn [rd_elems] in *.
  destruct (g e) as [[[v1 w1] F1]|] eqn:E1; cbn [bind] in H; [|discriminate].
  destruct (rd_elems g k (e + esz) esz) as [[[vs w] F]|] eqn:E2; cbn [bind] in H; [|discriminate].
  inversion H. subst R. cbn [snd] in HA.
  rewrite (Hg e _ E1); [|cbn [snd]; intros r Hr; apply HA; apply in_or_app; auto]. cbn [bind].
  rewrite (IH (e + esz) _ E2); [|cbn [snd]; intros r Hr; apply HA; apply in_or_app; auto]. reflexivity.
Qed.

Lemma rd_iovecs_stable m m' : forall k p P R, rd_iovecs m p k = Ok R ->
  agree m m' P -> within (p, 16 * Z.of_nat k) P -> (forall r, In r (snd R) -> agree m m' r) -> rd_iovecs m' p k = Ok R.
Proof.
  induction k as [|k IH]; intros p P R H AP WP HA; [exact H|]. cbn [rd_iovecs] in *.
  rewrite Nat2Z.inj_succ in WP.
  rewrite (agree_load64 m m' P p AP) by (unfold within in *; cbn [fst snd] in *; lia).
  rewrite (agree_load64 m m' P (p + 8) AP) by (unfold within in *; cbn [fst snd] in *; lia).
  destruct (load64 m p) as [b|]; cbn [bind] in *; [|discriminate].
  destruct (load64 m (p + 8)) as [n|]; cbn [bind] in *; [|discriminate].
  destruct (load m b n) as [d|] eqn:Ed; cbn [bind] in H; [|discriminate].
  destruct (rd_iovecs m (p + 16) k) as [[bs F]|] eqn:Er; cbn [bind] in H; [|discriminate].
  inversion H. subst R. cbn [snd] in HA.
  rewrite (HA (b, n) (or_introl eq_refl) b n (within_refl _)), Ed. cbn [bind].
  rewrite (IH (p + 16) P _ Er AP); [reflexivity| |].
  - unfold within in *. cbn [fst snd] in *. lia.
  - cbn [snd]. intros r Hr. apply HA. right. exact Hr.
Qed.

(* a (ptr, len) slot followed by its buffer: the three loads give the same in m' when m' agrees
   with m on the slot and on the buffer; K continues in m, K' in m' *)
Lemma slot_inv {R} m a (K : Z -> Z -> list byte -> res R) r :
  (p <- load64 m a ;; n <- load64 m (a + 8) ;; bs <- load m p n ;; K p n bs) = Ok r ->
  exists p n bs, load64 m a = Ok p /\ load64 m (a + 8) = Ok n /\ load m p n = Ok bs /\ K p n bs = Ok r.
Proof.
  intros H. destruct (load64 m a) as [p|]; cbn [bind] in H; [|discriminate].
  destruct (load64 m (a + 8)) as [n|]; cbn [bind] in H; [|discriminate].
  destruct (load m p n) as [bs|] eqn:E; cbn [bind] in H; [|discriminate]. exists p, n, bs. auto.
Qed.

Lemma slot_stable {T} m m' a (K K' : Z -> Z -> list byte -> res T) R :
  (p <- load64 m a ;; n <- load64 m (a + 8) ;; bs <- load m p n ;; K p n bs) = Ok R ->
  (forall p n bs, K p n bs = Ok R -> agree m m' (a, 16) /\ agree m m' (p, n) /\ K' p n bs = Ok R) ->
  (p <- load64 m' a ;; n <- load64 m' (a + 8) ;; bs <- load m' p n ;; K' p n bs) = Ok R.
Proof.
  intros H HK. destruct (slot_inv _ _ _ _ H) as [p [n [bs [Lp [Ln [Lb HR]]]]]].
  destruct (HK p n bs HR) as [A16 [AP HK']].
  rewrite (agree_load64 m m' _ a A16), Lp by (unfold within; cbn; lia). cbn [bind].
  rewrite (agree_load64 m m' _ (a + 8) A16), Ln by (unfold within; cbn; lia). cbn [bind].
  rewrite (AP p n (within_refl _)), Lb. exact HK'.
Qed.

(* FBuf, FStr, FFixBuf, FABuf: rd_f is the same term for the four *)
Lemma rd_buf_stable m m' a R : rd_f FBuf m a = Ok R -> (forall r, In r (snd R) -> agree m m' r) -> rd_f FBuf m' a = Ok R.
Proof.
  cbn [rd_f]. intros H HA. eapply slot_stable; [exact H|]. intros p n bs HK. inversion HK. subst R.
  split; [apply HA; left; reflexivity|]. split; [apply HA; right; left; reflexivity|reflexivity].
Qed.

Lemma rd_iov_stable m m' a R : rd_f FIov m a = Ok R -> (forall r, In r (snd R) -> agree m m' r) -> rd_f FIov m' a = Ok R.
Proof.
  cbn [rd_f]. intros H HA.
  destruct (load64 m a) as [p|] eqn:Lp; cbn [bind] in H; [|discriminate].
  destruct (load64 m (a + 8)) as [n|] eqn:Ln; cbn [bind] in H; [|discriminate].
  destruct (load64 m (a + 16)) as [s|] eqn:Ls; cbn [bind] in H; [|discriminate].
  destruct (rd_iovecs m p (Z.to_nat (n / 16))) as [[bs F]|] eqn:Er; cbn [bind] in H; [|discriminate].
  inversion H. subst R. cbn [snd] in HA.
  pose proof (HA _ (or_introl eq_refl)) as A24.
  rewrite (agree_load64 m m' _ a A24), Lp by (unfold within; cbn; lia). cbn [bind].
  rewrite (agree_load64 m m' _ (a + 8) A24), Ln by (unfold within; cbn; lia). cbn [bind].
  rewrite (agree_load64 m m' _ (a + 16) A24), Ls by (unfold within; cbn; lia). cbn [bind].
  destruct (Z_lt_le_dec n 0) as [Hn|Hn].
  { replace (Z.to_nat (n / 16)) with 0%nat in * by (pose proof (Z.div_lt_upper_bound n 16 0 ltac:(lia) ltac:(lia)); lia).
    cbn [rd_iovecs] in *. inversion Er. reflexivity. }
  rewrite (rd_iovecs_stable m m' _ p (p, n) _ Er); [reflexivity| | |].
  - apply HA. right. left. reflexivity.
  - pose proof (elems_fit n 16 Hn ltac:(lia)). unfold within. cbn [fst snd]. lia.
  - cbn [snd]. intros r Hr. apply HA. right. right. exact Hr.
Qed.

Lemma rd_stable m m' :
  (forall f a R, rd_f f m a = Ok R -> (forall r, In r (snd R) -> agree m m' r) -> rd_f f m' a = Ok R) /\
  (forall fs base R, rd_fs fs m base = Ok R -> (forall r, In r (snd R) -> agree m m' r) -> rd_fs fs m' base = Ok R).
Proof.
  apply field_fields_mut.
  - (* FFixed *) intros n a R H HA. cbn [rd_f] in *. destruct (load m a n) as [bs|] eqn:E; cbn [bind] in H; [|discriminate].
    inversion H. subst R. cbn [snd] in HA. rewrite (HA (a, n) (or_introl eq_refl) a n (within_refl _)), E. reflexivity.
  - exact (rd_buf_stable m m').
  - exact (rd_buf_stable m m').
  - intros n. exact (rd_buf_stable m m').
  - exact (rd_buf_stable m m').
  - (* FArr *) intros esz efs IH a R H HA. cbn [rd_f] in *. eapply slot_stable; [exact H|]. intros p n bs HK. cbn beta in HK.
    destruct (fields_active efs).
    + destruct (rd_elems (rd_fs efs m) (Z.to_nat (n / esz)) p esz) as [[[vs w] F]|] eqn:Ee; cbn [bind] in HK; [|discriminate].
      inversion HK. subst R. cbn [snd] in HA.
      split; [apply HA; left; reflexivity|]. split; [apply HA; right; left; reflexivity|].
      rewrite (rd_elems_stable (rd_fs efs m) (rd_fs efs m') m m' esz (fun e R0 => IH e R0) _ _ _ Ee); [reflexivity|].
      cbn [snd]. intros r Hr. apply HA. right. right. exact Hr.
    + inversion HK. subst R. split; [apply HA; left; reflexivity|]. split; [apply HA; right; left; reflexivity|reflexivity].
  - exact (rd_iov_stable m m').
  - exact (rd_iov_stable m m').
  - (* FNest *) intros fs IH a R H HA. cbn [rd_f] in *.
    destruct (rd_fs fs m a) as [[[vs w] F]|] eqn:E; cbn [bind] in H; [|discriminate]. inversion H. subst R. cbn [snd] in HA.
    rewrite (IH a _ E HA). reflexivity.
  - (* FMap: the index slot, then the base slot *)
    intros vsz vfs _ a R H HA. cbn [rd_f] in *. replace (a + 24) with (a + 16 + 8) in * by lia.
    eapply slot_stable; [exact H|]. intros ip inn ibs H2. cbn beta in H2.
    assert (HF : In (a, 16) (snd R) /\ In (ip, inn) (snd R)).
    { destruct (load64 m (a + 16)) as [bp|]; cbn [bind] in H2; [|discriminate].
      destruct (load64 m (a + 16 + 8)) as [bn|]; cbn [bind] in H2; [|discriminate].
      destruct (load m bp bn) as [bbs|]; cbn [bind] in H2; [|discriminate]. inversion H2. cbn. auto. }
    split; [apply HA, HF|]. split; [apply HA, HF|].
    eapply slot_stable; [exact H2|]. intros bp bn bbs HK. inversion HK. subst R.
    split; [apply HA; cbn; auto|]. split; [apply HA; cbn; auto|reflexivity].
  - (* FNil *) intros base R H _. exact H.
  - (* FCons *) intros off f IHf r IHr base R H HA. cbn [rd_fs] in *.
    destruct (rd_f f m (base + off)) as [[[v1 w1] F1]|] eqn:E1; cbn [bind] in H; [|discriminate].
    destruct (rd_fs r m base) as [[[vs w] F]|] eqn:E2; cbn [bind] in H; [|discriminate].
    inversion H. subst R. cbn [snd] in HA.
    rewrite (IHf _ _ E1); [|cbn [snd]; intros x Hx; apply HA; apply in_or_app; auto]. cbn [bind].
    rewrite (IHr _ _ E2); [|cbn [snd]; intros x Hx; apply HA; apply in_or_app; auto]. reflexivity.
Qed.

(* the archive order: _FilterAlignedFields makes two passes over the top-level fields *)
Definition sel (aligned : bool) (f : field) : bool :=
  match f with FABuf | FAIov => aligned | _ => negb aligned end.
Lemma sel_compl f : sel true f = negb (sel false f).
Proof. destruct f; reflexivity. Qed.
Fixpoint filt (aligned : bool) (fs : fields) : fields :=
  match fs with
  | FNil => FNil
  | FCons off f r => if sel aligned f then FCons off f (filt aligned r) else filt aligned r
  end.
Fixpoint fapp (a b : fields) : fields :=
  match a with FNil => b | FCons off f r => FCons off f (fapp r b) end.
(* the top-level fields in the order the archive visits them: aligned ones first *)
Definition perm (fs : fields) : fields := fapp (filt true fs) (filt false fs).

Lemma d_pass_filt al : forall fs st base, d_pass cfg_final al fs st base = d_fields cfg_final (filt al fs) st base.
Proof.
  induction fs as [|off f r IH]; intros st base; [reflexivity|].
  destruct f; destruct al; cbn [d_pass filt sel negb d_fields d_field bind fix_nested_al cfg_final]; rewrite ?IH; try reflexivity;
    match goal with |- bind ?e _ = bind ?e _ => destruct e; cbn [bind]; [apply IH|reflexivity] end.
Qed.

Lemma s_pass_filt al : forall fs st base, s_pass cfg_final al fs st base = s_fields cfg_final (filt al fs) st base.
Proof.
  induction fs as [|off f r IH]; intros st base; [reflexivity|].
  destruct f; destruct al; cbn [s_pass filt sel negb s_fields s_field bind fix_nested_al cfg_final]; rewrite ?IH; try reflexivity;
    match goal with |- bind ?e _ = bind ?e _ => destruct e; cbn [bind]; [apply IH|reflexivity] end.
Qed.

Lemma d_fields_app a : forall b st base, d_fields cfg_final (fapp a b) st base = (st1 <- d_fields cfg_final a st base ;; d_fields cfg_final b st1 base).
Proof.
  induction a as [|off f r IH]; intros b st base; [reflexivity|]. cbn [fapp]. rewrite !d_fields_cons.
  destruct (d_field cfg_final f st (base + off)); cbn [bind]; [apply IH|reflexivity].
Qed.

Lemma s_fields_cons c off f r st base :
  s_fields c (FCons off f r) st base = (st1 <- s_field c f st (base + off) ;; s_fields c r st1 base).
Proof. reflexivity. Qed.

Lemma s_fields_app a : forall b st base, s_fields cfg_final (fapp a b) st base = (st1 <- s_fields cfg_final a st base ;; s_fields cfg_final b st1 base).
Proof.
  induction a as [|off f r IH]; intros b st base; [reflexivity|]. cbn [fapp]. rewrite !s_fields_cons.
  destruct (s_field cfg_final f st (base + off)); cbn [bind]; [apply IH|reflexivity].
Qed.

Lemma w_fields_cons c off f r m base :
  w_fields c (FCons off f r) m base = (it <- w_field c f m (base + off) ;; its <- w_fields c r m base ;; Ok (it :: its)).
Proof. reflexivity. Qed.

Lemma w_field_nest c fs m a : w_field c (FNest fs) m a = (its <- w_fields c fs m a ;; Ok (INest its)).
Proof. reflexivity. Qed.
