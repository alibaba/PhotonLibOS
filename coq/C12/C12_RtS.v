(* C12_RtS.v — route (d) of ser_roundtrip: the serializer side.  The iovec list SerializerIOV
   builds denotes exactly the flat wire string of C12_Wire.v: for every field the pieces pushed
   are, in order, wire(f); the whole message is  wire(aligned fields) ++ wire(other fields) ++ body. *)
From Coq Require Import ZArith List Bool Lia.
From PV Require Import Base.U64 C12.C12_Model C12.C12_Mem C12.C12_MemC C12.C12_Iov C12.C12_Flat C12.C12_Deser C12.C12_Sep C12.C12_Wire C12.C12_RtD C12.C12_Perm.
Import ListNotations.
Local Open Scope Z_scope.

Definition s_loop (efs : fields) (esz : Z) := fix loop (k : nat) (st : sst) (e : Z) {struct k} : res sst :=
  match k with O => Ok st | S k' => st' <- s_fields cfg_final efs st e ;; loop k' st' (e + esz) end.

Lemma s_loop_S efs esz k st e : s_loop efs esz (S k) st e = (st' <- s_fields cfg_final efs st e ;; s_loop efs esz k st' (e + esz)).
Proof. reflexivity. Qed.

Lemma s_field_arr esz efs st a : s_field cfg_final (FArr esz efs) st a =
  (st1 <- s_buffer st a ;;
   if fields_active efs then
     p <- load64 (s_mem st1) a ;; n <- load64 (s_mem st1) (a + 8) ;; s_loop efs esz (Z.to_nat (n / esz)) st1 p
   else Ok st1).
Proof. reflexivity. Qed.

Lemma s_push_mono st p n : s_full st = true -> s_full (s_push st p n) = true.
Proof. intros H. unfold s_push. destruct (0 <? i_cap (s_iov st) - i_end (s_iov st)); [destruct (0 <? n); cbn; auto|reflexivity]. Qed.

Lemma s_buffer_mono st a st' : s_buffer st a = Ok st' -> s_full st = true -> s_full st' = true.
Proof.
  unfold s_buffer. destruct (load64 (s_mem st) a); cbn [bind]; [|discriminate].
  destruct (load64 (s_mem st) (a + 8)); cbn [bind]; [|discriminate]. intros H. inversion H. apply s_push_mono.
Qed.

Lemma s_loop_mono efs esz :
  (forall st base st', s_fields cfg_final efs st base = Ok st' -> s_full st = true -> s_full st' = true) ->
  forall k st e st', s_loop efs esz k st e = Ok st' -> s_full st = true -> s_full st' = true.
Proof.
  intros IH. induction k as [|k IHk]; intros st e st' H Hf; [inversion H; subst; exact Hf|].
  rewrite s_loop_S in H. destruct (s_fields cfg_final efs st e) as [st2|] eqn:E2; cbn [bind] in H; [|discriminate].
  eapply IHk; [exact H|]. eapply IH; eauto.
Qed.

Lemma s_mono :
  (forall f st a st', sup_f f -> s_field cfg_final f st a = Ok st' -> s_full st = true -> s_full st' = true) /\
  (forall fs st base st', sup_fs fs -> s_fields cfg_final fs st base = Ok st' -> s_full st = true -> s_full st' = true).
Proof.
  apply field_fields_mut.
  - intros n st a st' _ H. cbn in H. inversion H. auto.
  - intros st a st' _ H. cbn [s_field] in H. eapply s_buffer_mono; eauto.
  - intros st a st' _ H. cbn [s_field] in H. eapply s_buffer_mono; eauto.
  - intros n st a st' _ H. cbn [s_field] in H. eapply s_buffer_mono; eauto.
  - intros st a st' _ H. cbn [s_field fix_nested_al cfg_final] in H. eapply s_buffer_mono; eauto.
  - intros esz efs IH st a st' Hs H Hf. rewrite s_field_arr in H. cbn [sup_f] in Hs.
    destruct (s_buffer st a) as [st1|] eqn:E1; cbn [bind] in H; [|discriminate].
    pose proof (s_buffer_mono _ _ _ E1 Hf) as Hf1. destruct (fields_active efs); [|inversion H; subst; exact Hf1].
    destruct (load64 (s_mem st1) a) as [p|]; cbn [bind] in H; [|discriminate].
    destruct (load64 (s_mem st1) (a + 8)) as [n|]; cbn [bind] in H; [|discriminate].
    eapply s_loop_mono; eauto.
  - intros st a st' [].
  - intros st a st' [].
  - intros fs IH st a st' Hs H. cbn [s_field sup_f] in *. eapply IH; eauto.
  - intros vsz vfs _ st a st' _ H Hf. cbn [s_field] in H.
    destruct (s_buffer st a) as [st1|] eqn:E1; cbn [bind] in H; [|discriminate].
    eapply s_buffer_mono; [exact H|]. eapply s_buffer_mono; eauto.
  - intros st base st' _ H. cbn in H. inversion H. auto.
  - intros off f IHf r IHr st base st' [Hsf Hsr] H Hf. rewrite s_fields_cons in H.
    destruct (s_field cfg_final f st (base + off)) as [st1|] eqn:E1; cbn [bind] in H; [|discriminate].
    eapply IHr; [exact Hsr|exact H|]. eapply IHf; eauto.
Qed.

Definition spost (st st' : sst) (w0 w : list byte) : Prop :=
  s_mem st' = s_mem st /\ flat (s_mem st) (i_el (s_iov st')) = Ok (w0 ++ w).

Lemma s_push_mem st p n : s_mem (s_push st p n) = s_mem st.
Proof. unfold s_push. destruct (0 <? i_cap (s_iov st) - i_end (s_iov st)); [destruct (0 <? n)|]; reflexivity. Qed.

Lemma s_push_full st p n : s_full (s_push st p n) = false -> s_full st = false.
Proof. exact (sticky_clear _ _ (s_push_mono st p n)). Qed.

Lemma s_push_el st p n : s_full (s_push st p n) = false -> 0 < n -> i_el (s_iov (s_push st p n)) = i_el (s_iov st) ++ [(p, n)].
Proof.
  unfold s_push. destruct (0 <? i_cap (s_iov st) - i_end (s_iov st)); [|discriminate].
  intros _ Hn. apply Z.ltb_lt in Hn. rewrite Hn. reflexivity.
Qed.

(* the pushed piece denotes its bytes, in whatever memory m they are read *)
Lemma s_push_flat m st p n bs w0 : s_full (s_push st p n) = false -> load m p n = Ok bs ->
  flat m (i_el (s_iov st)) = Ok w0 -> flat m (i_el (s_iov (s_push st p n))) = Ok (w0 ++ bs).
Proof.
  unfold s_push. intros Hf Lb Fl. destruct (0 <? i_cap (s_iov st) - i_end (s_iov st)); [|discriminate].
  destruct (0 <? n) eqn:En; cbn [s_mem s_iov i_el].
  - rewrite flat_snoc, Fl. cbn [bind]. rewrite Lb. reflexivity.
  - apply Z.ltb_ge in En. rewrite load_nonpos in Lb by lia. inversion Lb. rewrite app_nil_r. exact Fl.
Qed.

Lemma s_buffer_flat st a st' p n bs w0 : s_buffer st a = Ok st' -> s_full st' = false ->
  load64 (s_mem st) a = Ok p -> load64 (s_mem st) (a + 8) = Ok n -> load (s_mem st) p n = Ok bs ->
  flat (s_mem st) (i_el (s_iov st)) = Ok w0 -> spost st st' w0 bs.
Proof.
  unfold s_buffer. intros H Hf L1 L2 L3 Fl. rewrite L1, L2 in H. cbn [bind] in H. inversion H. subst st'.
  split; [apply s_push_mem|apply s_push_flat; auto].
Qed.

(* serialize = one pass over the archive order, the body as last piece, then add_checksum *)
Lemma serialize_inv hstep sh ms x sst :
  serialize hstep cfg_final sh ms x = Ok sst -> s_full sst = false ->
  exists st2, s_fields cfg_final (perm (sh_fields sh)) (mkS ms (mkIov 4 [] 0 32) false) x = Ok st2 /\ s_full st2 = false /\
    s_iov sst = s_iov (s_push st2 x (sh_size sh)) /\ s_full (s_push st2 x (sh_size sh)) = false /\
    if sh_checked sh then hash_iov hstep (s_mem st2) x (i_el (s_iov sst)) = Ok (s_mem sst) else s_mem sst = s_mem st2.
Proof.
  unfold serialize. intros H Hf.
  destruct (s_pass cfg_final true (sh_fields sh) (mkS ms (mkIov 4 [] 0 32) false) x) as [st1|] eqn:E1; cbn [bind] in H; [|discriminate].
  destruct (s_pass cfg_final false (sh_fields sh) st1 x) as [st2|] eqn:E2; cbn [bind] in H; [|discriminate].
  exists st2. split; [apply s_passes_perm; eauto|]. destruct (sh_checked sh).
  - destruct (hash_iov hstep (s_mem (s_push st2 x (sh_size sh))) x (i_el (s_iov (s_push st2 x (sh_size sh))))) as [m'|] eqn:Eh; cbn [bind] in H; [|discriminate].
    inversion H. subst sst. cbn [s_full s_iov s_mem] in *. rewrite s_push_mem in Eh. split; [eapply s_push_full; eauto|]. auto.
  - inversion H. subst sst. split; [eapply s_push_full; eauto|]. split; [reflexivity|]. split; [exact Hf|]. apply s_push_mem.
Qed.

Definition Sf (f : field) : Prop := forall st a st' val w F w0,
  sup_f f -> s_field cfg_final f st a = Ok st' -> s_full st' = false ->
  rd_f f (s_mem st) a = Ok (val, w, F) -> flat (s_mem st) (i_el (s_iov st)) = Ok w0 -> spost st st' w0 w.
Definition Sfs (fs : fields) : Prop := forall st base st' vals w F w0,
  sup_fs fs -> s_fields cfg_final fs st base = Ok st' -> s_full st' = false ->
  rd_fs fs (s_mem st) base = Ok (vals, w, F) -> flat (s_mem st) (i_el (s_iov st)) = Ok w0 -> spost st st' w0 w.

Lemma s_leaf f : (forall st a, s_field cfg_final f st a = s_buffer st a) -> (forall m a, rd_f f m a = rd_f FBuf m a) -> Sf f.
Proof.
  intros Hd Hr st a st' val w F w0 _ H Hf Hrd Fl. rewrite Hd in H. rewrite Hr in Hrd. cbn [rd_f] in Hrd.
  destruct (slot_inv _ _ _ _ Hrd) as [p [n [bs [L1 [L2 [L3 K]]]]]]. inversion K. subst. eapply s_buffer_flat; eauto.
Qed.

(* the element loop of an array: each element appends its bytes; `full` clear at the end was clear throughout *)
Lemma s_loop_flat efs esz : Sfs efs -> sup_fs efs ->
  forall k st1 e st' vs we Fe w1, s_loop efs esz k st1 e = Ok st' -> s_full st' = false ->
    rd_elems (rd_fs efs (s_mem st1)) k e esz = Ok (vs, we, Fe) -> flat (s_mem st1) (i_el (s_iov st1)) = Ok w1 ->
    s_full st1 = false /\ spost st1 st' w1 we.
Proof.
  intros IH Hs. pose proof (s_loop_mono efs esz (fun st b st' => proj2 s_mono efs st b st' Hs)) as Hmono.
  induction k as [|k IHk]; intros st1 e st' vs we Fe w1 H Hf Hrd Fl.
  - cbn in H. inversion H. subst st'. cbn in Hrd. inversion Hrd. split; [exact Hf|]. split; [reflexivity|]. rewrite app_nil_r. exact Fl.
  - rewrite s_loop_S in H. destruct (s_fields cfg_final efs st1 e) as [st2|] eqn:E2; cbn [bind] in H; [|discriminate].
    cbn [rd_elems] in Hrd.
    destruct (rd_fs efs (s_mem st1) e) as [[[v1 w1'] F1]|] eqn:R1; cbn [bind] in Hrd; [|discriminate].
    destruct (rd_elems (rd_fs efs (s_mem st1)) k (e + esz) esz) as [[[vs' w2] F2]|] eqn:R2; cbn [bind] in Hrd; [|discriminate].
    inversion Hrd. subst vs we Fe.
    pose proof (sticky_clear _ _ (Hmono _ _ _ _ H) Hf) as Hf2.
    destruct (IH st1 e st2 v1 w1' F1 w1 Hs E2 Hf2 R1 Fl) as [Hm2 Fl2].
    rewrite <- Hm2 in R2, Fl2.
    destruct (IHk st2 (e + esz) st' vs' w2 F2 (w1 ++ w1') H Hf R2 Fl2) as [_ [Hm3 Fl3]].
    split; [exact (sticky_clear _ _ (proj2 s_mono efs st1 e st2 Hs E2) Hf2)|].
    split; [congruence|]. rewrite <- Hm2. rewrite Fl3, app_assoc. reflexivity.
Qed.

Lemma s_all : (forall f, Sf f) /\ (forall fs, Sfs fs).
Proof.
  apply field_fields_mut.
  - intros n st a st' val w F w0 _ H _ Hrd Fl. cbn in H. inversion H. subst st'. cbn [rd_f] in Hrd.
    destruct (load (s_mem st) a n); cbn [bind] in Hrd; [|discriminate]. inversion Hrd. split; [reflexivity|]. rewrite app_nil_r. exact Fl.
  - apply s_leaf; reflexivity.
  - apply s_leaf; reflexivity.
  - intros n. apply s_leaf; reflexivity.
  - apply s_leaf; reflexivity.
  - (* FArr *) intros esz efs IH st a st' val w F w0 Hs H Hf Hrd Fl. cbn [sup_f] in Hs. rewrite s_field_arr in H. cbn [rd_f] in Hrd.
    destruct (slot_inv _ _ _ _ Hrd) as [p [n [bs [L1 [L2 [L3 K]]]]]]. cbn beta in K. clear Hrd. rename K into Hrd.
    destruct (s_buffer st a) as [st1|] eqn:E1; cbn [bind] in H; [|discriminate].
    destruct (fields_active efs) eqn:Ea.
    2:{ inversion H. subst st1. inversion Hrd. subst. eapply s_buffer_flat; eauto. }
    destruct (rd_elems (rd_fs efs (s_mem st)) (Z.to_nat (n / esz)) p esz) as [[[vs we] Fe]|] eqn:Ee; cbn [bind] in Hrd; [|discriminate].
    inversion Hrd. subst val w F. clear Hrd.
    destruct (load64 (s_mem st1) a) as [p'|] eqn:L1'; cbn [bind] in H; [|discriminate].
    destruct (load64 (s_mem st1) (a + 8)) as [n'|] eqn:L2'; cbn [bind] in H; [|discriminate].
    pose proof (sticky_clear _ _ (s_loop_mono efs esz (fun st b st' => proj2 s_mono efs st b st' Hs) _ _ _ _ H) Hf) as Hf1.
    destruct (s_buffer_flat st a st1 p n bs w0 E1 Hf1 L1 L2 L3 Fl) as [Hm1 Fl1].
    rewrite Hm1, L1 in L1'. rewrite Hm1, L2 in L2'. inversion L1'. inversion L2'. subst p' n'.
    rewrite <- Hm1 in Ee, Fl1.
    destruct (s_loop_flat efs esz IH Hs _ _ _ _ _ _ _ _ H Hf Ee Fl1) as [_ [Hm2 Fl2]].
    split; [congruence|]. rewrite <- Hm1, Fl2, app_assoc. reflexivity.
  - intros st a st' val w F w0 [].
  - intros st a st' val w F w0 [].
  - (* FNest *) intros fs IH st a st' val w F w0 Hs H Hf Hrd Fl. cbn [s_field sup_f rd_f] in *.
    destruct (rd_fs fs (s_mem st) a) as [[[vs w1] F1]|] eqn:E1; cbn [bind] in Hrd; [|discriminate]. inversion Hrd. subst.
    eapply IH; eauto.
  - (* FMap *) intros vsz vfs _ st a st' val w F w0 _ H Hf Hrd Fl. cbn [s_field rd_f] in *.
    destruct (slot_inv _ _ _ _ Hrd) as [ip [inn [ibs [L1 [L2 [L3 K]]]]]]. cbn beta in K.
    replace (a + 24) with (a + 16 + 8) in K by lia.
    destruct (slot_inv _ _ _ _ K) as [bp [bn [bbs [L4 [L5 [L6 K']]]]]]. inversion K'. subst val w F. clear Hrd K K'.
    destruct (s_buffer st a) as [st1|] eqn:E1; cbn [bind] in H; [|discriminate].
    pose proof (sticky_clear _ _ (s_buffer_mono _ _ _ H) Hf) as Hf1.
    destruct (s_buffer_flat st a st1 ip inn ibs w0 E1 Hf1 L1 L2 L3 Fl) as [Hm1 Fl1].
    rewrite <- Hm1 in L4, L5, L6, Fl1.
    destruct (s_buffer_flat st1 (a + 16) st' bp bn bbs (w0 ++ ibs) H Hf L4 L5 L6 Fl1) as [Hm2 Fl2].
    split; [congruence|]. rewrite <- Hm1, Fl2, app_assoc. reflexivity.
  - intros st base st' vals w F w0 _ H _ Hrd Fl. cbn in H. inversion H. subst st'. cbn in Hrd. inversion Hrd.
    split; [reflexivity|]. rewrite app_nil_r. exact Fl.
  - intros off f IHf r IHr st base st' vals w F w0 [Hsf Hsr] H Hf Hrd Fl. rewrite s_fields_cons in H. cbn [rd_fs] in Hrd.
    destruct (s_field cfg_final f st (base + off)) as [st1|] eqn:E1; cbn [bind] in H; [|discriminate].
    destruct (rd_f f (s_mem st) (base + off)) as [[[v1 w1] F1]|] eqn:R1; cbn [bind] in Hrd; [|discriminate].
    destruct (rd_fs r (s_mem st) base) as [[[vs w2] F2]|] eqn:R2; cbn [bind] in Hrd; [|discriminate].
    inversion Hrd. subst vals w F. clear Hrd.
    pose proof (sticky_clear _ _ (proj2 s_mono r st1 base st' Hsr H) Hf) as Hf1.
    destruct (IHf st (base + off) st1 v1 w1 F1 w0 Hsf E1 Hf1 R1 Fl) as [Hm1 Fl1].
    rewrite <- Hm1 in R2, Fl1.
    destruct (IHr st1 base st' vs w2 F2 (w0 ++ w1) Hsr H Hf R2 Fl1) as [Hm2 Fl2].
    split; [congruence|]. rewrite <- Hm1, Fl2, app_assoc. reflexivity.
Qed.
