(* C12_Perm.v — the archive order `perm fs` (aligned fields first, then the others; C12_Wire.v) is a
   rearrangement of the declared fields: it keeps well-formedness, support, layout and the separation
   of the static ranges; reading or processing `perm fs` is the aligned pass followed by the other. *)
From Coq Require Import ZArith List Bool Lia Permutation.
From PV Require Import Base.U64 C12.C12_Model C12.C12_Mem C12.C12_MemC C12.C12_Iov C12.C12_Flat C12.C12_Deser C12.C12_Sep C12.C12_Wire C12.C12_RtD.
Import ListNotations.
Local Open Scope Z_scope.

(* a property of field lists that says the same of every member is kept by `perm`: filt drops members,
   fapp puts the two selections one after the other *)
Lemma perm_keeps (P : fields -> Prop) (Q : Z -> field -> Prop) :
  P FNil -> (forall off f r, P (FCons off f r) <-> Q off f /\ P r) -> forall fs, P fs -> P (perm fs).
Proof.
  intros Hnil Hcons.
  assert (Hfilt : forall al fs, P fs -> P (filt al fs)).
  { induction fs as [|off f r IH]; intros H; [exact H|]. apply Hcons in H. destruct H as [A B]. cbn [filt].
    destruct (sel al f); [apply Hcons; split|]; auto. }
  assert (Hfapp : forall a b, P a -> P b -> P (fapp a b)).
  { induction a as [|off f r IH]; intros b H1 H2; [exact H2|]. apply Hcons in H1. destruct H1 as [A B]. cbn [fapp].
    apply Hcons. split; auto. }
  intros fs H. apply Hfapp; apply Hfilt; exact H.
Qed.

Lemma perm_wf fs sz : fields_wf sz fs -> fields_wf sz (perm fs).
Proof.
  apply (perm_keeps (fields_wf sz) (fun off f => 0 <= off /\ field_wf (sz - off) f)); [exact I|].
  intros off f r. cbn [fields_wf]. tauto.
Qed.
Lemma perm_sup fs : sup_fs fs -> sup_fs (perm fs).
Proof. apply (perm_keeps sup_fs (fun _ f => sup_f f)); [exact I|]. intros off f r. apply iff_refl. Qed.
Lemma perm_lay fs : lay_fs fs -> lay_fs (perm fs).
Proof. apply (perm_keeps lay_fs (fun _ f => lay_f f)); [exact I|]. intros off f r. apply iff_refl. Qed.

Lemma psep_perm l l' : Permutation l l' -> psep l -> psep l'.
Proof.
  induction 1 as [|x l l' HP IH|x y l|l l' l'' _ IH1 _ IH2]; intros H; auto.
  - destruct H as [H1 H2]. split; [|auto]. intros y Hy. apply H1. eapply Permutation_in; [apply Permutation_sym; exact HP|exact Hy].
  - destruct H as [H1 [H2 H3]]. split; [|split; [|exact H3]].
    + intros z [<-|Hz]; [apply sep_sym; apply H1; left; reflexivity|apply H2; exact Hz].
    + intros z Hz. apply H1. right. exact Hz.
Qed.

Lemma aranges_fapp a : forall b base, aranges_fs (fapp a b) base = aranges_fs a base ++ aranges_fs b base.
Proof. induction a as [|off f r IH]; intros b base; [reflexivity|]. cbn [fapp aranges_fs]. rewrite IH, app_assoc. reflexivity. Qed.

Lemma aranges_perm fs base : Permutation (aranges_fs fs base) (aranges_fs (perm fs) base).
Proof.
  unfold perm. rewrite aranges_fapp. induction fs as [|off f r IH]; [constructor|]. cbn [filt aranges_fs].
  rewrite sel_compl. destruct (sel false f); cbn [negb aranges_fs].
  - eapply Permutation_trans; [apply Permutation_app_head; exact IH|].
    rewrite !app_assoc. apply Permutation_app_tail. apply Permutation_app_comm.
  - rewrite <- app_assoc. apply Permutation_app_head. exact IH.
Qed.

Lemma perm_psep fs base : psep (aranges_fs fs base) -> psep (aranges_fs (perm fs) base).
Proof. apply psep_perm. apply aranges_perm. Qed.

Lemma rd_fs_app a : forall b m base, rd_fs (fapp a b) m base =
  ('(v1, w1, F1) <- rd_fs a m base ;; '(v2, w2, F2) <- rd_fs b m base ;; Ok (v1 ++ v2, w1 ++ w2, F1 ++ F2)).
Proof.
  induction a as [|off f r IH]; intros b m base.
  - cbn [fapp rd_fs bind]. destruct (rd_fs b m base) as [[[v2 w2] F2]|]; reflexivity.
  - cbn [fapp rd_fs]. destruct (rd_f f m (base + off)) as [[[v1 w1] F1]|]; cbn [bind]; [|reflexivity].
    rewrite IH. destruct (rd_fs r m base) as [[[vs w] F]|]; cbn [bind]; [|reflexivity].
    destruct (rd_fs b m base) as [[[v2 w2] F2]|]; cbn [bind]; [|reflexivity].
    rewrite <- !app_assoc. reflexivity.
Qed.

(* every field is read by one of the two passes: where the struct is readable in archive order it is
   readable in declared order *)
Lemma rd_perm_declared fs m b R : rd_fs (perm fs) m b = Ok R -> exists R', rd_fs fs m b = Ok R'.
Proof.
  intros H. unfold perm in H. rewrite rd_fs_app in H.
  destruct (rd_fs (filt true fs) m b) as [R1|] eqn:E1; cbn [bind] in H; [|discriminate].
  assert (E2 : exists R2, rd_fs (filt false fs) m b = Ok R2).
  { destruct R1 as [[v1 w1] F1]. destruct (rd_fs (filt false fs) m b) as [R2|]; [eauto|discriminate]. }
  destruct E2 as [R2 E2]. clear H. revert R1 R2 E1 E2.
  induction fs as [|off f r IH]; intros R1 R2 E1 E2; [cbn; eauto|].
  cbn [filt] in E1, E2. rewrite sel_compl in E1.
  assert (Hone : exists Rf R1' R2', rd_f f m (b + off) = Ok Rf /\ rd_fs (filt true r) m b = Ok R1' /\ rd_fs (filt false r) m b = Ok R2').
  { destruct (sel false f); cbn [negb] in E1.
    - cbn [rd_fs] in E2. destruct (rd_f f m (b + off)) as [Rf|]; cbn [bind] in E2; [|discriminate].
      destruct Rf as [[vf wf] Ff]. destruct (rd_fs (filt false r) m b) as [R2'|]; cbn [bind] in E2; [|discriminate]. eauto 10.
    - cbn [rd_fs] in E1. destruct (rd_f f m (b + off)) as [Rf|]; cbn [bind] in E1; [|discriminate].
      destruct Rf as [[vf wf] Ff]. destruct (rd_fs (filt true r) m b) as [R1'|]; cbn [bind] in E1; [|discriminate]. eauto 10. }
  destruct Hone as [[[vf wf] Ff] [R1' [R2' [Hf [H1 H2]]]]]. destruct (IH _ _ H1 H2) as [[[vs w] F] Hr].
  cbn [rd_fs]. rewrite Hf. cbn [bind]. rewrite Hr. cbn [bind]. eauto.
Qed.

(* the two passes of _FilterAlignedFields are one pass over `perm fs` *)
Lemma d_passes_perm fs st t st2 :
  d_fields cfg_final (perm fs) st t = Ok st2 <->
  exists st1, d_pass cfg_final true fs st t = Ok st1 /\ d_pass cfg_final false fs st1 t = Ok st2.
Proof.
  unfold perm. rewrite d_fields_app, d_pass_filt. destruct (d_fields cfg_final (filt true fs) st t) as [st1|]; cbn [bind].
  - rewrite <- d_pass_filt. split; [eauto|]. intros [s [E H]]. inversion E. subst. exact H.
  - split; [discriminate|]. intros [s [E _]]. discriminate.
Qed.

Lemma s_passes_perm fs st x st2 :
  s_fields cfg_final (perm fs) st x = Ok st2 <->
  exists st1, s_pass cfg_final true fs st x = Ok st1 /\ s_pass cfg_final false fs st1 x = Ok st2.
Proof.
  unfold perm. rewrite s_fields_app, s_pass_filt. destruct (s_fields cfg_final (filt true fs) st x) as [st1|]; cbn [bind].
  - rewrite <- s_pass_filt. split; [eauto|]. intros [s [E H]]. inversion E. subst. exact H.
  - split; [discriminate|]. intros [s [E _]]. discriminate.
Qed.
