(* C12_Flat.v — refinement of the front extraction to the flat byte string: whatever the
   fragmentation, copying n bytes from the front of an iovec list yields the first n bytes of
   the concatenation and leaves a list denoting the rest (first step towards ser_roundtrip). *)
From Coq Require Import ZArith List Bool Lia.
From PV Require Import Base.U64 C12.C12_Model C12.C12_Mem C12.C12_MemC C12.C12_Iov.
Import ListNotations.
Local Open Scope Z_scope.

(* the byte string an iovec list denotes *)
Fixpoint flat (m : mem) (el : list (Z * Z)) : res (list byte) :=
  match el with
  | [] => Ok []
  | (b, l) :: r => d <- load m b l ;; rest <- flat m r ;; Ok (d ++ rest)
  end.

Lemma load_inv m a n bs : load m a n = Ok bs -> 0 < n ->
  exists r, ARENA <= a /\ nth_z m ((a - ARENA) / STRIDE) = Some r /\ (a - ARENA) mod STRIDE + n <= len r /\
            bs = firstn (Z.to_nat n) (skipn (Z.to_nat ((a - ARENA) mod STRIDE)) r).
Proof.
  unfold load. intros H Hn. destruct (n <=? 0) eqn:E; [apply Z.leb_le in E; lia|].
  destruct (a <? ARENA) eqn:EA; [discriminate|]. apply Z.ltb_ge in EA.
  destruct (nth_z m ((a - ARENA) / STRIDE)) as [r|] eqn:Hr; [|discriminate].
  destruct ((a - ARENA) mod STRIDE + n <=? len r) eqn:El; [|discriminate]. apply Z.leb_le in El.
  inversion H. exists r. auto.
Qed.

Lemma load_prefix m b l d k : load m b l = Ok d -> 0 <= k <= l -> load m b k = Ok (firstn (Z.to_nat k) d).
Proof.
  intros H Hk. destruct (Z.eq_dec k 0) as [->|Hk0]; [reflexivity|].
  destruct (load_inv _ _ _ _ H ltac:(lia)) as [r [HA [Hr [Hl ->]]]].
  unfold load. destruct (k <=? 0) eqn:E; [apply Z.leb_le in E; lia|].
  destruct (b <? ARENA) eqn:EA; [apply Z.ltb_lt in EA; lia|]. rewrite Hr.
  destruct ((b - ARENA) mod STRIDE + k <=? len r) eqn:El; [|apply Z.leb_gt in El; lia].
  f_equal. rewrite firstn_firstn. f_equal. lia.
Qed.

Lemma load_suffix m b l d k : Forall (fun L => L <= STRIDE) (lens m) -> load m b l = Ok d -> 0 <= k <= l -> 0 <= b ->
  load m (b + k) (l - k) = Ok (skipn (Z.to_nat k) d).
Proof.
  intros Hwf H Hk Hb. destruct (Z.eq_dec k l) as [->|Hkl].
  { rewrite Z.sub_diag. pose proof (load_len _ _ _ _ H) as HL. cbn.
    rewrite skipn_all2; [reflexivity|]. unfold len in HL. lia. }
  destruct (load_inv _ _ _ _ H ltac:(lia)) as [r [HA [Hr [Hl ->]]]].
  pose proof (nth_z_In _ _ _ Hr) as Hin.
  assert (HLr : len r <= STRIDE).
  { unfold lens in Hwf. rewrite Forall_forall in Hwf. apply Hwf. apply in_map. exact Hin. }
  pose proof (Z.mod_pos_bound (b - ARENA) STRIDE STRIDE_pos) as Hm.
  destruct (addr_shift b k HA ltac:(lia) ltac:(lia)) as [Hq1 Hq2].
  unfold load. destruct (l - k <=? 0) eqn:E; [apply Z.leb_le in E; lia|].
  destruct (b + k <? ARENA) eqn:EA; [apply Z.ltb_lt in EA; lia|]. rewrite Hq1, Hq2, Hr.
  destruct ((b - ARENA) mod STRIDE + k + (l - k) <=? len r) eqn:El; [|apply Z.leb_gt in El; lia].
  f_equal. rewrite skipn_firstn_comm, skipn_skipn'. f_equal; [lia|]. f_equal. lia.
Qed.

Lemma firstn_app_le {A} (a b : list A) n : (n <= length a)%nat -> firstn n (a ++ b) = firstn n a.
Proof. intros H. rewrite firstn_app. replace (n - length a)%nat with 0%nat by lia. cbn. apply app_nil_r. Qed.
Lemma skipn_app_le {A} (a b : list A) n : (n <= length a)%nat -> skipn n (a ++ b) = skipn n a ++ b.
Proof. intros H. rewrite skipn_app. replace (n - length a)%nat with 0%nat by lia. reflexivity. Qed.
Lemma firstn_app_ge {A} (a b : list A) n : (length a <= n)%nat -> firstn n (a ++ b) = a ++ firstn (n - length a) b.
Proof. intros H. rewrite firstn_app. rewrite firstn_all2 by lia. reflexivity. Qed.
Lemma skipn_app_ge {A} (a b : list A) n : (length a <= n)%nat -> skipn n (a ++ b) = skipn (n - length a) b.
Proof. intros H. rewrite skipn_app. rewrite skipn_all2 by lia. reflexivity. Qed.
Lemma firstn_app_exact {A} (a b : list A) n : Z.to_nat n = length a -> firstn (Z.to_nat n) (a ++ b) = a.
Proof. intros ->. rewrite firstn_app, Nat.sub_diag, firstn_all. cbn. apply app_nil_r. Qed.
Lemma skipn_app_exact {A} (a b : list A) n : Z.to_nat n = length a -> skipn (Z.to_nat n) (a ++ b) = b.
Proof. intros ->. rewrite skipn_app, Nat.sub_diag, skipn_all. reflexivity. Qed.

Theorem vef_copy_flat m : Forall (fun L => L <= STRIDE) (lens m) ->
  forall el bytes bs d el', Forall (el_ok (lens m)) el -> flat m el = Ok bs -> 0 < bytes <= sum_el el ->
  vef_copy m el bytes = Ok (d, el') ->
  d = firstn (Z.to_nat bytes) bs /\ flat m el' = Ok (skipn (Z.to_nat bytes) bs).
Proof.
  intros Hwf. induction el as [|[b l] rest IH]; intros bytes bs d el' Hel Hf Hb Hc.
  - rewrite sum_el_nil in Hb. lia.
  - inversion Hel as [|? ? He Hrest]; subst. destruct He as [Hl [Hv [Hb0 Hbw]]]. cbn [fst snd] in *.
    rewrite sum_el_cons in Hb. cbn [snd] in Hb.
    cbn [flat] in Hf. destruct (load m b l) as [d0|] eqn:Ed0; cbn [bind] in Hf; [|discriminate].
    destruct (flat m rest) as [rb|] eqn:Er; cbn [bind] in Hf; [|discriminate]. inversion Hf. subst bs. clear Hf.
    pose proof (load_len _ _ _ _ Ed0) as HL0. rewrite Z.max_r in HL0 by lia.
    cbn [vef_copy] in Hc. destruct (bytes <=? l) eqn:E.
    + apply Z.leb_le in E. rewrite (load_prefix _ _ _ _ bytes Ed0 ltac:(lia)) in Hc. cbn [bind] in Hc.
      injection Hc as Hd He'. subst d. split; [rewrite firstn_app_le; [reflexivity|unfold len in HL0; lia]|].
      rewrite skipn_app_le by (unfold len in HL0; lia). subst el'.
      destruct (l - bytes =? 0) eqn:E0.
      * apply Z.eqb_eq in E0. rewrite skipn_all2 by (unfold len in HL0; lia). cbn [app]. exact Er.
      * apply Z.eqb_neq in E0. rewrite wrap_small by lia. cbn [flat].
        rewrite (load_suffix _ _ _ _ bytes Hwf Ed0 ltac:(lia) Hb0). cbn [bind]. rewrite Er. reflexivity.
    + apply Z.leb_gt in E. rewrite Ed0 in Hc. cbn [bind] in Hc.
      destruct (vef_copy m rest (bytes - l)) as [[d' e']|] eqn:Erec; cbn [bind] in Hc; [|discriminate].
      injection Hc as Hd He'. subst d el'.
      destruct (IH (bytes - l) rb d' e' Hrest eq_refl ltac:(lia) Erec) as [A B].
      assert (HLn : length d0 = Z.to_nat l) by (unfold len in HL0; lia).
      split.
      * rewrite firstn_app_ge by lia. rewrite A. f_equal. f_equal. lia.
      * rewrite skipn_app_ge by lia. rewrite B. f_equal. f_equal. lia.
Qed.
