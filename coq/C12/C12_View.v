(* C12_View.v — iovector::extract_front(bytes, OUT view) against the flat byte string:
   the recording extraction vef_view never reports "view full" when the view has as many entries as
   the vector has elements; the recorded pieces denote the first n bytes, lie inside input elements,
   are pairwise separated and separated from what remains; store_iovecs followed by rd_iovecs on the
   fresh slot reads back exactly the recorded pieces and their bytes. *)
From Coq Require Import ZArith List Bool Lia.
From PV Require Import Base.U64 C12.C12_Model C12.C12_Mem C12.C12_MemC C12.C12_Iov C12.C12_Flat C12.C12_Deser C12.C12_Sep C12.C12_Wire C12.C12_RtD C12.C12_Hx.
Import ListNotations.
Local Open Scope Z_scope.

Lemma vef_view_ret ls : forall el bytes room, Forall (el_ok ls) el -> 0 < bytes -> len el <= room ->
  forall ret out el', vef_view el bytes room = (ret, out, el') -> ret = Z.min bytes (sum_el el).
Proof.
  induction el as [|[b l] rest IH]; intros bytes room Hel Hb Hroom ret out el' H.
  - cbn in H. inversion H. rewrite sum_el_nil. lia.
  - inversion Hel as [|? ? He Hrest]; subst. destruct He as [Hl _]. cbn [snd] in Hl.
    pose proof (sum_el_nonneg _ _ Hrest) as Hsr. rewrite len_cons in Hroom. pose proof (len_nonneg rest) as Hlr.
    rewrite sum_el_cons. cbn [snd]. cbn [vef_view] in H.
    destruct (room <=? 0) eqn:Er; [apply Z.leb_le in Er; lia|].
    destruct (bytes <=? l) eqn:Eb.
    + apply Z.leb_le in Eb. inversion H. lia.
    + apply Z.leb_gt in Eb. destruct (vef_view rest (bytes - l) (room - 1)) as [[r o] e'] eqn:Erec.
      pose proof (IH (bytes - l) (room - 1) Hrest ltac:(lia) ltac:(lia) _ _ _ Erec) as Hr.
      inversion H. destruct (r <? 0) eqn:E0; [apply Z.ltb_lt in E0; lia|]. lia.
Qed.

(* when the input suffices, the recording extraction leaves what the copying one leaves, and records
   pieces that denote the copied bytes *)
Lemma vef_view_copy m : Forall (fun L => L <= STRIDE) (lens m) ->
  forall el bytes room, Forall (el_ok (lens m)) el -> psep el -> 0 < bytes <= sum_el el -> len el <= room ->
  forall ret out el', vef_view el bytes room = (ret, out, el') ->
  exists d, vef_copy m el bytes = Ok (d, el') /\ flat m out = Ok d /\
    Forall (el_ok (lens m)) out /\ psep out /\ prov out el /\ 0 < len out <= len el /\
    (forall o e, In o out -> In e el' -> sep o e).
Proof.
  intros Hwf. induction el as [|[b l] rest IH]; intros bytes room Hel Hp Hb Hroom ret out el' H.
  - rewrite sum_el_nil in Hb. lia.
  - inversion Hel as [|? ? He Hrest]; subst. pose proof He as [Hl [Hv [Hb0 Hbw]]]. cbn [fst snd] in *.
    destruct Hp as [Hp1 Hp2].
    pose proof (sum_el_nonneg _ _ Hrest) as Hsr. rewrite len_cons in Hroom. pose proof (len_nonneg rest) as Hlr.
    rewrite sum_el_cons in Hb. cbn [snd] in Hb. cbn [vef_view] in H. cbn [vef_copy].
    destruct (room <=? 0) eqn:Er; [apply Z.leb_le in Er; lia|].
    destruct (bytes <=? l) eqn:Eb.
    + apply Z.leb_le in Eb. injection H as _ Ho He'. subst out el'.
      assert (Hvn : validb (lens m) b bytes = true) by (apply (validb_sub' _ b l); auto; lia).
      destruct (load_valid _ _ _ Hvn) as [d Hd]. rewrite Hd. cbn [bind]. exists d. split; [reflexivity|].
      split; [cbn [flat]; rewrite Hd; cbn [bind]; rewrite app_nil_r; reflexivity|].
      split; [constructor; [|constructor]; split; cbn [fst snd]; [lia|split; [exact Hvn|lia]]|].
      split; [split; [intros y []|exact I]|].
      split; [intros e [<-|[]]; exists (b, l); split; [left; reflexivity|unfold within; cbn [fst snd]; lia]|].
      split; [rewrite (len_cons (b, bytes) []), (len_cons (b, l) rest); change (len (@nil (Z * Z))) with 0; lia|].
      intros o e [<-|[]] He'. destruct (l - bytes =? 0) eqn:E0.
      * apply (within_sep _ (b, l)); [unfold within; cbn [fst snd]; lia|auto].
      * apply Z.eqb_neq in E0. destruct He' as [<-|He'].
        { rewrite wrap_small by lia. unfold sep. cbn [fst snd]. lia. }
        apply (within_sep _ (b, l)); [unfold within; cbn [fst snd]; lia|auto].
    + apply Z.leb_gt in Eb. destruct (vef_view rest (bytes - l) (room - 1)) as [[r o] e'] eqn:Erec.
      injection H as _ Ho He'. subst out el'.
      destruct (IH (bytes - l) (room - 1) Hrest Hp2 ltac:(lia) ltac:(lia) _ _ _ Erec) as [d' [Hc [Hfo [Helo [Hpo [Hpv [Hlen Hsep]]]]]]].
      destruct (load_valid _ _ _ Hv) as [d Hd]. rewrite Hd. cbn [bind]. rewrite Hc. cbn [bind].
      exists (d ++ d'). split; [reflexivity|].
      split; [cbn [flat]; rewrite Hd; cbn [bind]; rewrite Hfo; reflexivity|].
      split; [constructor; [exact He|exact Helo]|].
      split.
      { split; [|exact Hpo]. intros y Hy. destruct (Hpv y Hy) as [e0 [H0 W0]]. apply sep_sym. eapply within_sep; [exact W0|]. apply sep_sym. auto. }
      split.
      { intros e [<-|He0]; [exists (b, l); split; [left; reflexivity|apply within_refl]|].
        destruct (Hpv e He0) as [e0 [H0 W0]]. exists e0. split; [right; exact H0|exact W0]. }
      split; [rewrite !len_cons; lia|].
      destruct (vef_copy_sub m rest (bytes - l) d' e' Hrest ltac:(lia) Hc Hp2) as [_ Hpe].
      intros x e [<-|Hx] He0; [|apply Hsep; auto].
      destruct (Hpe e He0) as [e0 [H0 W0]]. apply sep_sym. eapply within_sep; [exact W0|]. apply sep_sym. auto.
Qed.

Lemma store_two m a x y m1 : Forall (fun L => L <= STRIDE) (lens m) -> 0 <= a -> 0 < len x -> 0 < len y ->
  store m a (x ++ y) = Ok m1 -> load m1 a (len x) = Ok x /\ load m1 (a + len x) (len y) = Ok y.
Proof.
  intros Hwf Ha Hx Hy Hs.
  pose proof (load_store_same _ _ _ _ Hs ltac:(rewrite len_app; lia)) as L. rewrite len_app in L.
  assert (Hwf1 : Forall (fun L => L <= STRIDE) (lens m1)) by (rewrite (store_lens _ _ _ _ Hs); exact Hwf).
  split.
  - rewrite (load_prefix m1 a (len x + len y) (x ++ y) (len x) L ltac:(lia)). f_equal.
    rewrite firstn_app. replace (Z.to_nat (len x) - length x)%nat with 0%nat by (unfold len; lia).
    cbn [firstn]. rewrite app_nil_r. apply firstn_all2. unfold len. lia.
  - pose proof (load_suffix m1 a (len x + len y) (x ++ y) (len x) Hwf1 L ltac:(lia) Ha) as S.
    replace (len x + len y - len x) with (len y) in S by lia. rewrite S. f_equal.
    rewrite skipn_app. replace (Z.to_nat (len x) - length x)%nat with 0%nat by (unfold len; lia).
    cbn [skipn]. rewrite skipn_all2 by (unfold len; lia). reflexivity.
Qed.

Lemma sep_split x k a n1 n2 : 0 <= n1 -> 0 <= n2 -> sep (x, k) (a, n1 + n2) -> sep (x, k) (a, n1) /\ sep (x, k) (a + n1, n2).
Proof. unfold sep. cbn [fst snd]. intros. lia. Qed.

Lemma store_iovecs_rd : forall out m a m', Forall (fun L => L <= STRIDE) (lens m) -> 0 <= a ->
  store_iovecs m a out = Ok m' -> Forall (el_ok (lens m)) out ->
  (forall o, In o out -> sep o (a, 16 * len out)) ->
  lens m' = lens m /\
  (forall x k, sep (x, k) (a, 16 * len out) -> load m' x k = load m x k) /\
  exists bs, flat m out = Ok bs /\ rd_iovecs m' a (length out) = Ok (bs, out).
Proof.
  induction out as [|[b n] r IH]; intros m a m' Hwf Ha Hs Hel Hsep.
  - cbn in Hs. inversion Hs. subst m'. split; [reflexivity|]. split; [auto|]. exists []. split; reflexivity.
  - cbn [store_iovecs] in Hs. destruct (store m a (le_enc 8 b ++ le_enc 8 n)) as [m1|] eqn:Hs1; cbn [bind] in Hs; [|discriminate].
    inversion Hel as [|? ? He Hr]; subst. destruct He as [Hn [Hv [Hb0 Hbw]]]. cbn [fst snd] in *.
    pose proof (store_lens _ _ _ _ Hs1) as Hl1. pose proof (len_nonneg r) as Hlr.
    assert (H16 : len (le_enc 8 b ++ le_enc 8 n) = 16) by (rewrite len_app, !le_enc_len; reflexivity).
    rewrite len_cons in *.
    destruct (IH m1 (a + 16) m') as [Hl' [Fr' [bs [Hfb Hrd]]]]; [rewrite Hl1; exact Hwf|lia|exact Hs|rewrite Hl1; exact Hr| |].
    { intros o Ho. specialize (Hsep o (or_intror Ho)). destruct o as [ob on]. replace (16 * (1 + len r)) with (16 + 16 * len r) in Hsep by lia.
      apply (sep_split ob on a 16 (16 * len r)); [lia|lia|exact Hsep]. }
    split; [congruence|]. split.
    { intros x k Hxk. replace (16 * (1 + len r)) with (16 + 16 * len r) in Hxk by lia.
      destruct (sep_split x k a 16 (16 * len r) ltac:(lia) ltac:(lia) Hxk) as [S1 S2].
      rewrite (Fr' x k S2). apply (load_store_sep _ _ _ _ _ _ Hs1). rewrite H16. exact S1. }
    destruct (store_two m a (le_enc 8 b) (le_enc 8 n) m1 Hwf Ha) as [L1 L2]; [rewrite le_enc_len; reflexivity|rewrite le_enc_len; reflexivity|exact Hs1|].
    rewrite (le_enc_len 8 b) in L1. rewrite (le_enc_len 8 b), (le_enc_len 8 n) in L2. change (Z.of_nat 8) with 8 in L1, L2.
    assert (Sb : sep (b, n) (a, 16 + 16 * len r)).
    { specialize (Hsep (b, n) (or_introl eq_refl)). replace (16 * (1 + len r)) with (16 + 16 * len r) in Hsep by lia. exact Hsep. }
    destruct (sep_split b n a 16 (16 * len r) ltac:(lia) ltac:(lia) Sb) as [Sb1 Sb2].
    destruct (load_valid _ _ _ Hv) as [d Hd].
    assert (Hd' : load m' b n = Ok d).
    { rewrite (Fr' b n Sb2). rewrite (load_store_sep _ _ _ _ _ _ Hs1); [exact Hd|]. rewrite H16. exact Sb1. }
    assert (Hfr : flat m1 r = flat m r).
    { apply (flat_store_sep _ _ _ _ _ Hs1). intros e He. rewrite H16. specialize (Hsep e (or_intror He)).
      destruct e as [eb en]. replace (16 * (1 + len r)) with (16 + 16 * len r) in Hsep by lia.
      apply (sep_split eb en a 16 (16 * len r)); [lia|lia|exact Hsep]. }
    exists (d ++ bs). split; [cbn [flat]; rewrite Hd; cbn [bind]; rewrite <- Hfr, Hfb; reflexivity|].
    cbn [length rd_iovecs]. unfold load64.
    rewrite (Fr' a 8) by (unfold sep; cbn [fst snd]; lia). rewrite L1. cbn [bind].
    rewrite (Fr' (a + 8) 8) by (unfold sep; cbn [fst snd]; lia). rewrite L2. cbn [bind].
    rewrite !le_dec_enc by (change (256 ^ Z.of_nat 8) with W64; unfold W64 in *; lia).
    rewrite Hd'. cbn [bind]. rewrite Hrd. reflexivity.
Qed.

Definition vpost (m : mem) (v : iovs) (n : Z) (w : list byte) (ptr cnt : Z) (m' : mem) (v' : iovs) : Prop :=
  exists out, cnt = len out /\ 0 < cnt /\ lens m' = lens m ++ [16 * len (i_el v)] /\ inv m' v' /\
    i_cap v' = i_cap v /\ i_nb v' = i_nb v + 1 /\
    (forall a k, validb (lens m) a k = true -> load m' a k = load m a k) /\
    Forall (el_ok (lens m)) out /\ psep out /\ prov out (i_el v) /\
    psep (i_el v') /\ prov (i_el v') (i_el v) /\ (forall o e, In o out -> In e (i_el v') -> sep o e) /\
    rd_iovecs m' ptr (length out) = Ok (firstn (Z.to_nat n) w, out) /\
    flat m' (i_el v') = Ok (skipn (Z.to_nat n) w) /\ len out <= len (i_el v) /\ i_nb v < i_cap v.

Lemma efv_spec m v n w : inv m v -> 0 < n -> psep (i_el v) -> flat m (i_el v) = Ok w ->
  exists ret ptr cnt m' v', extract_front_view m v n = Ok (ret, ptr, cnt, m', v') /\
    inv m' v' /\ ext (lens m) (lens m') /\
    ((ret = -1 /\ cnt = 0 /\ ptr = 0 /\ m' = m /\ v' = v /\ i_cap v <= i_nb v) \/
     (ret = Z.min n (len w) /\ ptr = region_base (len m) /\ (n <= len w -> vpost m v n w ptr cnt m' v'))).
Proof.
  intros Hinv Hn Hp Hf. pose proof Hinv as [Hbm [Hwf [Hel [Hsum [Hnb [Hroom Hcnt]]]]]].
  pose proof (flat_len _ _ _ Hel Hf) as Hlw.
  destruct (extract_front_view_ok m v n Hinv ltac:(lia)) as [ret [ptr [cnt [m' [v' [He [Hi' [Hx' _]]]]]]]].
  exists ret, ptr, cnt, m', v'. split; [exact He|]. split; [exact Hi'|]. split; [exact Hx'|].
  revert He. unfold extract_front_view. destruct (n =? 0) eqn:E0; [apply Z.eqb_eq in E0; lia|].
  pose proof (len_nonneg (i_el v)) as Hc0. unfold do_malloc.
  destruct (INT_MAX <? len (i_el v) * 16) eqn:EH; [apply Z.ltb_lt in EH; unfold INT_MAX in *; lia|].
  destruct (i_cap v <=? i_nb v) eqn:EC.
  { apply Z.leb_le in EC. cbn [bind]. rewrite Z.eqb_refl. intros H. inversion H. subst. left. repeat split; auto. }
  apply Z.leb_gt in EC. cbn [bind].
  pose proof (len_nonneg m) as Hlm.
  destruct (region_base_bound (len m) ltac:(lia)) as [B1 B2].
  destruct (region_base (len m) =? 0) eqn:Ez; [apply Z.eqb_eq in Ez; lia|].
  cbn [i_el]. set (sz := len (i_el v) * 16). set (m1 := m ++ [zeros sz]).
  assert (Hsz : 0 <= sz) by (unfold sz; lia).
  assert (Hlens1 : lens m1 = lens m ++ [sz]) by (unfold m1; rewrite lens_app; cbn; rewrite len_zeros by lia; reflexivity).
  assert (Hext1 : ext (lens m) (lens m1)) by (exists [sz]; exact Hlens1).
  assert (Hwf1 : Forall (fun L => L <= STRIDE) (lens m1)).
  { rewrite Hlens1. apply Forall_app. split; [exact Hwf|]. constructor; [unfold sz, STRIDE in *; lia|constructor]. }
  destruct (vef_view (i_el v) n (len (i_el v))) as [[r out] el'] eqn:Ev.
  destruct (store_iovecs m1 (region_base (len m)) out) as [m2|] eqn:Hst; cbn [bind]; [|discriminate].
  intros H. injection H as <- <- <- <- <-. right.
  split; [rewrite (vef_view_ret (lens m) (i_el v) n (len (i_el v)) Hel Hn (Z.le_refl _) _ _ _ Ev); lia|]. split; [reflexivity|].
  intros Hle.
  destruct (vef_view_copy m Hwf (i_el v) n (len (i_el v)) Hel Hp ltac:(lia) ltac:(lia) _ _ _ Ev)
    as [d [Hc [Hfo [Helo [Hpo [Hpv [Hlen Hsep]]]]]]].
  destruct (vef_copy_flat m Hwf (i_el v) n w d el' Hel Hf ltac:(lia) Hc) as [Hd Hfl].
  destruct (vef_copy_sub m (i_el v) n d el' Hel ltac:(lia) Hc Hp) as [Hps' Hpv'].
  destruct (vef_copy_ok m (i_el v) n Hbm Hwf Hel ltac:(lia)) as [d2 [el2 [H1 [_ [_ [H4 _]]]]]].
  rewrite Hc in H1. inversion H1. subst d2 el2. clear H1.
  assert (Helo1 : Forall (el_ok (lens m1)) out) by (eapply Forall_impl; [|exact Helo]; intros e He; eapply el_ok_ext; eauto).
  assert (Hsl : forall a k, validb (lens m) a k = true -> sep (a, k) (region_base (len m), 16 * len out)).
  { intros a k Hv. rewrite <- (len_lens m). apply fresh_sep; auto. }
  destruct (store_iovecs_rd out m1 (region_base (len m)) m2 Hwf1 ltac:(lia) Hst Helo1) as [Hl2 [Fr2 [bs [Hfb Hrd]]]].
  { intros o Ho. destruct o as [ob on]. apply Hsl. rewrite Forall_forall in Helo. destruct (Helo _ Ho) as [_ [Hv _]]. exact Hv. }
  assert (Hfo1 : flat m1 out = Ok d) by (unfold m1; rewrite (flat_app_mem m _ out Helo); exact Hfo).
  rewrite Hfo1 in Hfb. inversion Hfb. subst bs. clear Hfb.
  exists out. split; [reflexivity|]. split; [lia|].
  split; [rewrite Hl2, Hlens1; unfold sz; do 2 f_equal; lia|]. split; [exact Hi'|].
  unfold set_el. cbn [i_el i_nb i_cap]. split; [reflexivity|]. split; [reflexivity|].
  split.
  { intros a k Hv. rewrite (Fr2 a k (Hsl a k Hv)). unfold m1. apply load_app. exact Hv. }
  split; [exact Helo|]. split; [exact Hpo|]. split; [exact Hpv|]. split; [exact Hps'|]. split; [exact Hpv'|].
  split; [exact Hsep|]. split; [rewrite Hrd, Hd; reflexivity|].
  split; [|split; lia].
  assert (Q : forall el, Forall (el_ok (lens m)) el -> flat m2 el = flat m el).
  { induction 1 as [|[eb l] rr Hee _ IHr]; [reflexivity|]. cbn [flat]. destruct Hee as [_ [Hv _]]. cbn [fst snd] in Hv.
    rewrite (Fr2 eb l (Hsl eb l Hv)). unfold m1. rewrite (load_app m _ eb l Hv), IHr. reflexivity. }
  rewrite (Q el' H4). exact Hfl.
Qed.
