(* C12_Hb2.v — deser_in_bounds, field half, at FULL strength: for every well-formed shape (all ten
   field kinds, arrays of messages to any depth, iovec arrays, maps, checked), every byte memory and
   every vector of pairwise separated readable elements (= any fragmentation of ANY byte string;
   lengths in the body arbitrary, extractions may fail), if deserialize returns a message then
     - every byte of every field of it is readable (rd_fs returns a value; the walk w_fields through
       the real accessors returns Ok), and
     - every range the fields denote (every buffer / string / array / map index / map base / iovec
       array slot / iovec piece; element structs of arrays of messages) is empty or lies inside a
       CLAIMED range, and every claimed range (the body first) lies inside an element of the input
       vector or inside an allocation slot made by the extraction (`orig`), is readable, and the
       claimed ranges are pairwise separated. *)
From Coq Require Import ZArith List Bool Lia.
From PV Require Import Base.U64 C12.C12_Model C12.C12_Mem C12.C12_MemC C12.C12_Iov C12.C12_Flat C12.C12_Deser C12.C12_Sep C12.C12_Wire C12.C12_RtD C12.C12_Perm C12.C12_Hx C12.C12_View C12.C12_Hb.
Import ListNotations.
Local Open Scope Z_scope.

Definition Hf (f : field) : Prop := forall avail st a st' Own c0,
  field_wf avail f -> lay_f f -> psep (aranges_f f a) ->
  HR (d_mem st) (d_iov st) Own -> In c0 Own -> within (a, avail) c0 ->
  d_field cfg_final f st a = Ok st' -> d_failed st' = false ->
  exists new, hpost st st' Own new (aranges_f f a) /\
    exists val w F, rd_f f (d_mem st') a = Ok (val, w, F) /\ fpok F (aranges_f f a) new.
Definition Hfs (fs : fields) : Prop := forall sz st base st' Own c0,
  fields_wf sz fs -> lay_fs fs -> psep (aranges_fs fs base) ->
  HR (d_mem st) (d_iov st) Own -> In c0 Own -> within (base, sz) c0 ->
  d_fields cfg_final fs st base = Ok st' -> d_failed st' = false ->
  exists new, hpost st st' Own new (aranges_fs fs base) /\
    exists vals w F, rd_fs fs (d_mem st') base = Ok (vals, w, F) /\ fpok F (aranges_fs fs base) new.

Lemma hpost_dropW st st' Own new W1 W2 : hpost st st' Own new (W1 ++ W2) ->
  (forall c r, In c Own -> In r W2 -> sep c r) -> hpost st st' Own new W1.
Proof.
  intros [H1 [X1 [P1 [O1 F1]]]] HW. unfold hpost. split; [exact H1|]. split; [exact X1|]. split; [exact P1|]. split; [exact O1|].
  intros x k [c [Hc Wc]] Hs. apply F1; [exists c; auto|]. intros r Hr. apply in_app_or in Hr. destruct Hr as [Hr|Hr]; [apply Hs; exact Hr|].
  eapply within_sep; [exact Wc|]. apply HW; auto.
Qed.

Lemma slot_loadable st st' Own new W p n : hpost st st' Own new W -> (n = 0 /\ new = [] \/ new = [(p, n)] /\ p <> 0 /\ n <> 0) ->
  exists bs, load (d_mem st') p n = Ok bs.
Proof.
  intros [[_ [_ [_ [_ HvO]]]] _] [[-> _]|[Hn _]]; [exists []; reflexivity|].
  apply load_valid. apply (HvO (p, n)). apply in_or_app. right. rewrite Hn. left. reflexivity.
Qed.

Lemma h_leaf f :
  (forall st a, d_field cfg_final f st a = d_buffer cfg_final st a) ->
  (forall m a, rd_f f m a = rd_f FBuf m a) ->
  (forall a, aranges_f f a = [(a, 16)]) ->
  (forall avail, field_wf avail f -> 16 <= avail) -> Hf f.
Proof.
  intros Hd Hr Ha Hw avail st a st' Own c0 Hwf _ _ HR0 Hc0 Wc Hrun Hnf.
  rewrite Hd in Hrun. specialize (Hw _ Hwf).
  assert (Wa : within (a, 16) c0) by (unfold within in *; cbn [fst snd] in *; lia).
  destruct (d_buffer_h st a st' Own c0 HR0 Hc0 Wa Hrun Hnf) as [new [p [n [HP [L1 [L2 [Rn Hnew]]]]]]].
  exists new. rewrite Ha. split; [exact HP|].
  destruct (slot_loadable _ _ _ _ _ p n HP Hnew) as [bs Hbs].
  exists (VBuf bs), bs, [(a, 16); (p, n)]. split; [|apply fpok_slot; exact Hnew].
  rewrite Hr. cbn [rd_f]. rewrite L1. cbn [bind]. rewrite L2. cbn [bind]. rewrite Hbs. reflexivity.
Qed.

(* two consecutive steps inside the claimed range c0: what the first one read is still read after the second *)
Lemma h_kept st st1 st2 Own new1 new2 S1 S2 c0 :
  hpost st st1 Own new1 S1 -> hpost st1 st2 (Own ++ new1) new2 S2 -> In c0 Own ->
  (forall s, In s S1 -> within s c0) -> (forall s, In s S2 -> within s c0) ->
  (forall s1 s2, In s1 S1 -> In s2 S2 -> sep s1 s2) ->
  (forall f a R, rd_f f (d_mem st1) a = Ok R -> fpok (snd R) S1 new1 -> rd_f f (d_mem st2) a = Ok R) /\
  (forall fs b R, rd_fs fs (d_mem st1) b = Ok R -> fpok (snd R) S1 new1 -> rd_fs fs (d_mem st2) b = Ok R).
Proof. intros [[_ [_ [HpO1 _]]] _] [_ [_ [_ [_ Fr2]]]]. apply rd_kept; assumption. Qed.

Lemma loop_h efs esz : Hfs efs -> 0 < esz -> fields_wf esz efs -> lay_fs efs -> (forall e, psep (aranges_fs efs e)) ->
  forall k st e st' Own c0,
  HR (d_mem st) (d_iov st) Own -> In c0 Own -> within (e, Z.of_nat k * esz) c0 ->
  d_loop efs esz k st e = Ok st' -> d_failed st' = false ->
  exists new, hpost st st' Own new [(e, Z.of_nat k * esz)] /\
    exists vss w F, rd_elems (rd_fs efs (d_mem st')) k e esz = Ok (vss, w, F) /\ fpok F [(e, Z.of_nat k * esz)] new.
Proof.
  intros HP Hesz Hwf Hlay Hps. induction k as [|k IH]; intros st e st' Own c0 HR0 Hc0 Wc Hrun Hnf.
  - cbn in Hrun. inversion Hrun. subst st'. exists []. split; [apply hpost_refl; exact HR0|].
    exists [], [], []. split; [reflexivity|]. intros r [].
  - assert (HS : Z.of_nat (S k) * esz = Z.of_nat k * esz + esz) by lia. rewrite HS in Wc. rewrite HS. clear HS.
    set (K := Z.of_nat k) in *. assert (HKe : 0 <= K * esz) by (unfold K; nia).
    rewrite d_loop_S in Hrun. destruct (d_fields cfg_final efs st e) as [st1|] eqn:Hd1; cbn [bind] in Hrun; [|discriminate].
    pose proof (sticky_clear _ _ (d_loop_mono efs esz (proj2 d_mono efs) _ _ _ _ Hrun) Hnf) as Hnf1.
    assert (W1 : within (e, esz) c0) by (unfold within in *; cbn [fst snd] in *; lia).
    assert (W2 : within (e + esz, K * esz) c0) by (unfold within in *; cbn [fst snd] in *; lia).
    destruct (HP esz st e st1 Own c0 Hwf Hlay (Hps e) HR0 Hc0 W1 Hd1 Hnf1) as [new1 [HP1 [v1 [w1 [F1 [Hr1 Hf1]]]]]].
    destruct (IH st1 (e + esz) st' (Own ++ new1) c0 (proj1 HP1) ltac:(apply in_or_app; left; exact Hc0) W2 Hrun Hnf) as [new2 [HP2 [vs [w2 [F2 [Hr2 Hf2]]]]]].
    destruct (elem_ranges efs esz e K Hesz HKe Hwf) as [HS1 [Hcov Hdis]].
    exists (new1 ++ new2). split; [eapply hpost_weaken; [eapply hpost_trans; eauto|exact Hcov]|].
    exists (v1 :: vs), (w1 ++ w2), (F1 ++ F2). split; [|exact (fpok_cover _ _ _ _ (fpok_app _ _ _ _ _ _ Hf1 Hf2) Hcov)].
    cbn [rd_elems]. rewrite (proj2 (h_kept _ _ _ _ _ _ _ _ c0 HP1 HP2 Hc0 ltac:(intros s Hs; eapply within_trans; [apply HS1; exact Hs|exact W1])
                               ltac:(intros s [<-|[]]; exact W2) Hdis) efs e _ Hr1 Hf1).
    cbn [bind]. rewrite Hr2. reflexivity.
Qed.

(* an array of messages after its element loop: the slot words and the array buffer are read back *)
Lemma rd_arr_back esz efs st1 st2 Own c0 a p n new2 vss w2 F2 :
  HR (d_mem st1) (d_iov st1) (Own ++ [(p, n)]) -> In c0 Own -> within (a, 16) c0 -> 0 < esz -> 0 <= n ->
  hpost st1 st2 (Own ++ [(p, n)]) new2 [(p, Z.of_nat (Z.to_nat (n / esz)) * esz)] ->
  load64 (d_mem st1) a = Ok p -> load64 (d_mem st1) (a + 8) = Ok n -> fields_active efs = true ->
  rd_elems (rd_fs efs (d_mem st2)) (Z.to_nat (n / esz)) p esz = Ok (vss, w2, F2) ->
  fpok F2 [(p, Z.of_nat (Z.to_nat (n / esz)) * esz)] new2 ->
  exists w, rd_f (FArr esz efs) (d_mem st2) a = Ok (VArr n [] vss, w, (a, 16) :: (p, n) :: F2) /\
    fpok ((a, 16) :: (p, n) :: F2) [(a, 16)] ([(p, n)] ++ new2).
Proof.
  intros [_ [_ [HpO1 [_ HvO1]]]] Hc0 Wa Hesz Hn [_ [Hx2 [_ [_ Fr2]]]] L1 L2 Ea Hr2 Hf2.
  assert (Hin1 : In (p, n) (Own ++ [(p, n)])) by (apply in_or_app; right; left; reflexivity).
  assert (Wp : within (p, Z.of_nat (Z.to_nat (n / esz)) * esz) (p, n)).
  { pose proof (elems_fit n esz Hn Hesz). unfold within. cbn [fst snd]. lia. }
  assert (Hfr : forall x j, within (x, j) (a, 16) -> load (d_mem st2) x j = load (d_mem st1) x j).
  { intros x j Wx. apply Fr2; [exists c0; split; [apply in_or_app; left; exact Hc0|eapply within_trans; eauto]|].
    intros r [<-|[]]. apply (within_sep2 _ c0 _ (p, n) (within_trans _ _ _ Wx Wa) Wp). apply psep_app in HpO1. apply HpO1; [exact Hc0|left; reflexivity]. }
  destruct (load_valid (d_mem st2) p n (validb_ext _ _ _ _ Hx2 (HvO1 _ Hin1))) as [bs2 Lbs2].
  exists (bs2 ++ w2). split.
  - cbn [rd_f]. unfold load64. rewrite (Hfr a 8), (Hfr (a + 8) 8) by (unfold within; cbn [fst snd]; lia).
    fold (load64 (d_mem st1) a). fold (load64 (d_mem st1) (a + 8)). rewrite L1. cbn [bind]. rewrite L2. cbn [bind].
    rewrite Lbs2. cbn [bind]. rewrite Ea, Hr2. reflexivity.
  - intros r [<-|[<-|Hr]].
    + right. left. exists (a, 16). split; [left; reflexivity|apply within_refl].
    + right. right. exists (p, n). split; [left; reflexivity|apply within_refl].
    + destruct (Hf2 r Hr) as [H|[[s [[<-|[]] Ws]]|[c [Hcc Wx]]]]; [left; exact H| |].
      * right. right. exists (p, n). split; [left; reflexivity|eapply within_trans; eauto].
      * right. right. exists c. split; [right; exact Hcc|exact Wx].
Qed.

Lemma h_arr esz efs : Hfs efs -> Hf (FArr esz efs).
Proof.
  intros IH avail st a st' Own c0 [Hw16 [Hesz Hwfe]] [Hpse Hlaye] _ HR0 Hc0 Wc Hrun Hnf.
  cbn [aranges_f]. destruct (d_field_arr_inv _ _ _ _ _ Hrun) as [st1 [Hdb Hrest]].
  assert (Hnf1 : d_failed st1 = false).
  { destruct Hrest as [->|[k [p0 Hl]]]; [exact Hnf|]. exact (sticky_clear _ _ (d_loop_mono efs esz (proj2 d_mono efs) _ _ _ _ Hl) Hnf). }
  clear Hrest. rewrite d_field_arr, Hdb in Hrun. cbn [bind] in Hrun.
  assert (Wa : within (a, 16) c0) by (unfold within in *; cbn [fst snd] in *; lia).
  destruct (d_buffer_h st a st1 Own c0 HR0 Hc0 Wa Hdb Hnf1) as [new1 [p [n [HP1 [L1 [L2 [Rn Hnew]]]]]]].
  rewrite L1 in Hrun. cbn [bind] in Hrun. rewrite L2 in Hrun. cbn [bind] in Hrun.
  destruct (slot_loadable _ _ _ _ _ p n HP1 Hnew) as [bs Hbs].
  (* no element is processed: the array is a plain buffer *)
  assert (Hsimple : st' = st1 -> (fields_active efs = true -> Z.to_nat (n / esz) = 0%nat) ->
    exists new, hpost st st' Own new [(a, 16)] /\
      exists val w F, rd_f (FArr esz efs) (d_mem st') a = Ok (val, w, F) /\ fpok F [(a, 16)] new).
  { intros -> Hk. exists new1. split; [exact HP1|]. pose proof (fpok_slot a p n new1 Hnew) as Hfp.
    destruct (fields_active efs) eqn:Ea.
    - exists (VArr n [] []), (bs ++ []), [(a, 16); (p, n)]. split; [|exact Hfp].
      cbn [rd_f]. rewrite L1. cbn [bind]. rewrite L2. cbn [bind]. rewrite Hbs. cbn [bind]. rewrite Ea, (Hk eq_refl). reflexivity.
    - exists (VArr n bs []), bs, [(a, 16); (p, n)]. split; [|exact Hfp].
      cbn [rd_f]. rewrite L1. cbn [bind]. rewrite L2. cbn [bind]. rewrite Hbs. cbn [bind]. rewrite Ea. reflexivity. }
  destruct (n / esz =? 0) eqn:Ez.
  { apply Z.eqb_eq in Ez. inversion Hrun. apply Hsimple; [congruence|]. intros _. rewrite Ez. reflexivity. }
  apply Z.eqb_neq in Ez.
  destruct (p =? 0) eqn:Ep; [discriminate|].
  destruct (fields_active efs) eqn:Ea.
  2:{ inversion Hrun. apply Hsimple; [congruence|]. discriminate. }
  clear Hsimple.
  assert (Hn0 : n <> 0) by (intros ->; apply Ez; apply Z.div_0_l; lia).
  destruct Hnew as [[Hc _]|[Hnew1 _]]; [congruence|]. subst new1.
  pose proof (elems_fit n esz ltac:(lia) Hesz) as Hk.
  destruct (loop_h efs esz IH Hesz Hwfe Hlaye Hpse (Z.to_nat (n / esz)) st1 p st' (Own ++ [(p, n)]) (p, n) (proj1 HP1)
              ltac:(apply in_or_app; right; left; reflexivity) ltac:(unfold within; cbn [fst snd]; lia) Hrun Hnf)
    as [new2 [HP2 [vss [w2 [F2 [Hr2 Hf2]]]]]].
  destruct (rd_arr_back esz efs st1 st' Own c0 a p n new2 vss w2 F2 (proj1 HP1) Hc0 Wa Hesz ltac:(lia) HP2 L1 L2 Ea Hr2 Hf2) as [w [Hr Hfp]].
  exists ([(p, n)] ++ new2). split; [|eauto].
  apply (hpost_dropW st st' Own _ [(a, 16)] [(p, Z.of_nat (Z.to_nat (n / esz)) * esz)]); [eapply hpost_trans; eauto|].
  intros c r Hc [<-|[]]. destruct HP1 as [[_ [_ [HpO1 _]]] _]. apply psep_app in HpO1.
  eapply sep_sub_r; [apply HpO1; [exact Hc|left; reflexivity]|]. unfold within. cbn [fst snd]. lia.
Qed.

(* a sorted_map after its two buffers: the index slot and bytes, claimed first, are still read after the second claim *)
Lemma rd_map_back vsz vfs m1 m2 Own new1 c0 a p1 n1 ibs p2 n2 bbs :
  frameO m1 m2 (Own ++ new1) [(a + 16, 16)] -> psep (Own ++ new1) -> In c0 Own -> within (a, 32) c0 ->
  (n1 = 0 /\ new1 = [] \/ new1 = [(p1, n1)] /\ p1 <> 0 /\ n1 <> 0) ->
  load64 m1 a = Ok p1 -> load64 m1 (a + 8) = Ok n1 -> load m1 p1 n1 = Ok ibs ->
  load64 m2 (a + 16) = Ok p2 -> load64 m2 (a + 16 + 8) = Ok n2 -> load m2 p2 n2 = Ok bbs ->
  rd_f (FMap vsz vfs) m2 a = Ok (VMap ibs bbs, ibs ++ bbs, [(a, 16); (p1, n1); (a + 16, 16); (p2, n2)]).
Proof.
  intros Fr2 HpO1 Hc0 Wc Hnew1 L1 L2 L3 M1 M2 M3.
  assert (Hfr : forall x j, within (x, j) (a, 16) -> load m2 x j = load m1 x j).
  { intros x j Wx. apply Fr2; [exists c0; split; [apply in_or_app; left; exact Hc0|]|]; [|intros r [<-|[]]]; unfold within, sep in *; cbn [fst snd] in *; lia. }
  assert (L3' : load m2 p1 n1 = Ok ibs).
  { destruct Hnew1 as [[-> _]|[Hn1' _]]; [rewrite load_nonpos in * by lia; exact L3|]. rewrite <- L3. apply Fr2.
    - exists (p1, n1). split; [apply in_or_app; right; rewrite Hn1'; left; reflexivity|apply within_refl].
    - intros r [<-|[]]. apply psep_app in HpO1. destruct HpO1 as [_ [_ Hxs]]. apply sep_sym.
      eapply within_sep; [|apply Hxs; [exact Hc0|rewrite Hn1'; left; reflexivity]]. unfold within in *. cbn [fst snd] in *. lia. }
  cbn [rd_f]. unfold load64 at 1 2. rewrite (Hfr a 8), (Hfr (a + 8) 8) by (unfold within; cbn [fst snd]; lia).
  fold (load64 m1 a). fold (load64 m1 (a + 8)). rewrite L1. cbn [bind]. rewrite L2. cbn [bind].
  rewrite L3'. cbn [bind]. rewrite M1. cbn [bind]. replace (a + 24) with (a + 16 + 8) by lia. rewrite M2. cbn [bind].
  rewrite M3. reflexivity.
Qed.

Lemma h_map vsz vfs : Hf (FMap vsz vfs).
Proof.
  intros avail st a st' Own c0 Hw32 _ Hps HR0 Hc0 Wc Hrun Hnf.
  cbn [field_wf aranges_f d_field] in *.
  destruct (d_buffer cfg_final st a) as [st1|] eqn:Hdb1; cbn [bind] in Hrun; [|discriminate].
  pose proof (sticky_clear _ _ (d_buffer_mono _ _ _ Hrun) Hnf) as Hnf1.
  assert (Wa : within (a, 16) c0) by (unfold within in *; cbn [fst snd] in *; lia).
  assert (Wb : within (a + 16, 16) c0) by (unfold within in *; cbn [fst snd] in *; lia).
  destruct (d_buffer_h st a st1 Own c0 HR0 Hc0 Wa Hdb1 Hnf1) as [new1 [p1 [n1 [HP1 [L1 [L2 [Rn1 Hnew1]]]]]]].
  destruct (d_buffer_h st1 (a + 16) st' (Own ++ new1) c0 (proj1 HP1) ltac:(apply in_or_app; left; exact Hc0) Wb Hrun Hnf)
    as [new2 [p2 [n2 [HP2 [M1 [M2 [Rn2 Hnew2]]]]]]].
  exists (new1 ++ new2). split; [exact (hpost_trans _ _ _ _ _ _ _ _ HP1 HP2)|].
  destruct (slot_loadable _ _ _ _ _ p1 n1 HP1 Hnew1) as [ibs L3]. destruct (slot_loadable _ _ _ _ _ p2 n2 HP2 Hnew2) as [bbs M3].
  exists (VMap ibs bbs), (ibs ++ bbs), [(a, 16); (p1, n1); (a + 16, 16); (p2, n2)]. split.
  - destruct HP1 as [[_ [_ [HpO1 _]]] _]. destruct HP2 as [_ [_ [_ [_ Fr2]]]].
    apply (rd_map_back vsz vfs (d_mem st1) (d_mem st') Own new1 c0 a p1 n1 ibs p2 n2 bbs Fr2 HpO1 Hc0); auto.
    unfold within in *. cbn [fst snd] in *. lia.
  - apply (fpok_app [(a, 16); (p1, n1)] [(a + 16, 16); (p2, n2)] [(a, 16)] [(a + 16, 16)] new1 new2); apply fpok_slot; assumption.
Qed.

Lemma h_cons off f r : Hf f -> Hfs r -> Hfs (FCons off f r).
Proof.
  intros IHf IHr sz st base st' Own c0 [Ho [Hwf Hwr]] [Hlf Hlr] Hps HR0 Hc0 Wc Hrun Hnf.
  cbn [aranges_fs] in *. apply psep_app in Hps. destruct Hps as [Hpf [Hpr Hpx]].
  rewrite d_fields_cons in Hrun.
  destruct (d_field cfg_final f st (base + off)) as [st1|] eqn:Hd1; cbn [bind] in Hrun; [|discriminate].
  pose proof (sticky_clear _ _ (proj2 d_mono r _ _ _ Hrun) Hnf) as Hnf1.
  assert (W1 : within (base + off, sz - off) c0) by (unfold within in *; cbn [fst snd] in *; lia).
  destruct (IHf (sz - off) st (base + off) st1 Own c0 Hwf Hlf Hpf HR0 Hc0 W1 Hd1 Hnf1) as [new1 [HP1 [v1 [w1 [F1 [Hr1 Hf1]]]]]].
  destruct (IHr sz st1 base st' (Own ++ new1) c0 Hwr Hlr Hpr (proj1 HP1) ltac:(apply in_or_app; left; exact Hc0) Wc Hrun Hnf)
    as [new2 [HP2 [vs [w2 [F2 [Hr2 Hf2]]]]]].
  exists (new1 ++ new2). split; [exact (hpost_trans _ _ _ _ _ _ _ _ HP1 HP2)|].
  exists (v1 :: vs), (w1 ++ w2), (F1 ++ F2). split; [|apply fpok_app; assumption].
  cbn [rd_fs]. rewrite (proj1 (h_kept _ _ _ _ _ _ _ _ c0 HP1 HP2 Hc0
      ltac:(intros s Hs; eapply within_trans; [apply (proj1 aranges_within f (sz - off) (base + off) Hwf s Hs)|exact W1])
      ltac:(intros s Hs; eapply within_trans; [apply (proj2 aranges_within r sz base Hwr s Hs)|exact Wc]) Hpx) f _ _ Hr1 Hf1).
  cbn [bind]. rewrite Hr2. reflexivity.
Qed.

Lemma h_all : (forall f, Hf f) /\ (forall fs, Hfs fs).
Proof.
  apply field_fields_mut.
  - (* FFixed *) intros n avail st a st' Own c0 Hwf _ _ HR0 Hc0 Wc Hrun Hnf. cbn [d_field] in Hrun. inversion Hrun. subst st'.
    cbn [field_wf] in Hwf. exists []. split; [apply hpost_refl; exact HR0|].
    assert (Wn : within (a, n) c0) by (unfold within in *; cbn [fst snd] in *; lia).
    destruct (load_valid _ _ _ (HR_valid _ _ _ _ _ _ HR0 Hc0 Wn)) as [bs Hbs]. exists (VFix bs), [], [(a, n)]. split; [cbn [rd_f]; rewrite Hbs; reflexivity|].
    apply fpok_in. intros r [<-|[]]. left. left. reflexivity.
  - apply h_leaf; try reflexivity; cbn [field_wf]; auto.
  - apply h_leaf; try reflexivity; cbn [field_wf]; auto.
  - intros n. apply h_leaf; try reflexivity; cbn [field_wf]; auto.
  - apply h_leaf; try reflexivity; cbn [field_wf]; auto.
  - exact h_arr.
  - (* FIov *) intros avail st a st' Own c0 Hwf _ _ HR0 Hc0 Wc Hrun Hnf. cbn [field_wf] in Hwf. cbn [d_field] in Hrun.
    apply (d_iovarr_h st a st' Own c0 HR0 Hc0); auto. unfold within in *. cbn [fst snd] in *. lia.
  - (* FAIov *) intros avail st a st' Own c0 Hwf _ _ HR0 Hc0 Wc Hrun Hnf. cbn [field_wf] in Hwf. cbn [d_field fix_nested_al cfg_final] in Hrun.
    apply (d_iovarr_h st a st' Own c0 HR0 Hc0); auto. unfold within in *. cbn [fst snd] in *. lia.
  - (* FNest *) intros fs IH avail st a st' Own c0 Hwf Hlay Hps HR0 Hc0 Wc Hrun Hnf.
    cbn [field_wf lay_f aranges_f d_field] in *.
    destruct (IH avail st a st' Own c0 Hwf Hlay Hps HR0 Hc0 Wc Hrun Hnf) as [new [HP [vs [w [F [Hr Hfp]]]]]].
    exists new. split; [exact HP|]. exists (VNest vs), w, F. split; [cbn [rd_f]; rewrite Hr; reflexivity|exact Hfp].
  - intros vsz vfs _. apply h_map.
  - (* FNil *) intros sz st base st' Own c0 _ _ _ HR0 _ _ Hrun _. cbn in Hrun. inversion Hrun. subst st'.
    exists []. split; [apply hpost_refl; exact HR0|]. exists [], [], []. split; [reflexivity|]. intros r [].
  - intros off f IHf r IHr. exact (h_cons off f r IHf IHr).
Qed.

(* reading every byte through the real accessors succeeds wherever rd_f does *)
Definition w_loop (efs : fields) (esz : Z) (m : mem) := fix loop (k : nat) (e : Z) {struct k} : res (list (list item)) :=
  match k with O => Ok [] | S k' => it <- w_fields cfg_final efs m e ;; r <- loop k' (e + esz) ;; Ok (it :: r) end.

Lemma w_field_arr esz efs m a : w_field cfg_final (FArr esz efs) m a =
  (p <- load64 m a ;; n <- load64 m (a + 8) ;; bs <- load m p n ;;
   if fields_active efs then es <- w_loop efs esz m (Z.to_nat (n / esz)) p ;; Ok (IArr p n bs es) else Ok (IArr p n bs [])).
Proof. reflexivity. Qed.

Lemma load_iovecs_of_rd m : forall k p R, rd_iovecs m p k = Ok R -> exists parts, load_iovecs m p k = Ok parts.
Proof.
  induction k as [|k IH]; intros p R H; [eexists; reflexivity|]. cbn [rd_iovecs load_iovecs] in *.
  destruct (load64 m p) as [b|]; cbn [bind] in *; [|discriminate].
  destruct (load64 m (p + 8)) as [n|]; cbn [bind] in *; [|discriminate].
  destruct (load m b n) as [d|]; cbn [bind] in *; [|discriminate].
  destruct (rd_iovecs m (p + 16) k) as [[bs F]|] eqn:E; cbn [bind] in H; [|discriminate].
  destruct (IH _ _ E) as [parts Hp]. rewrite Hp. cbn [bind]. eauto.
Qed.

Lemma walk_of_rd m : mem_bytes m ->
  (forall f a R, rd_f f m a = Ok R -> exists it, w_field cfg_final f m a = Ok it) /\
  (forall fs b R, rd_fs fs m b = Ok R -> exists its, w_fields cfg_final fs m b = Ok its).
Proof.
  intros Hbm.
  assert (Hleaf : forall f a R, (forall m a, rd_f f m a = rd_f FBuf m a) -> (forall m a, w_field cfg_final f m a = w_field cfg_final FBuf m a) ->
            rd_f f m a = Ok R -> exists it, w_field cfg_final f m a = Ok it).
  { intros f a R Hr Hw H. rewrite Hr in H. cbn [rd_f] in H. destruct (slot_inv _ _ _ _ H) as [p [n [bs [L1 [L2 [L3 _]]]]]].
    rewrite Hw. cbn [w_field]. rewrite L1. cbn [bind]. rewrite L2. cbn [bind]. rewrite L3. cbn [bind]. eauto. }
  assert (Hiov : forall a R, rd_f FIov m a = Ok R -> exists it, w_field cfg_final FIov m a = Ok it).
  { intros a R H. cbn [rd_f w_field] in *.
    destruct (load64 m a) as [p|]; cbn [bind] in *; [|discriminate].
    destruct (load64 m (a + 8)) as [n|]; cbn [bind] in *; [|discriminate].
    destruct (load64 m (a + 16)) as [s|]; cbn [bind] in *; [|discriminate].
    destruct (rd_iovecs m p (Z.to_nat (n / 16))) as [[bs F]|] eqn:E; cbn [bind] in H; [|discriminate].
    destruct (load_iovecs_of_rd m _ _ _ E) as [parts Hp]. rewrite Hp. cbn [bind]. eauto. }
  apply field_fields_mut.
  - intros n a R H. cbn [rd_f w_field] in *. destruct (load m a n); cbn [bind] in *; [eauto|discriminate].
  - intros a R. apply Hleaf; reflexivity.
  - (* FStr: also through sv() *)
    intros a R H. cbn [rd_f] in H. destruct (slot_inv _ _ _ _ H) as [p [n [bs [L1 [L2 [L3 _]]]]]].
    cbn [w_field]. rewrite L1. cbn [bind]. rewrite L2. cbn [bind]. rewrite L3. cbn [bind].
    unfold sv_of. cbn [fix_sv cfg_final]. destruct (n =? 0) eqn:E; cbn [andb].
    + cbn [load bind]. rewrite (load_nonpos m p 0) by lia. cbn [bind]. eauto.
    + apply Z.eqb_neq in E. pose proof (load64_range _ _ _ Hbm L2) as Rn. rewrite wrap_small by lia.
      rewrite (load_prefix m p n bs (n - 1) L3 ltac:(lia)). cbn [bind]. eauto.
  - intros n0 a R. apply Hleaf; reflexivity.
  - intros a R. apply Hleaf; reflexivity.
  - (* FArr *) intros esz efs IH a R H. cbn [rd_f] in H. destruct (slot_inv _ _ _ _ H) as [p [n [bs [L1 [L2 [L3 HK]]]]]].
    cbn beta in HK. rewrite w_field_arr. rewrite L1. cbn [bind]. rewrite L2. cbn [bind]. rewrite L3. cbn [bind].
    destruct (fields_active efs); [|eauto].
    destruct (rd_elems (rd_fs efs m) (Z.to_nat (n / esz)) p esz) as [[[vs w] F]|] eqn:Ee; cbn [bind] in HK; [|discriminate].
    assert (Hl : forall k e R0, rd_elems (rd_fs efs m) k e esz = Ok R0 -> exists es, w_loop efs esz m k e = Ok es).
    { induction k as [|k IHk]; intros e R0 H0; [eexists; reflexivity|]. cbn [rd_elems w_loop] in *.
      destruct (rd_fs efs m e) as [[[v1 w1] F1]|] eqn:E1; cbn [bind] in H0; [|discriminate].
      destruct (rd_elems (rd_fs efs m) k (e + esz) esz) as [[[vs' w'] F']|] eqn:E2; cbn [bind] in H0; [|discriminate].
      destruct (IH _ _ E1) as [it Hit]. destruct (IHk _ _ E2) as [es Hes]. rewrite Hit. cbn [bind]. rewrite Hes. cbn [bind]. eauto. }
    destruct (Hl _ _ _ Ee) as [es Hes]. rewrite Hes. cbn [bind]. eauto.
  - exact Hiov.
  - exact Hiov.
  - (* FNest *) intros fs IH a R H. cbn [rd_f] in H.
    destruct (rd_fs fs m a) as [[[vs w] F]|] eqn:E; cbn [bind] in H; [|discriminate].
    destruct (IH _ _ E) as [its Hi]. rewrite w_field_nest, Hi. cbn [bind]. eauto.
  - (* FMap *) intros vsz vfs _ a R H. cbn [rd_f w_field] in *.
    destruct (load64 m a) as [ip|]; cbn [bind] in *; [|discriminate].
    destruct (load64 m (a + 8)) as [inn|]; cbn [bind] in *; [|discriminate].
    destruct (load m ip inn) as [ibs|]; cbn [bind] in *; [|discriminate].
    destruct (load64 m (a + 16)) as [bp|]; cbn [bind] in *; [|discriminate].
    destruct (load64 m (a + 24)) as [bn|]; cbn [bind] in *; [|discriminate].
    destruct (load m bp bn) as [bbs|]; cbn [bind] in *; [|discriminate]. eauto.
  - intros b R _. cbn. eauto.
  - intros off f IHf r IHr b R H. cbn [rd_fs] in H.
    destruct (rd_f f m (b + off)) as [[[v1 w1] F1]|] eqn:E1; cbn [bind] in H; [|discriminate].
    destruct (rd_fs r m b) as [[[vs w] F]|] eqn:E2; cbn [bind] in H; [|discriminate].
    destruct (IHf _ _ E1) as [it Hit]. destruct (IHr _ _ E2) as [its Hits].
    rewrite w_fields_cons, Hit. cbn [bind]. rewrite Hits. cbn [bind]. eauto.
Qed.

Lemma walk_of_rd_perm m : mem_bytes m -> forall fs b R, rd_fs (perm fs) m b = Ok R -> exists its, w_fields cfg_final fs m b = Ok its.
Proof. intros Hbm fs b R H. destruct (rd_perm_declared fs m b R H) as [R' Hr]. exact (proj2 (walk_of_rd m Hbm) fs b R' Hr). Qed.

Definition claimed_ok (E0 : list (Z * Z)) (n0 : Z) (m' : mem) (C : list (Z * Z)) : Prop :=
  psep C /\ forall c, In c C -> orig E0 n0 (lens m') c /\ validb (lens m') (fst c) (snd c) = true.

Section H.
  Variable hstep : Z -> byte -> Z.

  Theorem deserialize_fields_in_bounds sh m v :
    shape_wf sh -> lay_fs (sh_fields sh) -> (forall b, psep (aranges_fs (sh_fields sh) b)) ->
    inv m v -> psep (i_el v) ->
    exists t st, deserialize hstep cfg_final sh m v = Ok (t, st) /\
      (t <> 0 -> exists C vals w F its,
         claimed_ok (i_el v) (len m) (d_mem st) C /\ In (t, sh_size sh) C /\
         rd_fs (perm (sh_fields sh)) (d_mem st) t = Ok (vals, w, F) /\
         (forall r, In r F -> snd r <= 0 \/ exists c, In c C /\ within r c) /\
         w_fields cfg_final (sh_fields sh) (d_mem st) t = Ok its).
  Proof.
    intros [Hsz [Hwf Hck]] Hlay Hps Hinv Hpe. unfold deserialize.
    destruct (ebc_h m v (sh_size sh) Hinv Hsz Hpe) as [t [m1 [v1 [He X]]]]. rewrite He. cbn [bind].
    destruct X as [[-> [-> ->]]|[got [rest X]]].
    { rewrite Z.eqb_refl. eexists. eexists. split; [reflexivity|]. congruence. }
    pose proof X as [Hi1 [Hx1 [Hc1 [Hn1 [[Pv [Pp Pw]] [Lp [Fl1 [Ps1 [Pr1 [Sp1 [Fr1 _]]]]]]]]]]].
    destruct (t =? 0) eqn:Et; [apply Z.eqb_eq in Et; lia|].
    destruct (checked_ok hstep (sh_checked sh) m1 v1 t (sh_size sh) Hi1 Hck Pv) as [okc [m2 [Hv [Hi2 Hl2]]]]. rewrite Hv. cbn [bind].
    destruct okc; cbn [negb].
    2:{ eexists. eexists. split; [reflexivity|]. congruence. }
    set (st0 := mkD m2 v1 false).
    destruct (d_pass_ok true (sh_fields sh) (sh_size sh) Hwf st0 t Hi2 ltac:(cbn [st0 d_mem]; rewrite Hl2; exact Pv))
      as [st1 [H1 [Hi3 Hx3]]].
    rewrite H1. cbn [bind]. cbn [st0 d_mem] in Hx3.
    destruct (d_pass_ok false (sh_fields sh) (sh_size sh) Hwf st1 t Hi3 ltac:(eapply validb_ext; [exact Hx3|rewrite Hl2; exact Pv]))
      as [st2 [H2 [Hi4 Hx4]]].
    rewrite H2. cbn [bind].
    eexists. eexists. split; [reflexivity|].
    destruct (d_failed st2) eqn:Hnf; [congruence|]. intros _.
    assert (Hrun : d_fields cfg_final (perm (sh_fields sh)) st0 t = Ok st2) by (apply d_passes_perm; eauto).
    pose proof (perm_wf _ _ Hwf) as Hwfp.
    assert (HR0 : HR (d_mem st0) (d_iov st0) [(t, sh_size sh)]) by exact (HR_body _ _ _ _ _ _ _ _ m2 X Hi2 Hl2).
    destruct (proj2 h_all (perm (sh_fields sh)) (sh_size sh) st0 t st2 [(t, sh_size sh)] (t, sh_size sh) Hwfp (perm_lay _ Hlay) (perm_psep _ _ (Hps t)) HR0
                (or_introl eq_refl) (within_refl _) Hrun Hnf) as [new [HP [vals [w [F [Hrd Hfp]]]]]].
    destruct HP as [HR2 [Hx2 [Pr2 [Or2 Fr2]]]]. cbn [st0 d_mem d_iov] in *.
    destruct HR2 as [Hi5 [_ [HpC [_ HvC]]]].
    destruct (walk_of_rd_perm (d_mem st2) (inv_bytes _ _ Hi5) _ _ _ Hrd) as [its Hits].
    exists ([(t, sh_size sh)] ++ new), vals, w, F, its.
    split.
    { split; [exact HpC|]. intros c Hc. split; [|apply HvC; exact Hc].
      apply in_app_or in Hc. destruct Hc as [[<-|[]]|Hc].
      - eapply orig_ext; [|apply (xpost_orig _ _ _ _ _ _ _ _ X Hsz)]. rewrite <- Hl2. exact Hx2.
      - eapply orig_prov; [exact Pr1| |apply Or2; exact Hc].
        pose proof (ext_len _ _ Hx1) as L. rewrite !len_lens in L. rewrite <- (len_lens m2), Hl2, len_lens. exact L. }
    split; [left; reflexivity|]. split; [exact Hrd|]. split; [|exact Hits].
    intros r Hr. destruct (Hfp r Hr) as [H|[[s [Hs Ws]]|[c [Hc Wx]]]]; [left; exact H| |].
    - right. exists (t, sh_size sh). split; [left; reflexivity|]. eapply within_trans; [exact Ws|].
      apply (proj2 aranges_within _ _ _ Hwfp s Hs).
    - right. exists c. split; [right; exact Hc|exact Wx].
  Qed.
End H.

(* the hypotheses are met by ordinary layouts; an array of messages holding iovec arrays and a map (harness T15-like) *)
Example in_bounds_shape_ok :
  let sh := mkShape 72 true (FCons 4 (FFixed 4) (FCons 8 (FArr 40 (FCons 0 FStr (FCons 16 FIov FNil))) (FCons 24 FAIov (FCons 48 FABuf FNil)))) in
  shape_wf sh /\ lay_fs (sh_fields sh) /\ (forall b, psep (aranges_fs (sh_fields sh) b)).
Proof.
  cbv zeta. split; [|split].
  - unfold shape_wf. cbn. repeat split; lia.
  - cbn. repeat split; try tauto; intros y Hy; cbn in Hy;
      repeat (destruct Hy as [<-|Hy]; [unfold sep; cbn [fst snd]; lia|]); destruct Hy.
  - intros b. cbn. repeat split; try tauto; intros y Hy; cbn in Hy;
      repeat (destruct Hy as [<-|Hy]; [unfold sep; cbn [fst snd]; lia|]); destruct Hy.
Qed.

(* reading guide for the footprint F of the theorem: the (ptr,len) pair a buffer slot holds is a member of F *)
Lemma footprint_names_buffer m a val w F : rd_f FBuf m a = Ok (val, w, F) ->
  exists p n, load64 m a = Ok p /\ load64 m (a + 8) = Ok n /\ In (p, n) F.
Proof.
  cbn [rd_f]. destruct (load64 m a) as [p|]; cbn [bind]; [|discriminate]. destruct (load64 m (a + 8)) as [n|]; cbn [bind]; [|discriminate].
  destruct (load m p n) as [bs|]; cbn [bind]; [|discriminate]. intros H. inversion H. exists p, n. split; [reflexivity|]. split; [reflexivity|]. right. left. reflexivity.
Qed.
