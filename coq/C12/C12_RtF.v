(* C12_RtF.v — ser_roundtrip for EVERY shape (all ten field kinds incl. iovec_array / aligned_iovec_array,
   arrays of messages holding them, nested messages, maps), values in DECLARED order.
   The sender's value is the one readable in its memory AFTER serialize (SerializerIOV writes summed_size
   into the struct; writev sends that memory): serialize, cut the emitted bytes into any pairwise separated
   iovec elements, deserialize = the same value. *)
From Coq Require Import ZArith List Bool Lia.
From PV Require Import Base.U64 C12.C12_Model C12.C12_Mem C12.C12_MemC C12.C12_Iov C12.C12_Flat C12.C12_Deser C12.C12_Sep C12.C12_Wire C12.C12_RtD C12.C12_Perm C12.C12_RtC C12.C12_Hx C12.C12_View C12.C12_Hb C12.C12_Hb2 C12.C12_RtI C12.C12_RtS C12.C12_Rt C12.C12_RtC3 C12.C12_Dyn C12.C12_RtSI C12.C12_Ord C12.C12_Proofs.
Import ListNotations.
Local Open Scope Z_scope.

Section F.
  Variable hstep : Z -> byte -> Z.

  (* the two passes over the fields, for every shape *)
  Lemma s_fields_perm_iov sh ms x st2 vals0 wf0 Fs0 D :
    shape_wf sh -> lay_fs (sh_fields sh) -> (forall b, psep (aranges_fs (sh_fields sh) b)) ->
    mem_bytes ms ->
    s_fields cfg_final (perm (sh_fields sh)) (mkS ms (mkIov 4 [] 0 32) false) x = Ok st2 -> s_full st2 = false ->
    rd_fs (perm (sh_fields sh)) ms x = Ok (vals0, wf0, Fs0) -> dn_fs (perm (sh_fields sh)) ms x = Ok D ->
    psep D -> (forall d, In d D -> sep (x, sh_size sh) d) -> len wf0 < W64 ->
    lens (s_mem st2) = lens ms /\ mem_bytes (s_mem st2) /\
    (forall y k, (forall r, In r (aranges_fs (perm (sh_fields sh)) x) \/ In r D -> sep (y, k) r) -> load (s_mem st2) y k = load ms y k) /\
    exists vals wf Fs, rd_fs (perm (sh_fields sh)) (s_mem st2) x = Ok (vals, wf, Fs) /\ vsums vals /\
      len wf = len wf0 /\ len Fs = len Fs0 /\ fpok Fs (aranges_fs (perm (sh_fields sh)) x) D /\
      flat (s_mem st2) (i_el (s_iov st2)) = Ok wf.
  Proof.
    intros [Hsz [Hwf _]] Hlay Hps Hbm H2 Hfull Hrd Hdn HpD HsD Hw.
    set (st0 := mkS ms (mkIov 4 [] 0 32) false) in *.
    pose proof (perm_wf _ _ Hwf) as Hwfp.
    destruct (proj2 ss_all (perm (sh_fields sh)) (sh_size sh) st0 x st2 ms vals0 wf0 Fs0 D Hwfp (perm_lay _ Hlay) (perm_psep _ _ (Hps x)) H2 Hbm eq_refl Hbm Hrd Hdn) as [SP Fin].
    { intros r _. apply agree_refl. }
    { exact HpD. }
    { intros s d Hs Hd. eapply within_sep; [apply (proj2 aranges_within _ _ _ Hwfp s Hs)|]. apply HsD. exact Hd. }
    { exact Hw. }
    destruct SP as [Hl2 [Hb2 Fr2]]. cbn [st0 s_mem] in Hl2, Fr2.
    split; [exact Hl2|]. split; [exact Hb2|]. split; [exact Fr2|].
    destruct (Fin Hfull) as [_ HmF].
    destruct (HmF (s_mem st2) [] Hl2 ltac:(intros r _; apply agree_refl) eq_refl) as [vals [wf [Fs [Q1 [Q2 [Q3 [Q4 [Q6 Q5]]]]]]]].
    exists vals, wf, Fs. cbn [app] in Q5. auto 10.
  Qed.

  (* (d) what the serializer leaves and emits, for every shape; for a CheckedMessage (m_checksum starts at 0 and is
     overlapped neither by a field nor by an emitted piece) the stored word is the one validate_checksum recomputes *)
  Theorem serialize_wire_any sh ms x sst vals0 wf0 Fs0 D body0 :
    shape_wf sh -> lay_fs (sh_fields sh) -> (forall b, psep (aranges_fs (sh_fields sh) b)) ->
    mem_bytes ms ->
    serialize hstep cfg_final sh ms x = Ok sst -> s_full sst = false ->
    rd_fs (perm (sh_fields sh)) ms x = Ok (vals0, wf0, Fs0) -> dn_fs (perm (sh_fields sh)) ms x = Ok D ->
    psep D -> (forall d, In d D -> sep (x, sh_size sh) d) -> len wf0 < W64 ->
    load ms x (sh_size sh) = Ok body0 ->
    (sh_checked sh = true ->
       (forall h b, 0 <= h < W32 -> 0 <= b < 256 -> 0 <= hstep h b < W32) /\
       Forall (fun L => L <= STRIDE) (lens ms) /\ 0 <= x /\ load ms x 4 = Ok (le_enc 4 0) /\
       (forall r, In r (aranges_fs (perm (sh_fields sh)) x) -> sep r (x, 4)) /\
       (forall e, In e (removelast (i_el (s_iov sst))) -> sep e (x, 4))) ->
    lens (s_mem sst) = lens ms /\ mem_bytes (s_mem sst) /\
    exists vals wf Fs body, rd_fs (perm (sh_fields sh)) (s_mem sst) x = Ok (vals, wf, Fs) /\ vsums vals /\
      len wf = len wf0 /\ len Fs = len Fs0 /\
      load (s_mem sst) x (sh_size sh) = Ok body /\ flat (s_mem sst) (i_el (s_iov sst)) = Ok (wf ++ body) /\
      (sh_checked sh = true ->
         le_dec (firstn 4 body) = hash_ext hstep (hash_ext hstep 0 wf) (le_enc 4 (hash_ext hstep 0 wf) ++ skipn 4 body)).
  Proof.
    intros Hsh Hlay Hps Hbm Hser Hf Hrd Hdn HpD HsD Hw Lb Hchk. pose proof Hsh as [Hsz [_ Hck4]].
    destruct (serialize_inv _ _ _ _ _ Hser Hf) as [st2 [H2 [Hf2 [Hi [Hf3 Hh]]]]].
    destruct (s_fields_perm_iov sh ms x st2 vals0 wf0 Fs0 D Hsh Hlay Hps Hbm H2 Hf2 Hrd Hdn HpD HsD Hw)
      as [Hl2 [Hb2 [Fr2 [vals [wf [Fs [Q1 [Q2 [Q3 [Q4 [Q6 Q5]]]]]]]]]]].
    destruct (load_lens _ (s_mem st2) _ _ _ Lb Hl2) as [body2 [Lb2 _]].
    destruct (sh_checked sh) eqn:Hck.
    2:{ rewrite Hh, Hi. split; [exact Hl2|]. split; [exact Hb2|]. exists vals, wf, Fs, body2. repeat (split; [assumption|]).
        split; [apply s_push_flat; auto|discriminate]. }
    destruct (Hchk eq_refl) as [hstep_range [Hmswf [Hx [L0 [Hst4 Hsep]]]]]. specialize (Hck4 eq_refl).
    rewrite Hi, (s_push_el _ _ _ Hf3 Hsz) in *. rewrite removelast_last in Hsep. set (m' := s_mem sst) in *.
    assert (L02 : load (s_mem st2) x 4 = Ok (le_enc 4 0)).
    { rewrite Fr2; [exact L0|]. intros r [Hr|Hr]; [apply sep_sym; apply Hst4; exact Hr|].
      apply sep_sym. eapply sep_sub_r; [apply sep_sym; apply HsD; exact Hr|]. unfold within. cbn [fst snd]. lia. }
    destruct (checksum_tail hstep hstep_range (s_mem st2) x (sh_size sh) (i_el (s_iov st2)) wf body2 m' Hck4 Hb2 ltac:(rewrite Hl2; exact Hmswf) Hx Q5 Lb2 L02 Hsep Hh)
      as [Hl' [Fl' [Lb' [HH [Fr' Hb']]]]].
    set (h := hash_ext hstep 0 wf) in *. set (H := hash_ext hstep h (le_enc 4 h ++ skipn 4 body2)) in *.
    split; [congruence|]. split; [exact Hb'|].
    exists vals, wf, Fs, (le_enc 4 H ++ skipn 4 body2). split.
    { apply (proj2 (rd_stable (s_mem st2) m') _ _ _ Q1). cbn [snd]. intros r Hr y k Wk. apply Fr'.
      eapply within_sep; [exact Wk|].
      destruct (Q6 r Hr) as [Hz|[[s [Hs W]]|[c [Hc W]]]].
      - unfold sep. left. cbn [snd]. exact Hz.
      - eapply within_sep; [exact W|]. apply Hst4. exact Hs.
      - eapply within_sep; [exact W|]. eapply sep_sub_r; [apply sep_sym; apply HsD; exact Hc|]. unfold within. cbn [fst snd]. lia. }
    split; [exact Q2|]. split; [exact Q3|]. split; [exact Q4|]. split; [exact Lb'|]. split; [exact Fl'|]. intros _.
    destruct (stored_word H (skipn 4 body2) HH) as [-> ->]. reflexivity.
  Qed.
End F.

(* ser_roundtrip as ONE statement: every shape, with or without CheckedMessage *)
Theorem ser_roundtrip_all hstep sh ms x sst vals0 wf0 Fs0 D body0 mr v :
  (forall h b, 0 <= h < W32 -> 0 <= b < 256 -> 0 <= hstep h b < W32) ->
  shape_wf sh -> lay_fs (sh_fields sh) -> (forall b, psep (aranges_fs (sh_fields sh) b)) ->
  (* the sender: a byte memory in which the value is readable, whose buffers (dn_fs: every range a slot
     points to, to any depth) do not alias each other or the message struct *)
  mem_bytes ms -> Forall (fun L => L <= STRIDE) (lens ms) ->
  rd_fs (perm (sh_fields sh)) ms x = Ok (vals0, wf0, Fs0) -> dn_fs (perm (sh_fields sh)) ms x = Ok D ->
  psep D -> (forall d, In d D -> sep (x, sh_size sh) d) -> len wf0 < W64 ->
  load ms x (sh_size sh) = Ok body0 ->
  (* CheckedMessage: m_checksum starts at 0 and is not overlapped by a field or an emitted piece *)
  (sh_checked sh = true -> 0 <= x /\ load ms x 4 = Ok (le_enc 4 0) /\
     (forall r, In r (aranges_fs (perm (sh_fields sh)) x) -> sep r (x, 4)) /\
     (forall e, In e (removelast (i_el (s_iov sst))) -> sep e (x, 4))) ->
  serialize hstep cfg_final sh ms x = Ok sst -> s_full sst = false ->
  (* the receiver: any memory, any vector of pairwise separated elements denoting the emitted bytes *)
  inv mr v -> psep (i_el v) -> flat mr (i_el v) = flat (s_mem sst) (i_el (s_iov sst)) ->
  i_nb v + 1 + len Fs0 <= i_cap v ->
  exists vals ws Fss t st w2 F,
    rd_fs (sh_fields sh) (s_mem sst) x = Ok (vals, ws, Fss) /\
    deserialize hstep cfg_final sh mr v = Ok (t, st) /\ t <> 0 /\
    ptr_ok (lens (d_mem st)) t (sh_size sh) /\
    rd_fs (sh_fields sh) (d_mem st) t = Ok (vals, w2, F) /\
    flat (d_mem st) (i_el (d_iov st)) = Ok [].
Proof.
  intros Hr Hsh Hlay Hps Hbm Hmswf Hrd Hdn HpD HsD Hw Lb Hchk Hser Hfull Hinv Hpe Hfl Hnb.
  destruct (serialize_wire_any hstep sh ms x sst vals0 wf0 Fs0 D body0 Hsh Hlay Hps Hbm Hser Hfull Hrd Hdn HpD HsD Hw Lb)
    as [Hl [_ [pv [wf [Fs [body [Q1 [Q2 [_ [Q4 [Q5 [Q6 Q7]]]]]]]]]]]].
  { intros Hck. destruct (Hchk Hck) as [Hx [L0 [Hst4 Hsep]]]. auto 10. }
  rewrite Q6 in Hfl.
  destruct (deserialize_rt_any hstep sh (s_mem sst) x mr v pv wf Fs body Hsh Hlay Hps ltac:(rewrite Hl; exact Hmswf) Q1 Q2 Q5 ltac:(auto) Hinv Hfl Hpe ltac:(lia))
    as [t [st [w2 [F [H1 [H2 [H3 [H4 [H5 _]]]]]]]]].
  destruct (rd_declared_exists _ _ _ _ _ _ Q1) as [vals [ws' [Fss' [Hd ->]]]].
  destruct (rd_declared_of_perm _ _ _ _ _ _ (rd_len _ _ _ _ _ _ Hd) H4) as [w3 [F3 H6]].
  exists vals, ws', Fss', t, st, w3, F3. auto 10.
Qed.

(* the hypotheses are inhabited: struct { uint64 a; iovec_array v; } (harness type T7) whose array names two
   pieces "\n\v\f" and "\r\016" and carries a STALE summed_size 0; 37 wire bytes cut 2 + 10 + 25, so that the
   iovec array is recorded as two pieces and the body takes the copy fallback *)
Definition ex_i_sh : shape := mkShape 32 false (FCons 0 (FFixed 8) (FCons 8 FIov FNil)).
Definition ex_i_body : list byte :=
  [1; 2; 3; 4; 5; 6; 7; 8] ++ [0; 0; 0; 0; 1; 48; 0; 0] ++ [32; 0; 0; 0; 0; 0; 0; 0] ++ [0; 0; 0; 0; 0; 0; 0; 0].
Definition ex_i_ents : list byte :=
  [0; 0; 0; 0; 2; 48; 0; 0] ++ [3; 0; 0; 0; 0; 0; 0; 0] ++ [0; 0; 0; 0; 3; 48; 0; 0] ++ [2; 0; 0; 0; 0; 0; 0; 0].
Definition ex_i_ms : mem := [ex_i_body; ex_i_ents; [10; 11; 12]; [13; 14]].
Definition ex_i_hs : Z -> byte -> Z := fun h _ => h.
Definition ex_i_wire : list byte :=
  match serialize ex_i_hs cfg_final ex_i_sh ex_i_ms (region_base 0) with
  | Ok sst => match flat (s_mem sst) (i_el (s_iov sst)) with Ok w => w | Err _ => [] end
  | Err _ => []
  end.
Definition ex_i_mr : mem := [firstn 2 ex_i_wire; firstn 10 (skipn 2 ex_i_wire); skipn 12 ex_i_wire].
Definition ex_i_v : iovs := mkIov 4 [(region_base 0, 2); (region_base 1, 10); (region_base 2, 25)] 0 32.

Example ser_roundtrip_hyps_inhabited_iov :
  exists sst vals ws Fss t st w2 F,
    serialize ex_i_hs cfg_final ex_i_sh ex_i_ms (region_base 0) = Ok sst /\
    rd_fs (sh_fields ex_i_sh) (s_mem sst) (region_base 0) = Ok (vals, ws, Fss) /\
    vals = [VFix [1; 2; 3; 4; 5; 6; 7; 8]; VIov 5 [10; 11; 12; 13; 14]] /\
    deserialize ex_i_hs cfg_final ex_i_sh ex_i_mr ex_i_v = Ok (t, st) /\ t <> 0 /\
    rd_fs (sh_fields ex_i_sh) (d_mem st) t = Ok (vals, w2, F).
Proof.
  destruct (serialize ex_i_hs cfg_final ex_i_sh ex_i_ms (region_base 0)) as [sst|] eqn:Hser; [|vm_compute in Hser; discriminate].
  edestruct (ser_roundtrip_all ex_i_hs ex_i_sh ex_i_ms (region_base 0) sst) as [vals [ws [Fss [t [st [w2 [F [H0 [H1 [H2 [_ [H4 _]]]]]]]]]]]].
  - intros h b Hh _. exact Hh.
  - unfold shape_wf. cbn. repeat split; lia.
  - cbn. tauto.
  - intros b. cbn. repeat split; try tauto; intros y Hy; cbn in Hy;
      repeat (destruct Hy as [<-|Hy]; [unfold sep; cbn [fst snd]; lia|]); destruct Hy.
  - apply mem_bytesb_ok. reflexivity.
  - change (lens ex_i_ms) with [32; 32; 3; 2]. repeat constructor; unfold STRIDE; lia.
  - vm_compute. reflexivity.
  - vm_compute. reflexivity.
  - cbn. repeat split; try tauto; intros y Hy; cbn in Hy;
      repeat (destruct Hy as [<-|Hy]; [unfold sep; cbn [fst snd]; lia|]); destruct Hy.
  - intros d Hd. cbn in Hd. repeat (destruct Hd as [<-|Hd]; [unfold sep, region_base, ARENA, STRIDE, ex_i_sh; cbn [fst snd sh_size]; lia|]). destruct Hd.
  - vm_compute. reflexivity.
  - vm_compute. reflexivity.
  - intros E. vm_compute in E. discriminate E.
  - exact Hser.
  - vm_compute in Hser. inversion Hser. reflexivity.
  - instantiate (1 := ex_i_v). instantiate (1 := ex_i_mr). apply invb_ok. vm_compute. reflexivity.
  - cbn. repeat split; try tauto; intros y Hy; cbn in Hy;
      repeat (destruct Hy as [<-|Hy]; [unfold sep, region_base, ARENA, STRIDE; cbn [fst snd]; lia|]); destruct Hy.
  - vm_compute in Hser. inversion Hser. subst sst. vm_compute. reflexivity.
  - vm_compute. congruence.
  - exists sst, vals, ws, Fss, t, st, w2, F. split; [reflexivity|]. split; [exact H0|]. split; [|auto].
    vm_compute in Hser. inversion Hser. subst sst. vm_compute in H0. inversion H0. reflexivity.
Qed.
