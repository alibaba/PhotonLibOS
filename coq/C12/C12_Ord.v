(* C12_Ord.v — from the archive order (aligned fields first, `perm fields`) back to the DECLARED order of the
   fields: reading a struct in declared order succeeds iff reading it in archive order does, and the two
   value lists determine each other (vsel = the sub-list of values of the aligned / non-aligned fields).
   The round-trip theorems restated in declared order. *)
From Coq Require Import ZArith List Bool Lia.
From PV Require Import Base.U64 C12.C12_Model C12.C12_Mem C12.C12_MemC C12.C12_Iov C12.C12_Flat C12.C12_Deser C12.C12_Sep C12.C12_Wire C12.C12_RtD C12.C12_Perm C12.C12_RtC C12.C12_Hx C12.C12_View C12.C12_Hb C12.C12_Hb2 C12.C12_RtI C12.C12_RtS C12.C12_Rt C12.C12_RtC3.
Import ListNotations.
Local Open Scope Z_scope.

Fixpoint vsel (al : bool) (fs : fields) (vals : list value) : list value :=
  match fs, vals with
  | FCons _ f r, v :: vs => if sel al f then v :: vsel al r vs else vsel al r vs
  | _, _ => []
  end.
Fixpoint nf (fs : fields) : nat := match fs with FNil => O | FCons _ _ r => S (nf r) end.

Lemma rd_len fs : forall m b vals w F, rd_fs fs m b = Ok (vals, w, F) -> length vals = nf fs.
Proof.
  induction fs as [|off f r IH]; intros m b vals w F H; cbn [rd_fs] in H; [inversion H; reflexivity|].
  destruct (rd_f f m (b + off)) as [[[v1 w1] F1]|]; cbn [bind] in H; [|discriminate].
  destruct (rd_fs r m b) as [[[vs w2] F2]|] eqn:E; cbn [bind] in H; [|discriminate].
  inversion H. cbn [length nf]. f_equal. eapply IH; eauto.
Qed.

(* declared order -> the two passes *)
Lemma rd_split fs : forall m b vals w F, rd_fs fs m b = Ok (vals, w, F) ->
  exists w1 F1 w2 F2, rd_fs (filt true fs) m b = Ok (vsel true fs vals, w1, F1) /\
    rd_fs (filt false fs) m b = Ok (vsel false fs vals, w2, F2) /\ len F = len F1 + len F2 /\
    (forall r, In r F1 \/ In r F2 -> In r F).
Proof.
  induction fs as [|off f r IH]; intros m b vals w F H; cbn [rd_fs] in H.
  - inversion H. exists [], [], [], []. cbn. repeat split; auto. intros r0 [[]|[]].
  - destruct (rd_f f m (b + off)) as [[[v1 w1] F1]|] eqn:E1; cbn [bind] in H; [|discriminate].
    destruct (rd_fs r m b) as [[[vs w2] F2]|] eqn:E2; cbn [bind] in H; [|discriminate].
    inversion H. subst vals w F. clear H.
    destruct (IH _ _ _ _ _ E2) as [wa [Fa [wb [Fb [Ha [Hb [Hl Hin]]]]]]].
    cbn [filt vsel]. rewrite sel_compl. destruct (sel false f); cbn [negb].
    + exists wa, Fa, (w1 ++ wb), (F1 ++ Fb). split; [exact Ha|]. split; [cbn [rd_fs]; rewrite E1; cbn [bind]; rewrite Hb; reflexivity|].
      split; [rewrite !len_app; lia|]. intros x [Hx|Hx]; apply in_or_app.
      * right. apply Hin. left. exact Hx.
      * apply in_app_or in Hx. destruct Hx as [Hx|Hx]; [left; exact Hx|right; apply Hin; right; exact Hx].
    + exists (w1 ++ wa), (F1 ++ Fa), wb, Fb. split; [cbn [rd_fs]; rewrite E1; cbn [bind]; rewrite Ha; reflexivity|]. split; [exact Hb|].
      split; [rewrite !len_app; lia|]. intros x [Hx|Hx]; apply in_or_app.
      * apply in_app_or in Hx. destruct Hx as [Hx|Hx]; [left; exact Hx|right; apply Hin; left; exact Hx].
      * right. apply Hin. right. exact Hx.
Qed.

Lemma rd_perm_of_declared fs m b vals w F : rd_fs fs m b = Ok (vals, w, F) ->
  exists w' F', rd_fs (perm fs) m b = Ok (vsel true fs vals ++ vsel false fs vals, w', F') /\ len F' = len F /\
    (forall r, In r F' -> In r F).
Proof.
  intros H. destruct (rd_split fs m b vals w F H) as [w1 [F1 [w2 [F2 [H1 [H2 [Hl Hin]]]]]]].
  exists (w1 ++ w2), (F1 ++ F2). split; [unfold perm; rewrite rd_fs_app, H1; cbn [bind]; rewrite H2; reflexivity|].
  split; [rewrite len_app; lia|]. intros r Hr. apply Hin. apply in_app_or. exact Hr.
Qed.

(* archive order -> declared order *)
Lemma rd_declared_exists fs m b pv w F : rd_fs (perm fs) m b = Ok (pv, w, F) ->
  exists vals w' F', rd_fs fs m b = Ok (vals, w', F') /\ pv = vsel true fs vals ++ vsel false fs vals.
Proof.
  intros H. destruct (rd_perm_declared fs m b _ H) as [[[vals w'] F'] Hr].
  destruct (rd_perm_of_declared _ _ _ _ _ _ Hr) as [w2 [F2 [Hp _]]]. rewrite H in Hp. inversion Hp. eauto.
Qed.

Lemma app_inj_length {A} (a b c d : list A) : a ++ b = c ++ d -> length a = length c -> a = c /\ b = d.
Proof.
  revert c. induction a as [|x a IH]; intros [|y c] H Hl; cbn [length] in Hl; try discriminate; [auto|].
  cbn [app] in H. inversion H. destruct (IH c H2 ltac:(lia)) as [-> ->]. auto.
Qed.

Lemma vsel_inj fs : forall a b, length a = nf fs -> length b = nf fs ->
  vsel true fs a = vsel true fs b -> vsel false fs a = vsel false fs b -> a = b.
Proof.
  induction fs as [|off f r IH]; intros a b La Lb H1 H2; destruct a as [|x a]; destruct b as [|y b]; cbn [length nf] in *; try discriminate; [reflexivity|].
  cbn [vsel] in H1, H2. rewrite sel_compl in H1. destruct (sel false f); cbn [negb] in H1.
  - inversion H2. f_equal. apply IH; auto.
  - inversion H1. f_equal. apply IH; auto.
Qed.

Lemma vsel_len al fs : forall a b, length a = nf fs -> length b = nf fs -> length (vsel al fs a) = length (vsel al fs b).
Proof.
  induction fs as [|off f r IH]; intros a b La Lb; destruct a as [|x a]; destruct b as [|y b]; cbn [length nf] in *; try discriminate; [reflexivity|].
  cbn [vsel]. destruct (sel al f); cbn [length]; [f_equal|]; apply IH; lia.
Qed.

(* reading in archive order the permuted value list of `vals` = reading `vals` in declared order *)
Lemma rd_declared_of_perm fs m b vals w' F' : length vals = nf fs ->
  rd_fs (perm fs) m b = Ok (vsel true fs vals ++ vsel false fs vals, w', F') ->
  exists w F, rd_fs fs m b = Ok (vals, w, F).
Proof.
  intros Lv H. destruct (rd_declared_exists _ _ _ _ _ _ H) as [vals2 [w [F [Hr E]]]].
  pose proof (rd_len _ _ _ _ _ _ Hr) as L2.
  destruct (app_inj_length _ _ _ _ E (vsel_len true fs vals vals2 Lv L2)) as [S1 S2].
  rewrite (vsel_inj fs vals vals2 Lv L2 S1 S2). eauto.
Qed.

Lemma vsums_vsel al fs : forall vals, vsums vals -> vsums (vsel al fs vals).
Proof.
  induction fs as [|off f r IH]; intros vals H; destruct vals as [|x vals]; cbn [vsel]; try exact I.
  destruct H as [Hx Hr]. destruct (sel al f); [split; [exact Hx|apply IH; exact Hr]|apply IH; exact Hr].
Qed.

Section ORD.
  Variable hstep : Z -> byte -> Z.

  (* ser_roundtrip for shapes without iovec_array fields, unchecked, values in DECLARED order *)
  Theorem ser_roundtrip_noiov_unchecked_declared sh ms x sst vals wf0 Fs0 body mr v :
    shape_wf sh -> sh_checked sh = false ->
    sup_fs (sh_fields sh) -> lay_fs (sh_fields sh) -> (forall b, psep (aranges_fs (sh_fields sh) b)) ->
    Forall (fun L => L <= STRIDE) (lens ms) ->
    rd_fs (sh_fields sh) ms x = Ok (vals, wf0, Fs0) -> load ms x (sh_size sh) = Ok body ->
    serialize hstep cfg_final sh ms x = Ok sst -> s_full sst = false ->
    inv mr v -> psep (i_el v) -> flat mr (i_el v) = flat (s_mem sst) (i_el (s_iov sst)) ->
    i_nb v + 1 + len Fs0 <= i_cap v ->
    exists t st w2 F, deserialize hstep cfg_final sh mr v = Ok (t, st) /\ t <> 0 /\
      ptr_ok (lens (d_mem st)) t (sh_size sh) /\
      rd_fs (sh_fields sh) (d_mem st) t = Ok (vals, w2, F) /\
      flat (d_mem st) (i_el (d_iov st)) = Ok [].
  Proof.
    intros Hsh Hck Hsup Hlay Hps Hmswf Hrd Lb Hser Hfull Hinv Hpe Hfl Hnb.
    destruct (rd_perm_of_declared _ _ _ _ _ _ Hrd) as [w' [F' [Hp [Hl _]]]].
    destruct (ser_roundtrip_noiov_unchecked hstep sh ms x sst _ w' F' body mr v Hsh Hck Hsup Hlay Hps Hmswf Hp Lb Hser Hfull Hinv Hpe Hfl ltac:(lia))
      as [t [st [w2 [F [H1 [H2 [H3 [H4 H5]]]]]]]].
    destruct (rd_declared_of_perm _ _ _ _ _ _ (rd_len _ _ _ _ _ _ Hrd) H4) as [w3 [F3 H6]].
    exists t, st, w3, F3. auto.
  Qed.

  Hypothesis hstep_range : forall h b, 0 <= h < W32 -> 0 <= b < 256 -> 0 <= hstep h b < W32.

  Theorem ser_roundtrip_noiov_checked_declared sh ms x sst vals wf0 Fs0 body0 mr v :
    shape_wf sh -> sh_checked sh = true ->
    sup_fs (sh_fields sh) -> lay_fs (sh_fields sh) -> (forall b, psep (aranges_fs (sh_fields sh) b)) ->
    mem_bytes ms -> Forall (fun L => L <= STRIDE) (lens ms) -> 0 <= x ->
    rd_fs (sh_fields sh) ms x = Ok (vals, wf0, Fs0) -> load ms x (sh_size sh) = Ok body0 ->
    load ms x 4 = Ok (le_enc 4 0) ->
    (forall r, In r Fs0 -> sep r (x, 4)) ->
    serialize hstep cfg_final sh ms x = Ok sst -> s_full sst = false ->
    (forall e, In e (removelast (i_el (s_iov sst))) -> sep e (x, 4)) ->
    inv mr v -> psep (i_el v) -> flat mr (i_el v) = flat (s_mem sst) (i_el (s_iov sst)) ->
    i_nb v + 1 + len Fs0 <= i_cap v ->
    exists t st w2 F, deserialize hstep cfg_final sh mr v = Ok (t, st) /\ t <> 0 /\
      ptr_ok (lens (d_mem st)) t (sh_size sh) /\
      rd_fs (sh_fields sh) (d_mem st) t = Ok (vals, w2, F) /\
      flat (d_mem st) (i_el (d_iov st)) = Ok [].
  Proof.
    intros Hsh Hck Hsup Hlay Hps Hbm Hwf Hx Hrd Lb L0 HsF Hser Hfull Hsp Hinv Hpe Hfl Hnb.
    destruct (rd_perm_of_declared _ _ _ _ _ _ Hrd) as [w' [F' [Hp [Hl Hin]]]].
    destruct (ser_roundtrip_noiov_checked hstep hstep_range sh ms x sst _ w' F' body0 mr v Hsh Hck Hsup Hlay Hps Hbm Hwf Hx Hp Lb L0
                ltac:(intros r Hr; apply HsF; apply Hin; exact Hr) Hser Hfull Hsp Hinv Hpe Hfl ltac:(lia))
      as [t [st [w2 [F [H1 [H2 [H3 [H4 H5]]]]]]]].
    destruct (rd_declared_of_perm _ _ _ _ _ _ (rd_len _ _ _ _ _ _ Hrd) H4) as [w3 [F3 H6]].
    exists t, st, w3, F3. auto.
  Qed.
End ORD.
