(* C12_Deser.v — DeserializerIOV::deserialize never accesses memory out of range:
   for every byte memory, every well-formed iovector over it (any fragmentation), every
   well-formed shape, the run of the model returns Ok (no Err EOOB / EHUGE). *)
From Coq Require Import ZArith List Bool Lia.
From PV Require Import Base.U64 C12.C12_Model C12.C12_Mem C12.C12_MemC C12.C12_Iov.
Import ListNotations.
Local Open Scope Z_scope.

(* every slot lies inside its enclosing struct; array elements have a positive size *)
Fixpoint field_wf (avail : Z) (f : field) : Prop :=
  match f with
  | FFixed n => 0 <= n <= avail
  | FBuf | FStr | FFixBuf _ | FABuf => 16 <= avail
  | FArr esz efs => 16 <= avail /\ 0 < esz /\ fields_wf esz efs
  | FIov | FAIov => 24 <= avail
  | FNest fs => fields_wf avail fs
  | FMap _ _ => 32 <= avail
  end
with fields_wf (sz : Z) (fs : fields) : Prop :=
  match fs with
  | FNil => True
  | FCons off f r => 0 <= off /\ field_wf (sz - off) f /\ fields_wf sz r
  end.

Definition shape_wf (sh : shape) : Prop :=
  0 < sh_size sh /\ fields_wf (sh_size sh) (sh_fields sh) /\ (sh_checked sh = true -> 4 <= sh_size sh).

Definition dpost (st st' : dst) : Prop :=
  inv (d_mem st') (d_iov st') /\ ext (lens (d_mem st)) (lens (d_mem st')).

Lemma dpost_refl st : inv (d_mem st) (d_iov st) -> dpost st st.
Proof. intros H. split; [exact H|apply ext_refl]. Qed.
Lemma dpost_trans a b c : dpost a b -> dpost b c -> dpost a c.
Proof. intros [_ E1] [I2 E2]. split; [exact I2|eapply ext_trans; eauto]. Qed.

Lemma inv_wf m v : inv m v -> Forall (fun L => L <= STRIDE) (lens m).
Proof. intros [_ [H _]]. exact H. Qed.
Lemma inv_bytes m v : inv m v -> mem_bytes m.
Proof. intros [H _]. exact H. Qed.

Lemma store_le_ok n m v a x : inv m v -> validb (lens m) a (Z.of_nat n) = true ->
  exists m', store m a (le_enc n x) = Ok m' /\ inv m' v /\ lens m' = lens m.
Proof.
  intros Hinv Hv. destruct (store_valid m a (le_enc n x)) as [m' [Hs Hl]]; [rewrite le_enc_len; exact Hv|].
  exists m'. split; [exact Hs|]. eapply inv_store; eauto. apply le_enc_bytes_ok.
Qed.

Lemma store64_ok m v a x : inv m v -> validb (lens m) a 8 = true ->
  exists m', store64 m a x = Ok m' /\ inv m' v /\ lens m' = lens m.
Proof. exact (store_le_ok 8 m v a x). Qed.

Lemma store32_ok m v a x : inv m v -> validb (lens m) a 4 = true ->
  exists m', store32 m a x = Ok m' /\ inv m' v /\ lens m' = lens m.
Proof. exact (store_le_ok 4 m v a x). Qed.

(* what d_buffer leaves in the slot it processed *)
Definition slot_post (m : mem) (a : Z) : Prop :=
  exists p n, load64 m a = Ok p /\ load64 m (a + 8) = Ok n /\ 0 <= n < W64 /\
              (p = 0 -> n = 0) /\ (n <> 0 -> ptr_ok (lens m) p n).

(* loads of ranges that were readable before and do not touch [a, a+w) are unchanged *)
Definition frame (m m' : mem) (a w : Z) : Prop :=
  forall x k, validb (lens m) x k = true -> (x + k <= a \/ a + w <= x) -> load m' x k = load m x k.

Lemma d_buffer_ok st a avail : 16 <= avail -> inv (d_mem st) (d_iov st) -> validb (lens (d_mem st)) a avail = true ->
  exists st', d_buffer cfg_final st a = Ok st' /\ dpost st st' /\ slot_post (d_mem st') a /\
              frame (d_mem st) (d_mem st') a 16.
Proof.
  intros Hav Hinv Hv. destruct st as [m v fl]. cbn [d_mem d_iov d_failed] in *.
  pose proof (inv_wf _ _ Hinv) as Hwf. pose proof (inv_bytes _ _ Hinv) as Hbm.
  assert (Hva : validb (lens m) a 8 = true) by (apply (validb_sub' _ a avail); auto; lia).
  assert (Hvb : validb (lens m) (a + 8) 8 = true) by (apply (validb_sub' _ a avail); auto; lia).
  unfold d_buffer. cbn [d_mem d_iov d_failed fix_zero_ptr fix_fail_len cfg_final].
  destruct (load64_ok m (a + 8) Hbm Hvb) as [n [En Rn]]. rewrite En. cbn [bind].
  destruct (n =? 0) eqn:E0.
  - apply Z.eqb_eq in E0. subst n.
    destruct (store64_ok m v a 0 Hinv Hva) as [m1 [Hs [Hi1 Hl1]]]. rewrite Hs. cbn [bind].
    eexists. split; [reflexivity|]. unfold dpost. cbn [d_mem d_iov]. split; [split; [exact Hi1|rewrite Hl1; apply ext_refl]|].
    split.
    { exists 0, 0. split; [eapply load64_store64_same; eauto; unfold W64; lia|].
      split; [|split; [unfold W64; lia|split; [auto|intros H; congruence]]].
      rewrite (load64_store_other _ _ _ _ _ Hs); [exact En|]. rewrite le_enc_len. right. lia. }
    intros x k Hxk Hd. apply (load_store_other _ _ _ _ _ _ Hs). rewrite le_enc_len. change (Z.of_nat 8) with 8. lia.
  - apply Z.eqb_neq in E0.
    destruct (efc_ok m v n Hinv ltac:(lia)) as [p [m1 [v1 [He [Hi1 [Hx1 [_ [Hp Hfr]]]]]]]].
    rewrite He. cbn [bind].
    assert (Hva1 : validb (lens m1) a 8 = true) by (eapply validb_ext; eauto).
    assert (Hvb1 : validb (lens m1) (a + 8) 8 = true) by (eapply validb_ext; eauto).
    destruct (store64_ok m1 v1 a p Hi1 Hva1) as [m2 [Hs2 [Hi2 Hl2]]]. rewrite Hs2. cbn [bind].
    assert (En2 : load64 m2 (a + 8) = Ok n).
    { rewrite (load64_store_other _ _ _ _ _ Hs2); [|rewrite le_enc_len; right; lia].
      unfold load64. rewrite (Hfr _ _ Hvb). exact En. }
    destruct (p =? 0) eqn:Ep.
    + apply Z.eqb_eq in Ep. subst p.
      assert (Hvb2 : validb (lens m2) (a + 8) 8 = true) by (rewrite Hl2; exact Hvb1).
      destruct (store64_ok m2 v1 (a + 8) 0 Hi2 Hvb2) as [m3 [Hs3 [Hi3 Hl3]]]. rewrite Hs3. cbn [bind].
      eexists. split; [reflexivity|]. unfold dpost. cbn [d_mem d_iov].
      split; [split; [exact Hi3|rewrite Hl3, Hl2; exact Hx1]|].
      split.
      { exists 0, 0. split.
        { rewrite (load64_store_other _ _ _ _ _ Hs3); [|rewrite le_enc_len; left; lia].
          eapply load64_store64_same; eauto. unfold W64; lia. }
        split; [eapply load64_store64_same; eauto; unfold W64; lia|].
        split; [unfold W64; lia|]. split; [auto|intros H; congruence]. }
      intros x k Hxk Hd.
      rewrite (load_store_other _ _ _ _ _ _ Hs3) by (rewrite le_enc_len; change (Z.of_nat 8) with 8; lia).
      rewrite (load_store_other _ _ _ _ _ _ Hs2) by (rewrite le_enc_len; change (Z.of_nat 8) with 8; lia).
      apply Hfr. exact Hxk.
    + apply Z.eqb_neq in Ep. destruct Hp as [Hp|Hp]; [congruence|].
      eexists. split; [reflexivity|]. unfold dpost. cbn [d_mem d_iov].
      split; [split; [exact Hi2|rewrite Hl2; exact Hx1]|].
      destruct Hp as [P1 [P2 P3]].
      split.
      { exists p, n. split; [eapply load64_store64_same; eauto; lia|].
        split; [exact En2|]. split; [exact Rn|]. split; [intros H; congruence|].
        intros _. rewrite Hl2. split; [exact P1|]. split; [exact P2|exact P3]. }
      intros x k Hxk Hd.
      rewrite (load_store_other _ _ _ _ _ _ Hs2) by (rewrite le_enc_len; change (Z.of_nat 8) with 8; lia).
      apply Hfr. exact Hxk.
Qed.

(* process_field(iovec_array&) *)
Lemma d_iovarr_ok st a avail : 24 <= avail -> inv (d_mem st) (d_iov st) -> validb (lens (d_mem st)) a avail = true ->
  exists st', d_iovarr st a = Ok st' /\ dpost st st'.
Proof.
  intros Hav Hinv Hv. destruct st as [m v fl]. cbn [d_mem d_iov d_failed] in *.
  pose proof (inv_wf _ _ Hinv) as Hwf. pose proof (inv_bytes _ _ Hinv) as Hbm.
  assert (Hv0 : validb (lens m) a 8 = true) by (apply (validb_sub' _ a avail); auto; lia).
  assert (Hv1 : validb (lens m) (a + 8) 8 = true) by (apply (validb_sub' _ a avail); auto; lia).
  assert (Hv2 : validb (lens m) (a + 16) 8 = true) by (apply (validb_sub' _ a avail); auto; lia).
  unfold d_iovarr. cbn [d_mem d_iov d_failed].
  destruct (load64_ok m (a + 16) Hbm Hv2) as [summed [Es Rs]]. rewrite Es. cbn [bind].
  destruct (extract_front_view_ok m v summed Hinv ltac:(lia)) as [ret [ptr [cnt [m1 [v1 [He [Hi1 [Hx1 [Hc0 Hpv]]]]]]]]].
  rewrite He. cbn [bind].
  destruct (wrap ret =? summed).
  2:{ eexists. split; [reflexivity|]. unfold dpost. cbn [d_mem d_iov]. split; auto. }
  assert (Hld : exists pieces, load m1 ptr (cnt * 16) = Ok pieces).
  { destruct Hpv as [->|Hpv]; [|apply load_valid; exact Hpv]. cbn. eauto. }
  destruct Hld as [pieces Hld]. rewrite Hld. cbn [bind].
  destruct (store64_ok m1 v1 a ptr Hi1 ltac:(eapply validb_ext; eauto)) as [m2 [H2 [Hi2 Hl2]]]. rewrite H2. cbn [bind].
  destruct (store64_ok m2 v1 (a + 8) (cnt * 16) Hi2 ltac:(rewrite Hl2; eapply validb_ext; eauto)) as [m3 [H3 [Hi3 Hl3]]]. rewrite H3. cbn [bind].
  destruct (store64_ok m3 v1 (a + 16) (if cnt =? 0 then 0 else summed) Hi3 ltac:(rewrite Hl3, Hl2; eapply validb_ext; eauto)) as [m4 [H4 [Hi4 Hl4]]].
  rewrite H4. cbn [bind]. eexists. split; [reflexivity|]. unfold dpost. cbn [d_mem d_iov].
  split; [exact Hi4|]. rewrite Hl4, Hl3, Hl2. exact Hx1.
Qed.

(* the whole elements of esz bytes in a buffer of n bytes lie inside it *)
Lemma elems_fit n esz : 0 <= n -> 0 < esz -> Z.of_nat (Z.to_nat (n / esz)) * esz <= n.
Proof. intros Hn He. rewrite Z2Nat.id by (apply Z.div_pos; lia). pose proof (Z.mul_div_le n esz He). lia. Qed.

Scheme field_mut := Induction for field Sort Prop
  with fields_mut := Induction for fields Sort Prop.
Combined Scheme field_fields_mut from field_mut, fields_mut.

Lemma d_fields_cons c off f r st base :
  d_fields c (FCons off f r) st base = (st1 <- d_field c f st (base + off) ;; d_fields c r st1 base).
Proof. reflexivity. Qed.

(* the element loop of d_field on an array of messages, under a name *)
Definition d_loop (efs : fields) (esz : Z) := fix loop (k : nat) (st : dst) (e : Z) {struct k} : res dst :=
  match k with O => Ok st | S k' => st' <- d_fields cfg_final efs st e ;; loop k' st' (e + esz) end.

Lemma d_loop_S efs esz k st e : d_loop efs esz (S k) st e = (st' <- d_fields cfg_final efs st e ;; d_loop efs esz k st' (e + esz)).
Proof. reflexivity. Qed.

Lemma d_field_arr esz efs st a : d_field cfg_final (FArr esz efs) st a =
  (st1 <- d_buffer cfg_final st a ;; p <- load64 (d_mem st1) a ;; n <- load64 (d_mem st1) (a + 8) ;;
   if n / esz =? 0 then Ok st1 else if p =? 0 then Err EOOB else
   if fields_active efs then d_loop efs esz (Z.to_nat (n / esz)) st1 p else Ok st1).
Proof. reflexivity. Qed.

(* a run of d_field on an array: process_field(buffer&), then nothing more or the element loop *)
Lemma d_field_arr_inv esz efs st a st' : d_field cfg_final (FArr esz efs) st a = Ok st' ->
  exists st1, d_buffer cfg_final st a = Ok st1 /\ (st' = st1 \/ exists k p, d_loop efs esz k st1 p = Ok st').
Proof.
  rewrite d_field_arr. destruct (d_buffer cfg_final st a) as [st1|]; cbn [bind]; [|discriminate]. intros H. exists st1. split; [reflexivity|].
  destruct (load64 (d_mem st1) a) as [p|]; cbn [bind] in H; [|discriminate].
  destruct (load64 (d_mem st1) (a + 8)) as [n|]; cbn [bind] in H; [|discriminate].
  destruct (n / esz =? 0); [inversion H; auto|]. destruct (p =? 0); [discriminate|].
  destruct (fields_active efs); [eauto|inversion H; auto].
Qed.

Lemma d_fields_all :
  (forall f avail, field_wf avail f ->
   forall st a, inv (d_mem st) (d_iov st) -> validb (lens (d_mem st)) a avail = true ->
   exists st', d_field cfg_final f st a = Ok st' /\ dpost st st') /\
  (forall fs sz, fields_wf sz fs ->
   forall st base, inv (d_mem st) (d_iov st) -> validb (lens (d_mem st)) base sz = true ->
   exists st', d_fields cfg_final fs st base = Ok st' /\ dpost st st').
Proof.
  assert (Hbuf : forall avail, 16 <= avail -> forall st a, inv (d_mem st) (d_iov st) -> validb (lens (d_mem st)) a avail = true ->
    exists st', d_buffer cfg_final st a = Ok st' /\ dpost st st').
  { intros avail Hw st a Hinv Hv. destruct (d_buffer_ok st a avail Hw Hinv Hv) as [st' [H1 [H2 _]]]. eauto. }
  apply field_fields_mut.
  - (* FFixed *) intros n avail _ st a Hinv _. cbn. eexists. split; [reflexivity|apply dpost_refl; auto].
  - exact Hbuf.
  - exact Hbuf.
  - intros n. exact Hbuf.
  - exact Hbuf.
  - (* FArr *) intros esz efs IH avail [Hw [Hesz Hwe]] st a Hinv Hv.
    rewrite d_field_arr.
    destruct (d_buffer_ok st a avail Hw Hinv Hv) as [st1 [H1 [[Hi1 Hx1] [[p [n [Lp [Ln [Rn [Hp0 Hpn]]]]]] _]]]].
    rewrite H1. cbn [bind]. rewrite Lp, Ln. cbn [bind].
    destruct (n / esz =? 0) eqn:Ec.
    { eexists. split; [reflexivity|]. split; auto. }
    apply Z.eqb_neq in Ec.
    assert (Hn0 : n <> 0) by (intros ->; apply Ec; apply Z.div_0_l; lia).
    destruct (p =? 0) eqn:Ep; [apply Z.eqb_eq in Ep; specialize (Hp0 Ep); congruence|].
    destruct (Hpn Hn0) as [P1 [P2 P3]].
    destruct (fields_active efs).
    2:{ eexists. split; [reflexivity|]. split; auto. }
    (* the element loop: every element lies inside the extracted array buffer *)
    assert (Hloop : forall k st2 e,
      inv (d_mem st2) (d_iov st2) -> ext (lens (d_mem st1)) (lens (d_mem st2)) ->
      p <= e -> e + Z.of_nat k * esz <= p + n ->
      exists st', d_loop efs esz k st2 e = Ok st' /\ dpost st2 st').
    { induction k as [|k IHk]; intros st2 e Hi2 Hx2 He1 He2.
      - eexists. split; [reflexivity|apply dpost_refl; auto].
      - rewrite Nat2Z.inj_succ in He2.
        destruct (IH esz Hwe st2 e Hi2) as [st3 [H3 [Hi3 Hx3]]].
        { apply (validb_sub' _ p n); [eapply inv_wf; eauto|eapply validb_ext; eauto|lia|nia]. }
        rewrite d_loop_S, H3. cbn [bind].
        destruct (IHk st3 (e + esz) Hi3 ltac:(eapply ext_trans; eauto) ltac:(lia) ltac:(nia)) as [st4 [H4 D4]].
        exists st4. split; [exact H4|]. eapply dpost_trans; [split; [exact Hi3|exact Hx3]|exact D4]. }
    destruct (Hloop (Z.to_nat (n / esz)) st1 p Hi1 (ext_refl _) ltac:(lia)) as [st' [H' D']].
    { pose proof (elems_fit n esz ltac:(lia) Hesz). lia. }
    exists st'. split; [exact H'|]. eapply dpost_trans; [split; [exact Hi1|exact Hx1]|exact D'].
  - (* FIov *) intros avail Hw st a Hinv Hv. cbn [d_field field_wf] in *. eapply d_iovarr_ok; eauto.
  - (* FAIov *) intros avail Hw st a Hinv Hv. cbn [d_field field_wf fix_nested_al cfg_final] in *. eapply d_iovarr_ok; eauto.
  - (* FNest *) intros fs IH avail Hw st a Hinv Hv. cbn [d_field field_wf] in *. eapply IH; eauto.
  - (* FMap *) intros vsz vfs _ avail Hw st a Hinv Hv. cbn [d_field field_wf] in *.
    destruct (d_buffer_ok st a avail ltac:(lia) Hinv Hv) as [st1 [H1 [[Hi1 Hx1] _]]]. rewrite H1. cbn [bind].
    destruct (d_buffer_ok st1 (a + 16) (avail - 16) ltac:(lia) Hi1) as [st2 [H2 [D2 _]]].
    { apply (validb_sub' _ a avail); [eapply inv_wf; eauto|eapply validb_ext; eauto|lia|lia]. }
    exists st2. split; [exact H2|]. eapply dpost_trans; [split; [exact Hi1|exact Hx1]|exact D2].
  - (* FNil *) intros sz _ st base Hinv _. cbn. eexists. split; [reflexivity|apply dpost_refl; auto].
  - (* FCons *) intros off f IHf r IHr sz [Ho [Hwf Hwr]] st base Hinv Hv. rewrite d_fields_cons.
    destruct (IHf (sz - off) Hwf st (base + off) Hinv) as [st1 [H1 [Hi1 Hx1]]].
    { apply (validb_sub' _ base sz); [eapply inv_wf; eauto|exact Hv|lia|lia]. }
    rewrite H1. cbn [bind].
    destruct (IHr sz Hwr st1 base Hi1 ltac:(eapply validb_ext; eauto)) as [st2 [H2 D2]].
    exists st2. split; [exact H2|]. eapply dpost_trans; [split; [exact Hi1|exact Hx1]|exact D2].
Qed.

(* a pass visits a field like the field recursion does, or skips it *)
Lemma d_pass_cons al off f r st base : exists b : bool,
  d_pass cfg_final al (FCons off f r) st base =
  (st1 <- (if b then d_field cfg_final f st (base + off) else Ok st) ;; d_pass cfg_final al r st1 base).
Proof. destruct f, al; (exists true; reflexivity) || (exists false; reflexivity). Qed.

Lemma d_pass_ok aligned : forall fs sz, fields_wf sz fs ->
  forall st base, inv (d_mem st) (d_iov st) -> validb (lens (d_mem st)) base sz = true ->
  exists st', d_pass cfg_final aligned fs st base = Ok st' /\ dpost st st'.
Proof.
  induction fs as [|off f r IH]; intros sz Hw st base Hinv Hv.
  - cbn. eexists. split; [reflexivity|apply dpost_refl; auto].
  - destruct Hw as [Ho [Hwf Hwr]]. destruct (d_pass_cons aligned off f r st base) as [[|] ->]; [|apply (IH sz); auto].
    destruct (proj1 d_fields_all f (sz - off) Hwf st (base + off) Hinv) as [st1 [H1 [Hi1 Hx1]]].
    { apply (validb_sub' _ base sz); [eapply inv_wf; eauto|exact Hv|lia|lia]. }
    rewrite H1. cbn [bind].
    destruct (IH sz Hwr st1 base Hi1 ltac:(eapply validb_ext; eauto)) as [st2 [H2 D2]].
    exists st2. split; [exact H2|]. eapply dpost_trans; [split; [exact Hi1|exact Hx1]|exact D2].
Qed.

Section H.
  Variable hstep : Z -> byte -> Z.

  Lemma load32_ok m a : validb (lens m) a 4 = true -> exists x, load32 m a = Ok x.
  Proof. intros Hv. destruct (load_valid _ _ _ Hv) as [bs Hb]. unfold load32. rewrite Hb. cbn. eauto. Qed.

  Lemma hash_iov_ok x : forall el m v, inv m v -> validb (lens m) x 4 = true -> Forall (el_ok (lens m)) el ->
    exists m', hash_iov hstep m x el = Ok m' /\ inv m' v /\ lens m' = lens m.
  Proof.
    induction el as [|[b l] r IH]; intros m v Hinv Hx Hel.
    - cbn. eauto.
    - inversion Hel as [|? ? He Hr]; subst. destruct He as [_ [Hv _]]. cbn [fst snd] in Hv. cbn [hash_iov].
      destruct (load32_ok m x Hx) as [h Hh]. rewrite Hh. cbn [bind].
      destruct (load_valid _ _ _ Hv) as [d Hd]. rewrite Hd. cbn [bind].
      destruct (store32_ok m v x (hash_ext hstep h d) Hinv Hx) as [m1 [Hs [Hi1 Hl1]]]. rewrite Hs. cbn [bind].
      destruct (IH m1 v Hi1 ltac:(rewrite Hl1; exact Hx) ltac:(rewrite Hl1; exact Hr)) as [m2 [H2 [Hi2 Hl2]]].
      exists m2. split; [exact H2|]. split; [exact Hi2|congruence].
  Qed.

  Lemma validate_checksum_ok m v t size : inv m v -> 4 <= size -> validb (lens m) t size = true ->
    exists okc m', validate_checksum hstep m v t size = Ok (okc, m') /\ inv m' v /\ lens m' = lens m.
  Proof.
    intros Hinv Hs Hv. pose proof (inv_wf _ _ Hinv) as Hwf.
    assert (Hv4 : validb (lens m) t 4 = true) by (apply (validb_sub' _ t size); auto; lia).
    unfold validate_checksum.
    destruct (load32_ok m t Hv4) as [d0 Hd0]. rewrite Hd0. cbn [bind].
    destruct (store32_ok m v t 0 Hinv Hv4) as [m1 [Hs1 [Hi1 Hl1]]]. rewrite Hs1. cbn [bind].
    destruct Hinv as [? [? [Hel ?]]].
    destruct (hash_iov_ok t (i_el v) m1 v Hi1 ltac:(rewrite Hl1; exact Hv4) ltac:(rewrite Hl1; exact Hel)) as [m2 [H2 [Hi2 Hl2]]].
    rewrite H2. cbn [bind].
    destruct (load32_ok m2 t ltac:(rewrite Hl2, Hl1; exact Hv4)) as [h1 Hh1]. rewrite Hh1. cbn [bind].
    destruct (load_valid m2 t size ltac:(rewrite Hl2, Hl1; exact Hv)) as [body Hb]. rewrite Hb. cbn [bind].
    destruct (store32_ok m2 v t (hash_ext hstep h1 body) Hi2 ltac:(rewrite Hl2, Hl1; exact Hv4)) as [m3 [Hs3 [Hi3 Hl3]]].
    rewrite Hs3. cbn [bind]. eexists. exists m3. split; [reflexivity|]. split; [exact Hi3|congruence].
  Qed.

  (* the checksum step of deserialize: validate_checksum for a CheckedMessage, nothing otherwise *)
  Lemma checked_ok (ck : bool) m v t size : inv m v -> (ck = true -> 4 <= size) -> validb (lens m) t size = true ->
    exists okc m', (if ck then validate_checksum hstep m v t size else Ok (true, m)) = Ok (okc, m') /\ inv m' v /\ lens m' = lens m.
  Proof. intros Hinv Hs Hv. destruct ck; [apply validate_checksum_ok; auto|eauto]. Qed.

  (* up to the field passes: the body is taken from the back and, for a checked message, its
     checksum validated; either the message is rejected here, or the passes start at the body t *)
  Lemma deserialize_body sh m v : shape_wf sh -> inv m v ->
    (exists st, deserialize hstep cfg_final sh m v = Ok (0, st) /\ inv (d_mem st) (d_iov st) /\ ext (lens m) (lens (d_mem st))) \/
    exists t m2 v1, inv m2 v1 /\ ext (lens m) (lens m2) /\ ptr_ok (lens m2) t (sh_size sh) /\
      deserialize hstep cfg_final sh m v =
      (st1 <- d_pass cfg_final true (sh_fields sh) (mkD m2 v1 false) t ;;
       st2 <- d_pass cfg_final false (sh_fields sh) st1 t ;; Ok ((if d_failed st2 then 0 else t), st2)).
  Proof.
    intros [Hsz [Hwf Hck]] Hinv. unfold deserialize.
    destruct (ebc_ok m v (sh_size sh) Hinv Hsz) as [t [m1 [v1 [He [Hi1 [Hx1 [_ [Hp _]]]]]]]].
    rewrite He. cbn [bind].
    destruct (t =? 0) eqn:Et.
    { apply Z.eqb_eq in Et. subst t. left. eexists. split; [reflexivity|]. split; [exact Hi1|exact Hx1]. }
    apply Z.eqb_neq in Et. destruct Hp as [Hp|Hp]; [congruence|].
    destruct (checked_ok (sh_checked sh) m1 v1 t (sh_size sh) Hi1 Hck (proj1 Hp)) as [okc [m2 [Hv [Hi2 Hl2]]]]. rewrite Hv. cbn [bind]. rewrite <- Hl2 in Hx1, Hp.
    destruct okc; cbn [negb].
    - right. exists t, m2, v1. split; [exact Hi2|]. split; [exact Hx1|]. split; [exact Hp|reflexivity].
    - left. eexists. split; [reflexivity|]. split; [exact Hi2|exact Hx1].
  Qed.
End H.
