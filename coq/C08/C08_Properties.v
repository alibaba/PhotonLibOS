(* C08 — WorkPool: every task runs exactly once; call() returns after its task finished.
   Property theorems over EVERY interleaving of submitters / dispatchers / task threads / destructor of the model
   coq/C08/C08_Model.v (`reachable (init ...) s` = s is reached from the constructed pool by any label sequence):
   any thread mode (inline : mode < 0, else own/pooled thread), any ring capacity, any number of owned and joining
   vCPUs.  Each is read off the invariant `C08_Proofs.Inv`, which holds at every reachable state (`reachable_inv`);
   the statements about concrete runs are evaluated. *)
From Coq Require Import List Bool Arith Lia.
From PV Require Import C08.C08_Model C08.C08_Proofs.
Import ListNotations.

(* every accepted task's body starts at most once, finishes only after it started, and while it has not started it
   is in exactly the places the code keeps it: the ring, a dispatcher's local, or a helper counted by running_tasks *)
Theorem task_exactly_once : forall inline cap no nj intr s, reachable (init inline cap no nj intr) s ->
  forall i t, gett s i = Some t ->
    t_runs t <= 1 /\ t_fin t <= t_runs t /\
    (t_runs t = 0 ->
       In (ITask i) (s_ring s) \/
       (exists w k, getw s w = Some k /\ w_pc k = WGot (ITask i)) \/
       (exists w k, getw s w = Some k /\ exw w (t_phase t) = true /\ 1 <= w_running k)).
Proof.
  intros inline cap no nj intr s R i t G. apply reachable_inv in R. rename R into I.
  destruct (inv_tasks I G) as [[TO _] PL]. unfold placed in PL.
  assert (EX : forall w, exw w (t_phase t) = true ->
               exists w k, getw s w = Some k /\ exw w (t_phase t) = true /\ 1 <= w_running k).
  { intros w E. destruct (running_pos _ _ _ _ _ I G E) as (k & Gk & L). eauto. }
  destruct (t_phase t) eqn:PH; simpl in PL; repeat split; try lia; intros Z; try lia.
  - left. apply in_rtasks; auto.
  - right; left. destruct PL as (k & Gk & P). eauto.
  - right; right. apply (EX w). simpl. apply Nat.eqb_refl.
  - right; right. apply (EX w). simpl. apply Nat.eqb_refl.
Qed.
Print Assumptions task_exactly_once.

(* no delegate_helper ever copied a record other than the one it was started for: while a helper has not copied,
   the dispatcher's slot still holds its task (the yield_to rule), and every copy made is the helper's own *)
Theorem record_read_is_own : forall inline cap no nj intr s, reachable (init inline cap no nj intr) s ->
  g_badcopy s = false /\
  (forall i t w, gett s i = Some t -> t_phase t = PNew w -> exists k, getw s w = Some k /\ w_slot k = Some i) /\
  (forall i t w r, gett s i = Some t ->
     (t_phase t = PCopied w r \/ t_phase t = PBody w r \/ t_phase t = PFin w r \/ t_phase t = PPost w r) -> r = i).
Proof.
  intros inline cap no nj intr s R. apply reachable_inv in R. rename R into I.
  split; [apply (inv_flags I)|]. split.
  - intros i t w G P. destruct (inv_tasks I G) as [_ PL]. unfold placed in PL. rewrite P in PL.
    destruct PL as (k & Gk & S1 & _). eauto.
  - intros i t w r G P. destruct (inv_tasks I G) as [[TO _] _].
    destruct P as [P|[P|[P|P]]]; rewrite P in TO; tauto.
Qed.
Print Assumptions record_read_is_own.

(* the code of the working tree (`s_intr = false`: do_call waits again when aop.suspend() gives up).  Under EVERY
   schedule — including ESHUTDOWN / ETIMEDOUT interrupts of a caller blocked in call() at any moment (label LIntr) —
   call() returns only after its task ran and finished exactly once and signalled, and the caller's frame
   (lambda + awaiter) is never touched after call() returned. *)
Theorem call_returns_after_finish : forall inline cap no nj s, reachable (init inline cap no nj false) s ->
  g_uaf s = false /\
  forall i t, gett s i = Some t -> t_ret t = true -> t_call t = true /\ t_runs t = 1 /\ t_fin t = 1 /\ t_sig t = true.
Proof.
  intros inline cap no nj s R. apply reachable_inv in R. rename R into I.
  split; [apply (inv_flags I); auto|].
  intros i t G RT. destruct (inv_tasks I G) as [(TO & F & C) _]. specialize (F eq_refl RT). specialize (C RT).
  rewrite F, C in TO. destruct (t_phase t); decompose [and] TO; try discriminate; auto.
Qed.
Print Assumptions call_returns_after_finish.

(* the interrupt is really part of the schedules quantified over: it is enabled while a caller is blocked *)
Theorem call_interrupt_enabled :
  exists s s', run (init false 4 1 0 false) [LSubmit true] = Some s /\ step s (LIntr 0) = Some s'.
Proof. eexists; eexists; vm_compute; split; reflexivity. Qed.
Print Assumptions call_interrupt_enabled.

(* FINDING F37 (fixed by /repo f4b1a02), formal content: the code BEFORE the fix (`s_intr = true`: workerpool.cpp 92
   ignored suspend()'s result, thread.h 520-526: semaphore::wait gives up on ESHUTDOWN / ETIMEDOUT) lets call()
   return before the task finished, and the task then touches the dead frame. *)
Theorem call_returns_after_finish_prefix_refuted :
  (exists s t, run (init false 4 1 0 true) witness_intr = Some s /\ gett s 0 = Some t /\ t_ret t = true /\ t_fin t = 0) /\
  (exists s, run (init false 4 1 0 true) witness_uaf = Some s /\ g_uaf s = true).
Proof. split; [eexists; eexists|eexists]; vm_compute; repeat split; reflexivity. Qed.
Print Assumptions call_returns_after_finish_prefix_refuted.

(* an async task object is deleted at most once, only after it ran; a call() task is never deleted *)
Theorem async_deleted_once : forall inline cap no nj intr s, reachable (init inline cap no nj intr) s ->
  forall i t, gett s i = Some t ->
    t_del t <= 1 /\ (t_del t = 1 -> t_call t = false /\ t_fin t = 1) /\ (t_call t = true -> t_del t = 0).
Proof.
  intros inline cap no nj intr s R i t G. apply reachable_inv in R. rename R into I.
  destruct (inv_tasks I G) as [[TO _] _].
  assert (D : t_del t = 0 \/ (t_fin t = 1 /\ t_del t = if t_call t then 0 else 1)) by (destruct (t_phase t); tauto).
  destruct (t_call t), D as [D|[F D]]; rewrite D; repeat split; auto; discriminate.
Qed.
Print Assumptions async_deleted_once.

(* the destructor's final step (destroy the ring, return) is enabled only when the ring holds no task and every
   accepted task has run, finished, been signalled / deleted and left its worker.  GUARD: the pool has at least
   one vCPU that ever registered. *)
Theorem destroy_waits : forall inline cap no nj intr s s', reachable (init inline cap no nj intr) s ->
  step s LDFinal = Some s' ->
  (exists w k, getw s w = Some k /\ w_pc k <> WReg) ->
  rtasks (s_ring s) = [] /\
  forall i t, gett s i = Some t ->
    t_phase t = PDone /\ t_runs t = 1 /\ t_fin t = 1 /\ t_del t = (if t_call t then 0 else 1) /\ t_sig t = t_call t.
Proof.
  intros inline cap no nj intr s s' R H (w0 & k0 & G0 & P0). apply reachable_inv in R. rename R into I.
  brk H. clear H.
  assert (OUT : forall w k, getw s w = Some k -> is_out (w_pc k) = true /\ w_running k = 0).
  { intros w k G. destruct (inv_workers I G) as (A & _ & C & _). apply nth_error_In in G.
    rewrite forallb_forall in E1. apply E1 in G. rewrite A in G. destruct (is_out (w_pc k)); auto; discriminate. }
  assert (RT : rtasks (s_ring s) = []).
  { destruct (inv_workers I G0) as (_ & _ & _ & _ & F). destruct (OUT _ _ G0) as [O _].
    destruct (w_pc k0); try discriminate; try congruence. tauto. }
  split; auto. intros i t G. destruct (inv_tasks I G) as [[TO _] PL].
  assert (NX : forall w, exw w (t_phase t) = false).
  { intros w. destruct (exw w (t_phase t)) eqn:X; auto.
    destruct (running_pos _ _ _ _ _ I G X) as (k & Gk & L). destruct (OUT _ _ Gk). lia. }
  unfold placed in PL.
  destruct (t_phase t) eqn:PH; simpl in PL; try (specialize (NX w); simpl in NX; rewrite Nat.eqb_refl in NX; discriminate).
  - rewrite RT in PL. destruct PL; auto.
  - destruct PL as (k & Gk & P). destruct (OUT _ _ Gk) as [O _]. rewrite P in O. discriminate.
  - tauto.
Qed.
Print Assumptions destroy_waits.

(* degenerate configuration excluded by the guard: WorkPool(0) that nobody joined accepts a task and its destructor
   returns at once (vcpus.size() == 0: no marker, nothing to join) *)
Theorem destroy_waits_noworker_refuted :
  exists s t, run (init false 4 0 0 false) witness_noworker = Some s /\ s_dpc s = DDone /\
              gett s 0 = Some t /\ t_fin t = 0.
Proof. eexists; eexists; vm_compute; repeat split; reflexivity. Qed.
Print Assumptions destroy_waits_noworker_refuted.

(* `*tasklb.count -= 1` never hits a dispatcher that left main_loop; the ring is never popped after ~impl freed it *)
Theorem no_stale_access : forall inline cap no nj intr s, reachable (init inline cap no nj intr) s ->
  g_badcount s = false /\ g_ringuaf s = false.
Proof. intros inline cap no nj intr s R. destruct (inv_flags (reachable_inv _ _ _ _ _ _ R)) as (_ & A & B & _). auto. Qed.
Print Assumptions no_stale_access.

(* the hypotheses of destroy_waits are met by a non-trivial reachable state *)
Theorem destroy_waits_example :
  exists s s', run (init false 2 1 0 false) sample_run = Some s /\ step s LDFinal = Some s' /\
               (exists w k, getw s w = Some k /\ w_pc k <> WReg) /\ length (s_tasks s) = 2.
Proof. exact sample_reachable. Qed.
Print Assumptions destroy_waits_example.
