(* C08_Proofs.v — inductive invariant of the all-interleavings WorkPool model (C08_Model.v).  `Inv intr` holds in
   every state reachable from `init .. intr` by ANY sequence of labels (step_inv / reachable_inv); the property
   theorems of C08_Properties.v are read off it.  Apart from LSubmit, which appends a task, a step rewrites at most one
   task record and one worker record, so the labels are instances of four frame lemmas, one per combination
   (inv_task, inv_worker, inv_ring, inv_tw). *)
From Coq Require Import List Bool Arith Lia.
From PV Require Import C08.C08_Model.
Import ListNotations.

Lemma nth_error_upd {A} (l : list A) i j v :
  nth_error (upd l i v) j = if Nat.eqb j i then option_map (fun _ => v) (nth_error l i) else nth_error l j.
Proof.
  revert i j; induction l; intros i j; simpl.
  - destruct (Nat.eqb j i); destruct i, j; reflexivity.
  - destruct i as [|i], j as [|j]; simpl; auto.
Qed.
Lemma length_modn {A} (l : list A) i f : length (modn l i f) = length l.
Proof.
  unfold modn. destruct (nth_error l i) as [x|]; auto.
  generalize (f x). revert i. induction l; intros [|i] v; simpl; auto.
Qed.
Lemma nth_error_modn {A} (l : list A) i j f :
  nth_error (modn l i f) j = if Nat.eqb j i then option_map f (nth_error l i) else nth_error l j.
Proof.
  unfold modn. destruct (nth_error l i) eqn:E.
  - rewrite nth_error_upd, E. reflexivity.
  - destruct (Nat.eqb_spec j i) as [->|]; auto.
Qed.
Lemma modn_modn {A} (l : list A) i f g : modn (modn l i g) i f = modn l i (fun x => f (g x)).
Proof.
  unfold modn at 1. rewrite nth_error_modn, Nat.eqb_refl. unfold modn.
  destruct (nth_error l i) as [x|]; simpl; auto.
  generalize (f (g x)), (g x). revert i. induction l; intros [|i] u v; simpl; auto. f_equal; auto.
Qed.

Definition exw (w : nat) (p : phase) : bool :=
  match p with PNew w' | PCopied w' _ | PBody w' _ | PFin w' _ | PPost w' _ => Nat.eqb w' w | _ => false end.
Definition b2n (b : bool) : nat := if b then 1 else 0.
Definition count_exec (w : nat) (l : list task) : nat := length (filter (fun t => exw w (t_phase t)) l).
Definition pw (p : phase) : option nat :=
  match p with PGot w | PNew w | PCopied w _ | PBody w _ | PFin w _ | PPost w _ => Some w | _ => None end.

Lemma exw_true w p : exw w p = true -> p <> PRing /\ (forall w', p <> PGot w') /\ p <> PDone.
Proof. destruct p; simpl; try discriminate; repeat split; try discriminate; intros; discriminate. Qed.
Lemma exw_of_pw w p : pw p = Some w -> (forall w', p <> PGot w') -> exw w p = true.
Proof. destruct p; simpl; intros H N; try discriminate; injection H as ->; try apply Nat.eqb_refl. exfalso; eapply N; eauto. Qed.
Lemma exw_pw w p : exw w p = true -> pw p = Some w.
Proof. destruct p; simpl; try discriminate; intros H; apply Nat.eqb_eq in H; congruence. Qed.
Lemma exw_eq w p v : exw w p = true -> exw v p = Nat.eqb w v.
Proof. destruct p; simpl; try discriminate; intros H; apply Nat.eqb_eq in H; subst; reflexivity. Qed.
Lemma exw_off v w p : v <> w -> pw p = Some w \/ pw p = None -> exw v p = false.
Proof. intros NE H. destruct (exw v p) eqn:X; auto. apply exw_pw in X. destruct H; congruence. Qed.

Lemma count_exec_modn w l i t f :
  nth_error l i = Some t ->
  count_exec w (modn l i f) + b2n (exw w (t_phase t)) = count_exec w l + b2n (exw w (t_phase (f t))).
Proof.
  intros H. unfold modn. rewrite H. generalize (f t). revert i H. unfold count_exec.
  induction l as [|a l IH]; intros [|i] H v; try discriminate; simpl in *.
  - injection H as ->. destruct (exw w (t_phase t)), (exw w (t_phase v)); simpl; lia.
  - specialize (IH _ H v). destruct (exw w (t_phase a)); simpl; lia.
Qed.
Lemma count_exec_pos w l i t : nth_error l i = Some t -> exw w (t_phase t) = true -> 1 <= count_exec w l.
Proof.
  intros H E. assert (X : In t (filter (fun t => exw w (t_phase t)) l)) by (apply filter_In; eauto using nth_error_In).
  unfold count_exec. destruct (filter _ l); [contradiction | simpl; lia].
Qed.

(* the ring holds the accepted tasks in order, then the destructor's stop markers *)
Fixpoint rtasks (l : list item) : list nat :=
  match l with [] => [] | ITask i :: r => i :: rtasks r | IStop :: r => rtasks r end.
Fixpoint only_stops (l : list item) : bool :=
  match l with [] => true | IStop :: r => only_stops r | ITask _ :: _ => false end.
Fixpoint shape_ok (l : list item) : bool :=
  match l with [] => true | ITask _ :: r => shape_ok r | IStop :: r => only_stops r end.

Lemma rtasks_app a b : rtasks (a ++ b) = rtasks a ++ rtasks b.
Proof. induction a as [|x a IH]; simpl; auto. destruct x; simpl; congruence. Qed.
Lemma in_rtasks l j : In (ITask j) l <-> In j (rtasks l).
Proof.
  induction l as [|[i|] l IH]; simpl; [tauto| |].
  - rewrite <- IH. split; intros [X|X]; auto; left; congruence.
  - rewrite <- IH. split; auto. intros [X|X]; [discriminate | auto].
Qed.
Lemma only_stops_rtasks l : only_stops l = true -> rtasks l = [].
Proof. induction l as [|[] l IH]; simpl; auto; discriminate. Qed.
Lemma shape_app_stop l : shape_ok l = true -> shape_ok (l ++ [IStop]) = true.
Proof.
  assert (S : forall l, only_stops l = true -> only_stops (l ++ [IStop]) = true) by (induction l0 as [|[] ? ?]; simpl; auto).
  induction l as [|[] l IH]; simpl; auto.
Qed.
Lemma shape_app_task l i : shape_ok l = true -> ~ In IStop l -> shape_ok (l ++ [ITask i]) = true.
Proof. induction l as [|[] l IH]; simpl; auto. Qed.
Lemma shape_tail x l : shape_ok (x :: l) = true -> shape_ok l = true.
Proof. destruct x; simpl; auto. destruct l as [|[] l]; simpl; auto; discriminate. Qed.

Definition task_ok (intr : bool) (i : nat) (t : task) : Prop :=
  match t_phase t with
  | PRing | PGot _ | PNew _ => t_runs t = 0 /\ t_fin t = 0 /\ t_del t = 0 /\ t_sig t = false
  | PCopied _ r => r = i /\ t_runs t = 0 /\ t_fin t = 0 /\ t_del t = 0 /\ t_sig t = false
  | PBody _ r => r = i /\ t_runs t = 1 /\ t_fin t = 0 /\ t_del t = 0 /\ t_sig t = false
  | PFin _ r => r = i /\ t_runs t = 1 /\ t_fin t = 1 /\ t_del t = 0 /\ t_sig t = false
  | PPost _ r => r = i /\ t_runs t = 1 /\ t_fin t = 1 /\ t_del t = (if t_call t then 0 else 1) /\ t_sig t = t_call t
  | PDone => t_runs t = 1 /\ t_fin t = 1 /\ t_del t = (if t_call t then 0 else 1) /\ t_sig t = t_call t
  end /\ (intr = false -> t_ret t = true -> t_sig t = true) /\ (t_ret t = true -> t_call t = true).

(* what task i in phase p asks of the worker k its phase names.  PNew is the yield_to rule: the new thread owns the
   vCPU, or its dispatcher still does and sits right before thread_yield_to(th) — nothing else of that vCPU can run in
   between, so the slot still holds the record when the thread copies it (record_read_is_own).  In mode < 0 the
   dispatcher is parked in the call for the whole life of the helper. *)
Definition tw_at (inl : bool) (i : nat) (p : phase) (k : worker) : Prop :=
  match p with
  | PGot _ => w_pc k = WGot (ITask i)
  | PNew _ => w_slot k = Some i /\
              (w_cur k = Some i \/ (w_cur k = None /\ w_pc k = WCreated i)) /\
              (inl = true -> w_pc k = WInline i)
  | PCopied _ _ | PBody _ _ | PFin _ _ | PPost _ _ => inl = true -> w_pc k = WInline i
  | _ => True
  end.
Definition placed (s : state) (i : nat) (p : phase) : Prop :=
  match pw p with
  | Some w => exists k, getw s w = Some k /\ tw_at (s_inline s) i p k
  | None => p = PRing -> In i (rtasks (s_ring s))
  end.

Definition phase_at (s : state) (i : nat) (p : phase) : Prop := exists t, gett s i = Some t /\ t_phase t = p.

(* running_tasks counts the helpers of w exactly, so `*count -= 1` finds a worker still in main_loop (g_badcount); a
   registered worker keeps ~impl from freeing the ring (g_ringuaf); a stop marker arrives after every task marker *)
Definition worker_ok (s : state) (w : nat) (k : worker) : Prop :=
  w_reg k = negb (is_out (w_pc k)) /\
  w_running k = count_exec w (s_tasks s) /\
  (is_out (w_pc k) = true -> w_running k = 0) /\
  (s_dpc s = DDone -> w_reg k = false) /\
  match w_pc k with
  | WGot (ITask i) => phase_at s i (PGot w)
  | WGot IStop | WDrain | WExit => s_dpc s <> DIdle /\ rtasks (s_ring s) = []
  | _ => True
  end.

Definition flags_ok (intr : bool) (s : state) : Prop :=
  g_badcopy s = false /\ g_badcount s = false /\ g_ringuaf s = false /\ (intr = false -> g_uaf s = false).

Record Inv (intr : bool) (s : state) : Prop := mkInv {
  inv_intr : s_intr s = intr;
  inv_tasks : forall i t, gett s i = Some t -> task_ok intr i t /\ placed s i (t_phase t);
  inv_workers : forall w k, getw s w = Some k -> worker_ok s w k;
  inv_ring_nodup : NoDup (rtasks (s_ring s));
  inv_ring_in : forall i, In i (rtasks (s_ring s)) -> phase_at s i PRing;
  inv_shape : shape_ok (s_ring s) = true;
  inv_idle : s_dpc s = DIdle -> ~ In IStop (s_ring s);
  inv_flags : flags_ok intr s
}.
Arguments inv_intr {intr s}.
Arguments inv_tasks {intr s} _ {i t}.
Arguments inv_workers {intr s} _ {w k}.
Arguments inv_ring_nodup {intr s}.
Arguments inv_ring_in {intr s} _ {i}.
Arguments inv_shape {intr s}.
Arguments inv_idle {intr s}.
Arguments inv_flags {intr s}.

Lemma init_inv inline cap no nj intr : Inv intr (init inline cap no nj intr).
Proof.
  constructor; simpl; auto; try (repeat split; auto; fail).
  - intros [|i] t H; discriminate.
  - intros w k H. unfold getw in H; simpl in H. apply nth_error_In, in_app_or in H.
    destruct H as [H|H]; apply repeat_spec in H; subst k; repeat split; auto; discriminate.
  - constructor.
  - intros i [].
Qed.

Lemma gett_modt s i f j : gett (modt s i f) j = if Nat.eqb j i then option_map f (gett s i) else gett s j.
Proof. apply nth_error_modn. Qed.
Lemma getw_modw s w f v : getw (modw s w f) v = if Nat.eqb v w then option_map f (getw s w) else getw s v.
Proof. unfold getw, modw. simpl. apply nth_error_modn. Qed.

Lemma disp_at_spec s w k : disp_at s w = Some k -> getw s w = Some k /\ w_cur k = None.
Proof. unfold disp_at. destruct (getw s w) as [k'|]; try discriminate. destruct (w_cur k') eqn:E; try discriminate. intros H; injection H as <-; auto. Qed.
Lemma owns_spec s w i : owns s w i = true -> exists k, getw s w = Some k /\ w_cur k = Some i.
Proof. unfold owns. destruct (getw s w) as [k|]; try discriminate. destruct (w_cur k) as [j|] eqn:E; try discriminate.
  intros H. apply Nat.eqb_eq in H; subst. eauto. Qed.

Lemma placed_frame s s' i p :
  placed s i p -> s_inline s' = s_inline s ->
  (forall w, pw p = Some w -> getw s' w = getw s w) ->
  (In i (rtasks (s_ring s)) -> In i (rtasks (s_ring s'))) ->
  placed s' i p.
Proof. unfold placed. intros H Hi Hw Hr. rewrite Hi. destruct (pw p) as [w|]; [rewrite (Hw w eq_refl)|]; auto. Qed.

Lemma worker_ok_frame s s' v k :
  worker_ok s v k ->
  count_exec v (s_tasks s') = count_exec v (s_tasks s) ->
  (s_dpc s' = DDone -> s_dpc s = DDone \/ w_reg k = false) ->
  (s_dpc s' = DIdle -> s_dpc s = DIdle) ->
  (s_dpc s <> DIdle -> rtasks (s_ring s) = [] -> rtasks (s_ring s') = []) ->
  (forall i, w_pc k = WGot (ITask i) -> phase_at s i (PGot v) -> phase_at s' i (PGot v)) ->
  worker_ok s' v k.
Proof.
  intros (A & B & C & D & F) Hc Hd Hn Hr HP. unfold worker_ok. rewrite Hc. do 4 (split; auto).
  - intros X. destruct (Hd X); auto.
  - destruct (w_pc k) as [| |[j|]| | | |]; auto; destruct F; auto.
Qed.

(* all phases after the copy ask the same of the worker; PNew asks more *)
Lemma tw_at_exw inl i p k w : exw w p = true -> tw_at inl i p k -> inl = true -> w_pc k = WInline i.
Proof. destruct p; simpl; try discriminate; tauto. Qed.
Lemma tw_at_helper inl i p k w :
  exw w p = true -> (forall v, p <> PNew v) -> (inl = true -> w_pc k = WInline i) -> tw_at inl i p k.
Proof. destruct p; simpl; try discriminate; auto. intros _ N. exfalso; eapply N; eauto. Qed.
(* a dispatcher that owns its vCPU, outside the window WCreated / WInline, is linked only to the task in its local *)
Lemma tw_at_disp inl j p k k' :
  w_cur k = None -> (forall i, w_pc k <> WCreated i /\ w_pc k <> WInline i) -> w_pc k <> WGot (ITask j) ->
  tw_at inl j p k -> tw_at inl j p k'.
Proof.
  intros CU N NG. destruct p; simpl; auto; try contradiction; try (intros X Y; destruct (N j) as [_ []]; auto).
  intros (_ & [X|[_ X]] & _); [congruence | destruct (N j) as [[] _]; auto].
Qed.

(* while thread i owns the vCPU, the other threads of the worker are linked to it through its pc only *)
Lemma tw_at_owned inl i j p k k' :
  w_cur k = Some i -> j <> i -> w_pc k' = w_pc k \/ w_pc k = WInline i -> tw_at inl j p k -> tw_at inl j p k'.
Proof.
  intros CU NE PC. destruct p; simpl; auto; try (intros X Y; specialize (X Y)); try intros X; try (destruct PC as [->|Z]; congruence).
  destruct X as (_ & [X|[X _]] & _); congruence.
Qed.

(* inversion of `step s l = Some s'`: one case split per guard of the branch of `step`, dead branches closed *)
Ltac brk H :=
  simpl in H;
  repeat match type of H with
  | match ?x with _ => _ end = Some _ => let E := fresh "E" in destruct x eqn:E; try discriminate H
  | (if ?x then _ else _) = Some _ => let E := fresh "E" in destruct x eqn:E; try discriminate H
  end.

(* one task record changes: its phase stays, or the task moves on inside its life on worker w *)
Lemma inv_task intr s s' i t f :
  Inv intr s -> gett s i = Some t ->
  s_tasks s' = modn (s_tasks s) i f -> s_ring s' = s_ring s -> s_workers s' = s_workers s -> s_dpc s' = s_dpc s ->
  s_inline s' = s_inline s -> s_intr s' = s_intr s -> flags_ok intr s' ->
  task_ok intr i (f t) ->
  t_phase (f t) = t_phase t \/
  (exists w, exw w (t_phase t) = true /\ exw w (t_phase (f t)) = true /\ forall v, t_phase (f t) <> PNew v) ->
  Inv intr s'.
Proof.
  intros I G Ht Hr Hw Hd Hi Hn HF TO HP.
  assert (Gt : forall j, gett s' j = if Nat.eqb j i then Some (f t) else gett s j).
  { intros j. unfold gett. rewrite Ht, nth_error_modn. fold (gett s i). rewrite G. reflexivity. }
  assert (K : forall j p, (t_phase t = p -> t_phase (f t) = p) -> phase_at s j p -> phase_at s' j p).
  { intros j p X (tj & Gj & Pj). unfold phase_at. rewrite Gt. destruct (Nat.eqb_spec j i) as [->|]; eauto.
    rewrite G in Gj; injection Gj as <-. eauto. }
  destruct (inv_tasks I G) as [_ PL].
  assert (PL' : placed s i (t_phase (f t)) /\ (forall v, exw v (t_phase (f t)) = exw v (t_phase t)) /\
                forall p, p = PRing \/ (exists v, p = PGot v) -> t_phase t = p -> t_phase (f t) = p).
  { destruct HP as [E | (w & E1 & E2 & NN)].
    - rewrite E. auto.
    - unfold placed in *. rewrite (exw_pw _ _ E1) in PL. rewrite (exw_pw _ _ E2). destruct PL as (k & Gk & TA). repeat split.
      + exists k. split; auto. eapply tw_at_helper; eauto using tw_at_exw.
      + intros v. rewrite (exw_eq _ _ v E1), (exw_eq _ _ v E2). reflexivity.
      + intros p [->|[v ->]] X; rewrite X in E1; discriminate. }
  destruct PL' as (PL' & EX & KP).
  constructor; rewrite ?Hr, ?Hd; try apply I; auto.
  - rewrite Hn. apply I.
  - intros j tj H. rewrite Gt in H. destruct (Nat.eqb_spec j i) as [->|].
    + injection H as <-. split; auto. eapply placed_frame; eauto; intros; unfold getw; rewrite ?Hw, ?Hr; auto.
    + destruct (inv_tasks I H). split; auto. eapply placed_frame; eauto; intros; unfold getw; rewrite ?Hw, ?Hr; auto.
  - intros w k H. unfold getw in H; rewrite Hw in H. apply (worker_ok_frame s); auto using (inv_workers I); rewrite ?Hd, ?Hr; eauto.
    assert (X := count_exec_modn w _ _ _ f G). rewrite <- Ht, EX in X. lia.
  - intros j H. apply K; eauto. apply (inv_ring_in I H).
Qed.

Lemma inv_return intr s i s' : Inv intr s -> step s (LReturn i) = Some s' -> Inv intr s'.
Proof.
  intros I H. brk H. injection H as <-.
  apply andb_prop in E0 as [E0 _]. apply andb_prop in E0 as [C S].
  destruct (inv_tasks I E) as [(A & _) _].
  apply (inv_task intr s _ i t set_ret I E); try reflexivity; auto; [exact (inv_flags I)|].
  split; simpl; auto.
Qed.

Lemma inv_interrupt intr s i s' : Inv intr s -> step s (LIntr i) = Some s' -> Inv intr s'.
Proof.
  intros I H. brk H. destruct (s_intr s) eqn:SI; [|injection H as <-; exact I]. injection H as <-.
  apply andb_prop in E0 as [C _]. destruct (inv_tasks I E) as [(A & _) _].
  apply (inv_task intr s _ i t set_ret I E); try reflexivity; auto; [exact (inv_flags I)|].
  split; simpl; auto. split; auto. intros X. rewrite <- (inv_intr I), SI in X. discriminate.
Qed.

Lemma inv_copy intr s i s' : Inv intr s -> step s (LCopy i) = Some s' -> Inv intr s'.
Proof.
  intros I H. brk H; destruct (inv_tasks I E) as [TO PL]; unfold placed in PL; rewrite E0 in PL;
    destruct PL as (k & Gk & SL & _); rewrite Gk in E2; injection E2 as <-; rewrite SL in E3; try discriminate.
  injection E3 as <-. injection H as <-.
  apply (inv_task intr s _ i t (fun t => set_phase t (PCopied w i)) I E); try reflexivity.
  - destruct (inv_flags I) as (A & B). split; simpl; auto. rewrite A, Nat.eqb_refl. auto.
  - unfold task_ok in *. rewrite E0 in TO. simpl. tauto.
  - right. exists w. rewrite E0. simpl. rewrite Nat.eqb_refl. repeat split; discriminate.
Qed.

Lemma inv_start intr s i s' : Inv intr s -> step s (LStart i) = Some s' -> Inv intr s'.
Proof.
  intros I H. brk H. injection H as <-. destruct (inv_tasks I E) as [TO _].
  unfold task_ok in TO. rewrite E0 in TO. destruct TO as ((-> & R & F & D & SG) & RS & RC).
  rewrite E in E2; injection E2 as <-.
  apply (inv_task intr s _ i t (fun x => set_phase (inc_runs x) (PBody w i)) I E); try reflexivity.
  - apply modn_modn.
  - destruct (inv_flags I) as (A & B & C & U). repeat split; auto. intros X. simpl. rewrite (U X).
    destruct (t_ret t) eqn:RT; [|apply andb_false_r]. rewrite (RS X eq_refl) in SG. discriminate.
  - unfold task_ok. simpl. rewrite R. tauto.
  - right. exists w. rewrite E0. simpl. rewrite Nat.eqb_refl. repeat split; discriminate.
Qed.

Lemma inv_finish intr s i s' : Inv intr s -> step s (LFinish i) = Some s' -> Inv intr s'.
Proof.
  intros I H. brk H. injection H as <-. destruct (inv_tasks I E) as [TO _].
  unfold task_ok in TO. rewrite E0 in TO. destruct TO as ((-> & R & F & D & SG) & RS & RC).
  apply (inv_task intr s _ i t (fun x => set_phase (inc_fin x) (PFin w i)) I E); try reflexivity.
  - apply modn_modn.
  - exact (inv_flags I).
  - unfold task_ok. simpl. rewrite F. tauto.
  - right. exists w. rewrite E0. simpl. rewrite Nat.eqb_refl. repeat split; discriminate.
Qed.

Lemma inv_signal intr s i s' : Inv intr s -> step s (LSignal i) = Some s' -> Inv intr s'.
Proof.
  intros I H. brk H. injection H as <-. destruct (inv_tasks I E) as [TO _].
  unfold task_ok in TO. rewrite E0 in TO. destruct TO as ((-> & R & F & D & SG) & RS & RC).
  rewrite E in E2; injection E2 as <-.
  apply (inv_task intr s _ i t (fun x => set_phase (set_sig x) (PPost w i)) I E); try reflexivity.
  - apply modn_modn.
  - destruct (inv_flags I) as (A & B & C & U). repeat split; auto. intros X. simpl. rewrite (U X).
    destruct (t_ret t) eqn:RT; auto. rewrite (RS X eq_refl) in SG. discriminate.
  - unfold task_ok. simpl. rewrite E3. tauto.
  - right. exists w. rewrite E0. simpl. rewrite Nat.eqb_refl. repeat split; discriminate.
Qed.

Lemma inv_delete intr s i s' : Inv intr s -> step s (LDelete i) = Some s' -> Inv intr s'.
Proof.
  intros I H. brk H. injection H as <-. destruct (inv_tasks I E) as [TO _].
  unfold task_ok in TO. rewrite E0 in TO. destruct TO as ((-> & R & F & D & SG) & RS & RC).
  rewrite E in E2; injection E2 as <-.
  apply (inv_task intr s _ i t (fun x => set_phase (inc_del x) (PPost w i)) I E); try reflexivity.
  - apply modn_modn.
  - exact (inv_flags I).
  - unfold task_ok. simpl. rewrite D, E3. intuition congruence.
  - right. exists w. rewrite E0. simpl. rewrite Nat.eqb_refl. repeat split; discriminate.
Qed.

Lemma inv_worker intr s s' w k g :
  Inv intr s -> getw s w = Some k ->
  s_workers s' = modn (s_workers s) w g -> s_tasks s' = s_tasks s -> s_ring s' = s_ring s -> s_dpc s' = s_dpc s ->
  s_inline s' = s_inline s -> s_intr s' = s_intr s -> flags_ok intr s' ->
  worker_ok s w (g k) ->
  (forall i t, gett s i = Some t -> pw (t_phase t) = Some w ->
               tw_at (s_inline s) i (t_phase t) k -> tw_at (s_inline s) i (t_phase t) (g k)) ->
  Inv intr s'.
Proof.
  intros I G Hw Ht Hr Hd Hi Hn HF WK HT.
  assert (Gw : forall v, getw s' v = if Nat.eqb v w then Some (g k) else getw s v).
  { intros v. unfold getw. rewrite Hw, nth_error_modn. fold (getw s w). rewrite G. reflexivity. }
  assert (FR : forall v kv, worker_ok s v kv -> worker_ok s' v kv).
  { intros v kv X. apply (worker_ok_frame s); auto; rewrite ?Ht, ?Hd, ?Hr; auto. unfold phase_at, gett. rewrite Ht. auto. }
  constructor; rewrite ?Hr, ?Hd; try apply I; auto.
  - rewrite Hn. apply I.
  - intros j t H. unfold gett in H; rewrite Ht in H. destruct (inv_tasks I H) as [TO PL]. split; auto.
    unfold placed in *. rewrite Hi, Hr. destruct (pw (t_phase t)) as [v|] eqn:P; auto. rewrite Gw.
    destruct (Nat.eqb_spec v w) as [->|]; auto. destruct PL as (k0 & G0 & TA). rewrite G in G0; injection G0 as <-. eauto.
  - intros v kv H. rewrite Gw in H. apply FR. destruct (Nat.eqb_spec v w) as [->|]; [injection H as <-; auto | apply (inv_workers I H)].
  - intros j H. unfold phase_at, gett. rewrite Ht. apply (inv_ring_in I H).
Qed.

Lemma inv_register intr s w s' : Inv intr s -> step s (LRegister w) = Some s' -> Inv intr s'.
Proof.
  intros I H. brk H. injection H as <-. apply disp_at_spec in E as [G CU].
  destruct (inv_workers I G) as (A & B & C & D & F).
  eapply (inv_worker _ _ _ _ _ _ I G); try reflexivity; [exact (inv_flags I) | |].
  - unfold worker_ok; simpl. rewrite E1 in *. simpl in *. repeat split; auto; congruence.
  - intros i t _ _. apply tw_at_disp; auto; rewrite E1; try split; discriminate.
Qed.

Lemma inv_yieldto intr s w s' : Inv intr s -> step s (LYieldTo w) = Some s' -> Inv intr s'.
Proof.
  intros I H. brk H. injection H as <-. apply disp_at_spec in E as [G CU].
  destruct (inv_workers I G) as (A & B & C & D & _).
  eapply (inv_worker _ _ _ _ _ _ I G); try reflexivity; [exact (inv_flags I) | |].
  - unfold worker_ok; simpl. rewrite E0 in *. simpl in *. repeat split; auto.
  - intros j t _ _. unfold tw_at. rewrite E0. destruct (t_phase t); simpl; auto; try discriminate;
      try (intros X Y; discriminate (X Y)).
    intros (S1 & [X|[_ X]] & Z); [congruence|]. injection X as <-. repeat split; auto. intros Y; discriminate (Z Y).
Qed.

Lemma inv_stop intr s w s' : Inv intr s -> step s (LStop w) = Some s' -> Inv intr s'.
Proof.
  intros I H. brk H. injection H as <-. apply disp_at_spec in E as [G CU].
  destruct (inv_workers I G) as (A & B & C & D & F).
  eapply (inv_worker _ _ _ _ _ _ I G); try reflexivity; [exact (inv_flags I) | |].
  - unfold worker_ok; simpl. rewrite E0 in *. simpl in *. repeat split; auto; tauto.
  - intros j t _ _. apply tw_at_disp; auto; rewrite E0; try split; discriminate.
Qed.

Lemma inv_drained intr s w s' : Inv intr s -> step s (LDrained w) = Some s' -> Inv intr s'.
Proof.
  intros I H. brk H. injection H as <-. apply disp_at_spec in E as [G CU].
  destruct (inv_workers I G) as (A & B & C & D & F). apply Nat.eqb_eq in E1.
  eapply (inv_worker _ _ _ _ _ _ I G); try reflexivity; [exact (inv_flags I) | |].
  - unfold worker_ok; simpl. rewrite E0 in *. simpl in *. repeat split; auto; tauto.
  - intros j t _ _. apply tw_at_disp; auto; rewrite E0; try split; discriminate.
Qed.

(* at a switching point no thread of the vCPU is still in PNew: such a thread is either the yield_to target of a
   dispatcher at WCreated, or owns the vCPU *)
Lemma inv_yield intr s w tgt s' : Inv intr s -> step s (LYield w tgt) = Some s' -> Inv intr s'.
Proof.
  intros I H. brk H. injection H as <-. rename E into G. apply andb_prop in E0 as [AS _].
  eapply (inv_worker _ _ _ _ _ _ I G); try reflexivity; [exact (inv_flags I) | exact (inv_workers I G) |].
  intros j t Gt P. unfold tw_at. simpl. destruct (t_phase t) eqn:PH; simpl; auto.
  intros (_ & DJ & _). exfalso. unfold at_switch in AS.
  destruct (w_cur w0) as [i0|] eqn:CU.
  - destruct DJ as [X|[X _]]; [injection X as -> | discriminate]. rewrite Gt, PH in AS. discriminate.
  - destruct DJ as [X|[_ X]]; [discriminate | rewrite X in AS; discriminate].
Qed.

(* tasks and workers untouched: a step of the destructor, or a stop marker leaving the ring *)
Lemma inv_ring intr s s' :
  Inv intr s ->
  s_tasks s' = s_tasks s -> s_workers s' = s_workers s -> s_inline s' = s_inline s -> s_intr s' = s_intr s ->
  rtasks (s_ring s') = rtasks (s_ring s) -> shape_ok (s_ring s') = true ->
  (s_dpc s' = DIdle -> s_dpc s = DIdle /\ ~ In IStop (s_ring s')) ->
  (s_dpc s' = DDone -> s_dpc s = DDone \/ forall w k, getw s w = Some k -> w_reg k = false) ->
  flags_ok intr s' -> Inv intr s'.
Proof.
  intros I Ht Hw Hi Hn Hr Hs Hd HD HF.
  constructor; rewrite ?Hr; try apply I; auto.
  - rewrite Hn. apply I.
  - intros j t H. unfold gett in H; rewrite Ht in H. destruct (inv_tasks I H) as [TO PL]. split; auto.
    apply (placed_frame s); auto; intros; unfold getw; rewrite ?Hw, ?Hr; auto.
  - intros w k H. unfold getw in H; rewrite Hw in H.
    apply (worker_ok_frame s); auto using (inv_workers I); rewrite ?Ht, ?Hr; auto.
    + intros X. destruct (HD X); eauto.
    + apply Hd.
    + unfold phase_at, gett. rewrite Ht. auto.
  - intros j H. unfold phase_at, gett. rewrite Ht. apply (inv_ring_in I H).
  - apply Hd.
Qed.

Lemma inv_dbegin intr s s' : Inv intr s -> step s LDBegin = Some s' -> Inv intr s'.
Proof.
  intros I H. brk H. injection H as <-.
  apply (inv_ring intr s); auto; try discriminate; apply I.
Qed.

Lemma inv_dpush intr s s' : Inv intr s -> step s LDPush = Some s' -> Inv intr s'.
Proof.
  intros I H. brk H. injection H as <-.
  apply (inv_ring intr s); auto; try discriminate; simpl.
  - rewrite rtasks_app. apply app_nil_r.
  - apply shape_app_stop, I.
  - apply I.
Qed.

Lemma inv_dfinal intr s s' : Inv intr s -> step s LDFinal = Some s' -> Inv intr s'.
Proof.
  intros I H. brk H. injection H as <-.
  apply (inv_ring intr s); auto; try discriminate; try apply I.
  intros _. right. intros w k G. apply nth_error_In in G.
  rewrite forallb_forall in E1. apply E1 in G. destruct (w_reg k); auto; discriminate.
Qed.

Lemma inv_pop_stop intr s r : Inv intr s -> s_ring s = IStop :: r -> Inv intr (set_ring s r).
Proof.
  intros I R. assert (S := inv_shape I). assert (N := inv_idle I). rewrite R in S, N.
  apply (inv_ring intr s); auto; simpl; try apply I.
  - rewrite R. reflexivity.
  - apply (shape_tail _ _ S).
  - intros X. destruct (N X). simpl; auto.
Qed.

(* task i and worker w change together (recv of a task, dispatch, helper exit): the task comes from the head of
   the ring or from w, and goes to w or to PDone *)
Lemma inv_tw intr s s' i t f w k g :
  Inv intr s -> gett s i = Some t -> getw s w = Some k ->
  s_tasks s' = modn (s_tasks s) i f -> s_workers s' = modn (s_workers s) w g ->
  s_dpc s' = s_dpc s -> s_inline s' = s_inline s -> s_intr s' = s_intr s -> flags_ok intr s' ->
  (t_phase t = PRing /\ s_ring s = ITask i :: s_ring s') \/ (pw (t_phase t) = Some w /\ s_ring s' = s_ring s) ->
  task_ok intr i (f t) ->
  t_phase (f t) = PDone \/ (pw (t_phase (f t)) = Some w /\ tw_at (s_inline s) i (t_phase (f t)) (g k)) ->
  (forall j tj, j <> i -> gett s j = Some tj -> pw (t_phase tj) = Some w ->
                tw_at (s_inline s) j (t_phase tj) k -> tw_at (s_inline s) j (t_phase tj) (g k)) ->
  worker_ok s' w (g k) ->
  Inv intr s'.
Proof.
  intros I G Gk Ht Hw Hd Hi Hn HF FROM TO PL OT WK.
  assert (Gt : forall j, gett s' j = if Nat.eqb j i then Some (f t) else gett s j).
  { intros j. unfold gett. rewrite Ht, nth_error_modn. fold (gett s i). rewrite G. reflexivity. }
  assert (Gw : forall v, getw s' v = if Nat.eqb v w then Some (g k) else getw s v).
  { intros v. unfold getw. rewrite Hw, nth_error_modn. fold (getw s w). rewrite Gk. reflexivity. }
  assert (RG : NoDup (rtasks (s_ring s')) /\ shape_ok (s_ring s') = true /\ ~ In i (rtasks (s_ring s')) /\
               (forall x, In x (s_ring s') -> In x (s_ring s)) /\ (rtasks (s_ring s) = [] -> rtasks (s_ring s') = []) /\
               (forall j, j <> i -> In j (rtasks (s_ring s)) -> In j (rtasks (s_ring s')))).
  { assert (N := inv_ring_nodup I). assert (S := inv_shape I). destruct FROM as [[P R]|[P R]].
    - rewrite R in *. simpl in N. inversion N; subst. repeat split; simpl; auto; try discriminate.
      intros j NE [X|X]; congruence.
    - rewrite R. repeat split; auto. intros X. destruct (inv_ring_in I X) as (t1 & G1 & P1).
      rewrite G in G1; injection G1 as <-. rewrite P1 in P. discriminate. }
  destruct RG as (ND & SH & NI & RS & RN & RK).
  assert (PW : pw (t_phase t) = Some w \/ pw (t_phase t) = None) by (destruct FROM as [[P _]|[P _]]; rewrite P; auto).
  assert (PW' : pw (t_phase (f t)) = Some w \/ pw (t_phase (f t)) = None) by (destruct PL as [P|[P _]]; rewrite P; auto).
  constructor; auto.
  - rewrite Hn. apply I.
  - intros j tj H. rewrite Gt in H. destruct (Nat.eqb_spec j i) as [->|NE].
    + injection H as <-. split; auto. unfold placed.
      destruct PL as [->|[-> TA]]; [discriminate|]. rewrite Hi, Gw, Nat.eqb_refl. eauto.
    + destruct (inv_tasks I H) as [TOj PLj]. split; auto. unfold placed in *. rewrite Hi.
      destruct (pw (t_phase tj)) as [v|] eqn:P; [rewrite Gw | auto].
      destruct (Nat.eqb_spec v w) as [->|]; auto. destruct PLj as (k0 & G0 & TA). rewrite Gk in G0; injection G0 as <-. eauto.
  - intros v kv H. rewrite Gw in H. destruct (Nat.eqb_spec v w) as [->|NE]; [injection H as <-; auto|].
    apply (worker_ok_frame s); auto using (inv_workers I); rewrite ?Hd; auto.
    + assert (X := count_exec_modn v _ _ _ f G). rewrite <- Ht, (exw_off v w), (exw_off v w) in X; auto. lia.
    + intros j _ (tj & Gj & Pj). unfold phase_at. rewrite Gt. destruct (Nat.eqb_spec j i) as [->|]; eauto.
      rewrite G in Gj; injection Gj as <-. rewrite Pj in PW. simpl in PW. destruct PW; congruence.
  - intros j H. destruct (Nat.eq_dec j i) as [->|NE]; [contradiction|].
    apply in_rtasks, RS, in_rtasks in H. destruct (inv_ring_in I H) as (tj & Gj & Pj).
    exists tj. rewrite Gt. destruct (Nat.eqb_spec j i); [contradiction | auto].
  - rewrite Hd. intros X Y. apply (inv_idle I X). auto.
Qed.

Lemma inv_recv intr s w s' : Inv intr s -> step s (LRecv w) = Some s' -> Inv intr s'.
Proof.
  intros I H. brk H. apply disp_at_spec in E as [G CU]. rename E0 into R, E1 into P.
  destruct (inv_workers I G) as (A & B & C & D & _).
  assert (FL : flags_ok intr (or_ringuaf s (match s_dpc s with DDone => true | _ => false end))).
  { destruct (inv_flags I) as (X1 & X2 & X3 & X4). repeat split; auto. simpl. rewrite X3.
    destruct (s_dpc s) eqn:X; auto. rewrite P, D in A; auto; discriminate. }
  assert (OT : forall j tj, tw_at (s_inline s) j (t_phase tj) w0 -> tw_at (s_inline s) j (t_phase tj) (set_wpc w0 (WGot i))).
  { intros j tj. apply tw_at_disp; auto; rewrite P; try split; discriminate. }
  destruct i as [i|]; injection H as <-.
  - assert (IN : In i (rtasks (s_ring s))) by (rewrite R; simpl; auto).
    destruct (inv_ring_in I IN) as (t & Gt & PH). destruct (inv_tasks I Gt) as [TO _].
    eapply (inv_tw _ _ _ _ _ _ _ _ _ I Gt G); try reflexivity; auto.
    + unfold task_ok in *. rewrite PH in TO. exact TO.
    + right. split; reflexivity.
    + unfold worker_ok; simpl. rewrite P in *. repeat split; auto.
      * rewrite B. assert (Y := count_exec_modn w _ _ _ (fun t => set_phase t (PGot w)) Gt). rewrite PH in Y. simpl in Y. lia.
      * unfold phase_at. rewrite gett_modt, Nat.eqb_refl. unfold gett in *. simpl. rewrite Gt. simpl. eauto.
  - assert (S := inv_shape I). rewrite R in S.
    eapply (inv_worker _ _ _ _ _ _ (inv_pop_stop _ _ _ I R) G); try reflexivity; auto.
    unfold worker_ok; simpl. rewrite P in *. repeat split; auto using only_stops_rtasks.
    intros X. apply (inv_idle I X). rewrite R. simpl; auto.
Qed.

Lemma inv_dispatch intr s w s' : Inv intr s -> step s (LDispatch w) = Some s' -> Inv intr s'.
Proof.
  intros I H. brk H. injection H as <-. apply disp_at_spec in E as [G CU]. rename E0 into P, E2 into Gt.
  destruct (inv_workers I G) as (A & B & C & D & F). rewrite P in F. destruct F as (t0 & F1 & PH).
  rewrite Gt in F1; injection F1 as <-. destruct (inv_tasks I Gt) as [TO _].
  eapply (inv_tw _ _ _ _ _ _ _ _ _ I Gt G); try reflexivity; try exact (inv_flags I).
  - right. rewrite PH. auto.
  - unfold task_ok in *. rewrite PH in TO. exact TO.
  - right. split; [reflexivity|]. destruct (s_inline s); simpl; repeat split; auto; discriminate.
  - intros j tj NE _ _. apply tw_at_disp; auto; rewrite P; try split; try discriminate. congruence.
  - assert (Y := count_exec_modn w _ _ _ (fun t => set_phase t (PNew w)) Gt). rewrite PH in Y. simpl in Y.
    rewrite Nat.eqb_refl in Y. simpl in Y.
    assert (GT' : phase_at (modt s i (fun t => set_phase t (PNew w))) i (PNew w)).
    { unfold phase_at. rewrite gett_modt, Nat.eqb_refl, Gt. simpl. eauto. }
    unfold worker_ok. rewrite P in *. simpl in *.
    destruct (s_inline s) eqn:IL; simpl; repeat split; auto; try discriminate; lia.
Qed.

Lemma inv_dec intr s i tgt s' : Inv intr s -> step s (LDec i tgt) = Some s' -> Inv intr s'.
Proof.
  intros I H. brk H. injection H as <-. rename E into Gt, E0 into PH, E2 into G.
  apply owns_spec in E1 as (k0 & G0 & CU). rewrite G in G0; injection G0 as <-.
  destruct (inv_tasks I Gt) as [TO PL]. unfold placed in PL. rewrite PH in PL. simpl in PL.
  destruct PL as (k0 & G0 & TA). rewrite G in G0; injection G0 as <-.
  destruct (inv_workers I G) as (A & B & C & D & F).
  assert (POS : 1 <= w_running w0).
  { rewrite B. apply (count_exec_pos w _ _ _ Gt). rewrite PH. simpl. apply Nat.eqb_refl. }
  assert (NOUT : is_out (w_pc w0) = false).
  { destruct (is_out (w_pc w0)) eqn:X; auto. rewrite C in POS; auto. lia. }
  eapply (inv_tw _ _ _ _ _ _ _ _ _ I Gt G); try reflexivity; auto.
  - destruct (inv_flags I) as (X1 & X2 & X3 & X4). repeat split; auto. simpl. rewrite X2, NOUT. simpl. apply Nat.eqb_neq. lia.
  - right. rewrite PH. auto.
  - unfold task_ok in *. rewrite PH in TO. simpl. tauto.
  - intros j tj NE _ _. apply (tw_at_owned _ i); auto. simpl. destruct (s_inline s); auto.
  - assert (Y := count_exec_modn w _ _ _ (fun t => set_phase t PDone) Gt). rewrite PH in Y. simpl in Y.
    rewrite Nat.eqb_refl in Y. simpl in Y.
    assert (KP : forall j p, p <> PPost w rec -> phase_at s j p -> phase_at (modt s i (fun t => set_phase t PDone)) j p).
    { intros j p NP (tj & Gj & Pj). unfold phase_at. rewrite gett_modt. destruct (Nat.eqb_spec j i) as [->|]; eauto.
      rewrite Gt in Gj; injection Gj as <-. congruence. }
    unfold worker_ok. simpl. destruct (s_inline s) eqn:IL; simpl.
    + repeat split; auto; try lia. rewrite A, NOUT. reflexivity.
    + repeat split; auto; try lia.
      * rewrite NOUT. discriminate.
      * destruct (w_pc w0) as [| |[j|]| | | |]; auto. apply KP; auto; discriminate.
Qed.

Lemma inv_submit intr s c s' : Inv intr s -> step s (LSubmit c) = Some s' -> Inv intr s'.
Proof.
  intros I H. brk H. injection H as <-. rename E into DI.
  set (n := length (s_tasks s)). set (nt := mkTask c PRing 0 0 0 false false). set (s' := set_ring _ _).
  assert (Gt : forall j, gett s' j = if Nat.eqb j n then Some nt else gett s j).
  { intros j. unfold gett, s', n; simpl. generalize (s_tasks s). induction j; intros [|a l]; simpl; auto. destruct j; auto. }
  assert (LT : forall j p, phase_at s j p -> phase_at s' j p).
  { intros j p (t & X & Y). exists t. rewrite Gt. destruct (Nat.eqb_spec j n) as [->|]; auto.
    unfold gett, n in X. rewrite (proj2 (nth_error_None _ _) (le_n _)) in X. discriminate. }
  assert (RI : forall j, In j (rtasks (s_ring s)) -> In j (rtasks (s_ring s'))).
  { intros j X. unfold s'; simpl. rewrite rtasks_app. apply in_or_app; auto. }
  constructor; try apply I.
  - intros j t X. rewrite Gt in X. destruct (Nat.eqb_spec j n) as [->|].
    + injection X as <-. split; [repeat split; auto; discriminate|]. intros _. unfold s'; simpl. rewrite rtasks_app. apply in_or_app; simpl; auto.
    + destruct (inv_tasks I X). split; auto. apply (placed_frame s); auto.
  - intros w k X. apply (worker_ok_frame s); auto using (inv_workers I).
    + unfold s', count_exec; simpl. rewrite filter_app, app_length. simpl. lia.
    + intros []; exact DI.
  - unfold s'; simpl. rewrite rtasks_app. apply (NoDup_Add (Add_app n _ [])). rewrite app_nil_r. split; [apply I|].
    intros X. destruct (inv_ring_in I X) as (t & X1 & _). unfold gett, n in X1. rewrite (proj2 (nth_error_None _ _) (le_n _)) in X1. discriminate.
  - intros j X. unfold s' in X; simpl in X. rewrite rtasks_app in X. apply in_app_or in X as [X|[<-|[]]].
    + apply LT, (inv_ring_in I X).
    + exists nt. rewrite Gt, Nat.eqb_refl. auto.
  - apply shape_app_task; [apply I | apply (inv_idle I DI)].
  - intros _ X. apply in_app_or in X as [X|[X|[]]]; [apply (inv_idle I DI X) | discriminate].
Qed.

Theorem step_inv intr s l s' : Inv intr s -> step s l = Some s' -> Inv intr s'.
Proof.
  intros I H.
  destruct l; [eapply inv_submit | eapply inv_return | eapply inv_interrupt | eapply inv_register | eapply inv_recv
    | eapply inv_dispatch | eapply inv_yieldto | eapply inv_stop | eapply inv_drained | eapply inv_yield | eapply inv_copy
    | eapply inv_start | eapply inv_finish | eapply inv_signal | eapply inv_delete | eapply inv_dec | eapply inv_dbegin
    | eapply inv_dpush | eapply inv_dfinal]; eassumption.
Qed.

Definition reachable (s0 s : state) : Prop := exists ls, run s0 ls = Some s.

Theorem reachable_inv inline cap no nj intr s : reachable (init inline cap no nj intr) s -> Inv intr s.
Proof.
  intros [ls H]. revert H. generalize (init_inv inline cap no nj intr). generalize (init inline cap no nj intr).
  induction ls as [|l ls IH]; simpl; intros s0 I H.
  - injection H as <-. auto.
  - destruct (step s0 l) as [s1|] eqn:E; try discriminate. eauto using step_inv.
Qed.

Lemma running_pos intr s i t w : Inv intr s -> gett s i = Some t -> exw w (t_phase t) = true ->
  exists k, getw s w = Some k /\ 1 <= w_running k.
Proof.
  intros I G E. destruct (inv_tasks I G) as [_ PL]. unfold placed in PL. rewrite (exw_pw _ _ E) in PL.
  destruct PL as (k & Gk & _). exists k. split; auto.
  destruct (inv_workers I Gk) as (_ & -> & _). apply (count_exec_pos w _ _ _ G E).
Qed.

Definition witness_intr : list label := [LSubmit true; LIntr 0].
Definition witness_uaf : list label :=
  [LSubmit true; LIntr 0; LRecv 0; LDispatch 0; LYieldTo 0; LCopy 0; LStart 0].
Definition witness_noworker : list label := [LSubmit false; LDBegin; LDFinal].

(* a non-trivial reachable state meeting the hypotheses of destroy_waits: one worker, two tasks, mode 0 *)
Definition sample_run : list label :=
  [LSubmit true; LSubmit false; LRecv 0; LDispatch 0; LYieldTo 0; LCopy 0; LStart 0; LYield 0 None;
   LDBegin; LRecv 0; LDispatch 0; LYieldTo 0; LCopy 1; LStart 1; LFinish 1; LDelete 1; LDec 1 (Some 0);
   LFinish 0; LSignal 0; LDec 0 None; LReturn 0; LDPush; LRecv 0; LStop 0; LDrained 0].
Example sample_reachable :
  exists s s', run (init false 2 1 0 false) sample_run = Some s /\ step s LDFinal = Some s' /\
               (exists w k, getw s w = Some k /\ w_pc k <> WReg) /\ length (s_tasks s) = 2.
Proof. eexists; eexists; vm_compute; repeat split; try reflexivity. exists 0, (mkWorker WExit (Some 1) 0 false None). split; [reflexivity|discriminate]. Qed.
