(* C09_TimeProofs.v — "false only because of an expired timeout": every RTimeout result of send/recv
   (unbuffered: both code variants; buffered: both code variants) was produced at a moment when the call's Timeout
   had expired, for every schedule and every timing.  Invariants over the FULL states (wake state, ts_wakeup). *)
From Coq Require Import ZArith List Bool Lia.
From PV Require Import Base.U64 C09.C09_Common C09.C09_Unbuf C09.C09_Buf C09.C09_BufProofs C09.C09_UnbufStep C09.C09_UnbufProofs.
Import ListNotations.
Local Open Scope Z_scope.

Lemma expired_mono now now' e : now <= now' -> expired now e = true -> expired now' e = true.
Proof.
  unfold expired. intros H. rewrite !orb_true_iff, !Z.eqb_eq, !Z.leb_le. intros [A|A]; [left; exact A|right; lia].
Qed.
Lemma expired_of_le now e : e <= now -> expired now e = true.
Proof. unfold expired. intros H. rewrite orb_true_iff, Z.leb_le. right. exact H. Qed.

Definition ev_time_ok (ev : event) : Prop := e_r ev = RTimeout -> expired (e_now ev) (e_exp ev) = true.

(* the fact a thread inside a timed cv wait carries: asleep => ts_wakeup is the call's expiration;
   woken by the timer => the expiration has passed *)
Definition wait_ok (w : wstate) (dl now e : Z) : Prop :=
  (w = Asleep -> dl = e) /\ (w = Woken true -> expired now e = true).
Definition upc_ok (p : upc) (w : wstate) (dl now : Z) : Prop :=
  match p with
  | US_w1 _ e | UR_w e => wait_ok w dl now e
  | _ => True
  end.
Record UT (s : ust) : Prop := mkUT {
  ut_thr : forall t, upc_ok (u_pc s t) (u_w s t) (u_dl s t) (u_now s);
  ut_log : Forall ev_time_ok (u_log s)
}.

Lemma upc_ok_woken p w dl now : upc_ok p w dl now -> upc_ok p (Woken false) dl now.
Proof. destruct p; cbn; auto; intros _; split; discriminate. Qed.

(* a transformer that does not touch pc / w / dl / now / log *)
Definition time_frame (f : ust -> ust) : Prop :=
  forall s, u_pc (f s) = u_pc s /\ u_w (f s) = u_w s /\ u_dl (f s) = u_dl s /\ u_now (f s) = u_now s /\ u_log (f s) = u_log s.
Lemma UT_frame f s : time_frame f -> UT s -> UT (f s).
Proof.
  intros F [A B]. destruct (F s) as (P & W & D & N & L). constructor.
  - intros t. rewrite P, W, D, N. apply A.
  - rewrite L. exact B.
Qed.

(* t moves to a pc that is not a timed-wait pc, becoming runnable *)
Lemma UT_goto s t p (w : wstate) :
  UT s -> (match p with US_w1 _ _ | UR_w _ => False | _ => True end) ->
  UT (set_u_w (goto s t p) (upd (u_w s) t w)).
Proof.
  intros [A B] Hp. constructor; cbn; auto.
  intros t0. unfold upd. destruct (Nat.eqb_spec t0 t); [|apply A]. destruct p; cbn; auto; contradiction.
Qed.
Lemma UT_run s s0 t : UT s -> UT (set_u_w s (upd (u_w s0) t Run)) \/ True.
Proof. auto. Qed.

(* what a step on the core does to the clock and the log: the clock stands still, and an operation returns
   RTimeout only where it has just seen its Timeout expired or was woken by the timer out of a timed wait *)
Lemma ucstep_time fx c t to c' ms mr dl :
  ucstep fx c t to = Some (c', ms, mr) ->
  (to = true -> upc_ok (uc_pc c t) (Woken true) dl (uc_now c)) ->
  uc_now c' = uc_now c /\ (Forall ev_time_ok (uc_log c) -> Forall ev_time_ok (uc_log c')).
Proof.
  unfold ucstep, quiet. intros H Hto.
  destruct (uc_pc c t).
  all: try (destruct (uc_prog c t) as [|[] ?]; [discriminate|..]).
  all: repeat match type of H with
       | context [if ?b then _ else _] => destruct b eqn:?
       | context [match uc_slot ?c with _ => _ end] => destruct (uc_slot c)
       end.
  all: inversion H; subst; clear H.
  all: split; [reflexivity|intros F; try exact F].
  all: constructor; [intros X; try discriminate X; try assumption; apply (Hto eq_refl); reflexivity|exact F].
Qed.

Lemma UT_ustep fx s t s' : UT s -> ustep fx s t = Some s' -> UT s'.
Proof.
  intros [A B] H. destruct (ustep_sum _ _ _ _ H) as (p' & ms & mr & Hc & Sy).
  destruct (ucstep_time _ _ _ _ _ _ _ (u_dl s t) Hc) as [Hn Hl].
  { intros E. specialize (A t). destruct (u_w s t) as [| |[]]; try discriminate E. exact A. }
  constructor; [|exact (Hl B)].
  intros t0. change (u_now s') with (uc_now (ucore_of s')). rewrite Hn, (sy_pc _ _ _ _ _ _ Sy). cbn [uc_now ucore_of].
  destruct (Nat.eq_dec t0 t) as [->|Ne].
  - (* the wait pcs are entered asleep, with the call's expiration as deadline *)
    rewrite upd_same, (sy_w _ _ _ _ _ _ Sy), (sy_dl _ _ _ _ _ _ Sy). unfold own_w.
    destruct p'; try exact I; cbn; rewrite !upd_same.
    all: destruct (memt t _); [split; discriminate|]; destruct (memt t _); split; try discriminate; reflexivity.
  - rewrite upd_other, (usync_w_other _ _ _ _ _ _ _ Sy Ne), (usync_dl_other _ _ _ _ _ _ _ Sy Ne) by exact Ne.
    destruct (memt t0 _); [eapply upc_ok_woken|]; apply A.
Qed.

Lemma UT_utimer s t s' : UT s -> utimer s t = Some s' -> UT s'.
Proof.
  intros [A B] H. unfold utimer in H. destruct (u_w s t) eqn:Ew; try discriminate.
  destruct (u_dl s t <=? u_now s) eqn:El; [|discriminate]. inversion H; subst; clear H.
  constructor; cbn; auto. intros t0. unfold upd. destruct (Nat.eqb_spec t0 t); [|apply A].
  subst. specialize (A t). rewrite Ew in A. destruct (u_pc s t); cbn in *; auto.
  all: destruct A as [A _]; split; [discriminate|]; intros _; apply expired_of_le; rewrite <- (A eq_refl); apply Z.leb_le; exact El.
Qed.

Lemma UT_tick s d : UT s -> UT (set_u_now s (u_now s + Z.of_nat d)).
Proof.
  intros [A B]. constructor; cbn; auto. intros t. specialize (A t).
  destruct (u_pc s t); cbn in *; auto.
  all: destruct A as [A1 A2]; split; auto; intros X; eapply expired_mono; [|apply A2; exact X]; lia.
Qed.

Theorem UT_reach fx progs now0 s : ureach fx progs now0 s -> UT s.
Proof.
  induction 1 as [|s l s' R IH H].
  - constructor; cbn; auto.
  - destruct l as [t|t|d]; cbn in H.
    + eapply UT_ustep; eauto.
    + eapply UT_utimer; eauto.
    + inversion H; subst. apply UT_tick. exact IH.
Qed.

Lemma timeout_of_le now d : timeout_of now d <= MAX64.
Proof. unfold timeout_of, sat_add. destruct (d =? 0); [unfold MAX64; lia|]. destruct (MAX64 <? now + d) eqn:E; [lia|]. apply Z.ltb_ge in E. lia. Qed.

Lemma rewait_ok now e : e <= MAX64 -> rewait_exp now e = e \/ expired now e = true.
Proof.
  intros He. unfold rewait_exp, timeout_of, sat_sub, sat_add.
  destruct (e <? now) eqn:E1.
  - right. apply expired_of_le. apply Z.ltb_lt in E1. lia.
  - apply Z.ltb_ge in E1. destruct (e - now =? 0) eqn:E2.
    + right. apply expired_of_le. apply Z.eqb_eq in E2. lia.
    + left. replace (now + (e - now)) with e by lia. destruct (MAX64 <? e) eqn:E3; [apply Z.ltb_lt in E3; lia|reflexivity].
Qed.

Definition mode_le (m : mode) : Prop := match m with MTry => True | MBlock e => e <= MAX64 end.
Definition bpc_ok (p : bpc) (w : wstate) (dl now : Z) : Prop :=
  match p with
  | BS_slp _ e | BR_slp e => e <= MAX64 /\ (dl = e \/ expired now e = true) /\ (w = Woken true -> expired now e = true)
  | BS_unreg _ e true | BR_unreg e true => expired now e = true
  | BS_cl _ m | BS_rt _ m | BS_rh _ m _ | BS_push _ m | BS_pub _ m | BS_lrw _ m | BS_sig _ m | BR_pop m | BR_lsw m _ | BR_sig m _ => mode_le m
  | BS_exp _ e | BS_reg _ e | BS_wait _ e | BS_unreg _ e false | BS_rc _ e | BS_rct _ e | BS_rch _ e _
  | BR_cl e _ | BR_exp e | BR_reg e | BR_wait e | BR_unreg e false | BR_rc e | BR_rct e | BR_rch e _ => e <= MAX64
  | _ => True
  end.
Record BT (s : bst) : Prop := mkBT {
  bt_thr : forall t, bpc_ok (b_pc s t) (b_w s t) (b_dl s t) (b_now s);
  bt_log : Forall ev_time_ok (b_log s)
}.

Lemma bpc_ok_woken p w dl now : bpc_ok p w dl now -> bpc_ok p (Woken false) dl now.
Proof. destruct p; cbn; auto; try (destruct to; auto); intros (A & B & _); repeat split; auto; discriminate. Qed.

Definition bwakes_only (f : bst -> bst) : Prop :=
  forall s, b_pc (f s) = b_pc s /\ b_dl (f s) = b_dl s /\ b_now (f s) = b_now s /\ b_log (f s) = b_log s /\
            forall t, b_w (f s) t = b_w s t \/ b_w (f s) t = Woken false.
Lemma bwo_wake_list l : bwakes_only (fun s => bwake_list s l).
Proof.
  induction l as [|h r IH]; intros s; cbn; [repeat split; auto|].
  destruct (IH (bwake1 s h)) as (A & B & C & D & E). rewrite A, B, C, D. cbn. repeat split; auto.
  intros t. destruct (E t) as [X|X]; rewrite X; cbn; auto. unfold upd. destruct (Nat.eqb t h); auto.
Qed.
Lemma bwo_put_sem x m : bwakes_only (fun s => put_sem s x m).
Proof. intros s. destruct x; cbn; repeat split; auto. Qed.
Lemma bwo_wake_put l x m : bwakes_only (fun s => bwake_list (put_sem s x m) l).
Proof.
  intros s. destruct (bwo_wake_list l (put_sem s x m)) as (A & B & C & D & E).
  destruct (bwo_put_sem x m s) as (A' & B' & C' & D' & E').
  rewrite A, B, C, D, A', B', C', D'. repeat split; auto.
  intros t. destruct (E t) as [X|X]; rewrite X; auto.
Qed.
Lemma bwo_sem_signal x n : bwakes_only (fun s => sem_signal s x n).
Proof. intros s. unfold sem_signal. destruct (resume_n _ _) as [wok rest]. apply (bwo_wake_put wok x _ s). Qed.
Lemma bwo_sem_after_timeout x : bwakes_only (fun s => sem_after_timeout s x).
Proof.
  intros s. unfold sem_after_timeout. destruct (0 <? _); [|repeat split; auto].
  destruct (resume_n _ _) as [wok rest]. apply (bwo_wake_put wok x _ s).
Qed.
Lemma BT_wakes f s : bwakes_only f -> BT s -> BT (f s).
Proof.
  intros W [A B]. destruct (W s) as (P & D & N & L & Ww). constructor.
  - intros t. rewrite P, D, N. destruct (Ww t) as [E|E]; rewrite E; [apply A|eapply bpc_ok_woken; apply A].
  - rewrite L. exact B.
Qed.
Lemma sem_try_wo s x s1 : sem_try s x = Some s1 -> BT s -> BT s1.
Proof.
  unfold sem_try. destruct (1 <=? _); intros H; inversion H. apply (BT_wakes (fun s => put_sem s x _)). apply bwo_put_sem.
Qed.

Lemma BT_upd s0 s' t :
  BT s0 -> b_now s' = b_now s0 ->
  (forall t0, t0 <> t -> b_pc s' t0 = b_pc s0 t0 /\ b_w s' t0 = b_w s0 t0 /\ b_dl s' t0 = b_dl s0 t0) ->
  bpc_ok (b_pc s' t) (b_w s' t) (b_dl s' t) (b_now s0) ->
  Forall ev_time_ok (b_log s') -> BT s'.
Proof.
  intros [A B] N O T L. constructor; auto. intros t0. rewrite N. destruct (Nat.eq_dec t0 t) as [->|Ne]; auto.
  destruct (O _ Ne) as (P & W & D). rewrite P, W, D. apply A.
Qed.

(* BT reads only pc / w / dl / now / log *)
Lemma BT_ext s s' :
  b_pc s' = b_pc s -> b_w s' = b_w s -> b_dl s' = b_dl s -> b_now s' = b_now s -> b_log s' = b_log s -> BT s -> BT s'.
Proof. intros P W D N L [A B]. constructor; [intros t; rewrite P, W, D, N; apply A|rewrite L; exact B]. Qed.
Lemma BT_setrun s t : BT s -> BT (set_b_w s (upd (b_w s) t Run)).
Proof.
  intros [A B]. constructor; cbn; auto. intros t0. unfold upd. destruct (Nat.eqb_spec t0 t); [|apply A].
  specialize (A t0). destruct (b_pc s t0); cbn in *; auto; try (destruct to; auto); destruct A as (X & Y & _); repeat split; auto; discriminate.
Qed.
