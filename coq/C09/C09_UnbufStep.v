(* C09_UnbufStep.v — one step of the unbuffered-channel model (C09_Unbuf.v) in the terms the invariants use.
   The ledger part of the state (`ucore`) is advanced by `ucstep`: the step function with the condition variables
   reduced to an oracle bit (the wait timed out) and to how much of each wait queue the step notifies (`wmode`).
   The rest (wake states, deadlines, the two queues) changes in one way for every step, given the new pc of the
   stepping thread and the two modes: `usync`.  `ustep_sum` ties `ustep` to the pair; apart from `ustep_awake` (a
   sleeping thread does not step) it is the only proof that opens `ustep`. *)
From Coq Require Import ZArith List Bool.
From PV Require Import C09.C09_Common C09.C09_Unbuf C09.C09_BufProofs.
Import ListNotations.
Local Open Scope Z_scope.

Record ucore : Type := mkUC {
  uc_pc : tid -> upc; uc_cnt : tid -> nat; uc_slot : option val; uc_seq : nat; uc_taken : list val;
  uc_log : list event; uc_closed : bool; uc_now : Z; uc_prog : tid -> list op;
  uc_rw : Z; uc_mtx : option tid
}.
(* u_sw (m_senders_waiting) is left out: the unbuffered steps only write it *)
Definition ucore_of (s : ust) : ucore :=
  mkUC (u_pc s) (u_cnt s) (u_slot s) (u_seq s) (u_taken s) (u_log s) (u_closed s) (u_now s) (u_prog s)
       (u_rw s) (u_mtx s).

Definition k_goto (c : ucore) (t : tid) (p : upc) : ucore :=
  mkUC (upd (uc_pc c) t p) (uc_cnt c) (uc_slot c) (uc_seq c) (uc_taken c) (uc_log c) (uc_closed c) (uc_now c)
       (uc_prog c) (uc_rw c) (uc_mtx c).
Definition k_cnt (c : ucore) (t : tid) : ucore :=
  mkUC (uc_pc c) (upd (uc_cnt c) t (S (uc_cnt c t))) (uc_slot c) (uc_seq c) (uc_taken c) (uc_log c) (uc_closed c)
       (uc_now c) (uc_prog c) (uc_rw c) (uc_mtx c).
Definition k_mtx (c : ucore) (m : option tid) : ucore :=
  mkUC (uc_pc c) (uc_cnt c) (uc_slot c) (uc_seq c) (uc_taken c) (uc_log c) (uc_closed c) (uc_now c)
       (uc_prog c) (uc_rw c) m.
Definition k_rw (c : ucore) (x : Z) : ucore :=
  mkUC (uc_pc c) (uc_cnt c) (uc_slot c) (uc_seq c) (uc_taken c) (uc_log c) (uc_closed c) (uc_now c)
       (uc_prog c) x (uc_mtx c).
Definition k_closed (c : ucore) : ucore :=
  mkUC (uc_pc c) (uc_cnt c) (uc_slot c) (uc_seq c) (uc_taken c) (uc_log c) true (uc_now c)
       (uc_prog c) (uc_rw c) (uc_mtx c).
Definition k_slot (c : ucore) (o : option val) : ucore :=
  mkUC (uc_pc c) (uc_cnt c) o (uc_seq c) (uc_taken c) (uc_log c) (uc_closed c) (uc_now c)
       (uc_prog c) (uc_rw c) (uc_mtx c).
(* the repaired code counts the takes *)
Definition k_take (fx : bool) (c : ucore) (v : val) : ucore :=
  mkUC (uc_pc c) (uc_cnt c) None (if fx then S (uc_seq c) else uc_seq c) (uc_taken c ++ [v]) (uc_log c)
       (uc_closed c) (uc_now c) (uc_prog c) (uc_rw c) (uc_mtx c).
Definition k_finish (c : ucore) (t : tid) (k : opkind) (v : option val) (r : res) (e : Z) : ucore :=
  mkUC (upd (uc_pc c) t UIdle) (uc_cnt c) (uc_slot c) (uc_seq c) (uc_taken c)
       (mkEv t k v r (uc_now c) e O :: uc_log c) (uc_closed c) (uc_now c)
       (upd (uc_prog c) t (tl (uc_prog c t))) (uc_rw c) (uc_mtx c).
Definition k_ret_send (c : ucore) (t : tid) (v : val) (r : res) (e : Z) : ucore :=
  k_finish (k_mtx c None) t KSend (Some v) r e.
Definition k_ret_recv (c : ucore) (t : tid) (v : option val) (r : res) (e : Z) : ucore :=
  k_finish (k_mtx (k_rw c (uc_rw c - 1)) None) t KRecv v r e.
Definition kfree (c : ucore) : bool := negb (is_some (uc_mtx c)).

(* how much of a wait queue a step notifies (from its head): nothing, one, all *)
Inductive wmode : Type := W0 | W1 | WA.
Definition take_w (m : wmode) (l : list tid) : list tid := match m with W0 => [] | W1 => firstn 1 l | WA => l end.
Definition rest_w (m : wmode) (l : list tid) : list tid := match m with W0 => l | W1 => tl l | WA => [] end.
Lemma take_rest m l : take_w m l ++ rest_w m l = l.
Proof. destruct m; cbn; [reflexivity|destruct l; reflexivity|apply app_nil_r]. Qed.

Definition quiet (c : ucore) : option (ucore * wmode * wmode) := Some (c, W0, W0).

(* the step on the core; to = the wake-up was the timeout.  The result carries the notifications of the senders'
   and of the receivers' queue: a receiver that registers notifies one sender; whoever takes the value notifies the
   senders (all of them in the repaired code, which also does so when a sender withdraws its value); a deposit
   notifies one receiver; close() notifies everybody. *)
Definition ucstep (fx : bool) (c : ucore) (t : tid) (to : bool) : option (ucore * wmode * wmode) :=
    match uc_pc c t with
    | UIdle =>
        match uc_prog c t with
        | [] => None
        | OSend d :: _ => quiet (k_goto (k_cnt c t) t (US_lock (t, uc_cnt c t) (timeout_of (uc_now c) d)))
        | ORecv d :: _ => quiet (k_goto c t (UR_lock (timeout_of (uc_now c) d)))
        | OTrySend :: _ => quiet (k_goto (k_cnt c t) t (UTS_lock (t, uc_cnt c t)))
        | OTryRecv :: _ => quiet (k_goto c t UTR_lock)
        | OClose :: _ => quiet (k_goto c t UC_x)
        | OYield :: _ => quiet (k_finish c t KYield None ROk 0)
        end
    | US_lock v e =>
        if kfree c then quiet (k_goto (k_mtx c (Some t)) t (US_l1 v e)) else None
    | US_l1 v e =>
        if uc_closed c then quiet (k_goto c t (US_ck v e))
        else if (if fx then (uc_rw c =? 0) || is_some (uc_slot c)
                 else (uc_rw c =? 0) && negb (is_some (uc_slot c))) then
               if expired (uc_now c) e then quiet (k_ret_send c t v RTimeout e)
               else quiet (k_goto (k_mtx c None) t (US_w1 v e))
             else quiet (k_goto c t (US_ck v e))
    | US_w1 v e =>
        if kfree c then
          if to then quiet (k_ret_send (k_mtx c (Some t)) t v RTimeout e)
          else quiet (k_goto (k_mtx c (Some t)) t (US_l1 v e))
        else None
    | US_ck v e =>
        if uc_closed c then quiet (k_ret_send c t v RClosed e)
        else Some (k_goto (k_slot c (Some v)) t (US_l2 v e (uc_seq c)), W0, W1)
    | US_l2 v e q =>
        if negb (if fx then Nat.eqb (uc_seq c) q else is_some (uc_slot c)) then quiet (k_goto c t (US_rt v e q))
        else if uc_closed c then quiet (k_goto c t (US_rt v e q))
        else if expired (uc_now c) e
             then Some (k_ret_send (k_slot c None) t v RTimeout e, if fx then WA else W0, W0)
        else quiet (k_goto (k_mtx c None) t (US_w2 v e q))
    | US_w2 v e q =>
        if kfree c then quiet (k_goto (k_mtx c (Some t)) t (US_l2 v e q)) else None
    | US_rt v e q =>
        quiet (k_ret_send c t v (if (if fx then negb (Nat.eqb (uc_seq c) q)
                                     else negb (uc_closed c) || negb (is_some (uc_slot c)))
                                 then ROk else RClosed) e)
    | UR_lock e =>
        if kfree c then Some (k_goto (k_rw (k_mtx c (Some t)) (uc_rw c + 1)) t (UR_l e), W1, W0) else None
    | UR_l e =>
        match uc_slot c with
        | Some v => Some (k_ret_recv (k_take fx c v) t (Some v) ROk e, if fx then WA else W1, W0)
        | None =>
            if uc_closed c then quiet (k_ret_recv c t None RClosed e)
            else if expired (uc_now c) e then quiet (k_ret_recv c t None RTimeout e)
            else quiet (k_goto (k_mtx c None) t (UR_w e))
        end
    | UR_w e =>
        if kfree c then
          if to then quiet (k_ret_recv (k_mtx c (Some t)) t None RTimeout e)
          else quiet (k_goto (k_mtx c (Some t)) t (UR_l e))
        else None
    | UTS_lock v => if kfree c then quiet (k_goto (k_mtx c (Some t)) t (UTS_ck v)) else None
    | UTS_ck v =>
        if uc_closed c then quiet (k_finish (k_mtx c None) t KTrySend (Some v) RClosed 0)
        else if (0 <? uc_rw c) && negb (is_some (uc_slot c))
        then Some (k_finish (k_mtx (k_slot c (Some v)) None) t KTrySend (Some v) ROk 0, W0, W1)
        else quiet (k_finish (k_mtx c None) t KTrySend (Some v) RNo 0)
    | UTR_lock =>
        if kfree c then
          match uc_slot c with
          | Some v => Some (k_finish (k_mtx (k_take fx c v) None) t KTryRecv (Some v) ROk 0,
                            if fx then WA else W1, W0)
          | None => quiet (k_finish c t KTryRecv None RNo 0)
          end
        else None
    | UC_x =>
        if uc_closed c then quiet (k_finish c t KClose None ROk 0)
        else quiet (k_goto (k_closed c) t UC_lock)
    | UC_lock =>
        if kfree c then Some (k_finish (k_mtx c None) t KClose None ROk 0, WA, WA) else None
    end.

(* pcs inside a wait on the senders' / the receivers' condition variable, and the deadline of that wait *)
Definition ws12 (p : upc) : bool := match p with US_w1 _ _ | US_w2 _ _ _ => true | _ => false end.
Definition wrp (p : upc) : bool := match p with UR_w _ => true | _ => false end.
Definition pc_dl (p : upc) : Z := match p with US_w1 _ e | US_w2 _ e _ | UR_w e => e | _ => 0 end.

Definition memt (t : tid) (l : list tid) : bool := existsb (Nat.eqb t) l.
Lemma memt_In t l : memt t l = true <-> In t l.
Proof.
  unfold memt. rewrite existsb_exists. split.
  - intros (x & Hin & E). apply Nat.eqb_eq in E. subst. exact Hin.
  - intros H. exists t. split; [exact H|apply Nat.eqb_refl].
Qed.

Lemma memt_app t a b : memt t (a ++ b) = memt t a || memt t b.
Proof. unfold memt. apply existsb_app. Qed.
Lemma take_w_In m l x : In x (take_w m l) -> In x l.
Proof. rewrite <- (take_rest m l) at 2. intros H. apply in_or_app. left. exact H. Qed.
Lemma rest_w_keep m l x : In x l -> ~ In x (take_w m l) -> In x (rest_w m l).
Proof. rewrite <- (take_rest m l) at 1. intros H N. apply in_app_or in H. tauto. Qed.
(* the members of a duplicate-free queue that a notification leaves in it were in it and are not notified *)
Lemma rest_w_In m l x : NoDup l -> In x (rest_w m l) -> In x l /\ ~ In x (take_w m l).
Proof.
  intros ND Hx. split; [rewrite <- (take_rest m l); apply in_or_app; auto|].
  intros Hy. rewrite <- (take_rest m l) in ND. revert ND Hx Hy. generalize (take_w m l) (rest_w m l).
  intros a b ND Hb Ha. induction a as [|h a IH]; [contradiction|]. cbn in ND. inversion ND; subst.
  destruct Ha as [->|Ha]; [apply H1; apply in_or_app; auto|auto].
Qed.
Lemma rest_w_NoDup m l : NoDup l -> NoDup (rest_w m l).
Proof.
  intros ND. rewrite <- (take_rest m l) in ND. induction (take_w m l); [exact ND|]. inversion ND; auto.
Qed.

(* the wake state of the stepping thread before the step's notifications: it falls asleep when it enters a wait,
   runs again when it leaves one *)
Definition own_w (s : ust) (t : tid) (p' : upc) : tid -> wstate :=
  if ws12 p' || wrp p' then upd (u_w s) t Asleep
  else if ws12 (u_pc s t) || wrp (u_pc s t) then upd (u_w s) t Run else u_w s.

Record usync (s s' : ust) (t : tid) (p' : upc) (ms mr : wmode) : Prop := mkUsync {
  sy_pc : u_pc s' = upd (u_pc s) t p';
  sy_w : forall t0, u_w s' t0 =
           if memt t0 (take_w mr (u_rcv s)) then Woken false
           else if memt t0 (take_w ms (u_scv s)) then Woken false else own_w s t p' t0;
  sy_dl : u_dl s' = if ws12 p' || wrp p' then upd (u_dl s) t (pc_dl p') else u_dl s;
  sy_scv : u_scv s' = rest_w ms (u_scv s) ++ (if ws12 p' then [t] else []);
  sy_rcv : u_rcv s' = rest_w mr (u_rcv s) ++ (if wrp p' then [t] else [])
}.

(* the notify functions change nothing but the queue they serve and the wake states of those they take from it *)
Record wakes (s s1 : ust) (ms mr : wmode) : Prop := mkWakes {
  wk_core : ucore_of s1 = ucore_of s;
  wk_dl : u_dl s1 = u_dl s;
  wk_scv : u_scv s1 = rest_w ms (u_scv s);
  wk_rcv : u_rcv s1 = rest_w mr (u_rcv s);
  wk_w : forall t0, u_w s1 t0 = if memt t0 (take_w mr (u_rcv s)) then Woken false
                                else if memt t0 (take_w ms (u_scv s)) then Woken false else u_w s t0
}.

Lemma wake_list_core s l : ucore_of (wake_list s l) = ucore_of s.
Proof. revert s. induction l as [|h r IH]; intros s; cbn; [reflexivity|]. rewrite IH. reflexivity. Qed.
Lemma wake_list_dl s l : u_dl (wake_list s l) = u_dl s.
Proof. revert s. induction l; intros; cbn; [reflexivity|rewrite IHl; reflexivity]. Qed.
Lemma wake_list_scv s l : u_scv (wake_list s l) = u_scv s.
Proof. revert s. induction l; intros; cbn; [reflexivity|rewrite IHl; reflexivity]. Qed.
Lemma wake_list_rcv s l : u_rcv (wake_list s l) = u_rcv s.
Proof. revert s. induction l; intros; cbn; [reflexivity|rewrite IHl; reflexivity]. Qed.
Lemma wake_list_w s l t : u_w (wake_list s l) t = if memt t l then Woken false else u_w s t.
Proof.
  revert s. induction l as [|h r IH]; intros s; cbn; [reflexivity|]. rewrite IH. cbn. unfold upd.
  destruct (Nat.eqb t h); cbn; [destruct (memt t r); reflexivity|reflexivity].
Qed.

Lemma wakes_one_s s : wakes s (notify_one_s s) W1 W0.
Proof.
  unfold notify_one_s. destruct (u_scv s) as [|h r] eqn:E; constructor; cbn; rewrite ?E; try reflexivity.
  intros t0. cbn. unfold upd. rewrite orb_false_r. reflexivity.
Qed.
Lemma wakes_one_r s : wakes s (notify_one_r s) W0 W1.
Proof.
  unfold notify_one_r. destruct (u_rcv s) as [|h r] eqn:E; constructor; cbn; rewrite ?E; try reflexivity.
  intros t0. cbn. unfold upd. rewrite orb_false_r. destruct (Nat.eqb t0 h); reflexivity.
Qed.
Lemma wakes_all_s s : wakes s (notify_all_s s) WA W0.
Proof.
  unfold notify_all_s. constructor; rewrite ?wake_list_core, ?wake_list_dl, ?wake_list_scv, ?wake_list_rcv;
    try reflexivity.
  intros t0. rewrite wake_list_w. reflexivity.
Qed.
Lemma wakes_all_r s : wakes s (notify_all_r s) W0 WA.
Proof.
  unfold notify_all_r. constructor; rewrite ?wake_list_core, ?wake_list_dl, ?wake_list_scv, ?wake_list_rcv;
    try reflexivity.
  intros t0. rewrite wake_list_w. reflexivity.
Qed.
Lemma wakes_close s : wakes s (notify_all_r (notify_all_s s)) WA WA.
Proof.
  destruct (wakes_all_s s) as [C D S R W], (wakes_all_r (notify_all_s s)) as [C' D' S' R' W'].
  constructor; [rewrite C'; exact C|rewrite D'; exact D|rewrite S'; exact S|rewrite R', R; reflexivity|].
  intros t0. rewrite W', R, W. reflexivity.
Qed.

(* the core commutes with the transformers that are applied on top of a notification *)
Lemma goto_core s t p : ucore_of (goto s t p) = k_goto (ucore_of s) t p.
Proof. reflexivity. Qed.
Lemma finish_core s t k v r e : ucore_of (finish s t k v r e) = k_finish (ucore_of s) t k v r e.
Proof. reflexivity. Qed.
Lemma unlock_core s : ucore_of (unlock s) = k_mtx (ucore_of s) None.
Proof. reflexivity. Qed.
Lemma ret_send_core s t v r e : ucore_of (ret_send s t v r e) = k_ret_send (ucore_of s) t v r e.
Proof. reflexivity. Qed.
Lemma ret_recv_core s t v r e : ucore_of (ret_recv s t v r e) = k_ret_recv (ucore_of s) t v r e.
Proof. reflexivity. Qed.

Lemma ustep_awake fx s t s' : ustep fx s t = Some s' -> u_w s t <> Asleep.
Proof. unfold ustep. destruct (u_w s t); intros H; discriminate. Qed.

Theorem ustep_sum fx s t s' : ustep fx s t = Some s' ->
  exists p' ms mr, ucstep fx (ucore_of s) t (timedout (u_w s t)) = Some (ucore_of s', ms, mr) /\
                   usync s s' t p' ms mr.
Proof.
  unfold ustep, ucstep, quiet. intros H.
  destruct (u_w s t) as [| |b] eqn:Ew; [|discriminate|].
  all: change (uc_pc (ucore_of s) t) with (u_pc s t); destruct (u_pc s t) eqn:Epc.
  all: change (kfree (ucore_of s)) with (mfree s).
  all: cbn [uc_prog uc_closed uc_now uc_slot uc_seq uc_rw uc_cnt ucore_of timedout] in *.
  all: try (destruct (u_prog s t) as [|[] ?]; [discriminate|..]).
  all: repeat match type of H with
       | context [if ?b then _ else _] => destruct b eqn:?
       | context [match u_slot ?s with _ => _ end] => destruct (u_slot s) eqn:?
       end.
  all: inversion H; subst s'; clear H.
  all: try (match goal with |- context [take ?f _ _] => destruct f; cbv beta iota zeta delta [take] end).
  all: do 3 eexists.
  all: try (split; [reflexivity|]).
  (* the steps that notify: name the result of the notification and keep what `wakes` says about it *)
  all: unfold deposit.
  all: try (match goal with
            | |- context [notify_all_r (notify_all_s ?x)] =>
                generalize (wakes_close x); generalize (notify_all_r (notify_all_s x))
            | |- context [notify_all_s ?x] => generalize (wakes_all_s x); generalize (notify_all_s x)
            | |- context [notify_one_s ?x] => generalize (wakes_one_s x); generalize (notify_one_s x)
            | |- context [notify_one_r ?x] => generalize (wakes_one_r x); generalize (notify_one_r x)
            end;
            intros s1 [C D S R W]; pose proof (f_equal uc_pc C) as P; cbn in P;
            split; [rewrite ?goto_core, ?finish_core, ?unlock_core, ?ret_send_core, ?ret_recv_core, C; reflexivity|];
            constructor;
            [ cbn; rewrite P; reflexivity
            | intros t0; cbn; rewrite W; unfold own_w; rewrite Epc; reflexivity
            | cbn; rewrite D; reflexivity
            | cbn; rewrite S, ?app_nil_r; reflexivity
            | cbn; rewrite R, ?app_nil_r; reflexivity ]).
  all: constructor;
       [ reflexivity | intros t0; unfold own_w; rewrite Epc; reflexivity | reflexivity
       | cbn; rewrite ?app_nil_r; reflexivity | cbn; rewrite ?app_nil_r; reflexivity ].
Qed.

Lemma utimer_core s t s' : utimer s t = Some s' -> ucore_of s' = ucore_of s.
Proof.
  unfold utimer. destruct (u_w s t); try discriminate. destruct (_ <=? _); [|discriminate].
  intros H; inversion H; reflexivity.
Qed.

(* the wake states after a step, as the invariants over the queues read them *)
Lemma usync_w_other s s' t p' ms mr t0 : usync s s' t p' ms mr -> t0 <> t ->
  u_w s' t0 = if memt t0 (take_w ms (u_scv s) ++ take_w mr (u_rcv s)) then Woken false else u_w s t0.
Proof.
  intros Sy Ne. rewrite (sy_w _ _ _ _ _ _ Sy), memt_app. unfold own_w.
  destruct (memt t0 (take_w mr _)); [rewrite orb_true_r; reflexivity|]. rewrite orb_false_r.
  destruct (memt t0 (take_w ms _)); [reflexivity|].
  destruct (_ || _); [|destruct (_ || _)]; rewrite ?upd_other by exact Ne; reflexivity.
Qed.
Lemma usync_dl_other s s' t p' ms mr t0 : usync s s' t p' ms mr -> t0 <> t -> u_dl s' t0 = u_dl s t0.
Proof. intros Sy Ne. rewrite (sy_dl _ _ _ _ _ _ Sy). destruct (_ || _); [apply upd_other; exact Ne|reflexivity]. Qed.
(* the queues hold sleepers only, so a step of t does not notify t *)
Lemma usync_w_self s s' t p' ms mr : usync s s' t p' ms mr ->
  (forall x, In x (u_scv s) -> u_w s x = Asleep) -> (forall x, In x (u_rcv s) -> u_w s x = Asleep) ->
  u_w s t <> Asleep ->
  (u_w s' t = Asleep <-> ws12 p' || wrp p' = true).
Proof.
  intros Sy Hs Hr Hrun. rewrite (sy_w _ _ _ _ _ _ Sy). unfold own_w.
  destruct (memt t (take_w mr _)) eqn:M; [apply memt_In, take_w_In, Hr in M; contradiction|].
  clear M. destruct (memt t (take_w ms _)) eqn:M; [apply memt_In, take_w_In, Hs in M; contradiction|].
  destruct (ws12 p' || wrp p'); [rewrite upd_same; tauto|].
  destruct (_ || _); [rewrite upd_same|]; split; congruence.
Qed.
