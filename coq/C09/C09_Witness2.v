(* C09_Witness2.v — the release clause on the REPAIRED buffered channel (fx = true, go.h after the re-check of
   90f131c): still refuted when capacity >= 2 and a send has a finite Timeout.  Evaluated by vm_compute.

   A sender that has consumed a wake-up (a count of m_send_sem) retries; its read_available() is torn: it loads
   `tail`, other threads push and pop so that `head` passes that old tail, it loads `head`, and the size_t
   difference wraps to 2^64-1 >= m_capacity ("full").  Its Timeout has expired meanwhile, so it returns false —
   without using the free slot and without passing the wake-up on.  Another sender stays asleep for ever on
   m_send_sem although a slot is free, the channel is open and nobody is inside a call. *)
From Coq Require Import ZArith List Bool.
From PV Require Import Base.U64 C09.C09_Common C09.C09_Buf C09.C09_Model C09.C09_Witness.
Import ListNotations.
Local Open Scope Z_scope.

(* capacity 2.  T1: three sends; T2: send with Timeout(100); T3, T4: send; T5: three recvs *)
Definition f11r_progs : tid -> list op :=
  progs_fun [[OSend MAX64; OSend MAX64; OSend MAX64]; [OSend 100]; [OSend MAX64]; [OSend MAX64];
             [ORecv MAX64; ORecv MAX64; ORecv MAX64]].
Definition rep (n : nat) (t : nat) : list label := repeat (LThr t) n.
Definition f11r_sched : list label :=
  rep 14 1 ++            (* T1 sends twice: the ring is full *)
  rep 10 2 ++ rep 10 1 ++ rep 10 3 ++ rep 10 4 ++   (* T2, T1, T3, T4 register, re-check (full) and sleep *)
  rep 4 5 ++             (* T5 pops, signals: T2 woken *)
  rep 2 2 ++             (* T2 takes the count, unregisters *)
  rep 4 5 ++             (* T5 pops, signals: T1 woken; the ring is empty, head = tail = 2 *)
  rep 2 1 ++             (* T1 takes the count, unregisters *)
  rep 2 2 ++             (* T2: m_closed.load, then tail.load = 2 inside read_available() *)
  rep 6 1 ++             (* T1 pushes: tail = 3 *)
  rep 4 5 ++             (* T5 pops it: head = 3; signals: T3 woken *)
  rep 8 3 ++             (* T3 takes the count and pushes: one of two slots used *)
  [LTick 200] ++         (* T2's Timeout expires *)
  rep 2 2.               (* T2: head.load = 3, size_t(2 - 3) >= 2: "full"; expired: returns false *)

Definition chan_release_buffered_repaired_refuted_stmt : Prop :=
  exists (mcap : Z) (progs : tid -> list op) (ls : list label) (s : bst) (t : tid) (v : val) (e : Z),
    brun true mcap (b_init progs 1000) ls = Some s /\
    (* a sender is asleep on m_send_sem, deadline never, count 0 ... *)
    b_pc s t = BS_slp v e /\ b_asleep s t = true /\ b_dl s t = MAX64 /\ sm_cnt (b_ssem s) = 0 /\
    (* ... although a slot is free and the channel is open ... *)
    (Z.of_nat (length (b_q s)) <? mcap) = true /\ b_closed s = false /\
    (* ... and every other thread has finished its program (nobody is inside a call, nobody else asleep) *)
    forallb (fun t' => b_done s t' || Nat.eqb t' t) [1;2;3;4;5]%nat = true /\
    (forall t', (5 < t')%nat -> b_pc s t' = BIdle /\ b_prog s t' = []).
Lemma chan_release_buffered_repaired_refuted : chan_release_buffered_repaired_refuted_stmt.
Proof.
  (* the final state is named by the run itself, not by its normal form (whose thread tables are nested updates,
     one per step): every conjunct then evaluates the run and reads back one small value *)
  set (o := brun true 2 (b_init f11r_progs 1000) f11r_sched).
  exists 2, f11r_progs, f11r_sched, (match o with Some s => s | None => b_init f11r_progs 1000 end), 4%nat.
  do 2 eexists.
  split; [fold o; cut (is_some o = true); [generalize o; intros [x|] X; [reflexivity|discriminate X]|vm_compute; reflexivity]|].
  repeat (split; [vm_compute; reflexivity|]).
  intros t' H. do 6 (destruct t' as [|t']; [exfalso; inversion H; repeat match goal with X : (_ <= _)%nat |- _ => inversion X; clear X end|]).
  vm_compute. destruct t'; split; reflexivity.
Qed.
