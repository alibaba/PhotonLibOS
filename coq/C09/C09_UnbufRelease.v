(* C09_UnbufRelease.v — the RELEASE clause for the repaired unbuffered channel (fx = true), every schedule:
   invariants over the two condition-variable queues and the wake state. *)
From Coq Require Import ZArith List Bool Lia.
From PV Require Import C09.C09_Common C09.C09_Unbuf C09.C09_Witness C09.C09_BufProofs C09.C09_UnbufStep C09.C09_UnbufProofs C09.C09_Proofs.
Import ListNotations.
Local Open Scope Z_scope.

Definition is_url (p : upc) : bool := match p with UR_l _ => true | _ => false end.

(* the threads in the queue of a condition variable are asleep inside a wait on it (wq tells the pcs), each once *)
Definition waits (wq : upc -> bool) (q : list tid) (s : ust) : Prop :=
  NoDup q /\ forall t, In t q -> u_w s t = Asleep /\ wq (u_pc s t) = true.

Record RI (s : ust) : Prop := mkRI {
  r_sl : forall t, u_w s t = Asleep ->
           (ws12 (u_pc s t) = true /\ In t (u_scv s)) \/ (wrp (u_pc s t) = true /\ In t (u_rcv s));
  r_s : waits ws12 (u_scv s) s;
  r_r : waits wrp (u_rcv s) s;
  (* after close(): nobody sleeps, except until the closing thread has passed its notify_all()s *)
  r_cl : u_closed s = true -> (exists c, u_pc s c = UC_lock) \/ forall t, u_w s t <> Asleep;
  (* a value in the slot and a receiver asleep: a notified receiver (or the receiver holding the mutex) is on its way *)
  r_slot : u_slot s <> None -> u_rcv s <> [] ->
           exists t, (wrp (u_pc s t) = true /\ u_w s t = Woken false) \/ is_url (u_pc s t) = true;
  (* a sender asleep in loop 2: its value has not been taken *)
  r_w2 : forall t v e q, u_pc s t = US_w2 v e q -> u_w s t = Asleep -> q = u_seq s
}.

Lemma RI_init progs now0 : RI (u_init progs now0).
Proof.
  assert (W : forall wq, waits wq [] (u_init progs now0)) by (split; [constructor|contradiction]).
  constructor; cbn; auto; try discriminate; congruence.
Qed.

Lemma ws_wr p : ws12 p = true -> wrp p = true -> False.
Proof. intros A B. destruct p; discriminate. Qed.

(* one queue over a step of t: m of it is notified, t joins it if its new pc waits on it; the other queue
   (qo, of which mo is notified) matters only in that its members are not in this one *)
Lemma waits_step (wq wo : upc -> bool) s s' t p' m mo q qo :
  (forall p, wq p = true -> wo p = true -> False) ->
  waits wq q s -> waits wo qo s ->
  u_w s t <> Asleep ->
  u_pc s' = upd (u_pc s) t p' ->
  (forall x, x <> t -> ~ In x (take_w m q) -> ~ In x (take_w mo qo) -> u_w s' x = u_w s x) ->
  (wq p' = true -> u_w s' t = Asleep) ->
  waits wq (rest_w m q ++ (if wq p' then [t] else [])) s'.
Proof.
  intros Hdis [ND Q] [_ Qo] Hrun Hpc Hkeep Hself. pose proof (rest_w_In m q) as InR. split.
  - pose proof (rest_w_NoDup m _ ND) as ND'. destruct (wq p'); rewrite ?app_nil_r; auto.
    apply NoDup_app_single; auto. intros X. apply InR, proj1, Q in X; tauto.
  - intros x Hin. rewrite Hpc. apply in_app_or in Hin. destruct Hin as [Hin|Hin].
    + destruct (InR _ ND Hin) as [A B]. destruct (Q _ A) as [C D].
      assert (Ne : x <> t) by (intros ->; contradiction).
      rewrite upd_other, Hkeep; auto.
      intros X. apply take_w_In, Qo in X. exact (Hdis _ D (proj2 X)).
    + destruct (wq p') eqn:E; [|contradiction]. destruct Hin as [<-|[]]. rewrite upd_same. auto.
Qed.

(* what a step of t (to = it was woken by the timer) to pc p', notifying ms senders and mr receivers, may do to
   closed / slot / seq for RI to be kept *)
Definition ri_cond (c c' : ucore) (t : tid) (to : bool) (p' : upc) (ms mr : wmode) : Prop :=
  (uc_closed c' = true ->
     p' = UC_lock \/ (uc_closed c = true /\ ws12 p' || wrp p' = false /\ (uc_pc c t = UC_lock -> ms = WA /\ mr = WA))) /\
  (uc_slot c' = None \/
   (uc_slot c = None /\ mr = W1 /\ ws12 p' || wrp p' = false) \/
   (uc_slot c <> None /\ wrp p' = false /\
    (wrp (uc_pc c t) = true -> to = false -> is_url p' = true) /\ is_url (uc_pc c t) = false)) /\
  (forall v e q, p' = US_w2 v e q -> q = uc_seq c') /\
  (uc_seq c' = uc_seq c \/ ms = WA).

Lemma RI_step s t s' p' (ms mr : wmode) :
  RI s ->
  u_w s t <> Asleep ->
  usync s s' t p' ms mr ->
  ri_cond (ucore_of s) (ucore_of s') t (timedout (u_w s t)) p' ms mr ->
  RI s'.
Proof.
  intros I Hrun Sy (Hcl & Hslot & Hq1 & Hq2). cbn [ucore_of uc_closed uc_slot uc_seq uc_pc] in Hcl, Hslot, Hq1, Hq2.
  destruct I. pose proof (proj2 r_s0) as Qs. pose proof (proj2 r_r0) as Qr.
  pose proof (usync_w_self _ _ _ _ _ _ Sy (fun x X => proj1 (Qs x X)) (fun x X => proj1 (Qr x X)) Hrun) as Hwt.
  pose proof (fun t0 => usync_w_other _ _ _ _ _ _ t0 Sy) as Hw.
  destruct Sy as [Hpc _ _ Hscv' Hrcv'].
  assert (Hpco : forall t0, t0 <> t -> u_pc s' t0 = u_pc s t0) by (intros; rewrite Hpc; apply upd_other; auto).
  assert (Hpct : u_pc s' t = p') by (rewrite Hpc; apply upd_same).
  (* a thread other than t that is asleep afterwards was asleep, and not woken *)
  assert (Hsl : forall t0, t0 <> t -> u_w s' t0 = Asleep ->
                u_w s t0 = Asleep /\ ~ In t0 (take_w ms (u_scv s)) /\ ~ In t0 (take_w mr (u_rcv s))).
  { intros t0 Hne E. rewrite (Hw _ Hne) in E. destruct (memt t0 _) eqn:M; [discriminate|].
    split; [exact E|]. rewrite memt_app in M. apply orb_false_elim in M. destruct M as [M1 M2].
    split; intros X; apply memt_In in X; congruence. }
  assert (Hkeep : forall t0, t0 <> t -> ~ In t0 (take_w ms (u_scv s)) -> ~ In t0 (take_w mr (u_rcv s)) ->
                  u_w s' t0 = u_w s t0).
  { intros t0 Hne A B. rewrite (Hw _ Hne). destruct (memt t0 _) eqn:M; [|reflexivity].
    apply memt_In, in_app_or in M. tauto. }
  constructor.
  - intros t0 E. destruct (Nat.eq_dec t0 t) as [->|Hne].
    + apply Hwt in E. rewrite Hpct, Hscv', Hrcv'. apply orb_prop in E. destruct E as [E|E]; rewrite E; [left|right].
      all: split; [reflexivity|]; apply in_or_app; right; left; reflexivity.
    + destruct (Hsl _ Hne E) as (E0 & N1 & N2). rewrite (Hpco _ Hne), Hscv', Hrcv'.
      destruct (r_sl0 _ E0) as [[A B]|[A B]]; [left|right].
      all: split; [exact A|]; apply in_or_app; left; apply rest_w_keep; assumption.
  - rewrite Hscv'. apply (waits_step ws12 wrp s s' t p' ms mr _ (u_rcv s)); auto.
    + exact ws_wr.
    + intros E. apply Hwt. rewrite E. reflexivity.
  - rewrite Hrcv'. apply (waits_step wrp ws12 s s' t p' mr ms _ (u_scv s)); auto.
    + intros p A B. exact (ws_wr p B A).
    + intros E. apply Hwt. rewrite E. apply orb_true_r.
  - intros C. destruct (Hcl C) as [->|(C0 & Hns & Hall)]; [left; exists t; exact Hpct|].
    assert (Ht : u_w s' t <> Asleep) by (intros E; apply Hwt in E; congruence).
    destruct (r_cl0 C0) as [[c Hc]|Hno].
    + destruct (Nat.eq_dec c t) as [->|Hne]; [|left; exists c; rewrite (Hpco _ Hne); exact Hc].
      right. destruct (Hall Hc) as [-> ->]. cbn in *. intros t0 E.
      destruct (Nat.eq_dec t0 t) as [->|Hne]; [contradiction|].
      destruct (Hsl _ Hne E) as (E0 & N1 & N2). destruct (r_sl0 _ E0) as [[_ B]|[_ B]]; contradiction.
    + right. intros t0 E. destruct (Nat.eq_dec t0 t) as [->|Hne]; [contradiction|].
      destruct (Hsl _ Hne E) as (E0 & _). exact (Hno _ E0).
  - intros Sn Rn. destruct Hslot as [X|[(S0 & -> & Hns)|(S0 & Hsl' & Hmv & Hnu)]]; [contradiction| |].
    + apply orb_false_elim in Hns. rewrite (proj2 Hns), app_nil_r in Hrcv'. cbn in *.
      destruct (u_rcv s) as [|h r] eqn:Er; [rewrite Hrcv' in Rn; contradiction|].
      assert (Hh : In h (h :: r)) by (left; reflexivity).
      destruct (Qr _ Hh) as [A B]. assert (Hne : h <> t) by (intros ->; contradiction).
      exists h. left. rewrite (Hpco _ Hne). split; [exact B|]. rewrite (Hw _ Hne).
      replace (memt h _) with true; [reflexivity|]. symmetry. apply memt_In. apply in_or_app. right. left. reflexivity.
    + assert (Rn0 : u_rcv s <> []).
      { intros E. rewrite E in *. apply Rn. rewrite Hrcv', Hsl'. destruct mr; reflexivity. }
      destruct (r_slot0 S0 Rn0) as [x [[A B]|A]].
      * destruct (Nat.eq_dec x t) as [->|Hne].
        -- exists t. right. rewrite Hpct. apply Hmv; [exact A|rewrite B; reflexivity].
        -- exists x. left. rewrite (Hpco _ Hne). split; [exact A|]. rewrite (Hw _ Hne), B. destruct (memt x _); reflexivity.
      * destruct (Nat.eq_dec x t) as [->|Hne]; [congruence|]. exists x. right. rewrite (Hpco _ Hne). exact A.
  - intros t0 v e q Ep E. destruct (Nat.eq_dec t0 t) as [->|Hne].
    + rewrite Hpct in Ep. exact (Hq1 _ _ _ Ep).
    + destruct (Hsl _ Hne E) as (E0 & N1 & _). rewrite (Hpco _ Hne) in Ep.
      destruct Hq2 as [Hq2|Hq2]; [rewrite Hq2; eapply r_w3; eauto|subst ms].
      exfalso. cbn in N1. destruct (r_sl0 _ E0) as [[_ B]|[B _]]; [contradiction|]. rewrite Ep in B. discriminate.
Qed.

Lemma in_remove_tid x t l : In x (remove_tid t l) <-> In x l /\ x <> t.
Proof.
  induction l as [|h r IH]; cbn; [tauto|]. destruct (Nat.eqb_spec h t) as [->|Hne]; cbn; rewrite IH; intuition congruence.
Qed.
Lemma nodup_remove_tid t l : NoDup l -> NoDup (remove_tid t l).
Proof.
  induction 1 as [|h r Hn ND IH]; cbn; [constructor|]. destruct (Nat.eqb h t); auto.
  constructor; auto. rewrite in_remove_tid. tauto.
Qed.

Lemma waits_remove wq q s s' t :
  waits wq q s -> u_pc s' = u_pc s -> (forall x, x <> t -> u_w s' x = u_w s x) -> waits wq (remove_tid t q) s'.
Proof.
  intros [ND Q] Hpc Hw. split; [apply nodup_remove_tid; exact ND|].
  intros x Hin. apply in_remove_tid in Hin. destruct Hin as [Hin Hne]. rewrite Hpc, (Hw _ Hne). auto.
Qed.

Lemma RI_utimer s t s' : RI s -> utimer s t = Some s' -> RI s'.
Proof.
  intros I H. unfold utimer in H. destruct (u_w s t) eqn:Ew; try discriminate.
  destruct (u_dl s t <=? u_now s); [|discriminate]. inversion H; subst; clear H. destruct I.
  assert (Hw : forall t0, t0 <> t -> upd (u_w s) t (Woken true) t0 = u_w s t0) by (intros; apply upd_other; auto).
  assert (Hwt : upd (u_w s) t (Woken true) t = Woken true) by apply upd_same.
  constructor; cbn.
  - intros t0 E. destruct (Nat.eq_dec t0 t) as [->|Hne]; [rewrite Hwt in E; discriminate|].
    rewrite (Hw _ Hne) in E. rewrite !in_remove_tid. destruct (r_sl0 _ E) as [[A B]|[A B]]; auto.
  - apply (waits_remove _ _ s); [assumption|reflexivity|exact Hw].
  - apply (waits_remove _ _ s); [assumption|reflexivity|exact Hw].
  - intros C. destruct (r_cl0 C) as [X|X]; [left; exact X|right].
    intros t0 E. destruct (Nat.eq_dec t0 t) as [->|Hne]; [rewrite Hwt in E; discriminate|].
    rewrite (Hw _ Hne) in E. exact (X _ E).
  - intros Sn Rn. assert (Rn0 : u_rcv s <> []) by (intros E; rewrite E in Rn; apply Rn; reflexivity).
    destruct (r_slot0 Sn Rn0) as [x [[A B]|A]]; exists x.
    + left. split; [exact A|]. assert (x <> t) by (intros ->; congruence). rewrite Hw; auto.
    + right. exact A.
  - intros t0 v e q Ep E. destruct (Nat.eq_dec t0 t) as [->|Hne]; [rewrite Hwt in E; discriminate|].
    rewrite (Hw _ Hne) in E. eapply r_w3; eauto.
Qed.

(* for clause 4: a sender asleep in loop 1 while a receiver is registered and the slot is free *)
Definition regR (p : upc) : bool := match p with UR_l _ | UR_w _ => true | _ => false end.
Definition ws1 (p : upc) : bool := match p with US_w1 _ _ => true | _ => false end.
Definition fixing (p : upc) : bool := match p with US_l1 _ _ | US_ck _ _ => true | _ => false end.
Definition cntR (pc : tid -> upc) (L : list tid) : nat := length (filter (fun t => regR (pc t)) L).
Definition b2n (b : bool) : nat := if b then 1%nat else 0%nat.

Lemma cnt_upd_notin pc t p L : ~ In t L -> cntR (upd pc t p) L = cntR pc L.
Proof.
  unfold cntR. induction L as [|h r IH]; intros Hn; cbn; [reflexivity|].
  assert (h <> t) by (intros ->; apply Hn; left; reflexivity).
  rewrite upd_other by assumption. destruct (regR (pc h)); cbn; rewrite IH; auto; intros X; apply Hn; right; exact X.
Qed.
Lemma cnt_upd_in pc t p L : NoDup L -> In t L ->
  (cntR (upd pc t p) L + b2n (regR (pc t)) = cntR pc L + b2n (regR p))%nat.
Proof.
  unfold cntR. induction 1 as [|h r Hn ND IH]; intros Hin; [contradiction|]. cbn.
  destruct Hin as [->|Hin].
  - rewrite upd_same. pose proof (cnt_upd_notin pc t p r Hn) as E. unfold cntR in E.
    destruct (regR p), (regR (pc t)); cbn; rewrite E; lia.
  - assert (h <> t) by (intros ->; contradiction). rewrite upd_other by assumption.
    specialize (IH Hin). destruct (regR (pc h)); cbn; lia.
Qed.
Lemma cnt_pos pc L t : In t L -> regR (pc t) = true -> (0 < cntR pc L)%nat.
Proof.
  unfold cntR. induction L as [|h r IH]; intros Hin Hr; [contradiction|]. cbn.
  destruct Hin as [->|Hin]; [rewrite Hr; cbn; lia|]. destruct (regR (pc h)); cbn; [lia|auto].
Qed.

Record RI2 (s : ust) : Prop := mkRI2 {
  c_rw : exists L, NoDup L /\ (forall t, regR (u_pc s t) = true -> In t L) /\ u_rw s = Z.of_nat (cntR (u_pc s) L);
  c_C : forall S, ws1 (u_pc s S) = true -> u_w s S = Asleep -> 0 < u_rw s -> u_slot s = None -> u_closed s = false ->
        exists x, (ws1 (u_pc s x) = true /\ u_w s x = Woken false) \/ fixing (u_pc s x) = true
}.
Lemma RI2_init progs now0 : RI2 (u_init progs now0).
Proof. constructor; cbn; [exists []; repeat split; [constructor|discriminate]|discriminate]. Qed.

(* the same for RI2: the receiver count follows the pcs, and a loop-1 sender is left waiting only with reason *)
Definition ri2_cond (c c' : ucore) (t : tid) (to : bool) (p' : upc) (ms : wmode) : Prop :=
  uc_rw c' = uc_rw c + Z.of_nat (b2n (regR p')) - Z.of_nat (b2n (regR (uc_pc c t))) /\
  (ws1 p' = true -> uc_rw c' <= 0 \/ uc_slot c' <> None) /\
  (ms = W1 -> uc_slot c' = uc_slot c) /\
  (ws1 (uc_pc c t) = true -> to = false -> fixing p' = true) /\
  (fixing (uc_pc c t) = true ->
     fixing p' = true \/ ~ (0 < uc_rw c' /\ uc_slot c' = None /\ uc_closed c' = false)) /\
  (ms = W0 -> (0 < uc_rw c' -> 0 < uc_rw c) /\ (uc_slot c' = None -> uc_slot c = None) /\
              (uc_closed c' = false -> uc_closed c = false)).

Lemma RI2_step s t s' p' (ms mr : wmode) (to : bool) :
  RI s -> UInv (ucore_of s) -> RI2 s ->
  u_w s t <> Asleep -> (u_w s t = Woken false -> to = false) ->
  usync s s' t p' ms mr ->
  ri2_cond (ucore_of s) (ucore_of s') t to p' ms ->
  RI2 s'.
Proof.
  intros I UI I2 Hrun Hto Sy (Hrw & Hi & Hw1 & Hmv & Hfix & Hmono).
  cbn [ucore_of uc_closed uc_slot uc_rw uc_pc] in Hrw, Hi, Hw1, Hmv, Hfix, Hmono.
  destruct I2 as [(L & ND & HL & Erw) HC].
  pose proof (fun t0 => usync_w_other _ _ _ _ _ _ t0 Sy) as Hw. pose proof (sy_pc _ _ _ _ _ _ Sy) as Hpc.
  assert (Hpco : forall t0, t0 <> t -> u_pc s' t0 = u_pc s t0) by (intros; rewrite Hpc; apply upd_other; auto).
  assert (Hpct : u_pc s' t = p') by (rewrite Hpc; apply upd_same).
  constructor.
  - destruct (in_dec Nat.eq_dec t L) as [Hin|Hnin].
    + exists L. split; [exact ND|]. split.
      * intros t0 Hr. destruct (Nat.eq_dec t0 t) as [->|Hne]; [exact Hin|]. rewrite (Hpco _ Hne) in Hr. auto.
      * rewrite Hrw, Erw, Hpc. pose proof (cnt_upd_in (u_pc s) t p' L ND Hin). lia.
    + exists (t :: L). split; [constructor; auto|]. split.
      * intros t0 Hr. destruct (Nat.eq_dec t0 t) as [->|Hne]; [left; reflexivity|]. rewrite (Hpco _ Hne) in Hr. right. auto.
      * assert (Hnr : regR (u_pc s t) = false).
        { destruct (regR (u_pc s t)) eqn:E; [|reflexivity]. exfalso. apply Hnin. auto. }
        rewrite Hrw, Erw, Hpc, Hnr. pose proof (cnt_upd_notin (u_pc s) t p' L Hnin) as E. unfold cntR in *. cbn.
        rewrite upd_same. destruct (regR p'); cbn; rewrite E; lia.
  - intros S HS1 HSa Hr Hs Hc.
    destruct (Nat.eq_dec S t) as [->|Hne].
    { rewrite Hpct in HS1. destruct (Hi HS1); [lia|contradiction]. }
    rewrite (Hpco _ Hne) in HS1. rewrite (Hw _ Hne) in HSa.
    destruct (memt S _) eqn:M; [discriminate|].
    rewrite memt_app in M. apply orb_false_elim in M. destruct M as [M _].
    assert (Sq : In S (u_scv s)).
    { destruct (r_sl _ I _ HSa) as [[_ B]|[B _]]; [exact B|]. destruct (u_pc s S); discriminate. }
    destruct ms.
    + (* nobody of the send queue woken *)
      destruct (Hmono eq_refl) as (M1 & M2 & M3).
      destruct (HC S HS1 HSa (M1 Hr) (M2 Hs) (M3 Hc)) as [x [[A B]|A]].
      * destruct (Nat.eq_dec x t) as [->|Hx].
        -- exists t. right. rewrite Hpct. auto.
        -- exists x. left. rewrite (Hpco _ Hx). split; [exact A|]. rewrite (Hw _ Hx). destruct (memt x _); auto.
      * destruct (Nat.eq_dec x t) as [->|Hx].
        -- destruct (Hfix A) as [F|F]; [exists t; right; rewrite Hpct; exact F|]. exfalso. apply F. auto.
        -- exists x. right. rewrite (Hpco _ Hx). exact A.
    + (* the head of the send queue woken *)
      cbn in M. destruct (u_scv s) as [|h r] eqn:Eq; [contradiction|]. cbn in M.
      assert (Hh : In h (u_scv s)) by (rewrite Eq; left; reflexivity).
      destruct (proj2 (r_s _ I) _ Hh) as [Ha Hp]. assert (Hht : h <> t) by (intros ->; contradiction).
      assert (Whk : u_w s' h = Woken false).
      { rewrite (Hw _ Hht). replace (memt h _) with true; [reflexivity|]. symmetry. rewrite memt_app.
        apply orb_true_intro. left. apply memt_In. left. reflexivity. }
      destruct (u_pc s h) eqn:Eh; try discriminate Hp.
      * exists h. left. rewrite (Hpco _ Hht), Eh. auto.
      * exfalso. pose proof (r_w2 _ I _ _ _ _ Eh Ha) as Eqq.
        destruct (u_val _ UI h v (Post q)) as (_ & _ & X); [cbn; rewrite Eh; reflexivity|].
        cbn in X. rewrite (Hw1 eq_refl) in Hs. destruct X as [(_ & X & _)|(X & _)]; [rewrite Hs in X; discriminate X|lia].
    + exfalso. apply memt_In in Sq. unfold take_w in M. rewrite Sq in M. discriminate M.
Qed.

(* the steps of the repaired code meet both conditions *)
Lemma ucstep_release c t to c' ms mr p' :
  local_ok c (uc_pc c t) -> ucstep true c t to = Some (c', ms, mr) -> uc_pc c' t = p' ->
  ri_cond c c' t to p' ms mr /\ ri2_cond c c' t to p' ms.
Proof.
  unfold ri_cond, ri2_cond, ucstep, quiet. intros Hck H Hp. cbv iota in H.
  destruct (uc_pc c t) eqn:Epc.
  all: try (destruct (uc_prog c t) as [|[] ?]; [discriminate|..]).
  all: repeat match type of H with
       | context [if ?b then _ else _] => destruct b eqn:?
       | context [match uc_slot ?c with _ => _ end] => destruct (uc_slot c) eqn:?
       end.
  all: inversion H; subst c' ms mr; clear H; cbn in Hp; rewrite upd_same in Hp; subst p'.
  all: cbn; repeat apply conj.
  all: try solve [ lia ].
  (* closed: only close() sets it, and only the wait branches (taken while it is clear) go to sleep *)
  all: try solve [ intros C; first
         [ left; reflexivity
         | right; split; [first [exact C|reflexivity]|]; split; [reflexivity|]; intros X; first [discriminate X|split; reflexivity]
         | congruence ] ].
  (* seq: a sender goes to sleep in loop 2 only with the current take count; takes notify all senders *)
  all: try solve [ first [left; reflexivity|right; reflexivity] ].
  all: try solve [ intros v' e' q' X; first
         [ discriminate X
         | inversion X; subst; symmetry; apply Nat.eqb_eq, negb_false_iff; assumption ] ].
  (* slot: emptied, or filled from empty with one receiver notified, or left as it was *)
  all: try solve [ first
         [ left; reflexivity
         | left; assumption
         | right; left; split; [|split; reflexivity];
           first [ destruct Hck; congruence
                 | match goal with E : _ && negb (is_some _) = true |- _ =>
                     apply andb_prop in E; destruct E as [_ E]; destruct (uc_slot c); [discriminate E|reflexivity] end ]
         | destruct (uc_slot c); [|left; reflexivity];
           right; right; split; [discriminate|]; split; [reflexivity|]; split; [|reflexivity];
           intros X; first [discriminate X|intros Y; first [discriminate Y|reflexivity]] ] ].
  all: try solve [ intros X; first [discriminate X|reflexivity] ].
  all: try solve [ intros X Y; first [discriminate X|discriminate Y|reflexivity] ].
  (* a step that notifies no sender makes none of `a receiver is registered`, `the slot is free`, `open` true *)
  all: try solve [ intros _; repeat split; intros; first [assumption|lia|congruence] ].
  all: intros _; try solve [ left; reflexivity | right; intros (A & B & C); first [discriminate B|congruence] ].
  (* loop 1 is left for a wait or a timeout only with no receiver registered or the slot occupied *)
  all: match goal with E : (_ =? 0) || is_some _ = true |- _ =>
         apply orb_prop in E; destruct E as [E|E];
         first [ right; intros (A & B & C); first [apply Z.eqb_eq in E; lia|rewrite B in E; discriminate E]
               | apply Z.eqb_eq in E; left; lia
               | right; destruct (uc_slot c); [discriminate|discriminate E] ]
       end.
Qed.

Lemma release_ustep s t s' : UInv (ucore_of s) -> RI s -> RI2 s -> ustep true s t = Some s' -> RI s' /\ RI2 s'.
Proof.
  intros UI I I2 H. destruct (ustep_sum _ _ _ _ H) as (p' & ms & mr & Hc & Sy).
  pose proof (ustep_awake _ _ _ _ H) as Hrun.
  destruct (ucstep_release _ _ _ _ _ _ p' (u_ck _ UI t) Hc) as [A B].
  { cbn. rewrite (sy_pc _ _ _ _ _ _ Sy). apply upd_same. }
  split; [eapply RI_step; eauto|].
  apply (RI2_step s t s' p' ms mr (timedout (u_w s t))); auto. intros X; rewrite X; reflexivity.
Qed.

Lemma RI2_utimer s t s' : RI s -> RI2 s -> utimer s t = Some s' -> RI2 s'.
Proof.
  intros I [HL HC] H. unfold utimer in H. destruct (u_w s t) eqn:Ew; try discriminate.
  destruct (u_dl s t <=? u_now s); [|discriminate]. inversion H; subst; clear H.
  constructor; cbn; [exact HL|].
  intros S HS1 HSa Hr Hs Hc.
  assert (Hne : S <> t) by (intros ->; rewrite upd_same in HSa; discriminate).
  rewrite upd_other in HSa by assumption.
  destruct (HC S HS1 HSa Hr Hs Hc) as [x [[A B]|A]]; exists x.
  - left. split; [exact A|]. assert (x <> t) by (intros ->; congruence). rewrite upd_other; auto.
  - right. exact A.
Qed.
Theorem release_reach progs now0 s : ureach true progs now0 s -> RI s /\ RI2 s.
Proof.
  induction 1 as [|s l s' R [I I2] H].
  - split; [apply RI_init|apply RI2_init].
  - destruct l as [t|t|d]; cbn in H.
    + eapply release_ustep; eauto. eapply uinv_reach; eauto.
    + split; [eapply RI_utimer|eapply RI2_utimer]; eauto.
    + inversion H; subst. destruct I, I2. split; constructor; cbn; auto.
Qed.

(* quiescent: the mutex is free and every thread is between two operations or asleep in a cv wait *)
Definition uquiescent (s : ust) : Prop :=
  u_mtx s = None /\ forall t, u_pc s t = UIdle \/ u_w s t = Asleep.

(* the release clause as C09_Proofs.v states it: after close() nobody is left asleep; no receiver asleep while a value
   is in the slot; no sender asleep in loop 2 after its value was taken; no sender asleep in loop 1 (waiting for a
   receiver / the slot) while a receiver is asleep *)
Theorem unbuf_release : chan_release_unbuffered.
Proof.
  intros progs now0 s R [_ Q]. destruct (release_reach _ _ _ R) as [I I2].
  (* an active thread contradicts quiescence *)
  assert (Act : forall x, u_pc s x <> UIdle -> u_w s x <> Asleep -> False).
  { intros x A B. destruct (Q x); contradiction. }
  assert (C1 : u_closed s = true -> forall t, u_w s t <> Asleep).
  { intros C. destruct (r_cl _ I C) as [[c Hc]|X]; [|exact X]. exfalso. apply (Act c); [rewrite Hc; discriminate|].
    intros E. destruct (r_sl _ I _ E) as [[A _]|[A _]]; rewrite Hc in A; discriminate. }
  assert (C2 : forall t e, u_pc s t = UR_w e -> u_w s t = Asleep -> u_slot s = None).
  { intros t e Ep E. destruct (u_slot s) eqn:Es; [|reflexivity]. exfalso.
    assert (Rn : u_rcv s <> []).
    { destruct (r_sl _ I _ E) as [[A _]|[_ B]]; [rewrite Ep in A; discriminate|]. intros X. rewrite X in B. exact B. }
    assert (Sn : u_slot s <> None) by (rewrite Es; discriminate).
    destruct (r_slot _ I Sn Rn) as [x [[A B]|A]].
    - apply (Act x); [destruct (u_pc s x); discriminate|rewrite B; discriminate].
    - apply (Act x); [destruct (u_pc s x); discriminate|].
      intros E2. destruct (r_sl _ I _ E2) as [[X _]|[X _]]; destruct (u_pc s x); discriminate. }
  split; [exact C1|]. split; [exact C2|]. split.
  - intros t v e q Ep E. exact (r_w2 _ I _ _ _ _ Ep E).
  - intros t1 v e t2 e2 Ep1 E1 Ep2 E2.
    assert (Hrw : 0 < u_rw s).
    { destruct (c_rw _ I2) as (L & ND & HL & Erw). rewrite Erw.
      assert (Hr : regR (u_pc s t2) = true) by (rewrite Ep2; reflexivity).
      pose proof (cnt_pos (u_pc s) L t2 (HL _ Hr) Hr). lia. }
    assert (Hcl : u_closed s = false).
    { destruct (u_closed s) eqn:C; [|reflexivity]. exfalso. exact (C1 eq_refl t1 E1). }
    assert (H1 : ws1 (u_pc s t1) = true) by (rewrite Ep1; reflexivity).
    destruct (c_C _ I2 t1 H1 E1 Hrw (C2 _ _ Ep2 E2) Hcl) as [x [[A B]|A]].
    + apply (Act x); [destruct (u_pc s x); discriminate|rewrite B; discriminate].
    + apply (Act x); [destruct (u_pc s x); discriminate|].
      intros E3. destruct (r_sl _ I _ E3) as [[X _]|[X _]]; destruct (u_pc s x); discriminate.
Qed.

(* a sender in loop 2 whose value has not been taken still has it in the slot *)
Lemma w2_slot progs now0 s t v e q :
  ureach true progs now0 s -> u_pc s t = US_w2 v e q -> q = u_seq s -> u_slot s = Some v.
Proof.
  intros R Ep Eq. destruct (u_val _ (uinv_reach _ _ _ R) t v (Post q)) as (_ & _ & X); [cbn; rewrite Ep; reflexivity|].
  cbn in X. destruct X as [(_ & X & _)|(X & _)]; [exact X|lia].
Qed.

(* the hypotheses are met by a non-trivial state: the F10 schedule on the repaired code ends quiescent with
   sender 3 asleep in loop 1 (no receiver left), value (2,0) delivered *)
Example unbuf_release_example :
  exists s, ureach true C09_Witness.f10_progs 1000 s /\ uquiescent s /\ u_w s 3%nat = Asleep /\
            (exists v e, u_pc s 3%nat = US_w1 v e) /\ u_taken s = [(2, 0)%nat].
Proof.
  destruct C09_Witness.f10_fixed_behaviour as (s & H & A & _).
  exists s. split; [eapply urun_reach; [apply ureach_init|exact H]|].
  revert H. vm_compute. intros H. inversion H; subst; clear H. vm_compute.
  split; [split; [reflexivity|]|].
  - intros t. do 4 (destruct t as [|t]; [vm_compute; auto|]). left. reflexivity.
  - split; [reflexivity|]. split; [do 2 eexists; reflexivity|reflexivity].
Qed.
