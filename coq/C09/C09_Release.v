(* C09_Release.v — the clauses that C09_Proofs.v states as `Definition … : Prop`, proved (from C09_BufTimeProofs.v,
   C09_UnbufRelease.v); the release clause of the buffered channel is refuted in C09_Witness2.v. *)
From Coq Require Import ZArith List.
From PV Require Import C09.C09_Proofs.
From PV Require Export C09.C09_BufTimeProofs C09.C09_UnbufRelease C09.C09_Witness2.
Import ListNotations.
Local Open Scope Z_scope.

(* buffered half of "false only because of an expired timeout" (statement of C09_Proofs.v) *)
Theorem chan_timeout_reason_buffered_proved : chan_timeout_reason_buffered.
Proof.
  intros fx mcap progs now0 s e R Hin Hr. destruct (BT_reach _ _ _ _ _ R) as [_ B]. rewrite Forall_forall in B. exact (B _ Hin Hr).
Qed.

(* release clause of the repaired unbuffered channel (statement of C09_Proofs.v) *)
Theorem chan_release_unbuffered_proved : chan_release_unbuffered.
Proof. exact unbuf_release. Qed.
