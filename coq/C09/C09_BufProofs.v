(* C09_BufProofs.v — the inductive ledger invariant of the buffered-channel model (C09_Buf.v) over EVERY
   schedule (any number of threads / vCPUs, any timing); the clauses of C09 it gives are in C09_Properties.v. *)
From Coq Require Import ZArith List Bool Lia.
From PV Require Import Base.U64 C09.C09_Common C09.C09_Buf.
Import ListNotations.
Local Open Scope Z_scope.

Inductive breach (fx : bool) (mcap : Z) (progs : tid -> list op) (now0 : Z) : bst -> Prop :=
| breach_init : breach fx mcap progs now0 (b_init progs now0)
| breach_step s l s' : breach fx mcap progs now0 s -> blstep fx mcap s l = Some s' -> breach fx mcap progs now0 s'.

(* every run of a schedule ends in a reachable state (ties the evaluated witnesses and examples to `breach`) *)
Lemma brun_reach fx mcap progs now0 ls : forall s s', breach fx mcap progs now0 s -> brun fx mcap s ls = Some s' -> breach fx mcap progs now0 s'.
Proof.
  induction ls as [|l r IH]; intros s s' R H; cbn in H; [inversion H; subst; exact R|].
  destruct (blstep fx mcap s l) eqn:E; [|discriminate]. eapply IH; [|exact H]. eapply breach_step; eauto.
Qed.

(* the part of the state the ledger invariant talks about *)
Record core : Type := mkCore {
  c_pc : tid -> bpc; c_cnt : tid -> nat; c_pushed : list val; c_popped : list val;
  c_q : list (val * bool); c_log : list event; c_closed : bool; c_now : Z;
  c_prog : tid -> list op; c_sw : Z; c_rw : Z; c_head : Z
}.
Definition core_of (s : bst) : core :=
  mkCore (b_pc s) (b_cnt s) (b_pushed s) (b_popped s) (b_q s) (b_log s) (b_closed s) (b_now s)
         (b_prog s) (b_sw s) (b_rw s) (b_head s).

Lemma bwake_list_core s l : core_of (bwake_list s l) = core_of s.
Proof. revert s. induction l as [|h r IH]; intros s; cbn; [reflexivity|]. rewrite IH. reflexivity. Qed.
Lemma put_sem_core s x m : core_of (put_sem s x m) = core_of s.
Proof. destruct x; reflexivity. Qed.
Lemma sem_signal_core s x n : core_of (sem_signal s x n) = core_of s.
Proof.
  unfold sem_signal. destruct (resume_n _ _) as [wok rest]. rewrite bwake_list_core. apply put_sem_core.
Qed.
Lemma sem_after_timeout_core s x : core_of (sem_after_timeout s x) = core_of s.
Proof.
  unfold sem_after_timeout. destruct (0 <? _); [|reflexivity].
  destruct (resume_n _ _) as [wok rest]. rewrite bwake_list_core. apply put_sem_core.
Qed.
Lemma sem_try_core s x s1 : sem_try s x = Some s1 -> core_of s1 = core_of s.
Proof. unfold sem_try. destruct (1 <=? _); intros H; inversion H. apply put_sem_core. Qed.

Definition core_goto (c : core) (t : tid) (p : bpc) : core :=
  mkCore (upd (c_pc c) t p) (c_cnt c) (c_pushed c) (c_popped c) (c_q c) (c_log c) (c_closed c) (c_now c)
         (c_prog c) (c_sw c) (c_rw c) (c_head c).
Lemma sem_sleep_core s x t e p : core_of (sem_sleep s x t e p) = core_goto (core_of s) t p.
Proof. unfold sem_sleep. destruct x; reflexivity. Qed.

Lemma core_pc s : b_pc s = c_pc (core_of s). Proof. reflexivity. Qed.
Lemma core_cnt s : b_cnt s = c_cnt (core_of s). Proof. reflexivity. Qed.
Lemma core_pushed s : b_pushed s = c_pushed (core_of s). Proof. reflexivity. Qed.
Lemma core_popped s : b_popped s = c_popped (core_of s). Proof. reflexivity. Qed.
Lemma core_q s : b_q s = c_q (core_of s). Proof. reflexivity. Qed.
Lemma core_log s : b_log s = c_log (core_of s). Proof. reflexivity. Qed.
Lemma core_closed s : b_closed s = c_closed (core_of s). Proof. reflexivity. Qed.
Lemma core_now s : b_now s = c_now (core_of s). Proof. reflexivity. Qed.

(* the step function seen on the core: semaphores and wake-ups abstracted to two oracle bits
   (to = the wake-up was the timeout; got = the semaphore count could be subtracted) *)
Definition c_finish (c : core) (t : tid) (k : opkind) (v : option val) (r : res) (e : Z) (aux : nat) : core :=
  mkCore (upd (c_pc c) t BIdle) (c_cnt c) (c_pushed c) (c_popped c) (c_q c)
         (mkEv t k v r (c_now c) e aux :: c_log c) (c_closed c) (c_now c)
         (upd (c_prog c) t (tl (c_prog c t))) (c_sw c) (c_rw c) (c_head c).
Definition c_start_send (c : core) (t : tid) (p : bpc) : core :=
  mkCore (upd (c_pc c) t p) (upd (c_cnt c) t (S (c_cnt c t))) (c_pushed c) (c_popped c) (c_q c) (c_log c)
         (c_closed c) (c_now c) (c_prog c) (c_sw c) (c_rw c) (c_head c).
Definition c_push (c : core) (t : tid) (v : val) (p : bpc) : core :=
  mkCore (upd (c_pc c) t p) (c_cnt c) (c_pushed c ++ [v]) (c_popped c) (c_q c ++ [(v, false)]) (c_log c)
         (c_closed c) (c_now c) (c_prog c) (c_sw c) (c_rw c) (c_head c).
Definition c_publish (c : core) (t : tid) (v : val) (p : bpc) : core :=
  mkCore (upd (c_pc c) t p) (c_cnt c) (c_pushed c) (c_popped c) (publish v (c_q c)) (c_log c)
         (c_closed c) (c_now c) (c_prog c) (c_sw c) (c_rw c) (c_head c).
Definition c_pop (c : core) (t : tid) (v : val) (r : list (val * bool)) (p : bpc) : core :=
  mkCore (upd (c_pc c) t p) (c_cnt c) (c_pushed c) (c_popped c ++ [v]) r (c_log c)
         (c_closed c) (c_now c) (c_prog c) (c_sw c) (c_rw c) (c_head c + 1).
Definition c_set_sw (c : core) (x : Z) : core :=
  mkCore (c_pc c) (c_cnt c) (c_pushed c) (c_popped c) (c_q c) (c_log c) (c_closed c) (c_now c) (c_prog c) x (c_rw c) (c_head c).
Definition c_set_rw (c : core) (x : Z) : core :=
  mkCore (c_pc c) (c_cnt c) (c_pushed c) (c_popped c) (c_q c) (c_log c) (c_closed c) (c_now c) (c_prog c) (c_sw c) x (c_head c).
Definition c_set_closed (c : core) : core :=
  mkCore (c_pc c) (c_cnt c) (c_pushed c) (c_popped c) (c_q c) (c_log c) true (c_now c) (c_prog c) (c_sw c) (c_rw c) (c_head c).

Definition cstep (fx : bool) (mcap : Z) (c : core) (t : tid) (to got : bool) : option core :=
    match c_pc c t with
    | BIdle =>
        match c_prog c t with
        | [] => None
        | OSend d :: _ => Some (c_start_send c t (BS_cl (t, c_cnt c t) (MBlock (timeout_of (c_now c) d))))
        | ORecv d :: _ => Some (core_goto c t (BR_pop (MBlock (timeout_of (c_now c) d))))
        | OTrySend :: _ => Some (c_start_send c t (BS_cl (t, c_cnt c t) MTry))
        | OTryRecv :: _ => Some (core_goto c t (BR_pop MTry))
        | OClose :: _ => Some (core_goto c t BC_x)
        | OYield :: _ => Some (c_finish c t KYield None ROk 0 O)
        end
    | BS_cl v m =>
        if c_closed c then Some (c_finish c t (kS m) (Some v) RClosed (mexp m) O)
        else Some (core_goto c t (BS_rt v m))
    | BS_rt v m => Some (core_goto c t (BS_rh v m (c_head c + Z.of_nat (length (c_q c)))))
    | BS_rh v m tl =>
        if u64_sub tl (c_head c) <? mcap then Some (core_goto c t (BS_push v m))
        else match m with
             | MTry => Some (c_finish c t KTrySend (Some v) RNo 0 O)
             | MBlock e => Some (core_goto c t (BS_exp v e))
             end
    | BS_push v m =>
        if Z.of_nat (length (c_q c)) <? ring_cap mcap
        then Some (c_push c t v (BS_pub v m))
        else match m with
             | MTry => Some (c_finish c t KTrySend (Some v) RNo 0 O)
             | MBlock e => Some (core_goto c t (BS_exp v e))
             end
    | BS_pub v m => Some (c_publish c t v (BS_lrw v m))
    | BS_lrw v m =>
        if 0 <? c_rw c then Some (core_goto c t (BS_sig v m))
        else Some (c_finish c t (kS m) (Some v) ROk (mexp m) O)
    | BS_sig v m => Some (c_finish c t (kS m) (Some v) ROk (mexp m) O)
    | BS_exp v e =>
        if expired (c_now c) e then Some (c_finish c t KSend (Some v) RTimeout e O)
        else Some (core_goto c t (BS_reg v e))
    | BS_reg v e => Some (core_goto (c_set_sw c (c_sw c + 1)) t (if fx then BS_rc v e else BS_wait v e))
    | BS_rc v e => if c_closed c then Some (core_goto c t (BS_unreg v e false)) else Some (core_goto c t (BS_rct v e))
    | BS_rct v e => Some (core_goto c t (BS_rch v e (c_head c + Z.of_nat (length (c_q c)))))
    | BS_rch v e tl =>
        if u64_sub tl (c_head c) <? mcap then Some (core_goto c t (BS_unreg v e false)) else Some (core_goto c t (BS_wait v e))
    | BS_wait v e => if got then Some (core_goto c t (BS_unreg v e false)) else Some (core_goto c t (BS_slp v e))
    | BS_slp v e =>
        if to then Some (core_goto c t (BS_unreg v e true))
        else if got then Some (core_goto c t (BS_unreg v e false)) else Some (core_goto c t (BS_slp v e))
    | BS_unreg v e tmo =>
        let c1 := c_set_sw c (c_sw c - 1) in
        if tmo then Some (c_finish c1 t KSend (Some v) RTimeout e O)
        else Some (core_goto c1 t (BS_cl v (MBlock e)))
    | BR_pop m =>
        match c_q c with
        | (v, true) :: r => Some (c_pop c t v r (BR_lsw m v))
        | (_, false) :: _ => Some c
        | [] =>
            match m with
            | MTry => Some (c_finish c t KTryRecv None RNo 0 O)
            | MBlock e => Some (core_goto c t (BR_cl e (length (c_pushed c))))
            end
        end
    | BR_lsw m v =>
        if 0 <? c_sw c then Some (core_goto c t (BR_sig m v))
        else Some (c_finish c t (kR m) (Some v) ROk (mexp m) O)
    | BR_sig m v => Some (c_finish c t (kR m) (Some v) ROk (mexp m) O)
    | BR_cl e np =>
        if c_closed c then Some (c_finish c t KRecv None RClosed e np)
        else Some (core_goto c t (BR_exp e))
    | BR_exp e =>
        if expired (c_now c) e then Some (c_finish c t KRecv None RTimeout e O)
        else Some (core_goto c t (BR_reg e))
    | BR_reg e => Some (core_goto (c_set_rw c (c_rw c + 1)) t (if fx then BR_rc e else BR_wait e))
    | BR_rc e => if c_closed c then Some (core_goto c t (BR_unreg e false)) else Some (core_goto c t (BR_rct e))
    | BR_rct e => Some (core_goto c t (BR_rch e (c_head c + Z.of_nat (length (c_q c)))))
    | BR_rch e tl =>
        if tl =? c_head c then Some (core_goto c t (BR_wait e)) else Some (core_goto c t (BR_unreg e false))
    | BR_wait e => if got then Some (core_goto c t (BR_unreg e false)) else Some (core_goto c t (BR_slp e))
    | BR_slp e =>
        if to then Some (core_goto c t (BR_unreg e true))
        else if got then Some (core_goto c t (BR_unreg e false)) else Some (core_goto c t (BR_slp e))
    | BR_unreg e tmo =>
        let c1 := c_set_rw c (c_rw c - 1) in
        if tmo then Some (c_finish c1 t KRecv None RTimeout e O)
        else Some (core_goto c1 t (BR_pop (MBlock e)))
    | BC_x =>
        if c_closed c then Some (c_finish c t KClose None ROk 0 O)
        else Some (core_goto (c_set_closed c) t BC_ls)
    | BC_ls => Some (core_goto c t (BC_lr (c_sw c)))
    | BC_lr ns => Some (core_goto c t (BC_ss ns (c_rw c)))
    | BC_ss ns nr => Some (core_goto c t (BC_sr nr))
    | BC_sr nr => Some (c_finish c t KClose None ROk 0 O)
    end.

Lemma if_core (b : bool) s1 s2 c : core_of s1 = c -> core_of s2 = c -> core_of (if b then s1 else s2) = c.
Proof. destruct b; auto. Qed.

Lemma bfinish_core s t k v r e aux : core_of (bfinish s t k v r e aux) = c_finish (core_of s) t k v r e aux.
Proof. reflexivity. Qed.
Lemma bgoto_core s t p : core_of (bgoto s t p) = core_goto (core_of s) t p.
Proof. reflexivity. Qed.
Lemma set_b_w_core s x : core_of (set_b_w s x) = core_of s.
Proof. reflexivity. Qed.

Lemma bstep_core fx mcap s t s' :
  bstep fx mcap s t = Some s' ->
  exists to got, cstep fx mcap (core_of s) t to got = Some (core_of s') /\
                 (to = true -> b_w s t = Woken true).
Proof.
  unfold bstep, cstep. intros H.
  destruct (b_w s t) as [| |b] eqn:Ew; [exists false|discriminate|exists b].
  all: change (c_pc (core_of s) t) with (b_pc s t); destruct (b_pc s t) eqn:Epc.
  all: cbn [c_prog c_closed c_now c_q c_head c_pushed c_sw c_rw c_cnt core_of] in *.
  all: try (destruct (b_prog s t) as [|[] ?]; [discriminate|..]).
  all: repeat match type of H with
       | context [if ?b then _ else _] => destruct b eqn:?
       | context [match ?m with MTry => _ | MBlock _ => _ end] => destruct m
       | context [match sem_try ?a ?b with _ => _ end] => destruct (sem_try a b) eqn:?
       | context [match b_q ?s with _ => _ end] => destruct (b_q s) as [|[? []] ?] eqn:?
       end.
  all: inversion H; subst; clear H.
  all: repeat match goal with
       | E : sem_try _ _ = Some _ |- _ => apply sem_try_core in E; rewrite ?set_b_w_core in E
       end.
  all: rewrite ?bfinish_core, ?bgoto_core, ?sem_sleep_core, ?sem_signal_core, ?sem_after_timeout_core, ?set_b_w_core.
  all: repeat match goal with E : core_of _ = _ |- _ => rewrite E end.
  (* got: whether the semaphore could be taken *)
  all: first [exists false; split; [reflexivity|congruence] | exists true; split; [reflexivity|congruence]].
Qed.

Lemma btimer_core s t s' : btimer s t = Some s' -> core_of s' = core_of s.
Proof.
  unfold btimer. destruct (b_w s t); try discriminate. destruct (_ <=? _); [|discriminate].
  intros H; inversion H; reflexivity.
Qed.

Definition sending (p : bpc) : option (val * bool) :=       (* (value, slot already claimed?) *)
  match p with
  | BS_cl v _ | BS_rt v _ | BS_rh v _ _ | BS_push v _ | BS_exp v _ | BS_reg v _ | BS_wait v _
  | BS_slp v _ | BS_unreg v _ _ | BS_rc v _ | BS_rct v _ | BS_rch v _ _ => Some (v, false)
  | BS_pub v _ | BS_lrw v _ | BS_sig v _ => Some (v, true)
  | _ => None
  end.
Definition holding (p : bpc) : option val :=
  match p with BR_lsw _ v | BR_sig _ v => Some v | _ => None end.
Definition is_sendk (k : opkind) : bool := match k with KSend | KTrySend => true | _ => false end.
Definition is_recvk (k : opkind) : bool := match k with KRecv | KTryRecv => true | _ => false end.
Definition is_ok (r : res) : bool := match r with ROk => true | _ => false end.

(* number of send/try_send calls of t that have returned *)
Definition done_cnt (c : core) (t : tid) : nat :=
  match sending (c_pc c t) with Some _ => pred (c_cnt c t) | None => c_cnt c t end.

(* values returned by successful recv / try_recv calls, newest first *)
Fixpoint recv_vals (l : list event) : list val :=
  match l with
  | [] => []
  | e :: r => if is_recvk (e_k e) && is_ok (e_r e)
              then match e_v e with Some v => v :: recv_vals r | None => recv_vals r end
              else recv_vals r
  end.

Definition send_ev_ok (c : core) (e : event) : Prop :=
  is_sendk (e_k e) = true ->
  exists n, e_v e = Some (e_t e, n) /\ (n < done_cnt c (e_t e))%nat /\
            (e_r e = ROk <-> In (e_t e, n) (c_pushed c)).

(* values of one sender appear in increasing order of their sequence numbers *)
Definition sender_sorted (l : list val) : Prop :=
  forall l1 x l2, l = l1 ++ x :: l2 -> forall y, In y l1 -> fst y = fst x -> (snd y < snd x)%nat.

Record Inv (c : core) : Prop := mkInv {
  i_ledger : c_pushed c = c_popped c ++ map fst (c_q c);
  i_send : forall t v cl, sending (c_pc c t) = Some (v, cl) ->
             v = (t, pred (c_cnt c t)) /\ (0 < c_cnt c t)%nat /\
             (cl = true -> In v (c_pushed c)) /\ (cl = false -> ~ In v (c_pushed c));
  i_bound : forall t n, In (t, n) (c_pushed c) -> (n < c_cnt c t)%nat;
  i_nodup : NoDup (c_pushed c);
  i_log : Forall (send_ev_ok c) (c_log c);
  i_sorted : sender_sorted (c_pushed c);
  i_hold : forall t v, holding (c_pc c t) = Some v -> In v (c_popped c) /\ ~ In v (recv_vals (c_log c));
  i_hold1 : forall t1 t2 v, holding (c_pc c t1) = Some v -> holding (c_pc c t2) = Some v -> t1 = t2;
  i_rnodup : NoDup (recv_vals (c_log c));
  i_rpop : forall v, In v (recv_vals (c_log c)) -> In v (c_popped c);
  i_np : forall t e np, c_pc c t = BR_cl e np -> (np <= length (c_popped c))%nat;
  i_aux : Forall (fun e => e_k e = KRecv -> e_r e = RClosed -> (e_aux e <= length (c_popped c))%nat) (c_log c);
  i_closed : Forall (fun e => e_r e = RClosed -> c_closed c = true) (c_log c);
  i_popret : forall v, In v (c_popped c) ->
               In v (recv_vals (c_log c)) \/ exists t, holding (c_pc c t) = Some v
}.

Lemma upd_same {A} (f : tid -> A) t x : upd f t x t = x.
Proof. unfold upd. rewrite Nat.eqb_refl. reflexivity. Qed.
Lemma upd_other {A} (f : tid -> A) t x u : u <> t -> upd f t x u = f u.
Proof. unfold upd. intros H. destruct (Nat.eqb_spec u t); [contradiction|reflexivity]. Qed.

Lemma inv_init progs now0 : Inv (core_of (b_init progs now0)).
Proof.
  constructor; cbn; try discriminate; try constructor; try contradiction.
  - intros l1 x l2 H. destruct l1; discriminate.
Qed.

Lemma done_cnt_goto c t p t0 :
  sending p = sending (c_pc c t) -> done_cnt (core_goto c t p) t0 = done_cnt c t0.
Proof.
  intros H. unfold done_cnt. cbn. unfold upd. destruct (Nat.eqb_spec t0 t); [subst; rewrite H|]; reflexivity.
Qed.

Lemma send_ev_ok_ext c c' :
  c_pushed c' = c_pushed c -> (forall t, done_cnt c t <= done_cnt c' t)%nat ->
  forall e, send_ev_ok c e -> send_ev_ok c' e.
Proof.
  intros Hp Hd e H Hk. destruct (H Hk) as (n & A & B & C). exists n. rewrite Hp.
  repeat split; auto; try apply C. specialize (Hd (e_t e)). lia.
Qed.

(* the receive side of the invariant reads the pcs through `holding` and the BR_cl pcs only: a move of t that keeps
   what t holds keeps it *)
Lemma hold_goto c t p :
  Inv c -> holding p = holding (c_pc c t) -> (forall e np, p = BR_cl e np -> (np <= length (c_popped c))%nat) ->
  let pc' := upd (c_pc c) t p in
  (forall t0 v, holding (pc' t0) = Some v -> In v (c_popped c) /\ ~ In v (recv_vals (c_log c))) /\
  (forall t1 t2 v, holding (pc' t1) = Some v -> holding (pc' t2) = Some v -> t1 = t2) /\
  (forall t0 e np, pc' t0 = BR_cl e np -> (np <= length (c_popped c))%nat) /\
  (forall v, In v (c_popped c) -> In v (recv_vals (c_log c)) \/ exists t0, holding (pc' t0) = Some v).
Proof.
  intros I Hh Hn pc'. subst pc'. destruct I. split; [|split; [|split]].
  - intros t0 v. unfold upd. destruct (Nat.eqb_spec t0 t); [subst; rewrite Hh|]; eauto.
  - intros t1 t2 v. unfold upd.
    destruct (Nat.eqb_spec t1 t), (Nat.eqb_spec t2 t); subst; rewrite ?Hh; eauto.
  - intros t0 e np. unfold upd. destruct (Nat.eqb_spec t0 t); [subst; apply Hn|]; eauto.
  - intros v Hv. destruct (i_popret0 v Hv) as [X|[t0 X]]; [left; exact X|right].
    exists t0. unfold upd. destruct (Nat.eqb_spec t0 t); [subst; rewrite Hh|]; exact X.
Qed.

(* a step that only moves the pc of t between two points of the same phase *)
Lemma inv_goto c t p :
  Inv c -> sending p = sending (c_pc c t) -> holding p = holding (c_pc c t) ->
  (forall e np, p = BR_cl e np -> (np <= length (c_popped c))%nat) ->
  Inv (core_goto c t p).
Proof.
  intros I Hs Hh Hn. destruct (hold_goto c t p I Hh Hn) as (R1 & R2 & R3 & R4). destruct I. constructor; cbn; auto.
  - intros t0 v cl. unfold upd. destruct (Nat.eqb_spec t0 t); [subst; rewrite Hs|]; eauto.
  - eapply Forall_impl; [|exact i_log0]. apply send_ev_ok_ext; [reflexivity|].
    intros t0. rewrite done_cnt_goto; auto.
Qed.

(* the counters and the closed flag are not part of the ledger *)
Lemma inv_frame c c' :
  Inv c -> c_pc c' = c_pc c -> c_cnt c' = c_cnt c -> c_pushed c' = c_pushed c -> c_popped c' = c_popped c ->
  c_q c' = c_q c -> c_log c' = c_log c -> (c_closed c = true -> c_closed c' = true) -> Inv c'.
Proof.
  intros I H1 H2 H3 H4 H5 H6 H7. destruct I.
  assert (Hd : forall t, done_cnt c' t = done_cnt c t) by (intros; unfold done_cnt; rewrite H1, H2; reflexivity).
  constructor; rewrite ?H1, ?H2, ?H3, ?H4, ?H5, ?H6; auto.
  - eapply Forall_impl; [|exact i_log0]. apply send_ev_ok_ext; auto. intros; rewrite Hd; lia.
  - eapply Forall_impl; [|exact i_closed0]. cbn. auto.
Qed.

Lemma inv_start_send c t p :
  Inv c -> c_pc c t = BIdle -> sending p = Some ((t, c_cnt c t), false) -> holding p = None ->
  (forall e np, p <> BR_cl e np) -> Inv (c_start_send c t p).
Proof.
  intros I Hi Hs Hh Hn.
  destruct (hold_goto c t p I) as (R1 & R2 & R3 & R4); [rewrite Hi; exact Hh|intros e np E; destruct (Hn _ _ E)|].
  destruct I. constructor; cbn; auto.
  - intros t0 v cl. unfold upd. destruct (Nat.eqb_spec t0 t).
    + subst. rewrite Hs. intros E; inversion E; subst. cbn. repeat split; try lia; try discriminate.
      intros _ Hin. apply i_bound0 in Hin. lia.
    + eauto.
  - intros t0 n Hin. unfold upd. destruct (Nat.eqb_spec t0 t); [subst; apply i_bound0 in Hin; lia|auto].
  - eapply Forall_impl; [|exact i_log0]. apply send_ev_ok_ext; [reflexivity|].
    intros t0. unfold done_cnt. cbn. unfold upd. destruct (Nat.eqb_spec t0 t); [|lia].
    subst. rewrite Hs, Hi. cbn. lia.
Qed.

Lemma in_app_single {A} (x y : A) l : In x (l ++ [y]) <-> In x l \/ x = y.
Proof. rewrite in_app_iff. cbn. intuition. Qed.

Lemma NoDup_app_single {A} (l : list A) x : NoDup l -> ~ In x l -> NoDup (l ++ [x]).
Proof.
  induction l as [|a l IH]; intros Hn Hx; cbn.
  - constructor; [intros []|constructor].
  - inversion Hn; subst. constructor.
    + rewrite in_app_single. intros [H|H]; [contradiction|]. subst. apply Hx. left. reflexivity.
    + apply IH; auto. intros H. apply Hx. right. exact H.
Qed.

Lemma sender_sorted_snoc l v :
  sender_sorted l -> (forall y, In y l -> fst y = fst v -> (snd y < snd v)%nat) -> sender_sorted (l ++ [v]).
Proof.
  intros S Hv l1 x l2 E y Hy Hf. destruct l2 as [|z l2'] using rev_ind.
  - apply app_inj_tail in E. destruct E as [-> ->]. auto.
  - clear IHl2'. rewrite app_comm_cons, app_assoc in E. apply app_inj_tail in E. destruct E as [E1 _]. eapply S; eauto.
Qed.

Lemma inv_push c t v p :
  Inv c -> sending (c_pc c t) = Some (v, false) -> holding (c_pc c t) = None ->
  sending p = Some (v, true) -> holding p = None ->
  (forall e np, p <> BR_cl e np) -> Inv (c_push c t v p).
Proof.
  intros I Hs0 Hh0 Hs Hh Hn.
  destruct (hold_goto c t p I) as (R1 & R2 & R3 & R4); [rewrite Hh0; exact Hh|intros e np E; destruct (Hn _ _ E)|].
  destruct I.
  destruct (i_send0 _ _ _ Hs0) as (Ev & Hpos & _ & Hnin). specialize (Hnin eq_refl).
  assert (Hlt : forall n, In (t, n) (c_pushed c) -> (n < pred (c_cnt c t))%nat).
  { intros n Hin. pose proof (i_bound0 _ _ Hin).
    assert (n <> pred (c_cnt c t)) by (intros ->; apply Hnin; rewrite Ev; exact Hin). lia. }
  constructor; cbn; auto.
  - rewrite i_ledger0, map_app, app_assoc. reflexivity.
  - intros t0 v0 cl. unfold upd. destruct (Nat.eqb_spec t0 t).
    + subst t0. rewrite Hs. intros E; inversion E; subst v0 cl. repeat split; auto; try discriminate.
      intros _. apply in_app_single. auto.
    + intros E. destruct (i_send0 _ _ _ E) as (A & B & C & D). repeat split; auto.
      * intros H. apply in_app_single. auto.
      * intros H Hin. apply in_app_single in Hin. destruct Hin as [Hin|Hin]; [exact (D H Hin)|].
        subst v0. rewrite Ev in Hin. inversion Hin. contradiction.
  - intros t0 n Hin. apply in_app_single in Hin. destruct Hin as [Hin|Hin]; auto.
    rewrite Ev in Hin. inversion Hin; subst. lia.
  - apply NoDup_app_single; auto.
  - eapply Forall_impl; [|exact i_log0]. intros e H Hk. destruct (H Hk) as (n & A & B & C).
    exists n. split; [exact A|]. split.
    + unfold done_cnt in *. cbn. unfold upd. destruct (Nat.eqb_spec (e_t e) t); [|exact B].
      rewrite e0 in *. rewrite Hs. rewrite Hs0 in B. exact B.
    + cbn [c_push c_pushed]. rewrite in_app_single. split; [intros X; left; apply C; exact X|].
      intros [X|X]; [apply C; exact X|]. exfalso. rewrite Ev in X. inversion X. subst n.
      unfold done_cnt in B. rewrite H1, Hs0 in B. lia.
  - apply sender_sorted_snoc; auto. intros [ty ny] Hy Hf. rewrite Ev in Hf |- *. cbn in Hf |- *. subst ty. apply Hlt. exact Hy.
Qed.

Lemma publish_fst v q : map fst (publish v q) = map fst q.
Proof.
  induction q as [|[x b] r IH]; cbn; [reflexivity|].
  destruct (val_eqb x v); cbn; [reflexivity|]. rewrite IH. reflexivity.
Qed.

Lemma inv_publish c t v p :
  Inv c -> sending p = sending (c_pc c t) -> holding p = holding (c_pc c t) ->
  (forall e np, p <> BR_cl e np) -> Inv (c_publish c t v p).
Proof.
  intros I Hs Hh Hn.
  assert (I1 : Inv (core_goto c t p)) by (apply inv_goto; auto; intros e np E; destruct (Hn _ _ E)).
  destruct I1. constructor; cbn in *; auto. rewrite publish_fst. exact i_ledger0.
Qed.

Lemma inv_pop c t v b r p :
  Inv c -> c_q c = (v, b) :: r -> sending (c_pc c t) = None -> holding (c_pc c t) = None ->
  sending p = None -> holding p = Some v -> (forall e np, p <> BR_cl e np) ->
  Inv (c_pop c t v r p).
Proof.
  intros I Hq Hs0 Hh0 Hs Hh Hn. destruct I.
  assert (Hled : c_pushed c = (c_popped c ++ [v]) ++ map fst r).
  { rewrite i_ledger0, Hq. cbn. rewrite <- app_assoc. reflexivity. }
  assert (Hnin : ~ In v (c_popped c)).
  { intros Hin. rewrite i_ledger0, Hq in i_nodup0. cbn in i_nodup0.
    apply NoDup_remove_2 in i_nodup0. apply i_nodup0. apply in_or_app. left. exact Hin. }
  constructor; cbn; auto.
  - intros t0 v0 cl. unfold upd. destruct (Nat.eqb_spec t0 t); [subst; rewrite Hs; discriminate|eauto].
  - eapply Forall_impl; [|exact i_log0]. apply send_ev_ok_ext; [reflexivity|].
    intros t0. unfold done_cnt. cbn. unfold upd. destruct (Nat.eqb_spec t0 t); [|lia].
    subst. rewrite Hs, Hs0. lia.
  - intros t0 v0. unfold upd. destruct (Nat.eqb_spec t0 t).
    + subst. rewrite Hh. intros E; inversion E; subst. split; [apply in_app_single; auto|].
      intros Hin. apply Hnin. apply i_rpop0. exact Hin.
    + intros E. destruct (i_hold0 _ _ E). split; auto. apply in_app_single. auto.
  - intros t1 t2 v0. unfold upd.
    destruct (Nat.eqb_spec t1 t), (Nat.eqb_spec t2 t); subst; rewrite ?Hh; eauto.
    + intros E1 E2. inversion E1; subst. destruct (i_hold0 _ _ E2). contradiction.
    + intros E1 E2. inversion E2; subst. destruct (i_hold0 _ _ E1). contradiction.
  - intros v0 Hin. apply in_app_single. left. auto.
  - intros t0 e np. unfold upd. destruct (Nat.eqb_spec t0 t); [intros E; destruct (Hn _ _ E)|].
    intros E. rewrite app_length. apply i_np0 in E. lia.
  - eapply Forall_impl; [|exact i_aux0]. cbn. intros e H K R. rewrite app_length. specialize (H K R). lia.
  - intros v0 Hv. apply in_app_single in Hv. destruct Hv as [Hv|Hv].
    + destruct (i_popret0 v0 Hv) as [X|[t0 X]]; [left; exact X|right].
      exists t0. unfold upd. destruct (Nat.eqb_spec t0 t); [subst; rewrite Hh0 in X; discriminate|exact X].
    + subst v0. right. exists t. rewrite upd_same. exact Hh.
Qed.

(* the operation of t returns and is logged *)
Lemma inv_finish c t k ov r e aux :
  Inv c ->
  match sending (c_pc c t) with
  | Some (v, cl) => is_sendk k = true /\ ov = Some v /\ (r = ROk <-> cl = true)
  | None => is_sendk k = false
  end ->
  match holding (c_pc c t) with
  | Some v => is_recvk k = true /\ ov = Some v /\ r = ROk
  | None => is_recvk k = true -> r <> ROk
  end ->
  (r = RClosed -> c_closed c = true) ->
  (k = KRecv -> r = RClosed -> (aux <= length (c_popped c))%nat) ->
  Inv (c_finish c t k ov r e aux).
Proof.
  intros I Hs Hh Hc Ha. pose proof I as I0. destruct I.
  assert (Hdone : forall t0, (done_cnt c t0 <= done_cnt (c_finish c t k ov r e aux) t0)%nat).
  { intros t0. unfold done_cnt. cbn. unfold upd. destruct (Nat.eqb_spec t0 t); [|lia].
    subst. cbn. destruct (sending (c_pc c t)); lia. }
  (* a successful receive returns the value its thread holds *)
  assert (Hrecv : forall v', is_recvk k && is_ok r = true -> ov = Some v' -> holding (c_pc c t) = Some v').
  { intros v' Ek ->. apply andb_prop in Ek. destruct Ek as [K1 K2].
    destruct (holding (c_pc c t)); [symmetry; apply Hh|].
    destruct r; try discriminate. destruct (Hh K1). reflexivity. }
  constructor; cbn; auto.
  - intros t0 v cl. unfold upd. destruct (Nat.eqb_spec t0 t); [discriminate|eauto].
  - constructor.
    + intros Hk. cbn in Hk. cbn [e_t e_v e_r].
      destruct (sending (c_pc c t)) as [[v cl]|] eqn:Es; [|congruence].
      destruct Hs as (_ & -> & Hr). destruct (i_send0 _ _ _ Es) as (Ev & Hpos & Hin & Hnin).
      exists (pred (c_cnt c t)). rewrite <- Ev. split; [reflexivity|]. split.
      * unfold done_cnt. cbn. rewrite upd_same. cbn. lia.
      * cbn. rewrite Hr. destruct cl; split; auto; try discriminate. intros X. exfalso. apply Hnin; auto.
    + eapply Forall_impl; [|exact i_log0]. apply send_ev_ok_ext; [reflexivity|exact Hdone].
  - intros t0 v. unfold upd. destruct (Nat.eqb_spec t0 t); [discriminate|].
    intros E. destruct (i_hold0 _ _ E) as [A B]. split; auto.
    destruct (is_recvk k && is_ok r) eqn:Ek; auto. destruct ov as [v'|]; auto.
    intros [X|X]; auto. subst v'. apply n. eapply i_hold2; [exact E|exact (Hrecv _ eq_refl eq_refl)].
  - intros t1 t2 v. unfold upd.
    destruct (Nat.eqb_spec t1 t), (Nat.eqb_spec t2 t); subst; try discriminate; eauto.
  - destruct (is_recvk k && is_ok r) eqn:Ek; auto. destruct ov as [v'|]; auto.
    constructor; auto. apply (i_hold0 _ _ (Hrecv _ eq_refl eq_refl)).
  - intros v. destruct (is_recvk k && is_ok r) eqn:Ek; auto. destruct ov as [v'|]; auto.
    intros [X|X]; auto. subst v'. apply (i_hold0 _ _ (Hrecv _ eq_refl eq_refl)).
  - intros t0 e0 np. unfold upd. destruct (Nat.eqb_spec t0 t); [discriminate|eauto].
  - intros v Hv. destruct (i_popret0 v Hv) as [X|[t0 X]].
    + left. destruct (is_recvk k && is_ok r); auto. destruct ov; auto. right. exact X.
    + destruct (Nat.eqb_spec t0 t).
      * subst t0. rewrite X in Hh. destruct Hh as (K1 & -> & ->). left. rewrite K1. cbn. left. reflexivity.
      * right. exists t0. rewrite upd_other; auto.
Qed.

Lemma inv_set_sw c x : Inv c -> Inv (c_set_sw c x).
Proof. intros I. eapply inv_frame; eauto. Qed.
Lemma inv_set_rw c x : Inv c -> Inv (c_set_rw c x).
Proof. intros I. eapply inv_frame; eauto. Qed.
Lemma inv_set_closed c : Inv c -> Inv (c_set_closed c).
Proof. intros I. eapply inv_frame; eauto. Qed.

Lemma inv_cstep fx mcap c t to got c' : Inv c -> cstep fx mcap c t to got = Some c' -> Inv c'.
Proof.
  intros I H. unfold cstep in H.
  destruct (c_pc c t) eqn:Epc.
  all: try (destruct (c_prog c t) as [|[] ?]; [discriminate|..]).
  all: repeat match type of H with
       | context [if ?b then _ else _] => destruct b eqn:?
       | context [match ?m with MTry => _ | MBlock _ => _ end] => destruct m
       | context [match c_q ?s with _ => _ end] => destruct (c_q s) as [|[? []] ?] eqn:?
       end.
  all: inversion H; subst; clear H; auto.
  all: try solve [ apply inv_goto; try apply inv_set_sw; try apply inv_set_rw; try apply inv_set_closed; auto;
                   cbn; rewrite ?Epc; try reflexivity; try discriminate;
                   intros ? ? E; inversion E; subst; destruct I as [L]; rewrite L, Heql in *; cbn;
                   rewrite app_nil_r; auto ].
  all: try solve [ apply inv_start_send; auto; try reflexivity; discriminate ].
  all: try solve [ apply inv_finish; try apply inv_set_sw; try apply inv_set_rw; auto; cbn; rewrite ?Epc; cbn;
                   try solve [ destruct m; cbn; intuition (try discriminate; auto) ];
                   intuition (try discriminate; auto; try congruence) ].
  all: try solve [ apply inv_push; auto; rewrite ?Epc; try reflexivity; discriminate ].
  all: try solve [ apply inv_publish; auto; rewrite ?Epc; try reflexivity; discriminate ].
  all: try solve [ eapply inv_pop; eauto; rewrite ?Epc; try reflexivity; discriminate ].
  - apply inv_finish; auto; rewrite ?Epc; cbn; try discriminate; auto.
    intros _ _. destruct I. eapply i_np0; eauto.
Qed.

Theorem inv_reach fx mcap progs now0 s : breach fx mcap progs now0 s -> Inv (core_of s).
Proof.
  induction 1 as [|s l s' R IH H].
  - apply inv_init.
  - destruct l as [t|t|d]; cbn in H.
    + destruct (bstep_core _ _ _ _ _ H) as (to & got & Hc & _). eapply inv_cstep; eauto.
    + rewrite (btimer_core _ _ _ H). exact IH.
    + inversion H; subst. eapply inv_frame; [exact IH|reflexivity..|auto].
Qed.

(* the terms in which the clauses of C09 for the buffered channel (C09_Properties.v) are stated *)
(* the value v was the argument of a send / try_send call that has started *)
Definition b_offered (s : bst) (v : val) : Prop := (snd v < b_cnt s (fst v))%nat.
(* a send / try_send of v has returned r *)
Definition b_send_ret (s : bst) (v : val) (r : res) : Prop :=
  exists e, In e (b_log s) /\ is_sendk (e_k e) = true /\ e_v e = Some v /\ e_r e = r.
(* v is in the hands of a receiver that has popped it and is about to return true with it *)
Definition b_in_hand (s : bst) (v : val) : Prop := exists t, holding (b_pc s t) = Some v.
