(* C09_BufTimeProofs.v — the buffered half of "false only because of an expired timeout":
   the invariant BT of C09_TimeProofs.v is preserved by every step of the buffered model (both code variants),
   hence every RTimeout result of buffered send/recv was produced when the call's Timeout had expired. *)
From Coq Require Import ZArith List Lia.
From PV Require Import Base.U64 C09.C09_Common C09.C09_Buf C09.C09_BufProofs C09.C09_TimeProofs.
Import ListNotations.
Local Open Scope Z_scope.

Lemma BT_goto X t p : BT X -> bpc_ok p (b_w X t) (b_dl X t) (b_now X) -> BT (bgoto X t p).
Proof.
  intros [A B] H. constructor; cbn; auto.
  intros t0. unfold upd. destruct (Nat.eqb_spec t0 t); [subst; exact H|apply A].
Qed.

Lemma BT_finish X t k v r e aux :
  BT X -> (r = RTimeout -> expired (b_now X) e = true) -> BT (bfinish X t k v r e aux).
Proof.
  intros [A B] H. constructor; cbn.
  - intros t0. unfold upd. destruct (Nat.eqb_spec t0 t); [exact I|apply A].
  - constructor; [exact H|exact B].
Qed.

Lemma BT_put_sem X x m : BT X -> BT (put_sem X x m).
Proof. apply (BT_wakes (fun s => put_sem s x m)). apply bwo_put_sem. Qed.

Lemma BT_sleep X x t dl p e :
  BT X -> (exists v, p = BS_slp v e) \/ p = BR_slp e ->
  e <= MAX64 -> (dl = e \/ expired (b_now X) e = true) ->
  BT (sem_sleep X x t dl p).
Proof.
  intros [A B] Hp He Hd. unfold sem_sleep.
  constructor; [|destruct x; exact B].
  intros t0. destruct x; cbn; unfold upd; (destruct (Nat.eqb_spec t0 t); [|apply A]).
  all: destruct Hp as [[v ->]| ->]; cbn; repeat split; auto; discriminate.
Qed.

Lemma BT_signal X x n : BT X -> BT (sem_signal X x n).
Proof. apply (BT_wakes (fun s => sem_signal s x n)). apply bwo_sem_signal. Qed.
Lemma BT_after_timeout X x : BT X -> BT (sem_after_timeout X x).
Proof. apply (BT_wakes (fun s => sem_after_timeout s x)). apply bwo_sem_after_timeout. Qed.

Lemma now_signal X x n : b_now (sem_signal X x n) = b_now X.
Proof. apply (bwo_sem_signal x n X). Qed.
Lemma now_after_timeout X x : b_now (sem_after_timeout X x) = b_now X.
Proof. apply (bwo_sem_after_timeout x X). Qed.
Lemma now_sem_try X x X1 : sem_try X x = Some X1 -> b_now X1 = b_now X.
Proof. unfold sem_try. destruct (1 <=? _); intros H; inversion H. destruct x; reflexivity. Qed.

Lemma BT_bstep fx mcap s t s' : BT s -> bstep fx mcap s t = Some s' -> BT s'.
Proof.
  intros U H. pose proof (bt_thr _ U t) as Ht. unfold bstep in H.
  destruct (b_w s t) as [| |b] eqn:Ew; [|discriminate|].
  all: destruct (b_pc s t) eqn:Epc.
  all: try (destruct (b_prog s t) as [|[] ?]; [discriminate|..]).
  all: repeat match type of H with
       | context [if ?b then _ else _] => destruct b eqn:?
       | context [match ?m with MTry => _ | MBlock _ => _ end] => destruct m
       | context [match sem_try ?a ?b with _ => _ end] => destruct (sem_try a b) eqn:?
       | context [match b_q ?s with _ => _ end] => destruct (b_q s) as [|[? []] ?] eqn:?
       end.
  all: inversion H; subst; clear H; auto.
  all: cbn [bpc_ok mode_le] in Ht.
  all: try match goal with E : sem_try _ _ = Some ?s1 |- _ =>
         pose proof (now_sem_try _ _ _ E) as Hnow1;
         assert (BT s1) by (eapply sem_try_wo; [exact E|]; try apply BT_setrun; exact U) end.
  all: first
    [ solve [ apply BT_goto;
              [ repeat first [assumption | apply BT_signal | apply BT_after_timeout | apply BT_setrun
                             | apply (BT_ext s); [reflexivity..|] ]
              | cbn [bpc_ok mode_le]; rewrite ?now_signal, ?now_after_timeout; cbn;
                try apply timeout_of_le; try tauto; try (destruct Ht as (? & ? & ?); auto) ] ]
    | solve [ apply BT_finish;
              [ repeat first [assumption | apply BT_signal | apply BT_after_timeout | apply BT_setrun
                             | apply (BT_ext s); [reflexivity..|] ]
              | rewrite ?now_signal; cbn; try discriminate; auto ] ]
    | solve [ apply BT_sleep; [ try apply BT_setrun; exact U | eauto | tauto
                              | cbn; first [ apply rewait_ok; assumption | tauto ] ] ]
    | idtac ].
  all: eapply BT_sleep;
       [ first [exact U | apply BT_setrun; exact U]
       | first [left; eexists; reflexivity | right; reflexivity]
       | first [exact Ht | apply Ht]
       | first [apply rewait_ok; exact Ht | cbn; apply Ht] ].
Qed.

Theorem BT_reach fx mcap progs now0 s : breach fx mcap progs now0 s -> BT s.
Proof.
  induction 1 as [|s l s' R IH H].
  - constructor; cbn; auto.
  - destruct l as [t|t|d]; cbn in H.
    + eapply BT_bstep; eauto.
    + destruct IH as [A B]. unfold btimer in H. destruct (b_w s t) eqn:Ew; try discriminate.
      destruct (b_dl s t <=? b_now s) eqn:El; [|discriminate]. inversion H; subst; clear H.
      constructor; cbn; auto. intros t0. unfold upd. destruct (Nat.eqb_spec t0 t); [|apply A].
      subst. specialize (A t). rewrite Ew in A. apply Z.leb_le in El.
      destruct (b_pc s t); cbn in *; auto; try (destruct to; auto).
      all: destruct A as (A1 & A2 & _); repeat split; auto; intros _;
           destruct A2 as [A2|A2]; [apply expired_of_le; lia|exact A2].
    + inversion H; subst. destruct IH as [A B]. constructor; cbn; auto. intros t. specialize (A t).
      assert (M : forall e, expired (b_now s) e = true -> expired (b_now s + Z.of_nat d) e = true)
        by (intros e; apply expired_mono; lia).
      destruct (b_pc s t); cbn in *; auto; try (destruct to; auto).
      all: destruct A as (A1 & A2 & A3); repeat split; auto; destruct A2; auto.
Qed.
