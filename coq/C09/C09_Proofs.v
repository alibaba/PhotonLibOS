(* C09_Proofs.v — collects the proof files of C09, gives examples of reachable states, and states two clauses
   that C09_Release.v proves. *)
From Coq Require Import ZArith List.
From PV Require Import C09.C09_Common C09.C09_Unbuf C09.C09_Buf.
From PV Require Export C09.C09_Witness C09.C09_BufProofs C09.C09_UnbufProofs C09.C09_TimeProofs.
Import ListNotations.
Local Open Scope Z_scope.

(* non-trivial reachable states (the hypothesis `reach s` of every clause theorem is inhabited by
   states in which senders, receivers and a closer have interacted) *)
Example unbuf_reach_example :
  exists s, ureach true f10_progs 1000 s /\ u_taken s = [(2, 0)%nat] /\ u_asleep s 3%nat = true.
Proof.
  destruct f10_fixed_behaviour as (s & H & A & _ & _ & _ & B & _).
  exists s. split; [eapply urun_reach; [apply ureach_init|exact H]|]. auto.
Qed.
Example buf_reach_example :
  exists s, breach false 1 f11b_progs 1000 s /\ b_q s = [((2, 0)%nat, true)] /\ b_asleep s 1%nat = true.
Proof.
  destruct f11b_witness as (s & H & A & _ & _ & _ & B & _).
  exists s. split; [eapply brun_reach; [apply breach_init|exact H]|]. auto.
Qed.

(* two clauses as statements; they are proved in C09_Release.v (chan_timeout_reason_buffered_proved,
   chan_release_unbuffered_proved), from the invariants over the full states (wake state, ts_wakeup, wait queues)
   of C09_BufTimeProofs.v and C09_UnbufRelease.v *)
(* false only because of an expired timeout: every RTimeout result was produced at a moment when the
   call's Timeout had expired.  (The RClosed half and the unbuffered channel: C09_Properties.v.) *)
Definition chan_timeout_reason_buffered : Prop :=
  forall fx mcap progs now0 s e, breach fx mcap progs now0 s -> In e (b_log s) -> e_r e = RTimeout ->
    expired (e_now e) (e_exp e) = true.

(* release (enabledness) for the REPAIRED unbuffered channel: in a quiescent state (every thread
   is between two operations or asleep) no sender sleeps while a receiver sleeps or the channel is
   closed, no receiver sleeps while the slot is full, and no sender sleeps after its value was
   taken. *)
Definition u_quiescent (s : ust) : Prop :=
  u_mtx s = None /\ forall t, u_pc s t = UIdle \/ u_w s t = Asleep.
Definition chan_release_unbuffered : Prop :=
  forall progs now0 s, ureach true progs now0 s -> u_quiescent s ->
    (u_closed s = true -> forall t, u_w s t <> Asleep) /\
    (forall t e, u_pc s t = UR_w e -> u_w s t = Asleep -> u_slot s = None) /\
    (forall t v e q, u_pc s t = US_w2 v e q -> u_w s t = Asleep -> q = u_seq s) /\
    (forall t1 v e t2 e2, u_pc s t1 = US_w1 v e -> u_w s t1 = Asleep ->
                          u_pc s t2 = UR_w e2 -> u_w s t2 = Asleep -> False).
