(* C09_UnbufProofs.v — the inductive ledger invariant of the unbuffered-channel model (C09_Unbuf.v) for the
   REPAIRED code (fx = true) over every schedule; the clauses of C09 it gives are in C09_Properties.v.  The
   behaviour of the code as it is (fx = false) is refuted in C09_Witness.v. *)
From Coq Require Import ZArith List Bool Lia.
From PV Require Import C09.C09_Common C09.C09_Unbuf C09.C09_BufProofs C09.C09_UnbufStep.
Import ListNotations.
Local Open Scope Z_scope.

Inductive ureach (fx : bool) (progs : tid -> list op) (now0 : Z) : ust -> Prop :=
| ureach_init : ureach fx progs now0 (u_init progs now0)
| ureach_step s l s' : ureach fx progs now0 s -> ulstep fx s l = Some s' -> ureach fx progs now0 s'.

(* every run of a schedule ends in a reachable state (ties the evaluated witnesses and examples to `ureach`) *)
Lemma urun_reach fx progs now0 ls : forall s s', ureach fx progs now0 s -> urun fx s ls = Some s' -> ureach fx progs now0 s'.
Proof.
  induction ls as [|l r IH]; intros s s' R H; cbn in H; [inversion H; subst; exact R|].
  destruct (ulstep fx s l) eqn:E; [|discriminate]. eapply IH; [|exact H]. eapply ureach_step; eauto.
Qed.

Definition holds (p : upc) : bool :=
  match p with US_l1 _ _ | US_ck _ _ | US_l2 _ _ _ | US_rt _ _ _ | UR_l _ | UTS_ck _ => true | _ => false end.
Inductive phase : Type := Pre | Post (q : nat).
Definition usending (p : upc) : option (val * phase) :=
  match p with
  | US_lock v _ | US_l1 v _ | US_w1 v _ | US_ck v _ | UTS_lock v | UTS_ck v => Some (v, Pre)
  | US_l2 v _ q | US_w2 v _ q | US_rt v _ q => Some (v, Post q)
  | _ => None
  end.
(* what has been deposited and not withdrawn: the values taken, then the one in the slot *)
Definition chan (c : ucore) : list val := uc_taken c ++ opt_list (uc_slot c).
Definition udone (c : ucore) (t : tid) : nat :=
  match usending (uc_pc c t) with Some _ => pred (uc_cnt c t) | None => uc_cnt c t end.

Definition usend_ev_ok (c : ucore) (e : event) : Prop :=
  is_sendk (e_k e) = true ->
  exists n, e_v e = Some (e_t e, n) /\ (n < udone c (e_t e))%nat /\
            (e_r e = ROk -> e_k e = KSend -> In (e_t e, n) (uc_taken c)) /\
            (e_r e = ROk -> In (e_t e, n) (chan c)) /\
            (e_r e = RTimeout \/ e_r e = RNo -> ~ In (e_t e, n) (chan c)).

(* facts a thread holding the mutex has established at its current pc *)
Definition local_ok (c : ucore) (p : upc) : Prop :=
  match p with
  | US_ck _ _ => uc_closed c = true \/ uc_slot c = None
  | US_rt _ _ q => q <> uc_seq c \/ uc_closed c = true
  | _ => True
  end.

Record UInv (c : ucore) : Prop := mkUInv {
  u_mx : forall t, holds (uc_pc c t) = true <-> uc_mtx c = Some t;
  u_ck : forall t, local_ok c (uc_pc c t);
  u_val : forall t v ph, usending (uc_pc c t) = Some (v, ph) ->
            v = (t, pred (uc_cnt c t)) /\ (0 < uc_cnt c t)%nat /\
            match ph with
            | Pre => ~ In v (chan c)
            | Post q => (q = uc_seq c /\ uc_slot c = Some v /\ ~ In v (uc_taken c)) \/
                        ((q < uc_seq c)%nat /\ In v (uc_taken c))
            end;
  u_bound : forall t n, In (t, n) (chan c) -> (n < uc_cnt c t)%nat;
  u_nodup : NoDup (chan c);
  u_logok : Forall (usend_ev_ok c) (uc_log c);
  u_sorted : sender_sorted (chan c);
  u_recv : recv_vals (uc_log c) = rev (uc_taken c);
  u_closedr : Forall (fun e => e_r e = RClosed -> uc_closed c = true) (uc_log c)
}.

Lemma uinv_init progs now0 : UInv (ucore_of (u_init progs now0)).
Proof.
  constructor; cbn; try discriminate; try constructor; try contradiction; try discriminate.
  - intros l1 x l2 H. destruct l1; discriminate.
Qed.

Lemma usend_ev_ok_ext c c' :
  uc_taken c' = uc_taken c -> uc_slot c' = uc_slot c -> (forall t, udone c t <= udone c' t)%nat ->
  forall e, usend_ev_ok c e -> usend_ev_ok c' e.
Proof.
  intros Ht Hs Hd e H Hk. destruct (H Hk) as (n & A & B & C). exists n. unfold chan in *. rewrite Ht, Hs.
  split; auto. split; auto. specialize (Hd (e_t e)). lia.
Qed.

(* changes of the counters / clock / closed flag *)
Lemma uinv_frame c c' :
  UInv c -> uc_pc c' = uc_pc c -> uc_cnt c' = uc_cnt c -> uc_slot c' = uc_slot c -> uc_seq c' = uc_seq c ->
  uc_taken c' = uc_taken c -> uc_log c' = uc_log c -> uc_mtx c' = uc_mtx c ->
  (uc_closed c = true -> uc_closed c' = true) -> UInv c'.
Proof.
  intros I H1 H2 H3 H4 H5 H6 H7 H8. destruct I.
  assert (Hd : forall t, udone c' t = udone c t) by (intros; unfold udone; rewrite H1, H2; reflexivity).
  assert (Hc : chan c' = chan c) by (unfold chan; rewrite H3, H5; reflexivity).
  constructor; rewrite ?Hc, ?H1, ?H2, ?H3, ?H4, ?H5, ?H6, ?H7; auto.
  - intros t. specialize (u_ck0 t). unfold local_ok in *. rewrite H3, H4. destruct (uc_pc c t); auto; destruct u_ck0; auto.
  - eapply Forall_impl; [|exact u_logok0]. apply usend_ev_ok_ext; auto. intros; rewrite Hd; lia.
  - eapply Forall_impl; [|exact u_closedr0]. cbn. auto.
Qed.
Lemma uinv_rw c x : UInv c -> UInv (k_rw c x). Proof. intros; eapply uinv_frame; eauto. Qed.
Lemma uinv_closed c : UInv c -> UInv (k_closed c). Proof. intros; eapply uinv_frame; eauto. Qed.

Lemma udone_goto c c' t p t0 :
  uc_pc c' = upd (uc_pc c) t p -> uc_cnt c' = uc_cnt c -> usending p = usending (uc_pc c t) -> udone c' t0 = udone c t0.
Proof.
  intros Hp Hc H. unfold udone. rewrite Hp, Hc. unfold upd. destruct (Nat.eqb_spec t0 t); [subst; rewrite H|]; reflexivity.
Qed.

Lemma others_not_holding c t : UInv c -> (uc_mtx c = None \/ uc_mtx c = Some t) ->
  forall t0, t0 <> t -> holds (uc_pc c t0) = false.
Proof.
  intros I Hm t0 Hne. destruct (holds (uc_pc c t0)) eqn:E; auto. apply (u_mx _ I) in E.
  destruct Hm as [Hm|Hm]; rewrite Hm in E; [discriminate|inversion E; congruence].
Qed.

(* t returns and leaves the mutex free: nobody holds it, and no pc carries a local fact *)
Lemma released c c' t :
  (forall t0, t0 <> t -> holds (uc_pc c t0) = false) -> uc_pc c' = upd (uc_pc c) t UIdle -> uc_mtx c' = None ->
  (forall t0, holds (uc_pc c' t0) = true <-> uc_mtx c' = Some t0) /\ (forall t0, local_ok c' (uc_pc c' t0)).
Proof.
  intros Hoth Hp Hm. rewrite Hp, Hm. split; intros t0; unfold upd; destruct (Nat.eqb_spec t0 t) as [->|Hne].
  - cbn. split; discriminate.
  - rewrite (Hoth _ Hne). split; discriminate.
  - exact I.
  - specialize (Hoth _ Hne). destruct (uc_pc c t0); try exact I; discriminate.
Qed.

(* a return never lowers the number of finished sends of any thread *)
Lemma udone_finish c c1 t k ov r e t0 :
  uc_pc c1 = uc_pc c -> uc_cnt c1 = uc_cnt c -> (udone c t0 <= udone (k_finish c1 t k ov r e) t0)%nat.
Proof.
  intros H1 H2. unfold udone. cbn. rewrite H1, H2. unfold upd. destruct (Nat.eqb_spec t0 t) as [->|]; [|lia].
  cbn. destruct (usending (uc_pc c t)); lia.
Qed.

(* t moves inside one phase of its call, taking (a free) / keeping / releasing the mutex *)
Lemma uinv_move c t p m :
  UInv c -> usending p = usending (uc_pc c t) ->
  (uc_mtx c = None \/ uc_mtx c = Some t) ->
  m = (if holds p then Some t else None) ->
  local_ok c p ->
  UInv (k_goto (k_mtx c m) t p).
Proof.
  intros I Hs Hm Em Hck. pose proof (others_not_holding c t I Hm) as Hoth. destruct I.
  constructor; cbn; auto.
  - intros t0. unfold upd. destruct (Nat.eqb_spec t0 t).
    + subst. destruct (holds p); split; auto; discriminate.
    + rewrite (Hoth _ n). split; [discriminate|]. subst m. destruct (holds p); intros E; inversion E. congruence.
  - intros t0. unfold upd. destruct (Nat.eqb_spec t0 t); [exact Hck|apply u_ck0].
  - intros t0 v ph. unfold upd. destruct (Nat.eqb_spec t0 t); [subst; rewrite Hs|]; apply u_val0.
  - eapply Forall_impl; [|exact u_logok0]. apply usend_ev_ok_ext; auto.
    intros t0. rewrite (udone_goto c (k_goto (k_mtx c m) t p) t p) by auto. auto.
Qed.

Lemma uinv_goto c t p :
  UInv c -> usending p = usending (uc_pc c t) -> holds p = holds (uc_pc c t) ->
  local_ok c p ->
  UInv (k_goto c t p).
Proof.
  intros I Hs Hh Hck. destruct I. constructor; cbn; auto.
  - intros t0. unfold upd. destruct (Nat.eqb_spec t0 t); [subst; rewrite Hh|]; apply u_mx0.
  - intros t0. unfold upd. destruct (Nat.eqb_spec t0 t); [exact Hck|apply u_ck0].
  - intros t0 v ph. unfold upd. destruct (Nat.eqb_spec t0 t); [subst; rewrite Hs|]; apply u_val0.
  - eapply Forall_impl; [|exact u_logok0]. apply usend_ev_ok_ext; auto.
    intros t0. rewrite (udone_goto c (k_goto c t p) t p) by auto. auto.
Qed.

Lemma uinv_start c t p :
  UInv c -> uc_pc c t = UIdle -> usending p = Some ((t, uc_cnt c t), Pre) -> holds p = false ->
  UInv (k_goto (k_cnt c t) t p).
Proof.
  intros I Hi Hs Hh. destruct I. constructor; cbn; auto.
  - intros t0. unfold upd. destruct (Nat.eqb_spec t0 t); [subst; rewrite Hh|apply u_mx0].
    specialize (u_mx0 t). rewrite Hi in u_mx0. cbn in u_mx0. exact u_mx0.
  - intros t0. unfold upd. destruct (Nat.eqb_spec t0 t); [destruct p; try exact I; discriminate|apply u_ck0].
  - intros t0 v ph. unfold upd. destruct (Nat.eqb_spec t0 t).
    + subst. rewrite Hs. intros E; inversion E; subst. cbn. repeat split; try lia.
      intros Hin. apply u_bound0 in Hin. lia.
    + apply u_val0.
  - intros t0 n Hin. unfold upd. destruct (Nat.eqb_spec t0 t); [subst; apply u_bound0 in Hin; lia|auto].
  - eapply Forall_impl; [|exact u_logok0]. apply usend_ev_ok_ext; auto.
    intros t0. unfold udone. cbn. unfold upd. destruct (Nat.eqb_spec t0 t); [|lia].
    subst. rewrite Hs, Hi. cbn. lia.
Qed.

Lemma chan_slot_none c : uc_slot c = None -> chan c = uc_taken c.
Proof. intros H. unfold chan. rewrite H. apply app_nil_r. Qed.

(* the value of t goes into the (empty) slot; t continues at p (phase Post) or returns from
   try_send; handled by the two lemmas below through this core fact *)
Lemma uinv_deposit_val c t v :
  UInv c -> usending (uc_pc c t) = Some (v, Pre) -> uc_slot c = None ->
  let c1 := k_slot c (Some v) in
  chan c1 = uc_taken c ++ [v] /\ NoDup (chan c1) /\ sender_sorted (chan c1) /\
  (forall t0 n, In (t0, n) (chan c1) -> (n < uc_cnt c t0)%nat) /\
  ~ In v (uc_taken c) /\
  (forall t0 v0 ph, t0 <> t -> usending (uc_pc c t0) = Some (v0, ph) ->
     v0 = (t0, pred (uc_cnt c t0)) /\ (0 < uc_cnt c t0)%nat /\
     match ph with
     | Pre => ~ In v0 (chan c1)
     | Post q => (q = uc_seq c1 /\ uc_slot c1 = Some v0 /\ ~ In v0 (uc_taken c1)) \/
                 ((q < uc_seq c1)%nat /\ In v0 (uc_taken c1))
     end) /\
  (forall c', uc_taken c' = uc_taken c -> chan c' = uc_taken c ++ [v] -> (forall t0, udone c t0 <= udone c' t0)%nat ->
              Forall (usend_ev_ok c') (uc_log c)).
Proof.
  intros I Hs Hn c1. pose proof I as I0. destruct I.
  destruct (u_val0 _ _ _ Hs) as (Ev & Hpos & Hnin). rewrite (chan_slot_none _ Hn) in *.
  assert (Hc : chan c1 = uc_taken c ++ [v]) by reflexivity.
  split; [exact Hc|]. rewrite Hc. split; [apply NoDup_app_single; auto|]. split; [|split; [|split; [|split]]].
  - apply sender_sorted_snoc; auto. intros [ty ny] Hy Hf. rewrite Ev in Hf |- *. cbn in Hf |- *. subst ty.
    pose proof (u_bound0 _ _ Hy). assert (ny <> pred (uc_cnt c t)) by (intros ->; apply Hnin; rewrite Ev; exact Hy). lia.
  - intros t0 n Hin. apply in_app_single in Hin. destruct Hin as [Hin|Hin]; auto.
    rewrite Ev in Hin. inversion Hin; subst. lia.
  - exact Hnin.
  - intros t0 v0 ph Hne E. destruct (u_val0 _ _ _ E) as (A & B & C). split; [exact A|]. split; [exact B|]. destruct ph.
    + intros X. apply in_app_single in X. destruct X as [X|X]; [exact (C X)|].
      rewrite A, Ev in X. inversion X. congruence.
    + destruct C as [(_ & C2 & _)|C]; [congruence|]. right. exact C.
  - (* the earlier events keep their reading: none of them is about the call that deposits now *)
    intros c' Ht Hc' Hd. eapply Forall_impl; [|exact u_logok0]. intros ev H Hk.
    destruct (H Hk) as (n & A & B & C1 & C2 & C3). rewrite (chan_slot_none _ Hn) in *.
    exists n. split; [exact A|]. split; [specialize (Hd (e_t ev)); lia|]. rewrite Ht, Hc'.
    split; [exact C1|]. split; [intros X; apply in_app_single; left; auto|].
    intros X Y. apply in_app_single in Y. destruct Y as [Y|Y]; [exact (C3 X Y)|].
    rewrite Ev in Y. injection Y as E1 E2. unfold udone in B. rewrite E1, Hs in B. lia.
Qed.

(* US_ck -> US_l2: the sender (holding the mutex) places its value in the empty slot *)
Lemma uinv_deposit_go c t v e :
  UInv c -> uc_pc c t = US_ck v e -> uc_closed c = false ->
  UInv (k_goto (k_slot c (Some v)) t (US_l2 v e (uc_seq c))).
Proof.
  intros I Epc Hcl. pose proof I as I0. destruct I.
  assert (Hs : usending (uc_pc c t) = Some (v, Pre)) by (rewrite Epc; reflexivity).
  assert (Hn : uc_slot c = None) by (pose proof (u_ck0 t) as X; rewrite Epc in X; destruct X; congruence).
  assert (Hm : uc_mtx c = Some t) by (apply u_mx0; rewrite Epc; reflexivity).
  destruct (uinv_deposit_val c t v I0 Hs Hn) as (Hc & Hnd & Hso & Hbd & Hnt & Hov & Hlog).
  destruct (u_val0 _ _ _ Hs) as (Ev & Hpos & _).
  pose proof (others_not_holding c t I0 (or_intror Hm)) as Hoth.
  constructor; auto.
  - cbn. intros t0. unfold upd. destruct (Nat.eqb_spec t0 t); [subst; cbn; tauto|apply u_mx0].
  - intros t0. unfold local_ok. cbn. unfold upd. destruct (Nat.eqb_spec t0 t); [exact I|].
    specialize (Hoth _ n). destruct (uc_pc c t0); try exact I; discriminate.
  - intros t0 v0 ph. cbn [uc_pc k_goto k_slot uc_cnt uc_seq uc_slot uc_taken]. unfold upd.
    destruct (Nat.eqb_spec t0 t).
    + subst. cbn. intros E; inversion E; subst. repeat split; auto.
    + exact (Hov _ _ _ n).
  - apply Hlog; [reflexivity|exact Hc|]. intros t0. unfold udone. cbn. unfold upd.
    destruct (Nat.eqb_spec t0 t); [subst; rewrite Hs|]; cbn; lia.
Qed.

(* UTS_ck: try_send places its value and returns true *)
Lemma uinv_deposit_fin c t v :
  UInv c -> uc_pc c t = UTS_ck v -> uc_slot c = None ->
  UInv (k_finish (k_mtx (k_slot c (Some v)) None) t KTrySend (Some v) ROk 0).
Proof.
  intros I Epc Hn. pose proof I as I0. destruct I.
  assert (Hs : usending (uc_pc c t) = Some (v, Pre)) by (rewrite Epc; reflexivity).
  assert (Hm : uc_mtx c = Some t) by (apply u_mx0; rewrite Epc; reflexivity).
  destruct (uinv_deposit_val c t v I0 Hs Hn) as (Hc & Hnd & Hso & Hbd & Hnt & Hov & Hlog).
  destruct (u_val0 _ _ _ Hs) as (Ev & Hpos & _).
  pose proof (others_not_holding c t I0 (or_intror Hm)) as Hoth.
  constructor; auto.
  - refine (proj1 (released c _ t Hoth _ _)); reflexivity.
  - refine (proj2 (released c _ t Hoth _ _)); reflexivity.
  - intros t0 v0 ph. cbn [uc_pc k_finish k_mtx k_slot uc_cnt uc_seq uc_slot uc_taken]. unfold upd.
    destruct (Nat.eqb_spec t0 t); [discriminate|exact (Hov _ _ _ n)].
  - cbn [uc_log k_finish]. constructor.
    + intros _. cbn [e_t e_v e_r e_k]. exists (pred (uc_cnt c t)). rewrite <- Ev. split; [reflexivity|]. split.
      * unfold udone. cbn. rewrite upd_same. cbn. lia.
      * split; [discriminate|]. split; [|intros [X|X]; discriminate].
        intros _. apply in_or_app. right. left. reflexivity.
    + apply Hlog; [reflexivity|exact Hc|]. intros t0. apply udone_finish; reflexivity.
  - cbn. constructor; [discriminate|exact u_closedr0].
Qed.

(* a receiver (recv holding the mutex, or try_recv taking a free mutex) takes the value and returns *)
Lemma uinv_take c t v k e :
  UInv c -> uc_slot c = Some v ->
  (uc_mtx c = None \/ uc_mtx c = Some t) -> is_recvk k = true -> is_sendk k = false ->
  UInv (k_finish (k_mtx (k_take true c v) None) t k (Some v) ROk e).
Proof.
  intros I Hsl Hm Hk Hk2. pose proof I as I0. destruct I.
  pose proof (others_not_holding c t I0 Hm) as Hoth.
  assert (Hc : chan c = uc_taken c ++ [v]) by (unfold chan; rewrite Hsl; reflexivity).
  assert (Hc' : chan (k_finish (k_mtx (k_take true c v) None) t k (Some v) ROk e) = uc_taken c ++ [v])
    by (unfold chan; cbn; apply app_nil_r).
  constructor; rewrite ?Hc'; try (rewrite <- Hc; assumption).
  - refine (proj1 (released c _ t Hoth _ _)); reflexivity.
  - refine (proj2 (released c _ t Hoth _ _)); reflexivity.
  - intros t0 v0 ph E. cbn in E. unfold upd in E.
    destruct (Nat.eqb_spec t0 t); [discriminate|].
    destruct (u_val0 _ _ _ E) as (A & B & C). split; [exact A|]. split; [exact B|]. destruct ph.
    + rewrite <- Hc. exact C.
    + right. cbn. destruct C as [(C1 & C2 & C3)|(C1 & C2)].
      * rewrite Hsl in C2. inversion C2. subst. split; [lia|]. apply in_app_single. auto.
      * split; [lia|]. apply in_app_single. auto.
  - cbn [uc_log k_finish]. constructor; [intros X; cbn in X; congruence|].
    eapply Forall_impl; [|exact u_logok0]. intros ev H Hke. destruct (H Hke) as (n & A & B & C1 & C2 & C3).
    exists n. split; [exact A|]. split; [eapply Nat.lt_le_trans; [exact B|apply udone_finish; reflexivity]|].
    rewrite Hc', <- Hc. cbn [uc_taken k_finish k_mtx k_take]. split; [|split; assumption].
    intros X Y. apply in_app_single. left. auto.
  - cbn. rewrite Hk. cbn. rewrite u_recv0, rev_app_distr. reflexivity.
  - cbn. constructor; [discriminate|exact u_closedr0].
Qed.

(* the sender's Timeout expires while its value is still in the slot: it withdraws the value *)
Lemma uinv_withdraw c t v e q :
  UInv c -> uc_pc c t = US_l2 v e q -> q = uc_seq c ->
  UInv (k_finish (k_mtx (k_slot c None) None) t KSend (Some v) RTimeout e).
Proof.
  intros I Epc Hq. pose proof I as I0. destruct I.
  assert (Hs : usending (uc_pc c t) = Some (v, Post q)) by (rewrite Epc; reflexivity).
  assert (Hm : uc_mtx c = Some t) by (apply u_mx0; rewrite Epc; reflexivity).
  pose proof (others_not_holding c t I0 (or_intror Hm)) as Hoth.
  destruct (u_val0 _ _ _ Hs) as (Ev & Hpos & [(_ & Hsl & Hnt)|(Hlt & _)]); [|lia].
  assert (Hc : chan c = uc_taken c ++ [v]) by (unfold chan; rewrite Hsl; reflexivity).
  assert (Hc' : chan (k_finish (k_mtx (k_slot c None) None) t KSend (Some v) RTimeout e) = uc_taken c)
    by (unfold chan; cbn; apply app_nil_r).
  assert (Hsub : forall x, In x (uc_taken c) -> In x (chan c)) by (intros; rewrite Hc; apply in_app_single; auto).
  constructor; rewrite ?Hc'.
  - refine (proj1 (released c _ t Hoth _ _)); reflexivity.
  - refine (proj2 (released c _ t Hoth _ _)); reflexivity.
  - intros t0 v0 ph E. cbn in E. unfold upd in E.
    destruct (Nat.eqb_spec t0 t); [discriminate|].
    destruct (u_val0 _ _ _ E) as (A & B & C). split; [exact A|]. split; [exact B|]. destruct ph.
    + intros X. apply C. auto.
    + cbn. destruct C as [(C1 & C2 & C3)|C]; [|right; exact C].
      exfalso. assert (Hv : v0 = v) by congruence. rewrite A, Ev in Hv. inversion Hv. congruence.
  - intros t0 n Hin. apply u_bound0. auto.
  - rewrite Hc in u_nodup0. apply NoDup_remove_1 in u_nodup0. rewrite app_nil_r in u_nodup0. exact u_nodup0.
  - cbn [uc_log k_finish]. constructor.
    + intros _. cbn [e_t e_v e_r e_k]. exists (pred (uc_cnt c t)). rewrite <- Ev. split; [reflexivity|]. split.
      * unfold udone. cbn. rewrite upd_same. cbn. lia.
      * rewrite Hc'. split; [discriminate|]. split; [discriminate|]. intros _. exact Hnt.
    + eapply Forall_impl; [|exact u_logok0]. intros ev H Hke. destruct (H Hke) as (n & A & B & C1 & C2 & C3).
      exists n. split; [exact A|]. split; [eapply Nat.lt_le_trans; [exact B|apply udone_finish; reflexivity]|].
      rewrite Hc'. cbn [uc_taken k_finish k_mtx k_slot]. split; [exact C1|]. split.
      * intros X. specialize (C2 X). rewrite Hc in C2. apply in_app_single in C2. destruct C2 as [C2|C2]; [exact C2|].
        exfalso. rewrite Ev in C2. inversion C2. subst n. unfold udone in B. rewrite H1, Hs in B. lia.
      * intros X Y. apply (C3 X). auto.
  - intros l1 x l2 E y Hy Hf. eapply (u_sorted0 l1 x (l2 ++ [v])); eauto. rewrite Hc, E, <- app_assoc. reflexivity.
  - cbn. exact u_recv0.
  - cbn. constructor; [discriminate|exact u_closedr0].
Qed.

(* an operation returns without touching the slot *)
Lemma uinv_finish_gen c c1 t k ov r e :
  UInv c ->
  uc_pc c1 = uc_pc c -> uc_cnt c1 = uc_cnt c -> uc_slot c1 = uc_slot c -> uc_seq c1 = uc_seq c ->
  uc_taken c1 = uc_taken c -> uc_log c1 = uc_log c -> uc_closed c1 = uc_closed c ->
  ((uc_mtx c1 = None /\ (uc_mtx c = None \/ uc_mtx c = Some t)) \/
   (uc_mtx c1 = uc_mtx c /\ holds (uc_pc c t) = false)) ->
  match usending (uc_pc c t) with
  | Some (v, ph) => is_sendk k = true /\ ov = Some v /\
                    (r = ROk -> (k = KSend -> In v (uc_taken c)) /\ In v (chan c)) /\
                    (r = RTimeout \/ r = RNo -> ~ In v (chan c))
  | None => is_sendk k = false
  end ->
  (is_recvk k = true -> r <> ROk) ->
  (r = RClosed -> uc_closed c = true) ->
  UInv (k_finish c1 t k ov r e).
Proof.
  intros I H1 H2 H3 H4 H5 H6 H7 Hm Hs Hr Hc. pose proof I as I0. destruct I.
  assert (Hch : chan (k_finish c1 t k ov r e) = chan c) by (unfold chan; cbn; rewrite H3, H5; reflexivity).
  constructor; rewrite ?Hch; auto.
  - cbn. intros t0. unfold upd. destruct (Nat.eqb_spec t0 t).
    + subst. cbn. split; [discriminate|]. intros E. destruct Hm as [[Hm _]|[Hm Hh]]; [congruence|].
      rewrite Hm in E. apply u_mx0 in E. congruence.
    + rewrite H1. destruct Hm as [[Hm Hm2]|[Hm Hh]].
      * rewrite Hm. rewrite (others_not_holding c t I0 Hm2 _ n). split; discriminate.
      * rewrite Hm. apply u_mx0.
  - intros t0. unfold local_ok. cbn. unfold upd. destruct (Nat.eqb_spec t0 t); [exact I|].
    rewrite H1, H7, H3, H4. apply u_ck0.
  - intros t0 v0 ph E. cbn in E. unfold upd in E. destruct (Nat.eqb_spec t0 t); [discriminate|].
    rewrite H1 in E. destruct (u_val0 _ _ _ E) as (A & B & C). cbn. rewrite H2, H3, H4, H5.
    split; [exact A|]. split; [exact B|]. destruct ph; auto.
  - cbn. rewrite H2. exact u_bound0.
  - cbn [uc_log k_finish]. rewrite H6. constructor.
    + intros Hk. cbn in Hk. cbn [e_t e_v e_r e_k].
      destruct (usending (uc_pc c t)) as [[v ph]|] eqn:Es; [|congruence].
      destruct Hs as (_ & -> & Hok & Hno). destruct (u_val0 _ _ _ Es) as (Ev & Hpos & _).
      exists (pred (uc_cnt c t)). rewrite <- Ev. split; [reflexivity|]. split.
      * unfold udone. cbn. rewrite upd_same. cbn. rewrite H2. lia.
      * rewrite Hch. cbn. rewrite H5. split; [intros X Y; apply (Hok X); exact Y|]. split; [apply Hok|exact Hno].
    + eapply Forall_impl; [|exact u_logok0]. intros ev H Hke. destruct (H Hke) as (n & A & B & C).
      exists n. split; [exact A|]. split; [eapply Nat.lt_le_trans; [exact B|apply udone_finish; assumption]|].
      rewrite Hch. cbn. rewrite H5. exact C.
  - cbn. rewrite H6, H5. destruct (is_recvk k) eqn:Ek; cbn; [|exact u_recv0].
    destruct r; cbn; try exact u_recv0. exfalso. apply Hr; reflexivity.
  - cbn. rewrite H6, H7. constructor; [exact Hc|exact u_closedr0].
Qed.

Lemma kfree_none c : kfree c = true -> uc_mtx c = None.
Proof. unfold kfree. destruct (uc_mtx c); [discriminate|reflexivity]. Qed.

Lemma uinv_ucstep c t to c' ms mr : UInv c -> ucstep true c t to = Some (c', ms, mr) -> UInv c'.
Proof.
  intros I H. pose proof I as I0. destruct I. unfold ucstep, quiet in H. cbv iota in H.
  (* what the invariant says of t at its pc: it holds the mutex there, its value, the local fact *)
  pose proof (proj1 (u_mx0 t)) as Hm. pose proof (u_val0 t) as Hv. pose proof (u_ck0 t) as Hl.
  destruct (uc_pc c t) eqn:Epc; cbn in Hm, Hv, Hl.
  all: try (destruct (uc_prog c t) as [|[] ?]; [discriminate|..]).
  all: repeat match type of H with
       | context [match uc_slot ?c with _ => _ end] => destruct (uc_slot c) eqn:Esl
       | context [if ?b then _ else _] => destruct b eqn:?
       end.
  all: inversion H; subst c' ms mr; clear H.
  all: try match goal with E : kfree _ = true |- _ => apply kfree_none in E end.
  all: try specialize (Hm eq_refl).
  all: try (destruct (Hv _ _ eq_refl) as (Ev & Hpos & Hph)).
  all: try match goal with E : negb (Nat.eqb _ _) = true |- _ => apply negb_true_iff, Nat.eqb_neq in E end.
  all: try match goal with E : negb (Nat.eqb _ _) = false |- _ => apply negb_false_iff, Nat.eqb_eq in E end.
  (* the slot is free where a test has just found it so *)
  all: try (assert (Esl : uc_slot c = None)
              by (destruct (uc_slot c); [exfalso|reflexivity];
                  match goal with
                  | E : _ || is_some _ = false |- _ => apply orb_false_elim in E; destruct E; discriminate
                  | E : _ && negb (is_some _) = true |- _ => apply andb_prop in E; destruct E; discriminate
                  end)).
  (* moves inside a call *)
  all: try solve [apply uinv_start; auto].
  all: try solve [apply uinv_goto; try apply uinv_closed; auto; cbn; rewrite ?Epc; cbn; auto].
  all: try solve [apply uinv_move; auto; rewrite ?Epc; cbn; auto].
  all: try solve [apply (uinv_move (k_rw c (uc_rw c + 1))); try apply uinv_rw; auto; cbn; rewrite ?Epc; auto].
  (* the slot changes hands *)
  all: try solve [eapply uinv_deposit_go; eauto].
  all: try solve [apply uinv_deposit_fin; auto].
  all: try solve [eapply uinv_withdraw; eauto].
  all: try solve [apply uinv_take; auto].
  all: try solve [apply (uinv_take (k_rw c (uc_rw c - 1))); try apply uinv_rw; auto].
  (* returns that leave the slot alone *)
  all: unfold k_ret_send, k_ret_recv.
  all: first [eapply (uinv_finish_gen c)|eapply (uinv_finish_gen (k_rw c (uc_rw c - 1))); [apply uinv_rw; exact I0|..]];
       try reflexivity; auto; cbn; rewrite ?Epc; cbn; auto; try discriminate.
  all: try solve [repeat split; auto; try discriminate; try (intros [X|X]; discriminate)].
  (* US_rt: the take counter has moved on, so the value was taken; else the loop was left because of close() *)
  - destruct Hph as [(X & _)|(_ & Hin)]; [congruence|].
    repeat split; auto; try discriminate; [apply in_or_app; left; exact Hin|intros [X|X]; discriminate].
  - intros _. destruct Hl as [Hl|Hl]; [congruence|exact Hl].
Qed.

Theorem uinv_reach progs now0 s : ureach true progs now0 s -> UInv (ucore_of s).
Proof.
  induction 1 as [|s l s' R IH H].
  - apply uinv_init.
  - destruct l as [t|t|d]; cbn in H.
    + destruct (ustep_sum _ _ _ _ H) as (p' & ms & mr & Hc & _). eapply uinv_ucstep; eauto.
    + rewrite (utimer_core _ _ _ H). exact IH.
    + inversion H; subst. eapply uinv_frame; [exact IH|reflexivity..|auto].
Qed.

(* the terms in which the clauses of C09 for the unbuffered channel (C09_Properties.v) are stated *)
Definition u_offered (s : ust) (v : val) : Prop := (snd v < u_cnt s (fst v))%nat.
(* a call of kind k (KSend / KTrySend) with value v has returned r *)
Definition u_send_ret (s : ust) (k : opkind) (v : val) (r : res) : Prop :=
  exists e, In e (u_log s) /\ e_k e = k /\ e_v e = Some v /\ e_r e = r.
