From Coq Require Import ZArith List Lia.
From PV Require Import C09.C09_Proofs C09.C09_Release.

(* PRE-FIX variants (fx = false = go.h before b2db000 / 90f131c; /repo now contains both repairs, these record why):
   F10 (unbuffered channel before its repair): exactly-once and release are refuted *)
Theorem chan_exactly_once_unbuffered_refuted : C09_Witness.chan_exactly_once_unbuffered_refuted_stmt.
Proof. exact C09_Witness.chan_exactly_once_unbuffered_refuted. Qed.
Print Assumptions chan_exactly_once_unbuffered_refuted.
Theorem chan_release_unbuffered_refuted : C09_Witness.chan_release_unbuffered_refuted_stmt.
Proof. exact C09_Witness.chan_release_unbuffered_refuted. Qed.
Print Assumptions chan_release_unbuffered_refuted.
(* F11 (buffered channel BEFORE its repair, fx = false): release is refuted across vCPUs *)
Theorem chan_release_buffered_refuted : C09_Witness.chan_release_buffered_refuted_stmt.
Proof. exact C09_Witness.chan_release_buffered_refuted. Qed.
Print Assumptions chan_release_buffered_refuted.

(* unbuffered channel, repaired code: every schedule *)
(* exactly once.  u_taken = the values handed to successful recv/try_recv calls, in order (the take and the return
   are one step): it never repeats a value; a blocking send returns true only if its value is in it; a try_send
   that returned true has its value in it or still in the slot (where the next receiver finds it); the successful
   receives are exactly the takes. *)
Theorem chan_exactly_once_unbuffered :
  forall progs now0 s, C09_UnbufProofs.ureach true progs now0 s ->
    NoDup (C09_Unbuf.u_taken s ++ C09_Common.opt_list (C09_Unbuf.u_slot s)) /\
    (forall v, C09_UnbufProofs.u_send_ret s C09_Common.KSend v C09_Common.ROk -> In v (C09_Unbuf.u_taken s)) /\
    (forall v, C09_UnbufProofs.u_send_ret s C09_Common.KTrySend v C09_Common.ROk ->
               In v (C09_Unbuf.u_taken s ++ C09_Common.opt_list (C09_Unbuf.u_slot s))) /\
    C09_BufProofs.recv_vals (C09_Unbuf.u_log s) = rev (C09_Unbuf.u_taken s).
Proof.
  intros progs now0 s R. destruct (uinv_reach _ _ _ R) as [u_mx0 u_ck0 u_val0 u_bound0 u_nodup0 u_logok0 u_sorted0 u_recv0 u_closedr0]. cbn in *. unfold chan in *. cbn in *.
  rewrite Forall_forall in u_logok0. repeat split; auto.
  - intros v (e & Hin & Hk & Hv & Hr).
    destruct (u_logok0 _ Hin) as (n & A & _ & C & _); [rewrite Hk; reflexivity|].
    rewrite Hv in A. inversion A. apply C; auto.
  - intros v (e & Hin & Hk & Hv & Hr).
    destruct (u_logok0 _ Hin) as (n & A & _ & _ & C & _); [rewrite Hk; reflexivity|].
    rewrite Hv in A. inversion A. apply C; auto.
Qed.
Print Assumptions chan_exactly_once_unbuffered.
(* a send that timed out / a try_send that found no receiver is never delivered *)
Theorem chan_timeout_not_delivered_unbuffered :
  forall progs now0 s k v r, C09_UnbufProofs.ureach true progs now0 s -> C09_BufProofs.is_sendk k = true ->
    C09_UnbufProofs.u_send_ret s k v r -> r = C09_Common.RTimeout \/ r = C09_Common.RNo ->
    ~ In v (C09_Unbuf.u_taken s) /\ C09_Unbuf.u_slot s <> Some v.
Proof.
  intros progs now0 s k v r R Hk (e & Hin & Ek & Hv & Hr) Hne. destruct (uinv_reach _ _ _ R) as [u_mx0 u_ck0 u_val0 u_bound0 u_nodup0 u_logok0 u_sorted0 u_recv0 u_closedr0]. cbn in *. unfold chan in *. cbn in *.
  rewrite Forall_forall in u_logok0.
  destruct (u_logok0 _ Hin) as (n & A & _ & _ & _ & C); [rewrite Ek; exact Hk|].
  rewrite Hv in A. inversion A. subst v. rewrite Hr in C. specialize (C Hne).
  split; intros X; apply C; apply in_or_app; [left; exact X|right].
  change (C09_UnbufStep.uc_slot (C09_UnbufStep.ucore_of s)) with (C09_Unbuf.u_slot s). rewrite X. left. reflexivity.
Qed.
Print Assumptions chan_timeout_not_delivered_unbuffered.
(* whatever is delivered (or waits in the slot) was offered by a send call *)
Theorem chan_no_invention_unbuffered :
  forall progs now0 s v, C09_UnbufProofs.ureach true progs now0 s ->
    In v (C09_Unbuf.u_taken s ++ C09_Common.opt_list (C09_Unbuf.u_slot s)) -> C09_UnbufProofs.u_offered s v.
Proof.
  intros progs now0 s [t n] R H. exact (u_bound _ (uinv_reach _ _ _ R) t n H).
Qed.
Print Assumptions chan_no_invention_unbuffered.
(* the values of one sender are delivered in the order of its calls *)
Theorem chan_fifo_per_sender_unbuffered :
  forall progs now0 s, C09_UnbufProofs.ureach true progs now0 s ->
    C09_BufProofs.sender_sorted (C09_Unbuf.u_taken s ++ C09_Common.opt_list (C09_Unbuf.u_slot s)).
Proof. intros progs now0 s R. exact (u_sorted _ (uinv_reach _ _ _ R)). Qed.
Print Assumptions chan_fifo_per_sender_unbuffered.
Theorem chan_false_closed_only_after_close_unbuffered :
  forall progs now0 s e, C09_UnbufProofs.ureach true progs now0 s -> In e (C09_Unbuf.u_log s) ->
    C09_Common.e_r e = C09_Common.RClosed -> C09_Unbuf.u_closed s = true.
Proof.
  intros progs now0 s e R Hin Hr. pose proof (u_closedr _ (uinv_reach _ _ _ R)) as F. rewrite Forall_forall in F. exact (F _ Hin Hr).
Qed.
Print Assumptions chan_false_closed_only_after_close_unbuffered.
(* mutual exclusion of the critical sections (the side condition of the atomic-step granularity): a thread is
   inside a block that touches the slot / counters iff it holds m_unbuf_mutex *)
Theorem chan_unbuffered_footprint_protected :
  forall progs now0 s t, C09_UnbufProofs.ureach true progs now0 s ->
    (C09_UnbufProofs.holds (C09_Unbuf.u_pc s t) = true <-> C09_Unbuf.u_mtx s = Some t).
Proof. intros progs now0 s t R. exact (u_mx _ (uinv_reach _ _ _ R) t). Qed.
Print Assumptions chan_unbuffered_footprint_protected.

(* buffered channel, code as it is (fx = false) AND after the F11 repair (fx = true): every schedule, every capacity *)
(* exactly once: a value whose send returned true sits, exactly once, either in the list of popped values or in
   the ring; every popped value is returned by exactly one successful recv / try_recv (or is about to be) and no
   successful recv returns anything else. *)
Theorem chan_exactly_once_buffered :
  forall fx mcap progs now0 s, C09_BufProofs.breach fx mcap progs now0 s ->
    NoDup (C09_Buf.b_popped s ++ map fst (C09_Buf.b_q s)) /\
    (forall v, C09_BufProofs.b_send_ret s v C09_Common.ROk -> In v (C09_Buf.b_popped s ++ map fst (C09_Buf.b_q s))) /\
    NoDup (C09_BufProofs.recv_vals (C09_Buf.b_log s)) /\
    (forall v, In v (C09_BufProofs.recv_vals (C09_Buf.b_log s)) -> In v (C09_Buf.b_popped s)) /\
    (forall v, In v (C09_Buf.b_popped s) -> In v (C09_BufProofs.recv_vals (C09_Buf.b_log s)) \/ C09_BufProofs.b_in_hand s v) /\
    (forall v, C09_BufProofs.b_in_hand s v -> In v (C09_Buf.b_popped s) /\ ~ In v (C09_BufProofs.recv_vals (C09_Buf.b_log s))).
Proof.
  intros fx mcap progs now0 s R. destruct (inv_reach _ _ _ _ _ R) as [i_ledger0 i_send0 i_bound0 i_nodup0 i_log0 i_sorted0 i_hold0 i_hold2 i_rnodup0 i_rpop0 i_np0 i_aux0 i_closed0 i_popret0]. cbn in *.
  rewrite <- i_ledger0. repeat split; auto.
  - intros v (e & Hin & Hk & Hv & Hr). rewrite Forall_forall in i_log0.
    destruct (i_log0 _ Hin Hk) as (n & A & _ & C). rewrite Hv in A. inversion A. apply C. exact Hr.
  - destruct H as [t H]. apply (i_hold0 _ _ H).
  - destruct H as [t H]. apply (i_hold0 _ _ H).
Qed.
Print Assumptions chan_exactly_once_buffered.
(* a send that returned false (closed / timeout / full) is never delivered: its value never entered the ring *)
Theorem chan_false_not_delivered_buffered :
  forall fx mcap progs now0 s v r, C09_BufProofs.breach fx mcap progs now0 s -> C09_BufProofs.b_send_ret s v r -> r <> C09_Common.ROk ->
    ~ In v (C09_Buf.b_pushed s) /\ ~ In v (C09_Buf.b_popped s) /\ ~ In v (C09_BufProofs.recv_vals (C09_Buf.b_log s)).
Proof.
  intros fx mcap progs now0 s v r R (e & Hin & Hk & Hv & Hr) Hne. destruct (inv_reach _ _ _ _ _ R) as [i_ledger0 i_send0 i_bound0 i_nodup0 i_log0 i_sorted0 i_hold0 i_hold2 i_rnodup0 i_rpop0 i_np0 i_aux0 i_closed0 i_popret0]. cbn in *.
  rewrite Forall_forall in i_log0. destruct (i_log0 _ Hin Hk) as (n & A & _ & C).
  rewrite Hv in A. inversion A. subst v.
  assert (N : ~ In (C09_Common.e_t e, n) (C09_Buf.b_pushed s)) by (intros X; apply Hne; rewrite <- Hr; apply C; exact X).
  assert (N2 : ~ In (C09_Common.e_t e, n) (C09_Buf.b_popped s)) by (intros X; apply N; rewrite i_ledger0; apply in_or_app; auto).
  repeat split; auto.
Qed.
Print Assumptions chan_false_not_delivered_buffered.
(* whatever is delivered was offered by a send call of its sender *)
Theorem chan_no_invention_buffered :
  forall fx mcap progs now0 s v, C09_BufProofs.breach fx mcap progs now0 s ->
    In v (C09_BufProofs.recv_vals (C09_Buf.b_log s)) \/ In v (C09_Buf.b_popped s) ->
    C09_BufProofs.b_offered s v /\ In v (C09_Buf.b_pushed s).
Proof.
  intros fx mcap progs now0 s v R H. destruct (inv_reach _ _ _ _ _ R) as [i_ledger0 i_send0 i_bound0 i_nodup0 i_log0 i_sorted0 i_hold0 i_hold2 i_rnodup0 i_rpop0 i_np0 i_aux0 i_closed0 i_popret0]. cbn in *.
  assert (Hp : In v (C09_Buf.b_pushed s)).
  { rewrite i_ledger0. apply in_or_app. left. destruct H; auto. }
  split; auto. destruct v as [t n]. apply i_bound0. exact Hp.
Qed.
Print Assumptions chan_no_invention_buffered.
(* the ring is first-in first-out (pushed = popped ++ ring), and the values of one sender enter it — hence leave
   it — in the order of its calls *)
Theorem chan_fifo_per_sender_buffered :
  forall fx mcap progs now0 s, C09_BufProofs.breach fx mcap progs now0 s ->
    C09_Buf.b_pushed s = C09_Buf.b_popped s ++ map fst (C09_Buf.b_q s) /\
    C09_BufProofs.sender_sorted (C09_Buf.b_pushed s) /\ C09_BufProofs.sender_sorted (C09_Buf.b_popped s).
Proof.
  intros fx mcap progs now0 s R. destruct (inv_reach _ _ _ _ _ R) as [i_ledger0 i_send0 i_bound0 i_nodup0 i_log0 i_sorted0 i_hold0 i_hold2 i_rnodup0 i_rpop0 i_np0 i_aux0 i_closed0 i_popret0]. cbn in *. repeat split; auto.
  intros l1 x l2 E y Hy Hf. eapply (i_sorted0 l1 x (l2 ++ map fst (C09_Buf.b_q s))); eauto.
  rewrite i_ledger0, E, <- app_assoc. reflexivity.
Qed.
Print Assumptions chan_fifo_per_sender_buffered.
(* a send/recv that reports "closed" has seen m_closed == true *)
Theorem chan_false_closed_only_after_close_buffered :
  forall fx mcap progs now0 s e, C09_BufProofs.breach fx mcap progs now0 s -> In e (C09_Buf.b_log s) ->
    C09_Common.e_r e = C09_Common.RClosed -> C09_Buf.b_closed s = true.
Proof.
  intros fx mcap progs now0 s e R Hin Hr. pose proof (i_closed _ (inv_reach _ _ _ _ _ R)) as F. rewrite Forall_forall in F. exact (F _ Hin Hr).
Qed.
Print Assumptions chan_false_closed_only_after_close_buffered.
(* a recv reports "closed" only after a pop that found the ring empty; every value pushed before that pop had been
   popped (e_aux = number of pushes at that moment) *)
Theorem chan_drain_after_close :
  forall fx mcap progs now0 s e, C09_BufProofs.breach fx mcap progs now0 s -> In e (C09_Buf.b_log s) ->
    C09_Common.e_k e = C09_Common.KRecv -> C09_Common.e_r e = C09_Common.RClosed ->
    firstn (C09_Common.e_aux e) (C09_Buf.b_pushed s) = firstn (C09_Common.e_aux e) (C09_Buf.b_popped s).
Proof.
  intros fx mcap progs now0 s e R Hin Hk Hr. destruct (inv_reach _ _ _ _ _ R) as [i_ledger0 i_send0 i_bound0 i_nodup0 i_log0 i_sorted0 i_hold0 i_hold2 i_rnodup0 i_rpop0 i_np0 i_aux0 i_closed0 i_popret0]. cbn in *. rewrite Forall_forall in i_aux0.
  specialize (i_aux0 _ Hin Hk Hr). rewrite i_ledger0. rewrite firstn_app.
  replace (C09_Common.e_aux e - length (C09_Buf.b_popped s))%nat with O by lia. cbn. rewrite app_nil_r. reflexivity.
Qed.
Print Assumptions chan_drain_after_close.

(* false only because of an expired timeout, unbuffered channel (as it is and repaired) *)
Theorem chan_false_timeout_only_when_expired_unbuffered :
  forall fx progs now0 s e, C09_UnbufProofs.ureach fx progs now0 s -> In e (C09_Unbuf.u_log s) ->
    C09_Common.e_r e = C09_Common.RTimeout -> C09_Common.expired (C09_Common.e_now e) (C09_Common.e_exp e) = true.
Proof.
  intros fx progs now0 s e R Hin Hr. destruct (UT_reach _ _ _ _ R) as [_ B]. rewrite Forall_forall in B. exact (B _ Hin Hr).
Qed.
Print Assumptions chan_false_timeout_only_when_expired_unbuffered.

(* false only because of an expired timeout, buffered channel (before and after the F11 repair) *)
Theorem chan_false_timeout_only_when_expired_buffered :
  forall fx mcap progs now0 s e, C09_BufProofs.breach fx mcap progs now0 s -> In e (C09_Buf.b_log s) ->
    C09_Common.e_r e = C09_Common.RTimeout -> C09_Common.expired (C09_Common.e_now e) (C09_Common.e_exp e) = true.
Proof. exact chan_timeout_reason_buffered_proved. Qed.
Print Assumptions chan_false_timeout_only_when_expired_buffered.

(* release, unbuffered channel, REPAIRED code (fx = true), every schedule: in a quiescent state (mutex free, every
   thread between two operations or asleep in a cv wait) nobody sleeps after close(), no receiver sleeps while a value
   is in the slot, a sender asleep in loop 2 still has its value in the slot (not taken), and no sender waiting for a
   receiver / the slot sleeps while a receiver sleeps *)
Theorem chan_release_unbuffered :
  forall progs now0 s, C09_UnbufProofs.ureach true progs now0 s -> C09_UnbufRelease.uquiescent s ->
    (C09_Unbuf.u_closed s = true -> forall t, C09_Unbuf.u_w s t <> C09_Common.Asleep) /\
    (forall t e, C09_Unbuf.u_pc s t = C09_Unbuf.UR_w e -> C09_Unbuf.u_w s t = C09_Common.Asleep -> C09_Unbuf.u_slot s = None) /\
    (forall t v e q, C09_Unbuf.u_pc s t = C09_Unbuf.US_w2 v e q -> C09_Unbuf.u_w s t = C09_Common.Asleep ->
                     q = C09_Unbuf.u_seq s /\ C09_Unbuf.u_slot s = Some v) /\
    (forall t1 v e t2 e2, C09_Unbuf.u_pc s t1 = C09_Unbuf.US_w1 v e -> C09_Unbuf.u_w s t1 = C09_Common.Asleep ->
                          C09_Unbuf.u_pc s t2 = C09_Unbuf.UR_w e2 -> C09_Unbuf.u_w s t2 = C09_Common.Asleep -> False).
Proof.
  intros progs now0 s R Q. destruct (chan_release_unbuffered_proved progs now0 s R Q) as (A & B & C & D).
  split; [exact A|]. split; [exact B|]. split; [|exact D].
  intros t v e q Ep E. pose proof (C t v e q Ep E) as Eq. split; [exact Eq|]. eapply w2_slot; eauto.
Qed.
Print Assumptions chan_release_unbuffered.
Example chan_release_unbuffered_hyps_met :
  exists s, C09_UnbufProofs.ureach true C09_Witness.f10_progs 1000 s /\ C09_UnbufRelease.uquiescent s /\
            C09_Unbuf.u_w s 3%nat = C09_Common.Asleep /\
            (exists v e, C09_Unbuf.u_pc s 3%nat = C09_Unbuf.US_w1 v e) /\ C09_Unbuf.u_taken s = ((2, 0)%nat :: nil).
Proof. exact C09_UnbufRelease.unbuf_release_example. Qed.

(* F40: release on the REPAIRED buffered channel (fx = true) is still refuted for capacity >= 2 with a timed send:
   a sender that consumed a wake-up leaves by timeout after a torn tail/head read; another sender sleeps for ever
   with a free slot, the channel open, nobody inside a call (replayed on the real go.h by the E3 step of the check) *)
Theorem chan_release_buffered_repaired_refuted : C09_Witness2.chan_release_buffered_repaired_refuted_stmt.
Proof. exact C09_Witness2.chan_release_buffered_repaired_refuted. Qed.
Print Assumptions chan_release_buffered_repaired_refuted.
