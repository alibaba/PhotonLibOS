(* C09_Witness.v — concrete schedules refuting clauses of C09 on the faithful models
   (findings F10, F11), evaluated by vm_compute. *)
From Coq Require Import ZArith List Bool.
From PV Require Import Base.U64 C09.C09_Common C09.C09_Unbuf C09.C09_Buf C09.C09_Model.
Import ListNotations.
Local Open Scope Z_scope.

Definition thr (l : list nat) : list label := map LThr l.

(* did a send / try_send of v return true? *)
Definition is_send_ok (v : val) (e : event) : bool :=
  match e_k e, e_v e, e_r e with
  | KSend, Some x, ROk | KTrySend, Some x, ROk => val_eqb x v
  | _, _, _ => false
  end.
Definition u_sent_true (s : ust) (v : val) : bool := existsb (is_send_ok v) (u_log s).
Definition b_sent_true (s : bst) (v : val) : bool := existsb (is_send_ok v) (b_log s).
Definition u_done (s : ust) (t : tid) : bool :=
  match u_pc s t, u_prog s t with UIdle, [] => true | _, _ => false end.
Definition u_asleep (s : ust) (t : tid) : bool := match u_w s t with Asleep => true | _ => false end.
Definition b_asleep (s : bst) (t : tid) : bool := match b_w s t with Asleep => true | _ => false end.

(* F10: unbuffered channel, receiver T1 waiting, senders T2 then T3 *)
Definition f10_progs : tid -> list op := progs_fun [[ORecv MAX64]; [OSend MAX64]; [OSend MAX64]].
Definition f10_sched : list label :=
  thr [1;1;1; 2;2;2;2;2; 3;3;3;3;3; 1;1; 2;2;2]%nat.

(* On go.h as it is: T2's send returns true, its value (2,0) was overwritten by T3's and is
   never delivered; T3's value IS delivered, yet T3 stays asleep on m_unbuf_send_cv with nobody
   left to wake it (it returns true only when its Timeout expires). *)
Definition f10_witness_stmt : Prop :=
  exists s, urun false (u_init f10_progs 1000) f10_sched = Some s /\
    u_sent_true s (2, 0)%nat = true /\
    count_val (2, 0)%nat (u_taken s) = O /\
    u_taken s = [(3, 0)%nat] /\ u_lost s = [(2, 0)%nat] /\ u_slot s = None /\
    u_done s 1%nat = true /\ u_done s 2%nat = true /\
    u_asleep s 3%nat = true /\ u_scv s = [3%nat] /\ u_mtx s = None.
Lemma f10_witness : f10_witness_stmt.
Proof. unfold f10_witness_stmt. eexists. split; [vm_compute; reflexivity|]. vm_compute. repeat split; reflexivity. Qed.

(* the same schedule on the repaired code: T3 waits for the slot; (2,0) is delivered *)
Definition f10_fixed_behaviour_stmt : Prop :=
  exists s, urun true (u_init f10_progs 1000) (thr [1;1;1; 2;2;2;2;2; 3;3;3; 1;1; 2;2;2; 3;3]%nat) = Some s /\
    u_taken s = [(2, 0)%nat] /\ u_lost s = [] /\ u_sent_true s (2, 0)%nat = true /\
    u_sent_true s (3, 0)%nat = false /\ u_asleep s 3%nat = true /\ u_rw s = 0.
Lemma f10_fixed_behaviour : f10_fixed_behaviour_stmt.
Proof. unfold f10_fixed_behaviour_stmt. eexists. split; [vm_compute; reflexivity|]. vm_compute. repeat split; reflexivity. Qed.

(* F11: buffered channel, check-then-register lost wake-up (needs two vCPUs: the steps of
   two threads interleave between a failed push/pop and the registration as a waiter) *)
Definition b_done (s : bst) (t : tid) : bool :=
  match b_pc s t, b_prog s t with BIdle, [] => true | _, _ => false end.

(* (a) sender: capacity 1; T1 sends twice, T2 receives once.  T1's second send finds the buffer
   full and is about to register; T2 pops, sees m_senders_waiting == 0 and does not signal; T1
   registers and sleeps on m_send_sem although a slot is free and nobody is inside a call. *)
Definition f11a_progs : tid -> list op := progs_fun [[OSend MAX64; OSend MAX64]; [ORecv MAX64]].
Definition f11a_sched : list label := thr [1;1;1;1;1;1;1; 1;1;1;1;1; 2;2;2; 1;1]%nat.
Definition f11a_witness_stmt : Prop :=
  exists s, brun false 1 (b_init f11a_progs 1000) f11a_sched = Some s /\
    b_q s = [] /\ b_closed s = false /\ b_done s 2%nat = true /\
    b_asleep s 1%nat = true /\ sm_q (b_ssem s) = [1%nat] /\ sm_cnt (b_ssem s) = 0 /\
    b_dl s 1%nat = MAX64 /\ b_popped s = [(1, 0)%nat].
Lemma f11a_witness : f11a_witness_stmt.
Proof. unfold f11a_witness_stmt. eexists. split; [vm_compute; reflexivity|]. vm_compute. repeat split; reflexivity. Qed.

(* (b) receiver: T1's pop finds the buffer empty; T2 sends, sees m_receivers_waiting == 0;
   T1 registers and sleeps although an item is buffered. *)
Definition f11b_progs : tid -> list op := progs_fun [[ORecv MAX64]; [OSend MAX64]].
Definition f11b_sched : list label := thr [1;1;1;1; 2;2;2;2;2;2;2; 1;1]%nat.
Definition f11b_witness_stmt : Prop :=
  exists s, brun false 1 (b_init f11b_progs 1000) f11b_sched = Some s /\
    b_q s = [((2, 0)%nat, true)] /\ b_closed s = false /\ b_done s 2%nat = true /\
    b_sent_true s (2, 0)%nat = true /\
    b_asleep s 1%nat = true /\ sm_q (b_rsem s) = [1%nat] /\ sm_cnt (b_rsem s) = 0 /\ b_dl s 1%nat = MAX64.
Lemma f11b_witness : f11b_witness_stmt.
Proof. unfold f11b_witness_stmt. eexists. split; [vm_compute; reflexivity|]. vm_compute. repeat split; reflexivity. Qed.

(* (c) close: T1's recv has seen "not closed"; T2's close() reads m_receivers_waiting == 0;
   T1 registers and sleeps for ever on a closed channel. *)
Definition f11c_progs : tid -> list op := progs_fun [[ORecv MAX64]; [OClose]].
Definition f11c_sched : list label := thr [1;1;1;1; 2;2;2;2;2;2; 1;1]%nat.
Definition f11c_witness_stmt : Prop :=
  exists s, brun false 1 (b_init f11c_progs 1000) f11c_sched = Some s /\
    b_closed s = true /\ b_done s 2%nat = true /\
    b_asleep s 1%nat = true /\ sm_q (b_rsem s) = [1%nat] /\ sm_cnt (b_rsem s) = 0 /\ b_dl s 1%nat = MAX64.
Lemma f11c_witness : f11c_witness_stmt.
Proof. unfold f11c_witness_stmt. eexists. split; [vm_compute; reflexivity|]. vm_compute. repeat split; reflexivity. Qed.

(* the refutations in the form "there is a reachable state that violates the clause" *)
(* F10: exactly-once fails on the unbuffered channel as it is *)
Definition chan_exactly_once_unbuffered_refuted_stmt : Prop :=
  exists (progs : tid -> list op) (ls : list label) (s : ust) (v : val),
    urun false (u_init progs 1000) ls = Some s /\
    u_sent_true s v = true /\ count_val v (u_taken s) = O /\ u_slot s = None /\ mem_val v (u_lost s) = true.
Lemma chan_exactly_once_unbuffered_refuted : chan_exactly_once_unbuffered_refuted_stmt.
Proof.
  exists f10_progs, f10_sched. eexists. exists (2, 0)%nat.
  split; [vm_compute; reflexivity|]. vm_compute. repeat split; reflexivity.
Qed.

(* F10, release clause: T3 sleeps for ever (no timer, nobody inside a call) although its value was
   delivered *)
Definition chan_release_unbuffered_refuted_stmt : Prop :=
  exists (progs : tid -> list op) (ls : list label) (s : ust) (t : tid) (v : val) e q,
    urun false (u_init progs 1000) ls = Some s /\
    u_pc s t = US_w2 v e q /\ u_asleep s t = true /\ u_dl s t = MAX64 /\ mem_val v (u_taken s) = true /\
    u_mtx s = None /\ forallb (fun t' => u_done s t' || Nat.eqb t' t) [1;2;3]%nat = true.
Lemma chan_release_unbuffered_refuted : chan_release_unbuffered_refuted_stmt.
Proof.
  exists f10_progs, f10_sched. eexists. exists 3%nat, (3, 0)%nat. do 2 eexists.
  split; [vm_compute; reflexivity|]. vm_compute. repeat split; reflexivity.
Qed.

(* F11: release fails on the buffered channel across vCPUs: a thread sleeps on its semaphore with
   an infinite deadline, count 0, nobody inside a call, while (a) a slot is free, (b) an item is
   buffered, (c) the channel is closed *)
Definition chan_release_buffered_refuted_stmt : Prop :=
  (exists ls s, brun false 1 (b_init f11a_progs 1000) ls = Some s /\ b_asleep s 1%nat = true /\ b_dl s 1%nat = MAX64 /\
                sm_cnt (b_ssem s) = 0 /\ b_q s = [] /\ b_closed s = false /\ b_done s 2%nat = true) /\
  (exists ls s, brun false 1 (b_init f11b_progs 1000) ls = Some s /\ b_asleep s 1%nat = true /\ b_dl s 1%nat = MAX64 /\
                sm_cnt (b_rsem s) = 0 /\ b_q s = [((2, 0)%nat, true)] /\ b_closed s = false /\ b_done s 2%nat = true) /\
  (exists ls s, brun false 1 (b_init f11c_progs 1000) ls = Some s /\ b_asleep s 1%nat = true /\ b_dl s 1%nat = MAX64 /\
                sm_cnt (b_rsem s) = 0 /\ b_closed s = true /\ b_done s 2%nat = true).
Lemma chan_release_buffered_refuted : chan_release_buffered_refuted_stmt.
Proof.
  split; [|split].
  - exists f11a_sched. eexists. split; [vm_compute; reflexivity|]. vm_compute. repeat split; reflexivity.
  - exists f11b_sched. eexists. split; [vm_compute; reflexivity|]. vm_compute. repeat split; reflexivity.
  - exists f11c_sched. eexists. split; [vm_compute; reflexivity|]. vm_compute. repeat split; reflexivity.
Qed.

(* the three F11 schedules on the REPAIRED buffered code (fx = true; the re-check adds steps): nobody is left asleep *)
Definition f11_fixed_behaviour_stmt : Prop :=
  (exists s, brun true 1 (b_init f11a_progs 1000) (thr [1;1;1;1;1;1;1; 1;1;1;1;1; 2;2;2; 1;1;1;1;1; 1;1;1;1;1;1]%nat) = Some s /\
             b_done s 1%nat = true /\ b_done s 2%nat = true /\ b_sent_true s (1, 1)%nat = true) /\
  (exists s, brun true 1 (b_init f11b_progs 1000) (thr [1;1;1;1; 2;2;2;2;2;2;2; 1;1;1;1;1; 1;1]%nat) = Some s /\
             b_done s 1%nat = true /\ b_popped s = [(2, 0)%nat]) /\
  (exists s, brun true 1 (b_init f11c_progs 1000) (thr [1;1;1;1; 2;2;2;2;2;2; 1;1;1; 1;1]%nat) = Some s /\
             b_done s 1%nat = true /\ b_closed s = true).
Lemma f11_fixed_behaviour : f11_fixed_behaviour_stmt.
Proof.
  split; [|split]; eexists; (split; [vm_compute; reflexivity|]); vm_compute; repeat split; reflexivity.
Qed.
