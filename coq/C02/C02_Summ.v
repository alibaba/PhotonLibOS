(* C02_Summ.v — a summary of what one step does to the wait queue, to the scheduler fields of
   every thread and to the stepping thread's program counter, for a step from a pc outside the
   out-of-order scan (in in-order mode: every step).  The structural invariants of C02_Struct.v are
   derived from this summary by pure case analysis on the old pc. *)
From Coq Require Import ZArith List Bool Arith Lia.
From PV Require Import C02.C02_Model C02.C02_Base C02.C02_Cons C02.C02_Locks.
Import ListNotations.
Local Open Scope Z_scope.

Definition inq (s : state) (y : nat) : bool := t_inq (getth s y).
Definition stof (s : state) (y : nat) : tstate := t_state (getth s y).
Definition pend (s : state) (y : nat) : bool := t_pend (getth s y).

Definition eff_queue (t : nat) (p : pc) (q : list nat) : list nat :=
  match p with WEnq _ => q ++ [t] | PIDeq _ x => remove_tid x q | _ => q end.
Definition eff_inq (t : nat) (p : pc) (y : nat) (b : bool) : bool :=
  match p with
  | WEnq _ => if Nat.eqb t y then true else b
  | PIDeq _ x => if Nat.eqb x y then false else b
  | _ => b
  end.
Definition eff_state (t : nat) (p : pc) (y : nat) (old new : tstate) : Prop :=
  match p with
  | WEnq _ => if Nat.eqb t y then new = Sleeping else new = old
  | PIState _ x => if Nat.eqb x y then new <> Sleeping else new = old
  | _ => new = old
  end.
Definition eff_pend (t : nat) (p : pc) (y : nat) (old new : bool) : Prop :=
  match p with
  | TRCmp _ _ x => if Nat.eqb x y then new = true \/ new = old else new = old
  | WLoad _ | WCas _ _ => if Nat.eqb t y then new = false \/ new = old else new = old
  | _ => new = old
  end.

(* new pcs that matter to the structural invariants *)
Definition inert (p : pc) : Prop :=
  match p with
  | TRCmp _ _ _ | PIDeq _ _ | PIState _ _ | WQLock _ | WTLock _ | WEnq _ | WQUnlock _ | WDefer _ | WAsleep _ => False
  | PIQLock (KHead _ _) _ => False
  | _ => True
  end.
Definition cfg (s s' : state) (t : nat) (p p' : pc) : Prop :=
  match p with
  | WLoad a => (p' = WQLock a /\ pend s' t = false) \/ (exists mc, p' = WCas a mc)
  | WQLock a => p' = WQLock a \/ p' = WTLock a
  | WTLock a => p' = WTLock a \/ p' = WEnq a
  | WEnq a => p' = WQUnlock a
  | WQUnlock a => p' = WDefer a
  | WDefer a => p' = WAsleep a
  | WAsleep a => can_run (getth s t) = true /\ exists r, p' = WLock2 a r
  | TRRecheck k c x => (p' = TRCmp k c x /\ head s = Some x) \/ p' = TRUnlockRetry k c x
  | TRCmp k c x => (p' = TRUnlockBreak k c x /\ pend s' x = pend s x) \/ (exists c', p' = PIQLock (KHead k c') x /\ ((x < nthreads s)%nat -> pend s' x = true))
  | PIQLock kk x => p' = PIQLock kk x \/ p' = PIDeq kk x \/ (p' = PIState kk x /\ inq s x = false)
  | PIDeq kk x => p' = PIState kk x
  | _ => inert p'
  end.

Definition summ (s s' : state) (t : nat) : Prop :=
  let p := pcof s t in let p' := pcof s' t in
  queue s' = eff_queue t p (queue s) /\
  (forall y, (y < nthreads s)%nat -> inq s' y = eff_inq t p y (inq s y)) /\
  (forall y, (y < nthreads s)%nat -> eff_state t p y (stof s y) (stof s' y)) /\
  (forall y, (y < nthreads s)%nat -> eff_pend t p y (pend s y) (pend s' y)) /\
  (forall y, t_vcpu (getth s' y) = t_vcpu (getth s y)) /\
  (pc_args p' = None \/ pc_args p' = pc_args p) /\
  cfg s s' t p p'.

Lemma tstep_summ s t s' : tstep s t = Some s' -> noscan (pcof s t) = true -> summ s s' t.
Proof.
  intros H Hn. unfold summ. cbv zeta. destruct (tstep_inv _ _ _ H) as (Ht&Hr&[[Hsp ->]|(mid&own&p'&E&->&->)]).
  - destruct (pcof s t); try discriminate Hsp; cbn [eff_queue eff_inq eff_state eff_pend cfg inert]; repeat split; auto.
  - revert Hn. destruct E; unfold ret_pc, ret_own, pi_ret_pc; try destruct k; try destruct kk; cbn [noscan]; intros Hn; try discriminate Hn;
      cbv zeta; ifs; cbn [eff_queue eff_inq eff_state eff_pend cfg inert pc_args pc_caller pik_caller caller_args];
      unfold inq, stof, pend;
      (split; [glsimp; reflexivity
      |split; [intros y Hy; first [frame t_inq | flds; eqbs]
      |split; [intros y Hy; first [frame t_state | flds; eqbs]
      |split; [intros y Hy; first [frame t_pend | flds; eqbs]
      |split; [intros y; frame t_vcpu
      |split; [auto
      |flds; try exact Logic.I; eauto 6]]]]]]).
    all: try (left; split; [reflexivity|eqbs]; fail).
    all: try (right; eexists; split; [reflexivity|intros; eqbs]; fail).
Qed.
