(* C02_Locks2.v — q.lock and thread.lock ownership invariants (in-order mode). *)
From Coq Require Import ZArith List Bool Arith Lia.
From PV Require Import C02.C02_Model C02.C02_Base C02.C02_Locks C02.C02_LockProto.
Import ListNotations.
Local Open Scope Z_scope.

Definition lockof (s : state) (y : nat) : option part := t_lock (getth s y).
Definition nvcpus (s : state) : nat := length (vcpus s).

Lemma lockof_modth s x f y :
  lockof (modth s x f) y = if Nat.eqb x y && Nat.ltb x (nthreads s) then t_lock (f (getth s x)) else lockof s y.
Proof. apply (fld_modth t_lock). Qed.
Lemma lockof_set_now s v y : lockof (set_now s v) y = lockof s y. Proof. reflexivity. Qed.
Lemma nvcpus_set_now s v : nvcpus (set_now s v) = nvcpus s. Proof. reflexivity. Qed.
Lemma lockof_set_count s v y : lockof (set_count s v) y = lockof s y. Proof. reflexivity. Qed.
Lemma nvcpus_set_count s v : nvcpus (set_count s v) = nvcpus s. Proof. reflexivity. Qed.
Lemma lockof_set_splock s v y : lockof (set_splock s v) y = lockof s y. Proof. reflexivity. Qed.
Lemma nvcpus_set_splock s v : nvcpus (set_splock s v) = nvcpus s. Proof. reflexivity. Qed.
Lemma lockof_set_qlock s v y : lockof (set_qlock s v) y = lockof s y. Proof. reflexivity. Qed.
Lemma nvcpus_set_qlock s v : nvcpus (set_qlock s v) = nvcpus s. Proof. reflexivity. Qed.
Lemma lockof_set_queue s v y : lockof (set_queue s v) y = lockof s y. Proof. reflexivity. Qed.
Lemma nvcpus_set_queue s v : nvcpus (set_queue s v) = nvcpus s. Proof. reflexivity. Qed.
Lemma lockof_set_vcpus s v y : lockof (set_vcpus s v) y = lockof s y. Proof. reflexivity. Qed.
Lemma lockof_set_gsig s v y : lockof (set_gsig s v) y = lockof s y. Proof. reflexivity. Qed.
Lemma nvcpus_set_gsig s v : nvcpus (set_gsig s v) = nvcpus s. Proof. reflexivity. Qed.
Lemma lockof_set_gret0 s v y : lockof (set_gret0 s v) y = lockof s y. Proof. reflexivity. Qed.
Lemma nvcpus_set_gret0 s v : nvcpus (set_gret0 s v) = nvcpus s. Proof. reflexivity. Qed.
Lemma lockof_set_grets s v y : lockof (set_grets s v) y = lockof s y. Proof. reflexivity. Qed.
Lemma nvcpus_set_grets s v : nvcpus (set_grets s v) = nvcpus s. Proof. reflexivity. Qed.
Lemma lockof_set_gcrash s v y : lockof (set_gcrash s v) y = lockof s y. Proof. reflexivity. Qed.
Lemma nvcpus_set_gcrash s v : nvcpus (set_gcrash s v) = nvcpus s. Proof. reflexivity. Qed.
Lemma lockof_set_grefail s v y : lockof (set_grefail s v) y = lockof s y. Proof. reflexivity. Qed.
Lemma nvcpus_set_grefail s v : nvcpus (set_grefail s v) = nvcpus s. Proof. reflexivity. Qed.
Lemma lockof_set_gwakes s v y : lockof (set_gwakes s v) y = lockof s y. Proof. reflexivity. Qed.
Lemma nvcpus_set_gwakes s v : nvcpus (set_gwakes s v) = nvcpus s. Proof. reflexivity. Qed.
Lemma lockof_setv s v p y : lockof (setv s v p) y = lockof s y. Proof. reflexivity. Qed.
Lemma nvcpus_modth s x f : nvcpus (modth s x f) = nvcpus s. Proof. reflexivity. Qed.
Lemma nvcpus_setpc s x f : nvcpus (setpc s x f) = nvcpus s. Proof. reflexivity. Qed.
Lemma nvcpus_setv s v p : nvcpus (setv s v p) = nvcpus s. Proof. unfold nvcpus, setv; simpl. apply length_upd. Qed.

Lemma getv_setv_same s v p : (v < nvcpus s)%nat -> getv (setv s v p) v = p.
Proof. intros. unfold getv, setv; simpl. apply nth_upd_same; auto. Qed.
Lemma getv_setv_other s v w p : v <> w -> getv (setv s v p) w = getv s w.
Proof. intros. unfold getv, setv; simpl. apply nth_upd_other; auto. Qed.

Definition oeqb (o : option nat) (y : nat) : bool := match o with Some x => Nat.eqb x y | None => false end.

(* which thread's lock does thread t hold at pc p (in-order mode: no scan pcs) *)
Definition tl_pc (t : nat) (p : pc) : option nat :=
  match p with
  | WEnq _ => Some t
  | TRRecheck _ _ x | TRUnlockRetry _ _ x | TRCmp _ _ x | TRUnlockBreak _ _ x | TRUnlockLoop _ _ x => Some x
  | PIQLock _ x | PIDeq _ x | PIState _ x => Some x
  | IRecheck x _ | IUnlockOut x _ _ | IUnlock x => Some x
  | _ => None
  end.
Definition tl_v (p : vpc) : option nat :=
  match p with VPop t | VDeqLock t | VDeq t | VReady t | VUnlock t => Some t | _ => None end.
(* does it hold q.lock *)
Definition hq (p : pc) : bool :=
  match p with WTLock _ | WEnq _ | WQUnlock _ | PIDeq _ _ => true | _ => false end.
Definition hqv (p : vpc) : bool := match p with VDeq _ => true | _ => false end.

Ltac eqbl := repeat match goal with
  | |- context [Nat.eqb ?a ?b] => destruct (Nat.eqb_spec a b); try subst
  | |- context [Nat.ltb ?a ?b] => destruct (Nat.ltb_spec a b)
  end; cbn [andb negb orb]; try reflexivity; try congruence; try lia;
  try (intros; discriminate); try (intros; unfold lockof in *; assumption); try (intros; unfold lockof in *; congruence).
Ltac locks := unfold lockof; flds; glsimp.

(* effect of one thread step on every thread lock and on q.lock *)
Lemma tstep_locks s t s' : tstep s t = Some s' -> noscan (pcof s t) = true ->
  (forall y, (y < nthreads s)%nat ->
     lockof s' y = upd_lock (PT t) (oeqb (tl_pc t (pcof s t)) y) (oeqb (tl_pc t (pcof s' t)) y) (lockof s y) /\
     (oeqb (tl_pc t (pcof s' t)) y && negb (oeqb (tl_pc t (pcof s t)) y) = true -> lockof s y = None)) /\
  qlock s' = upd_lock (PT t) (hq (pcof s t)) (hq (pcof s' t)) (qlock s) /\
  (hq (pcof s' t) && negb (hq (pcof s t)) = true -> qlock s = None) /\
  vcpus s' = vcpus s.
Proof.
  intros H Hn. destruct (tstep_inv _ _ _ H) as (Ht&_&[[_ ->]|(mid&own&p'&E&->&->)]).
  - split; [intros y _; rewrite upd_lock_same, andb_negb_r; split; [reflexivity|discriminate]|].
    rewrite upd_lock_same, andb_negb_r. repeat split; discriminate.
  - revert Hn. destruct E; unfold ret_pc, ret_own, pi_ret_pc; try destruct k; try destruct kk; cbn [noscan]; intros Hn; try discriminate Hn;
      cbv zeta; ifs; cbn [tl_pc hq oeqb]; unfold upd_lock; cbn [andb negb];
      (split; [intros y Hy; (split; [first [frame t_lock | locks; eqbl]|intros Hc; discriminate Hc || (revert Hc; locks; eqbl)])
              |split; [locks; eqbl|split; [intros Hc; revert Hc; eqbl|locks; reflexivity]]]).
Qed.
