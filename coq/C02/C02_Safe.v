(* C02_Safe.v - the invariants behind destroy-after-wait safety (T2: ep_inv) and "the CAS never fails" (T3: cas_inv) *)
From Coq Require Import ZArith List Bool Arith Lia.
From PV Require Import C02.C02_Model C02.C02_Base C02.C02_Cons.
Import ListNotations.
Local Open Scope Z_scope.

(* T2: safe to destroy after wait.  A signal call that has acquired splock (ghost epoch `ep` =
   number of wait returns at that moment) performs ALL its remaining accesses before any wait
   call returns: while it is in flight, g_rets is still `ep`. *)
Definition caller_ep (k : caller) : option nat := match k with CSignal ep => Some ep | _ => None end.
Definition sig_ep (p : pc) : option nat :=
  match p with
  | SAdd _ ep | SUnlock ep => Some ep
  | _ => match pc_caller p with Some k => caller_ep k | None => None end
  end.
Lemma sig_ep_holds p ep : sig_ep p = Some ep -> holds_sp p = true.
Proof. destruct p; simpl; try discriminate; auto; destruct kk; simpl; auto; discriminate. Qed.

Lemma tstep_ep s t s' : tstep s t = Some s' ->
  (forall ep, sig_ep (pcof s' t) = Some ep -> sig_ep (pcof s t) = Some ep \/ ep = g_rets s') /\
  (g_rets s' = g_rets s \/ exists a r k, pcof s t = WRet a r k).
Proof.
  intros H. destruct (tstep_inv _ _ _ H) as (_&_&[[_ ->]|(mid&own&p'&E&->&->)]); [auto|].
  destruct E; unfold ret_pc, pi_ret_pc, scan_pc; try destruct k; try destruct kk; cbv zeta; ifs;
    cbn [sig_ep pc_caller pik_caller caller_ep]; glsimp;
    (split; [intros ep0 E0; try discriminate E0; auto; injection E0 as <-; auto|eauto]).
Qed.

Definition ep_inv (s : state) : Prop :=
  forall t ep, (t < nthreads s)%nat -> sig_ep (pcof s t) = Some ep -> ep = g_rets s.

Lemma ep_inv_step s l s' : sp_inv s -> ep_inv s -> step s l = Some s' -> ep_inv s'.
Proof.
  intros Isp Iv H t' ep Hl He. destruct (step_quiet _ _ _ H) as [(t&o&_&H1)|[(t&_&H1)|(Hn&Hp&_&_&_&_&Er&_)]].
  - destruct (start_effect _ _ _ _ H1) as (Ht&Hn&Hi&Hh&Fr&_&_&_&_&_&_&_&Er&_). rewrite Hn in Hl. rewrite Er.
    destruct (Nat.eq_dec t' t) as [->|N]; [apply sig_ep_holds in He; congruence|rewrite Fr in He; eauto].
  - rewrite (tstep_nthreads _ _ _ H1) in Hl. pose proof (tstep_lt _ _ _ H1) as Ht.
    destruct (tstep_ep _ _ _ H1) as [E1 E2].
    destruct (Nat.eq_dec t' t) as [->|N].
    + destruct (E1 _ He) as [E|E]; auto. specialize (Iv _ _ Hl E).
      destruct E2 as [E2|(a&r&k&E2)]; [congruence|]. rewrite E2 in E. discriminate.
    + erewrite tstep_pc_frame in He by eauto. specialize (Iv _ _ Hl He).
      destruct E2 as [E2|(a&r&k&E2)]; [congruence|].
      apply sig_ep_holds in He. exfalso. apply N, (sp_excl s t' t Isp Hl Ht He). rewrite E2. reflexivity.
  - rewrite Hn in Hl. rewrite Hp in He. rewrite Er. eauto.
Qed.

Lemma sp_inv_reachable c o ths nv s : reachable (init c o ths nv) s -> sp_inv s.
Proof. apply reachable_inv; [apply sp_inv_init|apply sp_inv_step]. Qed.

(* T3: m_count is only written by the holder of splock, hence try_subtract's CAS never fails *)
Lemma tstep_mcount s t s' : tstep s t = Some s' -> m_count s' = m_count s \/ holds_sp (pcof s t) = true.
Proof.
  intros H. destruct (tstep_inv _ _ _ H) as (_&_&[[_ ->]|(mid&own&p'&E&->&_)]); [auto|].
  destruct E; cbv zeta; ifs; glsimp; cbn [holds_sp]; auto.
Qed.
Lemma tstep_to_cas s t s' a mc : tstep s t = Some s' -> pcof s' t = WCas a mc -> mc = m_count s /\ m_count s' = m_count s.
Proof.
  intros H. destruct (tstep_inv _ _ _ H) as (_&_&[[Hsp ->]|(mid&own&p'&E&->&->)]).
  - intros E0. rewrite E0 in Hsp. discriminate.
  - destruct E; unfold ret_pc, pi_ret_pc, scan_pc; try destruct k; try destruct kk; ifs; intros E0; try discriminate E0.
    injection E0 as <- <-. split; reflexivity.
Qed.

Definition cas_inv (s : state) : Prop := forall t a mc, (t < nthreads s)%nat -> pcof s t = WCas a mc -> m_count s = mc.

Lemma cas_inv_step s l s' : sp_inv s -> cas_inv s -> step s l = Some s' -> cas_inv s'.
Proof.
  intros Isp Iv H t' a mc Hl He. destruct (step_quiet _ _ _ H) as [(t&o&_&H1)|[(t&_&H1)|(Hn&Hp&_&Em&_)]].
  - destruct (start_effect _ _ _ _ H1) as (Ht&Hn&Hi&Hh&Fr&_&_&_&Em&_). rewrite Hn in Hl. rewrite Em.
    destruct (Nat.eq_dec t' t) as [->|N]; [rewrite He in Hh; discriminate|rewrite Fr in He; eauto].
  - rewrite (tstep_nthreads _ _ _ H1) in Hl. pose proof (tstep_lt _ _ _ H1) as Ht.
    destruct (Nat.eq_dec t' t) as [->|N].
    + destruct (tstep_to_cas _ _ _ _ _ H1 He). congruence.
    + erewrite tstep_pc_frame in He by eauto. specialize (Iv _ _ _ Hl He).
      destruct (tstep_mcount _ _ _ H1) as [E|E]; [congruence|].
      exfalso. apply N, (sp_excl s t' t Isp Hl Ht); [rewrite He; reflexivity|exact E].
  - rewrite Hn in Hl. rewrite Hp in He. rewrite Em. eauto.
Qed.

