(* C02_Credit.v — the arithmetic half of "no lost wake-up" for in-order mode with one demand
   value d: the CREDIT invariant, stated by the program counter of the splock holder.
   credit := m_count - d * (number of threads woken by a resume pass that have not retried). *)
From Coq Require Import ZArith List Bool Arith Lia.
From PV Require Import C02.C02_Model C02.C02_Base C02.C02_Cons C02.C02_Locks.
Import ListNotations.
Local Open Scope Z_scope.

Definition pendz (th : thread) : Z := if t_pend th then 1 else 0.
Definition npend (s : state) : Z := ssum pendz s.
Definition credit (d : Z) (s : state) : Z := m_count s - d * npend s.
Definition Qfree (d : Z) (s : state) : Prop := queue s = [] \/ credit d s < d.

Definition hinv (d : Z) (s : state) (p : pc) : Prop :=
  match p with
  | WLoad _ | WCas _ _ | WFailLoad _ _ | WRet _ _ _ | SAdd _ _ | SUnlock _ => Qfree d s
  | WQLock _ | WTLock _ | WEnq _ | WQUnlock _ | WDefer _ => m_count s < d
  | TRHead _ c | TRLockX _ c _ | TRRecheck _ c _ | TRUnlockRetry _ c _ | TRCmp _ c _ | TRUnlockLoop _ c _ => credit d s <= c
  | TRUnlockBreak _ c _ => credit d s <= c /\ c < d
  | TRTail _ c => credit d s <= c /\ (queue s = [] \/ c < d)
  | PIQLock (KHead _ c) _ | PIDeq (KHead _ c) _ | PIState (KHead _ c) _ => credit d s <= c
  | _ => True
  end.

Lemma npend_nonneg s : 0 <= npend s.
Proof. apply ssum_nonneg. intros th. unfold pendz. destruct (t_pend th); lia. Qed.

Ltac psums := repeat first
  [ rewrite ssum_modth_keep by (intros; reflexivity)
  | rewrite ssum_modth_gen
  | rewrite (getth_modth_frame pendz) by (intros; reflexivity)
  | progress (autorewrite with gth) ]; glsimp.

Lemma pendz_set th b p : pendz (set_pc (set_pend th b) p) = if b then 1 else 0.
Proof. reflexivity. Qed.
Lemma pendz_set2 th e p : pendz (set_pend (set_err th e) p) = if p then 1 else 0.
Proof. reflexivity. Qed.
Lemma pendz_of s x b : t_pend (getth s x) = b -> pendz (getth s x) = if b then 1 else 0.
Proof. unfold pendz. intros ->. reflexivity. Qed.
Lemma pendz_range th : 0 <= pendz th <= 1.
Proof. unfold pendz. destruct (t_pend th); lia. Qed.

Lemma head_none s : head s = None -> queue s = [].
Proof. unfold head. destruct (queue s); [auto|discriminate]. Qed.

Ltac fin :=
  unfold Qfree, credit, npend in *; psums; rewrite ?pendz_set, ?pendz_set2; zb;
  repeat match goal with |- context [Nat.ltb ?a ?b] => destruct (Nat.ltb_spec a b) end;
  try (match goal with H : (?x < nthreads ?s)%nat, H5 : (?x < nthreads ?s)%nat -> t_pend (getth ?s ?x) = false |- _ =>
         rewrite (pendz_of s x false (H5 H)) end);
  try (match goal with H : (nthreads ?s <= ?x)%nat |- _ => rewrite ?(getth_oob s x H) in * end);
  cbn [t_semcnt thread0 pendz t_pend] in *;
  try (match goal with H : head _ = None |- _ => apply head_none in H end);
  unfold pendz in *;
  repeat match goal with |- context [t_pend ?th] => destruct (t_pend th) end;
  try (intuition lia).

Lemma tstep_credit s t s' d : tstep s t = Some s' -> 0 < d -> noscan (pcof s t) = true ->
  (forall a, pc_args (pcof s t) = Some a -> w_c a = d) ->
  (forall y, t_semcnt (getth s y) = 0 \/ t_semcnt (getth s y) = d) ->
  (forall k c x, pcof s t = TRCmp k c x -> (x < nthreads s)%nat -> t_pend (getth s x) = false) ->
  (holds_sp (pcof s t) = true -> hinv d s (pcof s t) ->
     (holds_sp (pcof s' t) = true -> hinv d s' (pcof s' t)) /\ (holds_sp (pcof s' t) = false -> Qfree d s')) /\
  (holds_sp (pcof s t) = false ->
     m_count s' = m_count s /\ npend s' = npend s /\ (queue s = [] -> queue s' = [])).
Proof.
  intros H Hd. pose proof (npend_nonneg s) as HP. pose proof (Z.mul_nonneg_nonneg d (npend s) ltac:(lia) HP) as HdP.
  destruct (tstep_inv _ _ _ H) as (Ht&_&[[_ ->]|(mid&own&p'&E&->&->)]).
  - intros _ _ _ _. split; [intros Hh Hi; split; [auto|congruence]|auto].
  - destruct E; unfold ret_pc, ret_own, pi_ret_pc; try destruct k; try destruct kk; cbn [noscan]; intros Hn; try discriminate Hn;
      cbv zeta; cbn [holds_sp pik_sp hinv pc_args pc_caller pik_caller caller_args]; intros Ha Hsem Hp5;
      try (specialize (Ha _ eq_refl));
      try (match type of Hp5 with forall _ _ _, TRCmp ?k ?c ?x = _ -> _ => pose proof (Hsem x) as Hsx; pose proof (Hp5 k c x eq_refl) as Hp5x end);
      (split; [intros Hh0 Hi; try discriminate Hh0; (split; intros Hx; try discriminate Hx; clear Hx); ifs; fin
              |intros Hh; try discriminate Hh; (split; [|split]); unfold npend; ifs; psums; try reflexivity; try (intros ->; reflexivity); try lia]).
Qed.

Lemma tstep_semcnt s t s' : tstep s t = Some s' ->
  forall y, t_semcnt (getth s' y) = t_semcnt (getth s y) \/ t_semcnt (getth s' y) = 0 \/
            (exists a, pc_args (pcof s t) = Some a /\ t_semcnt (getth s' y) = w_c a).
Proof.
  intros H y. destruct (tstep_inv _ _ _ H) as (_&_&[[_ ->]|(mid&own&p'&E&->&_)]); [auto|].
  destruct E; unfold ret_own; try destruct k; cbv zeta; ifs; cbn [pc_args];
    first [ left; rewrite !(getth_modth_frame t_semcnt) by (intros; reflexivity); reflexivity
          | flds; eqbs; right; right; eexists; split; reflexivity ].
Qed.
