(* C02_Locks3.v — footprint_protected: q.lock and every thread.lock are held exactly by the
   participant whose program counter says so, in every reachable state (in-order mode). *)
From Coq Require Import ZArith List Bool Arith Lia.
From PV Require Import C02.C02_Model C02.C02_Base C02.C02_Cons C02.C02_Locks C02.C02_LockProto C02.C02_Locks2.
Import ListNotations.
Local Open Scope Z_scope.

Lemma vstep_locks s v s' : vstep s v = Some s' ->
  (v < nvcpus s)%nat /\ nvcpus s' = nvcpus s /\ (forall w, w <> v -> getv s' w = getv s w) /\
  (forall y, (y < nthreads s)%nat ->
     lockof s' y = upd_lock (PV v) (oeqb (tl_v (getv s v)) y) (oeqb (tl_v (getv s' v)) y) (lockof s y) /\
     (oeqb (tl_v (getv s' v)) y && negb (oeqb (tl_v (getv s v)) y) = true -> lockof s y = None)) /\
  qlock s' = upd_lock (PV v) (hqv (getv s v)) (hqv (getv s' v)) (qlock s) /\
  (hqv (getv s' v) && negb (hqv (getv s v)) = true -> qlock s = None).
Proof.
  intros H. destruct (vstep_inv _ _ _ H) as (Hv&[[_ ->]|(mid&p'&E&->)]); (split; [exact Hv|]).
  - split; [reflexivity|]. split; [reflexivity|].
    split; [intros y _; rewrite upd_lock_same, andb_negb_r; split; [reflexivity|discriminate]|].
    rewrite upd_lock_same, andb_negb_r. split; [reflexivity|discriminate].
  - split; [rewrite nvcpus_setv; destruct E; reflexivity|].
    split; [intros w Hw; rewrite getv_setv_other by auto; destruct E; reflexivity|].
    rewrite getv_setv_same by (destruct E; exact Hv).
    destruct E; cbn [tl_v hqv oeqb]; unfold upd_lock; cbn [andb negb];
      (split; [intros y Hy; locks; (split; [|intros Hc; revert Hc]); eqbl
              |split; [locks; eqbl|intros Hc; revert Hc; eqbl]]).
Qed.

Lemma start_locks s t o s' : start s t o = Some s' ->
  (forall y, lockof s' y = lockof s y) /\ tl_pc t (pcof s' t) = None /\ hq (pcof s' t) = false.
Proof.
  intros H. destruct (start_inv _ _ _ _ H) as (Ht&_&own&p'&E&->). rewrite pcof_step by exact Ht.
  destruct E; (split; [intros y; locks; eqbl|split; reflexivity]).
Qed.

Lemma sched_locks s s' : sched s s' ->
  (forall y, lockof s' y = lockof s y) /\ nvcpus s' = nvcpus s /\
  (forall v, tl_v (getv s' v) = tl_v (getv s v) /\ hqv (getv s' v) = hqv (getv s v)).
Proof.
  intros E. destruct E as [t|t|v t Hv Hi|d]; (split; [intros y; locks; eqbl|]); (split; [rewrite ?nvcpus_setv; reflexivity|]);
    intros w; try (split; reflexivity).
  destruct (Nat.eq_dec v w) as [->|N]; [rewrite getv_setv_same, Hi by exact Hv|rewrite getv_setv_other by auto]; split; reflexivity.
Qed.

Definition q_inv (s : state) : Prop :=
  linv (nthreads s) (nvcpus s) (qlock s) (fun t => hq (pcof s t)) (fun v => hqv (getv s v)).
Definition tl_inv (s : state) : Prop :=
  forall y, (y < nthreads s)%nat ->
    linv (nthreads s) (nvcpus s) (lockof s y) (fun t => oeqb (tl_pc t (pcof s t)) y) (fun v => oeqb (tl_v (getv s v)) y).
Definition locks_inv (s : state) : Prop := ooo s = false /\ noscan_inv s /\ q_inv s /\ tl_inv s.

Lemma getv_of_vcpus s s' v : vcpus s' = vcpus s -> getv s' v = getv s v.
Proof. unfold getv. intros ->. reflexivity. Qed.

Lemma locks_inv_step s l s' : locks_inv s -> step s l = Some s' -> locks_inv s'.
Proof.
  intros (Ho&In&Iq&It) H.
  split; [rewrite (step_ooo _ _ _ H); exact Ho|]. split; [eapply noscan_inv_step; eauto|].
  destruct (step_cases _ _ _ H) as [(t&o&_&H1)|[(t&_&H1)|[(v&_&H1)|H1]]].
  - (* start *)
    destruct (start_effect _ _ _ _ H1) as (Ht&Hn&Hi&Hh&Fr&_&Eq&_&_&Ev&_).
    destruct (start_locks _ _ _ _ H1) as (El&Etl&Ehq).
    assert (Env : nvcpus s' = nvcpus s) by (unfold nvcpus; rewrite Ev; reflexivity).
    split.
    + unfold q_inv. rewrite Hn, Env. eapply linv_frame; [exact Iq|exact Eq| |intros w0; rewrite (getv_of_vcpus _ _ _ Ev); reflexivity].
      intros t'. destruct (Nat.eq_dec t' t) as [->|N]; [rewrite Ehq, Hi; reflexivity|rewrite Fr; auto].
    + intros y Hy. rewrite Hn in Hy. rewrite Hn, Env. eapply linv_frame; [exact (It y Hy)|apply El| |intros w0; rewrite (getv_of_vcpus _ _ _ Ev); reflexivity].
      intros t'. destruct (Nat.eq_dec t' t) as [->|N]; [rewrite Etl, Hi; reflexivity|rewrite Fr; auto].
  - (* thread step *)
    pose proof (tstep_lt _ _ _ H1) as Ht. pose proof (tstep_nthreads _ _ _ H1) as Hn.
    destruct (tstep_locks _ _ _ H1 (In _ Ht)) as (El&Eq&Sq&Ev).
    assert (Env : nvcpus s' = nvcpus s) by (unfold nvcpus; rewrite Ev; reflexivity).
    assert (Fr : forall t', t' <> t -> pcof s' t' = pcof s t') by (intros; eapply tstep_pc_frame; eauto).
    split.
    + unfold q_inv. rewrite Hn, Env. eapply linv_thread_step with (t := t); [exact Iq|exact Ht|exact Eq|exact Sq| |].
      * intros t' N. cbv beta. rewrite Fr; auto.
      * intros w0. rewrite (getv_of_vcpus _ _ _ Ev). reflexivity.
    + intros y Hy. rewrite Hn in Hy. rewrite Hn, Env. destruct (El y Hy) as [E1 E2].
      eapply linv_thread_step with (t := t); [exact (It y Hy)|exact Ht|exact E1|exact E2| |].
      * intros t' N. cbv beta. rewrite Fr; auto.
      * intros w0. rewrite (getv_of_vcpus _ _ _ Ev). reflexivity.
  - (* vCPU step *)
    destruct (vstep_effect _ _ _ H1) as (Hn&Hp&_). destruct (vstep_locks _ _ _ H1) as (Hv&Env&Fv&El&Eq&Sq).
    split.
    + unfold q_inv. rewrite Hn, Env. eapply linv_vcpu_step with (v := v); [exact Iq|exact Hv|exact Eq|exact Sq| |].
      * intros v' N. cbv beta. rewrite Fv; auto.
      * intros t. rewrite Hp. reflexivity.
    + intros y Hy. rewrite Hn in Hy. rewrite Hn, Env. destruct (El y Hy) as [E1 E2].
      eapply linv_vcpu_step with (v := v); [exact (It y Hy)|exact Hv|exact E1|exact E2| |].
      * intros v' N. cbv beta. rewrite Fv; auto.
      * intros t. rewrite Hp. reflexivity.
  - destruct (sched_effect _ _ H1) as ((Hn&Hp&_)&Eq&_). destruct (sched_locks _ _ H1) as (El&Env&Ev).
    split.
    + unfold q_inv. rewrite Hn, Env. eapply linv_frame; [exact Iq|exact Eq|intros; rewrite Hp; reflexivity|intros w0; apply Ev].
    + intros y Hy. rewrite Hn in Hy. rewrite Hn, Env. eapply linv_frame; [exact (It y Hy)|apply El|intros; rewrite Hp; reflexivity|intros w0; rewrite (proj1 (Ev w0)); reflexivity].
Qed.

Lemma locks_inv_init c ths nv : locks_inv (init c false ths nv).
Proof.
  split; [reflexivity|]. split; [intros t _; rewrite init_pcof; reflexivity|].
  assert (Hl : forall y, lockof (init c false ths nv) y = None).
  { intros y. unfold lockof, getth, init; simpl. revert y. induction ths; destruct y; simpl; auto. }
  split.
  - apply linv_none; [reflexivity|intros t; cbv beta; rewrite init_pcof; reflexivity|intros v; cbv beta; rewrite init_getv; reflexivity].
  - intros y _. apply linv_none; [apply Hl|intros t; cbv beta; rewrite init_pcof; reflexivity|intros v; cbv beta; rewrite init_getv; reflexivity].
Qed.

(* footprint_protected, in-order mode: in every reachable state, q.lock / thread y's lock is held by
   participant p iff p's program counter is inside the corresponding critical section; in
   particular at most one participant is inside, and the queue, `waitq`, `state` wake-up
   transitions and `semaphore_count` reads of thread y (all at such pcs) are mutually exclusive *)
Lemma locks_reachable c ths nv s : reachable (init c false ths nv) s -> locks_inv s.
Proof. apply reachable_inv; [apply locks_inv_init|apply locks_inv_step]. Qed.
