(* C02_LockProto.v — the generic argument "a spinlock's holder is determined by the program
   counters": pure logic, instantiated for splock in C02_Base.v and for q.lock and every thread.lock in
   C02_Locks3.v. *)
From Coq Require Import List Bool Arith Lia.
From PV Require Import C02.C02_Model.

Definition upd_lock (me : part) (old new : bool) (l : option part) : option part :=
  if new && negb old then Some me else if old && negb new then None else l.

Lemma upd_lock_same me b l : upd_lock me b b l = l.
Proof. unfold upd_lock. destruct b; reflexivity. Qed.

Section PROTO.
  Variables n nv : nat.
  Definition linv (L : option part) (hT hV : nat -> bool) : Prop :=
    (forall t, t < n -> hT t = true -> L = Some (PT t)) /\
    (forall v, v < nv -> hV v = true -> L = Some (PV v)) /\
    (forall p, L = Some p -> match p with PT t => t < n /\ hT t = true | PV v => v < nv /\ hV v = true end).

  (* threads and vCPUs alike: participant p is inside (`inside`), within the tables (`known`) *)
  Definition inside (hT hV : nat -> bool) (p : part) : bool := match p with PT t => hT t | PV v => hV v end.
  Definition known (p : part) : Prop := match p with PT t => t < n | PV v => v < nv end.
  Lemma linv_parts L hT hV :
    linv L hT hV <-> (forall p, known p -> inside hT hV p = true -> L = Some p) /\
                     (forall p, L = Some p -> known p /\ inside hT hV p = true).
  Proof.
    split.
    - intros (I1&I2&I3). split; [intros [t|v]; simpl; auto|intros [t|v] E; exact (I3 _ E)].
    - intros (J1&J2). repeat split; [intros t; apply (J1 (PT t))|intros v; apply (J1 (PV v))|intros [t|v] E; exact (J2 _ E)].
  Qed.

  Lemma linv_none L hT hV : L = None -> (forall t, hT t = false) -> (forall v, hV v = false) -> linv L hT hV.
  Proof.
    intros -> Ft Fv. repeat split; [intros t _ H; rewrite Ft in H; discriminate|intros v _ H; rewrite Fv in H; discriminate|discriminate].
  Qed.

  Lemma linv_step me L L' hT hT' hV hV' :
    linv L hT hV -> known me ->
    L' = upd_lock me (inside hT hV me) (inside hT' hV' me) L ->
    (inside hT' hV' me && negb (inside hT hV me) = true -> L = None) ->
    (forall p, p <> me -> inside hT' hV' p = inside hT hV p) ->
    linv L' hT' hV'.
  Proof.
    rewrite !linv_parts. intros (J1&J2) Hm E Hs Fr. unfold upd_lock in E.
    assert (D : forall p, {p = me} + {p <> me}) by (decide equality; apply Nat.eq_dec).
    destruct (inside hT hV me) eqn:Eo, (inside hT' hV' me) eqn:En; simpl in E; subst L'.
    - split.
      + intros p Hk Hh. destruct (D p) as [->|N]; [auto|rewrite Fr in Hh; auto].
      + intros p Hp. destruct (J2 _ Hp) as [Hk Hh]. split; [exact Hk|]. destruct (D p) as [->|N]; [exact En|rewrite Fr; auto].
    - pose proof (J1 _ Hm Eo) as HL. split; [|discriminate].
      intros p Hk Hh. destruct (D p) as [->|N]; [congruence|]. rewrite Fr in Hh by auto. pose proof (J1 _ Hk Hh). congruence.
    - specialize (Hs eq_refl). split.
      + intros p Hk Hh. destruct (D p) as [->|N]; [reflexivity|]. rewrite Fr in Hh by auto. pose proof (J1 _ Hk Hh). congruence.
      + intros p Hp. injection Hp as <-. auto.
    - split.
      + intros p Hk Hh. destruct (D p) as [->|N]; [congruence|rewrite Fr in Hh; auto].
      + intros p Hp. destruct (J2 _ Hp) as [Hk Hh]. split; [exact Hk|]. destruct (D p) as [->|N]; [congruence|rewrite Fr; auto].
  Qed.

  Lemma linv_thread_step L L' hT hT' hV hV' t :
    linv L hT hV -> t < n ->
    L' = upd_lock (PT t) (hT t) (hT' t) L ->
    (hT' t && negb (hT t) = true -> L = None) ->
    (forall t', t' <> t -> hT' t' = hT t') -> (forall v, hV' v = hV v) ->
    linv L' hT' hV'.
  Proof.
    intros I Ht E Hs Fr Fv. apply (linv_step (PT t) L L' hT hT' hV hV' I Ht E Hs).
    intros [t'|v] N; simpl; [apply Fr; congruence|apply Fv].
  Qed.

  Lemma linv_vcpu_step L L' hT hT' hV hV' v :
    linv L hT hV -> v < nv ->
    L' = upd_lock (PV v) (hV v) (hV' v) L ->
    (hV' v && negb (hV v) = true -> L = None) ->
    (forall v', v' <> v -> hV' v' = hV v') -> (forall t, hT' t = hT t) ->
    linv L' hT' hV'.
  Proof.
    intros I Hv E Hs Fr Ft. apply (linv_step (PV v) L L' hT hT' hV hV' I Hv E Hs).
    intros [t|v'] N; simpl; [apply Ft|apply Fr; congruence].
  Qed.

  Lemma linv_frame L L' hT hT' hV hV' :
    linv L hT hV -> L' = L -> (forall t, hT' t = hT t) -> (forall v, hV' v = hV v) -> linv L' hT' hV'.
  Proof.
    intros (I1&I2&I3) -> Ft Fv. repeat split.
    - intros t Hl Hh. rewrite Ft in Hh. auto.
    - intros v Hl Hh. rewrite Fv in Hh. auto.
    - intros p Hp. specialize (I3 _ Hp). destruct p; [rewrite Ft|rewrite Fv]; auto.
  Qed.
End PROTO.
