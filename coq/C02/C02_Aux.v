(* C02_Aux.v — auxiliary invariants for the mixed-demand no-lost-wake-up theorem (in-order mode):
     b_sem  semaphore_count(y) = the demand of y's current wait call (0 outside / before 1892)
     b_err  error_number(y) = -1 (the value written by a resume pass)  =>  y is pending and still asleep
     b_ipc  no thread_interrupt call carries the error number -1 (guard on the labels)
     b_cmp  a resume pass at TRCmp _ _ x holds the lock of the HEAD x *)
From Coq Require Import ZArith List Bool Arith Lia.
From PV Require Import C02.C02_Model C02.C02_Base C02.C02_Cons C02.C02_Locks C02.C02_Locks3 C02.C02_Summ C02.C02_Struct C02.C02_Other C02.C02_Flow C02.C02_Flow2.
Import ListNotations.
Local Open Scope Z_scope.

Definition semarg (p : pc) : option wargs := match p with WLock1 _ => None | _ => pc_args p end.
Definition semv (p : pc) : Z := match semarg p with Some a => w_c a | None => 0 end.

Record binv (s : state) : Prop := mk_binv {
  b_sem : forall y, (y < nthreads s)%nat -> semc s y = semv (pcof s y);
  b_err : forall y, (y < nthreads s)%nat -> errof s y = -1 -> pend s y = true /\ waitpc (pcof s y) = true;
  b_ipc : forall t e, (t < nthreads s)%nat -> ipc_e (pcof s t) = Some e -> e <> -1;
  b_cmp : forall t k c x, (t < nthreads s)%nat -> pcof s t = TRCmp k c x -> head s = Some x
}.

Lemma semv_none p : pc_args p = None -> semv p = 0.
Proof. unfold semv, semarg. destruct p; cbn [pc_args]; intros E; try rewrite E; try reflexivity; discriminate. Qed.

Lemma flow_semc_frame s s' t p p' : flow s s' t p p' -> forall y, y <> t -> semc s' y = semc s y.
Proof. destruct p; cbn [flow]; unfold same, same_but; intros F y Ny; split_all; auto. Qed.

Ltac finsem := repeat match goal with H : forall y, semc ?s' y = semc ?s y |- _ => rewrite H; clear H end.

Lemma semv_step s s' u p p' : flow s s' u p p' -> cfg s s' u p p' -> noscan p = true ->
  (pc_args p' = None \/ pc_args p' = pc_args p) -> semc s u = semv p -> semc s' u = semv p'.
Proof.
  intros F C N A E.
  destruct p; cbn [noscan] in N; try discriminate N; cbn [flow cfg] in F, C; unfold same, same_but in F;
    try (match goal with kk : pikont |- _ => destruct kk; cbn [noscan] in N; try discriminate N end);
    try (match goal with k : caller |- _ => destruct k end);
    cbn [ret_pc pi_ret_pc] in *; split_all; subst;
    cbn [pc_args pc_caller pik_caller caller_args] in *;
    try (match goal with A : pc_args ?q = None |- semc _ _ = semv ?q => rewrite (semv_none q A) end);
    unfold semv, semarg in *; cbn [pc_args pc_caller pik_caller caller_args] in *; finsem;
    try assumption; try congruence.
Qed.

Lemma err_step t p y old new pd' : eff_err t p y old new pd' -> new = -1 ->
  (old = -1 /\ (forall a, p = WAsleep a -> t <> y)) \/ ((exists k c, p = TRCmp k c y) /\ pd' = true) \/
  (exists e, ipc_e p = Some e /\ e = -1).
Proof.
  intros E N. destruct p; cbn [eff_err ipc_e] in E; try (left; split; [congruence|intros; discriminate]);
    match type of E with context [Nat.eqb ?a ?b] => destruct (Nat.eqb_spec a b); [subst|left; split; [congruence|intros; try discriminate; try congruence]] end.
  - lia.
  - destruct E as [[_ E]|E]; [right; left; split; [eauto|exact E]|left; split; [congruence|intros; discriminate]].
  - destruct E as [E|E]; [right; right; eexists; split; [reflexivity|congruence]|left; split; [congruence|intros; discriminate]].
  - destruct E as [E|E]; [right; right; eexists; split; [reflexivity|congruence]|left; split; [congruence|intros; discriminate]].
Qed.

Lemma head_app s q (x u : nat) : q = x :: s -> match q ++ [u] with [] => None | h :: _ => Some h end = Some x.
Proof. intros ->. reflexivity. Qed.
Lemma head_remove_other (q : list nat) x y : match q with [] => None | h :: _ => Some h end = Some x -> y <> x ->
  match remove_tid y q with [] => None | h :: _ => Some h end = Some x.
Proof.
  destruct q as [|h r]; simpl; [discriminate|]. intros E N. inversion E; subst.
  destruct (Nat.eqb_spec x y); [congruence|reflexivity].
Qed.

Section BT.
  Variables (s s' : state) (u : nat).
  Hypothesis I : sinv s.
  Hypothesis B : binv s.
  Hypothesis It : tl_inv s.
  Hypothesis Hu : (u < nthreads s)%nat.
  Hypothesis Hn : nthreads s' = nthreads s.
  Hypothesis Hs : summ s s' u.
  Hypothesis Hf : flow s s' u (pcof s u) (pcof s' u).
  Hypothesis He : forall y, eff_err u (pcof s u) y (errof s y) (errof s' y) (pend s' y).
  Hypothesis Hi : forall e, ipc_e (pcof s' u) = Some e -> ipc_e (pcof s u) = Some e.
  Hypothesis Hns : noscan (pcof s u) = true.
  Hypothesis Fr : forall t', t' <> u -> pcof s' t' = pcof s t'.

  Lemma bt_sem y : (y < nthreads s')%nat -> semc s' y = semv (pcof s' y).
  Proof.
    intros Hy. rewrite Hn in Hy. destruct (Nat.eq_dec y u) as [->|N].
    - pose proof Hs as Hs2. open_summ Hs2. eapply semv_step; eauto. apply (b_sem _ B); auto.
    - rewrite (flow_semc_frame _ _ _ _ _ Hf) by auto. rewrite Fr by auto. apply (b_sem _ B); auto.
  Qed.

  Lemma bt_err y : (y < nthreads s')%nat -> errof s' y = -1 -> pend s' y = true /\ waitpc (pcof s' y) = true.
  Proof.
    intros Hy E. rewrite Hn in Hy.
    destruct (err_step _ _ _ _ _ _ (He y) E) as [[Eo Hw]|[[(k&c&Ep) Epd]|(e&Ei&->)]].
    - destruct (b_err _ B _ Hy Eo) as [Hp Hwp]. split.
      + destruct (summ_pend _ _ _ y Hs Hy) as [E1|[(_&_&_&_&_&E1)|(->&_&E1&_)]]; congruence.
      + destruct (Nat.eq_dec y u) as [->|N]; [|rewrite Fr; auto].
        destruct (summ_from_wait _ _ _ Hs Hwp) as [E1|(a&Ep&_)]; [exact E1|]. exfalso. eapply Hw; eauto.
    - split; [exact Epd|]. pose proof (b_cmp _ B _ _ _ _ Hu Ep) as Hh. apply head_in in Hh.
      destruct (s_q _ I _ Hh) as (_&_&_&Hw). rewrite Fr; [exact Hw|]. intros ->. rewrite Ep in Hw. discriminate.
    - exfalso. eapply (b_ipc _ B u); eauto.
  Qed.

  Lemma bt_ipc t e : (t < nthreads s')%nat -> ipc_e (pcof s' t) = Some e -> e <> -1.
  Proof.
    intros Ht E. rewrite Hn in Ht. destruct (Nat.eq_dec t u) as [->|N].
    - apply (b_ipc _ B u); auto.
    - rewrite Fr in E by auto. apply (b_ipc _ B t); auto.
  Qed.

  Lemma bt_cmp t k c x : (t < nthreads s')%nat -> pcof s' t = TRCmp k c x -> head s' = Some x.
  Proof.
    intros Ht E. rewrite Hn in Ht. destruct (Nat.eq_dec t u) as [->|N].
    - destruct (summ_to_trcmp _ _ _ _ _ _ Hs E) as [Ep Hh].
      destruct (summ_queue _ _ _ Hs) as [Eq|[(a&Ep2&_)|(kk&y&Ep2&_)]]; try congruence.
      unfold head in *. rewrite Eq. exact Hh.
    - rewrite Fr in E by auto. pose proof (b_cmp _ B _ _ _ _ Ht E) as Hh.
      destruct (summ_queue _ _ _ Hs) as [Eq|[(a&Ep2&Eq)|(kk&y&Ep2&Eq)]]; unfold head in *; rewrite Eq.
      + exact Hh.
      + destruct (queue s) as [|h r]; [discriminate|]. simpl. exact Hh.
      + apply head_remove_other; [exact Hh|]. intros ->. apply N.
        assert (Hx : (x < nthreads s)%nat). { apply (s_q _ I). apply head_in. exact Hh. }
        eapply (tl_excl s x); eauto.
        * rewrite E. reflexivity.
        * rewrite Ep2. reflexivity.
  Qed.

  Lemma binv_tstep_core : binv s'.
  Proof. constructor; [exact bt_sem|exact bt_err|exact bt_ipc|exact bt_cmp]. Qed.
End BT.

Lemma binv_tstep s u s' : sinv s -> binv s -> locks_inv s -> tstep s u = Some s' -> binv s'.
Proof.
  intros I B (Ho&Ins&Iq&It) H.
  pose proof (tstep_lt _ _ _ H) as Hu. pose proof (tstep_nthreads _ _ _ H) as Hn.
  pose proof (tstep_summ _ _ _ H (Ins _ Hu)) as Hs.
  pose proof (tstep_flow _ _ _ H Ho (Ins _ Hu)) as Hf.
  destruct (tstep_err _ _ _ H (Ins _ Hu)) as [He Hi].
  eapply binv_tstep_core; eauto. intros; eapply tstep_pc_frame; eauto.
Qed.

Lemma binv_vstep s v s' : sinv s -> binv s -> tl_inv s -> vstep s v = Some s' -> binv s'.
Proof.
  intros I B It H. destruct (vstep_effect _ _ _ H) as (Hn&Hp&_). destruct (vstep_locks _ _ _ H) as (Hv&_).
  destruct (vstep_summ _ _ _ H) as (Eq&_&_&Ep&_&Esc&_&_). pose proof (vstep_err _ _ _ H) as Ee.
  constructor.
  - intros y Hy. rewrite Hn in Hy. rewrite Esc, Hp. apply (b_sem _ B); auto.
  - intros y Hy E. rewrite Hn in Hy. rewrite Ee in E. rewrite Ep, Hp. apply (b_err _ B); auto.
  - intros t e Ht E. rewrite Hn in Ht. rewrite Hp in E. apply (b_ipc _ B t); auto.
  - intros t k c x Ht E. rewrite Hn in Ht. rewrite Hp in E. pose proof (b_cmp _ B _ _ _ _ Ht E) as Hh.
    destruct Eq as [Eq|(y&Ev&Eq)]; unfold head in *; rewrite Eq; [exact Hh|].
    apply head_remove_other; [exact Hh|]. intros ->.
    assert (Hx : (x < nthreads s)%nat). { apply (s_q _ I). apply head_in. exact Hh. }
    eapply (tl_excl_v s x t v); eauto; [rewrite E; reflexivity|rewrite Ev; reflexivity].
Qed.

Definition label_noneg (l : label) : Prop :=
  match l with LStart _ (OpInterrupt _ e) => e <> -1 | _ => True end.

Lemma start_pc_semv o p' vc : start_pc o p' vc -> semv p' = 0.
Proof. destruct o; cbn [start_pc]; intros H; split_all; subst; reflexivity. Qed.

Lemma binv_start s t o s' : binv s -> start s t o = Some s' -> label_noneg (LStart t o) -> binv s'.
Proof.
  intros B H Lg. destruct (start_effect _ _ _ _ H) as (Ht&Hn&Hi&_&Fr&_&_&Eq&_).
  destruct (start_summ _ _ _ _ H) as (_&_&Ep&_&Esc&_&Hpc'). pose proof (start_err _ _ _ _ H) as Ee.
  pose proof (start_pc_facts _ _ _ Hpc') as (F1&F2&F3&F4&F5&F6&F7).
  constructor.
  - intros y Hy. rewrite Hn in Hy. rewrite Esc. destruct (Nat.eq_dec y t) as [->|N]; [|rewrite Fr by auto; apply (b_sem _ B); auto].
    rewrite (b_sem _ B _ Ht), Hi, (start_pc_semv _ _ _ Hpc'). reflexivity.
  - intros y Hy E. rewrite Hn in Hy. rewrite Ee in E. rewrite Ep. destruct (b_err _ B _ Hy E) as [Hp Hw].
    destruct (Nat.eq_dec y t) as [->|N]; [rewrite Hi in Hw; discriminate|rewrite Fr by auto; auto].
  - intros t0 e Ht0 E. rewrite Hn in Ht0. destruct (Nat.eq_dec t0 t) as [->|N]; [|rewrite Fr in E by auto; apply (b_ipc _ B t0); auto].
    destruct o; cbn [start_pc label_noneg] in *; split_all; subst;
      match goal with E1 : pcof s' t = _ |- _ => rewrite E1 in E; cbn [ipc_e] in E; try discriminate E end.
    inversion E; subst; assumption.
  - intros t0 k c x Ht0 E. rewrite Hn in Ht0. destruct (Nat.eq_dec t0 t) as [->|N]; [exfalso; eapply F6; eauto|].
    rewrite Fr in E by auto. unfold head. rewrite Eq. apply (b_cmp _ B _ _ _ _ Ht0 E).
Qed.

Lemma binv_sched s s' : binv s -> sched s s' -> binv s'.
Proof.
  intros B H. destruct (sched_effect _ _ H) as ((Hn&Hp&_)&_&Eq).
  destruct (sched_summ _ _ H) as (_&_&Ep&_&Esc&_&_). pose proof (sched_err _ _ H) as Ee.
  constructor.
  - intros y Hy. rewrite Hn in Hy. rewrite Esc, Hp. apply (b_sem _ B); auto.
  - intros y Hy E. rewrite Hn in Hy. rewrite Ee in E. rewrite Ep, Hp. apply (b_err _ B); auto.
  - intros t e Ht E. rewrite Hn in Ht. rewrite Hp in E. apply (b_ipc _ B t); auto.
  - intros t k c x Ht E. rewrite Hn in Ht. rewrite Hp in E. unfold head. rewrite Eq. apply (b_cmp _ B _ _ _ _ Ht E).
Qed.

Lemma binv_step s l s' : sinv s -> binv s -> locks_inv s -> label_noneg l -> step s l = Some s' -> binv s'.
Proof.
  intros I B Il Lg H. destruct (step_cases _ _ _ H) as [(t&o&->&H1)|[(t&_&H1)|[(v&_&H1)|H1]]].
  - eapply binv_start; eauto.
  - eapply binv_tstep; eauto.
  - destruct Il as (_&_&_&It). eapply binv_vstep; eauto.
  - eapply binv_sched; eauto.
Qed.

Lemma binv_init c o ths nv : binv (init c o ths nv).
Proof.
  constructor.
  - intros y _. rewrite init_pcof. unfold semc. destruct (init_getth c o ths nv y) as [E|(vc&E)]; rewrite E; reflexivity.
  - intros y _ E. exfalso. unfold errof in E. destruct (init_getth c o ths nv y) as [E1|(vc&E1)]; rewrite E1 in E; discriminate.
  - intros t e _ E. rewrite init_pcof in E. discriminate.
  - intros t k c0 x _ E. rewrite init_pcof in E. discriminate.
Qed.

Lemma semv_nonneg p : pc_wf p -> 0 <= semv p.
Proof.
  intros [W _]. unfold semv. destruct (semarg p) as [a|] eqn:E; [|lia].
  assert (Ha : pc_args p = Some a). { unfold semarg in E. destruct p; try discriminate E; exact E. }
  specialize (W a Ha). unfold args_ok in W. lia.
Qed.
Lemma semv_wait p : pc_wf p -> waitpc p = true -> 0 < semv p.
Proof.
  intros [W _] Hw. destruct p; cbn [waitpc] in Hw; try discriminate Hw; unfold semv, semarg; cbn [pc_args];
    match goal with |- 0 < w_c ?a => specialize (W a eq_refl); unfold args_ok in W; lia end.
Qed.
