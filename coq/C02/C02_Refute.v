(* C02_Refute.v — clauses of C02 that the faithful model VIOLATES: the clauses and the concrete schedules
   of the witnesses (evaluated in C02_Properties.v).  Each is replayed on the implementation (notes/C02.md). *)
From Coq Require Import ZArith List Bool Arith Lia.
From PV Require Import Base.U64 C02.C02_Model C02.C02_Base.
Import ListNotations.
Local Open Scope Z_scope.

Fixpoint adv (t n : nat) : list label := match n with O => [] | S m => LAdv t :: adv t m end.
Fixpoint vadv (v n : nat) : list label := match n with O => [] | S m => LVAdv v :: vadv v m end.

(* a witness state is given by a schedule and obtained by evaluation *)
Lemma run_witness s0 ls s (P : state -> Prop) : run s0 ls = Some s -> P s -> exists s, reachable s0 s /\ P s.
Proof. intros E H. exists s. split; [eapply run_reachable; exact E|exact H]. Qed.

(* no signal / wait call is mid-flight: every thread is outside a call, or asleep in the queue
   with its deferred unlock done; all locks free; no vCPU is half-way through an expiry *)
Definition idle_thread (th : thread) : bool :=
  match t_lock th with Some _ => false | None =>
    match t_pc th with
    | Idle => true
    | WAsleep _ => tstate_eqb (t_state th) Sleeping && t_inq th
    | _ => false
    end
  end.
Definition quiescentb (s : state) : bool :=
  match splock s, qlock s with
  | None, None => forallb idle_thread (threads s) && forallb (fun v => match v with VIdle => true | _ => false end) (vcpus s)
  | _, _ => false
  end.

(* the clause "no waiter stays blocked while the count covers the head's demand" *)
Definition nlw_inorder (s : state) : Prop :=
  quiescentb s = true -> match queue s with x :: _ => m_count s < t_semcnt (getth s x) | [] => True end.
(* out-of-order mode: "... of any waiter" *)
Definition nlw_ooo (s : state) : Prop :=
  quiescentb s = true -> forall x, In x (queue s) -> m_count s < t_semcnt (getth s x).

(* ---- F35 (barging): waiters A:2 (thread 0), B:1 (thread 1); signal(2) by thread 3 wakes A;
   thread 2 arrives with wait(1) and takes a token before A runs; A's re-subtract fails and it
   re-queues behind B.  Quiescent, queue [B; A], count 1 >= B's demand 1. *)
Definition barge_sched : list label :=
  LStart 0 (OpWait 2 MAX64 false) :: adv 0 7 ++ LStart 1 (OpWait 1 MAX64 false) :: adv 1 7 ++
  LStart 3 (OpSignal 2) :: adv 3 17 ++ LStart 2 (OpWait 1 MAX64 false) :: adv 2 4 ++ LRun 0 :: adv 0 8.
Definition four := [Some O; Some O; Some O; Some O].

(* ---- F9: out-of-order mode, waiters [5, 1], signal(1) by thread 2 (same vCPU): the scan locks
   q.lock, finds waiter 1 satisfiable and calls prelocked_thread_interrupt, whose
   dequeue_ready_atomic spins on q.lock — held by the caller itself.  In the resulting state the
   signal call is in flight and EVERY participant can only stutter (or is not enabled). *)
Definition three := [Some O; Some O; Some O].
Definition f9_sched : list label :=
  LStart 0 (OpWait 5 MAX64 false) :: adv 0 7 ++ LStart 1 (OpWait 1 MAX64 false) :: adv 1 7 ++
  LStart 2 (OpSignal 1) :: adv 2 12.

Definition only_stutter (s : state) (l : label) : Prop := step s l = None \/ step s l = Some s.

(* ---- out-of-order mode, two vCPUs: try_resume tests q.th at 1921 WITHOUT q.lock; the only waiter
   times out on its own vCPU before the signaller takes q.lock at 1923; then `q.th->next()`
   dereferences nullptr. *)
Definition crash_sched : list label :=
  LStart 0 (OpWait 5 10 false) :: adv 0 7 ++ LStart 1 (OpSignal 1) :: adv 1 8 ++
  LTick 20 :: LExpire 0 0 :: vadv 0 6 ++ adv 1 1.

(* ---- out-of-order mode, two vCPUs, UNIFORM demands (no waiter is satisfiable): the scan takes
   q.lock and then each waiter's thread.lock — the reverse of the order used by the timeout path
   (thread.lock, then q.lock in dequeue_ready_atomic): ABBA deadlock between signal() and the
   expiry of waiter 1 on its own vCPU. *)
Definition abba_sched : list label :=
  LStart 0 (OpWait 5 10 false) :: adv 0 7 ++ LStart 1 (OpWait 5 10 false) :: adv 1 7 ++
  LStart 2 (OpSignal 1) :: adv 2 9 ++ LTick 20 :: LExpire 0 1 :: vadv 0 2 ++ [].

(* The positive no-lost-wake-up statement under the guard that excludes F35: every wait on the
   semaphore uses the same demand d.  Its IN-ORDER instance (o = false) is PROVED in C02_NLW.v
   (`nlw_inorder_uniform`, theorem `sem_no_lost_wakeup_inorder_uniform`).  The statement below
   quantifies over both resume modes; its out-of-order instance is not proved (that mode is F9's
   class: the scan pcs deadlock / crash), so it stays a Definition and no theorem claims it. *)
Definition label_uniform (d : Z) (l : label) : Prop :=
  match l with LStart _ (OpWait c _ _) => c = d \/ c = 0 | _ => True end.
Inductive reachable_u (d : Z) (s0 : state) : state -> Prop :=
| ru_init : reachable_u d s0 s0
| ru_step : forall s l s', reachable_u d s0 s -> label_uniform d l -> step s l = Some s' -> reachable_u d s0 s'.
Definition no_pending (s : state) : Prop := forall t, t_pend (getth s t) = false.
Definition nlw_uniform_stmt : Prop :=
  forall d c o ths nv s, 0 < d -> 0 <= c < W64 -> reachable_u d (init c o ths nv) s ->
    splock s = None -> no_pending s -> queue s <> [] -> m_count s < d.

(* the guard is satisfiable and non-trivial: the final state of this uniform schedule has a
   non-empty queue, splock free, nobody pending, and indeed m_count < d *)
Example nlw_uniform_example :
  exists s, run (init 0 false three 1)
                (LStart 0 (OpWait 2 MAX64 false) :: adv 0 7 ++ LStart 1 (OpWait 2 MAX64 false) :: adv 1 7 ++
                 LStart 2 (OpSignal 3) :: adv 2 17 ++ LRun 0 :: adv 0 5) = Some s /\
            splock s = None /\ queue s = [1%nat] /\ m_count s = 1 /\ forallb (fun th => negb (t_pend th)) (threads s) = true.
Proof. eexists. split; [vm_compute; reflexivity|]. repeat split. Qed.
