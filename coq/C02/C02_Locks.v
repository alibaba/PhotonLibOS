(* C02_Locks.v — ownership of waitq::q.lock and of every thread::lock as a function of the program
   counters (footprint_protected), in-order resume mode, for every interleaving. *)
From Coq Require Import ZArith List Bool Arith Lia.
From PV Require Import C02.C02_Model C02.C02_Base.
Import ListNotations.
Local Open Scope Z_scope.

(* in in-order mode the scan pcs are never reached *)
Definition noscan (p : pc) : bool :=
  match p with
  | SCQLock _ _ | SCTLock _ _ _ | SCCmp _ _ _ | SCTUnlock _ _ _ | SCQUnlock _ | Crashed => false
  | PIQLock (KScan _ _ _) _ | PIDeq (KScan _ _ _) _ | PIState (KScan _ _ _) _ => false
  | _ => true
  end.

Lemma tstep_ooo s t s' : tstep s t = Some s' -> ooo s' = ooo s.
Proof.
  intros H. destruct (tstep_inv _ _ _ H) as (_&_&[[_ ->]|(mid&own&p'&E&->&_)]); [reflexivity|].
  apply (edge_mid _ _ _ _ _ _ E).
Qed.

Lemma tstep_noscan s t s' : tstep s t = Some s' -> ooo s = false -> noscan (pcof s t) = true -> noscan (pcof s' t) = true.
Proof.
  intros H Ho. destruct (tstep_inv _ _ _ H) as (_&_&[[_ ->]|(mid&own&p'&E&_&->)]); [auto|].
  destruct E; unfold ret_pc, pi_ret_pc; try destruct k; try destruct kk; cbn [noscan]; intros Hn;
    try reflexivity; try discriminate Hn.
  all: rewrite Ho in *; cbn [negb] in *; rewrite orb_true_r in *; discriminate.
Qed.

Lemma step_ooo s l s' : step s l = Some s' -> ooo s' = ooo s.
Proof.
  intros H. destruct (step_quiet _ _ _ H) as [(t&o&_&H1)|[(t&_&H1)|H1]].
  - apply start_effect in H1. tauto.
  - eapply tstep_ooo; eauto.
  - apply H1.
Qed.

Definition noscan_inv (s : state) : Prop := forall t, (t < nthreads s)%nat -> noscan (pcof s t) = true.

Lemma start_noscan s t o s' : start s t o = Some s' -> noscan (pcof s' t) = true.
Proof.
  intros H. destruct (start_inv _ _ _ _ H) as (Ht&_&own&p'&E&->). rewrite pcof_step by exact Ht.
  destruct E; reflexivity.
Qed.

Lemma noscan_inv_step s l s' : ooo s = false -> noscan_inv s -> step s l = Some s' -> noscan_inv s'.
Proof.
  intros Ho Iv H t' Hl. destruct (step_quiet _ _ _ H) as [(t&o&_&H1)|[(t&_&H1)|(Hn&Hp&_)]].
  - destruct (start_effect _ _ _ _ H1) as (Ht&Hn&Hi&Hh&Fr&_). rewrite Hn in Hl.
    destruct (Nat.eq_dec t' t) as [->|N]; [eapply start_noscan; eauto|rewrite Fr; auto].
  - rewrite (tstep_nthreads _ _ _ H1) in Hl.
    destruct (Nat.eq_dec t' t) as [->|N]; [eapply tstep_noscan; eauto|erewrite tstep_pc_frame; eauto].
  - rewrite Hn in Hl. rewrite Hp; auto.
Qed.
