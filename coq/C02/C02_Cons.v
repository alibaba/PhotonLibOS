(* C02_Cons.v - token conservation (T1) *)
From Coq Require Import ZArith List Bool Arith Lia.
From PV Require Import Base.U64 C02.C02_Model C02.C02_Base.
Import ListNotations.
Local Open Scope Z_scope.

Fixpoint tsum (F : thread -> Z) (l : list thread) : Z :=
  match l with [] => 0 | th :: r => F th + tsum F r end.
Lemma tsum_upd F l i v : (i < length l)%nat -> tsum F (upd_nth l i v) = tsum F l - F (nth i l thread0) + F v.
Proof. revert i; induction l; destruct i; simpl; intros; try lia. rewrite IHl by lia. lia. Qed.
Definition ssum (F : thread -> Z) (s : state) : Z := tsum F (threads s).
Lemma ssum_modth F s x f : (x < nthreads s)%nat -> ssum F (modth s x f) = ssum F s - F (getth s x) + F (f (getth s x)).
Proof. intros. unfold ssum, modth, setth; simpl. rewrite tsum_upd by auto. reflexivity. Qed.
Lemma ssum_modth_gen F s x f :
  ssum F (modth s x f) = ssum F s + (if Nat.ltb x (nthreads s) then F (f (getth s x)) - F (getth s x) else 0).
Proof.
  destruct (Nat.ltb_spec x (nthreads s)).
  - rewrite ssum_modth by auto. lia.
  - unfold ssum, modth, setth; simpl. rewrite upd_nth_oob by (unfold nthreads in *; lia). lia.
Qed.
Lemma ssum_modth_keep F s x f : (forall th, F (f th) = F th) -> ssum F (modth s x f) = ssum F s.
Proof. intros H. rewrite ssum_modth_gen, H. destruct (Nat.ltb _ _); lia. Qed.
Lemma ssum_set_now F s v : ssum F (set_now s v) = ssum F s. Proof. reflexivity. Qed.
Lemma ssum_set_count F s v : ssum F (set_count s v) = ssum F s. Proof. reflexivity. Qed.
Lemma ssum_set_splock F s v : ssum F (set_splock s v) = ssum F s. Proof. reflexivity. Qed.
Lemma ssum_set_qlock F s v : ssum F (set_qlock s v) = ssum F s. Proof. reflexivity. Qed.
Lemma ssum_set_queue F s v : ssum F (set_queue s v) = ssum F s. Proof. reflexivity. Qed.
Lemma ssum_set_vcpus F s v : ssum F (set_vcpus s v) = ssum F s. Proof. reflexivity. Qed.
Lemma ssum_set_gsig F s v : ssum F (set_gsig s v) = ssum F s. Proof. reflexivity. Qed.
Lemma ssum_set_gret0 F s v : ssum F (set_gret0 s v) = ssum F s. Proof. reflexivity. Qed.
Lemma ssum_set_grets F s v : ssum F (set_grets s v) = ssum F s. Proof. reflexivity. Qed.
Lemma ssum_set_gcrash F s v : ssum F (set_gcrash s v) = ssum F s. Proof. reflexivity. Qed.
Lemma ssum_set_grefail F s v : ssum F (set_grefail s v) = ssum F s. Proof. reflexivity. Qed.
Lemma ssum_set_gwakes F s v : ssum F (set_gwakes s v) = ssum F s. Proof. reflexivity. Qed.
Lemma ssum_setv F s v p : ssum F (setv s v p) = ssum F s. Proof. reflexivity. Qed.
Global Hint Rewrite ssum_set_now ssum_set_count ssum_set_splock ssum_set_qlock ssum_set_queue ssum_set_vcpus ssum_set_gsig ssum_set_gret0 ssum_set_grets ssum_set_gcrash ssum_set_grefail ssum_set_gwakes ssum_setv : gth.

(* local well-formedness of the program counters (facts each thread knows about its locals) *)
Definition caller_args (k : caller) : option wargs := match k with CWaitFail a _ _ => Some a | _ => None end.
Definition pik_caller (kk : pikont) : option caller :=
  match kk with KHead k _ | KScan k _ _ => Some k | KIntr => None end.
Definition pc_caller (p : pc) : option caller :=
  match p with
  | TRHead k _ | TRLockX k _ _ | TRRecheck k _ _ | TRUnlockRetry k _ _ | TRCmp k _ _ | TRUnlockBreak k _ _
  | TRUnlockLoop k _ _ | TRTail k _ | SCQLock k _ | SCTLock k _ _ | SCCmp k _ _ | SCTUnlock k _ _ | SCQUnlock k => Some k
  | PIQLock kk _ | PIDeq kk _ | PIState kk _ => pik_caller kk
  | _ => None
  end.
Definition pc_args (p : pc) : option wargs :=
  match p with
  | WLock1 a | WLoad a | WCas a _ | WQLock a | WTLock a | WEnq a | WQUnlock a | WDefer a | WAsleep a
  | WLock2 a _ | WFailLoad a _ | WRet a _ _ => Some a
  | _ => match pc_caller p with Some k => caller_args k | None => None end
  end.
Definition args_ok (a : wargs) : Prop := 0 < w_c a < W64.
Definition pc_wf (p : pc) : Prop :=
  (forall a, pc_args p = Some a -> args_ok a) /\
  match p with
  | WCas a mc => w_c a <= mc
  | WLock2 _ r => r = 0 \/ r = -1
  | WFailLoad _ r => r = -1
  | WRet a r took => (r = 0 /\ took = w_c a) \/ (r = -1 /\ took = 0)
  | SLock n | SAdd n _ => 0 < n < W64
  | _ => match pc_caller p with Some (CWaitFail _ r _) => r = -1 | _ => True end
  end.

Lemma tstep_pcwf s t s' : tstep s t = Some s' -> pc_wf (pcof s t) -> pc_wf (pcof s' t).
Proof.
  intros H. destruct (tstep_inv _ _ _ H) as (_&_&[[_ ->]|(mid&own&p'&E&_&->)]); [auto|].
  destruct E; unfold ret_pc, pi_ret_pc, scan_pc; try destruct k; try destruct kk; ifs;
    unfold pc_wf; cbn [pc_args pc_caller pik_caller caller_args]; intros [W1 W2];
    (split; [first [exact W1 | (intros ? E; discriminate E) | (intros ? E; injection E as <-; apply W1; reflexivity)]|]);
    zb; auto; lia.
Qed.

Lemma start_pcwf s t o s' : start s t o = Some s' -> pc_wf (pcof s' t).
Proof.
  intros H. destruct (start_inv _ _ _ _ H) as (Ht&_&own&p'&E&->). rewrite pcof_step by exact Ht.
  destruct E; (split; [intros a' Ea; try discriminate Ea; injection Ea as <-; assumption|exact Logic.I || assumption]).
Qed.

Definition pcwf_inv (s : state) : Prop := forall t, (t < nthreads s)%nat -> pc_wf (pcof s t).

Lemma pcwf_inv_step s l s' : pcwf_inv s -> step s l = Some s' -> pcwf_inv s'.
Proof.
  intros Iv H t' Hl. destruct (step_quiet _ _ _ H) as [(t&o&_&H1)|[(t&_&H1)|(Hn&Hp&_)]].
  - destruct (start_effect _ _ _ _ H1) as (Ht&Hn&Hi&Hh&Fr&_). rewrite Hn in Hl.
    destruct (Nat.eq_dec t' t) as [->|N]; [eapply start_pcwf; eauto|rewrite Fr; auto].
  - rewrite (tstep_nthreads _ _ _ H1) in Hl.
    destruct (Nat.eq_dec t' t) as [->|N]; [eapply tstep_pcwf; eauto|erewrite tstep_pc_frame; eauto].
  - rewrite Hn in Hl. rewrite Hp; auto.
Qed.

(* T1: conservation of tokens *)
(* tokens already subtracted by a wait call that has not returned yet (it will return 0) *)
Definition infl (th : thread) : Z := match t_pc th with WRet _ 0 took => took | _ => 0 end.
Definition inflight (s : state) : Z := ssum infl s.
(* what the counter would be without the 2^64 wrap *)
Definition tokens (s : state) : Z := g_init s + g_sig s - g_ret0 s - inflight s.

Definition pc_infl (p : pc) : Z := match p with WRet _ 0 took => took | _ => 0 end.

Lemma tsum_ext F l l' : length l' = length l -> (forall y, F (nth y l' thread0) = F (nth y l thread0)) -> tsum F l' = tsum F l.
Proof.
  revert l'. induction l as [|a r IH]; intros [|a' r'] Hl Hy; simpl in *; try lia.
  pose proof (Hy O) as H0. simpl in H0. rewrite H0. f_equal. apply IH; [lia|]. intros y. apply (Hy (S y)).
Qed.
Lemma ssum_ext F s s' : nthreads s' = nthreads s -> (forall y, F (getth s' y) = F (getth s y)) -> ssum F s' = ssum F s.
Proof. unfold ssum, getth, nthreads. intros. apply tsum_ext; auto. Qed.

(* the in-flight tokens depend on the program counters only *)
Lemma inflight_ext s s' : nthreads s' = nthreads s -> (forall y, pc_infl (pcof s' y) = pc_infl (pcof s y)) ->
  inflight s' = inflight s.
Proof. intros Hn Hp. apply ssum_ext; [exact Hn|exact Hp]. Qed.

Lemma inflight_step s t mid own p' : nthreads mid = nthreads s -> (forall y, pcof mid y = pcof s y) -> (t < nthreads s)%nat ->
  inflight (modth mid t (fun th => set_pc (own th) p')) = inflight s - pc_infl (pcof s t) + pc_infl p'.
Proof.
  intros Hn Hp Ht. rewrite <- (inflight_ext s mid Hn) by (intros; rewrite Hp; reflexivity). rewrite <- Hp.
  unfold inflight. apply ssum_modth. rewrite Hn; exact Ht.
Qed.

Lemma pc_infl_free p : holds_sp p = false -> pc_infl p = 0.
Proof. destruct p; try discriminate; reflexivity. Qed.

Lemma pc_infl_ret0 a r : pc_infl (WRet a r 0) = 0.
Proof. destruct r; reflexivity. Qed.
Lemma pc_infl_ret_pc k : pc_infl (ret_pc k) = 0.
Proof. destruct k; [reflexivity|apply pc_infl_ret0]. Qed.

Lemma pc_infl_pi_ret_pc kk x : pc_infl (pi_ret_pc kk x) = 0.
Proof. destruct kk; reflexivity. Qed.
Lemma pc_infl_scan_pc q k c i : pc_infl (scan_pc q k c i) = 0.
Proof. unfold scan_pc. destruct (_ && _); reflexivity. Qed.

Lemma tstep_ledger s t s' : tstep s t = Some s' ->
  (m_count s' = m_count s /\ tokens s' = tokens s) \/
  (exists n ep, pcof s t = SAdd n ep /\ m_count s' = wrap (m_count s + n) /\ tokens s' = tokens s + n) \/
  (exists a, pcof s t = WCas a (m_count s) /\ m_count s' = m_count s - w_c a /\ tokens s' = tokens s - w_c a).
Proof.
  intros H. destruct (tstep_inv _ _ _ H) as (Ht&_&[[_ ->]|(mid&own&p'&E&->&_)]); [auto|].
  unfold tokens. destruct (edge_mid _ _ _ _ _ _ E) as (Hn&Hp&_). rewrite (inflight_step s t mid own p' Hn Hp Ht).
  remember (pcof s t) as p eqn:Ep. destruct E; cbv zeta; rewrite ?pc_infl_ret_pc, ?pc_infl_ret0, ?pc_infl_pi_ret_pc, ?pc_infl_scan_pc; glsimp; cbn [pc_infl];
    try (left; split; [reflexivity|lia]).
  - destruct (t_pend _); glsimp; (left; split; [reflexivity|lia]).
  - right; right. exists a. subst mc. repeat split; try reflexivity; lia.
  - destruct r as [|r|r]; cbn [Z.eqb]; glsimp; (left; split; [reflexivity|lia]).
  - destruct r as [|r|r]; cbn [Z.eqb]; glsimp; (left; split; [reflexivity|lia]).
  - right; left. exists n, ep. repeat split; try reflexivity; lia.
Qed.

Lemma other_ledger s l s' : step s l = Some s' -> match l with LAdv _ => False | _ => True end ->
  m_count s' = m_count s /\ tokens s' = tokens s.
Proof.
  intros H L. unfold tokens.
  assert (E : nthreads s' = nthreads s /\ (forall y, pc_infl (pcof s' y) = pc_infl (pcof s y)) /\ m_count s' = m_count s /\
              g_sig s' = g_sig s /\ g_ret0 s' = g_ret0 s /\ g_init s' = g_init s).
  { destruct (step_quiet _ _ _ H) as [(t&o&_&H1)|[(t&->&_)|(Hn&Hp&_&Em&Es&Er&_&Eg&_)]]; [|contradiction|].
    - destruct (start_effect _ _ _ _ H1) as (Ht&Hn&Hi&Hh&Fr&_&_&_&Em&_&Es&Er&_&Eg&_).
      repeat split; auto. intros y. destruct (Nat.eq_dec y t) as [->|N]; [|rewrite Fr; auto].
      rewrite Hi. apply pc_infl_free. exact Hh.
    - repeat split; auto. intros; rewrite Hp; reflexivity. }
  destruct E as (Hn&Hp&Em&Es&Er&Eg). rewrite (inflight_ext s s' Hn Hp), Em, Es, Er, Eg. auto.
Qed.

Definition cons_inv (s : state) : Prop :=
  pcwf_inv s /\ 0 <= m_count s < W64 /\ m_count s mod W64 = tokens s mod W64 /\ m_count s <= tokens s.

Lemma cons_inv_step s l s' : cons_inv s -> step s l = Some s' -> cons_inv s'.
Proof.
  intros (Iw&Ir&Im&Il) H. split; [eapply pcwf_inv_step; eauto|].
  destruct l; try (destruct (other_ledger _ _ _ H Logic.I) as [E1 E2]; rewrite E1, E2; auto).
  simpl in H. pose proof (tstep_lt _ _ _ H) as Ht.
  destruct (tstep_ledger _ _ _ H) as [[E1 E2]|[(n&ep&Ep&E1&E2)|(a&Ep&E1&E2)]]; rewrite E1, E2.
  - auto.
  - pose proof (Iw _ Ht) as [_ W2]. rewrite Ep in W2. unfold wrap. pose proof W64_pos.
    repeat split.
    + apply Z.mod_pos_bound; lia. + apply Z.mod_pos_bound; lia.
    + rewrite Z.mod_mod by lia. rewrite Z.add_mod by lia. rewrite Im. rewrite <- Z.add_mod by lia. reflexivity.
    + transitivity (m_count s + n); [apply Z.mod_le; lia|lia].
  - pose proof (Iw _ Ht) as [W1 W2]. rewrite Ep in W1, W2. specialize (W1 a eq_refl). unfold args_ok in W1. pose proof W64_pos.
    repeat split; try lia.
    rewrite Zminus_mod. rewrite Im. rewrite <- Zminus_mod. reflexivity.
Qed.

Lemma reachable_inv (P : state -> Prop) s0 : P s0 -> (forall s l s', P s -> step s l = Some s' -> P s') ->
  forall s, reachable s0 s -> P s.
Proof. intros H0 Hs s R. induction R; eauto. Qed.
(* an invariant whose preservation needs another one, already established *)
Lemma reachable_inv2 (Q P : state -> Prop) s0 : (forall s, reachable s0 s -> Q s) -> P s0 ->
  (forall s l s', Q s -> P s -> step s l = Some s' -> P s') -> forall s, reachable s0 s -> P s.
Proof. intros HQ H0 Hs s R. induction R; eauto. Qed.

Lemma init_nthreads c o ths nv : nthreads (init c o ths nv) = length ths.
Proof. unfold nthreads, init; simpl. apply map_length. Qed.
Lemma init_pcof c o ths nv t : pcof (init c o ths nv) t = Idle.
Proof.
  unfold pcof, getth, init; simpl. revert t; induction ths; destruct t; simpl; auto.
Qed.
Lemma init_getth c o ths nv y :
  getth (init c o ths nv) y = thread0 \/ exists vc, getth (init c o ths nv) y = mk_thread vc Running.
Proof.
  unfold getth, init; simpl. revert y. induction ths as [|a r IH]; destruct y; simpl; eauto.
Qed.
Lemma init_getv c o ths nv v : getv (init c o ths nv) v = VIdle.
Proof. unfold getv, init; simpl. revert v. induction nv; destruct v; simpl; auto. Qed.
Lemma init_ssum F c o ths nv : (forall vc, F (mk_thread vc Running) = 0) -> ssum F (init c o ths nv) = 0.
Proof. intros H. unfold ssum, init; simpl. induction ths; simpl; auto. rewrite H, IHths. reflexivity. Qed.

Lemma pcwf_inv_init c o ths nv : pcwf_inv (init c o ths nv).
Proof. intros t _. rewrite init_pcof. split; [discriminate|exact Logic.I]. Qed.

Lemma cons_inv_init c o ths nv : 0 <= c < W64 -> cons_inv (init c o ths nv).
Proof.
  intros Hc. unfold cons_inv. split.
  - apply pcwf_inv_init.
  - unfold tokens, inflight. rewrite init_ssum by reflexivity. simpl. repeat split; try lia. f_equal; lia.
Qed.

Lemma sp_inv_init c o ths nv : sp_inv (init c o ths nv).
Proof.
  apply C02_LockProto.linv_none; [reflexivity|intros t; cbv beta; rewrite init_pcof; reflexivity|reflexivity].
Qed.

Lemma tstep_gret0 s t s' : tstep s t = Some s' -> pc_wf (pcof s t) -> g_ret0 s <= g_ret0 s'.
Proof.
  intros H. destruct (tstep_inv _ _ _ H) as (_&_&[[_ ->]|(mid&own&p'&E&->&_)]); [lia|].
  destruct E; cbv zeta; ifs; glsimp; intros [W1 W2]; try lia.
  all: specialize (W1 a eq_refl); unfold args_ok in W1; destruct W2 as [[? ?]|[? ?]]; lia.
Qed.
Lemma gret0_mono s l s' : pcwf_inv s -> step s l = Some s' -> g_ret0 s <= g_ret0 s'.
Proof.
  intros Iw H. destruct (step_quiet _ _ _ H) as [(t&o&_&H1)|[(t&_&H1)|(_&_&_&_&_&E&_)]].
  - destruct (start_effect _ _ _ _ H1) as (_&_&_&_&_&_&_&_&_&_&_&E&_). lia.
  - pose proof (tstep_lt _ _ _ H1) as Ht. eapply tstep_gret0; eauto.
  - lia.
Qed.

Lemma tsum_nonneg_l F l : (forall y, (y < length l)%nat -> 0 <= F (nth y l thread0)) -> 0 <= tsum F l.
Proof.
  induction l as [|a r IH]; simpl; intros H; [lia|]. pose proof (H O ltac:(lia)) as H0; simpl in H0.
  assert (0 <= tsum F r) by (apply IH; intros y Hy; apply (H (S y)); lia). lia.
Qed.
Lemma ssum_nonneg_idx F s : (forall t, (t < nthreads s)%nat -> 0 <= F (getth s t)) -> 0 <= ssum F s.
Proof. apply tsum_nonneg_l. Qed.
Lemma ssum_nonneg F s : (forall th, 0 <= F th) -> 0 <= ssum F s.
Proof. intros H. apply ssum_nonneg_idx. intros t _. apply H. Qed.
Lemma tsum_zero F l : (forall t, F (nth t l thread0) = 0) -> tsum F l = 0.
Proof.
  induction l as [|a r IH]; simpl; intros H; [reflexivity|].
  pose proof (H O) as H0. simpl in H0. rewrite H0, IH; [reflexivity|]. intros t. apply (H (S t)).
Qed.
Lemma tsum_one F l l' x : length l' = length l -> (x < length l)%nat ->
  (forall y, y <> x -> F (nth y l' thread0) = F (nth y l thread0)) ->
  tsum F l' = tsum F l - F (nth x l thread0) + F (nth x l' thread0).
Proof.
  revert l' x. induction l as [|a r IH]; intros [|a' r'] x Hl Hx Hy; simpl in *; try lia.
  destruct x as [|x].
  - assert (E : tsum F r' = tsum F r). { apply tsum_ext; [lia|]. intros y. apply (Hy (S y)). lia. } lia.
  - pose proof (Hy O ltac:(lia)) as H0. simpl in H0. rewrite (IH r' x); [lia|lia|lia|]. intros y Ny. apply (Hy (S y)). lia.
Qed.
Lemma tsum_ge F l x : (forall y, (y < length l)%nat -> 0 <= F (nth y l thread0)) -> (x < length l)%nat ->
  F (nth x l thread0) <= tsum F l.
Proof.
  revert x. induction l as [|a r IH]; intros x Hp Hx; simpl in *; [lia|].
  pose proof (Hp O ltac:(lia)) as H0; simpl in H0.
  assert (Hr : forall y, (y < length r)%nat -> 0 <= F (nth y r thread0)) by (intros y Hy; apply (Hp (S y)); lia).
  destruct x as [|x].
  - pose proof (tsum_nonneg_l F r Hr). lia.
  - pose proof (IH x Hr ltac:(lia)). lia.
Qed.
Lemma ssum_one F s s' x : nthreads s' = nthreads s -> (x < nthreads s)%nat ->
  (forall y, y <> x -> F (getth s' y) = F (getth s y)) -> ssum F s' = ssum F s - F (getth s x) + F (getth s' x).
Proof. unfold ssum, getth, nthreads. intros. apply tsum_one; auto. Qed.
Lemma ssum_ge F s x : (forall y, (y < nthreads s)%nat -> 0 <= F (getth s y)) -> (x < nthreads s)%nat -> F (getth s x) <= ssum F s.
Proof. unfold ssum, getth, nthreads. intros. apply tsum_ge; auto. Qed.

Lemma inflight_nonneg s : pcwf_inv s -> 0 <= inflight s.
Proof.
  intros Iw. apply ssum_nonneg_idx. intros t Ht. specialize (Iw t Ht). unfold pcof in Iw. unfold infl.
  destruct (t_pc (getth s t)); try lia. destruct Iw as [W1 W2]. specialize (W1 a eq_refl). unfold args_ok in W1.
  destruct ret; lia.
Qed.

(* conservation, in every reachable state, for every interleaving *)
Lemma conservation c o ths nv s : 0 <= c < W64 -> reachable (init c o ths nv) s ->
  (g_ret0 s + inflight s + m_count s) mod W64 = (g_init s + g_sig s) mod W64 /\
  g_ret0 s + inflight s + m_count s <= g_init s + g_sig s /\
  0 <= m_count s < W64 /\ 0 <= g_ret0 s /\ 0 <= inflight s /\
  (g_init s + g_sig s < W64 -> g_ret0 s + inflight s + m_count s = g_init s + g_sig s).
Proof.
  intros Hc R.
  assert (I : cons_inv s /\ 0 <= g_ret0 s).
  { eapply (reachable_inv (fun s => cons_inv s /\ 0 <= g_ret0 s)); [| |exact R].
    - split; [apply cons_inv_init; auto|simpl; lia].
    - intros s1 l s2 [I1 I2] H. split; [eapply cons_inv_step; eauto|].
      destruct I1 as (Iw&_). pose proof (gret0_mono _ _ _ Iw H). lia. }
  destruct I as ((Iw&Ir&Im&Il)&Ig). pose proof (inflight_nonneg _ Iw) as Hi. unfold tokens in *. pose proof W64_pos.
  assert (E : (g_ret0 s + inflight s + m_count s) mod W64 = (g_init s + g_sig s) mod W64).
  { replace (g_init s + g_sig s) with ((g_init s + g_sig s - g_ret0 s - inflight s) + (g_ret0 s + inflight s)) by lia.
    rewrite (Z.add_mod (g_init s + g_sig s - g_ret0 s - inflight s)) by lia. rewrite <- Im.
    rewrite <- Z.add_mod by lia. f_equal; lia. }
  repeat split; try lia; auto.
  intros Hb. rewrite !Z.mod_small in E by lia. exact E.
Qed.

