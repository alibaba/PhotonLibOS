(* C02_NLW.v — the POSITIVE no-lost-wake-up theorem, in-order resume mode, one demand value d:
   in every state reachable by any interleaving of any number of threads / vCPUs / OS threads
   whose wait calls all ask for d tokens, if nobody holds `splock` and no woken waiter is still on
   its way to retry, then a non-empty wait queue implies m_count < d (nobody who could be served
   is left blocked).  Assembly of: sp_inv (C02_Base), locks_inv (C02_Locks3), the structural
   invariant sinv with the hand-off clause (C02_Struct / C02_Other), uniformity of the demands,
   and the credit invariant (C02_Credit.tstep_credit) by the pc of the splock holder. *)
From Coq Require Import ZArith List Bool Arith Lia.
From PV Require Import Base.U64 C02.C02_Model C02.C02_Base C02.C02_Cons C02.C02_Locks3 C02.C02_Summ C02.C02_Credit C02.C02_Struct C02.C02_Other C02.C02_Flow3 C02.C02_Refute.
Import ListNotations.
Local Open Scope Z_scope.

Definition uargs (d : Z) (s : state) : Prop :=
  forall t a, (t < nthreads s)%nat -> pc_args (pcof s t) = Some a -> w_c a = d.
Definition usem (d : Z) (s : state) : Prop := forall y, semc s y = 0 \/ semc s y = d.
Definition cinv (d : Z) : state -> Prop := holder_inv (Qfree d) (fun s _ p => hinv d s p).
Definition uinv (d : Z) (s : state) : Prop :=
  sp_inv s /\ locks_inv s /\ sinv s /\ uargs d s /\ usem d s /\ cinv d s.

Lemma Qfree_mono d s s' : m_count s' = m_count s -> npend s' = npend s -> (queue s = [] -> queue s' = []) ->
  Qfree d s -> Qfree d s'.
Proof. unfold Qfree, credit. intros -> -> Hq [H|H]; auto. Qed.

Lemma hinv_mono d s s' p : m_count s' = m_count s -> npend s' = npend s -> (queue s = [] -> queue s' = []) ->
  hinv d s p -> hinv d s' p.
Proof.
  intros Em En Hq. destruct p; try (match goal with kk : pikont |- _ => destruct kk end); cbn [hinv];
    unfold Qfree, credit; rewrite ?Em, ?En; intuition auto.
Qed.

Lemma cinv_frame d s s' : cinv d s -> nthreads s' = nthreads s -> splock s' = splock s ->
  m_count s' = m_count s -> npend s' = npend s -> (queue s = [] -> queue s' = []) ->
  (forall t, (t < nthreads s)%nat -> holds_sp (pcof s' t) = true -> pcof s' t = pcof s t) -> cinv d s'.
Proof.
  intros C Hn Hl Em En Hq. apply (holder_inv_frame _ _ s s' C Hn Hl); [apply Qfree_mono; auto|].
  intros t p. apply hinv_mono; auto.
Qed.

Lemma cinv_tstep d s u s' : 0 < d -> uinv d s -> tstep s u = Some s' -> sp_inv s' -> cinv d s'.
Proof.
  intros Hd (Isp&(_&Ins&_&_)&Is&Ua&Us&(C1&C2)) H Isp'.
  pose proof (tstep_lt _ _ _ H) as Hu. pose proof (tstep_sp _ _ _ H) as Tr. pose proof (tstep_nthreads _ _ _ H) as Hn.
  assert (Fr : forall t', t' <> u -> pcof s' t' = pcof s t') by (intros; eapply tstep_pc_frame; eauto).
  pose proof (tstep_credit _ _ _ d H Hd (Ins _ Hu) (fun a E => Ua _ _ Hu E) Us
                (fun k c x E Hx => s_cmp _ Is _ _ _ _ Hu E Hx)) as [TC1 TC2].
  destruct (holds_sp (pcof s u)) eqn:Hh.
  - specialize (TC1 eq_refl (C2 _ Hu Hh)). destruct TC1 as [A B].
    exact (holder_inv_held _ _ s s' u Isp Isp' Hn Hu Fr Hh A B).
  - specialize (TC2 eq_refl). destruct TC2 as (Em&En&Hq). destruct (holds_sp (pcof s' u)) eqn:Hh'.
    + (* u acquires splock: it was free, and the pcs reached by an acquisition ask for Qfree *)
      assert (Hl : splock s = None) by (apply (proj2 Tr); reflexivity).
      pose proof (Qfree_mono d s s' Em En Hq (C1 Hl)) as Hfree.
      pose proof (proj2 (tstep_acquire _ _ _ H Hh Hh')) as K.
      apply (holder_inv_of_holder _ _ s' u Isp'); [rewrite Hn; exact Hu|exact Hh'|].
      destruct (pcof s' u); cbn [acqpc] in K; try discriminate K; exact Hfree.
    + assert (Hl : splock s' = splock s) by (rewrite (proj1 Tr); reflexivity).
      apply (cinv_frame d s s' (conj C1 C2) Hn Hl Em En Hq).
      intros t Ht Hht. destruct (Nat.eq_dec t u) as [->|N]; [congruence|auto].
Qed.

Lemma uinv_step d s l s' : 0 < d -> uinv d s -> label_uniform d l -> step s l = Some s' -> uinv d s'.
Proof.
  intros Hd Iv Lu H. pose proof Iv as (Isp&Il&Is&Ua&Us&Ic).
  pose proof (sp_inv_step _ _ _ Isp H) as Isp'. pose proof (locks_inv_step _ _ _ Il H) as Il'.
  pose proof (sinv_step _ _ _ Is Isp Il H) as Is'.
  split; [exact Isp'|]. split; [exact Il'|]. split; [exact Is'|].
  apply step_cases in H. destruct H as [(t&o&->&H)|[(t&->&H)|[(v&->&H)|H]]].
  - (* start of a call *)
    destruct (start_effect _ _ _ _ H) as (Ht&Hn&Hi&Hh&Fr&Hl&_&Eq&Em&_).
    destruct (start_summ _ _ _ _ H) as (_&_&_&_&Esc&En&Hpc').
    split; [|split].
    + intros t0 a Ht0 Ha. rewrite Hn in Ht0. destruct (Nat.eq_dec t0 t) as [->|N]; [|rewrite Fr in Ha by auto; eauto].
      destruct o; cbn [start_pc label_uniform] in *.
      * destruct Hpc' as [E|(a'&E&Ec&Ec0&_)]; rewrite E in Ha; cbn [pc_args] in Ha; [discriminate|]. injection Ha as <-. lia.
      * destruct Hpc' as [E|E]; rewrite E in Ha; discriminate.
      * rewrite Hpc' in Ha. discriminate.
    + intros y. rewrite Esc. apply Us.
    + apply (cinv_frame d s s' Ic Hn Hl Em En); [intros E0; congruence|].
      intros t0 Ht0 Hh0. destruct (Nat.eq_dec t0 t) as [->|N]; [congruence|auto].
  - (* thread step *)
    destruct Il as (_&Ins&_&_).
    pose proof (tstep_lt _ _ _ H) as Hu. pose proof (tstep_nthreads _ _ _ H) as Hn.
    split; [|split].
    + intros t0 a Ht0 Ha. rewrite Hn in Ht0. destruct (Nat.eq_dec t0 t) as [->|N].
      * pose proof (tstep_summ _ _ _ H (Ins _ Hu)) as Hs. open_summ Hs. destruct Ea as [E|E]; [congruence|]. rewrite E in Ha. eauto.
      * erewrite tstep_pc_frame in Ha by eauto. eauto.
    + intros y. unfold semc. destruct (tstep_semcnt _ _ _ H y) as [E|[E|(a&Ea&E)]]; rewrite E; [apply Us|auto|].
      right. eapply Ua; eauto.
    + eapply cinv_tstep; eauto.
  - (* vCPU step *)
    destruct (vstep_effect _ _ _ H) as (Hn&Hp&Hl&Em&_). destruct (vstep_summ _ _ _ H) as (Eq&_&_&_&_&Esc&En&_).
    split; [|split].
    + intros t0 a Ht0 Ha. rewrite Hn in Ht0. rewrite Hp in Ha. eauto.
    + intros y. rewrite Esc. apply Us.
    + apply (cinv_frame d s s' Ic Hn Hl Em En); [|intros t0 _ _; apply Hp].
      intros E. destruct Eq as [E2|(t&_&E2)]; rewrite E2, E; reflexivity.
  - destruct (sched_effect _ _ H) as ((Hn&Hp&Hl&Em&_)&_&Eq). destruct (sched_summ _ _ H) as (_&_&_&_&Esc&En&_).
    split; [|split].
    + intros t0 a Ht0 Ha. rewrite Hn in Ht0. rewrite Hp in Ha. eauto.
    + intros y. rewrite Esc. apply Us.
    + apply (cinv_frame d s s' Ic Hn Hl Em En); [intros E0; congruence|intros t0 _ _; apply Hp].
Qed.

Lemma uinv_init d c ths nv : uinv d (init c false ths nv).
Proof.
  split; [apply sp_inv_init|]. split; [apply locks_inv_init|]. split; [apply sinv_init|].
  split; [|split; [|split]].
  - intros t a _ Ha. rewrite init_pcof in Ha. discriminate.
  - intros y. left. unfold semc. destruct (init_getth c false ths nv y) as [E|(vc&E)]; rewrite E; reflexivity.
  - intros _. left. reflexivity.
  - intros t _ Hh. rewrite init_pcof in Hh. discriminate.
Qed.

Lemma uinv_reachable d c ths nv s : 0 < d -> reachable_u d (init c false ths nv) s -> uinv d s.
Proof.
  intros Hd R. induction R as [|s l s' R IH Lu H]; [apply uinv_init|]. eapply uinv_step; eauto.
Qed.

Lemma npend_zero s : no_pending s -> npend s = 0.
Proof.
  intros H. unfold npend, ssum. apply tsum_zero. intros t. specialize (H t). unfold getth in H. unfold pendz. rewrite H. reflexivity.
Qed.

(* the statement: nlw_uniform_stmt (C02_Refute.v) at in-order mode *)
Definition nlw_uniform_inorder_stmt : Prop :=
  forall d c ths nv s, 0 < d -> 0 <= c < W64 -> reachable_u d (init c false ths nv) s ->
    splock s = None -> no_pending s -> queue s <> [] -> m_count s < d.

Lemma nlw_inorder_uniform : nlw_uniform_inorder_stmt.
Proof.
  intros d c ths nv s Hd _ R Hl Hp Hq.
  destruct (uinv_reachable _ _ _ _ _ Hd R) as (_&_&_&_&_&(C1&_)).
  destruct (C1 Hl) as [E|E]; [contradiction|]. unfold credit in E. rewrite (npend_zero _ Hp) in E. lia.
Qed.

(* it is exactly the in-order instance of the statement of C02_Refute.v *)
Lemma nlw_uniform_inorder_stmt_is_instance :
  nlw_uniform_inorder_stmt <->
  (forall d c o ths nv s, o = false -> 0 < d -> 0 <= c < W64 -> reachable_u d (init c o ths nv) s ->
     splock s = None -> no_pending s -> queue s <> [] -> m_count s < d).
Proof.
  split.
  - intros H d c o ths nv s ->. apply H.
  - intros H d c ths nv s. apply (H d c false ths nv s eq_refl).
Qed.

(* ---- the hypotheses are satisfiable: a uniform run (d = 2) ending in a state with a non-empty
   queue, splock free, nobody pending ---- *)
Definition label_uniformb (d : Z) (l : label) : bool :=
  match l with LStart _ (OpWait c _ _) => (c =? d) || (c =? 0) | _ => true end.
Lemma label_uniformb_ok d l : label_uniformb d l = true -> label_uniform d l.
Proof.
  destruct l; simpl; auto. destruct o; simpl; auto. intros H. apply orb_true_iff in H.
  destruct H as [H|H]; apply Z.eqb_eq in H; auto.
Qed.
Lemma run_reachable_u d s0 s1 ls s : reachable_u d s0 s1 -> forallb (label_uniformb d) ls = true ->
  run s1 ls = Some s -> reachable_u d s0 s.
Proof.
  apply (run_closed (reachable_u d s0) (label_uniformb d)). intros s2 l s' R Hl H.
  econstructor; eauto using label_uniformb_ok.
Qed.

Definition uniform_example_sched : list label :=
  LStart 0 (OpWait 2 MAX64 false) :: adv 0 7 ++ LStart 1 (OpWait 2 MAX64 false) :: adv 1 7 ++
  LStart 2 (OpSignal 3) :: adv 2 17 ++ LRun 0 :: adv 0 5.

Example nlw_inorder_uniform_hyps_met :
  exists s, reachable_u 2 (init 0 false three 1) s /\ splock s = None /\ no_pending s /\ queue s = [1%nat] /\
            m_count s = 1 /\ g_ret0 s = 2.
Proof.
  eexists. split; [eapply (run_reachable_u _ _ _ uniform_example_sched); [constructor|vm_compute; reflexivity..]|]. repeat split.
  intros t. destruct t as [|[|[|[|t]]]]; reflexivity.
Qed.
