(* C02_Flow3.v — small model-level facts: which steps acquire splock; waitq flag vs queue membership
   under a vCPU step. *)
From Coq Require Import ZArith List Bool Arith Lia.
From PV Require Import C02.C02_Model C02.C02_Base C02.C02_Summ.
Import ListNotations.
Local Open Scope Z_scope.

Definition acqfrom (p : pc) : bool := match p with WLock1 _ | WLock2 _ _ | SLock _ => true | _ => false end.
Definition acqpc (p : pc) : bool :=
  match p with WLoad _ | SAdd _ _ | WFailLoad _ _ | WRet _ _ _ => true | _ => false end.
Lemma tstep_acquire s t s' : tstep s t = Some s' -> holds_sp (pcof s t) = false -> holds_sp (pcof s' t) = true ->
  acqfrom (pcof s t) = true /\ acqpc (pcof s' t) = true.
Proof.
  intros H. destruct (tstep_inv _ _ _ H) as (_&_&[[_ ->]|(mid&own&p'&E&_&->)]); [congruence|].
  destruct E; rewrite ?holds_ret_pc, ?holds_pi_ret_pc, ?holds_scan_pc; cbn [holds_sp pik_sp acqfrom acqpc];
    intros A B; try discriminate; try congruence; split; reflexivity.
Qed.

Lemma in_remove_other x y l : In y l -> x <> y -> In y (remove_tid x l).
Proof.
  induction l as [|a r IH]; simpl; [auto|]. intros [E|Hi] N.
  - subst. destruct (Nat.eqb_spec y x); [congruence|left; reflexivity].
  - destruct (Nat.eqb a x); [exact Hi|right; auto].
Qed.

Lemma vstep_inq_queue s v s' y : vstep s v = Some s' -> (y < nthreads s)%nat -> inq s' y = true ->
  inq s y = true /\ (In y (queue s) -> In y (queue s')).
Proof.
  intros H Hy. destruct (vstep_inv _ _ _ H) as (_&[[_ ->]|(mid&p'&E&->)]); [auto|].
  destruct E; unfold inq; flds; glsimp; eqbs; intros E; try discriminate E; split; auto.
  all: intros Hi; apply in_remove_other; auto.
Qed.
