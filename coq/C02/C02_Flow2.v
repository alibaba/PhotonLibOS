(* C02_Flow2.v — what one step does to every thread's error_number (a thread step: from a pc outside the
   out-of-order scan), and the error number carried by a thread_interrupt call. *)
From Coq Require Import ZArith List Bool Arith Lia.
From PV Require Import C02.C02_Model C02.C02_Base C02.C02_Locks C02.C02_Summ C02.C02_Flow.
Import ListNotations.
Local Open Scope Z_scope.

Definition ipc_e (p : pc) : option Z :=
  match p with
  | IRead _ e | IOutChk _ e _ | IOutSet _ e | ILock _ e | IRecheck _ e | IUnlockOut _ e _ => Some e
  | _ => None
  end.
Definition eff_err (t : nat) (p : pc) (y : nat) (old new : Z) (pd' : bool) : Prop :=
  match p with
  | TRCmp _ _ x => if Nat.eqb x y then (new = -1 /\ pd' = true) \/ new = old else new = old
  | IOutSet x e | IRecheck x e => if Nat.eqb x y then new = e \/ new = old else new = old
  | WAsleep _ => if Nat.eqb t y then new = 0 else new = old
  | _ => new = old
  end.

Lemma tstep_err s t s' : tstep s t = Some s' -> noscan (pcof s t) = true ->
  (forall y, eff_err t (pcof s t) y (errof s y) (errof s' y) (pend s' y)) /\
  (forall e, ipc_e (pcof s' t) = Some e -> ipc_e (pcof s t) = Some e).
Proof.
  intros H Hn. destruct (tstep_inv _ _ _ H) as (Ht&_&[[Hsp ->]|(mid&own&p'&E&->&->)]).
  - split; [|auto]. intros y. destruct (pcof s t); try discriminate Hsp; reflexivity.
  - revert Hn. destruct E; try (progress unfold ret_pc, ret_own; destruct k); try destruct kk; cbn [noscan]; intros Hn; try discriminate Hn;
      cbv zeta; ifs; cbn [eff_err ipc_e pi_ret_pc];
      (split; [intros y; unfold errof, pend; first [frame t_err | flds; eqbs]|intros e0 E0; try discriminate E0; auto]).
Qed.

Lemma vstep_err s v s' : vstep s v = Some s' -> forall y, errof s' y = errof s y.
Proof.
  intros H y. destruct (vstep_inv _ _ _ H) as (_&[[_ ->]|(mid&p'&E&->)]); [reflexivity|].
  destruct E; unfold errof; flds; eqbs.
Qed.
Lemma start_err s t o s' : start s t o = Some s' -> forall y, errof s' y = errof s y.
Proof.
  intros H y. destruct (start_inv _ _ _ _ H) as (_&_&own&p'&E&->). destruct E; unfold errof; flds; eqbs.
Qed.
Lemma sched_err s s' : sched s s' -> forall y, errof s' y = errof s y.
Proof. intros E y. destruct E; unfold errof; flds; eqbs. Qed.
