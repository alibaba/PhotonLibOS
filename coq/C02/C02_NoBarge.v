(* C02_NoBarge.v — no lost wake-up for ARBITRARY (mixed) demands, in-order mode, outside the class
   of known finding F35: as long as no woken waiter's re-subtraction has failed (ghost g_refail =
   false: nobody overtook a woken waiter) and no thread_interrupt carries the reserved error number
   -1, every QUIESCENT reachable state has  m_count < demand of the head waiter.

   credit := m_count - SUM of the demands of the pending (woken, not yet retried) waiters.
   A thread is "failing" (gfail = 1) from the moment it is dequeued WITHOUT an allotment (timeout /
   interrupt) until it has re-acquired splock for its pass-on (thread.cpp 1899-1904).  Invariant, by
   the pc of the splock holder (hinv2): while nobody is failing and g_refail = false,
   credit < demand(head); inside a resume pass with local cnt: credit (+ own pending demand) <= cnt. *)
From Coq Require Import ZArith List Bool Arith Lia.
From PV Require Import Base.U64 C02.C02_Model C02.C02_Base C02.C02_Cons C02.C02_Locks C02.C02_Locks3 C02.C02_Summ C02.C02_Struct C02.C02_Other C02.C02_Flow C02.C02_Flow3 C02.C02_Aux C02.C02_Refute.
Import ListNotations.
Local Open Scope Z_scope.

Definition pdz (th : thread) : Z := if t_pend th then t_semcnt th else 0.
Definition pdy (s : state) (y : nat) : Z := pdz (getth s y).
Definition pd (s : state) : Z := ssum pdz s.
Definition cred (s : state) : Z := m_count s - pd s.
Lemma pdy_unf s y : pdy s y = if pend s y then semc s y else 0.
Proof. reflexivity. Qed.

Definition failv (p : pc) (i pe : bool) : Z :=
  match p with
  | WQUnlock _ | WDefer _ | WAsleep _ => if i || pe then 0 else 1
  | WLock2 _ r => if r <? 0 then 1 else 0
  | _ => 0
  end.
Definition gfail (s : state) (y : nat) : Z := failv (pcof s y) (inq s y) (pend s y).
Definition G (s : state) : Prop := g_refail s = false /\ forall y, (y < nthreads s)%nat -> gfail s y = 0.
Definition hfree (v : Z) (s : state) : Prop := forall x, head s = Some x -> v < semc s x.
Definition cfree (v : Z) (s : state) : Prop := G s -> hfree v s.

Lemma failv_nonneg p i pe : 0 <= failv p i pe.
Proof. destruct p; cbn [failv]; try lia; match goal with |- context [if ?b then _ else _] => destruct b end; lia. Qed.
Lemma failv_inq_false p i pe : failv p i pe <= failv p false pe.
Proof. destruct p; cbn [failv]; try apply Z.le_refl; destruct i, pe; cbn; lia. Qed.
Lemma failv_inq_true p pe pe' : failv p true pe = failv p true pe'.
Proof. destruct p; reflexivity. Qed.
Lemma failv_other p i pe : waitpc p = false -> (forall a r, p <> WLock2 a r) -> failv p i pe = 0.
Proof. destruct p; cbn [waitpc failv]; intros Hw Hn; try reflexivity; try discriminate Hw. exfalso; eapply Hn; reflexivity. Qed.
Lemma failv_wait p : waitpc p = true -> failv p false false = 1.
Proof. destruct p; cbn; intros; try discriminate; reflexivity. Qed.
Lemma failv_wait_eq p p' i pe : waitpc p = true -> waitpc p' = true -> failv p i pe = failv p' i pe.
Proof.
  destruct p; cbn [waitpc]; intros Hw; try discriminate Hw; destruct p'; cbn [waitpc]; intros Hw'; try discriminate Hw'; reflexivity.
Qed.
Lemma cfree_mono v v' s : v' <= v -> cfree v s -> cfree v' s.
Proof. intros L H Hg x Hx. specialize (H Hg x Hx). lia. Qed.

Lemma pend_all s s' : nthreads s' = nthreads s -> (forall y, (y < nthreads s)%nat -> pend s' y = pend s y) ->
  forall y, pend s' y = pend s y.
Proof. intros Hn H y. destruct (lt_dec y (nthreads s)); [auto|]. rewrite !pend_oob; auto; lia. Qed.

Lemma pd_ext s s' : nthreads s' = nthreads s -> (forall y, pend s' y = pend s y) -> (forall y, semc s' y = semc s y) ->
  pd s' = pd s /\ forall y, pdy s' y = pdy s y.
Proof.
  intros Hn Hp Hc. assert (E : forall y, pdy s' y = pdy s y) by (intros y; rewrite !pdy_unf, Hp, Hc; reflexivity).
  split; [|exact E]. apply ssum_ext; auto.
Qed.
Lemma data_same s s' : nthreads s' = nthreads s -> m_count s' = m_count s -> (forall y, pend s' y = pend s y) ->
  (forall y, semc s' y = semc s y) -> cred s' = cred s /\ (forall y, pdy s' y = pdy s y).
Proof. intros Hn Em Ep Esc. destruct (pd_ext _ _ Hn Ep Esc) as [E1 E2]. split; auto. unfold cred. rewrite Em, E1. reflexivity. Qed.
Lemma pd_one s s' x : nthreads s' = nthreads s -> (x < nthreads s)%nat ->
  (forall y, y <> x -> pend s' y = pend s y) -> (forall y, y <> x -> semc s' y = semc s y) ->
  pd s' = pd s - pdy s x + pdy s' x.
Proof.
  intros Hn Hx Hp Hc. apply ssum_one; auto. intros y Ny. change (pdy s' y = pdy s y). rewrite !pdy_unf.
  rewrite Hp, Hc by auto. reflexivity.
Qed.

(* consequences of binv + pc_wf *)
Lemma semc_nonneg s y : binv s -> pcwf_inv s -> 0 <= semc s y.
Proof.
  intros B W. destruct (lt_dec y (nthreads s)) as [Hy|Hy].
  - rewrite (b_sem _ B _ Hy). apply semv_nonneg. apply W; auto.
  - unfold semc. rewrite getth_oob by lia. reflexivity.
Qed.
Lemma pdy_nonneg s y : binv s -> pcwf_inv s -> 0 <= pdy s y.
Proof. intros B W. rewrite pdy_unf. destruct (pend s y); [apply semc_nonneg; auto|lia]. Qed.
Lemma pdy_le_pd s y : binv s -> pcwf_inv s -> (y < nthreads s)%nat -> pdy s y <= pd s.
Proof. intros B W Hy. apply (ssum_ge pdz); auto. intros z _. apply (pdy_nonneg s z); auto. Qed.
Lemma pd_nonneg s : binv s -> pcwf_inv s -> 0 <= pd s.
Proof. intros B W. apply ssum_nonneg_idx. intros z _. apply (pdy_nonneg s z); auto. Qed.
Lemma queue_semc_pos s x : sinv s -> binv s -> pcwf_inv s -> In x (queue s) -> 0 < semc s x.
Proof.
  intros I B W Hi. destruct (s_q _ I _ Hi) as (Hx&_&_&Hw). rewrite (b_sem _ B _ Hx). apply semv_wait; auto.
Qed.

Lemma flow_refail s s' u p p' : flow s s' u p p' -> g_refail s' = false -> g_refail s = false.
Proof.
  destruct p; cbn [flow]; unfold same, same_but; intros F R; split_all; try congruence.
  match goal with E : g_refail s' = (if ?b then _ else _) |- _ => destruct b; congruence end.
Qed.

Lemma G_mono s s' : nthreads s' = nthreads s -> (g_refail s' = false -> g_refail s = false) ->
  (forall y, (y < nthreads s)%nat -> gfail s y <= gfail s' y) -> G s' -> G s.
Proof.
  intros Hn R L [R' Hg]. split; [auto|]. intros y Hy. rewrite Hn in Hg.
  pose proof (L y Hy). pose proof (Hg y Hy). pose proof (failv_nonneg (pcof s y) (inq s y) (pend s y)). unfold gfail in *. lia.
Qed.

(* one thread step: monotonicity of "failing", stability of the head *)
Section GS.
  Variables (s s' : state) (u : nat).
  Hypothesis I : sinv s.
  Hypothesis B : binv s.
  Hypothesis It : tl_inv s.
  Hypothesis Hu : (u < nthreads s)%nat.
  Hypothesis Hn : nthreads s' = nthreads s.
  Hypothesis Hs : summ s s' u.
  Hypothesis Hf : flow s s' u (pcof s u) (pcof s' u).
  Hypothesis Fr : forall t', t' <> u -> pcof s' t' = pcof s t'.

  Lemma gfail_step y : (y < nthreads s)%nat ->
    gfail s y <= gfail s' y \/ (y = u /\ exists a r, pcof s u = WLock2 a r /\ r < 0 /\ pcof s' u = WFailLoad a r).
  Proof.
    intros Hy. unfold gfail. destruct (Nat.eq_dec y u) as [->|N].
    - (* the stepping thread *)
      pose proof Hs as Hs2. open_summ Hs2. clear Eq Es Evc Ea.
      destruct (pcof s u) eqn:Hp; cbn [flow cfg eff_inq eff_pend] in Hf, Ec, Ei, Ep;
        try (left; rewrite (failv_other _ (inq s u) (pend s u)) by (cbn [waitpc]; try reflexivity; intros; discriminate); apply failv_nonneg).
      + (* WQUnlock *) left. rewrite Ec, (Ei u Hu), (Ep u Hu). apply Z.le_refl.
      + (* WDefer *) left. rewrite Ec, (Ei u Hu), (Ep u Hu). apply Z.le_refl.
      + (* WAsleep *) left. destruct Hf as (_&r&Ep'&Hr). rewrite Ep', (Ei u Hu), (Ep u Hu). cbn [failv].
        destruct (inq s u) eqn:Hi; [cbn; apply failv_nonneg with (p := WLock2 a r) (i := true) (pe := true)|].
        destruct (pend s u) eqn:Hpe; [cbn; apply failv_nonneg with (p := WLock2 a r) (i := true) (pe := true)|].
        cbn. assert (Hr2 : r < 0).
        { apply Hr. intros E. destruct (b_err _ B _ Hu E) as [E2 _]. congruence. }
        apply Z.ltb_lt in Hr2. rewrite Hr2. lia.
      + (* WLock2 *) destruct Hf as (_&[E|[[Hr E]|[Hr E]]]).
        * left. rewrite E, (Ei u Hu), (Ep u Hu). apply Z.le_refl.
        * right. split; [reflexivity|]. eauto.
        * left. cbn [failv]. apply Z.ltb_ge in Hr. rewrite Hr. rewrite E. cbn. lia.
    - (* another thread *)
      rewrite Fr by auto. left.
      destruct (summ_inq _ _ _ y Hs Hy) as [Ei|[(a&Ep&->&_)|(kk&Ep&Ei)]]; [| congruence |].
      + destruct (summ_pend _ _ _ y Hs Hy) as [Epd|[(k&c&c'&Ep&_&Epd)|(->&_)]]; [rewrite Ei, Epd; apply Z.le_refl| |congruence].
        rewrite Ei. pose proof (b_cmp _ B _ _ _ _ Hu Ep) as Hh. apply head_in in Hh. destruct (s_q _ I _ Hh) as (_&Hq&_).
        rewrite Hq. rewrite (failv_inq_true _ (pend s' y) (pend s y)). apply Z.le_refl.
      + destruct (summ_pend _ _ _ y Hs Hy) as [Epd|[(k&c&c'&Ep2&_)|(->&_)]]; try congruence.
        rewrite Ei, Epd. apply failv_inq_false.
  Qed.

  Lemma G_step : (forall a r, pcof s u = WLock2 a r -> pcof s' u = WFailLoad a r -> False) -> G s' -> G s.
  Proof.
    intros Hx. apply G_mono; [exact Hn|apply (flow_refail _ _ _ _ _ Hf)|]. intros y Hy.
    destruct (gfail_step y Hy) as [L|(->&a&r&E1&_&E2)]; [exact L|exfalso; eapply Hx; eauto].
  Qed.

  Lemma head_step_nonholder : holds_sp (pcof s u) = false ->
    head s' = head s \/ exists y, (y < nthreads s)%nat /\ gfail s' y = 1.
  Proof.
    intros Hh. destruct (summ_queue _ _ _ Hs) as [Eq|[(a&Ep&_)|(kk&x&Ep&Eq)]].
    - left. unfold head. rewrite Eq. reflexivity.
    - rewrite Ep in Hh. discriminate.
    - destruct (head s) as [h|] eqn:Hd.
      + destruct (Nat.eq_dec x h) as [->|N].
        * right. exists h. pose proof (head_in _ _ Hd) as Hi. destruct (s_q _ I _ Hi) as (Hx&_&_&Hw). split; [exact Hx|].
          assert (Nu : h <> u) by (intros ->; rewrite Ep in Hw; discriminate).
          unfold gfail. rewrite Fr by auto.
          destruct (summ_at_deq _ _ _ _ _ Hs Ep) as (_&_&Ei). rewrite (Ei Hx).
          assert (Epd : pend s' h = false).
          { destruct (summ_pend _ _ _ h Hs Hx) as [E|[(k&c&c'&Ep2&_)|(->&_)]]; try congruence.
            rewrite E. destruct (pend s h) eqn:Hpe; [|reflexivity]. exfalso.
            destruct (s_hand _ I _ Hpe Hi) as (w&k&c&Hw1&Hw2).
            assert (w = u).
            { eapply (tl_excl s h); eauto.
              - destruct Hw2 as [W|W]; rewrite W; reflexivity.
              - rewrite Ep. reflexivity. }
            subst w. rewrite Ep in Hh. cbn [holds_sp] in Hh. destruct Hw2 as [W|W]; rewrite W in Ep; inversion Ep; subst; discriminate. }
          rewrite Epd. apply failv_wait. exact Hw.
        * left. unfold head in *. rewrite Eq. apply head_remove_other; auto.
      + left. unfold head in *. rewrite Eq. destruct (queue s); [reflexivity|discriminate].
  Qed.
End GS.

(* the invariant of the splock holder, by its pc *)
Definition hinv2 (s : state) (t : nat) (p : pc) : Prop :=
  match p with
  | WLoad _ | WCas _ _ | WQUnlock _ | WDefer _ => cfree (cred s) s
  | WQLock _ | WTLock _ | WEnq _ => m_count s < semc s t /\ cfree (cred s) s
  | TRHead _ c | TRLockX _ c _ | TRRecheck _ c _ | TRUnlockRetry _ c _ | TRCmp _ c _ | TRUnlockLoop _ c _ => cred s + pdy s t <= c
  | PIQLock (KHead _ c) _ | PIDeq (KHead _ c) _ | PIState (KHead _ c) _ => cred s + pdy s t <= c
  | TRUnlockBreak _ c _ | TRTail _ c => cred s + pdy s t <= c /\ cfree c s
  | SUnlock _ | WRet _ _ _ => cfree (cred s + pdy s t) s
  | _ => True
  end.

Definition nopend (p : pc) : bool := match p with TRCmp _ _ _ | WLoad _ | WCas _ _ => false | _ => true end.
Definition noq (p : pc) : bool := match p with WEnq _ | PIDeq _ _ => false | _ => true end.

Lemma hinv2_frame s s' t p : cred s' = cred s -> (forall y, pdy s' y = pdy s y) -> m_count s' = m_count s ->
  (forall y, semc s' y = semc s y) -> (forall v, cfree v s -> cfree v s') -> hinv2 s t p -> hinv2 s' t p.
Proof.
  intros Ec Ey Em Esc Ecf. destruct p; try (match goal with kk : pikont |- _ => destruct kk end); cbn [hinv2];
    rewrite ?Ec, ?Ey, ?Em, ?Esc; intuition auto.
Qed.

Section HS.
  Variables (s s' : state) (u : nat).
  Hypothesis I : sinv s.
  Hypothesis B : binv s.
  Hypothesis W : pcwf_inv s.
  Hypothesis Hu : (u < nthreads s)%nat.
  Hypothesis Hn : nthreads s' = nthreads s.
  Hypothesis Hs : summ s s' u.
  Hypothesis Hf : flow s s' u (pcof s u) (pcof s' u).
  Hypothesis Hns : noscan (pcof s u) = true.
  Hypothesis Gm : G s' -> G s.

  Lemma nopend_all : nopend (pcof s u) = true -> forall y, pend s' y = pend s y.
  Proof.
    (* Hf and Hns speak of pcof s u: cleared so that the case analysis on it does not make the lemma depend on them *)
    intros Hp. clear Hf Hns. apply pend_all; auto. intros y Hy. pose proof Hs as Hs2. open_summ Hs2. specialize (Ep y Hy).
    destruct (pcof s u); cbn [nopend] in Hp; try discriminate Hp; exact Ep.
  Qed.
  Lemma noq_queue : noq (pcof s u) = true -> queue s' = queue s.
  Proof.
    intros Hp. clear Hf Hns. pose proof Hs as Hs2. open_summ Hs2. destruct (pcof s u); cbn [noq] in Hp; try discriminate Hp; exact Eq.
  Qed.
  Lemma kdata : same s s' -> (forall y, pend s' y = pend s y) ->
    cred s' = cred s /\ (forall y, pdy s' y = pdy s y) /\ m_count s' = m_count s /\ (forall y, semc s' y = semc s y).
  Proof.
    intros (Em&_&Esc) Hp. destruct (data_same _ _ Hn Em Hp Esc) as [Ec Ey]. auto.
  Qed.
  Lemma kfree : (forall y, semc s' y = semc s y) -> queue s' = queue s -> forall v, cfree v s -> cfree v s'.
  Proof. intros Esc Eq v Hc Hg x Hx. unfold head in Hx. rewrite Eq in Hx. rewrite Esc. apply (Hc (Gm Hg) x Hx). Qed.

  (* what a step of the splock holder owes: its own invariant at the new pc if it still holds splock,
     that of the free lock if it has released it *)
  Definition kept : Prop :=
    (holds_sp (pcof s' u) = true -> hinv2 s' u (pcof s' u)) /\ (holds_sp (pcof s' u) = false -> cfree (cred s') s').

  Lemma kept_at p' : pcof s' u = p' -> (if holds_sp p' then hinv2 s' u p' else cfree (cred s') s') -> kept.
  Proof. intros E H. unfold kept. rewrite E. destruct (holds_sp p'); split; intros X; try discriminate X; exact H. Qed.

  (* a step that changes no datum and not the queue: what is to be shown of s' may be shown of s *)
  Lemma kgoal p' : same s s' -> (forall y, pend s' y = pend s y) -> queue s' = queue s -> pcof s' u = p' ->
    (if holds_sp p' then hinv2 s u p' else cfree (cred s) s) -> kept.
  Proof.
    intros Sm Epd Eq E A. destruct (kdata Sm Epd) as (Ec&Ey&Em&Esc). pose proof (kfree Esc Eq) as Kf.
    apply (kept_at _ E). destruct (holds_sp p'); [eapply hinv2_frame; eauto|rewrite Ec; auto].
  Qed.

  Ltac k0 NP NQ Sm E :=
    repeat match type of E with _ \/ _ => destruct E as [E|E] | _ /\ _ => destruct E as [E _] end;
    (apply (kgoal _ Sm (NP eq_refl) (NQ eq_refl) E); assumption).

  Lemma hold_step : holds_sp (pcof s u) = true -> hinv2 s u (pcof s u) -> kept.
  Proof.
    intros Hh Hv.
    pose proof (pdy_nonneg s u B W) as Pu. pose proof (pdy_le_pd s u B W Hu) as Pl. pose proof (pd_nonneg s B W) as Pn.
    pose proof Hs as Hs2. open_summ Hs2. clear Ei Es Evc Ea.
    pose proof nopend_all as NP. pose proof noq_queue as NQ.
    destruct (pcof s u) eqn:Hp; cbn [holds_sp] in Hh; try discriminate Hh; cbn [noscan] in Hns; try discriminate Hns;
      try (match goal with kk : pikont |- _ => destruct kk; cbn [pik_sp noscan] in Hh, Hns; try discriminate Hh; try discriminate Hns end);
      cbn [flow cfg] in Hf, Ec; cbn [nopend noq] in NP, NQ; cbn [hinv2] in Hv.
    (* the steps that change no datum and not the queue *)
    all: try (solve [pose proof Ec as E; k0 NP NQ Hf E | destruct Hf as (Sm&E); cbn [pi_ret_pc] in E; k0 NP NQ Sm E]).
    - (* WLoad: the count does not suffice (a woken waiter is then refused: g_refail), or on to the compare-and-swap *)
      destruct Hf as [(Hlt&E&Em&Er&Esc)|(Hge&E&Sm&Epd)]; [|apply (kgoal _ Sm Epd (NQ eq_refl) E); exact Hv].
      apply (kept_at _ E). split.
      + rewrite Em, Esc, (b_sem _ B _ Hu), Hp. exact Hlt.
      + intros Hg. assert (Hpu : pend s u = false).
        { destruct Hg as [R _]. rewrite Er in R. destruct (pend s u); [discriminate|reflexivity]. }
        assert (Epd : forall y, pend s' y = pend s y).
        { apply pend_all; auto. intros y Hy. specialize (Ep y Hy). cbn [eff_pend] in Ep.
          destruct (Nat.eqb_spec u y); [subst; destruct Ep; congruence|exact Ep]. }
        destruct (data_same _ _ Hn Em Epd Esc) as [E1 _]. rewrite E1. exact (kfree Esc (NQ eq_refl) _ Hv Hg).
    - (* WCas: the grant takes from the count no less than what was pending for u *)
      destruct Hf as [(Em0&E&Em&Er&Esc&Epu)|(E&Sm&Epd)]; [|apply (kgoal _ Sm Epd (NQ eq_refl) E); exact Hv].
      apply (kept_at _ E). cbn [holds_sp hinv2]. apply (kfree Esc (NQ eq_refl)). revert Hv. apply cfree_mono.
      assert (Epo : forall y, y <> u -> pend s' y = pend s y).
      { intros y Ny. destruct (lt_dec y (nthreads s)) as [Hy|Hy]; [|rewrite !pend_oob; auto; lia].
        specialize (Ep y Hy). cbn [eff_pend] in Ep. destruct (Nat.eqb_spec u y); [congruence|exact Ep]. }
      pose proof (pd_one s s' u Hn Hu Epo (fun y _ => Esc y)) as E1.
      assert (E2 : pdy s' u = 0) by (rewrite pdy_unf, Epu; reflexivity).
      assert (E3 : pdy s u <= w_c a).
      { rewrite pdy_unf. pose proof (semc_nonneg s u B W) as Sn. rewrite (b_sem _ B _ Hu), Hp in *. cbn in *.
        destruct (pend s u); lia. }
      unfold cred. lia.
    - (* WEnq: the new head is the old one, or u itself, whose demand exceeds the count *)
      destruct (summ_at_enq _ _ _ _ Hs Hu Hp) as (Eq1&E&_&_). apply (kept_at _ E). cbn [holds_sp hinv2].
      destruct (kdata Hf (NP eq_refl)) as (Ec1&Ey&Em&Esc). destruct Hv as [Hlt Hc].
      intros Hg x Hx. unfold head in Hx. rewrite Eq1 in Hx. rewrite Ec1, Esc.
      destruct (queue s) as [|h r] eqn:Q; simpl in Hx; inversion Hx; subst.
      * unfold cred. lia.
      * apply (Hc (Gm Hg)). unfold head. rewrite Q. reflexivity.
    - (* WFailLoad *)
      destruct Hf as (Sm&[(Em0&E)|(e&E)]); apply (kgoal _ Sm (NP eq_refl) (NQ eq_refl) E); cbn [holds_sp hinv2].
      + intros Hg x Hx. pose proof (queue_semc_pos s x I B W (head_in s x Hx)). unfold cred. lia.
      + unfold cred. lia.
    - (* WRet: the release; u's demand is reset, and u is not the head *)
      destruct Hf as ((Em&Er&Esc&Esu)&E).
      assert (Hc : cfree (cred s') s'); [|destruct E as [E|E]; apply (kept_at _ E); exact Hc].
      pose proof (NP eq_refl) as Epd. specialize (NQ eq_refl).
      pose proof (pd_one s s' u Hn Hu (fun y _ => Epd y) Esc) as E1.
      assert (E2 : pdy s' u = 0) by (rewrite pdy_unf, Esu; destruct (pend s' u); reflexivity).
      intros Hg x Hx. unfold head in Hx. rewrite NQ in Hx.
      pose proof (head_in s x Hx) as Hi.
      assert (Nx : x <> u). { intros ->. destruct (s_q _ I _ Hi) as (_&_&_&Hw). rewrite Hp in Hw. discriminate. }
      rewrite (Esc x Nx). pose proof (Hv (Gm Hg) x Hx). unfold cred in *. lia.
    - (* SAdd *)
      destruct Hf as (Em&Er&Esc&E). apply (kept_at _ E). cbn [holds_sp hinv2].
      destruct (pd_ext _ _ Hn (NP eq_refl) Esc) as [E1 E2]. unfold cred. rewrite E1, E2. lia.
    - (* SUnlock *)
      destruct Hf as (Sm&E). apply (kgoal _ Sm (NP eq_refl) (NQ eq_refl) E). cbn [holds_sp]. revert Hv. apply cfree_mono. lia.
    - (* TRHead *)
      destruct Hf as (Sm&[(Hd&E)|(x&Hd&E)]); apply (kgoal _ Sm (NP eq_refl) (NQ eq_refl) E); [|exact Hv].
      split; [exact Hv|]. intros Hg y Hy. congruence.
    - (* TRCmp: the head is refused, or its demand moves from the local count to the pending sum *)
      pose proof (b_cmp _ B _ _ _ _ Hu Hp) as Hd. pose proof (head_in _ _ Hd) as Hi. destruct (s_q _ I _ Hi) as (Hx&_&_&Hw).
      assert (Nx : x <> u) by (intros ->; rewrite Hp in Hw; discriminate).
      destruct Hf as (Sm&[(Hlt&E&Epd)|(Hge&E&Epx)]).
      + apply (kgoal _ Sm Epd (NQ eq_refl) E). split; [exact Hv|].
        intros Hg y Hy. rewrite Hd in Hy. inversion Hy; subst. exact Hlt.
      + apply (kept_at _ E). cbn [holds_sp pik_sp hinv2]. destruct Sm as (Em&_&Esc).
        assert (Epo : forall y, y <> x -> pend s' y = pend s y).
        { intros y Ny. destruct (lt_dec y (nthreads s)) as [Hy|Hy]; [|rewrite !pend_oob; auto; lia].
          specialize (Ep y Hy). cbn [eff_pend] in Ep. destruct (Nat.eqb_spec x y); [congruence|exact Ep]. }
        pose proof (pd_one s s' x Hn Hx Epo (fun y _ => Esc y)) as E1.
        assert (E2 : pdy s x = 0) by (rewrite pdy_unf, (s_cmp _ I _ _ _ _ Hu Hp Hx); reflexivity).
        assert (E3 : pdy s' x = semc s x) by (rewrite pdy_unf, (Epx Hx), Esc; reflexivity).
        assert (E4 : pdy s' u = pdy s u) by (rewrite !pdy_unf, Epo, Esc by auto; reflexivity).
        unfold cred in *. lia.
    - (* TRTail *)
      destruct Hf as (Sm&E). destruct Hv as [Hle Hc]. apply (cfree_mono cnt (cred s + pdy s u) s Hle) in Hc.
      apply (kgoal _ Sm (NP eq_refl) (NQ eq_refl) E). destruct k; exact Hc.
    - (* PIDeq KHead *)
      destruct Hf as (Sm&E). apply (kept_at _ E). cbn [holds_sp pik_sp hinv2].
      destruct (kdata Sm (NP eq_refl)) as (Ec1&Ey&Em&Esc). rewrite Ec1, Ey. exact Hv.
  Qed.

  Lemma nonholder_data : holds_sp (pcof s u) = false -> holds_sp (pcof s' u) = false ->
    same s s' /\ (forall y, pend s' y = pend s y).
  Proof.
    intros Hh Hh'. clear Hns. pose proof nopend_all as NP.
    destruct (pcof s u) eqn:Hp; cbn [holds_sp] in Hh; try discriminate Hh; cbn [flow] in Hf; cbn [nopend] in NP;
      try (match goal with kk : pikont |- _ => destruct kk; cbn [pik_sp] in Hh; try discriminate Hh end);
      (split; [|apply NP; reflexivity]);
      first [exact Hf | destruct Hf as [[_ Sm]|[E _]]; [exact Sm|rewrite E in Hh'; discriminate Hh'] | destruct Hf as [Sm _]; exact Sm].
  Qed.
End HS.

Section ACQ.
  Variables (s s' : state) (u : nat).
  Hypothesis I : sinv s.
  Hypothesis B : binv s.
  Hypothesis W : pcwf_inv s.
  Hypothesis Hu : (u < nthreads s)%nat.
  Hypothesis Hn : nthreads s' = nthreads s.
  Hypothesis Hs : summ s s' u.
  Hypothesis Hf : flow s s' u (pcof s u) (pcof s' u).
  Hypothesis Gmx : (forall a r, pcof s u = WLock2 a r -> pcof s' u = WFailLoad a r -> False) -> G s' -> G s.

  Lemma acquire_step : holds_sp (pcof s' u) = true -> acqfrom (pcof s u) = true -> cfree (cred s) s -> hinv2 s' u (pcof s' u).
  Proof.
    intros Hh' Ha Hc. pose proof (nopend_all s s' u Hn Hs) as NP. pose proof (noq_queue s s' u Hs) as NQ.
    pose proof (kdata s s' Hn) as KD. pose proof (kfree s s') as KF.
    pose proof (W _ Hu) as [W1 _].
    destruct (pcof s u) eqn:Hp; cbn [acqfrom] in Ha; try discriminate Ha; cbn [flow] in Hf; cbn [nopend noq] in NP, NQ.
    - (* WLock1 *)
      destruct Hf as [(E&_)|(E&Em&Er&Esc&Esu)]; [rewrite E in Hh'; discriminate Hh'|]. rewrite E. cbn [hinv2].
      assert (Gm : G s' -> G s) by (apply Gmx; intros; discriminate).
      pose proof (NP eq_refl) as Epd. specialize (NQ eq_refl).
      pose proof (pd_one s s' u Hn Hu (fun y _ => Epd y) Esc) as E1.
      assert (E2 : pdy s u = 0).
      { rewrite pdy_unf. rewrite (b_sem _ B _ Hu), Hp. cbn. destruct (pend s u); reflexivity. }
      assert (E3 : 0 <= pdy s' u).
      { rewrite pdy_unf, Esu. specialize (W1 a eq_refl). unfold args_ok in W1. destruct (pend s' u); lia. }
      intros Hg x Hx. unfold head in Hx. rewrite NQ in Hx.
      pose proof (head_in s x Hx) as Hi.
      assert (Nx : x <> u). { intros ->. destruct (s_q _ I _ Hi) as (_&_&_&Hw). rewrite Hp in Hw. discriminate. }
      rewrite (Esc x Nx). pose proof (Hc (Gm Hg) x Hx). unfold cred in *. lia.
    - (* WLock2 *)
      destruct Hf as (Sm&[E|[[Hr E]|[Hr E]]]); rewrite E in *; cbn [holds_sp hinv2] in *; [discriminate Hh'|exact Logic.I|].
      assert (Gm : G s' -> G s) by (apply Gmx; intros; discriminate).
      destruct (KD Sm (NP eq_refl)) as (Ec1&Ey&Em&Esc). rewrite Ec1.
      apply (KF Gm Esc (NQ eq_refl)). exact Hc.
    - (* SLock *)
      destruct Hf as (Sm&[E|(ep&E)]); rewrite E in *; cbn [holds_sp hinv2] in *; [discriminate Hh'|exact Logic.I].
  Qed.
End ACQ.

Definition cinv2 : state -> Prop := holder_inv (fun s => cfree (cred s) s) hinv2.
Definition qinv (s : state) : Prop := forall y, (y < nthreads s)%nat -> inq s y = true -> In y (queue s).
Definition ninv (s : state) : Prop :=
  sp_inv s /\ locks_inv s /\ sinv s /\ binv s /\ pcwf_inv s /\ qinv s /\ cinv2 s.

Lemma cinv2_frame s s' : cinv2 s -> nthreads s' = nthreads s -> splock s' = splock s ->
  cred s' = cred s -> (forall y, pdy s' y = pdy s y) -> m_count s' = m_count s -> (forall y, semc s' y = semc s y) ->
  (forall v, cfree v s -> cfree v s') ->
  (forall t, (t < nthreads s)%nat -> holds_sp (pcof s' t) = true -> pcof s' t = pcof s t) -> cinv2 s'.
Proof.
  intros C Hn Hl Ec Ey Em Esc Kf. apply (holder_inv_frame _ _ s s' C Hn Hl); [rewrite Ec; apply Kf|].
  intros t p. apply hinv2_frame; auto.
Qed.

Lemma cinv2_tstep s u s' : ninv s -> tstep s u = Some s' -> sp_inv s' -> cinv2 s'.
Proof.
  intros (Isp&(Ho&Ins&Iq&It)&Is&B&W&Q&(C1&C2)) H Isp'.
  pose proof (tstep_lt _ _ _ H) as Hu. pose proof (tstep_sp _ _ _ H) as Tr. pose proof (tstep_nthreads _ _ _ H) as Hn.
  assert (Fr : forall t', t' <> u -> pcof s' t' = pcof s t') by (intros; eapply tstep_pc_frame; eauto).
  pose proof (Ins _ Hu) as Hns. pose proof (tstep_summ _ _ _ H Hns) as Hs. pose proof (tstep_flow _ _ _ H Ho Hns) as Hf.
  pose proof (G_step s s' u Is B Hu Hn Hs Hf Fr) as Gx.
  destruct (holds_sp (pcof s u)) eqn:Hh.
  - assert (Gm : G s' -> G s) by (apply Gx; intros a r E; rewrite E in Hh; discriminate).
    destruct (hold_step s s' u Is B W Hu Hn Hs Hf Hns Gm Hh (C2 _ Hu Hh)) as [A Bq].
    exact (holder_inv_held _ _ s s' u Isp Isp' Hn Hu Fr Hh A Bq).
  - destruct (holds_sp (pcof s' u)) eqn:Hh'.
    + assert (Hl : splock s = None) by (apply (proj2 Tr); reflexivity).
      pose proof (proj1 (tstep_acquire _ _ _ H Hh Hh')) as Ha.
      pose proof (acquire_step s s' u Is B W Hu Hn Hs Hf Gx Hh' Ha (C1 Hl)) as Hv.
      apply (holder_inv_of_holder _ _ s' u Isp'); [rewrite Hn; exact Hu|exact Hh'|exact Hv].
    + destruct (nonholder_data s s' u Hn Hs Hf Hh Hh') as [Sm Epd].
      assert (Gm : G s' -> G s) by (apply Gx; intros a r _ E; rewrite E in Hh'; discriminate).
      destruct (kdata s s' Hn Sm Epd) as (Ec1&Ey&Em&Esc).
      assert (Kf : forall v, cfree v s -> cfree v s').
      { intros v Hc Hg. destruct (head_step_nonholder s s' u Is It Hu Hs Fr Hh) as [Eh|(y&Hy&Ey1)].
        - intros x Hx. rewrite Eh in Hx. rewrite Esc. apply (Hc (Gm Hg) x Hx).
        - exfalso. destruct Hg as [_ Hg]. rewrite Hn in Hg. specialize (Hg y Hy). lia. }
      assert (Hl : splock s' = splock s) by (rewrite (proj1 Tr); reflexivity).
      apply (cinv2_frame s s' (conj C1 C2) Hn Hl Ec1 Ey Em Esc Kf).
      intros t Ht Hht. destruct (Nat.eq_dec t u) as [->|N]; [congruence|auto].
Qed.

Lemma start_pc_failv o p' vc i pe : start_pc o p' vc -> failv p' i pe = 0.
Proof. destruct o; cbn [start_pc]; intros H; split_all; subst; reflexivity. Qed.

Lemma cinv2_step s l s' : ninv s -> step s l = Some s' -> sp_inv s' -> cinv2 s'.
Proof.
  intros Iv H Isp'. pose proof Iv as (Isp&Il&Is&B&W&Q&Ic). apply step_cases in H. destruct H as [(t&o&->&H)|[(t&->&H)|[(v&->&H)|H]]].
  - (* start *)
    destruct (start_effect _ _ _ _ H) as (Ht&Hn&Hi&Hh&Fr&Hl&_&Eq&Em&_&_&_&_&_&Er&_).
    destruct (start_summ _ _ _ _ H) as (Ei&_&Ep&_&Esc&_&Hpc').
    destruct (data_same s s' Hn Em Ep Esc) as [Ec Ey].
    apply (cinv2_frame s s' Ic Hn Hl Ec Ey Em Esc).
    + apply (kfree s s'); [|exact Esc|exact Eq]. apply (G_mono s s' Hn); [rewrite Er; auto|].
      intros y Hy. unfold gfail. rewrite Ei, Ep.
      destruct (Nat.eq_dec y t) as [->|N]; [rewrite Hi; apply failv_nonneg|rewrite Fr by auto; apply Z.le_refl].
    + intros t0 Ht0 Hh0. destruct (Nat.eq_dec t0 t) as [->|N]; [congruence|auto].
  - eapply cinv2_tstep; eauto.
  - (* vCPU step *)
    destruct (vstep_effect _ _ _ H) as (Hn&Hp&Hl&Em&_&_&_&_&Er&_). destruct (vstep_locks _ _ _ H) as (Hv&_).
    destruct (vstep_summ _ _ _ H) as (Eq&Ei&_&Ep&_&Esc&_&_).
    destruct Il as (_&_&_&It).
    destruct (data_same s s' Hn Em Ep Esc) as [Ec Ey].
    apply (cinv2_frame s s' Ic Hn Hl Ec Ey Em Esc); [|intros t0 _ _; apply Hp].
    intros v0 Hc Hg. assert (Hg0 : G s).
    { revert Hg. apply (G_mono s s' Hn); [rewrite Er; auto|]. intros y Hy. unfold gfail. rewrite Ep, Hp.
      destruct (Ei y) as [E|(_&_&E)]; rewrite E; [apply Z.le_refl|apply failv_inq_false]. }
    intros x Hx. destruct Eq as [Eq|(t&Ev&Eq)].
    + unfold head in Hx. rewrite Eq in Hx. rewrite Esc. apply (Hc Hg0 x Hx).
    + destruct (head s) as [h|] eqn:Hd.
      * destruct (Nat.eq_dec t h) as [->|N].
        -- exfalso. pose proof (head_in _ _ Hd) as Hi. destruct (s_q _ Is _ Hi) as (Hh&_&_&Hw).
           assert (Ei' : inq s' h = false).
           { destruct (inq s' h) eqn:E; [|reflexivity]. exfalso.
             destruct (vstep_inq_queue _ _ _ h H Hh E) as [_ Hq]. specialize (Hq Hi). rewrite Eq in Hq.
             eapply notin_remove_tid; [apply (s_nodup _ Is)|exact Hq]. }
           assert (Epd : pend s h = false).
           { destruct (pend s h) eqn:Hpe; [|reflexivity]. exfalso.
             destruct (s_hand _ Is _ Hpe Hi) as (w&k&c&Hw1&Hw2).
             eapply (tl_excl_v s h w v); eauto; [destruct Hw2 as [X|X]; rewrite X; reflexivity|rewrite Ev; reflexivity]. }
           destruct Hg as [_ Hg]. rewrite Hn in Hg. specialize (Hg h Hh). unfold gfail in Hg.
           rewrite Ei', Ep, Epd, Hp, (failv_wait _ Hw) in Hg. discriminate.
        -- unfold head in Hx, Hd. rewrite Eq in Hx. rewrite (head_remove_other _ _ _ Hd N) in Hx. inversion Hx; subst.
           rewrite Esc. apply (Hc Hg0). exact Hd.
      * unfold head in Hx, Hd. rewrite Eq in Hx. destruct (queue s); [discriminate Hx|discriminate Hd].
  - destruct (sched_effect _ _ H) as ((Hn&Hp&Hl&Em&_&_&_&_&Er&_)&_&Eq). destruct (sched_summ _ _ H) as (Ei&_&Ep&_&Esc&_&_).
    destruct (data_same s s' Hn Em Ep Esc) as [Ec Ey].
    apply (cinv2_frame s s' Ic Hn Hl Ec Ey Em Esc); [|intros t0 _ _; apply Hp].
    apply (kfree s s'); [|exact Esc|exact Eq]. apply (G_mono s s' Hn); [rewrite Er; auto|].
    intros y Hy. unfold gfail. rewrite Ei, Ep, Hp. apply Z.le_refl.
Qed.

(* waitq flag => member of the queue *)
Lemma qinv_step s l s' : qinv s -> locks_inv s -> step s l = Some s' -> qinv s'.
Proof.
  intros Q (_&Ins&_&_) H y Hy Hi. apply step_cases in H. destruct H as [(t&o&->&H)|[(t&->&H)|[(v&->&H)|H]]].
  - destruct (start_effect _ _ _ _ H) as (_&Hn&_&_&_&_&_&Eq&_). destruct (start_summ _ _ _ _ H) as (Ei&_).
    rewrite Hn in Hy. rewrite Ei in Hi. rewrite Eq. auto.
  - pose proof (tstep_lt _ _ _ H) as Hu. pose proof (tstep_nthreads _ _ _ H) as Hn. rewrite Hn in Hy.
    pose proof (tstep_summ _ _ _ H (Ins _ Hu)) as Hs.
    destruct (summ_inq _ _ _ y Hs Hy) as [E|[(a&Ep&->&_)|(kk&Ep&E)]]; [| |congruence].
    + rewrite E in Hi. pose proof (Q _ Hy Hi) as Hq.
      destruct (summ_queue _ _ _ Hs) as [Eq|[(a&Ep&Eq)|(kk&x&Ep&Eq)]]; rewrite Eq; [exact Hq|apply in_or_app; auto|].
      apply in_remove_other; [exact Hq|]. intros ->.
      destruct (summ_at_deq _ _ _ _ _ Hs Ep) as (_&_&Ei2). pose proof (Ei2 Hy) as X. rewrite E in X. congruence.
    + destruct (summ_at_enq _ _ _ _ Hs Hu Ep) as (Eq&_). rewrite Eq. apply in_or_app. right. left. reflexivity.
  - destruct (vstep_effect _ _ _ H) as (Hn&_). rewrite Hn in Hy.
    destruct (vstep_inq_queue _ _ _ y H Hy Hi) as [E Hq]. auto.
  - destruct (sched_effect _ _ H) as ((Hn&_)&_&Eq). destruct (sched_summ _ _ H) as (Ei&_).
    rewrite Hn in Hy. rewrite Ei in Hi. rewrite Eq. auto.
Qed.

Lemma ninv_step s l s' : ninv s -> label_noneg l -> step s l = Some s' -> ninv s'.
Proof.
  intros Iv Lg H. pose proof Iv as (Isp&Il&Is&B&W&Q&Ic).
  pose proof (sp_inv_step _ _ _ Isp H) as Isp'.
  split; [exact Isp'|]. split; [eapply locks_inv_step; eauto|]. split; [eapply sinv_step; eauto|].
  split; [eapply binv_step; eauto|]. split; [eapply pcwf_inv_step; eauto|]. split; [eapply qinv_step; eauto|].
  eapply cinv2_step; eauto.
Qed.

Lemma ninv_init c ths nv : ninv (init c false ths nv).
Proof.
  split; [apply sp_inv_init|]. split; [apply locks_inv_init|]. split; [apply sinv_init|]. split; [apply binv_init|].
  split; [apply pcwf_inv_init|]. split; [|split].
  - intros y _ Hi. exfalso. unfold inq in Hi. destruct (init_getth c false ths nv y) as [E|(vc&E)]; rewrite E in Hi; discriminate.
  - intros _ _ x Hx. discriminate Hx.
  - intros t _ Hh. rewrite init_pcof in Hh. discriminate.
Qed.

(* reachability under the label guard "no thread_interrupt with error number -1" *)
Inductive reachable_g (s0 : state) : state -> Prop :=
| rg_init : reachable_g s0 s0
| rg_step : forall s l s', reachable_g s0 s -> label_noneg l -> step s l = Some s' -> reachable_g s0 s'.

Lemma ninv_reachable c ths nv s : reachable_g (init c false ths nv) s -> ninv s.
Proof. intros R. induction R as [|s l s' R IH Lg H]; [apply ninv_init|]. eapply ninv_step; eauto. Qed.

Lemma quiescent_threads s : quiescentb s = true ->
  splock s = None /\ forall y, (y < nthreads s)%nat -> idle_thread (getth s y) = true.
Proof.
  unfold quiescentb. destruct (splock s); [discriminate|]. destruct (qlock s); [discriminate|]. intros H.
  apply andb_true_iff in H. destruct H as [H _]. split; [reflexivity|]. intros y Hy.
  rewrite forallb_forall in H. apply H. unfold getth. apply nth_In. exact Hy.
Qed.

Lemma idle_thread_pc th : idle_thread th = true ->
  t_pc th = Idle \/ (exists a, t_pc th = WAsleep a /\ t_inq th = true).
Proof.
  unfold idle_thread. destruct (t_lock th); [discriminate|]. destruct (t_pc th); try discriminate; auto.
  intros H. apply andb_true_iff in H. destruct H as [_ H]. right. eauto.
Qed.

(* THE THEOREM: the clause refuted by F35's witness (nlw_inorder, C02_Refute.v) HOLDS in every
   reachable state in which no woken waiter has been overtaken (g_refail = false) *)
Definition nlw_nobarge_stmt : Prop :=
  forall c ths nv s, 0 <= c < W64 -> reachable_g (init c false ths nv) s -> g_refail s = false -> nlw_inorder s.

Lemma nlw_inorder_nobarge : nlw_nobarge_stmt.
Proof.
  intros c ths nv s _ R Rf Hq. destruct (ninv_reachable _ _ _ _ R) as (Isp&Il&Is&B&W&Q&(C1&_)).
  destruct (quiescent_threads _ Hq) as [Hl Hid].
  assert (Hpc : forall y, (y < nthreads s)%nat -> pcof s y = Idle \/ (exists a, pcof s y = WAsleep a /\ inq s y = true)).
  { intros y Hy. apply idle_thread_pc. auto. }
  assert (Hg : G s).
  { split; [exact Rf|]. intros y Hy. unfold gfail. destruct (Hpc y Hy) as [E|(a&E&Ei)]; rewrite E; [reflexivity|]. rewrite Ei. reflexivity. }
  assert (Hpd : pd s = 0).
  { unfold pd, ssum. apply tsum_zero. intros y. change (pdy s y = 0). rewrite pdy_unf.
    destruct (lt_dec y (nthreads s)) as [Hy|Hy]; [|rewrite pend_oob by lia; reflexivity].
    destruct (Hpc y Hy) as [E|(a&E&Ei)].
    - rewrite (b_sem _ B _ Hy), E. destruct (pend s y); reflexivity.
    - destruct (pend s y) eqn:Hp; [|reflexivity]. exfalso.
      destruct (s_hand _ Is _ Hp (Q _ Hy Ei)) as (h&k&c0&Hh&Hw).
      destruct (Hpc h Hh) as [E2|(a2&E2&_)]; destruct Hw as [X|X]; congruence. }
  destruct (queue s) as [|x r] eqn:Eq; [exact Logic.I|].
  specialize (C1 Hl Hg x). unfold head in C1. rewrite Eq in C1. specialize (C1 eq_refl).
  unfold cred in C1. rewrite Hpd in C1. unfold semc in C1. lia.
Qed.

(* the guard is sharp on the known witness: in F35's barging schedule the ghost flag is set *)
Example barge_witness_has_refail :
  exists s, run (init 0 false four 1) barge_sched = Some s /\ g_refail s = true /\ quiescentb s = true.
Proof. eexists. split; [vm_compute; reflexivity|]. split; reflexivity. Qed.

(* and the hypotheses are met by a non-trivial MIXED-demand run: waiters 2 and 1, signal(2) serves the
   first, the second stays queued with m_count = 0 < 1; quiescent, nobody overtaken *)
Definition label_nonegb (l : label) : bool :=
  match l with LStart _ (OpInterrupt _ e) => negb (e =? -1) | _ => true end.
Lemma label_nonegb_ok l : label_nonegb l = true -> label_noneg l.
Proof.
  destruct l; simpl; auto. destruct o; simpl; auto. intros H E. subst. discriminate.
Qed.
Lemma run_reachable_g s0 s1 ls s : reachable_g s0 s1 -> forallb label_nonegb ls = true -> run s1 ls = Some s -> reachable_g s0 s.
Proof.
  apply (run_closed (reachable_g s0) label_nonegb). intros s2 l s' R Hl H.
  econstructor; eauto using label_nonegb_ok.
Qed.
Definition mixed_example_sched : list label :=
  LStart 0 (OpWait 2 MAX64 false) :: adv 0 7 ++ LStart 1 (OpWait 1 MAX64 false) :: adv 1 7 ++
  LStart 2 (OpSignal 2) :: adv 2 17 ++ LRun 0 :: adv 0 5.
Example nlw_nobarge_hyps_met :
  exists s, reachable_g (init 0 false three 1) s /\ g_refail s = false /\ quiescentb s = true /\
            queue s = [1%nat] /\ m_count s = 0 /\ g_ret0 s = 2.
Proof.
  eexists. split; [eapply (run_reachable_g _ _ mixed_example_sched); [constructor|vm_compute; reflexivity..]|]. repeat split.
Qed.

(* the label guard of reachable_g is NECESSARY: thread_interrupt(th, -1) is a fake resume.  Waiters A:5
   (thread 0), B:1 (thread 1); signal(1) wakes nobody (head A needs 5); thread_interrupt(A, -1) dequeues A
   with error_number -1, so A "was resumed": it retries, fails, and re-queues at the TAIL without the
   pass-on of 1899-1904.  Quiescent, queue [B; A], count 1 >= B's demand 1, and nobody was overtaken
   (g_refail = false).  Replayed on the real library (notes/C02.md). *)
Definition neg1_sched : list label :=
  LStart 0 (OpWait 5 MAX64 false) :: adv 0 7 ++ LStart 1 (OpWait 1 MAX64 false) :: adv 1 7 ++
  LStart 2 (OpSignal 1) :: adv 2 9 ++ LStart 2 (OpInterrupt 0 (-1)) :: adv 2 7 ++ LRun 0 :: adv 0 8.
