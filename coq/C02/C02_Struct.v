(* C02_Struct.v — the STRUCTURAL invariants of the wait queue (in-order mode) and the hand-off
   clause of the resume pass, for every interleaving:

     s_nodup  the wait queue has no duplicates
     s_q      x in the queue => waitq(x) /\ SLEEPING /\ pc(x) in {WQUnlock, WDefer, WAsleep}
     s_pis    a participant at PIState _ y (dequeue_ready_atomic done)  => not waitq(y)
     s_vr     a vCPU at VReady y                                        => not waitq(y)
     s_hand   pending(y) /\ y in the queue => some thread is at PIQLock/PIDeq (KHead ..) y
              (it is the resume pass that has just allotted y its tokens and is dequeuing it)
     s_cmp    pc = TRCmp _ _ x => not pending(x)          (THE HAND-OFF CLAUSE of tstep_credit)
     s_enq    pc in {WQLock, WTLock, WEnq} => not pending(self)
     s_ph     inside a wait call => a photon thread (has a vCPU)

   Everything is derived from the step summary `tstep_summ` (C02_Summ.v), the lock ownership
   invariant `tl_inv` (C02_Locks3.v) and `sp_inv` (C02_Base.v) by case analysis; the summaries of
   the other labels (vCPU step, start of a call, scheduler labels) and the invariant's preservation by
   them are in C02_Other.v. *)
From Coq Require Import ZArith List Bool Arith Lia.
From PV Require Import C02.C02_Model C02.C02_Base C02.C02_Cons C02.C02_Locks2 C02.C02_Locks3 C02.C02_Summ.
Import ListNotations.
Local Open Scope Z_scope.

Definition semc (s : state) (y : nat) : Z := t_semcnt (getth s y).
Definition vcof (s : state) (y : nat) : option nat := t_vcpu (getth s y).

Lemma in_remove_tid x y l : In y (remove_tid x l) -> In y l.
Proof.
  induction l as [|a r IH]; simpl; [auto|]. destruct (Nat.eqb a x); simpl; intuition.
Qed.
Lemma nodup_remove_tid x l : NoDup l -> NoDup (remove_tid x l).
Proof.
  induction l as [|a r IH]; simpl; intros Hd; [constructor|]. inversion Hd as [|? ? Hn Hr]; subst.
  destruct (Nat.eqb a x); [assumption|]. constructor; [|auto].
  intros Hi. apply Hn. eapply in_remove_tid; eauto.
Qed.
Lemma notin_remove_tid x l : NoDup l -> ~ In x (remove_tid x l).
Proof.
  induction l as [|a r IH]; simpl; intros Hd; [auto|]. inversion Hd as [|? ? Hn Hr]; subst.
  destruct (Nat.eqb_spec a x) as [->|N]; [assumption|].
  simpl. intros [E|Hi]; [congruence|]. apply IH; auto.
Qed.
Lemma nodup_app_single (x : nat) l : NoDup l -> ~ In x l -> NoDup (l ++ [x]).
Proof.
  induction l as [|a r IH]; simpl; intros Hd Hx.
  - constructor; [intros []|constructor].
  - inversion Hd as [|? ? Hn Hr]; subst. constructor.
    + rewrite in_app_iff. simpl. intros [Hi|[E|[]]]; [auto|]. apply Hx. left. congruence.
    + apply IH; auto.
Qed.
Lemma remove_tid_nil x l : l = [] -> remove_tid x l = [].
Proof. intros ->. reflexivity. Qed.

(* out-of-range thread ids read the default record *)
Lemma inq_oob s y : (nthreads s <= y)%nat -> inq s y = false.
Proof. intros H. unfold inq. rewrite getth_oob by exact H. reflexivity. Qed.
Lemma pend_oob s y : (nthreads s <= y)%nat -> pend s y = false.
Proof. intros H. unfold pend. rewrite getth_oob by exact H. reflexivity. Qed.

Lemma getv_range s v : getv s v <> VIdle -> (v < nvcpus s)%nat.
Proof.
  intros H. destruct (lt_dec v (nvcpus s)) as [L|L]; [exact L|].
  exfalso. apply H. unfold getv. apply nth_overflow. unfold nvcpus in L. lia.
Qed.
Lemma getv_setv s v p w : getv (setv s v p) w = if Nat.eqb v w && Nat.ltb v (nvcpus s) then p else getv s w.
Proof.
  destruct (Nat.eqb_spec v w) as [->|N]; simpl.
  - destruct (Nat.ltb_spec w (nvcpus s)).
    + apply getv_setv_same; auto.
    + unfold getv, setv; simpl. rewrite upd_nth_oob by (unfold nvcpus in *; lia). reflexivity.
  - apply getv_setv_other; auto.
Qed.

(* mutual exclusion consequences of the lock invariants *)
Lemma tl_excl s y t1 t2 : tl_inv s -> (y < nthreads s)%nat -> (t1 < nthreads s)%nat -> (t2 < nthreads s)%nat ->
  tl_pc t1 (pcof s t1) = Some y -> tl_pc t2 (pcof s t2) = Some y -> t1 = t2.
Proof.
  intros It Hy H1 H2 E1 E2. destruct (It y Hy) as (L1&_&_).
  pose proof (L1 t1 H1) as A. pose proof (L1 t2 H2) as B. cbv beta in A, B.
  rewrite E1 in A. rewrite E2 in B. cbn [oeqb] in A, B. rewrite Nat.eqb_refl in A, B.
  specialize (A eq_refl). specialize (B eq_refl). congruence.
Qed.
Lemma tl_excl_v s y t v : tl_inv s -> (y < nthreads s)%nat -> (t < nthreads s)%nat -> (v < nvcpus s)%nat ->
  tl_pc t (pcof s t) = Some y -> tl_v (getv s v) = Some y -> False.
Proof.
  intros It Hy H1 H2 E1 E2. destruct (It y Hy) as (L1&L2&_).
  pose proof (L1 t H1) as A. pose proof (L2 v H2) as B. cbv beta in A, B.
  rewrite E1 in A. rewrite E2 in B. cbn [oeqb] in A, B. rewrite Nat.eqb_refl in A, B.
  specialize (A eq_refl). specialize (B eq_refl). congruence.
Qed.

(* consequences of the thread-step summary, one question at a time *)
Definition waitpc (p : pc) : bool := match p with WQUnlock _ | WDefer _ | WAsleep _ => true | _ => false end.
Definition enqpc (p : pc) : bool := match p with WQLock _ | WTLock _ | WEnq _ => true | _ => false end.

Ltac open_summ H := unfold summ in H; cbv zeta in H; destruct H as (Eq&Ei&Es&Ep&Evc&Ea&Ec).

Lemma summ_queue s s' u : summ s s' u ->
  queue s' = queue s \/ (exists a, pcof s u = WEnq a /\ queue s' = queue s ++ [u]) \/
  (exists kk x, pcof s u = PIDeq kk x /\ queue s' = remove_tid x (queue s)).
Proof. intros H. open_summ H. destruct (pcof s u); cbn [eff_queue] in Eq; eauto 7. Qed.

Lemma summ_at_enq s s' u a : summ s s' u -> (u < nthreads s)%nat -> pcof s u = WEnq a ->
  queue s' = queue s ++ [u] /\ pcof s' u = WQUnlock a /\ inq s' u = true /\ stof s' u = Sleeping.
Proof.
  intros H Hu Hp. open_summ H. specialize (Ei u Hu). specialize (Es u Hu). rewrite Hp in *.
  cbn [eff_queue eff_inq eff_state cfg] in *. rewrite Nat.eqb_refl in *. auto.
Qed.

Lemma summ_at_deq s s' u kk x : summ s s' u -> pcof s u = PIDeq kk x ->
  queue s' = remove_tid x (queue s) /\ pcof s' u = PIState kk x /\ ((x < nthreads s)%nat -> inq s' x = false).
Proof.
  intros H Hp. open_summ H. rewrite Hp in *. cbn [eff_queue cfg] in *. repeat split; auto.
  intros Hx. specialize (Ei x Hx). cbn [eff_inq] in Ei. rewrite Nat.eqb_refl in Ei. exact Ei.
Qed.

Lemma summ_inq s s' u y : summ s s' u -> (y < nthreads s)%nat ->
  inq s' y = inq s y \/ (exists a, pcof s u = WEnq a /\ y = u /\ inq s' y = true) \/
  (exists kk, pcof s u = PIDeq kk y /\ inq s' y = false).
Proof.
  intros H Hy. open_summ H. specialize (Ei y Hy).
  destruct (pcof s u); cbn [eff_inq] in Ei; auto;
    match type of Ei with context [Nat.eqb ?a ?b] => destruct (Nat.eqb_spec a b); [subst|auto] end; eauto 7.
Qed.

Lemma summ_st s s' u y : summ s s' u -> (y < nthreads s)%nat ->
  stof s' y = stof s y \/ (exists a, pcof s u = WEnq a /\ y = u /\ stof s' y = Sleeping) \/
  (exists kk, pcof s u = PIState kk y).
Proof.
  intros H Hy. open_summ H. specialize (Es y Hy).
  destruct (pcof s u); cbn [eff_state] in Es; auto;
    match type of Es with context [Nat.eqb ?a ?b] => destruct (Nat.eqb_spec a b); [subst|auto] end; eauto 7.
Qed.

Lemma summ_pend s s' u y : summ s s' u -> (y < nthreads s)%nat ->
  pend s' y = pend s y \/
  (exists k c c', pcof s u = TRCmp k c y /\ pcof s' u = PIQLock (KHead k c') y /\ pend s' y = true) \/
  (y = u /\ pend s' y = false /\ waitpc (pcof s u) = false /\ holds_sp (pcof s u) = true).
Proof.
  intros H Hy. open_summ H. specialize (Ep y Hy).
  destruct (pcof s u); cbn [eff_pend cfg] in Ep, Ec; auto;
    match type of Ep with context [Nat.eqb ?a ?b] => destruct (Nat.eqb_spec a b); [subst|auto] end.
  - destruct Ep as [E|E]; auto. right; right; auto.
  - destruct Ep as [E|E]; auto. right; right; auto.
  - destruct Ec as [[_ E]|(c'&E&Hpd)]; [left; exact E|right; left; eauto 7].
Qed.

Lemma summ_from_wait s s' u : summ s s' u -> waitpc (pcof s u) = true ->
  waitpc (pcof s' u) = true \/ (exists a, pcof s u = WAsleep a /\ can_run (getth s u) = true).
Proof.
  intros H Hw. open_summ H. destruct (pcof s u); cbn [waitpc] in Hw; try discriminate Hw; cbn [cfg] in Ec.
  - rewrite Ec. auto.
  - rewrite Ec. auto.
  - destruct Ec as [Hc _]. right. eauto.
Qed.

Lemma inert_not p : inert p ->
  (forall kk y, p <> PIState kk y) /\ (forall k c x, p <> TRCmp k c x) /\ enqpc p = false /\
  (forall k c y, p <> PIQLock (KHead k c) y) /\ (forall kk y, p <> PIDeq kk y).
Proof.
  intros H. repeat split; try (intros; intros E; subst p; cbn [inert] in H; exact H).
  destruct p; cbn [inert enqpc] in *; auto; contradiction.
Qed.

Ltac split_all := repeat (match goal with
  | E : _ \/ _ |- _ => destruct E as [E|E]
  | E : _ /\ _ |- _ => destruct E as [? ?]
  | E : exists _, _ |- _ => destruct E as [? E]
  end).

Lemma summ_to_pistate s s' u kk y : summ s s' u -> pcof s' u = PIState kk y ->
  (pcof s u = PIQLock kk y /\ inq s y = false) \/ pcof s u = PIDeq kk y.
Proof.
  intros H Hp'. open_summ H. clear Ea. rewrite Hp' in Ec.
  destruct (pcof s u); cbn [cfg] in Ec;
    try (apply inert_not in Ec; destruct Ec as (Ec&_); exfalso; eapply Ec; reflexivity);
    split_all; try congruence.
  all: match goal with E : PIState _ _ = PIState _ _ |- _ => inversion E; subst end; auto.
Qed.

Lemma summ_to_trcmp s s' u k c x : summ s s' u -> pcof s' u = TRCmp k c x ->
  pcof s u = TRRecheck k c x /\ head s = Some x.
Proof.
  intros H Hp'. open_summ H. clear Ea. rewrite Hp' in Ec.
  destruct (pcof s u); cbn [cfg] in Ec;
    try (apply inert_not in Ec; destruct Ec as (_&Ec&_); exfalso; eapply Ec; reflexivity);
    split_all; try congruence.
  all: match goal with E : TRCmp _ _ _ = TRCmp _ _ _ |- _ => inversion E; subst end; auto.
Qed.

Lemma summ_to_enq s s' u : summ s s' u -> enqpc (pcof s' u) = true ->
  (exists a, pcof s u = WLoad a /\ pend s' u = false) \/ enqpc (pcof s u) = true.
Proof.
  intros H Hp'. open_summ H. clear Ea.
  destruct (pcof s u); cbn [cfg enqpc] in *; auto;
    try (apply inert_not in Ec; destruct Ec as (_&_&Ec&_); congruence);
    split_all;
    try (match goal with E : pcof s' u = _ |- _ => rewrite E in Hp'; cbn [enqpc] in Hp'; try discriminate Hp' end); eauto.
Qed.

(* the witness of s_hand (the resume pass dequeuing y) keeps dequeuing y, or has finished *)
Lemma summ_wit s s' u k c y : summ s s' u ->
  pcof s u = PIQLock (KHead k c) y \/ pcof s u = PIDeq (KHead k c) y ->
  (pcof s' u = PIQLock (KHead k c) y \/ pcof s' u = PIDeq (KHead k c) y) \/
  (pcof s u = PIQLock (KHead k c) y /\ inq s y = false) \/ pcof s u = PIDeq (KHead k c) y.
Proof.
  intros H [Hp|Hp]; [|auto]. open_summ H. rewrite Hp in Ec. cbn [cfg] in Ec.
  destruct Ec as [E|[E|[E Hi]]]; auto.
Qed.

Lemma can_run_asleep s u a : pcof s u = WAsleep a -> stof s u = Sleeping -> vcof s u <> None ->
  can_run (getth s u) = true -> False.
Proof.
  unfold pcof, stof, vcof, can_run. intros Hp Hst Hv Hc. rewrite Hp in Hc.
  destruct (t_vcpu (getth s u)); [|congruence]. rewrite Hst in Hc. discriminate.
Qed.

Record sinv (s : state) : Prop := mk_sinv {
  s_nodup : NoDup (queue s);
  s_q : forall y, In y (queue s) ->
        (y < nthreads s)%nat /\ inq s y = true /\ stof s y = Sleeping /\ waitpc (pcof s y) = true;
  s_pis : forall w kk y, (w < nthreads s)%nat -> pcof s w = PIState kk y -> inq s y = false;
  s_vr : forall v y, getv s v = VReady y -> inq s y = false;
  s_hand : forall y, pend s y = true -> In y (queue s) ->
           exists h k c, (h < nthreads s)%nat /\ (pcof s h = PIQLock (KHead k c) y \/ pcof s h = PIDeq (KHead k c) y);
  s_cmp : forall t k c x, (t < nthreads s)%nat -> pcof s t = TRCmp k c x -> (x < nthreads s)%nat -> pend s x = false;
  s_enq : forall t, (t < nthreads s)%nat -> enqpc (pcof s t) = true -> pend s t = false;
  s_ph : forall t, (t < nthreads s)%nat -> pc_args (pcof s t) <> None -> vcof s t <> None
}.

Lemma head_in s x : head s = Some x -> In x (queue s).
Proof. unfold head. destruct (queue s); [discriminate|]. intros E; inversion E; subst. left; reflexivity. Qed.

Section TSTEP.
  Variables (s s' : state) (u : nat).
  Hypothesis I : sinv s.
  Hypothesis Isp : sp_inv s.
  Hypothesis It : tl_inv s.
  Hypothesis Hu : (u < nthreads s)%nat.
  Hypothesis Hn : nthreads s' = nthreads s.
  Hypothesis Hs : summ s s' u.
  Hypothesis Fr : forall t', t' <> u -> pcof s' t' = pcof s t'.
  Hypothesis Evs : vcpus s' = vcpus s.

  Lemma ts_in_queue y : In y (queue s') -> In y (queue s) \/ (exists a, pcof s u = WEnq a /\ y = u).
  Proof.
    intros Hi. destruct (summ_queue _ _ _ Hs) as [E|[(a&Ep&E)|(kk&x&Ep&E)]]; rewrite E in Hi.
    - auto.
    - rewrite in_app_iff in Hi. simpl in Hi. destruct Hi as [Hi|[Hi|[]]]; [auto|right; eauto].
    - left. eapply in_remove_tid; eauto.
  Qed.

  Lemma ts_nodup : NoDup (queue s').
  Proof.
    destruct (summ_queue _ _ _ Hs) as [E|[(a&Ep&E)|(kk&x&Ep&E)]]; rewrite E.
    - apply (s_nodup _ I).
    - apply nodup_app_single; [apply (s_nodup _ I)|]. intros Hi. destruct (s_q _ I _ Hi) as (_&_&_&Hw).
      rewrite Ep in Hw. discriminate.
    - apply nodup_remove_tid, (s_nodup _ I).
  Qed.

  Lemma ts_q y : In y (queue s') ->
    (y < nthreads s')%nat /\ inq s' y = true /\ stof s' y = Sleeping /\ waitpc (pcof s' y) = true.
  Proof.
    intros Hi. rewrite Hn. destruct (ts_in_queue _ Hi) as [Ho|(a&Ep&->)].
    - destruct (s_q _ I _ Ho) as (Hy&Hq&Hst&Hw). split; [exact Hy|]. split; [|split].
      + destruct (summ_inq _ _ _ y Hs Hy) as [E|[(a&Ep&->&E)|(kk&Ep&E)]]; [congruence|exact E|].
        exfalso. destruct (summ_at_deq _ _ _ _ _ Hs Ep) as (Eq&_). rewrite Eq in Hi.
        eapply notin_remove_tid; [apply (s_nodup _ I)|exact Hi].
      + destruct (summ_st _ _ _ y Hs Hy) as [E|[(a&Ep&->&E)|(kk&Ep)]]; [congruence|exact E|].
        exfalso. pose proof (s_pis _ I _ _ _ Hu Ep). congruence.
      + destruct (Nat.eq_dec y u) as [->|N]; [|rewrite Fr; auto].
        destruct (summ_from_wait _ _ _ Hs Hw) as [E|(a&Ep&Hc)]; [exact E|].
        exfalso. eapply can_run_asleep; eauto. apply (s_ph _ I _ Hu). rewrite Ep. discriminate.
    - destruct (summ_at_enq _ _ _ _ Hs Hu Ep) as (_&Ep'&Eq&Est). rewrite Ep'. auto.
  Qed.

  Lemma ts_pis w kk y : (w < nthreads s')%nat -> pcof s' w = PIState kk y -> inq s' y = false.
  Proof.
    intros Hw Hp'. rewrite Hn in Hw.
    destruct (lt_dec y (nthreads s)) as [Hy|Hy]; [|apply inq_oob; rewrite Hn; lia].
    destruct (Nat.eq_dec w u) as [->|N].
    - destruct (summ_to_pistate _ _ _ _ _ Hs Hp') as [[Ep Eq]|Ep].
      + destruct (summ_inq _ _ _ y Hs Hy) as [E|[(a&Ep2&_)|(kk2&Ep2&E)]]; congruence.
      + apply (summ_at_deq _ _ _ _ _ Hs Ep); auto.
    - rewrite Fr in Hp' by auto. pose proof (s_pis _ I _ _ _ Hw Hp') as Eq.
      destruct (summ_inq _ _ _ y Hs Hy) as [E|[(a&Ep2&->&E)|(kk2&Ep2&E)]]; [congruence| |exact E].
      exfalso. apply N. eapply (tl_excl s u); eauto.
      * rewrite Hp'. reflexivity.
      * rewrite Ep2. reflexivity.
  Qed.

  Lemma ts_vr v y : getv s' v = VReady y -> inq s' y = false.
  Proof.
    intros Hv. rewrite (getv_of_vcpus _ _ _ Evs) in Hv.
    destruct (lt_dec y (nthreads s)) as [Hy|Hy]; [|apply inq_oob; rewrite Hn; lia].
    pose proof (s_vr _ I _ _ Hv) as Eq.
    destruct (summ_inq _ _ _ y Hs Hy) as [E|[(a&Ep2&->&E)|(kk2&Ep2&E)]]; [congruence| |exact E].
    exfalso. eapply (tl_excl_v s u u v); eauto.
    - apply getv_range. rewrite Hv. discriminate.
    - rewrite Ep2. reflexivity.
    - rewrite Hv. reflexivity.
  Qed.

  Lemma ts_hand y : pend s' y = true -> In y (queue s') ->
    exists h k c, (h < nthreads s')%nat /\ (pcof s' h = PIQLock (KHead k c) y \/ pcof s' h = PIDeq (KHead k c) y).
  Proof.
    intros Hpd Hi. rewrite Hn. destruct (ts_in_queue _ Hi) as [Ho|(a&Ep&->)].
    - destruct (s_q _ I _ Ho) as (Hy&Hq&_).
      destruct (summ_pend _ _ _ y Hs Hy) as [E|[(k&c&c'&Ep&Ep'&_)|(->&E&_)]]; [| |congruence].
      + rewrite E in Hpd. destruct (s_hand _ I _ Hpd Ho) as (h&k&c&Hh&Hw).
        destruct (Nat.eq_dec h u) as [->|N].
        * destruct (summ_wit _ _ _ _ _ _ Hs Hw) as [W|[[_ W]|W]].
          -- exists u, k, c. auto.
          -- congruence.
          -- exfalso. destruct (summ_at_deq _ _ _ _ _ Hs W) as (Eq&_). rewrite Eq in Hi.
             eapply notin_remove_tid; [apply (s_nodup _ I)|exact Hi].
        * exists h, k, c. rewrite Fr by auto. auto.
      + exists u, k, c'. auto.
    - exfalso. pose proof (s_enq _ I _ Hu) as Hf. rewrite Ep in Hf. specialize (Hf eq_refl).
      destruct (summ_pend _ _ _ u Hs Hu) as [E|[(k&c&c'&Ep2&_)|(_&E&_)]]; congruence.
  Qed.

  Lemma ts_cmp t k c x : (t < nthreads s')%nat -> pcof s' t = TRCmp k c x -> (x < nthreads s')%nat -> pend s' x = false.
  Proof.
    intros Ht Hp' Hx. rewrite Hn in Ht, Hx.
    destruct (Nat.eq_dec t u) as [->|N].
    - destruct (summ_to_trcmp _ _ _ _ _ _ Hs Hp') as [Ep Hh].
      destruct (summ_pend _ _ _ x Hs Hx) as [E|[(k2&c2&c'&Ep2&_)|(_&E&_)]]; [|congruence|exact E].
      rewrite E. destruct (pend s x) eqn:Hpd; [|reflexivity].
      exfalso. destruct (s_hand _ I _ Hpd (head_in _ _ Hh)) as (h&k2&c2&Hh2&Hw).
      assert (h = u).
      { eapply (tl_excl s x); eauto.
        - destruct Hw as [W|W]; rewrite W; reflexivity.
        - rewrite Ep. reflexivity. }
      subst h. destruct Hw; congruence.
    - rewrite Fr in Hp' by auto. pose proof (s_cmp _ I _ _ _ _ Ht Hp' Hx) as Hf.
      destruct (summ_pend _ _ _ x Hs Hx) as [E|[(k2&c2&c'&Ep2&_)|(_&E&_)]]; [congruence| |exact E].
      exfalso. apply N. eapply (tl_excl s x); eauto.
      + rewrite Hp'. reflexivity.
      + rewrite Ep2. reflexivity.
  Qed.

  Lemma ts_enq t : (t < nthreads s')%nat -> enqpc (pcof s' t) = true -> pend s' t = false.
  Proof.
    intros Ht Hp'. rewrite Hn in Ht.
    destruct (Nat.eq_dec t u) as [->|N].
    - destruct (summ_to_enq _ _ _ Hs Hp') as [(a&_&E)|Ep]; [exact E|].
      pose proof (s_enq _ I _ Hu Ep) as Hf.
      destruct (summ_pend _ _ _ u Hs Hu) as [E|[(k2&c2&c'&Ep2&_)|(_&E&_)]]; [congruence| |exact E].
      rewrite Ep2 in Ep. discriminate.
    - rewrite Fr in Hp' by auto. pose proof (s_enq _ I _ Ht Hp') as Hf.
      destruct (summ_pend _ _ _ t Hs Ht) as [E|[(k2&c2&c'&Ep2&_)|(_&E&_)]]; [congruence| |exact E].
      exfalso. apply N. symmetry. eapply (sp_excl s); eauto.
      + rewrite Ep2. reflexivity.
      + destruct (pcof s t); cbn [enqpc] in Hp'; try discriminate Hp'; reflexivity.
  Qed.

  Lemma ts_ph t : (t < nthreads s')%nat -> pc_args (pcof s' t) <> None -> vcof s' t <> None.
  Proof.
    intros Ht Hp'. rewrite Hn in Ht. pose proof Hs as Hs2. open_summ Hs2.
    unfold vcof. rewrite Evc. destruct (Nat.eq_dec t u) as [->|N].
    - apply (s_ph _ I _ Hu). destruct Ea as [Ea|Ea]; congruence.
    - rewrite Fr in Hp' by auto. apply (s_ph _ I _ Ht Hp').
  Qed.

  Lemma sinv_tstep_core : sinv s'.
  Proof.
    constructor; [exact ts_nodup|exact ts_q|exact ts_pis|exact ts_vr|exact ts_hand|exact ts_cmp|exact ts_enq|exact ts_ph].
  Qed.
End TSTEP.

Lemma sinv_tstep s u s' : sinv s -> sp_inv s -> locks_inv s -> tstep s u = Some s' -> sinv s'.
Proof.
  intros I Isp (_&Ins&_&It) H.
  pose proof (tstep_lt _ _ _ H) as Hu. pose proof (tstep_nthreads _ _ _ H) as Hn.
  pose proof (tstep_summ _ _ _ H (Ins _ Hu)) as Hs.
  destruct (tstep_locks _ _ _ H (Ins _ Hu)) as (_&_&_&Ev).
  eapply sinv_tstep_core; eauto. intros; eapply tstep_pc_frame; eauto.
Qed.

