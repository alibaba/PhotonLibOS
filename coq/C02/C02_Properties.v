(* C02_Properties.v — property theorems of C02 (semaphore), each followed by Print Assumptions: instances of
   the invariants of C02_Cons.v / C02_Safe.v / C02_Locks3.v / C02_NLW.v / C02_NoBarge.v, and the evaluation of
   the witness schedules of C02_Refute.v. *)
From Coq Require Import ZArith List Bool Arith.
From PV Require Import Base.U64 C02.C02_Model C02.C02_Base C02.C02_Cons C02.C02_Safe C02.C02_Refute C02.C02_Locks3 C02.C02_Struct C02.C02_Other C02.C02_NLW C02.C02_NoBarge.
Import ListNotations.
Local Open Scope Z_scope.

(* Conservation, for every interleaving of any number of threads on any number of vCPUs:
   tokens of the waits that returned 0 (g_ret0) + tokens already subtracted by a wait that is
   about to return 0 (inflight) + m_count = initial + signalled, modulo 2^64 (fetch_add wraps),
   never more than it, and exactly when initial + signalled < 2^64. *)
Theorem sem_conservation : forall c o ths nv s, 0 <= c < W64 -> reachable (init c o ths nv) s ->
  (g_ret0 s + inflight s + m_count s) mod W64 = (g_init s + g_sig s) mod W64 /\
  g_ret0 s + inflight s + m_count s <= g_init s + g_sig s /\
  0 <= m_count s < W64 /\ 0 <= g_ret0 s /\ 0 <= inflight s /\
  (g_init s + g_sig s < W64 -> g_ret0 s + inflight s + m_count s = g_init s + g_sig s).
Proof. exact conservation. Qed.
Print Assumptions sem_conservation.

(* Destroy-after-wait: a signal call that has acquired splock when `ep` waits had returned does
   all its remaining accesses while still no further wait has returned. *)
Theorem sem_destroy_safe : forall c o ths nv s, reachable (init c o ths nv) s ->
  forall t ep, (t < nthreads s)%nat -> sig_ep (pcof s t) = Some ep -> ep = g_rets s.
Proof.
  intros c o ths nv. apply (reachable_inv2 sp_inv ep_inv); [apply sp_inv_reachable| |intros; eapply ep_inv_step; eauto].
  intros t ep _ E. rewrite init_pcof in E. discriminate.
Qed.
Print Assumptions sem_destroy_safe.

Theorem sem_destroy_safe_at_return : forall c o ths nv s, reachable (init c o ths nv) s ->
  forall t a r k, (t < nthreads s)%nat -> pcof s t = WRet a r k ->
  forall t', (t' < nthreads s)%nat -> sig_ep (pcof s t') = None.
Proof.
  intros c o ths nv s R t a r k Ht Hp t' Ht'. pose proof (sp_inv_reachable _ _ _ _ _ R) as Isp.
  destruct (sig_ep (pcof s t')) eqn:E0; auto. pose proof (sig_ep_holds _ _ E0) as E.
  assert (Hy : holds_sp (pcof s t) = true) by (rewrite Hp; reflexivity).
  rewrite <- (sp_excl s t t' Isp Ht Ht' Hy E), Hp in E0. discriminate.
Qed.
Print Assumptions sem_destroy_safe_at_return.

Theorem sem_cas_never_fails : forall c o ths nv s, reachable (init c o ths nv) s ->
  forall t a mc, (t < nthreads s)%nat -> pcof s t = WCas a mc -> m_count s = mc.
Proof.
  intros c o ths nv. apply (reachable_inv2 sp_inv cas_inv); [apply sp_inv_reachable| |intros; eapply cas_inv_step; eauto].
  intros t a mc _ E. rewrite init_pcof in E. discriminate.
Qed.
Print Assumptions sem_cas_never_fails.

(* ---- clauses the code does NOT satisfy (findings; witnesses replayed on the implementation) ---- *)

(* F35 "barging": in-order mode, mixed demands.  A quiescent reachable state whose head waiter's
   demand is covered by the count. *)
Theorem sem_no_lost_wakeup_inorder_refuted :
  exists s, reachable (init 0 false four 1) s /\ ooo s = false /\ g_crash s = false /\ ~ nlw_inorder s.
Proof.
  eapply (run_witness _ barge_sched); [vm_compute; reflexivity|]. repeat split.
  unfold nlw_inorder. intros H. specialize (H eq_refl). vm_compute in H. discriminate.
Qed.
Print Assumptions sem_no_lost_wakeup_inorder_refuted.

Theorem sem_no_lost_wakeup_ooo_refuted :
  exists s, reachable (init 0 true four 1) s /\ ooo s = true /\ g_crash s = false /\ ~ nlw_ooo s.
Proof.
  eapply (run_witness _ barge_sched); [vm_compute; reflexivity|]. repeat split.
  unfold nlw_ooo. intros H. specialize (H eq_refl 1%nat (or_introl eq_refl)). vm_compute in H. discriminate.
Qed.
Print Assumptions sem_no_lost_wakeup_ooo_refuted.

(* F9: out-of-order mode, waiters [5,1], signal(1): self-deadlock on q.lock; every participant can only stutter *)
Theorem sem_ooo_deadlock_refuted : exists s, reachable (init 0 true three 1) s /\
  pcof s 2 = PIQLock (KScan (CSignal 0) 0 1) 1 /\ qlock s = Some (PT 2) /\ splock s = Some (PT 2) /\
  Forall (only_stutter s)
    [LAdv 0; LAdv 1; LAdv 2; LRun 0; LRun 1; LRun 2; LVAdv 0; LStandby 0 0; LStandby 0 1; LStandby 0 2;
     LExpire 0 0; LExpire 0 1; LExpire 0 2].
Proof.
  eapply (run_witness _ f9_sched); [vm_compute; reflexivity|]. repeat split.
  repeat (apply Forall_cons; [unfold only_stutter; vm_compute; first [left; reflexivity | right; reflexivity]|]). apply Forall_nil.
Qed.
Print Assumptions sem_ooo_deadlock_refuted.

(* out-of-order mode, 2 vCPUs: nullptr dereference at thread.cpp 1924 (q.th tested without q.lock at 1921) *)
Theorem sem_ooo_null_deref_refuted : exists s, reachable (init 0 true [Some O; Some 1%nat] 2) s /\ g_crash s = true.
Proof. eapply (run_witness _ crash_sched); [vm_compute; reflexivity|]. reflexivity. Qed.
Print Assumptions sem_ooo_null_deref_refuted.

(* out-of-order mode, 2 vCPUs, uniform demands: ABBA deadlock between the scan (q.lock then thread.lock)
   and a waiter's expiry (thread.lock then q.lock) *)
Theorem sem_ooo_abba_deadlock_refuted : exists s, reachable (init 0 true [Some O; Some O; Some 1%nat] 2) s /\
  qlock s = Some (PT 2) /\ t_lock (getth s 1) = Some (PV 0) /\
  pcof s 2 = SCTLock (CSignal 0) 1 1 /\ getv s 0 = VDeqLock 1 /\
  Forall (only_stutter s) [LAdv 0; LAdv 1; LAdv 2; LRun 0; LRun 1; LVAdv 0; LVAdv 1; LStandby 0 0; LStandby 0 1; LExpire 0 0; LExpire 0 1].
Proof.
  eapply (run_witness _ abba_sched); [vm_compute; reflexivity|]. repeat split.
  repeat (apply Forall_cons; [unfold only_stutter; vm_compute; first [left; reflexivity | right; reflexivity]|]). apply Forall_nil.
Qed.
Print Assumptions sem_ooo_abba_deadlock_refuted.

(* ---- footprint_protected (in-order mode): q.lock and every thread::lock are held exactly by the
   participant whose program counter is inside the corresponding critical section ---- *)
Theorem sem_footprint_protected : forall c ths nv s, reachable (init c false ths nv) s -> locks_inv s.
Proof. exact locks_reachable. Qed.
Print Assumptions sem_footprint_protected.

(* ---- NO LOST WAKE-UP, the positive theorem (in-order resume mode, one demand value d = outside
   F35's class): for EVERY interleaving of any number of photon threads / vCPUs / OS threads whose
   wait calls all ask for d tokens (signals of any size, interrupts, timeouts, any schedule), in every
   reachable state: if nobody is inside a critical section of `splock` and no waiter woken by a resume
   pass is still on its way to re-try its subtraction, then a non-empty wait queue implies
   m_count < d — nobody who could be served is left blocked.  (`nlw_uniform_inorder_stmt` is the
   in-order instance of `nlw_uniform_stmt` of C02_Refute.v; out-of-order mode is F9's class.) ---- *)
Theorem sem_no_lost_wakeup_inorder_uniform : forall d c ths nv s, 0 < d -> 0 <= c < W64 ->
  reachable_u d (init c false ths nv) s ->
  splock s = None -> no_pending s -> queue s <> [] -> m_count s < d.
Proof. exact nlw_inorder_uniform. Qed.
Print Assumptions sem_no_lost_wakeup_inorder_uniform.

(* its hypotheses are met by a non-trivial state: d = 2, two waiters, signal(3): one waiter is served
   and returns 0, the other stays queued with m_count = 1 < 2 *)
Example sem_no_lost_wakeup_inorder_uniform_nonvacuous :
  exists s, reachable_u 2 (init 0 false three 1) s /\ splock s = None /\ no_pending s /\ queue s = [1%nat] /\
            m_count s = 1 /\ g_ret0 s = 2.
Proof. exact nlw_inorder_uniform_hyps_met. Qed.

(* the structural half, on its own: wait-queue well-formedness and the hand-off clause of the resume
   pass (a waiter is never allotted tokens twice), in-order mode, every reachable state *)
Theorem sem_queue_structure : forall c ths nv s, reachable (init c false ths nv) s -> sinv s.
Proof.
  intros c ths nv.
  apply (reachable_inv2 (fun s => sp_inv s /\ locks_inv s) sinv); [|apply sinv_init|intros s1 l s2 [I1 I2] I3 H; eapply sinv_step; eauto].
  intros s1 R. split; [eapply sp_inv_reachable; eauto|eapply locks_reachable; eauto].
Qed.
Print Assumptions sem_queue_structure.

(* ---- NO LOST WAKE-UP for ARBITRARY (mixed) demands, in-order mode, outside F35's class: the very
   clause `nlw_inorder` that F35's witness refutes (sem_no_lost_wakeup_inorder_refuted above) HOLDS in
   every reachable state, for every interleaving of any number of threads / vCPUs / OS threads with any
   demands, signals, timeouts and interrupts, as long as no woken waiter's re-subtraction has failed
   (ghost g_refail = false: nobody overtook a woken waiter on the fast path = the complement of F35)
   and no thread_interrupt call carries the error number -1 (the value reserved for waitq::resume;
   reachable_g): at quiescence the head waiter's demand exceeds m_count.  So a lost wake-up in
   in-order mode can ONLY come from barging. ---- *)
Theorem sem_no_lost_wakeup_inorder_nobarge : forall c ths nv s, 0 <= c < W64 ->
  reachable_g (init c false ths nv) s -> g_refail s = false ->
  quiescentb s = true -> match queue s with x :: _ => m_count s < t_semcnt (getth s x) | [] => True end.
Proof. exact nlw_inorder_nobarge. Qed.
Print Assumptions sem_no_lost_wakeup_inorder_nobarge.

(* hypotheses met by a non-trivial MIXED-demand state (waiters 2 and 1, signal(2): the first is served,
   the second stays queued, m_count = 0 < 1); and the guard is sharp on F35's witness: there g_refail = true *)
Example sem_no_lost_wakeup_inorder_nobarge_nonvacuous :
  exists s, reachable_g (init 0 false three 1) s /\ g_refail s = false /\ quiescentb s = true /\
            queue s = [1%nat] /\ m_count s = 0 /\ g_ret0 s = 2.
Proof. exact nlw_nobarge_hyps_met. Qed.
Example sem_barge_witness_sets_refail :
  exists s, run (init 0 false four 1) barge_sched = Some s /\ g_refail s = true /\ quiescentb s = true.
Proof. exact barge_witness_has_refail. Qed.

(* the second guard is necessary too: thread_interrupt(th, -1) acts as a fake resume (the woken head
   waiter re-queues at the tail without passing on) - a lost wake-up with g_refail = false *)
Theorem sem_no_lost_wakeup_inorder_fake_resume_refuted :
  exists s, reachable (init 0 false three 1) s /\ ooo s = false /\ g_refail s = false /\ ~ nlw_inorder s.
Proof.
  eapply (run_witness _ neg1_sched); [vm_compute; reflexivity|]. repeat split.
  unfold nlw_inorder. intros H. specialize (H eq_refl). vm_compute in H. discriminate.
Qed.
Print Assumptions sem_no_lost_wakeup_inorder_fake_resume_refuted.
