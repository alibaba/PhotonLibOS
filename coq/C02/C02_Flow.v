(* C02_Flow.v — data-flow summary of one thread step (in-order mode): what it does to m_count,
   g_refail, every thread's semaphore_count and error_number, and the exact control-flow edge with
   the branch condition that was taken.  Complements C02_Summ.v (queue / waitq / state / pending). *)
From Coq Require Import ZArith List Bool Arith Lia.
From PV Require Import Base.U64 C02.C02_Model C02.C02_Base C02.C02_Locks C02.C02_Summ C02.C02_Struct.
Import ListNotations.
Local Open Scope Z_scope.

Definition errof (s : state) (y : nat) : Z := t_err (getth s y).

Definition same (s s' : state) : Prop :=
  m_count s' = m_count s /\ g_refail s' = g_refail s /\ (forall y, semc s' y = semc s y).
Definition same_but (s s' : state) (t : nat) (v : Z) : Prop :=
  m_count s' = m_count s /\ g_refail s' = g_refail s /\ (forall y, y <> t -> semc s' y = semc s y) /\ semc s' t = v.

Definition flow (s s' : state) (t : nat) (p p' : pc) : Prop :=
  match p with
  | WLock1 a => (p' = WLock1 a /\ same s s') \/ (p' = WLoad a /\ same_but s s' t (w_c a))
  | WLoad a => (m_count s < w_c a /\ p' = WQLock a /\ m_count s' = m_count s /\
                g_refail s' = (if pend s t then true else g_refail s) /\ (forall y, semc s' y = semc s y))
               \/ (w_c a <= m_count s /\ p' = WCas a (m_count s) /\ same s s' /\ (forall y, pend s' y = pend s y))
  | WCas a mc => (m_count s = mc /\ p' = WRet a 0 (w_c a) /\ m_count s' = mc - w_c a /\ g_refail s' = g_refail s /\
                  (forall y, semc s' y = semc s y) /\ pend s' t = false)
                 \/ (p' = WLoad a /\ same s s' /\ (forall y, pend s' y = pend s y))
  | WLock2 a r => same s s' /\ (p' = WLock2 a r \/ (r < 0 /\ p' = WFailLoad a r) \/ (0 <= r /\ p' = WLoad a))
  | WFailLoad a r => same s s' /\ ((m_count s = 0 /\ p' = WRet a r 0) \/ (exists e, p' = TRHead (CWaitFail a r e) (m_count s)))
  | WRet a r k => same_but s s' t 0 /\ (p' = Idle \/ p' = WLock1 a)
  | SLock n => same s s' /\ (p' = SLock n \/ exists ep, p' = SAdd n ep)
  | SAdd n ep => m_count s' = wrap (m_count s + n) /\ g_refail s' = g_refail s /\ (forall y, semc s' y = semc s y) /\
                 p' = TRHead (CSignal ep) (m_count s')
  | SUnlock ep => same s s' /\ p' = Idle
  | TRHead k c => same s s' /\ ((head s = None /\ p' = TRTail k c) \/ (exists x, head s = Some x /\ p' = TRLockX k c x))
  | TRLockX k c x => same s s' /\ (p' = TRLockX k c x \/ p' = TRRecheck k c x)
  | TRRecheck k c x => same s s' /\ ((p' = TRCmp k c x /\ head s = Some x) \/ p' = TRUnlockRetry k c x)
  | TRUnlockRetry k c x => same s s' /\ p' = TRHead k c
  | TRCmp k c x => same s s' /\
      ((c < semc s x /\ p' = TRUnlockBreak k c x /\ (forall y, pend s' y = pend s y)) \/
       (semc s x <= c /\ p' = PIQLock (KHead k (c - semc s x)) x /\ ((x < nthreads s)%nat -> pend s' x = true)))
  | TRUnlockBreak k c x => same s s' /\ p' = TRTail k c
  | TRUnlockLoop k c x => same s s' /\ p' = TRHead k c
  | TRTail k c => same s s' /\ p' = ret_pc k
  | PIQLock kk x => same s s' /\ (p' = PIQLock kk x \/ p' = PIDeq kk x \/ p' = PIState kk x)
  | PIDeq kk x => same s s' /\ p' = PIState kk x
  | PIState kk x => same s s' /\ p' = pi_ret_pc kk x
  | WAsleep a => same s s' /\ exists r, p' = WLock2 a r /\ (errof s t <> -1 -> r < 0)
  | _ => same s s'
  end.

Ltac sm := unfold same, same_but, semc, pend, errof; repeat split; intros;
  first [reflexivity | frame t_semcnt | frame t_pend | flds; glsimp; eqbs].

Lemma tstep_flow s t s' : tstep s t = Some s' -> ooo s = false -> noscan (pcof s t) = true ->
  flow s s' t (pcof s t) (pcof s' t).
Proof.
  intros H Ho Hn. destruct (tstep_inv _ _ _ H) as (Ht&_&[[Hsp ->]|(mid&own&p'&E&->&->)]).
  - destruct (pcof s t); try discriminate Hsp; cbn [flow];
      first [solve [sm] | left; split; [reflexivity|sm] | split; [sm|auto]].
  - revert Hn. destruct E; try (progress unfold ret_own; destruct k); try destruct kk; cbn [noscan]; intros Hn; try discriminate Hn;
      cbv zeta; cbn [flow]; zb;
      try (solve [sm]);
      try (solve [split; [sm|eauto 6]]);
      try (solve [left; sm]); try (solve [right; sm]);
      try (solve [split; [sm|left; sm]]); try (solve [split; [sm|right; sm]]);
      try (solve [split; [sm|right; left; sm]]); try (solve [split; [sm|right; right; sm]]).
    + left. unfold pend. destruct (t_pend (getth s t)); sm.
    + split; [sm|]. eexists. split; [reflexivity|lia].
    + split; [sm|]. eexists. split; [reflexivity|]. unfold errof. destruct (Z.eqb_spec (t_err (getth s t)) (-1)); lia.
    + ifs; (split; [sm|auto]).
    + ifs; (split; [sm|auto]).
    + rewrite Ho, orb_true_r in *. discriminate.
Qed.
