From Coq Require Import ZArith List Bool Arith Lia.
From PV Require Import C02.C02_Model C02.C02_Base C02.C02_Cons C02.C02_Locks2 C02.C02_Locks3 C02.C02_Summ C02.C02_Credit C02.C02_Struct.
Import ListNotations.
Local Open Scope Z_scope.

Ltac np := unfold npend; repeat first [ rewrite ssum_modth_keep by (intros; reflexivity) | progress (autorewrite with gth) ]; try reflexivity.

Lemma vstep_summ s v s' : vstep s v = Some s' ->
  (queue s' = queue s \/ exists t, getv s v = VDeq t /\ queue s' = remove_tid t (queue s)) /\
  (forall y, inq s' y = inq s y \/ (getv s v = VDeq y /\ queue s' = remove_tid y (queue s) /\ inq s' y = false)) /\
  (forall y, stof s' y = stof s y \/ getv s v = VReady y) /\
  (forall y, pend s' y = pend s y) /\ (forall y, vcof s' y = vcof s y) /\ (forall y, semc s' y = semc s y) /\
  npend s' = npend s /\
  (forall y, getv s' v = VReady y -> inq s' y = false).
Proof.
  intros H. destruct (vstep_inv _ _ _ H) as (Hv&[[Hsp ->]|(mid&p'&E&->)]).
  - repeat split; auto. intros y E. rewrite E in Hsp. discriminate.
  - rewrite getv_setv_same by (destruct E; exact Hv).
    destruct E; unfold inq, stof, pend, vcof, semc;
      (split; [glsimp; eauto|]);
      (split; [intros y; flds; glsimp; eqbs; try (left; reflexivity)|]);
      (split; [intros y; flds; eqbs; try (left; reflexivity)|]);
      (split; [intros y; flds; eqbs|]);
      (split; [intros y; flds; eqbs|]);
      (split; [intros y; flds; eqbs|]);
      (split; [np|]);
      intros y E; try discriminate E; injection E as <-; flds; eqbs.
    all: try assumption.
    all: try (rewrite getth_oob by lia; reflexivity).
Qed.

Definition start_pc (o : opcall) (p' : pc) (vc : option nat) : Prop :=
  match o with
  | OpWait c _ _ => p' = Idle \/ exists a, p' = WLock1 a /\ w_c a = c /\ c <> 0 /\ vc <> None
  | OpSignal n => p' = Idle \/ p' = SLock n
  | OpInterrupt x e => p' = IRead x e
  end.

Lemma start_summ s t o s' : start s t o = Some s' ->
  (forall y, inq s' y = inq s y) /\ (forall y, stof s' y = stof s y) /\ (forall y, pend s' y = pend s y) /\
  (forall y, vcof s' y = vcof s y) /\ (forall y, semc s' y = semc s y) /\ npend s' = npend s /\
  start_pc o (pcof s' t) (vcof s t).
Proof.
  intros H. destruct (start_inv _ _ _ _ H) as (Ht&_&own&p'&E&->). rewrite pcof_step by exact Ht.
  unfold inq, stof, pend, vcof, semc.
  destruct E;
    (split; [intros y; flds; eqbs|]);
    (split; [intros y; flds; eqbs|]);
    (split; [intros y; flds; eqbs|]);
    (split; [intros y; flds; eqbs|]);
    (split; [intros y; flds; eqbs|]);
    (split; [np|]);
    cbn [start_pc]; auto.
  right. eexists. split; [reflexivity|]. split; [reflexivity|]. split; [lia|assumption].
Qed.

Lemma start_pc_facts o p' vc : start_pc o p' vc ->
  waitpc p' = false /\ enqpc p' = false /\ (forall kk y, p' <> PIState kk y) /\ (forall kk y, p' <> PIQLock kk y) /\
  (forall kk y, p' <> PIDeq kk y) /\ (forall k c x, p' <> TRCmp k c x) /\ (pc_args p' <> None -> vc <> None).
Proof.
  destruct o; cbn [start_pc]; intros H; split_all; subst; cbn [waitpc enqpc pc_args pc_caller];
    repeat split; try congruence; try (intros; discriminate).
Qed.

Lemma sched_summ s s' : sched s s' ->
  (forall y, inq s' y = inq s y) /\ (forall y, stof s' y = stof s y \/ stof s y <> Sleeping) /\
  (forall y, pend s' y = pend s y) /\ (forall y, vcof s' y = vcof s y) /\ (forall y, semc s' y = semc s y) /\
  npend s' = npend s /\ (forall w y, getv s' w = VReady y -> getv s w = VReady y).
Proof.
  intros E. unfold inq, stof, pend, vcof, semc.
  destruct E as [t Ht Hst|t Ht Hst|v t Hv Hi|d];
    (split; [intros y; flds; eqbs|]);
    (split; [intros y; flds; eqbs; right; congruence|]);
    (split; [intros y; flds; eqbs|]);
    (split; [intros y; flds; eqbs|]);
    (split; [intros y; flds; eqbs|]);
    (split; [np|]);
    intros w y; auto.
  rewrite getv_setv. destruct (Nat.eqb v w && Nat.ltb v (nvcpus s)); [discriminate|auto].
Qed.

Lemma sinv_vstep s v s' : sinv s -> vstep s v = Some s' -> sinv s'.
Proof.
  intros I H. destruct (vstep_effect _ _ _ H) as (Hn&Hp&_). destruct (vstep_locks _ _ _ H) as (Hv&Env&Fv&_).
  destruct (vstep_summ _ _ _ H) as (Eq&Ei&Es&Ep&Evc&_&_&Er).
  assert (Hin : forall y, In y (queue s') -> In y (queue s)).
  { intros y Hi. destruct Eq as [E|(t&_&E)]; rewrite E in Hi; [auto|eapply in_remove_tid; eauto]. }
  constructor.
  - destruct Eq as [E|(t&_&E)]; rewrite E; [apply (s_nodup _ I)|apply nodup_remove_tid, (s_nodup _ I)].
  - intros y Hi. pose proof (Hin _ Hi) as Ho. destruct (s_q _ I _ Ho) as (Hy&Hq&Hst&Hw). rewrite Hn, Hp.
    split; [exact Hy|]. split; [|split; [|exact Hw]].
    + destruct (Ei y) as [E|(_&E&_)]; [congruence|]. exfalso. rewrite E in Hi.
      eapply notin_remove_tid; [apply (s_nodup _ I)|exact Hi].
    + destruct (Es y) as [E|E]; [congruence|]. pose proof (s_vr _ I _ _ E). congruence.
  - intros w kk y Hw Hpc. rewrite Hn in Hw. rewrite Hp in Hpc. pose proof (s_pis _ I _ _ _ Hw Hpc).
    destruct (Ei y) as [E|(_&_&E)]; congruence.
  - intros w y Hg. destruct (Nat.eq_dec w v) as [->|N]; [apply Er; exact Hg|].
    rewrite Fv in Hg by auto. pose proof (s_vr _ I _ _ Hg). destruct (Ei y) as [E|(_&_&E)]; congruence.
  - intros y Hpd Hi. rewrite Ep in Hpd. destruct (s_hand _ I _ Hpd (Hin _ Hi)) as (h&k&c&Hh&Hw).
    exists h, k, c. rewrite Hn, !Hp. auto.
  - intros t k c x Ht Hpc Hx. rewrite Hn in *. rewrite Hp in Hpc. rewrite Ep. exact (s_cmp _ I _ _ _ _ Ht Hpc Hx).
  - intros t Ht Hpc. rewrite Hn in Ht. rewrite Hp in Hpc. rewrite Ep. apply (s_enq _ I); auto.
  - intros t Ht Hpc. rewrite Hn in Ht. rewrite Hp in Hpc. rewrite Evc. apply (s_ph _ I); auto.
Qed.

Lemma sinv_start s t o s' : sinv s -> start s t o = Some s' -> sinv s'.
Proof.
  intros I H. destruct (start_effect _ _ _ _ H) as (Ht&Hn&Hi&_&Fr&_&_&Eq&_&Ev&_).
  destruct (start_summ _ _ _ _ H) as (Ei&Es&Ep&Evc&_&_&Hpc').
  apply start_pc_facts in Hpc'. destruct Hpc' as (F1&F2&F3&F4&F5&F6&F7).
  constructor.
  - rewrite Eq. apply (s_nodup _ I).
  - intros y Hy. rewrite Eq in Hy. destruct (s_q _ I _ Hy) as (Hy'&Hq&Hst&Hw). rewrite Hn, Ei, Es.
    repeat split; auto. rewrite Fr; auto. intros ->. rewrite Hi in Hw. discriminate.
  - intros w kk y Hw Hpc. rewrite Hn in Hw. rewrite Ei. destruct (Nat.eq_dec w t) as [->|N]; [exfalso; eapply F3; eauto|].
    rewrite Fr in Hpc by auto. exact (s_pis _ I _ _ _ Hw Hpc).
  - intros w y Hg. rewrite (getv_of_vcpus _ _ _ Ev) in Hg. rewrite Ei. eapply (s_vr _ I); eauto.
  - intros y Hpd Hy. rewrite Ep in Hpd. rewrite Eq in Hy. destruct (s_hand _ I _ Hpd Hy) as (h&k&c&Hh&Hw).
    exists h, k, c. rewrite Hn. split; [exact Hh|]. rewrite Fr; [exact Hw|]. intros ->. rewrite Hi in Hw. destruct Hw; discriminate.
  - intros t0 k c x Ht0 Hpc Hx. rewrite Hn in *. rewrite Ep. destruct (Nat.eq_dec t0 t) as [->|N]; [exfalso; eapply F6; eauto|].
    rewrite Fr in Hpc by auto. exact (s_cmp _ I _ _ _ _ Ht0 Hpc Hx).
  - intros t0 Ht0 Hpc. rewrite Hn in *. rewrite Ep. destruct (Nat.eq_dec t0 t) as [->|N]; [congruence|].
    rewrite Fr in Hpc by auto. exact (s_enq _ I _ Ht0 Hpc).
  - intros t0 Ht0 Hpc. rewrite Hn in *. rewrite Evc. destruct (Nat.eq_dec t0 t) as [->|N]; [auto|].
    rewrite Fr in Hpc by auto. exact (s_ph _ I _ Ht0 Hpc).
Qed.

Lemma sinv_sched s s' : sinv s -> sched s s' -> sinv s'.
Proof.
  intros I H. destruct (sched_effect _ _ H) as ((Hn&Hp&_)&_&Eq).
  destruct (sched_summ _ _ H) as (Ei&Es&Ep&Evc&_&_&Ev).
  constructor.
  - rewrite Eq. apply (s_nodup _ I).
  - intros y Hy. rewrite Eq in Hy. destruct (s_q _ I _ Hy) as (Hy'&Hq&Hst&Hw). rewrite Hn, Ei, Hp.
    repeat split; auto. destruct (Es y) as [E|E]; congruence.
  - intros w kk y Hw Hpc. rewrite Hn in Hw. rewrite Hp in Hpc. rewrite Ei. exact (s_pis _ I _ _ _ Hw Hpc).
  - intros w y Hg. rewrite Ei. eapply (s_vr _ I); eauto.
  - intros y Hpd Hy. rewrite Ep in Hpd. rewrite Eq in Hy. destruct (s_hand _ I _ Hpd Hy) as (h&k&c&Hh&Hw).
    exists h, k, c. rewrite Hn, !Hp. auto.
  - intros t0 k c x Ht0 Hpc Hx. rewrite Hn in *. rewrite Hp in Hpc. rewrite Ep. exact (s_cmp _ I _ _ _ _ Ht0 Hpc Hx).
  - intros t0 Ht0 Hpc. rewrite Hn in *. rewrite Hp in Hpc. rewrite Ep. exact (s_enq _ I _ Ht0 Hpc).
  - intros t0 Ht0 Hpc. rewrite Hn in *. rewrite Hp in Hpc. rewrite Evc. exact (s_ph _ I _ Ht0 Hpc).
Qed.

Lemma sinv_step s l s' : sinv s -> sp_inv s -> locks_inv s -> step s l = Some s' -> sinv s'.
Proof.
  intros I Isp Il H. destruct (step_cases _ _ _ H) as [(t&o&_&H1)|[(t&_&H1)|[(v&_&H1)|H1]]].
  - eapply sinv_start; eauto.
  - eapply sinv_tstep; eauto.
  - eapply sinv_vstep; eauto.
  - eapply sinv_sched; eauto.
Qed.

Lemma sinv_init c o ths nv : sinv (init c o ths nv).
Proof.
  constructor.
  - constructor.
  - intros y [].
  - intros w kk y _ Hp. rewrite init_pcof in Hp. discriminate.
  - intros v y Hg. rewrite init_getv in Hg. discriminate.
  - intros y _ [].
  - intros t k c0 x _ Hp. rewrite init_pcof in Hp. discriminate.
  - intros t _ Hp. rewrite init_pcof in Hp. discriminate.
  - intros t _ Hp. rewrite init_pcof in Hp. exfalso. apply Hp. reflexivity.
Qed.

