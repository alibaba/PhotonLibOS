(* C01_Mcs.v — mcs_excl: exclusion of photon::qspinlock for any number of OS threads, every
   interleaving.  Invariant: the chain-from-tail invariant over the ghost list q_chain (participants
   that have put their holder into _owner_tail and not yet released, oldest first); it is preserved
   transition by transition (the lemmas step_QXg ... step_QUcas), through two frame lemmas: `chain_keep` (the chain and the
   tail stay) and `head_keep` (the head moves and touches only its own record and `next` cell). *)
From Coq Require Import ZArith List.
From PV Require Import Base.U64 E3.E3_Run C01.C01_Tac C01.C01_Spin_Model C01.C01_Spin_Proofs.
Import ListNotations.

Inductive qsl_reach (scr : nat -> list sop) : qsl -> Prop :=
| qr_init : qsl_reach scr (qsl_init scr)
| qr_step s p fl : qsl_reach scr s -> qsl_reach scr (fst (qsl_step s p fl)).

Definition pcq (s : qsl) (p : nat) : option qpc := t_pc (q_th s p).
Definition insq (s : qsl) (p : nat) : bool := t_ins (q_th s p).

(* a -> b are consecutive in the chain *)
Definition link (s : qsl) (a b : nat) : Prop :=
  (q_next s a = Some b /\ pcq s b = Some QSpin) \/
  (q_next s a = None /\ (pcq s b = Some (QStGot a) \/ pcq s b = Some (QStNext a))) \/
  (q_next s a = None /\ pcq s a = Some (QUstGot b) /\ pcq s b = Some QSpin).
(* b is queued behind somebody *)
Definition waiter_ok (s : qsl) (b : nat) : Prop :=
  insq s b = false /\ (pcq s b = Some QSpin -> q_got s b = false) /\
  (forall o, pcq s b = Some (QStNext o) -> q_got s b = false).
Fixpoint links (s : qsl) (a : nat) (l : list nat) : Prop :=
  match l with
  | [] => q_next s a = None
  | b :: r => link s a b /\ waiter_ok s b /\ links s b r
  end.
Definition head_ok (s : qsl) (h : nat) (r : list nat) : Prop :=
  match pcq s h with
  | None | Some QUld => insq s h = true
  | Some QUld2 | Some QUcas => insq s h = false
  | Some (QUstNext x) => insq s h = false /\ hd_error r = Some x /\ q_next s h = Some x
  | Some (QUstGot x) => insq s h = false /\ hd_error r = Some x /\ q_next s h = None /\ pcq s x = Some QSpin
  | Some QSpin => insq s h = false /\ q_got s h = true
  | _ => False
  end.
Definition out_ok (s : qsl) (p : nat) : Prop :=
  q_next s p = None /\ insq s p = false /\
  (pcq s p = None \/ pcq s p = Some QXg \/ pcq s p = Some QTry).
Definition chain_ok (s : qsl) : Prop :=
  match q_chain s with
  | [] => q_tail s = None
  | h :: r => head_ok s h r /\ links s h r /\ q_tail s = Some (last r h)
  end.
Definition qsl_inv (s : qsl) : Prop :=
  chain_ok s /\ NoDup (q_chain s) /\ forall p, ~ In p (q_chain s) -> out_ok s p.

(* frame: links / waiter_ok only look at the members *)
Definition same_at (s s' : qsl) (p : nat) : Prop :=
  q_next s' p = q_next s p /\ q_got s' p = q_got s p /\ q_th s' p = q_th s p.
Lemma link_frame s s' a b : same_at s s' a -> same_at s s' b -> link s a b -> link s' a b.
Proof.
  unfold link, pcq. intros (A1 & A2 & A3) (B1 & B2 & B3). rewrite A1, A3, B3. tauto.
Qed.
Lemma waiter_frame s s' b : same_at s s' b -> waiter_ok s b -> waiter_ok s' b.
Proof. unfold waiter_ok, pcq, insq. intros (B1 & B2 & B3). rewrite B2, B3. tauto. Qed.
Lemma links_frame s s' l : forall a, (forall x, In x (a :: l) -> same_at s s' x) -> links s a l -> links s' a l.
Proof.
  induction l as [|b r IH]; intros a H; cbn.
  - destruct (H a (or_introl eq_refl)) as (A1 & _). now rewrite A1.
  - intros (L & W & R). split; [|split].
    + apply (link_frame s); auto; apply H; cbn; auto.
    + apply (waiter_frame s); auto; apply H; cbn; auto.
    + apply IH; auto. intros x Hx. apply H. now right.
Qed.

(* a step that rewrites only p's record leaves every other participant as it was *)
Lemma same_at_th s p t' tl ch x :
  x <> p -> same_at s (mkQsl tl (q_next s) (q_got s) (updn (q_th s) p t') ch) x.
Proof. intros H. unfold same_at. cbn. rewrite updn_neq by exact H. auto. Qed.

Lemma last_indep (l : list nat) x a b : last (x :: l) a = last (x :: l) b.
Proof. revert x. induction l as [|y l IH]; intros x; cbn; [reflexivity|]. apply IH. Qed.
Lemma last_cons (r : list nat) h d : last (h :: r) d = last r h.
Proof. destruct r as [|n r]; [reflexivity|]. change (last (n :: r) d = last (n :: r) h). apply last_indep. Qed.
Lemma last_In (b : nat) r d : In (last (b :: r) d) (b :: r).
Proof. revert b. induction r as [|c r IH]; intros b; cbn; [auto|]. right. apply IH. Qed.
Lemma links_last s l : forall a, links s a l -> q_next s (last l a) = None.
Proof. induction l as [|b r IH]; intros a; cbn; [auto|]. intros (_ & _ & R). destruct r; [exact R|]. apply IH in R. rewrite (last_indep _ _ a b). exact R. Qed.
(* members behind the head are waiters *)
Lemma links_member s l : forall a x, links s a l -> In x l ->
  waiter_ok s x /\ (pcq s x = Some QSpin \/ exists o, pcq s x = Some (QStGot o) \/ pcq s x = Some (QStNext o)).
Proof.
  induction l as [|b r IH]; intros a x; cbn; [tauto|]. intros (L & W & R) [<-|Hx].
  - split; [exact W|]. destruct L as [[_ H]|[[_ [H|H]]|[_ [_ H]]]]; eauto.
  - eapply IH; eauto.
Qed.
Lemma links_snoc s l : forall a p, links s a l -> link s (last l a) p -> waiter_ok s p -> q_next s p = None ->
  links s a (l ++ [p]).
Proof.
  induction l as [|b r IH]; intros a p; cbn.
  - auto.
  - intros (L & W & R) Hl Hw Hn. split; [exact L|split; [exact W|]]. apply IH; auto.
    destruct r; [exact Hl|]. rewrite (last_indep _ _ b a). exact Hl.
Qed.
Lemma last_nodup_single (h : nat) r : NoDup (h :: r) -> last r h = h -> r = [].
Proof.
  intros Hn Hl. destruct r as [|b r]; [reflexivity|]. exfalso.
  inversion Hn as [|? ? Hh _]; subst. apply Hh.
  rewrite <- Hl. apply last_In.
Qed.
Lemma last_app_single (l : list nat) p a : last (l ++ [p]) a = p.
Proof. induction l as [|b r IH]; cbn; [reflexivity|]. destruct (r ++ [p]) eqn:E; [destruct r; discriminate|]. exact IH. Qed.

Lemma qdone_ok t i :
  t_ins (thr_done qentry t i) = i /\
  (t_pc (thr_done qentry t i) = None \/ (i = true /\ t_pc (thr_done qentry t i) = Some QUld)
   \/ (i = false /\ (t_pc (thr_done qentry t i) = Some QXg \/ t_pc (thr_done qentry t i) = Some QTry))).
Proof.
  destruct (done_spec qentry t i) as [A [B|(o & B & Ho)]]; split; auto. right. rewrite B.
  destruct o, i; cbn; intuition congruence.
Qed.

Lemma qsl_inv_init scr : qsl_inv (qsl_init scr).
Proof.
  unfold qsl_inv, chain_ok. cbn [qsl_init q_chain q_tail]. split; [reflexivity|]. split; [constructor|].
  intros p _. unfold out_ok, pcq, insq, qsl_init. cbn [q_next q_th]. rewrite thr_init_done.
  destruct (qdone_ok (mkThr None (scr p) false) false) as [A [B|[[C _]|[_ B]]]]; try discriminate C; auto.
Qed.

(* where a participant is, given its program point *)
Lemma where_is s p : qsl_inv s ->
  (~ In p (q_chain s) /\ out_ok s p) \/
  (exists r, q_chain s = p :: r /\ head_ok s p r /\ links s p r) \/
  (exists h r, q_chain s = h :: r /\ p <> h /\ In p r /\ waiter_ok s p /\
      (pcq s p = Some QSpin \/ exists o, pcq s p = Some (QStGot o) \/ pcq s p = Some (QStNext o))).
Proof.
  intros (HC & HN & HO). destruct (in_dec Nat.eq_dec p (q_chain s)) as [Hin|Hin]; [|left; auto].
  right. unfold chain_ok in HC. destruct (q_chain s) as [|h r] eqn:E; [destruct Hin|].
  destruct HC as (Hh & Hl & Ht). destruct (Nat.eq_dec p h) as [->|Hne]; [left; eauto|].
  right. destruct Hin as [->|Hin]; [congruence|]. exists h, r.
  destruct (links_member s r h p Hl Hin) as (W & P).
  split; [reflexivity|]. split; [exact Hne|]. split; [exact Hin|]. split; [exact W|exact P].
Qed.

Ltac lk :=
  unfold link, waiter_ok, head_ok, out_ok, pcq, insq in *;
  cbn [q_next q_got q_th q_tail q_chain t_pc t_ins t_scr thr_goto thr_goto_ins] in *;
  unfold updn in *; tz;
  cbn [q_next q_got q_th q_tail q_chain t_pc t_ins t_scr thr_goto thr_goto_ins] in *.
Ltac qd t i :=
  let H1 := fresh "Hd" in let H2 := fresh "Hd" in
  destruct (qdone_ok t i) as [H1 H2].

Ltac pcs Epc :=
  repeat match goal with
  | H : pcq _ _ = _ |- _ => unfold pcq in H; rewrite Epc in H
  | H : _ \/ _ |- _ => destruct H
  | H : exists _, _ |- _ => destruct H
  | H : Some _ = Some _ |- _ => first [discriminate H | injection H as H; subst]
  | H : Some _ = None |- _ => discriminate H
  | H : None = Some _ |- _ => discriminate H
  end.

(* generic solver for goals about link / waiter_ok / head_ok / out_ok after a step of p *)
Ltac rwE := try match goal with E : t_pc (q_th _ _) = Some _ |- _ => rewrite E in * end.
Ltac dpc :=
  repeat match goal with
  | |- context [match t_pc (q_th ?s ?h) with _ => _ end] => destruct (t_pc (q_th s h)) as [[]|] eqn:?
  end.
Ltac rwD := try match goal with E : t_pc (thr_done qentry _ _) = _ |- _ => rewrite E in * end;
            try match goal with E : t_ins (thr_done qentry _ _) = _ |- _ => rewrite E in * end.
Ltac solve_lk := lk; rwE; rwD; try solve [assumption | congruence | intuition (eauto; try congruence)];
                 try solve [dpc; lk; rwE; rwD; intuition (eauto; try congruence)].

(* x immediately followed by y in l *)
Fixpoint adj (x y : nat) (l : list nat) : Prop :=
  match l with
  | a :: r => (match r with b :: _ => x = a /\ y = b | [] => False end) \/ adj x y r
  | [] => False
  end.
Lemma adj_in x y l : adj x y l -> In x l /\ In y l.
Proof.
  induction l as [|a r IH]; cbn; [tauto|]. intros [H|H].
  - destruct r as [|b r']; [tauto|]. destruct H as [-> ->]. cbn. auto.
  - destruct (IH H). auto.
Qed.
Lemma adj_in_tl x y a l : adj x y (a :: l) -> In y l.
Proof.
  revert a. induction l as [|b r IH]; intros a H; [destruct H as [[]|[]]|].
  change ((x = a /\ y = b) \/ adj x y (b :: r)) in H. destruct H as [[_ ->]|H]; [now left|right; exact (IH b H)].
Qed.
Lemma adj_head x h r : NoDup (h :: r) -> ~ adj x h (h :: r).
Proof.
  intros Hn H. inversion Hn as [|? ? Hh _]; subst. exact (Hh (adj_in_tl _ _ _ _ H)).
Qed.
Lemma adj_uniq x y y' l : NoDup l -> adj x y l -> adj x y' l -> y = y'.
Proof.
  induction l as [|a r IH]; cbn; [tauto|]. intros Hn H1 H2. inversion Hn as [|? ? Ha Hr]; subst.
  destruct H1 as [H1|H1], H2 as [H2|H2].
  - destruct r; [tauto|]. destruct H1 as [_ ->], H2 as [_ ->]. reflexivity.
  - destruct r; [tauto|]. destruct H1 as [-> _]. apply adj_in in H2. tauto.
  - destruct r; [tauto|]. destruct H2 as [-> _]. apply adj_in in H1. tauto.
  - auto.
Qed.
Lemma adj_pred_uniq a a' y l : NoDup l -> adj a y l -> adj a' y l -> a = a'.
Proof.
  induction l as [|c r IH]; cbn; [tauto|]. intros Hn H1 H2. inversion Hn as [|? ? Ha Hr]; subst.
  destruct H1 as [H1|H1], H2 as [H2|H2].
  - destruct r; [tauto|]. destruct H1 as [-> _], H2 as [-> _]. reflexivity.
  - destruct r as [|b r']; [tauto|]. destruct H1 as [-> ->]. destruct (adj_head _ _ _ Hr H2).
  - destruct r as [|b r']; [tauto|]. destruct H2 as [-> ->]. destruct (adj_head _ _ _ Hr H1).
  - auto.
Qed.
Lemma adj_pred p l : forall h, In p l -> exists a, adj a p (h :: l).
Proof.
  induction l as [|b r IH]; intros h; cbn; [tauto|]. intros [->|H].
  - exists h. left. auto.
  - destruct (IH b H) as (a & Ha). exists a. right. exact Ha.
Qed.
Lemma adj_not_last x y l d : NoDup l -> adj x y l -> last l d <> x.
Proof.
  induction l as [|a r IH]; cbn; [tauto|]. intros Hn H. inversion Hn as [|? ? Ha Hr]; subst.
  destruct r as [|b r'].
  - destruct H as [[]|[]].
  - destruct H as [[-> ->]|H].
    + intros E. apply Ha. rewrite <- E. apply last_In.
    + apply IH; auto.
Qed.
Lemma links_adj s l : forall a x y, links s a l -> adj x y (a :: l) -> link s x y.
Proof.
  induction l as [|b r IH]; intros a x y; cbn.
  - tauto.
  - intros (L & W & R) [[-> ->]|H]; [exact L|]. eapply IH; eauto.
Qed.
Lemma links_mono_adj s s' l : forall a,
  (forall x y, adj x y (a :: l) -> link s x y -> link s' x y) ->
  (forall y, In y l -> waiter_ok s y -> waiter_ok s' y) ->
  (q_next s (last l a) = None -> q_next s' (last l a) = None) ->
  links s a l -> links s' a l.
Proof.
  induction l as [|b r IH]; intros a HL HW HN; cbn in *; [auto|].
  intros (L & W & R). split; [apply HL; auto|]. split; [apply HW; auto|].
  apply IH; [ | | | exact R].
  - intros x y Hxy. apply HL. right. exact Hxy.
  - intros y Hy. apply HW. right. exact Hy.
  - intros H. destruct r; [apply HN; exact H|]. rewrite (last_indep _ _ b a) in *. apply HN. exact H.
Qed.

Lemma links_mono s s' l : forall a,
  (forall x y, In x (a :: l) -> In y l -> link s x y -> link s' x y) ->
  (forall y, In y l -> waiter_ok s y -> waiter_ok s' y) ->
  (q_next s (last l a) = None -> q_next s' (last l a) = None) ->
  links s a l -> links s' a l.
Proof.
  intros a HL HW. apply links_mono_adj; [|exact HW].
  intros x y H. apply HL; [exact (proj1 (adj_in _ _ _ H)) | exact (adj_in_tl _ _ _ _ H)].
Qed.

Lemma chain_keep s s' :
  q_chain s' = q_chain s -> q_tail s' = q_tail s ->
  (forall h r, q_chain s = h :: r -> head_ok s h r -> head_ok s' h r) ->
  (forall x y, adj x y (q_chain s) -> link s x y -> link s' x y) ->
  (forall y h r, q_chain s = h :: r -> In y r -> waiter_ok s y -> waiter_ok s' y) ->
  (forall h r, q_chain s = h :: r -> q_next s (last r h) = None -> q_next s' (last r h) = None) ->
  (forall x, ~ In x (q_chain s) -> out_ok s x -> out_ok s' x) ->
  qsl_inv s -> qsl_inv s'.
Proof.
  intros Ec Et Hh Hl Hw Hn Ho (HC & HN & HO). unfold qsl_inv, chain_ok in *. rewrite Ec, Et.
  split; [|split; [exact HN|intros x Hx; apply Ho; auto]].
  destruct (q_chain s) as [|h r] eqn:E; [exact HC|].
  destruct HC as (A & B & C). split; [eapply Hh; eauto|]. split; [|exact C].
  apply (links_mono_adj s);
    [ intros x y Hxy L; apply Hl; auto | intros y Hy W; eapply Hw; eauto | intros H; eapply Hn; eauto | exact B ].
Qed.

Lemma links_frame_head s s' l : forall a,
  q_next s' a = q_next s a -> q_th s' a = q_th s a ->
  (forall x, In x l -> same_at s s' x) -> links s a l -> links s' a l.
Proof.
  intros a Hn Ht Hs. destruct l as [|b r]; cbn.
  - now rewrite Hn.
  - intros (L & W & R). split; [|split].
    + unfold link, pcq in *. destruct (Hs b (or_introl eq_refl)) as (B1 & B2 & B3). rewrite Hn, Ht, B3. exact L.
    + apply (waiter_frame s); auto. apply Hs. now left.
    + apply (links_frame s); auto.
Qed.

Ltac keep s HI0 :=
  apply (chain_keep s); [reflexivity|cbn [q_tail]; try reflexivity; try (symmetry; assumption)| intros h r Ec Hh | intros x y Hxy L | intros y h r Ec Hy W
                        | intros h r Ec Hn' | intros x Hx Ho | exact HI0].
Ltac outcase Epc := exfalso; pcs Epc.
Ltac headcase Epc Hh0 := exfalso; unfold head_ok, pcq in Hh0; rewrite Epc in Hh0; try exact Hh0; try tauto.

Lemma out_frame s s' x : same_at s s' x -> out_ok s x -> out_ok s' x.
Proof. unfold out_ok, pcq, insq. intros (A & _ & C). rewrite A, C. tauto. Qed.

(* the head p moves: nothing but its own record and its own `next` cell changes *)
Lemma head_keep s s' p r0 :
  qsl_inv s -> q_chain s = p :: r0 -> q_chain s' = q_chain s -> q_tail s' = q_tail s ->
  (forall x, x <> p -> same_at s s' x) ->
  head_ok s' p r0 ->
  (forall y, y <> p -> hd_error r0 = Some y -> link s p y -> link s' p y) ->
  (q_next s p = None -> q_next s' p = None) ->
  qsl_inv s'.
Proof.
  intros HI Ec0 Ec Et Hs Hh Hl Hn. pose proof HI as (_ & HN & _). rewrite Ec0 in HN.
  inversion HN as [|? ? Hp0 HN0]; subst.
  apply (chain_keep s); auto.
  - intros h r E _. rewrite Ec0 in E. injection E as <- <-. exact Hh.
  - intros x y Hxy L. rewrite Ec0 in Hxy.
    assert (y <> p) by (intros ->; eapply adj_head; eauto).
    destruct (Nat.eq_dec x p) as [->|Hx].
    + apply Hl; auto. destruct r0 as [|b r']; [cbn in Hxy; tauto|].
      destruct Hxy as [[_ ->]|Hxy]; [reflexivity|]. apply adj_in in Hxy. tauto.
    + apply (link_frame s); auto.
  - intros y h r E Hy. rewrite Ec0 in E. injection E as <- <-. apply waiter_frame, Hs. intros ->. tauto.
  - intros h r E. rewrite Ec0 in E. injection E as <- <-. destruct r0 as [|b r']; [exact Hn|].
    destruct (Hs (last (b :: r') p)) as (A & _); [|now rewrite A].
    intros E. apply Hp0. rewrite <- E. apply last_In.
  - intros x Hx. apply out_frame, Hs. intros ->. apply Hx. rewrite Ec0. now left.
Qed.

Lemma enter_empty s p : qsl_inv s -> q_chain s = [] ->
  qsl_inv (mkQsl (Some p) (q_next s) (q_got s) (updn (q_th s) p (thr_done qentry (q_th s p) true)) [p]).
Proof.
  intros (HC & HN & HO) Ech. rewrite Ech in HO. destruct (HO p) as (On & _); [tauto|].
  unfold qsl_inv, chain_ok. cbn [q_chain q_tail q_next q_got q_th].
  qd (q_th s p) true. split; [|split].
  - split; [|split; [|reflexivity]].
    + unfold head_ok, pcq, insq. cbn [q_th]. rewrite updn_eq.
      destruct Hd0 as [E|[[_ E]|[E _]]]; [rewrite E|rewrite E|discriminate]; exact Hd.
    + cbn. exact On.
  - constructor; [tauto|constructor].
  - intros x Hx. assert (x <> p) by (intros ->; apply Hx; now left).
    specialize (HO x (fun H => H)). unfold out_ok, pcq, insq in *. cbn [q_next q_th]. rewrite updn_neq by auto. exact HO.
Qed.

Lemma step_QXg s p fl : qsl_inv s -> t_pc (q_th s p) = Some QXg ->
  qsl_inv (fst (qsl_step s p fl)).
Proof.
  intros HI Epc. pose proof (where_is s p HI) as HW. pose proof HI as HI0. destruct HI as (HC & HN & HO).
  unfold qsl_step. rewrite Epc. cbn [fst].
  destruct HW as [[Hout (On & Oi & Op)]|[(r & Ec & Hh & Hl)|(h & r & Ec & Hne & Hin & W & P)]].
  2:{ headcase Epc Hh. }
  2:{ outcase Epc. }
  destruct (q_chain s) as [|h r] eqn:Ec.
  + unfold chain_ok in HC. rewrite Ec in HC. rewrite HC. apply enter_empty; auto.
  + unfold qsl_inv, chain_ok in *. rewrite Ec in HC. cbn [q_chain q_tail q_next q_got q_th].
    destruct HC as (Hh & Hl & Ht). rewrite Ht. split; [|split].
    * change ((h :: r) ++ [p]) with (h :: (r ++ [p])). split; [|split].
      -- assert (h <> p) by (intros ->; apply Hout; now left).
         unfold head_ok, pcq, insq in *. cbn [q_th q_next q_got]. rewrite updn_neq by auto.
         destruct (t_pc (q_th s h)) as [[]|]; auto.
         ++ destruct Hh as (A & B & C). repeat split; auto. destruct r; cbn in *; auto; discriminate.
         ++ destruct Hh as (A & B & C & D). assert (n <> p) by (intros ->; apply Hout; right; apply hd_In; exact B).
            rewrite updn_neq by auto. repeat split; auto. destruct r; cbn in *; auto; discriminate.
      -- apply links_snoc.
         ++ apply (links_frame s); auto. intros x Hx. apply same_at_th. intros ->. apply Hout. exact Hx.
         ++ unfold link, pcq. cbn [q_next q_th]. rewrite updn_eq. right; left. split; [apply (links_last s r h Hl)|].
            left. reflexivity.
         ++ unfold waiter_ok, pcq, insq. cbn [q_th q_got]. rewrite updn_eq. cbn. repeat split; auto; intros; discriminate.
         ++ cbn. exact On.
      -- f_equal. rewrite last_app_single. reflexivity.
    * apply NoDup_snoc; auto.
    * intros x Hx. assert (x <> p) by (intros ->; apply Hx; apply in_or_app; right; now left).
      assert (~ In x (h :: r)) by (intros H1; apply Hx; apply in_or_app; now left).
      specialize (HO x H0). unfold out_ok, pcq, insq in *. cbn [q_next q_th]. rewrite updn_neq by auto. exact HO.
Qed.

Lemma step_QStGot s p fl o : qsl_inv s -> t_pc (q_th s p) = Some (QStGot o) ->
  qsl_inv (fst (qsl_step s p fl)).
Proof.
  intros HI Epc. pose proof (where_is s p HI) as HW. pose proof HI as HI0. destruct HI as (HC & HN & HO).
  unfold qsl_step. rewrite Epc. cbn [fst].
  keep s HI0.
  all: destruct HW as [[Hout (On & Oi & Op)]|[(r0 & Ec0 & Hh0 & Hl0)|(h0 & r0 & Ec0 & Hne & Hin & W0 & P0)]].
  all: clear HC HN HO HI0; solve_lk.
Qed.

Lemma step_QStNext s p fl o : qsl_inv s -> t_pc (q_th s p) = Some (QStNext o) ->
  qsl_inv (fst (qsl_step s p fl)).
Proof.
  intros HI Epc. pose proof (where_is s p HI) as HW. pose proof HI as HI0. destruct HI as (HC & HN & HO).
  unfold qsl_step. rewrite Epc. cbn [fst].
  destruct HW as [[Hout (On & Oi & Op)]|[(r0 & Ec0 & Hh0 & Hl0)|(h0 & r0 & Ec0 & Hne & Hin & W0 & P0)]].
  1:{ outcase Epc. }
  1:{ headcase Epc Hh0. }
  assert (HCl : links s h0 r0) by (unfold chain_ok in HC; rewrite Ec0 in HC; tauto).
  destruct (adj_pred p r0 h0 Hin) as (a & Ha).
  pose proof (links_adj s r0 h0 a p HCl Ha) as La.
  assert (a = o /\ q_next s o = None) as [-> Hno].
  { unfold link, pcq in La. rewrite Epc in La. destruct La as [[_ E]|[[E1 [E|E]]|[_ [_ E]]]]; try discriminate; injection E as <-; auto. }
  rewrite <- Ec0 in Ha. pose proof (adj_in _ _ _ Ha) as [Hino Hinp].
  keep s HI0.
  + destruct (Nat.eq_dec h o) as [->|Hho]; [|clear - Hh Hho Hne Epc Hinp Ec; solve_lk].
    assert (Hsucc : forall x, hd_error r = Some x -> x = p).
    { intros x Hx. destruct r as [|b r']; [discriminate|]. injection Hx as ->.
      eapply adj_uniq; [exact HN| |exact Ha]. rewrite Ec. left. auto. }
    lk; rwE.
    all: dpc; lk; rwE; try solve [assumption | congruence | intuition (eauto; try congruence)].
    all: try tauto.
    all: try (destruct Hh as (A1 & A2 & A3); congruence).
    all: try (destruct Hh as (A1 & A2 & A3 & A4); pose proof (Hsucc _ A2); subst; congruence).
  + destruct (Nat.eq_dec x o) as [->|Hxo].
    * assert (y = p) by (eapply adj_uniq; [exact HN|exact Hxy|exact Ha]). subst. clear - L Epc Hno. solve_lk.
    * destruct (Nat.eq_dec y p) as [->|Hyp]; [exfalso; apply Hxo; eapply adj_pred_uniq; [exact HN|exact Hxy|exact Ha]|].
      clear - L Hxo Hyp Epc. solve_lk.
  + clear - W Epc. solve_lk.
  + cbn [q_next]. unfold updn. destruct (Nat.eqb_spec (last r h) o) as [E|E]; [|exact Hn'].
    exfalso. rewrite Ec in *. apply (adj_not_last o p (h :: r) h HN Ha). rewrite last_cons. exact E.
  + assert (x <> o) by (intros ->; tauto). clear - Ho H Epc. solve_lk.
Qed.

Lemma step_QSpin s p fl : qsl_inv s -> t_pc (q_th s p) = Some QSpin ->
  qsl_inv (fst (qsl_step s p fl)).
Proof.
  intros HI Epc. pose proof (where_is s p HI) as HW. pose proof HI as HI0. destruct HI as (HC & HN & HO).
  unfold qsl_step. rewrite Epc. cbn [fst].
  destruct HW as [[Hout (On & Oi & Op)]|[(r0 & Ec0 & Hh0 & Hl0)|(h0 & r0 & Ec0 & Hne & Hin & W0 & P0)]].
  + outcase Epc.
  + (* head: granted *)
    unfold head_ok, pcq in Hh0. rewrite Epc in Hh0. destruct Hh0 as [Hi Hg]. rewrite Hg.
    qd (q_th s p) true. apply (head_keep s _ p r0); auto.
    * intros x. apply same_at_th.
    * destruct Hd0 as [E|[[_ E]|[E0 _]]]; try discriminate; solve_lk.
    * intros y Hy _ L. solve_lk.
  + (* waiter: got = false *)
    assert (Hg : q_got s p = false).
    { destruct W0 as (_ & Hg & _). apply Hg. unfold pcq. exact Epc. }
    rewrite Hg. keep s HI0; clear HC HN HO HI0; solve_lk.
Qed.

Lemma outside_move s p t' : qsl_inv s -> ~ In p (q_chain s) ->
  t_ins t' = false -> (t_pc t' = None \/ t_pc t' = Some QXg \/ t_pc t' = Some QTry) ->
  qsl_inv (mkQsl (q_tail s) (q_next s) (q_got s) (updn (q_th s) p t') (q_chain s)).
Proof.
  intros HI Hout Hi Hp. keep s HI.
  - assert (h <> p) by (intros ->; apply Hout; rewrite Ec; now left).
    assert (forall x, hd_error r = Some x -> x <> p)
      by (intros x Hx ->; apply Hout; rewrite Ec; right; apply hd_In; exact Hx).
    unfold head_ok, pcq, insq in *. cbn [q_th q_next q_got]. rewrite updn_neq by auto.
    destruct (t_pc (q_th s h)) as [[]|]; auto.
    destruct Hh as (A & B & C & D). rewrite updn_neq by auto. auto.
  - destruct (adj_in _ _ _ Hxy). apply (link_frame s); auto; apply same_at_th; congruence.
  - apply (waiter_frame s); auto. apply same_at_th. intros ->. apply Hout. rewrite Ec. now right.
  - exact Hn'.
  - destruct Ho as (A & B & C). unfold out_ok, pcq, insq in *. cbn [q_next q_th]. unfold updn.
    destruct (Nat.eqb x p); auto.
Qed.

Lemma step_QTry s p fl : qsl_inv s -> t_pc (q_th s p) = Some QTry ->
  qsl_inv (fst (qsl_step s p fl)).
Proof.
  intros HI Epc. pose proof (where_is s p HI) as HW. pose proof HI as HI0. destruct HI as (HC & HN & HO).
  unfold qsl_step. rewrite Epc. cbn [fst].
  destruct HW as [[Hout (On & Oi & Op)]|[(r0 & Ec0 & Hh0 & Hl0)|(h0 & r0 & Ec0 & Hne & Hin & W0 & P0)]].
  2:{ headcase Epc Hh0. }
  2:{ outcase Epc. }
  destruct (q_tail s) as [o|] eqn:Et; cbn [fst].
  + rewrite <- Et. destruct (qdone_ok (q_th s p) false) as [Hd [Hd0|[[Hd0 _]|[_ Hd0]]]]; try discriminate;
      apply outside_move; auto.
  + assert (Ech : q_chain s = []).
    { unfold chain_ok in HC. destruct (q_chain s); [reflexivity|]. destruct HC as (_ & _ & E). congruence. }
    rewrite Ech. apply enter_empty; auto.
Qed.

(* unlock()'s load of h->next by the head p (first time, or again after the failed CAS) *)
Lemma load_next s p r0 : qsl_inv s -> q_chain s = p :: r0 -> links s p r0 ->
  pcq s p = Some QUld \/ pcq s p = Some QUld2 ->
  qsl_inv (mkQsl (q_tail s) (q_next s) (q_got s)
             (updn (q_th s) p (thr_goto_ins (q_th s p) (match q_next s p with Some x => QUstNext x | None => QUcas end) false))
             (q_chain s)).
Proof.
  intros HI Ec0 Hl0 Hpc. destruct (q_next s p) as [nx|] eqn:En; apply (head_keep s _ p r0); auto.
  all: try (intros x; apply same_at_th).
  all: try (intros y Hy _ L; solve_lk).
  all: destruct r0 as [|b r']; cbn in Hl0; [solve_lk|]; destruct Hl0 as (L & _); solve_lk; cbn [hd_error]; intuition congruence.
Qed.
Lemma step_QUld s p fl c : qsl_inv s -> t_pc (q_th s p) = Some c -> c = QUld \/ c = QUld2 ->
  qsl_inv (fst (qsl_step s p fl)).
Proof.
  intros HI Epc [-> | ->]; unfold qsl_step; rewrite Epc; cbn [fst];
    (destruct (where_is s p HI) as [[Hout (On & Oi & Op)]|[(r0 & Ec0 & Hh0 & Hl0)|(h0 & r0 & Ec0 & Hne & Hin & W0 & P0)]];
     [outcase Epc | eapply load_next; unfold pcq; eauto | outcase Epc]).
Qed.

Lemma step_QUstNext s p fl n : qsl_inv s -> t_pc (q_th s p) = Some (QUstNext n) ->
  qsl_inv (fst (qsl_step s p fl)).
Proof.
  intros HI Epc. unfold qsl_step. rewrite Epc. cbn [fst].
  destruct (where_is s p HI) as [[Hout (On & Oi & Op)]|[(r0 & Ec0 & Hh0 & Hl0)|(h0 & r0 & Ec0 & Hne & Hin & W0 & P0)]].
  1:{ outcase Epc. }
  2:{ outcase Epc. }
  unfold head_ok, pcq in Hh0. rewrite Epc in Hh0. destruct Hh0 as (Hi & Hhd & Hnx).
  destruct r0 as [|b r']; [discriminate|]. cbn in Hhd. injection Hhd as ->.
  assert (Hnp : n <> p).
  { intros ->. destruct HI as (_ & HN & _). rewrite Ec0 in HN. inversion HN as [|? ? H1]. apply H1. now left. }
  destruct Hl0 as (L & _). apply (head_keep s _ p (n :: r')); auto.
  - intros x Hx. unfold same_at. cbn [q_next q_got q_th]. rewrite !updn_neq by auto. auto.
  - solve_lk.
  - intros y Hy [= <-] _. solve_lk.
  - intros _. cbn [q_next]. apply updn_eq.
Qed.
Lemma step_QUstGot s p fl n : qsl_inv s -> t_pc (q_th s p) = Some (QUstGot n) ->
  qsl_inv (fst (qsl_step s p fl)).
Proof.
  intros HI Epc. pose proof (where_is s p HI) as HW. pose proof HI as HI0. destruct HI as (HC & HN & HO).
  unfold qsl_step. rewrite Epc. cbn [fst].
  destruct HW as [[Hout (On & Oi & Op)]|[(r0 & Ec0 & Hh0 & Hl0)|(h0 & r0 & Ec0 & Hne & Hin & W0 & P0)]].
  1:{ outcase Epc. }
  2:{ outcase Epc. }
  unfold head_ok, pcq in Hh0. rewrite Epc in Hh0. destruct Hh0 as (Hi & Hhd & Hnx & Hsp).
  destruct r0 as [|b r']; [discriminate|]. cbn in Hhd. injection Hhd as ->.
  cbn in Hl0. destruct Hl0 as (L & Wn & R).
  rewrite Ec0 in HN. inversion HN as [|? ? Hpn HN']; subst. inversion HN' as [|? ? Hnn HN'']; subst.
  assert (Hnp : n <> p) by (intros ->; apply Hpn; now left).
  qd (q_th s p) false.
  assert (HCt : q_tail s = Some (last r' n)).
  { unfold chain_ok in HC. rewrite Ec0 in HC. destruct HC as (_ & _ & E). rewrite E. f_equal. apply last_cons. }
  unfold qsl_inv, chain_ok. cbn [q_chain q_tail q_next q_got q_th]. rewrite Ec0. cbn [tl].
  split; [|split].
  + split; [|split; [|exact HCt]].
    * unfold head_ok, pcq, insq. cbn [q_th q_got q_next]. rewrite updn_neq by auto. rewrite Hsp.
      rewrite updn_eq. split; [apply Wn|reflexivity].
    * apply (links_frame_head s); cbn [q_next q_got q_th]; auto.
      -- rewrite updn_neq by auto. reflexivity.
      -- intros x Hx. unfold same_at. cbn [q_next q_got q_th].
         assert (x <> n) by (intros ->; tauto). assert (x <> p) by (intros ->; apply Hpn; now right).
         rewrite !updn_neq by auto. auto.
  + exact HN'.
  + intros x Hx. unfold out_ok, pcq, insq. cbn [q_next q_th].
    destruct (Nat.eq_dec x p) as [->|Hxp].
    * rewrite updn_eq. split; [exact Hnx|]. split; [exact Hd|].
      destruct Hd0 as [E|[[E0 _]|[_ [E|E]]]]; try discriminate; rewrite E; auto.
    * rewrite updn_neq by auto. apply HO. rewrite Ec0. intros [E|E]; [congruence|tauto].
Qed.

Lemma step_QUcas s p fl : qsl_inv s -> t_pc (q_th s p) = Some QUcas ->
  qsl_inv (fst (qsl_step s p fl)).
Proof.
  intros HI Epc. pose proof (where_is s p HI) as HW. pose proof HI as HI0. destruct HI as (HC & HN & HO).
  unfold qsl_step. rewrite Epc. cbn [fst].
  destruct HW as [[Hout (On & Oi & Op)]|[(r0 & Ec0 & Hh0 & Hl0)|(h0 & r0 & Ec0 & Hne & Hin & W0 & P0)]].
  1:{ outcase Epc. }
  2:{ outcase Epc. }
  unfold head_ok, pcq in Hh0. rewrite Epc in Hh0.
  assert (HCt : q_tail s = Some (last r0 p)).
  { unfold chain_ok in HC. rewrite Ec0 in HC. destruct HC as (_ & _ & E). exact E. }
  destruct (opt_nat_eqb (q_tail s) p) eqn:Eq; cbn [fst].
  + assert (r0 = []).
    { apply (last_nodup_single p); [rewrite <- Ec0; exact HN|]. rewrite HCt in Eq. cbn in Eq. apply Nat.eqb_eq in Eq. exact Eq. }
    subst r0. cbn in Hl0.
    qd (q_th s p) false.
    unfold qsl_inv, chain_ok. cbn [q_chain q_tail q_next q_got q_th]. rewrite Ec0. cbn [tl].
    split; [reflexivity|]. split; [constructor|].
    intros x _. unfold out_ok, pcq, insq. cbn [q_next q_th].
    destruct (Nat.eq_dec x p) as [->|Hxp].
    * rewrite updn_eq. split; [exact Hl0|]. split; [exact Hd|].
      destruct Hd0 as [E|[[E0 _]|[_ [E|E]]]]; try discriminate; rewrite E; auto.
    * rewrite updn_neq by auto. apply HO. rewrite Ec0. intros [E|[]]. congruence.
  + apply (head_keep s _ p r0); auto.
    * intros x. apply same_at_th.
    * solve_lk.
    * intros y Hy _ L. solve_lk.
Qed.

Lemma qsl_inv_step s p fl : qsl_inv s -> qsl_inv (fst (qsl_step s p fl)).
Proof.
  intros HI. destruct (t_pc (q_th s p)) as [[]|] eqn:Epc;
    [ eapply step_QXg | eapply step_QStGot | eapply step_QStNext | eapply step_QSpin | eapply step_QTry
    | eapply step_QUld | eapply step_QUld | eapply step_QUstNext | eapply step_QUstGot | eapply step_QUcas | ]; eauto.
  unfold qsl_step. rewrite Epc. exact HI.
Qed.

Lemma qsl_inv_reach scr s : qsl_reach scr s -> qsl_inv s.
Proof. intros H. induction H; [apply qsl_inv_init | apply qsl_inv_step; auto]. Qed.

(* whoever is inside the critical section is the head of the chain *)
Lemma inside_head s p : qsl_inv s -> t_ins (q_th s p) = true -> exists r, q_chain s = p :: r.
Proof.
  intros HI Hp. destruct (where_is s p HI) as [[_ (_ & Oi & _)]|[(r & Ec & _)|(h & r & _ & _ & _ & (Wi & _) & _)]].
  - unfold insq in Oi. congruence.
  - eauto.
  - unfold insq in Wi. congruence.
Qed.
