(* C01_Ex.v — schedules whose runs end in states that meet the hypotheses of the ownership theorems
   (non-vacuity, the Examples of C01_Properties.v), and the tactic that runs them. *)
From Coq Require Import ZArith List.
From PV Require Import Base.U64 C01.C01_Model C01.C01_Tac C01.C01_Finding.
Import ListNotations.
Local Open Scope Z_scope.

Ltac run_ex E :=
  match goal with |- exists s, run ?i ?sc = Some s /\ _ =>
    destruct (run i sc) as [s|] eqn:E; [|vm_compute in E; discriminate];
    exists s; split; [reflexivity|]; split;
    [ eapply reachable_run; [|exact E]; apply reach_init; repeat eexists
    | vm_compute in E; injection E as <-; vm_compute; repeat split; auto; try discriminate ]
  end.

(* threads 0 (holder), 1 (locker with an already expired Timeout: its lock() returns -1/ETIMEDOUT); mutex 0 plain *)
Definition ex_init (ct rc : bool) : state :=
  init_state 1000 (fun _ => O) (fun _ => ct) (fun _ => rc) (fun _ => O) false.
Definition ex_timeout_sched : list label :=
  [ LStart 0%nat (MLock 0%nat MAX64); LStep 0%nat; LStep 0%nat;
    LStart 1%nat (MLock 0%nat 0); LStep 1%nat; LStep 1%nat; LStep 1%nat; LStep 1%nat; LStep 1%nat ].
(* recursive_mutex held twice by thread 0 *)
Definition ex_rec_sched : list label :=
  [ LStart 0%nat (MRLock 0%nat MAX64); LStep 0%nat; LStep 0%nat; LStep 0%nat;
    LStart 0%nat (MRLock 0%nat MAX64); LStep 0%nat ].
(* contending mutex: the unlocker has stored owner = nullptr and is about to wake the only waiter *)
Definition ex_free_sched : list label :=
  [ LStart 0%nat (MLock 0%nat MAX64); LStep 0%nat; LStep 0%nat;
    LStart 1%nat (MLock 0%nat MAX64); LStep 1%nat; LStep 1%nat; LStep 1%nat; LStep 1%nat; LStep 1%nat; LStep 1%nat;
    LStart 0%nat (MUnlock 0%nat); LStep 0%nat; LStep 0%nat; LStep 0%nat; LStep 0%nat; LStep 0%nat; LStep 0%nat ].
