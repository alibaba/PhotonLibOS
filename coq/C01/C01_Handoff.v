(* C01_Handoff.v — the wake-up step of do_mutex_unlock, from inv2 (code as written). *)
From Coq Require Import ZArith List.
From PV Require Import Base.U64 C01.C01_Model C01.C01_Tac C01.C01_Eff C01.C01_Excl C01.C01_Inv2.
Import ListNotations.
Local Open Scope Z_scope.

(* the hand-off step itself: exactly the head leaves the queue, becomes READY/STANDBY with
   error_number = -1; every other queued thread stays queued and asleep *)
Lemma handoff_step_l s : reachable s -> forall u m x s',
  pc (th s u) = PUint m x -> step s (LStep u) = Some s' ->
  wqm (mx s' m) = tl (wqm (mx s m)) /\ err (th s' x) = -1 /\ wq (th s' x) = None /\
  (st (th s' x) = READY \/ st (th s' x) = STANDBY) /\ owner (mx s' m) = owner (mx s m) /\
  forall y, y <> x -> In y (wqm (mx s m)) -> In y (wqm (mx s' m)) /\ st (th s' y) = SLEEPING.
Proof.
  intros Hr u m x s' Hpc Hs. pose proof (inv2_reachable s Hr) as H.
  destruct (uhead_facts s u m x H (uhead_pc _ _ _ (or_intror Hpc))) as (Hh & _ & _ & _ & _ & _ & _ & Hne).
  cbn [step] in Hs. unfold tstep in Hs. rewrite Hpc in Hs. apply Some_inj in Hs. subst s'.
  assert (Hrm : rm x (wqm (mx s m)) = tl (wqm (mx s m))).
  { destruct (wqm (mx s m)) as [|z l]; cbn in *; [discriminate|]. injection Hh as ->. now rewrite Nat.eqb_refl. }
  repeat apply conj; try (intros y Hy Hi; split); obs_q (inv2_wq_of_in _ H); auto.
  - destruct (Nat.eqb (vc s u) (vc s x)); auto.
  - apply In_rm_neq; auto.
  - apply (i2_wq _ H _ m Hi).
  - apply (i2_wq _ H _ m Hi).
Qed.
