(* C01_Live.v — "the mutex is not left stuck": the invariants live_inv / wit_inv and their
   preservation.  If a mutex is free while threads wait in its queue, some thread is on its way to
   take it or to wake the head (a WITNESS): an unlocker about to wake the head, a waiter that has
   been woken by a hand-off (error_number = -1, out of the queue) and has not yet re-tried, or a
   thread at the CAS under the splock.  The supporting clauses: who holds the splock, an unlocker
   that found the queue empty keeps it empty, a locker that is about to enqueue saw the mutex
   taken, and `thread::waitq` agrees with the queues. *)
From Coq Require Import ZArith List Lia.
From PV Require Import Base.U64 C01.C01_Model C01.C01_Tac C01.C01_Excl C01.C01_Inv2 C01.C01_Eff C01.C01_Cls.
Import ListNotations.
Local Open Scope Z_scope.

Definition ust_none (p : pc_t) : option mid := match p with PUst m None => Some m | _ => None end.
Definition exp_pc (p : pc_t) : option mid := match p with PLexp c | PLenq c => Some (lm c) | _ => None end.

(* how a program point can be a witness for mutex m *)
Inductive wk : Type := WNo | WYes | WIfOut | WIfErr.
Definition wkind (p : pc_t) (m : mid) : wk :=
  match p with
  | PUint m' _ => if Nat.eqb m' m then WYes else WNo              (* about to wake the head *)
  | PLdefer c | PSw (SLock c) => if on c m then WIfOut else WNo   (* woken by the hand-off, not yet running *)
  | PS1 (SLock c) => if on c m then WIfErr else WNo               (* about to read error_number = -1 *)
  | PS2 (SLock c) e => if on c m then (if e =? -1 then WYes else WNo) else WNo
  | PLchk c | PLspl c | PLcas2 c => if on c m then WYes else WNo  (* will (re-)try the CAS *)
  | _ => WNo
  end.
Definition wit_ok (k : wk) (inq : Prop) (e : Z) : Prop :=
  match k with
  | WYes => True
  | WIfOut => ~ inq /\ e = -1
  | WIfErr => e = -1
  | WNo => False
  end.
Definition is_wit (s : state) (m : mid) (t : tid) : Prop :=
  wit_ok (wkind (pc (th s t)) m) (In t (wqm (mx s m))) (err (th s t)).

Record live_inv (s : state) : Prop := mkLive {
  k_spl : forall t m, pc_spl (pc (th s t)) = Some m -> spl (mx s m) = Some t;
  k_ust : forall t m, ust_none (pc (th s t)) = Some m -> wqm (mx s m) = [];
  k_exp : forall t m, exp_pc (pc (th s t)) = Some m -> owner (mx s m) <> None;
  k_wq : forall t m, wq (th s t) = Some m -> In t (wqm (mx s m))
}.
Definition wit_inv (s : state) : Prop :=
  forall m, owner (mx s m) = None -> wqm (mx s m) <> [] -> exists t, is_wit s m t.

Lemma live_inv_init s : is_init s -> live_inv s.
Proof.
  intros (nw & re & ct & rc & v & ai & ->). constructor; cbn; intros; try discriminate; try congruence.
Qed.
Lemma wit_inv_init s : is_init s -> wit_inv s.
Proof. intros (nw & re & ct & rc & v & ai & ->) m _ H. cbn in H. congruence. Qed.

Lemma ust_none_spl p m : ust_none p = Some m -> pc_spl p = Some m.
Proof. destruct p; cbn; try discriminate. destruct h; [discriminate|]. auto. Qed.
Lemma exp_pc_spl p m : exp_pc p = Some m -> pc_spl p = Some m.
Proof. destruct p; cbn; try discriminate; auto. Qed.
Lemma rm_nil_inv x (l : list tid) : rm x l <> [] -> l <> [].
Proof. destruct l; cbn; congruence. Qed.

(* a SLEEPING thread is never a witness: it is still in the queue *)
Lemma sleeping_not_wit s x m : inv2 s -> st (th s x) = SLEEPING -> is_wit s m x -> False.
Proof.
  intros H2 Hs Hw. unfold is_wit in Hw.
  pose proof (i2_slp1 _ H2 x Hs) as Hp. pose proof (i2_slp2 _ H2 x m Hs) as Hq.
  destruct (pc (th s x)); cbn in Hp; try discriminate Hp; cbn [wkind pcwait] in *;
    try (destruct k; cbn [wkind pcwait] in * );
    repeat match goal with H : context [on ?c m] |- _ => destruct (on c m) end; cbn [wit_ok] in Hw; tauto.
Qed.
Lemma wkind_pcwait p m : pcwait p m = true -> wkind p m = WIfOut.
Proof. destruct p; cbn; try discriminate; try (destruct k; cbn; try discriminate); intros ->; reflexivity. Qed.

Ltac k_fin := solve [ assumption | congruence | intuition (try congruence; eauto with c01l) ].

(* the splock facts of the thread looked at and of the acting thread *)
Ltac spl_pose H4 t0 m0 :=
  pose proof (k_spl _ H4 t0 m0) as Hspt;
  try match goal with Hp : pc (th _ ?a) = _ |- _ =>
        pose proof (k_spl _ H4 a m0) as Hspa; rewrite Hp in Hspa; cbn [pc_spl] in Hspa end.

Lemma live_inv_step s l s' : inv2 s -> live_inv s -> step s l = Some s' -> live_inv s'.
Proof.
  intros H2 H4 Hs. constructor.
  - scases Hs.
    all: intros t0 m0; obs_q (inv2_wq_of_in _ H2).
    all: try exact (k_spl _ H4 _ _).
    all: match goal with |- _ = Some ?m0 -> _ = Some ?t0 =>
         pose proof (k_spl _ H4 t0 m0) as Ht;
         try match goal with Hp : pc (th _ ?a) = _ |- _ =>
               pose proof (k_spl _ H4 a m0) as Ha; rewrite Hp in Ha; try rewrite Hp in Ht end end.
    all: clear H2 H4; cbn [pc_spl] in *; dvars_all; cbn [pc_spl lm] in *.
    all: k_fin.
  - scases Hs.
    all: intros t0 m0; obs_q (inv2_wq_of_in _ H2).
    all: try exact (k_ust _ H4 _ _).
    all: match goal with |- ust_none ?p = Some ?m0 -> _ =>
           match p with
           | pc (th _ ?t0) => pose proof (k_ust _ H4 t0 m0) as Ht; pose proof (ust_none_spl (pc (th s t0)) m0) as Hu;
                              spl_pose H4 t0 m0
           | _ => idtac
           end end.
    all: clear H2 H4; cbn [ust_none pc_spl] in *; dvars_all; cbn [ust_none pc_spl lm] in *.
    all: try (intros Hq; try discriminate Hq; try (apply Some_inj in Hq; subst)).
    all: try match goal with Ht : ?P -> wqm _ = [] , Hq : ?P |- _ => rewrite (Ht Hq); cbn [rm app] end.
    all: k_fin.
  - scases Hs.
    all: intros t0 m0; obs_q (inv2_wq_of_in _ H2).
    all: try exact (k_exp _ H4 _ _).
    all: match goal with |- exp_pc ?p = Some ?m0 -> _ =>
           match p with
           | pc (th _ ?t0) => pose proof (k_exp _ H4 t0 m0) as Ht; pose proof (exp_pc_spl (pc (th s t0)) m0) as Hu;
                              spl_pose H4 t0 m0
           | _ => try match goal with Hp : pc (th _ ?a) = _ |- _ =>
                        pose proof (k_exp _ H4 a m0) as Ha; rewrite Hp in Ha end
           end end.
    all: clear H2 H4; cbn [exp_pc pc_spl] in *; dvars_all; cbn [exp_pc pc_spl lm] in *.
    all: try (intros Hq; try discriminate Hq; try (apply Some_inj in Hq; subst)).
    all: k_fin.
  - scases Hs.
    all: intros t0 m0; obs_q (inv2_wq_of_in _ H2).
    all: try exact (k_wq _ H4 _ _).
    all: try (intros Hq; try discriminate Hq).
    all: try match goal with |- In ?t0 (wqm (mx _ ?m0)) => pose proof (k_wq _ H4 t0 m0) as Ht
                            | |- In ?t0 (rm _ (wqm (mx _ ?m0))) => pose proof (k_wq _ H4 t0 m0) as Ht
                            | |- In ?t0 (wqm (mx _ ?m0) ++ _) => pose proof (k_wq _ H4 t0 m0) as Ht end.
    all: k_fin.
Qed.

Ltac ifs_all :=
  repeat match goal with
  | |- context [if ?b then _ else _] => destruct b eqn:?
  | H : context [if ?b then _ else _] |- _ => destruct b eqn:?
  end.
(* is_wit of the new state, reduced to the old one *)
Ltac wit_leaf :=
  cbn [wkind] in *; dvars_all; unfold on in *; cbn [wkind lm] in *; eqb_tac; ifs_all;
  repeat match goal with
  | |- context [wkind (pc (th ?s ?t)) ?m] => destruct (wkind (pc (th s t)) m)
  end;
  cbn [wit_ok] in *; boolfacts;
  solve [ assumption | congruence | intuition (try congruence; try lia; eauto using In_rm) ].

Lemma wit_step s l s' : inv2 s -> live_inv s -> wit_inv s -> step s l = Some s' -> wit_inv s'.
Proof.
  intros H2 H4 H5 Hs. unfold wit_inv in *. scases Hs.
  all: intros m0; obs_q (inv2_wq_of_in _ H2); intros Ho Hq.
  all: try discriminate Ho.
  (* the contending hand-off has just released the mutex: the unlocker is the witness *)
  all: try solve [ match goal with Hp : pc (th _ ?a) = PUst _ (Some _) |- _ =>
                     exists a; unfold is_wit; obs_q (inv2_wq_of_in _ H2); cbn [wkind]; rewrite Nat.eqb_refl; exact I end ].
  (* an unlocker that found the queue empty; a locker about to enqueue saw the mutex taken *)
  all: try solve [ exfalso; match goal with Hp : pc (th ?s ?a) = PUst ?m None |- _ =>
                     pose proof (k_ust _ H4 a m) as Hu; rewrite Hp in Hu; specialize (Hu eq_refl); congruence end ].
  all: try solve [ exfalso; match goal with Hp : pc (th ?s ?a) = PLenq ?c |- _ =>
                     pose proof (k_exp _ H4 a (lm c)) as Hu; rewrite Hp in Hu; specialize (Hu eq_refl); congruence end ].
  (* the old witness *)
  all: try match goal with Hq : rm _ _ <> [] |- _ => apply rm_nil_inv in Hq end.
  all: match goal with Ho : owner (mx ?s ?m) = None, Hq : wqm (mx ?s ?m) <> [] |- _ =>
         destruct (H5 m Ho Hq) as [w Hw] end.
  (* a thread that is being woken / timed out is SLEEPING: it is not the witness *)
  all: try match goal with
       | Hp : pc (th ?s ?a) = PUint ?m ?x |- _ =>
           pose proof (uhead_facts s a m x H2 (uhead_pc _ _ _ (or_intror Hp))) as (_ & Hin & Hkx & _ & Hsl & _ & _ & _);
           apply wkind_pcwait in Hkx;
           pose proof (not_In_rm x _ (i2_nodup _ H2 m)) as Hnd
       | Hp : pc (th ?s ?a) = PI3 ?x ?e |- _ => pose proof (pi3_sleeping s a x e H2 Hp) as Hsl
       | Hxp : xp (th ?s ?a) = true, Hst : tstate_eqb (st (th ?s ?a)) SLEEPING = true |- _ =>
           pose proof (proj1 (tstate_eqb_true _ _) Hst) as Hsl
       end.
  all: try match goal with Hsl : st (th ?s ?x) = SLEEPING |- _ =>
         destruct (Nat.eq_dec w x) as [Ewx|Ewx]; [subst w; exfalso; exact (sleeping_not_wit _ _ _ H2 Hsl Hw)|] end.
  all: unfold is_wit in *.
  (* the witness performs the wake-up: the woken head takes over *)
  all: try match goal with Hp : pc (th ?s ?a) = PUint ?m ?x |- _ =>
         destruct (Nat.eq_dec w a) as [Ewa|Ewa];
         [ subst w; rewrite Hp in Hw; exists x; obs_q (inv2_wq_of_in _ H2); clear H2 H4 H5;
           cbn [wkind] in *; eqb_tac; cbn [wit_ok] in *; [rewrite Hkx; cbn [wit_ok]; tauto | tauto ] | ] end.
  all: exists w; obs_q (inv2_wq_of_in _ H2); clear H2 H4 H5.
  all: try match goal with Hp : pc (th _ ?a) = _, Hw : context [pc (th _ ?a)] |- _ => rewrite Hp in Hw end.
  all: wit_leaf.
Qed.
