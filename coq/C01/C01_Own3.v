(* C01_Own3.v — live_inv / wit_inv are invariants of every reachable state; the final theorems:
   lock()/try_lock() result vs ownership (with "in no wait queue"), the owner always is / will be
   inside, the mutex is not left stuck; and the statements of C01_Own.v as written there. *)
From Coq Require Import ZArith List Lia.
From PV Require Import Base.U64 C01.C01_Model C01.C01_Tac C01.C01_Excl C01.C01_Inv2 C01.C01_Eff
  C01.C01_Cls C01.C01_Own C01.C01_Live.
Import ListNotations.
Local Open Scope Z_scope.

Lemma live_wit_reachable s : reachable s -> live_inv s /\ wit_inv s.
Proof.
  induction 1 as [s Hi|s l s' Hr [IH1 IH2] Hs]; [split; [apply live_inv_init|apply wit_inv_init]; exact Hi|].
  pose proof (inv2_reachable s Hr) as H2. split.
  - eapply live_inv_step; eauto.
  - eapply wit_step; eauto.
Qed.

(* a thread that is not in the protocol of any queue has waitq == nullptr *)
Lemma returned_no_waitq s : reachable s -> forall t, sleeppc (pc (th s t)) = false -> wq (th s t) = None.
Proof.
  intros Hr t Hp. destruct (live_wit_reachable s Hr) as [H4 _]. pose proof (inv2_reachable s Hr) as H2.
  destruct (wq (th s t)) as [m|] eqn:E; [|reflexivity]. exfalso.
  pose proof (k_wq _ H4 t m E) as Hi. destruct (i2_wq _ H2 t m Hi) as (_ & _ & Hs).
  pose proof (i2_slp1 _ H2 t Hs). congruence.
Qed.

(* lock() / try_lock() has returned r: r = 0 iff the caller is the owner, iff it is inside; on
   failure (and on success) it is in no wait queue and its waitq field is null *)
Lemma lock_result_l s : reachable s -> forall t m r e,
  pc (th s t) = PRet (RLock m) r e \/ pc (th s t) = PRet (RTry m) r e ->
  (r = 0 <-> owner (mx s m) = Some t) /\ (r = 0 <-> (cnt (th s t) m > 0)%nat) /\
  wq (th s t) = None /\ forall m', ~ In t (wqm (mx s m')).
Proof.
  intros Hr t m r e Hpc. pose proof (own_inv_reachable s Hr) as H3.
  assert (Hri : retinfo (pc (th s t)) = Some (m, r)) by (destruct Hpc as [-> | ->]; reflexivity).
  assert (Hk : classify (pc (th s t)) m = CFree) by (destruct Hpc as [-> | ->]; reflexivity).
  pose proof (j_cls _ H3 t m) as Hc. rewrite Hk in Hc. cbn [cls_ok] in Hc.
  pose proof (j_ret _ H3 t m r Hri) as Hret.
  split; [|split; [|split]].
  - intuition (try congruence; try lia).
  - intuition (try congruence; try lia).
  - apply returned_no_waitq; auto. destruct Hpc as [-> | ->]; reflexivity.
  - intros m' Hin. destruct (i2_wq _ (inv2_reachable s Hr) t m' Hin) as (A & _).
    destruct Hpc as [E | E]; rewrite E in A; discriminate.
Qed.

(* whoever `owner` names is inside, or is still in the protocol at a point from which it will
   learn it (about to return 0, releasing, or being handed the mutex with the evidence intact) *)
Definition accounted (s : state) (m : mid) (t : tid) : Prop :=
  (cnt (th s t) m > 0)%nat \/
  must (pc (th s t)) m = true \/
  (pcwait (pc (th s t)) m = true /\ (In t (wqm (mx s m)) \/ err (th s t) = -1)) \/
  (exists c, lm c = m /\ ((pc (th s t) = PS1 (SLock c) /\ err (th s t) = -1) \/
                          pc (th s t) = PS2 (SLock c) (-1) \/ pc (th s t) = PLchk c)).
Lemma owner_accounted_l s : reachable s -> forall m t, owner (mx s m) = Some t -> accounted s m t.
Proof.
  intros Hr m t Ho. pose proof (j_cls _ (own_inv_reachable s Hr) t m) as H. unfold accounted.
  destruct (pc (th s t)) eqn:Hp; cbn [classify must pcwait] in *;
    try match goal with k : yk |- _ => destruct k | k : sk |- _ => destruct k end; cbn [classify must pcwait] in *;
    unfold on in *;
    repeat match goal with
    | H : context [Nat.eqb ?a ?b] |- _ => destruct (Nat.eqb_spec a b)
    end; cbn [cls_ok] in H;
    try solve [ left; apply H; exact Ho ];
    try solve [ destruct H; congruence ];
    try solve [ right; left; reflexivity ];
    try solve [ right; right; left; split; [reflexivity|apply H; exact Ho] ].
  - right; right; right. exists c. split; [assumption|]. left. split; [reflexivity|apply H; exact Ho].
  - right; right; right. exists c. split; [assumption|]. right; left. destruct H as [_ H]. rewrite (H Ho). reflexivity.
  - right; right; right. exists c. split; [assumption|]. right; right. reflexivity.
Qed.

(* the mutex is not left stuck: free with waiters => somebody is on the way *)
Definition on_the_way (s : state) (m : mid) (t : tid) : Prop :=
  (exists x, pc (th s t) = PUint m x) \/
  (pcwait (pc (th s t)) m = true /\ wq (th s t) = None /\ ~ In t (wqm (mx s m)) /\ err (th s t) = -1) \/
  (exists c, lm c = m /\ ((pc (th s t) = PS1 (SLock c) /\ err (th s t) = -1) \/ pc (th s t) = PS2 (SLock c) (-1) \/
                          pc (th s t) = PLchk c \/ pc (th s t) = PLspl c \/ pc (th s t) = PLcas2 c)).
Lemma wit_on_the_way s : reachable s -> forall m t, is_wit s m t -> on_the_way s m t.
Proof.
  intros Hr m t Hw. destruct (live_wit_reachable s Hr) as [H4 _]. pose proof (inv2_reachable s Hr) as H2.
  unfold is_wit in Hw. unfold on_the_way.
  assert (Hwq : pcwait (pc (th s t)) m = true -> ~ In t (wqm (mx s m)) -> wq (th s t) = None).
  { intros Hp Hn. destruct (wq (th s t)) as [m'|] eqn:E; [|reflexivity]. exfalso.
    pose proof (k_wq _ H4 t m' E) as Hi. destruct (i2_wq _ H2 t m' Hi) as (Hp' & _ & _).
    destruct (pc (th s t)); cbn in Hp, Hp'; try discriminate; try (destruct k; try discriminate);
      unfold on in *; apply Nat.eqb_eq in Hp, Hp'; subst; tauto. }
  destruct (pc (th s t)) eqn:Hp; cbn [wkind pcwait] in *;
    try match goal with k : sk |- _ => destruct k end; cbn [wkind pcwait] in *;
    unfold on in *;
    repeat match goal with
    | H : context [Nat.eqb ?a ?b] |- _ => destruct (Nat.eqb_spec a b)
    end; cbn [wit_ok] in Hw; try contradiction.
  - right; right. exists c. auto 10.
  - right; right. exists c. auto 10.
  - right; left. destruct Hw as [Hn He]. repeat split; auto.
  - right; left. destruct Hw as [Hn He]. repeat split; auto.
  - right; right. exists c. auto 10.
  - right; right. exists c. split; [assumption|]. right; left.
    destruct (e =? -1) eqn:E; cbn [wit_ok] in Hw; [|contradiction]. apply Z.eqb_eq in E. now subst.
  - right; right. exists c. auto 10.
  - left. subst. eauto.
Qed.
Lemma not_stuck_l s : reachable s -> forall m,
  owner (mx s m) = None -> wqm (mx s m) <> [] -> exists t, on_the_way s m t.
Proof.
  intros Hr m Ho Hq. destruct (live_wit_reachable s Hr) as [_ H5]. destruct (H5 m Ho Hq) as [t Ht].
  exists t. apply wit_on_the_way; auto.
Qed.

(* the statements of C01_Own.v, exactly as written there (the guard is not needed) *)
Lemma lock_result_iff_owner_holds : lock_result_iff_owner.
Proof.
  intros s Hr _ t m r e Hpc. destruct (lock_result_l s Hr t m r e (or_introl Hpc)) as (A & _ & C & D). auto.
Qed.
Lemma mutex_excl_holds : mutex_excl.
Proof. intros s Hr _. apply mutex_excl_l; auto. Qed.
Lemma not_stuck_holds : not_stuck.
Proof.
  intros s Hr _ m Ho Hq. destruct (not_stuck_l s Hr m Ho Hq) as [t Ht]. exists t. unfold kz1.
  destruct Ht as [H|[(A & B & _ & D)|(c & Hc & H)]]; [left; exact H|right; left; auto|].
  right; right. exists c. split; [exact Hc|]. intuition.
Qed.
