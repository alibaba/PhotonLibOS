(* C01_Spin_Proofs.v — exclusion of spinlock (TAS) and ticket_spinlock (+ FIFO) for any number of
   OS threads, every interleaving (inductive invariants over tas_step / tkl_step). *)
From Coq Require Import ZArith List Lia.
From PV Require Import Base.U64 E3.E3_Run C01.C01_Spin_Model.
Import ListNotations.
Local Open Scope Z_scope.

Lemma updn_eq {A} (f : nat -> A) k v : updn f k v k = v.
Proof. unfold updn. now rewrite Nat.eqb_refl. Qed.
Lemma updn_neq {A} (f : nat -> A) k v i : i <> k -> updn f k v i = f i.
Proof. unfold updn. intros H. destruct (Nat.eqb_spec i k); congruence. Qed.

(* the client discipline: the next operation let through is Unlock iff the participant is inside *)
Lemma next_pc_spec {PC} (entry : sop -> PC) scr ins p r :
  next_pc entry scr ins = (Some p, r) -> exists o, p = entry o /\ (o = AUnlock <-> ins = true).
Proof.
  revert p r. induction scr as [|o scr IH]; intros p r H; cbn in H; [discriminate|].
  destruct o, ins; try (apply IH in H; exact H); injection H as <- _; eexists; split; eauto; split; congruence.
Qed.

Lemma done_spec {PC} (entry : sop -> PC) t i :
  t_ins (thr_done entry t i) = i /\
  (t_pc (thr_done entry t i) = None \/
   exists o, t_pc (thr_done entry t i) = Some (entry o) /\ (o = AUnlock <-> i = true)).
Proof.
  unfold thr_done. destruct (next_pc entry (t_scr t) i) as [p r] eqn:E. cbn. split; [reflexivity|].
  destruct p as [p|]; [|auto]. right. apply next_pc_spec in E. destruct E as (o & -> & Ho). exists o. auto.
Qed.
(* a participant starts like one that has just finished an operation outside the critical section *)
Lemma thr_init_done {PC} (entry : sop -> PC) scr : thr_init entry scr = thr_done entry (mkThr None scr false) false.
Proof. reflexivity. Qed.

Inductive tas_reach (scr : nat -> list sop) : tas -> Prop :=
| tr_init : tas_reach scr (tas_init scr)
| tr_step s p fl : tas_reach scr s -> tas_reach scr (fst (tas_step s p fl)).

Definition tpc_ok (pc : option tpc) (ins : bool) : Prop :=
  match pc with None => True | Some TUnl => ins = true | Some _ => ins = false end.
Definition tas_inv (s : tas) : Prop :=
  (forall p, tpc_ok (t_pc (tl_th s p)) (t_ins (tl_th s p))) /\
  (forall p, t_ins (tl_th s p) = true -> tl_lock s = true) /\
  (forall p q, t_ins (tl_th s p) = true -> t_ins (tl_th s q) = true -> p = q).

Lemma tdone_ok t i : tpc_ok (t_pc (thr_done tentry t i)) (t_ins (thr_done tentry t i)) /\ t_ins (thr_done tentry t i) = i.
Proof.
  destruct (done_spec tentry t i) as [A [B|(o & B & Ho)]]; rewrite A, B; split; cbn; auto.
  destruct o, i; cbn; intuition congruence.
Qed.

Lemma tas_inv_init scr : tas_inv (tas_init scr).
Proof.
  unfold tas_inv, tas_init; cbn. repeat split; intros.
  - rewrite thr_init_done. apply tdone_ok.
  - rewrite thr_init_done, (proj2 (tdone_ok _ _)) in H. discriminate.
  - rewrite thr_init_done, (proj2 (tdone_ok _ _)) in H. discriminate.
Qed.

Ltac tz :=
  repeat match goal with
  | |- context [Nat.eqb ?a ?b] => destruct (Nat.eqb_spec a b); subst
  | H : context [Nat.eqb ?a ?b] |- _ => destruct (Nat.eqb_spec a b); subst
  end.
Ltac td :=
  repeat match goal with
  | H : context [t_ins (thr_done tentry ?t ?i)] |- _ => rewrite (proj2 (tdone_ok t i)) in H
  | |- context [t_ins (thr_done tentry ?t ?i)] => rewrite (proj2 (tdone_ok t i))
  end.

Lemma tas_inv_step s p fl : tas_inv s -> tas_inv (fst (tas_step s p fl)).
Proof.
  intros (Hok & Hl & Hx). unfold tas_step.
  pose proof (Hok p) as Hp. pose proof (Hl p) as Hlp.
  destruct (t_pc (tl_th s p)) as [pc|] eqn:Epc; [|cbn; repeat split; auto].
  destruct pc; cbn in Hp; cbn [fst]; destruct (tl_lock s) eqn:El; cbn [tl_lock tl_th];
    repeat split; intros; unfold updn in *; cbn [tl_lock tl_th] in *; tz; try apply tdone_ok; td; cbn in *; rewrite ?Epc in *;
    try congruence; auto;
    try (match goal with H : t_ins (tl_th s ?q) = true |- _ => pose proof (Hl _ H); congruence end);
    try (exfalso; match goal with H : t_ins (tl_th s ?q) = true, n : ?q <> p |- _ => apply n; apply Hx; auto end);
    try (eapply Hx; eauto; fail).
Qed.

Lemma tas_inv_reach scr s : tas_reach scr s -> tas_inv s.
Proof. intros H. induction H; [apply tas_inv_init | apply tas_inv_step; auto]. Qed.
Lemma tas_locked_l scr s : tas_reach scr s -> forall p, t_ins (tl_th s p) = true -> tl_lock s = true.
Proof. intros H. apply (tas_inv_reach scr s H). Qed.

Inductive tkl_reach (scr : nat -> list sop) : tkl -> Prop :=
| kr_init : tkl_reach scr (tkl_init scr)
| kr_step s p fl : tkl_reach scr s -> tkl_reach scr (fst (tkl_step s p fl)).

Definition kpc_ok (s : tkl) (p : nat) : Prop :=
  let t := kl_th s p in
  match t_pc t with
  | Some KFa => kl_tkt s p = None /\ t_ins t = false
  | Some (KLd tk) => kl_tkt s p = Some tk /\ t_ins t = false
  | Some KUld => t_ins t = true
  | Some (KUst v) => kl_tkt s p = Some (kl_serv s) /\ v = kl_serv s + 1 /\ t_ins t = false
  | None => True
  end.
Definition tkl_inv (s : tkl) : Prop :=
  (forall p t, kl_tkt s p = Some t -> kl_serv s <= t < kl_next s) /\
  (forall p q t, kl_tkt s p = Some t -> kl_tkt s q = Some t -> p = q) /\
  (forall p, kpc_ok s p) /\
  (forall p, t_ins (kl_th s p) = true -> kl_tkt s p = Some (kl_serv s)) /\
  kl_serv s <= kl_next s.

Lemma kdone_ok t i :
  t_ins (thr_done kentry t i) = i /\
  (t_pc (thr_done kentry t i) = None \/ (i = true /\ t_pc (thr_done kentry t i) = Some KUld)
   \/ (i = false /\ t_pc (thr_done kentry t i) = Some KFa)).
Proof.
  destruct (done_spec kentry t i) as [A [B|(o & B & Ho)]]; split; auto. right. rewrite B.
  destruct o, i; cbn; intuition congruence.
Qed.

Lemma tkl_inv_init scr : tkl_inv (tkl_init scr).
Proof.
  unfold tkl_inv, tkl_init, kpc_ok; cbn. repeat split; intros; try discriminate.
  - rewrite thr_init_done. destruct (kdone_ok (mkThr None (scr p) false) false) as [A [B|[[C _]|[_ B]]]];
      try discriminate C; rewrite B; auto.
  - rewrite thr_init_done, (proj1 (kdone_ok _ _)) in H. discriminate.
Qed.

Ltac kd t i :=
  let H1 := fresh "Hd" in let H2 := fresh "Hd" in
  destruct (kdone_ok t i) as [H1 H2]; destruct H2 as [H2|[[? H2]|[? H2]]]; try discriminate.

Ltac injk :=
  repeat match goal with
  | H : Some _ = Some _ |- _ => injection H as H; try subst
  | H : Some _ = None |- _ => discriminate H
  | H : None = Some _ |- _ => discriminate H
  end.
Ltac kfin HA HB HC HD :=
  injk;
  repeat match goal with
  | H : kl_tkt _ ?q = Some ?t |- _ =>
      lazymatch goal with
      | _ : kl_serv _ <= t < kl_next _ |- _ => fail
      | _ => pose proof (HA _ _ H)
      end
  end;
  try lia; try congruence; auto;
  try (eapply HB; eauto; fail); try (apply HC; fail); try (apply HD; auto; fail);
  try (split; [|split]; auto; try lia; try congruence; fail).

(* the clauses of the invariant of the new state, one goal each, split on whether they speak of p *)
Ltac kopen :=
  unfold tkl_inv, kpc_ok; cbn [kl_next kl_serv kl_th kl_tkt]; repeat split; intros; unfold updn in *; tz; cbn in *.
(* kpc_ok of another participant, whose record has not changed *)
Ltac kother HC :=
  try (match goal with |- context [t_pc (kl_th ?s ?q)] =>
         pose proof (HC q) as Hq; unfold kpc_ok in Hq; destruct (t_pc (kl_th s q)) as [[| | |]|]; auto; fail end).

Lemma tkl_inv_step s p fl : tkl_inv s -> tkl_inv (fst (tkl_step s p fl)).
Proof.
  intros (HA & HB & HC & HD & HE). unfold tkl_step.
  pose proof (HC p) as Hp. unfold kpc_ok in Hp.
  destruct (t_pc (kl_th s p)) as [pc|] eqn:Epc; [|cbn; repeat split; auto; eapply HA; eauto].
  destruct pc; cbn [fst].
  - (* KFa *) destruct Hp as [Ht Hi]. kopen; kfin HA HB HC HD. all: kother HC.
  - (* KLd *) destruct Hp as [Ht Hi].
    destruct (Z.eqb_spec (kl_serv s) tk) as [Heq|Hne].
    + kd (kl_th s p) true; kopen; rewrite ?Hd, ?Hd0 in *; kfin HA HB HC HD. all: kother HC.
    + kopen; kfin HA HB HC HD. all: kother HC.
  - (* KUld *) pose proof (HD _ Hp) as Ht. kopen; kfin HA HB HC HD. all: kother HC.
  - (* KUst *) destruct Hp as (Ht & -> & Hi).
    assert (Hothers : forall q t, q <> p -> kl_tkt s q = Some t -> kl_serv s + 1 <= t < kl_next s).
    { intros q t Hq Hqt. pose proof (HA _ _ Hqt). destruct (Z.eq_dec t (kl_serv s)) as [->|]; [|lia].
      exfalso. apply Hq. eapply HB; eauto. }
    assert (Hnoins : forall q, q <> p -> t_ins (kl_th s q) = true -> False).
    { intros q Hq Hqi. apply Hq. eapply HB; eauto. }
    pose proof (HA _ _ Ht) as Hrange.
    kd (kl_th s p) false; kopen; rewrite ?Hd, ?Hd0 in *; auto; try discriminate;
      try (eapply Hothers; eauto; fail); try (eapply HB; eauto; fail); try (exfalso; eapply Hnoins; eauto; fail); try lia.
    all: try (pose proof (HC p0) as Hq; unfold kpc_ok in Hq; destruct (t_pc (kl_th s p0)) as [[| | |]|]; auto;
              try (destruct Hq as (Hq1 & Hq2 & Hq3); exfalso; apply n; eapply HB; eauto; fail)).
Qed.

Lemma tkl_inv_reach scr s : tkl_reach scr s -> tkl_inv s.
Proof. intros H. induction H; [apply tkl_inv_init | apply tkl_inv_step; auto]. Qed.

Lemma ticket_issue_l s p fl : t_pc (kl_th s p) = Some KFa ->
  kl_tkt (fst (tkl_step s p fl)) p = Some (kl_next s) /\ kl_next (fst (tkl_step s p fl)) = kl_next s + 1.
Proof. intros H. unfold tkl_step. rewrite H. cbn. rewrite updn_eq. auto. Qed.
