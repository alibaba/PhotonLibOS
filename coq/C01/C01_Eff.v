(* C01_Eff.v — what the state transformers of the model do, and the case analysis of `step`.
   `goto` / `setT` / `setM` are record updates that `cbn` projects.  For `acquired`, `dequeue` and
   `prelocked_interrupt` the lemmas th_* / mx_* give the thread table and the mutex table of the
   result as ONE update of the old table, so that every field projects by `cbn` again.  `scases` is
   the case analysis every invariant proof starts from; `obs` projects the post-state it leaves
   folded down to fields of the pre-state. *)
From Coq Require Import ZArith List Bool.
From PV Require Import Base.U64 C01.C01_Model C01.C01_Tac.
Import ListNotations.
Local Open Scope Z_scope.

(* the result-carrying helpers at the literals the code passes *)
Lemma ret_lock_0 s t c e :
  ret_lock s t c 0 e = goto (acquired s t (lm c) (lrc c)) t (PRet (RLock (lm c)) 0 e).
Proof. reflexivity. Qed.
Lemma ret_lock_m1 s t c e : ret_lock s t c (-1) e = goto s t (PRet (RLock (lm c)) (-1) e).
Proof. reflexivity. Qed.
Lemma after_sleep_l0 s t c :
  after_sleep s t (SLock c) 0 0 = goto s t (PRet (RLock (lm c)) (-1) ETIMEDOUT).
Proof. reflexivity. Qed.
Lemma after_sleep_lm1 s t c e :
  after_sleep s t (SLock c) (-1) e =
  if e =? -1 then goto s t (PLchk c) else goto s t (PRet (RLock (lm c)) (-1) e).
Proof. unfold after_sleep. cbn [andb Z.ltb Z.compare]. destruct (e =? -1); reflexivity. Qed.
Lemma after_sleep_op s t r e : after_sleep s t SOp r e = goto s t (PRet ROther r e).
Proof. reflexivity. Qed.

Lemma th_acquired s t m rc t' :
  th (acquired s t m rc) t' =
  upd (th s) t (set_cnt (th s t) (upd (cnt (th s t)) m (S (cnt (th s t) m)))) t'.
Proof. unfold acquired. destruct rc; reflexivity. Qed.
Lemma mx_acquired s t m rc m' :
  mx (acquired s t m rc) m' =
  set_rcnt (mx s m') (if rc && Nat.eqb m' m then rcnt (mx s m') + 1 else rcnt (mx s m')).
Proof.
  unfold acquired. destruct rc; cbn [mx setM setT andb]; unfold upd.
  - destruct (Nat.eqb_spec m' m) as [->|]; [reflexivity|]. destruct (mx s m'); reflexivity.
  - destruct (mx s m'); reflexivity.
Qed.
Lemma owner_acquired s t m rc m' : owner (mx (acquired s t m rc) m') = owner (mx s m').
Proof. now rewrite mx_acquired. Qed.
Lemma wqm_acquired s t m rc m' : wqm (mx (acquired s t m rc) m') = wqm (mx s m').
Proof. now rewrite mx_acquired. Qed.
Lemma spl_acquired s t m rc m' : spl (mx (acquired s t m rc) m') = spl (mx s m').
Proof. now rewrite mx_acquired. Qed.
Lemma recursive_acquired s t m rc m' : recursive (mx (acquired s t m rc) m') = recursive (mx s m').
Proof. now rewrite mx_acquired. Qed.
Lemma contending_acquired s t m rc m' : contending (mx (acquired s t m rc) m') = contending (mx s m').
Proof. now rewrite mx_acquired. Qed.
Lemma rcnt_acquired s t m rc m' :
  rcnt (mx (acquired s t m rc) m') = if rc && Nat.eqb m' m then rcnt (mx s m') + 1 else rcnt (mx s m').
Proof. now rewrite mx_acquired. Qed.

Lemma th_dequeue s x ns t :
  th (dequeue s x ns) t = upd (th s) x (set_st (set_wq (th s x) None) ns) t.
Proof.
  unfold dequeue. destruct (wq (th s x)) eqn:E; cbn [th setT setM]; unfold upd;
    destruct (Nat.eqb_spec t x) as [->|]; rewrite ?Nat.eqb_refl; try reflexivity.
  destruct (th s x); cbn in E; subst; reflexivity.
Qed.
Lemma mx_dequeue s x ns m :
  mx (dequeue s x ns) m =
  set_wqm (mx s m) (if opt_tid_eqb (wq (th s x)) m then rm x (wqm (mx s m)) else wqm (mx s m)).
Proof.
  unfold dequeue. destruct (wq (th s x)) as [m1|]; cbn [mx setT setM opt_tid_eqb]; unfold upd.
  - rewrite (Nat.eqb_sym m1 m). destruct (Nat.eqb_spec m m1) as [->|]; [reflexivity|].
    destruct (mx s m); reflexivity.
  - destruct (mx s m); reflexivity.
Qed.
Lemma th_prelocked s a x e t :
  th (prelocked_interrupt s a x e) t =
  upd (th s) x (set_st (set_wq (set_err (th s x) e) None)
                       (if Nat.eqb (vc s a) (vc s x) then READY else STANDBY)) t.
Proof.
  unfold prelocked_interrupt. rewrite th_dequeue. cbn [th setT vc]. unfold upd.
  rewrite Nat.eqb_refl. destruct (Nat.eqb t x); reflexivity.
Qed.
Lemma mx_prelocked s a x e m :
  mx (prelocked_interrupt s a x e) m =
  set_wqm (mx s m) (if opt_tid_eqb (wq (th s x)) m then rm x (wqm (mx s m)) else wqm (mx s m)).
Proof. unfold prelocked_interrupt. rewrite mx_dequeue. cbn [th mx setT]. now rewrite upd_eq. Qed.

Lemma rm_notin x l : ~ In x l -> rm x l = l.
Proof.
  induction l as [|z l IH]; cbn; [reflexivity|]. intros H.
  destruct (Nat.eqb_spec z x); [subst; tauto|]. f_equal. apply IH. tauto.
Qed.
(* a thread is only in the queue its `waitq` field names: then dequeue is `rm` on EVERY queue *)
Lemma rm_queued s x m :
  (forall m', In x (wqm (mx s m')) -> wq (th s x) = Some m') ->
  (if opt_tid_eqb (wq (th s x)) m then rm x (wqm (mx s m)) else wqm (mx s m)) = rm x (wqm (mx s m)).
Proof.
  intros H. destruct (opt_tid_eqb (wq (th s x)) m) eqn:E; [reflexivity|].
  symmetry. apply rm_notin. intros Hi. apply opt_tid_eqb_false in E. exact (E (H _ Hi)).
Qed.

Lemma pc_dequeue s x ns t : pc (th (dequeue s x ns) t) = pc (th s t).
Proof. now rewrite th_dequeue, (upd_proj pc). Qed.
Lemma err_dequeue s x ns t : err (th (dequeue s x ns) t) = err (th s t).
Proof. now rewrite th_dequeue, (upd_proj err). Qed.
Lemma tlock_dequeue s x ns t : tlock (th (dequeue s x ns) t) = tlock (th s t).
Proof. now rewrite th_dequeue, (upd_proj tlock). Qed.
Lemma xp_dequeue s x ns t : xp (th (dequeue s x ns) t) = xp (th s t).
Proof. now rewrite th_dequeue, (upd_proj xp). Qed.
Lemma cnt_dequeue s x ns t : cnt (th (dequeue s x ns) t) = cnt (th s t).
Proof. now rewrite th_dequeue, (upd_proj cnt). Qed.

Lemma pc_prelocked s a x e t : pc (th (prelocked_interrupt s a x e) t) = pc (th s t).
Proof. now rewrite th_prelocked, (upd_proj pc). Qed.
Lemma tlock_prelocked s a x e t : tlock (th (prelocked_interrupt s a x e) t) = tlock (th s t).
Proof. now rewrite th_prelocked, (upd_proj tlock). Qed.
Lemma xp_prelocked s a x e t : xp (th (prelocked_interrupt s a x e) t) = xp (th s t).
Proof. now rewrite th_prelocked, (upd_proj xp). Qed.
Lemma cnt_prelocked s a x e t : cnt (th (prelocked_interrupt s a x e) t) = cnt (th s t).
Proof. now rewrite th_prelocked, (upd_proj cnt). Qed.
Lemma err_prelocked s a x e t :
  err (th (prelocked_interrupt s a x e) t) = upd (fun i => err (th s i)) x e t.
Proof. now rewrite th_prelocked, (upd_map err). Qed.
Lemma st_prelocked s a x e t :
  st (th (prelocked_interrupt s a x e) t) =
  upd (fun i => st (th s i)) x (if Nat.eqb (vc s a) (vc s x) then READY else STANDBY) t.
Proof. now rewrite th_prelocked, (upd_map st). Qed.
Lemma wq_prelocked s a x e t :
  wq (th (prelocked_interrupt s a x e) t) = upd (fun i => wq (th s i)) x None t.
Proof. now rewrite th_prelocked, (upd_map wq). Qed.
Lemma owner_prelocked s a x e m : owner (mx (prelocked_interrupt s a x e) m) = owner (mx s m).
Proof. now rewrite mx_prelocked. Qed.
Lemma spl_prelocked s a x e m : spl (mx (prelocked_interrupt s a x e) m) = spl (mx s m).
Proof. now rewrite mx_prelocked. Qed.
Lemma rcnt_prelocked s a x e m : rcnt (mx (prelocked_interrupt s a x e) m) = rcnt (mx s m).
Proof. now rewrite mx_prelocked. Qed.
Lemma recursive_prelocked s a x e m : recursive (mx (prelocked_interrupt s a x e) m) = recursive (mx s m).
Proof. now rewrite mx_prelocked. Qed.
Lemma contending_prelocked s a x e m : contending (mx (prelocked_interrupt s a x e) m) = contending (mx s m).
Proof. now rewrite mx_prelocked. Qed.

#[global] Arguments dequeue : simpl never.
#[global] Arguments prelocked_interrupt : simpl never.
#[global] Arguments acquired : simpl never.

(* the case analysis: one goal per enabled outcome, `a` = the acting thread, Hpc = its program
   point, the post-state substituted into the GOAL as a folded expression (nothing is normalised;
   not `injection`: it head-normalises the post-state) *)
Ltac rets_in H := rewrite ?after_sleep_l0, ?after_sleep_lm1, ?after_sleep_op, ?ret_lock_0, ?ret_lock_m1 in H.
Ltac rets_goal := rewrite ?ret_lock_0, ?ret_lock_m1.
Lemma Some_inj {A} (x y : A) : Some x = Some y -> x = y.
Proof. congruence. Qed.
Ltac close_case Hs := split_ifs Hs; try discriminate Hs; apply Some_inj in Hs; subst; rets_goal.
Ltac scases Hs :=
  match type of Hs with
  | step ?s ?l = Some ?s' =>
      destruct l as [a o|a|a|a|a|a|d]; cbn [step] in Hs;
      [ unfold start in Hs; destruct (pc (th s a)) eqn:Hpc; try discriminate Hs;
        destruct o; close_case Hs
      | unfold tstep in Hs; cbv zeta in Hs;
        destruct (pc (th s a)) eqn:Hpc;
        try (match type of Hs with context [after_sleep _ _ ?k _ _] => destruct k end);
        rets_in Hs;
        unfold try_lock, intr_out, intr_fin, after_fail in Hs; cbv zeta in Hs;
        close_case Hs
      | unfold sched in Hs; cbv zeta in Hs; close_case Hs
      | unfold drain in Hs; cbv zeta in Hs; close_case Hs
      | unfold exp_lock in Hs; cbv zeta in Hs; close_case Hs
      | unfold exp_body in Hs;
        destruct (xp (th s a)) eqn:Hxp; [|discriminate Hs];
        destruct (tstate_eqb (st (th s a)) SLEEPING) eqn:Hst; apply Some_inj in Hs; subst s'
      | close_case Hs ]
  end.

Ltac obs_cbn :=
  progress cbn [th mx now vc aintr goto setT setM st err wq ts tlock pc xp cnt owner spl wqm rcnt retries
                contending recursive set_owner set_spl set_wqm set_rcnt set_st set_err set_wq set_ts
                set_tlock set_pc set_xp set_cnt lm ldl lrc].
Ltac obs_eff :=
  match goal with
  | |- context [th (acquired _ _ _ _) _] => rewrite !th_acquired
  | |- context [mx (acquired _ _ _ _) _] => rewrite !mx_acquired
  | |- context [th (prelocked_interrupt _ _ _ _) _] => rewrite !th_prelocked
  | |- context [mx (prelocked_interrupt _ _ _ _) _] => rewrite !mx_prelocked
  | |- context [th (dequeue _ _ _) _] => rewrite !th_dequeue
  | |- context [mx (dequeue _ _ _) _] => rewrite !mx_dequeue
  end.
Ltac obs_upd :=
  match goal with
  | |- context [upd ?f ?k ?v ?k] => rewrite (upd_eq f k v)
  | H : ?i <> ?k |- context [upd ?f ?k ?v ?i] => rewrite (upd_neq f k v i H)
  | H : ?k <> ?i |- context [upd ?f ?k ?v ?i] => rewrite (upd_neq f k v i (not_eq_sym H))
  | |- context [upd ?f ?k ?v ?i] =>
      let E := fresh "E" in
      destruct (Nat.eq_dec i k) as [E|E]; [first [subst i | subst k | rewrite E in *]|]
  end.
Ltac obs := repeat first [ obs_cbn | obs_eff | obs_upd ].
(* the same where the goal speaks of wait queues; Hq : forall x m', In x (wqm (mx s m')) -> wq (th s x) = Some m'
   (looked for first: the rewrite is slow to fail, and most goals have no dequeue) *)
Ltac obs_q Hq := obs; try match goal with |- context [rm _ _] => rewrite !(rm_queued _ _ _ (Hq _)) end.
