(* C01_Tac.v — reachability, and the small facts about `upd` and the boolean tests of the model that
   every invariant proof uses. *)
From Coq Require Import ZArith List.
From PV Require Import Base.U64 C01.C01_Model.
Import ListNotations.
Local Open Scope Z_scope.

(* any schedule, any length, from any initial state *)
Definition is_init (s : state) : Prop :=
  exists nw re ct rc v ai, s = init_state nw re ct rc v ai.

Inductive reachable : state -> Prop :=
| reach_init : forall s, is_init s -> reachable s
| reach_step : forall s l s', reachable s -> step s l = Some s' -> reachable s'.

Lemma reachable_run s ls s' : reachable s -> run s ls = Some s' -> reachable s'.
Proof.
  intros H. revert s H. induction ls as [|l r IH]; intros s H Hr; cbn in Hr.
  - inversion Hr; subst; exact H.
  - destruct (step s l) eqn:E; [|discriminate]. eapply IH; [|exact Hr]. eapply reach_step; eauto.
Qed.

Lemma upd_eq {A} (f : nat -> A) k v : upd f k v k = v.
Proof. unfold upd. now rewrite Nat.eqb_refl. Qed.
Lemma upd_neq {A} (f : nat -> A) k v i : i <> k -> upd f k v i = f i.
Proof. unfold upd. intros H. destruct (Nat.eqb_spec i k); congruence. Qed.
Lemma upd_map {A B} (f : A -> B) (g : nat -> A) k v i : f (upd g k v i) = upd (fun j => f (g j)) k (f v) i.
Proof. unfold upd. destruct (Nat.eqb i k); reflexivity. Qed.
Lemma upd_proj {A B} (f : A -> B) (g : nat -> A) k v i : f v = f (g k) -> f (upd g k v i) = f (g i).
Proof. unfold upd. intros H. destruct (Nat.eqb_spec i k); [subst; exact H|reflexivity]. Qed.

Lemma opt_tid_eqb_true a t : opt_tid_eqb a t = true <-> a = Some t.
Proof.
  destruct a as [x|]; cbn; [|split; discriminate].
  destruct (Nat.eqb_spec x t); split; intros; congruence.
Qed.
Lemma opt_tid_eqb_false a t : opt_tid_eqb a t = false <-> a <> Some t.
Proof.
  destruct (opt_tid_eqb a t) eqn:E.
  - apply opt_tid_eqb_true in E. split; [discriminate|congruence].
  - split; [|reflexivity]. intros _ H. apply opt_tid_eqb_true in H. congruence.
Qed.
Lemma tstate_eqb_true a b : tstate_eqb a b = true <-> a = b.
Proof. destruct a, b; cbn; split; intros; congruence. Qed.
Lemma tstate_eqb_false a b : tstate_eqb a b = false <-> a <> b.
Proof. destruct a, b; cbn; split; intros; congruence. Qed.

Lemma hd_In x (l : list nat) : hd_error l = Some x -> In x l.
Proof. destruct l; cbn; [discriminate|]. intros [= ->]. now left. Qed.
Lemma NoDup_snoc (l : list nat) t : NoDup l -> ~ In t l -> NoDup (l ++ [t]).
Proof.
  intros Hl Ht. induction Hl as [|z l Hz Hl IH]; cbn; [constructor; [tauto|constructor]|].
  constructor.
  - rewrite in_app_iff. cbn. intros [H|[H|[]]]; [tauto|]. subst. apply Ht. now left.
  - apply IH. intros H. apply Ht. now right.
Qed.

(* split every `if`/`match` scrutinee inside hypothesis H (a `... = Some s'`) *)
Ltac split_ifs H :=
  repeat match type of H with
  | context [if ?b then _ else _] => destruct b eqn:?
  | context [match ?x with _ => _ end] => destruct x eqn:?
  end.
