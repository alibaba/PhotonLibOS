(* C01_Own.v — the full-strength statements about ownership as they were written down BEFORE the F33
   repair (guarded by the idealisation `aintr s = true`), and the fact that the switch is a constant
   of a run.  They hold without the guard (C01_Own3.v: `*_holds`), by the invariants own_inv
   (C01_Cls.v) and live_inv / wit_inv (C01_Live.v). *)
From Coq Require Import ZArith List.
From PV Require Import Base.U64 C01.C01_Model C01.C01_Tac C01.C01_Eff C01.C01_Excl C01.C01_Inv2.
Import ListNotations.
Local Open Scope Z_scope.

Definition kz1 := pcwait.

(* the idealisation switch is a constant of the run *)
Lemma a_acquired s t m rc : aintr (acquired s t m rc) = aintr s.
Proof. unfold acquired. destruct rc; reflexivity. Qed.
Lemma a_dequeue s x ns : aintr (dequeue s x ns) = aintr s.
Proof. unfold dequeue. destruct (wq (th s x)); reflexivity. Qed.
Lemma a_prelocked s a x e : aintr (prelocked_interrupt s a x e) = aintr s.
Proof. unfold prelocked_interrupt. now rewrite a_dequeue. Qed.
Lemma aintr_step s l s' : step s l = Some s' -> aintr s' = aintr s.
Proof.
  intros Hs. scases Hs; cbn [aintr goto setT setM]; rewrite ?a_acquired, ?a_prelocked, ?a_dequeue; auto.
Qed.

(* the full-strength statements (proved in C01_Own3.v, even without the `aintr s = true` guard) *)
Definition lock_result_iff_owner : Prop :=
  forall s, reachable s -> aintr s = true -> forall t m r e,
    pc (th s t) = PRet (RLock m) r e ->
    (r = 0 <-> owner (mx s m) = Some t) /\ (r <> 0 -> wq (th s t) = None /\ forall m', ~ In t (wqm (mx s m'))).
Definition mutex_excl : Prop :=
  forall s, reachable s -> aintr s = true -> forall m t1 t2,
    (cnt (th s t1) m > 0)%nat -> (cnt (th s t2) m > 0)%nat -> t1 = t2.
Definition not_stuck : Prop :=
  forall s, reachable s -> aintr s = true -> forall m,
    owner (mx s m) = None -> wqm (mx s m) <> [] ->
    exists t, (exists x, pc (th s t) = PUint m x) \/
              (kz1 (pc (th s t)) m = true /\ wq (th s t) = None /\ err (th s t) = -1) \/
              (exists c, lm c = m /\ (pc (th s t) = PS1 (SLock c) \/ pc (th s t) = PS2 (SLock c) (-1) \/
                                      pc (th s t) = PLchk c \/ pc (th s t) = PLspl c \/ pc (th s t) = PLcas2 c)).
