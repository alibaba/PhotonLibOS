From Coq Require Import ZArith List Lia.
From PV Require Import Base.U64 E3.E3_Run C01.C01_Model C01.C01_Tac C01.C01_Excl C01.C01_Inv2
  C01.C01_Handoff C01.C01_Finding C01.C01_Spin_Model C01.C01_Spin_Proofs C01.C01_Mcs
  C01.C01_Cls C01.C01_Own3 C01.C01_Ex.
Import ListNotations.
(* ownership: every mutex class (mutex, seq_mutex, recursive_mutex), every interleaving, any number of
   threads / vCPUs, code as written after the F33 repair (both arms of the `aintr` switch) *)
(* a completed lock() / try_lock() (the thread sits at the return) returned 0 iff the caller is the owner,
   iff it is inside; and the caller is in no wait queue (its waitq field is null) *)
Theorem lock_result_iff_owner : forall s, reachable s -> forall t m r e,
  pc (th s t) = PRet (RLock m) r e \/ pc (th s t) = PRet (RTry m) r e ->
  (r = 0%Z <-> owner (mx s m) = Some t) /\ (r = 0%Z <-> (cnt (th s t) m > 0)%nat) /\
  wq (th s t) = None /\ forall m', ~ In t (wqm (mx s m')).
Proof. exact lock_result_l. Qed.
Print Assumptions lock_result_iff_owner.
Example lock_result_hyps_failed : exists s, run (ex_init false false) ex_timeout_sched = Some s /\ reachable s /\
  pc (th s 1%nat) = PRet (RLock 0%nat) (-1)%Z ETIMEDOUT /\ owner (mx s 0%nat) = Some 0%nat /\
  (cnt (th s 0%nat) 0%nat > 0)%nat.
Proof. run_ex E. Qed.
Example lock_result_hyps_handed : exists s, run f_init (f_sched ++ [LStep 1%nat]) = Some s /\ reachable s /\
  pc (th s 1%nat) = PRet (RLock 0%nat) 0%Z 0%Z /\ (cnt (th s 1%nat) 0%nat > 0)%nat.
Proof. run_ex E. Qed.
(* at most one thread is between a lock()/try_lock() that returned 0 and its unlock(); recursive_mutex included *)
Theorem mutex_excl : forall s, reachable s -> forall m t1 t2,
  (cnt (th s t1) m > 0)%nat -> (cnt (th s t2) m > 0)%nat -> t1 = t2.
Proof. exact mutex_excl_l. Qed.
Print Assumptions mutex_excl.
Theorem holder_is_owner : forall s, reachable s -> forall m t,
  (cnt (th s t) m > 0)%nat -> owner (mx s m) = Some t.
Proof. exact holder_is_owner_l. Qed.
Print Assumptions holder_is_owner.
(* recursive_mutex::recursive_count is the owner's nesting depth *)
Theorem recursive_count_is_depth : forall s, reachable s -> forall m t, recursive (mx s m) = true ->
  owner (mx s m) = Some t -> rcnt (mx s m) = Z.of_nat (cnt (th s t) m).
Proof. intros s Hr m t. apply (j_rc _ (own_inv_reachable s Hr)). Qed.
Print Assumptions recursive_count_is_depth.
Example recursive_hyps : exists s, run (ex_init false true) ex_rec_sched = Some s /\ reachable s /\
  recursive (mx s 0%nat) = true /\ cnt (th s 0%nat) 0%nat = 2%nat /\ owner (mx s 0%nat) = Some 0%nat /\
  rcnt (mx s 0%nat) = 2%Z.
Proof. run_ex E. Qed.
(* not left stuck, part 1: whoever `owner` names is inside, or is still in lock()/unlock() at a point from which
   it will learn it: about to return 0 / releasing, or being handed the mutex with the evidence intact (still
   queued, or error_number = -1) — never a thread whose lock() has failed *)
Theorem owner_accounted : forall s, reachable s -> forall m t, owner (mx s m) = Some t ->
  (cnt (th s t) m > 0)%nat \/
  must (pc (th s t)) m = true \/
  (pcwait (pc (th s t)) m = true /\ (In t (wqm (mx s m)) \/ err (th s t) = (-1)%Z)) \/
  (exists c, lm c = m /\ ((pc (th s t) = PS1 (SLock c) /\ err (th s t) = (-1)%Z) \/
                          pc (th s t) = PS2 (SLock c) (-1)%Z \/ pc (th s t) = PLchk c)).
Proof. exact owner_accounted_l. Qed.
Print Assumptions owner_accounted.
(* not left stuck, part 2: a free mutex with waiters has a thread on the way: an unlocker about to wake the head,
   a waiter woken by the hand-off (error_number = -1, out of the queue) that has not yet re-tried, or a thread at
   the CAS under the splock *)
Theorem not_stuck : forall s, reachable s -> forall m,
  owner (mx s m) = None -> wqm (mx s m) <> [] ->
  exists t,
    (exists x, pc (th s t) = PUint m x) \/
    (pcwait (pc (th s t)) m = true /\ wq (th s t) = None /\ ~ In t (wqm (mx s m)) /\ err (th s t) = (-1)%Z) \/
    (exists c, lm c = m /\ ((pc (th s t) = PS1 (SLock c) /\ err (th s t) = (-1)%Z) \/ pc (th s t) = PS2 (SLock c) (-1)%Z \/
                            pc (th s t) = PLchk c \/ pc (th s t) = PLspl c \/ pc (th s t) = PLcas2 c)).
Proof. exact not_stuck_l. Qed.
Print Assumptions not_stuck.
Example not_stuck_hyps : exists s, run (ex_init true false) ex_free_sched = Some s /\ reachable s /\
  owner (mx s 0%nat) = None /\ wqm (mx s 0%nat) = [1%nat] /\ pc (th s 0%nat) = PUint 0%nat 1%nat.
Proof. run_ex E. Qed.
(* exclusion / wait queue / hand-off (also hold for the code before the repair) *)
Theorem mutex_excl_plain : forall s, reachable s ->
  forall m t1 t2, recursive (mx s m) = false ->
    (cnt (th s t1) m > 0)%nat -> (cnt (th s t2) m > 0)%nat -> t1 = t2.
Proof.
  intros s Hr m t1 t2 Hp H1 H2. pose proof (inv1_reachable s Hr) as HI.
  pose proof (i1_cnt_owner _ _ _ _ (HI t1 m) Hp H1). pose proof (i1_cnt_owner _ _ _ _ (HI t2 m) Hp H2). congruence.
Qed.
Print Assumptions mutex_excl_plain.
Theorem holder_is_owner_plain : forall s, reachable s ->
  forall m t, recursive (mx s m) = false -> (cnt (th s t) m > 0)%nat -> owner (mx s m) = Some t.
Proof. intros s Hr m t Hp H1. exact (i1_cnt_owner _ _ _ _ (inv1_reachable s Hr t m) Hp H1). Qed.
Print Assumptions holder_is_owner_plain.
(* the wait queue of a mutex and the threads' own view agree *)
Theorem waitq_consistent : forall s, reachable s -> forall m,
  NoDup (wqm (mx s m)) /\
  forall x, In x (wqm (mx s m)) -> wq (th s x) = Some m /\ st (th s x) = SLEEPING /\ pcwait (pc (th s x)) m = true.
Proof.
  intros s Hr m. pose proof (inv2_reachable s Hr) as H. split; [apply (i2_nodup _ H)|].
  intros x Hx. destruct (i2_wq _ H x m Hx) as (A & B & C). auto.
Qed.
Print Assumptions waitq_consistent.
(* the thread that do_mutex_unlock stores as owner (PUst) and then wakes (PUint) is the HEAD of the mutex's
   queue, is still asleep in that queue, and its thread.lock is held by the unlocker *)
Theorem handoff_target : forall s, reachable s -> forall u m x,
  pc (th s u) = PUst m (Some x) \/ pc (th s u) = PUint m x ->
  hd_error (wqm (mx s m)) = Some x /\ wq (th s x) = Some m /\ st (th s x) = SLEEPING /\
  tlock (th s x) = Some (HT u) /\ xp (th s x) = false /\ x <> u.
Proof.
  intros s Hr u m x Hpc.
  destruct (uhead_facts s u m x (inv2_reachable s Hr) (uhead_pc _ _ _ Hpc)) as (A & _ & _ & B & C & D & E & F).
  auto 6.
Qed.
Print Assumptions handoff_target.
(* a wake-up by timeout (LExpBody x) or by thread_interrupt (PI3) of x cannot happen while an unlocker is
   handing the mutex to x: they need the same thread.lock *)
Theorem handoff_excludes : forall s, reachable s -> forall u m x,
  pc (th s u) = PUst m (Some x) \/ pc (th s u) = PUint m x ->
  xp (th s x) = false /\ forall i e, pc (th s i) = PI3 x e -> False.
Proof.
  intros s Hr u m x Hpc. pose proof (inv2_reachable s Hr) as H.
  destruct (uhead_facts s u m x H (uhead_pc _ _ _ Hpc)) as (_ & _ & _ & _ & _ & Hl & Hx & _).
  split; [exact Hx|]. intros i e Hi. pose proof (i2_tl _ H i x) as Hl'. rewrite Hi in Hl'.
  assert (i = u) by (specialize (Hl' eq_refl); congruence). subst. destruct Hpc; congruence.
Qed.
Print Assumptions handoff_excludes.
(* the hand-off step itself: exactly the head leaves the queue, becomes READY/STANDBY with error_number = -1;
   every other queued thread stays queued and asleep *)
Theorem handoff_step : forall s, reachable s -> forall u m x s',
  pc (th s u) = PUint m x -> step s (LStep u) = Some s' ->
  wqm (mx s' m) = tl (wqm (mx s m)) /\ err (th s' x) = (-1)%Z /\ wq (th s' x) = None /\
  (st (th s' x) = READY \/ st (th s' x) = STANDBY) /\ owner (mx s' m) = owner (mx s m) /\
  forall y, y <> x -> In y (wqm (mx s m)) -> In y (wqm (mx s' m)) /\ st (th s' y) = SLEEPING.
Proof. exact handoff_step_l. Qed.
Print Assumptions handoff_step.
(* finding F33 (fixed in /repo, commit 34f175e): BEFORE the repair (PIo2 a plain store) a 33-step schedule ends
   with lock() = -1/EINTR while owner == CURRENT; with the repair the same schedule ends with lock() = 0 *)
Theorem lock_result_refuted :
  exists s, reachable_prefix s /\ aintr s = false /\ lock_failed_but_owner s 1%nat 0%nat.
Proof.
  destruct (run_prefix f_init f_sched) as [s|] eqn:E; [|vm_compute in E; discriminate].
  exists s. split; [|split].
  - eapply reachable_prefix_run; [|exact E]. apply rp_init. unfold f_init. repeat eexists.
  - vm_compute in E. injection E as <-. reflexivity.
  - vm_compute in E. injection E as <-. exists 4%Z. vm_compute. auto.
Qed.
Print Assumptions lock_result_refuted.
Theorem f33_schedule_repaired :
  exists s, run f_init (f_sched ++ [LStep 1%nat]) = Some s /\ reachable s /\ aintr s = false /\
            pc (th s 1%nat) = PRet (RLock 0%nat) 0%Z 0%Z /\ owner (mx s 0%nat) = Some 1%nat /\ cnt (th s 1%nat) 0%nat = 1%nat.
Proof. run_ex E. Qed.
Print Assumptions f33_schedule_repaired.
Theorem tas_excl : forall scr s, tas_reach scr s ->
  forall p q, t_ins (tl_th s p) = true -> t_ins (tl_th s q) = true -> p = q.
Proof. intros scr s H. apply (tas_inv_reach scr s H). Qed.
Print Assumptions tas_excl.
Theorem ticket_excl : forall scr s, tkl_reach scr s ->
  forall p q, t_ins (kl_th s p) = true -> t_ins (kl_th s q) = true -> p = q.
Proof.
  intros scr s H p q Hp Hq. destruct (tkl_inv_reach _ _ H) as (_ & HB & _ & HD & _).
  eapply HB; [apply HD; exact Hp | apply HD; exact Hq].
Qed.
Print Assumptions ticket_excl.
(* FIFO: the participant inside holds ticket = serv, the SMALLEST outstanding ticket; tickets are handed out in
   strictly increasing order (KFa takes `next`), so admission order = ticket order *)
Theorem ticket_fifo : forall scr s, tkl_reach scr s ->
  forall p, t_ins (kl_th s p) = true ->
    kl_tkt s p = Some (kl_serv s) /\
    forall q t, q <> p -> kl_tkt s q = Some t -> (kl_serv s < t < kl_next s)%Z.
Proof.
  intros scr s H p Hp. destruct (tkl_inv_reach _ _ H) as (HA & HB & _ & HD & _).
  split; [apply HD; auto|]. intros q t Hq Hqt. pose proof (HA _ _ Hqt).
  destruct (Z.eq_dec t (kl_serv s)) as [->|]; [|lia]. exfalso. apply Hq. eapply HB; eauto.
Qed.
Print Assumptions ticket_fifo.
Theorem mcs_excl : forall scr s, qsl_reach scr s ->
  forall p q, t_ins (q_th s p) = true -> t_ins (q_th s q) = true -> p = q.
Proof.
  intros scr s H p q Hp Hq. pose proof (qsl_inv_reach _ _ H) as HI.
  destruct (inside_head s p HI Hp) as (r1 & E1). destruct (inside_head s q HI Hq) as (r2 & E2). congruence.
Qed.
Print Assumptions mcs_excl.
(* the lock word: somebody inside => _owner_tail is not null *)
Theorem mcs_locked : forall scr s, qsl_reach scr s -> forall p, t_ins (q_th s p) = true -> q_tail s <> None.
Proof.
  intros scr s H p Hp. pose proof (qsl_inv_reach _ _ H) as HI. destruct (inside_head s p HI Hp) as (r & E).
  destruct HI as (HC & _). unfold chain_ok in HC. rewrite E in HC. destruct HC as (_ & _ & Et). congruence.
Qed.
Print Assumptions mcs_locked.
