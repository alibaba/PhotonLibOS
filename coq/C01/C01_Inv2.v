(* C01_Inv2.v — inv2: the structural invariants of the hand-off protocol (who holds a
   thread.lock, what being in a wait queue means, what the unlocker has locked): definitions, list
   lemmas, preservation clause by clause.  They hold for the code as written, both arms of `aintr`. *)
From Coq Require Import ZArith List Lia.
From PV Require Import Base.U64 C01.C01_Model C01.C01_Tac C01.C01_Eff C01.C01_Excl.
Import ListNotations.
Local Open Scope Z_scope.

(* t waits in (or has been taken out of) the queue of m, not yet resumed *)
Definition pcwait (p : pc_t) (m : mid) : bool :=
  match p with
  | PLdefer c | PSw (SLock c) => on c m
  | _ => false
  end.
Definition sleeppc (p : pc_t) : bool :=
  match p with PLdefer _ | PSw _ => true | _ => false end.
(* t holds x's thread.lock *)
Definition pc_tl (p : pc_t) : option tid :=
  match p with
  | PUre _ x | PUunl _ x | PUst _ (Some x) | PUint _ x | PUrel _ x => Some x
  | PI2 x _ | PI3 x _ | PIo1 x _ true | PIo2 x _ true | PIrel x => Some x
  | _ => None
  end.
Definition is_PI3 (p : pc_t) (x : tid) : bool :=
  match p with PI3 y _ => Nat.eqb y x | _ => false end.
(* the unlocker has locked the head x of m's queue and re-checked it *)
Definition uhead (p : pc_t) (m : mid) : option tid :=
  match p with
  | PUst m' (Some x) | PUint m' x => if Nat.eqb m' m then Some x else None
  | _ => None
  end.
(* t holds m's splock *)
Definition pc_spl (p : pc_t) : option mid :=
  match p with
  | PLcas2 c | PLok c | PLexp c | PLto c | PLenq c | PLdefer c => Some (lm c)
  | PUhd m | PUlk m _ | PUre m _ | PUunl m _ | PUst m _ | PUint m _ | PUrel m _ | PUunspl m => Some m
  | _ => None
  end.

Record inv2 (s : state) : Prop := mkInv2 {
  i2_tl : forall t x, pc_tl (pc (th s t)) = Some x -> tlock (th s x) = Some (HT t);
  i2_xp : forall x, xp (th s x) = true -> tlock (th s x) = Some HX;
  i2_wq : forall x m, In x (wqm (mx s m)) ->
            pcwait (pc (th s x)) m = true /\ wq (th s x) = Some m /\ st (th s x) = SLEEPING;
  i2_nodup : forall m, NoDup (wqm (mx s m));
  i2_slp1 : forall t, st (th s t) = SLEEPING -> sleeppc (pc (th s t)) = true;
  i2_slp2 : forall t m, st (th s t) = SLEEPING -> pcwait (pc (th s t)) m = true -> In t (wqm (mx s m));
  i2_pi3 : forall t x, is_PI3 (pc (th s t)) x = true -> st (th s x) = SLEEPING;
  i2_u : forall t m x, uhead (pc (th s t)) m = Some x -> hd_error (wqm (mx s m)) = Some x
}.

Lemma inv2_wq_of_in s : inv2 s -> forall x m', In x (wqm (mx s m')) -> wq (th s x) = Some m'.
Proof. intros H x m' Hi. apply (i2_wq _ H x m' Hi). Qed.

Lemma In_rm a y l : In a (rm y l) -> In a l.
Proof.
  induction l as [|z l IH]; cbn; [tauto|]. destruct (Nat.eqb_spec z y); cbn; intuition.
Qed.
Lemma In_rm_neq a y l : In a l -> a <> y -> In a (rm y l).
Proof.
  induction l as [|z l IH]; cbn; [tauto|]. intros [->|H] Hn.
  - destruct (Nat.eqb_spec a y); [congruence|]. now left.
  - destruct (Nat.eqb_spec z y); [assumption|]. right; auto.
Qed.
Lemma NoDup_rm y l : NoDup l -> NoDup (rm y l).
Proof.
  induction 1 as [|z l Hz Hl IH]; cbn; [constructor|].
  destruct (Nat.eqb_spec z y); [assumption|]. constructor; [|assumption].
  intros H. apply Hz. eapply In_rm; eauto.
Qed.
Lemma not_In_rm y l : NoDup l -> ~ In y (rm y l).
Proof.
  induction 1 as [|z l Hz Hl IH]; cbn; [tauto|].
  destruct (Nat.eqb_spec z y); [subst; assumption|]. cbn. intuition.
Qed.
Lemma hd_rm x y l : hd_error l = Some x -> x <> y -> hd_error (rm y l) = Some x.
Proof.
  destruct l as [|z l]; cbn; [discriminate|]. intros [= ->] Hn.
  destruct (Nat.eqb_spec x y); [congruence|reflexivity].
Qed.
Lemma hd_app x (l : list tid) t : hd_error l = Some x -> hd_error (l ++ [t]) = Some x.
Proof. destruct l; cbn; [discriminate|auto]. Qed.
Lemma In_snoc a (l : list tid) t : In a (l ++ [t]) <-> In a l \/ a = t.
Proof. rewrite in_app_iff. cbn. intuition. Qed.

Lemma inv2_init s : is_init s -> inv2 s.
Proof.
  intros (nw & re & ct & rc & v & ai & ->).
  constructor; cbn; intros; try congruence; try tauto; try constructor.
Qed.

Ltac gsolve := try solve [ assumption | congruence | eauto 3 | intuition (eauto 3; try congruence; try lia) ].
Ltac gfin := fin1; gsolve; fin1; gsolve.

Lemma is_PI3_tl p x : is_PI3 p x = true -> pc_tl p = Some x.
Proof. destruct p; cbn; try discriminate. intros H. apply Nat.eqb_eq in H. now subst. Qed.
Lemma uhead_tl p m x : uhead p m = Some x -> pc_tl p = Some x.
Proof.
  destruct p; cbn; try discriminate.
  - destruct h; [|discriminate]. destruct (Nat.eqb m0 m); [|discriminate]. auto.
  - destruct (Nat.eqb m0 m); [|discriminate]. auto.
Qed.
Lemma uhead_pc p m x : p = PUst m (Some x) \/ p = PUint m x -> uhead p m = Some x.
Proof. intros [-> | ->]; cbn; now rewrite Nat.eqb_refl. Qed.
(* the thread x that do_mutex_unlock stores as owner (PUst) and then wakes (PUint) is the HEAD of the
   mutex's queue, is still asleep in that queue, and its thread.lock is held by the unlocker *)
Lemma uhead_facts s u m x : inv2 s -> uhead (pc (th s u)) m = Some x ->
  hd_error (wqm (mx s m)) = Some x /\ In x (wqm (mx s m)) /\ pcwait (pc (th s x)) m = true /\
  wq (th s x) = Some m /\ st (th s x) = SLEEPING /\ tlock (th s x) = Some (HT u) /\ xp (th s x) = false /\ x <> u.
Proof.
  intros H Hu. pose proof (i2_u _ H u m x Hu) as Hh. pose proof (hd_In _ _ Hh) as Hi.
  pose proof (i2_tl _ H u x (uhead_tl _ _ _ Hu)) as Hl. destruct (i2_wq _ H x m Hi) as (A & B & C).
  repeat split; auto.
  - destruct (xp (th s x)) eqn:E; [|reflexivity]. pose proof (i2_xp _ H x E). congruence.
  - intros ->. destruct (pc (th s u)); cbn in Hu, A; first [discriminate Hu | discriminate A].
Qed.
Ltac tlfacts :=
  repeat match goal with
  | Hq : is_PI3 ?p ?x = true |- _ =>
      lazymatch goal with _ : pc_tl p = Some x |- _ => fail | _ => pose proof (is_PI3_tl _ _ Hq) end
  | Hq : uhead ?p ?m = Some ?x |- _ =>
      lazymatch goal with _ : pc_tl p = Some x |- _ => fail | _ => pose proof (uhead_tl _ _ _ Hq) end
  end.

Ltac lst H :=
  repeat match goal with
  | Hi : In _ (_ ++ [_]) |- _ => apply In_snoc in Hi; destruct Hi; subst
  | Hi : In ?y (rm ?y ?l) |- _ => exfalso; apply (not_In_rm y l); [apply (i2_nodup _ H)|exact Hi]
  | Hi : In ?a (rm ?y ?l) |- _ => apply In_rm in Hi
  end.

(* Every reachable state satisfies inv2.  For each step and each clause: pose the clause of the old
   state at the thread looked at and at the acting thread `a` (and the few other clauses a non-local
   step needs) before `obs` renames indices; project; close. *)
Lemma inv2_step s l s' : inv2 s -> step s l = Some s' -> inv2 s'.
Proof.
  intros H Hs. scases Hs; try exact H; [ .. | destruct H; constructor; assumption ].
  all: constructor;
    [ intros t0 x0;
          pose proof (i2_tl _ H t0 x0); pose proof (i2_tl _ H a x0); pose proof (i2_xp _ H x0);
          pose proof (i2_tl _ H t0 a); pose proof (i2_tl _ H a a); pose proof (i2_xp _ H a);
          obs; try assumption; gfin
        | intros x0;
          pose proof (i2_xp _ H x0); pose proof (i2_tl _ H a x0); pose proof (i2_tl _ H a a); pose proof (i2_xp _ H a);
          obs; try assumption; gfin
        | intros x0 m0;
          pose proof (i2_wq _ H x0 m0); pose proof (i2_wq _ H a m0); pose proof (i2_nodup _ H m0);
          pose proof (i2_slp1 _ H a); pose proof (i2_slp1 _ H x0);
          obs_q (inv2_wq_of_in _ H); try assumption; gfin; lst H; gsolve
        | intros m0;
          pose proof (i2_nodup _ H m0); pose proof (i2_wq _ H a m0);
          obs_q (inv2_wq_of_in _ H); try assumption; gfin;
          try (apply NoDup_rm; assumption); try (apply NoDup_snoc; [assumption|]; intros Hin; gsolve)
        | intros t0;
          pose proof (i2_slp1 _ H t0); pose proof (i2_slp1 _ H a);
          obs; try assumption; gfin
        | intros t0 m0;
          pose proof (i2_slp2 _ H t0 m0); pose proof (i2_slp2 _ H a m0); pose proof (i2_slp1 _ H t0);
          pose proof (i2_slp1 _ H a);
          obs_q (inv2_wq_of_in _ H); try assumption; gfin;
          try (apply In_snoc; gsolve); try (apply In_rm_neq; gsolve)
        | intros t0 x0;
          pose proof (i2_pi3 _ H t0 x0); pose proof (i2_pi3 _ H a x0);
          pose proof (i2_tl _ H t0 x0); pose proof (i2_tl _ H a x0); pose proof (i2_xp _ H x0);
          pose proof (i2_slp1 _ H x0);
          obs; try assumption; gfin; tlfacts; try (intros ->); gsolve
        | intros t0 m0 x0;
          pose proof (i2_u _ H t0 m0 x0); pose proof (i2_u _ H a m0 x0);
          pose proof (i2_tl _ H t0 x0); pose proof (i2_tl _ H a x0); pose proof (i2_xp _ H x0);
          obs_q (inv2_wq_of_in _ H); try assumption; gfin;
          try (apply hd_app; gsolve); try (apply hd_rm; gsolve); tlfacts; try (intros ->); gsolve ].
Qed.
Lemma inv2_reachable s : reachable s -> inv2 s.
Proof.
  induction 1 as [s Hi|s l s' _ IH Hs]; [exact (inv2_init s Hi) | exact (inv2_step s l s' IH Hs)].
Qed.
