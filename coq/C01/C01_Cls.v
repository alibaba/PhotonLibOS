(* C01_Cls.v — the ownership invariant `own_inv` (who may be `owner`, lock() result vs ownership,
   recursive_count), stated through ONE class function over program points: definitions, the
   small facts relating the classes to inv2's predicates, preservation clause by clause, and
   what the invariant yields.
   Holds for both arms of the `aintr` switch: the only fact about thread_interrupt's `out:` branch
   that it uses is "error_number is overwritten only when it is 0 at that instant" (the CAS of the
   F33 repair, commit 34f175e). *)
From Coq Require Import ZArith List Bool Lia.
From PV Require Import Base.U64 C01.C01_Model C01.C01_Tac C01.C01_Excl C01.C01_Inv2 C01.C01_Eff.
Import ListNotations.
Local Open Scope Z_scope.

(* class of a program point with respect to mutex m *)
Inductive cls : Type :=
| CFree            (* outside the protocol of m: owner = self  <->  inside (cnt > 0) *)
| CMust            (* owner = self, not yet / no longer counted *)
| CNot             (* owner <> self *)
| CZ1              (* asleep in / just taken out of m's queue *)
| CZ2              (* resumed: about to read error_number *)
| CZ3 (e : Z)      (* has read error_number = e *)
| CZ4.             (* about to load owner (1788) *)

Definition classify (p : pc_t) (m : mid) : cls :=
  match p with
  | PY1 (YLock c _) | PY2 (YLock c _) | PYw (YLock c _) | PY3 (YLock c _) => if on c m then CNot else CFree
  | PL0 c | PLcas1 c _ | PLspl c | PLcas2 c | PLexp c | PLto c | PLenq c => if on c m then CNot else CFree
  | PLok c => if on c m then CMust else CFree
  | PLdefer c | PSw (SLock c) => if on c m then CZ1 else CFree
  | PS1 (SLock c) => if on c m then CZ2 else CFree
  | PS2 (SLock c) e => if on c m then CZ3 e else CFree
  | PLchk c => if on c m then CZ4 else CFree
  | PT0 m' _ | PUint m' _ | PUrel m' _ | PUunspl m' => if Nat.eqb m' m then CNot else CFree
  | PUspl m' | PUhd m' | PUlk m' _ | PUre m' _ | PUunl m' _ | PUst m' _ => if Nat.eqb m' m then CMust else CFree
  | _ => CFree
  end.

(* o = owner of m, q = its queue, c = the thread's ghost count for m, e = its error_number *)
Definition cls_ok (k : cls) (o : option tid) (q : list tid) (c : nat) (e : Z) (t : tid) : Prop :=
  match k with
  | CFree => o = Some t <-> (c > 0)%nat
  | CMust => o = Some t /\ c = O
  | CNot => o <> Some t /\ c = O
  | CZ1 => c = O /\ (o = Some t -> In t q \/ e = -1)
  | CZ2 => c = O /\ (o = Some t -> e = -1)
  | CZ3 e' => c = O /\ (o = Some t -> e' = -1)
  | CZ4 => c = O
  end.

(* the mutex and the result a returned lock()/try_lock() carries *)
Definition retinfo (p : pc_t) : option (mid * Z) :=
  match p with
  | PRet (RLock m) r _ | PRet (RTry m) r _ => Some (m, r)
  | _ => None
  end.

Record own_inv (s : state) : Prop := mkOwn {
  j_cls : forall t m, cls_ok (classify (pc (th s t)) m) (owner (mx s m)) (wqm (mx s m))
                             (cnt (th s t) m) (err (th s t)) t;
  (* the owner is still queued only while its unlocker is about to wake it *)
  j_a : forall t m, owner (mx s m) = Some t -> In t (wqm (mx s m)) -> exists u, pc (th s u) = PUint m t;
  j_rc : forall t m, recursive (mx s m) = true -> owner (mx s m) = Some t ->
                     rcnt (mx s m) = Z.of_nat (cnt (th s t) m);
  j_rc0 : forall m, owner (mx s m) = None \/ recursive (mx s m) = false -> rcnt (mx s m) = 0;
  j_ret : forall t m r, retinfo (pc (th s t)) = Some (m, r) ->
                        (r = 0 /\ (cnt (th s t) m > 0)%nat) \/ (r <> 0 /\ cnt (th s t) m = O)
}.

Lemma own_inv_init s : is_init s -> own_inv s.
Proof.
  intros (nw & re & ct & rc & v & ai & ->).
  constructor; cbn; intros; try congruence; try tauto; try discriminate.
  split; intros; [congruence|lia].
Qed.

Lemma classify_pcwait p m : pcwait p m = true -> classify p m = CZ1.
Proof.
  destruct p; cbn; try discriminate; try (destruct k; cbn; try discriminate); intros ->; reflexivity.
Qed.
Lemma classify_CZ1 p m : classify p m = CZ1 -> pcwait p m = true.
Proof.
  destruct p; cbn; try discriminate; try (destruct k; cbn; try discriminate);
    repeat match goal with |- context [if ?b then _ else _] => destruct b end; try discriminate; reflexivity.
Qed.
(* a SLEEPING thread (sleeppc) is in class Z1 or Free of every mutex *)
Lemma classify_sleeppc p m : sleeppc p = true -> classify p m = CZ1 \/ classify p m = CFree.
Proof.
  destruct p; cbn; try discriminate; try (destruct k; cbn); intros _;
    repeat match goal with |- context [if ?b then _ else _] => destruct b end; auto.
Qed.

#[export] Hint Resolve In_rm In_rm_neq hd_In in_or_app in_eq : c01l.

(* consequences of inv2 / own_inv used at the few non-local steps *)
Lemma in_sleeping s x m : inv2 s -> In x (wqm (mx s m)) -> st (th s x) = SLEEPING.
Proof. intros H Hi. apply (i2_wq _ H x m Hi). Qed.
Lemma in_class s x m : inv2 s -> In x (wqm (mx s m)) -> classify (pc (th s x)) m = CZ1.
Proof. intros H Hi. apply classify_pcwait. apply (i2_wq _ H x m Hi). Qed.
Lemma sleeping_class s x m : inv2 s -> st (th s x) = SLEEPING ->
  classify (pc (th s x)) m = CZ1 \/ classify (pc (th s x)) m = CFree.
Proof. intros H Hs. apply classify_sleeppc. apply (i2_slp1 _ H x Hs). Qed.
Lemma sleeping_cz1_in s x m : inv2 s -> st (th s x) = SLEEPING -> classify (pc (th s x)) m = CZ1 ->
  In x (wqm (mx s m)).
Proof. intros H Hs Hk. apply (i2_slp2 _ H x m Hs). apply classify_CZ1. exact Hk. Qed.
Lemma pi3_sleeping s a x e : inv2 s -> pc (th s a) = PI3 x e -> st (th s x) = SLEEPING.
Proof. intros H Hp. apply (i2_pi3 _ H a x). rewrite Hp. cbn. apply Nat.eqb_refl. Qed.
(* an owner that is still queued: its thread.lock is held by the unlocker at PUint *)
Lemma queued_owner_lock s x m : inv2 s -> own_inv s -> owner (mx s m) = Some x -> In x (wqm (mx s m)) ->
  exists u, pc (th s u) = PUint m x /\ tlock (th s x) = Some (HT u).
Proof.
  intros H2 H3 Ho Hi. destruct (j_a _ H3 x m Ho Hi) as [u Hu]. exists u. split; [exact Hu|].
  apply (i2_tl _ H2 u x). rewrite Hu. reflexivity.
Qed.
Lemma queued_owner_xp s x m : inv2 s -> own_inv s -> owner (mx s m) = Some x -> In x (wqm (mx s m)) ->
  xp (th s x) = true -> False.
Proof.
  intros H2 H3 Ho Hi Hx. destruct (queued_owner_lock s x m H2 H3 Ho Hi) as (u & _ & Hl).
  pose proof (i2_xp _ H2 x Hx). congruence.
Qed.
Lemma queued_owner_pi3 s x m : inv2 s -> own_inv s -> owner (mx s m) = Some x -> In x (wqm (mx s m)) ->
  forall i e, pc (th s i) = PI3 x e -> False.
Proof.
  intros H2 H3 Ho Hi i e Hp. destruct (queued_owner_lock s x m H2 H3 Ho Hi) as (u & Hu & Hl).
  assert (Hl2 : tlock (th s x) = Some (HT i)) by (apply (i2_tl _ H2 i x); rewrite Hp; reflexivity).
  assert (u = i) by congruence. subst. congruence.
Qed.
(* the `called through recursive_mutex` flag of the operation in progress *)
Lemma flag_rec s a m b : inv1 s -> pc_flag (pc (th s a)) = Some (m, b) -> b = recursive (mx s m).
Proof. intros H Hf. exact (i1_flag _ _ _ _ (H a m) b Hf). Qed.

Ltac dvars_all :=
  repeat match goal with
  | |- context [match ?k with _ => _ end] => is_var k; destruct k
  | H : context [match ?k with _ => _ end] |- _ => is_var k; destruct k
  end.
(* compute the classes of the known program points, split the unknown ones (7 cases; `destruct`
   also rewrites the hypotheses, so facts about the class must be posed BEFORE) *)
Ltac cls_leaf :=
  cbn [classify] in *; dvars_all; unfold on in *; cbn [lm] in *; eqb_tac;
  repeat match goal with
  | |- context [classify (pc (th ?s ?t)) ?m] => destruct (classify (pc (th s t)) m)
  | H : context [classify (pc (th ?s ?t)) ?m] |- _ => destruct (classify (pc (th s t)) m)
  end;
  cbn [cls_ok] in *.
Ltac fin_leaf := solve [ assumption | congruence | intuition (try congruence; try lia; eauto with c01l) ].

(* the class facts of the thread looked at (t0) and of the acting thread (a), at mutex m0 *)
Ltac cls_pose H3 :=
  match goal with
  | |- cls_ok (classify _ ?m0) _ _ _ _ ?t0 =>
      pose proof (j_cls _ H3 t0 m0) as Ht;
      try match goal with Hp : pc (th _ ?a) = _ |- _ =>
            pose proof (j_cls _ H3 a m0) as Ha; rewrite Hp in Ha; try rewrite Hp in Ht end
  end.
(* the few steps whose argument is not local to (t0, m0) and (a, m0) *)
Ltac cls_extra H1 H2 H3 :=
  try match goal with
  | Hp : pc (th ?s ?a) = PU0 ?m ?rc |- _ =>
      pose proof (flag_rec s a m rc H1) as Hf; rewrite Hp in Hf; specialize (Hf eq_refl); symmetry in Hf;
      pose proof (i1_plain _ _ _ _ (H1 a m)) as Hpl; pose proof (j_rc _ H3 a m) as Hrc
  | Hp : pc (th ?s ?a) = PUst ?m (Some ?x) |- _ =>
      pose proof (uhead_facts s a m x H2 (uhead_pc _ _ _ (or_introl Hp))) as (_ & Hin & Hkx & _ & _ & _ & _ & Hne);
      apply classify_pcwait in Hkx;
      match goal with |- cls_ok _ _ _ _ _ ?t0 => destruct (Nat.eq_dec t0 x) as [->|Hne0] end;
      [rewrite ?Hkx in *|]
  | Hp : pc (th ?s ?a) = PI3 ?x ?e |- cls_ok _ (owner (mx _ ?m0)) _ _ _ _ =>
      pose proof (pi3_sleeping s a x e H2 Hp) as Hsl;
      pose proof (sleeping_class s x m0 H2 Hsl) as Hsc;
      pose proof (sleeping_cz1_in s x m0 H2 Hsl) as Hsi;
      pose proof (fun Ho Hi => queued_owner_pi3 s x m0 H2 H3 Ho Hi a e Hp) as Hq
  | Hp : pc (th ?s ?a) = PSw _ |- cls_ok _ (owner (mx _ ?m0)) _ _ _ _ =>
      pose proof (in_sleeping s a m0 H2) as Hsl
  | Hx : xp (th ?s ?a) = true |- cls_ok _ (owner (mx _ ?m0)) _ _ _ _ =>
      pose proof (fun Ho Hi => queued_owner_xp s a m0 H2 H3 Ho Hi Hx) as Hq
  end.

(* the old witness still works: its program point is unchanged, or it is the acting thread and the
   step is not the wake-up *)
Ltac ja_frame H2 H3 :=
  match goal with
  | Ho : owner (mx ?s ?m) = Some ?t, Hi : In ?t (wqm (mx ?s ?m)) |- _ =>
      let u := fresh "u" in let Hu := fresh "Hu" in
      destruct (j_a _ H3 t m Ho Hi) as [u Hu]; exists u; obs_q (inv2_wq_of_in _ H2); first [exact Hu | congruence]
  end.

(* facts about the acting thread at mutex m0: its class, the flag of its operation, recursive_count *)
Ltac rc_pose H1 H2 H3 :=
  match goal with |- context [recursive (mx _ ?m0)] =>
  pose proof (j_rc0 _ H3 m0) as Hr0;
  match goal with Hp : pc (th ?s ?a) = _ |- _ =>
    pose proof (j_cls _ H3 a m0) as Ha; rewrite Hp in Ha;
    pose proof (j_rc _ H3 a m0) as Hra;
    pose proof (fun b => flag_rec s a m0 b H1) as Hf; rewrite Hp in Hf; cbn [pc_flag] in Hf
  end end.
Ltac flag_use :=
  repeat match goal with
  | Hf : forall b : bool, Some (?m, ?x) = Some (?m, b) -> _ |- _ => specialize (Hf _ eq_refl)
  | Hf : forall b : bool, None = Some _ -> _ |- _ => clear Hf
  | Hf : forall b : bool, Some (?m, _) = Some (?m', b) -> _, E : ?m <> ?m' |- _ => clear Hf
  end.
Ltac rc_fin :=
  rewrite ?andb_false_r, ?andb_true_r in *;
  try match goal with Hf : ?b = recursive _ |- _ =>
        first [ constr_eq b true; symmetry in Hf | constr_eq b false; symmetry in Hf | rewrite Hf in * ] end;
  try match goal with
      | |- context [recursive (mx ?s ?m)] => destruct (recursive (mx s m)) eqn:?
      | H : context [recursive (mx ?s ?m)] |- _ => destruct (recursive (mx s m)) eqn:?
      end;
  cbn [andb] in *;
  solve [ assumption | congruence | intuition (try congruence; try lia) ].

(* the same, with recursive_count of the owner looked at and, at the hand-off, the class of the new owner *)
Ltac rc_pose2 H1 H2 H3 :=
  match goal with |- recursive (mx _ ?m0) = true -> _ = Some ?t0 -> _ => pose proof (j_rc _ H3 t0 m0) as Hrt end;
  rc_pose H1 H2 H3;
  try match goal with Hq : pc (th ?s ?a) = PUst ?m (Some ?x) |- _ =>
    pose proof (uhead_facts s a m x H2 (uhead_pc _ _ _ (or_introl Hq))) as (_ & _ & Hkx & _ & _ & _ & _ & Hne);
    apply classify_pcwait in Hkx;
    pose proof (j_cls _ H3 x m) as Hx; rewrite Hkx in Hx end.

Lemma own_inv_step s l s' : inv1 s -> inv2 s -> own_inv s -> step s l = Some s' -> own_inv s'.
Proof.
  intros H1 H2 H3 Hs. constructor.
  - scases Hs.
    all: intros t0 m0; obs_q (inv2_wq_of_in _ H2).
    all: try exact (j_cls _ H3 _ _).
    all: cls_pose H3; cls_extra H1 H2 H3; clear H1 H2 H3; cls_leaf; boolfacts.
    all: try fin_leaf.
    all: match goal with H : _ <-> (?n > 0)%nat |- _ =>
           destruct (Nat.eq_dec n 0); [|assert (n > 0)%nat by lia] end; fin_leaf.
  - scases Hs.
    all: intros t0 m0; obs_q (inv2_wq_of_in _ H2); intros Ho Hi.
    all: try solve [ja_frame H2 H3].
    all: try discriminate Ho.
    (* the hand-off has just been decided: the unlocker itself is the witness *)
    all: try solve [ match goal with Hp : pc (th _ ?a) = PUst _ (Some _) |- _ => exists a; obs_q (inv2_wq_of_in _ H2); congruence end ].
    (* the acting thread's own CAS succeeded: it is not in the queue *)
    all: try solve [ match goal with Ho : Some ?a = Some ?t, Hi : In ?t (wqm (mx ?s ?m)), Hp : pc (th ?s ?a) = _ |- _ =>
           exfalso; injection Ho as <-; pose proof (in_class s a m H2 Hi) as Hk; rewrite Hp in Hk;
           cbn [classify] in Hk; unfold on in Hk; rewrite ?Nat.eqb_refl in Hk; discriminate Hk end ].
    (* a thread x leaves the queue (hand-off wake-up, interrupt, timeout) *)
    all: try solve [ match goal with Hi : In ?t (rm ?x ?q), Ho : owner (mx ?s ?m) = Some ?t |- _ =>
           let u := fresh "u" in let Hu := fresh "Hu" in
           destruct (j_a _ H3 t m Ho (In_rm _ _ _ Hi)) as [u Hu]; exists u; obs_q (inv2_wq_of_in _ H2);
           first [ exact Hu | congruence
                 | exfalso; rewrite Hpc in Hu;
                   first [ discriminate Hu
                         | injection Hu; intros; subst; exact (not_In_rm _ _ (i2_nodup _ H2 _) Hi) ] ] end ].
    (* the acting thread enqueues itself: it is not the owner *)
    all: match goal with Hi : In ?t (_ ++ [?a]), Ho : owner (mx ?s ?m) = Some ?t |- _ =>
           apply In_snoc in Hi; destruct Hi as [Hi| ->];
           [ ja_frame H2 H3
           | exfalso; pose proof (j_cls _ H3 a m) as Ha;
             match goal with Hp : pc (th s a) = _ |- _ => rewrite Hp in Ha end;
             cbn [classify] in Ha; unfold on in Ha; rewrite ?Nat.eqb_refl in Ha; cbn [cls_ok] in Ha; tauto ] end.
  - scases Hs.
    all: intros t0 m0; obs_q (inv2_wq_of_in _ H2).
    all: try exact (j_rc _ H3 _ _).
    all: rc_pose2 H1 H2 H3; clear H1 H2 H3; cls_leaf; cbn [lm lrc] in *; flag_use; boolfacts.
    all: rc_fin.
  - scases Hs.
    all: intros m0; obs_q (inv2_wq_of_in _ H2).
    all: try exact (j_rc0 _ H3 _).
    all: rc_pose H1 H2 H3; clear H1 H2 H3; cls_leaf; cbn [lm lrc] in *; flag_use; boolfacts.
    all: rc_fin.
  - scases Hs.
    all: intros t0 m0 r0; obs_q (inv2_wq_of_in _ H2).
    all: try exact (j_ret _ H3 _ _ _).
    (* what is left: the acting thread, at its new program point *)
    all: cbn [retinfo]; dvars_all; intros Hr; try discriminate Hr.
    all: apply Some_inj in Hr; injection Hr; clear Hr; intros; subst; try congruence.
    (* a result was just produced: the class of the old program point gives the count *)
    all: match goal with Hp : pc (th ?s ?a) = _ |- context [cnt (th ?s ?a) ?m] =>
           pose proof (j_cls _ H3 a m) as Ha; rewrite Hp in Ha end.
    all: clear H1 H2 H3; cls_leaf.
    all: solve [ assumption | congruence | intuition (try congruence; try lia) ].
Qed.

Lemma own_inv_reachable s : reachable s -> own_inv s.
Proof.
  induction 1 as [s Hi|s l s' Hr IH Hs]; [apply own_inv_init; exact Hi|].
  eapply own_inv_step; eauto using inv1_reachable, inv2_reachable.
Qed.

(* a thread inside is the owner — every mutex class *)
Lemma holder_is_owner_l s : reachable s ->
  forall m t, (cnt (th s t) m > 0)%nat -> owner (mx s m) = Some t.
Proof.
  intros Hr m t Hc. pose proof (j_cls _ (own_inv_reachable s Hr) t m) as H.
  destruct (classify (pc (th s t)) m); cbn [cls_ok] in H; intuition lia.
Qed.
Lemma mutex_excl_l s : reachable s ->
  forall m t1 t2, (cnt (th s t1) m > 0)%nat -> (cnt (th s t2) m > 0)%nat -> t1 = t2.
Proof.
  intros Hr m t1 t2 A B.
  pose proof (holder_is_owner_l s Hr m t1 A). pose proof (holder_is_owner_l s Hr m t2 B). congruence.
Qed.
