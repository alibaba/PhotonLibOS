(* C01_Excl.v — the invariant inv1: for a non-recursive mutex (mutex, seq_mutex) a thread inside is
   the owner, so at most one is inside; and the `recursive` flag an operation carries is that of
   its mutex.  Holds for the code AS WRITTEN (aintr = false as well as true), every interleaving,
   any number of threads / vCPUs / mutexes. *)
From Coq Require Import ZArith List Bool Lia.
From PV Require Import Base.U64 C01.C01_Model C01.C01_Tac C01.C01_Eff.
Import ListNotations.
Local Open Scope Z_scope.

Definition on (c : lctx) (m : mid) : bool := Nat.eqb (lm c) m.

(* program points at which thread t MUST be the owner of m *)
Definition must (p : pc_t) (m : mid) : bool :=
  match p with
  | PLok c => on c m
  | PUspl m' | PUhd m' | PUlk m' _ | PUre m' _ | PUunl m' _ | PUst m' _ => Nat.eqb m' m
  | _ => false
  end.

(* t is inside lock()/try_lock()/do_mutex_unlock() of m *)
Definition incode (p : pc_t) (m : mid) : bool :=
  match p with
  | PY1 (YLock c _) | PY2 (YLock c _) | PYw (YLock c _) | PY3 (YLock c _) => on c m
  | PL0 c | PLcas1 c _ | PLspl c | PLcas2 c | PLok c | PLexp c | PLto c | PLenq c | PLdefer c | PLchk c => on c m
  | PSw (SLock c) | PS1 (SLock c) | PS2 (SLock c) _ => on c m
  | PT0 m' _ => Nat.eqb m' m
  | PUspl m' | PUhd m' | PUlk m' _ | PUre m' _ | PUunl m' _ | PUst m' _
  | PUint m' _ | PUrel m' _ | PUunspl m' => Nat.eqb m' m
  | _ => false
  end.

(* the `called through recursive_mutex` flag carried by a program point, with its mutex *)
Definition pc_flag (p : pc_t) : option (mid * bool) :=
  match p with
  | PY1 (YLock c _) | PY2 (YLock c _) | PYw (YLock c _) | PY3 (YLock c _) => Some (lm c, lrc c)
  | PL0 c | PLcas1 c _ | PLspl c | PLcas2 c | PLok c | PLexp c | PLto c | PLenq c | PLdefer c | PLchk c => Some (lm c, lrc c)
  | PSw (SLock c) | PS1 (SLock c) | PS2 (SLock c) _ => Some (lm c, lrc c)
  | PT0 m b | PU0 m b => Some (m, b)
  | PR0 c => Some (lm c, lrc c)
  | PRT0 m => Some (m, true)
  | _ => None
  end.
Definition is_R0 (p : pc_t) : bool := match p with PR0 c => negb (lrc c) | _ => false end.

(* stated over the two records it looks at, so that a post-state is projected once for all clauses *)
Record inv1_rq (r : trec) (q : mrec) (t : tid) (m : mid) : Prop := mkInv1 {
  i1_cnt_owner : recursive q = false -> (cnt r m > 0)%nat -> owner q = Some t;
  i1_must : recursive q = false -> must (pc r) m = true -> owner q = Some t;
  i1_incode : recursive q = false -> incode (pc r) m = true -> cnt r m = O;
  i1_plain : recursive q = false -> (cnt r m <= 1)%nat;
  i1_flag : forall b, pc_flag (pc r) = Some (m, b) -> b = recursive q;
  i1_r0 : is_R0 (pc r) = false
}.
Definition inv1_at (s : state) (t : tid) (m : mid) : Prop := inv1_rq (th s t) (mx s m) t m.
Definition inv1 (s : state) : Prop := forall t m, inv1_at s t m.

Lemma inv1_init s : is_init s -> inv1 s.
Proof.
  intros (nw & re & ct & rc & v & ai & ->) t m.
  constructor; cbn; intros; try congruence; try lia; auto.
Qed.

Ltac eqb_tac :=
  repeat match goal with
  | H : context [Nat.eqb ?a ?a] |- _ => rewrite Nat.eqb_refl in H
  | |- context [Nat.eqb ?a ?a] => rewrite Nat.eqb_refl
  | H : context [Nat.eqb ?a ?b] |- _ => destruct (Nat.eqb_spec a b); [subst|]
  | |- context [Nat.eqb ?a ?b] => destruct (Nat.eqb_spec a b); [subst|]
  end.

Ltac boolfacts :=
  repeat match goal with
  | H : opt_tid_eqb _ _ = true |- _ => apply opt_tid_eqb_true in H
  | H : opt_tid_eqb _ _ = false |- _ => apply opt_tid_eqb_false in H
  | H : tstate_eqb _ _ = true |- _ => apply tstate_eqb_true in H
  | H : tstate_eqb _ _ = false |- _ => apply tstate_eqb_false in H
  | H : (_ || _)%bool = false |- _ => apply orb_false_elim in H; destruct H
  | H : (_ && _)%bool = true |- _ => apply andb_prop in H; destruct H
  | H : negb _ = false |- _ => apply negb_false_iff in H
  | H : Nat.eqb _ _ = true |- _ => apply Nat.eqb_eq in H
  | H : (_ <? _) = true |- _ => apply Z.ltb_lt in H
  | H : (_ <? _) = false |- _ => apply Z.ltb_ge in H
  | H : (_ =? _) = true |- _ => apply Z.eqb_eq in H
  | H : (_ =? _) = false |- _ => apply Z.eqb_neq in H
  | H : (_ <=? _) = true |- _ => apply Z.leb_le in H
  end.

Ltac rwpc := try match goal with Hp : pc (th _ _) = _ |- _ => rewrite Hp in * end.
Ltac injs :=
  repeat match goal with
  | H : Some _ = Some _ |- _ => injection H as H; subst
  | H : (_, _) = (_, _) |- _ => injection H as ? ?; subst
  | H : Some _ = None |- _ => discriminate H
  | H : None = Some _ |- _ => discriminate H
  | H : false = true |- _ => discriminate H
  | H : true = false |- _ => discriminate H
  end.
Ltac dvars :=
  repeat match goal with
  | |- context [match ?k with _ => _ end] => is_var k; destruct k
  | H : context [match ?k with _ => _ end] |- _ => is_var k; destruct k
  | |- context [match ?k with _ => _ end] => destruct k eqn:?
  | H : context [match ?k with _ => _ end] |- _ => destruct k eqn:?
  end.
Ltac specflag :=
  repeat match goal with
  | H : forall b : bool, Some (?m, ?x) = Some (?m, b) -> _ |- _ => specialize (H _ eq_refl)
  end.
Ltac fin1 :=
  unfold upd, on, after_fail in *; cbn in *; rwpc; cbn in *; dvars; cbn in *; intros; injs;
  eqb_tac; cbn in *; boolfacts; injs; subst; cbn in *; specflag.
Ltac fin :=
  fin1; try solve [ assumption | congruence | intuition (eauto 2; try congruence; try lia) ];
  fin1; try solve [ assumption | congruence | intuition (eauto 2; try congruence; try lia) ].

Lemma inv1_step s l s' : inv1 s -> step s l = Some s' -> inv1 s'.
Proof.
  intros H Hs. scases Hs; intros t0 m0; try exact (H t0 m0).
  all: destruct (H t0 m0); try solve [constructor; assumption].
  all: destruct (H a m0).
  all: unfold inv1_at; obs; constructor; try assumption; fin.
Qed.

Lemma inv1_reachable s : reachable s -> inv1 s.
Proof.
  induction 1 as [s Hi|s l s' _ IH Hs]; [exact (inv1_init s Hi) | exact (inv1_step s l s' IH Hs)].
Qed.

Lemma plain_depth_le_1_l s : reachable s ->
  forall m t, recursive (mx s m) = false -> (cnt (th s t) m <= 1)%nat.
Proof. intros Hr m t Hp. exact (i1_plain _ _ _ _ (inv1_reachable s Hr t m) Hp). Qed.
