From Coq Require Import ZArith List Lia.
From Coq Require Import Sorted.
From PV Require Import Base.U64 C07.C07_Model C07.C07_Arith C07.C07_Lists C07.C07_SPSC_Model C07.C07_MPMC_Model C07.C07_Chan_Model C07.C07_Batch_Model C07.C07_Proofs C07.C07_MPMC_Report C07.C07_MPMC_Linear C07.C07_Batch_Fifo C07.C07_ChanQ_Model C07.C07_ChanQ_Proofs C07.C07_ChanQ_Thm.
Import ListNotations.
Local Open Scope Z_scope.

(* ===== SPSC ring queue (push / pop / push_batch / pop_batch): every capacity 2^k (1<=k<=63), every
   start index (arithmetic mod 2^64: index wrap-around included), every script of the producer thread
   pp and the consumer thread cc, EVERY schedule (sreach = any sequence of participant choices). ===== *)

(* exactly-once + FIFO + nothing lost, as sequences of (ghost index, value):
   popped (consumer's program order) ++ still queued (index order) = pushed (producer's program order) *)
Theorem spsc_q_exactly_once_fifo :
  forall c, cfg_ok c -> forall s pp cc, pp <> cc -> forall scripts, spsc_wf pp cc scripts ->
  forall st, sreach c (spsc_init s scripts) st ->
  pop_items (C07_SPSC_Proofs.chron st cc) ++ map (fun i => (i, s_gval st i)) (zrange (s_gh st) (s_gt st)) = push_items (C07_SPSC_Proofs.chron st pp).
Proof.
  intros c Hc s pp cc Hne scripts W st R. destruct (sreach_inv c Hc s pp cc Hne scripts st W R) as [_ _ Lo Rng _ _ _ Epu Epo].
  rewrite Epo, Epu, <- map_app, <- zrange_app by lia. reflexivity.
Qed.
Print Assumptions spsc_q_exactly_once_fifo.

Theorem spsc_q_no_invention :
  forall c, cfg_ok c -> forall s pp cc, pp <> cc -> forall scripts, spsc_wf pp cc scripts ->
  forall st, sreach c (spsc_init s scripts) st ->
  forall iv, In iv (pop_items (C07_SPSC_Proofs.chron st cc)) -> In iv (push_items (C07_SPSC_Proofs.chron st pp)).
Proof.
  intros c Hc s pp cc Hne scripts W st R iv H. rewrite <- (spsc_q_exactly_once_fifo c Hc s pp cc Hne scripts W st R).
  apply in_or_app. left; exact H.
Qed.
Print Assumptions spsc_q_no_invention.

(* never more than capacity elements, head/tail are the ghost counters mod 2^64, and every queued element
   sits intact in its slot at every moment (no slot overwritten before it is read) *)
Theorem spsc_q_bounded :
  forall c, cfg_ok c -> forall s pp cc, pp <> cc -> forall scripts, spsc_wf pp cc scripts ->
  forall st, sreach c (spsc_init s scripts) st ->
  0 <= s_gt st - s_gh st <= c_cap c /\
  s_head st = wrap (s_gh st) /\ s_tail st = wrap (s_gt st) /\
  wrap (s_tail st - s_head st) = s_gt st - s_gh st /\
  forall i, s_gh st <= i < s_gt st -> s_slot st (idx c (wrap i)) = s_gval st i.
Proof.
  intros c Hc s pp cc Hne scripts W st R. destruct (sreach_inv c Hc s pp cc Hne scripts st W R) as [Eh Et _ Rng _ _ Sl _ _].
  pose proof (cfg_cap_lt_W c Hc) as HW. repeat split; try assumption; try lia.
  - rewrite Eh, Et. apply wrap_diff. lia.
  - intros i Hi. rewrite idx_wrap by exact Hc. apply Sl. exact Hi.
Qed.
Print Assumptions spsc_q_bounded.

(* every E3 replay step is a composition of steps of the proved transition system *)
Theorem spsc_e3_runs_are_runs :
  forall c st0 st p f, sreach c st0 st -> sreach c st0 (fst (spsc_e3step c st p f)).
Proof.
  intros c st0 st p f.
  exact (fused_step_closed (spsc_step c) (fun st p => t_pc (s_thr st p)) spsc_silent (sreach c st0) (sreachS c st0) st p).
Qed.
Print Assumptions spsc_e3_runs_are_runs.

(* ===== MPMC ring queue: push/pop (CAS variant) and send/recv (ticket variant) freely mixed; ANY number of
   participants (threads are a function nat -> thread), ANY scripts, ANY schedule (mreach), every capacity 2^k,
   every start index s >= 0.  Guard `nowrap`: the claim counters are below 2^64 - capacity (see notes/C07.md N1:
   at the 2^64 index wrap a queue of capacity >= 4 stops accepting pushes; unreachable in practice).
   pushed st p / popped st p = (ghost index, value) of the completed successful pushes / pops of thread p in
   its program order; m_gval st i / m_gwho st i / m_gpop st i = value, producer, consumer of the element with
   absolute index i (set at the claim). ===== *)

(* no invention + right value: whatever a pop/recv returned is the value pushed under the index it claimed *)
Theorem mpmc_q_no_invention :
  forall c, cfg_ok c -> forall s scripts, 0 <= s -> forall st, mreach c (mpmc_init c s scripts) st -> nowrap c st ->
  forall p i v, In (i, v) (popped st p) ->
  s <= i < m_gh st /\ i < m_gt st /\ v = m_gval st i /\ m_gpop st i = p.
Proof. intros c Hc s scripts H0 st R NW. apply (sd_item c s (mv_r c s st (mreach_inv c Hc s scripts st H0 R NW))). Qed.
Print Assumptions mpmc_q_no_invention.

Theorem mpmc_q_pushed_recorded :
  forall c, cfg_ok c -> forall s scripts, 0 <= s -> forall st, mreach c (mpmc_init c s scripts) st -> nowrap c st ->
  forall p i v, In (i, v) (pushed st p) -> s <= i < m_gt st /\ m_gval st i = v /\ m_gwho st i = p.
Proof.
  intros c Hc s scripts H0 st R NW p i v H.
  destruct (sd_item c s (mv_w c s st (mreach_inv c Hc s scripts st H0 R NW)) p i v H) as (A & _ & B & C). auto.
Qed.
Print Assumptions mpmc_q_pushed_recorded.

(* exactly once, part 1 (at most once): one index is never returned by two pops *)
Theorem mpmc_q_at_most_once :
  forall c, cfg_ok c -> forall s scripts, 0 <= s -> forall st, mreach c (mpmc_init c s scripts) st -> nowrap c st ->
  forall p q i v w, In (i, v) (popped st p) -> In (i, w) (popped st q) -> p = q /\ v = w.
Proof.
  intros c Hc s scripts H0 st R NW p q i v w H1 H2.
  destruct (mpmc_q_no_invention c Hc s scripts H0 st R NW p i v H1) as (_ & _ & A & B).
  destruct (mpmc_q_no_invention c Hc s scripts H0 st R NW q i w H2) as (_ & _ & C & D). split; congruence.
Qed.
Print Assumptions mpmc_q_at_most_once.

(* exactly once, part 2 (nothing lost): every index claimed by a pop has been returned by the claiming thread, or
   that thread is still inside that pop; every index claimed by a push is recorded or still being written *)
Theorem mpmc_q_nothing_lost :
  forall c, cfg_ok c -> forall s scripts, 0 <= s -> forall st, mreach c (mpmc_init c s scripts) st -> nowrap c st ->
  forall i, s <= i < m_gh st ->
  In (i, m_gval st i) (popped st (m_gpop st i)) \/
  exists pc, t_pc (m_thr st (m_gpop st i)) = Some pc /\ rhold pc = Some i.
Proof.
  intros c Hc s scripts H0 st R NW i Hi.
  destruct (sd_all c s (mv_r c s st (mreach_inv c Hc s scripts st H0 R NW)) i Hi) as [L|B]; [left; exact L | right; apply held_pc; exact B].
Qed.
Print Assumptions mpmc_q_nothing_lost.

Theorem mpmc_q_push_accounted :
  forall c, cfg_ok c -> forall s scripts, 0 <= s -> forall st, mreach c (mpmc_init c s scripts) st -> nowrap c st ->
  forall i, s <= i < m_gt st ->
  In (i, m_gval st i) (pushed st (m_gwho st i)) \/
  exists pc, t_pc (m_thr st (m_gwho st i)) = Some pc /\ whold pc = Some i.
Proof.
  intros c Hc s scripts H0 st R NW i Hi.
  destruct (sd_all c s (mv_w c s st (mreach_inv c Hc s scripts st H0 R NW)) i Hi) as [L|B]; [left; exact L | right; apply held_pc; exact B].
Qed.
Print Assumptions mpmc_q_push_accounted.

(* per-producer FIFO: the indices of a thread's completed pushes increase in its program order, and so do the
   indices of a thread's completed pops (elements are handed out in index order) *)
Theorem mpmc_q_fifo_per_producer :
  forall c, cfg_ok c -> forall s scripts, 0 <= s -> forall st, mreach c (mpmc_init c s scripts) st -> nowrap c st ->
  forall p, StronglySorted Z.lt (map fst (pushed st p)) /\ StronglySorted Z.lt (map fst (popped st p)).
Proof.
  intros c Hc s scripts H0 st R NW p. pose proof (mreach_inv c Hc s scripts st H0 R NW) as I.
  split; [apply (sd_sort c s (mv_w c s st I)) | apply (sd_sort c s (mv_r c s st I))].
Qed.
Print Assumptions mpmc_q_fifo_per_producer.

(* bounded / the mark-turn invariant: a stored element (published, not yet released) sits intact in its slot under
   its own turn mark, and two stored elements never share a slot: at most `capacity` elements are stored and no
   slot is overwritten before it has been read *)
Theorem mpmc_q_bounded :
  forall c, cfg_ok c -> forall s scripts, 0 <= s -> forall st, mreach c (mpmc_init c s scripts) st -> nowrap c st ->
  (forall i, stored s st i ->
     m_mark st (i mod c_cap c) = 2 * (i / c_cap c) + 1 /\ m_slot st (i mod c_cap c) = m_gval st i) /\
  (forall i j, stored s st i -> stored s st j -> i mod c_cap c = j mod c_cap c -> i = j).
Proof.
  intros c Hc s scripts H0 st R NW. pose proof (mreach_inv c Hc s scripts st H0 R NW) as I.
  split; [intros i; apply (stored_intact c s st i I)|].
  intros i j Hi Hj E. destruct (stored_intact c s st i I Hi) as [A _]. destruct (stored_intact c s st j I Hj) as [B _].
  rewrite E in A. apply (same_slot_eq (c_cap c) i j (cfg_cap_gt0 c Hc) E). lia.
Qed.
Print Assumptions mpmc_q_bounded.

Theorem mpmc_e3_runs_are_runs :
  forall c st0 st p f, mreach c st0 st -> mreach c st0 (fst (mpmc_e3step c st p f)).
Proof.
  intros c st0 st p f.
  exact (fused_step_closed (mpmc_step c) (fun st p => t_pc (m_thr st p)) mpmc_silent (mreach c st0) (mreachS c st0) st p).
Qed.
Print Assumptions mpmc_e3_runs_are_runs.

(* ----- emptiness / fullness REPORTING of the CAS variant (linearisable failure), C07_MPMC_Report.v.
   Runs are given by their schedule: mrun c st0 l, l = ANY list of participant choices (= mreach, next theorem).  An
   "instant inside the call" is a prefix l1 of the schedule, l = l1 ++ p :: l2, taken just before a step of p itself, at
   which p has completed exactly the same calls (t_res equal; t_res grows by one entry per completed call). ----- *)
Theorem mpmc_runs_are_schedules :
  forall c st0 st, mreach c st0 st <-> exists l, st = mrun c st0 l.
Proof. intros c st0 st. split; [apply mreach_mrun | intros [l ->]; apply mrun_reach]. Qed.
Print Assumptions mpmc_runs_are_schedules.

(* a pop that returns false saw the queue EMPTY (head = tail, no index claimed by a push and unclaimed by a pop) at an
   instant inside that call: when it loaded tail (line 264).  push/pop/send/recv freely mixed. *)
Theorem mpmc_q_pop_fail_saw_empty :
  forall c, cfg_ok c -> forall s, 0 <= s -> forall scripts l p,
  nowrap c (fst (mpmc_step c (mrun c (mpmc_init c s scripts) l) p)) ->
  t_res (m_thr (fst (mpmc_step c (mrun c (mpmc_init c s scripts) l) p)) p) = RPopFail :: t_res (m_thr (mrun c (mpmc_init c s scripts) l) p) ->
  exists l1 l2 h, l = l1 ++ p :: l2 /\
    t_pc (m_thr (mrun c (mpmc_init c s scripts) l1) p) = Some (MPopLdT h) /\
    t_res (m_thr (mrun c (mpmc_init c s scripts) l1) p) = t_res (m_thr (mrun c (mpmc_init c s scripts) l) p) /\
    m_head (mrun c (mpmc_init c s scripts) l1) = m_tail (mrun c (mpmc_init c s scripts) l1) /\
    m_gh (mrun c (mpmc_init c s scripts) l1) = m_gt (mrun c (mpmc_init c s scripts) l1).
Proof. exact pop_fail_saw_empty. Qed.
Print Assumptions mpmc_q_pop_fail_saw_empty.

(* a push that returns false saw the C++ full() test true (tail - head a non-zero multiple of the capacity) at an instant
   inside that call: when it loaded head (line 241).  push/pop/send/recv freely mixed. *)
Theorem mpmc_q_push_fail_saw_full :
  forall c, cfg_ok c -> forall s, 0 <= s -> forall scripts l p,
  nowrap c (fst (mpmc_step c (mrun c (mpmc_init c s scripts) l) p)) ->
  t_res (m_thr (fst (mpmc_step c (mrun c (mpmc_init c s scripts) l) p)) p) = RPushFail :: t_res (m_thr (mrun c (mpmc_init c s scripts) l) p) ->
  exists l1 l2 v t, l = l1 ++ p :: l2 /\
    t_pc (m_thr (mrun c (mpmc_init c s scripts) l1) p) = Some (MPushLdH v t) /\
    t_res (m_thr (mrun c (mpmc_init c s scripts) l1) p) = t_res (m_thr (mrun c (mpmc_init c s scripts) l) p) /\
    check_full c (m_head (mrun c (mpmc_init c s scripts) l1)) (m_tail (mrun c (mpmc_init c s scripts) l1)) = true /\
    m_gt (mrun c (mpmc_init c s scripts) l1) <> m_gh (mrun c (mpmc_init c s scripts) l1) /\
    (m_gt (mrun c (mpmc_init c s scripts) l1) - m_gh (mrun c (mpmc_init c s scripts) l1)) mod c_cap c = 0.
Proof. exact push_fail_saw_full. Qed.
Print Assumptions mpmc_q_push_fail_saw_full.

(* ... which, when no participant calls recv, means at least `capacity` elements claimed by a push and not by a pop, and
   exactly `capacity` when nobody calls send either (the RingChannel usage: push and pop only).  With recv in the mix a
   push can return false on a drained queue: C07_MPMC_Report.mixed_push_fail_not_full (spurious false, see notes). *)
Theorem mpmc_q_push_fail_saw_full_cas :
  forall c, cfg_ok c -> forall s scripts, 0 <= s -> forall l p,
  norecv_scripts scripts ->
  nowrap c (fst (mpmc_step c (mrun c (mpmc_init c s scripts) l) p)) ->
  t_res (m_thr (fst (mpmc_step c (mrun c (mpmc_init c s scripts) l) p)) p) = RPushFail :: t_res (m_thr (mrun c (mpmc_init c s scripts) l) p) ->
  exists l1 l2 v t, l = l1 ++ p :: l2 /\
    t_pc (m_thr (mrun c (mpmc_init c s scripts) l1) p) = Some (MPushLdH v t) /\
    t_res (m_thr (mrun c (mpmc_init c s scripts) l1) p) = t_res (m_thr (mrun c (mpmc_init c s scripts) l) p) /\
    c_cap c <= m_gt (mrun c (mpmc_init c s scripts) l1) - m_gh (mrun c (mpmc_init c s scripts) l1) /\
    (nosend_scripts scripts -> m_gt (mrun c (mpmc_init c s scripts) l1) - m_gh (mrun c (mpmc_init c s scripts) l1) = c_cap c).
Proof. exact push_fail_saw_full_cas. Qed.
Print Assumptions mpmc_q_push_fail_saw_full_cas.

(* emptiness reporting in state form: a pop whose second load of head returns the value read before, equal to the tail it
   loaded, stands in a run that passed through a state with an empty queue at the same head *)
Theorem mpmc_q_reporting :
  forall c, cfg_ok c -> forall s scripts, 0 <= s -> forall st p, mreach c (mpmc_init c s scripts) st -> nowrap c st ->
  forall prev t, t_pc (m_thr st p) = Some (MPopLdH2 prev t) -> m_head st = prev -> check_empty (m_head st) t = true ->
  exists st1, mreach c (mpmc_init c s scripts) st1 /\ m_gh st1 = m_gt st1 /\ m_gh st1 = m_gh st.
Proof.
  intros c Hc s scripts H0 st p R NW prev t Epc Eh Ee. destruct (mreach_mrun c _ st R) as [l ->].
  destruct (hist_pop c Hc s H0 scripts l p prev t NW Epc) as (l1 & l2 & El & _ & _ & Et & Hprev).
  exists (mrun c (mpmc_init c s scripts) l1). split; [apply mrun_reach|].
  destruct (earlier c Hc s H0 scripts l l1 (p :: l2) El NW) as (_ & I1 & I & _ & M).
  unfold check_empty in Ee. apply Z.eqb_eq in Ee.
  rewrite (mv_head c s _ I) in Eh, Ee. rewrite (mv_tail c s _ I1) in Et. lia.
Qed.
Print Assumptions mpmc_q_reporting.

(* ----- the fine-grained queue is an atomic bounded FIFO at its linearisation points (C07_MPMC_Linear.v): the composition
   step towards the RingChannel theorems below, whose model uses an atomic FIFO.  absq st = values of the indices
   [m_gh st, m_gt st).  Scripts of push / pop only. ----- *)
(* every step is a stutter of the abstract queue, or appends to a non-full queue, or removes the front element *)
Theorem mpmc_q_abs_step :
  forall c, cfg_ok c -> forall s, 0 <= s -> forall scripts, norecv_scripts scripts -> nosend_scripts scripts ->
  forall l q, nowrap c (fst (mpmc_step c (mrun c (mpmc_init c s scripts) l) q)) ->
  absq (fst (mpmc_step c (mrun c (mpmc_init c s scripts) l) q)) = absq (mrun c (mpmc_init c s scripts) l) \/
  (exists v, absq (fst (mpmc_step c (mrun c (mpmc_init c s scripts) l) q)) = absq (mrun c (mpmc_init c s scripts) l) ++ [v] /\
             Z.of_nat (length (absq (mrun c (mpmc_init c s scripts) l))) < c_cap c) \/
  (exists v, absq (mrun c (mpmc_init c s scripts) l) = v :: absq (fst (mpmc_step c (mrun c (mpmc_init c s scripts) l) q))).
Proof. exact abs_step_run. Qed.
Print Assumptions mpmc_q_abs_step.

(* every completed call has a linearisation point inside the call — a step of the caller itself — at which the abstract
   queue makes the transition of the ATOMIC operation with the result returned later (fifo_lp: push-true appends to a
   non-full queue, push-false sees exactly capacity elements, pop-true takes the front element, pop-false sees []) *)
Theorem mpmc_q_linearisable :
  forall c, cfg_ok c -> forall s, 0 <= s -> forall scripts, norecv_scripts scripts -> nosend_scripts scripts ->
  forall l p r,
  nowrap c (fst (mpmc_step c (mrun c (mpmc_init c s scripts) l) p)) ->
  t_res (m_thr (fst (mpmc_step c (mrun c (mpmc_init c s scripts) l) p)) p) = r :: t_res (m_thr (mrun c (mpmc_init c s scripts) l) p) ->
  match r with RPushOk _ _ | RPushFail | RPopOk _ _ | RPopFail => True | _ => False end ->
  exists l1 l2, l = l1 ++ p :: l2 /\
    t_res (m_thr (mrun c (mpmc_init c s scripts) l1) p) = t_res (m_thr (mrun c (mpmc_init c s scripts) l) p) /\
    fifo_lp (c_cap c) (absq (mrun c (mpmc_init c s scripts) l1)) r (absq (fst (mpmc_step c (mrun c (mpmc_init c s scripts) l1) p))).
Proof. exact linearisable. Qed.
Print Assumptions mpmc_q_linearisable.

(* the hypotheses of the reporting / linearisation theorems are met by a concrete run (third push on capacity 2 fails) *)
Example mpmc_q_linearisable_ex :
  let c := cfg_of 2 in
  let scripts := [[OPush 1; OPush 2; OPush 3]; [OPop]] in
  let l := [0;0;0;0;0; 0;0;0;0;0; 0;0;0]%nat in
  let st := mrun c (mpmc_init c 0 scripts) l in
  cfg_ok c /\ norecv_scripts scripts /\ nosend_scripts scripts /\
  nowrap c (fst (mpmc_step c st 0%nat)) /\
  t_res (m_thr (fst (mpmc_step c st 0%nat)) 0%nat) = RPushFail :: t_res (m_thr st 0%nat) /\
  absq st = [1; 2].
Proof. exact linear_ex. Qed.

(* ===== RingChannel protocol model (send<PhotonPause> / recv / notify_senders over an atomic FIFO and counter
   semaphores): every E3 replay step is a step of the transition system the statements below are about. ===== *)
Theorem chan_e3_runs_are_runs :
  forall cap Y st0 st p f, creach cap Y st0 st -> creach cap Y st0 (fst (chan_e3step cap Y st p f)).
Proof.
  intros cap Y st0 st p f R. pose proof (creachS cap Y st0 st p f R) as R'. unfold chan_e3step.
  destruct (chan_step cap Y st p f) as [st' o]. destruct (Nat.ltb _ _); exact R'.
Qed.
Print Assumptions chan_e3_runs_are_runs.

(* RingChannel, consumer side — the property's "never left non-empty with every consumer asleep": in EVERY reachable
   state of the protocol model (any number of participants, any scripts of sends/recvs, any interleaving, any pattern
   of semaphore time-outs) it is not the case that the queue is non-empty, queue_sem holds no token, some consumer is
   blocked in queue_sem.wait and every participant inside an operation is such a blocked consumer. *)
Theorem chan_no_lost_wakeup :
  forall cap Y scripts st, Z.of_nat (length scripts) + 1 < W64 ->
  creach cap Y (chan_init scripts) st -> lost_wakeup_recv (length scripts) st = false.
Proof. exact chan_no_lost_wakeup_recv. Qed.
Print Assumptions chan_no_lost_wakeup.

(* RingChannel, sender side — "a producer blocked on a full queue is likewise notified": never (queue has room, send_sem
   holds no token, some sender blocked in send_sem.wait, every participant inside an operation is such a sender). *)
Theorem chan_no_lost_wakeup_sender :
  forall cap Y scripts st, 0 <= cap -> Z.of_nat (length scripts) + 1 < W64 ->
  creach cap Y (chan_init scripts) st -> lost_wakeup_send cap (length scripts) st = false.
Proof. intros cap Y scripts st _. apply chan_no_lost_wakeup_send. Qed.
Print Assumptions chan_no_lost_wakeup_sender.

(* ===== RingChannel over the REAL queue algorithm: the product model C07_ChanQ_Model.v runs send / recv / notify_senders
   exactly as the protocol model above, but push_fn / pop at the four call sites are the CAS-variant push / pop of the MPMC
   ring queue executed one atomic operation at a time (mpmc_step) and interleaved with everything else.  x_run c Y st fut =
   the run under the schedule fut (participant, time-out flavour), ANY list.  Guard: nowrap (2^64 index wrap) on the last
   state.  C07_ChanQ_Proofs.v proves that it REFINES the protocol over the atomic FIFO (relation indexed by the remaining
   schedule: the linearisation point of a failing call is only known by looking ahead). ===== *)

(* refinement: some run of the atomic-FIFO protocol model has the same protocol variables and semaphores, the abstract queue
   absq as its FIFO, and agrees on program point, remaining script and results of every participant that is not in the middle
   of a queue call *)
Theorem chanq_refinement :
  forall c, cfg_ok c -> forall s, 0 <= s -> forall Y scripts fut,
  nowrap c (x_m (x_run c Y (x_init c s scripts) fut)) ->
  exists a, creach (c_cap c) Y (chan_init scripts) a /\
    cfields a = cfields (x_c (x_run c Y (x_init c s scripts) fut)) /\
    c_q a = absq (x_m (x_run c Y (x_init c s scripts) fut)) /\
    forall p, x_idle (x_run c Y (x_init c s scripts) fut) p = true ->
              c_thr a p = c_thr (x_c (x_run c Y (x_init c s scripts) fut)) p.
Proof. exact chanq_refines. Qed.
Print Assumptions chanq_refinement.

(* no lost wake-up, consumer side and sender side, for the channel over the fine-grained queue: never (abstract queue
   non-empty [resp. not full], the semaphore holds no token, some consumer [sender] blocked in its wait, every participant
   inside an operation is such a blocked one, nobody in the middle of a queue call) *)
Theorem chanq_no_lost_wakeups :
  forall c, cfg_ok c -> forall s, 0 <= s -> forall Y scripts, Z.of_nat (length scripts) + 1 < W64 -> forall fut,
  nowrap c (x_m (x_run c Y (x_init c s scripts) fut)) ->
  xlost_recv (length scripts) (x_run c Y (x_init c s scripts) fut) = false /\
  xlost_send (c_cap c) (length scripts) (x_run c Y (x_init c s scripts) fut) = false.
Proof. exact chanq_no_lost_wakeup. Qed.
Print Assumptions chanq_no_lost_wakeups.

(* the product model runs and the hypotheses are met: a send and a recv complete through the fine-grained queue *)
Example chanq_run_ex :
  let c := cfg_of 2 in
  let scripts := [[OSend 7]; [ORecv]] in
  let fut := [(0,0);(0,0);(0,0);(1,0);(1,0);(0,0);(0,0);(0,0);(1,0);(1,0);(1,0);(1,0);(1,0);(1,0);(1,0);(1,0);(1,0);(1,0)]%nat in
  let st := x_run c 0 (x_init c 0 scripts) fut in
  cfg_ok c /\ nowrap c (x_m st) /\ Z.of_nat (length scripts) + 1 < W64 /\
  t_res (c_thr (x_c st) 0%nat) = [RSent 0 7] /\ t_res (c_thr (x_c st) 1%nat) = [RRecv 0 7] /\ absq (x_m st) = [].
Proof. exact chanq_ex. Qed.

(* ===== batch MPMC ring queue (push_batch / pop_batch / push / pop, ordered publication): ANY number of participants,
   any scripts (pop_batch counts >= 0), any schedule, every capacity 2^k, every start s >= 0, the index-wrap guard
   (tail + capacity < 2^64) holding along the run (breach_nw). ===== *)

(* bounded + no overwrite: the four frontiers are ordered, at most `capacity` indices are claimed and not released, and
   every published, unreleased element sits intact in its slot *)
Theorem batch_q_bounded :
  forall c, cfg_ok c -> forall s scripts, 0 <= s -> s + c_cap c < W64 -> scripts_ok scripts ->
  forall st, breach_nw c (batch_init s scripts) st ->
  (s <= b_head st /\ b_head st <= b_rtail st /\ b_rtail st <= b_whead st /\ b_whead st <= b_tail st /\
   b_tail st <= b_head st + c_cap c) /\
  (forall j, b_head st <= j < b_whead st -> b_slot st (j mod c_cap c) = b_gval st j).
Proof. intros c Hc s scripts H0 HW Hok st R. pose proof (breach_inv c Hc s scripts st H0 HW Hok R) as I. split; [apply (bv_ord c s st I) | apply (bv_data c s st I)]. Qed.
Print Assumptions batch_q_bounded.

(* no invention / right values: every completed pop returned exactly the values pushed under the indices it claimed,
   every completed push has its values recorded under the indices it claimed (res_ok) *)
Theorem batch_q_no_invention :
  forall c, cfg_ok c -> forall s scripts, 0 <= s -> s + c_cap c < W64 -> scripts_ok scripts ->
  forall st, breach_nw c (batch_init s scripts) st ->
  forall p r, In r (t_res (b_thr st p)) -> res_ok s st r.
Proof. intros c Hc s scripts H0 HW Hok st R. apply (bv_res c s st (breach_inv c Hc s scripts st H0 HW Hok R)). Qed.
Print Assumptions batch_q_no_invention.

(* at most once: the index intervals claimed by two different participants that are inside a push (resp. a pop) are disjoint *)
Theorem batch_q_claims_disjoint :
  forall c, cfg_ok c -> forall s scripts, 0 <= s -> s + c_cap c < W64 -> scripts_ok scripts ->
  forall st, breach_nw c (batch_init s scripts) st ->
  forall p q pc1 pc2 a k b l, p <> q -> t_pc (b_thr st p) = Some pc1 -> t_pc (b_thr st q) = Some pc2 ->
  (wint pc1 = Some (a, k) -> wint pc2 = Some (b, l) -> a + k <= b \/ b + l <= a) /\
  (rint pc1 = Some (a, k) -> rint pc2 = Some (b, l) -> a + k <= b \/ b + l <= a).
Proof.
  intros c Hc s scripts H0 HW Hok st R p q pc1 pc2 a k b l N E1 E2.
  pose proof (breach_inv c Hc s scripts st H0 HW Hok R) as I.
  split; intros H1 H2; [apply (bv_wdisj c s st I p q pc1 pc2 a k b l N E1 E2 H1 H2) | apply (bv_rdisj c s st I p q pc1 pc2 a k b l N E1 E2 H1 H2)].
Qed.
Print Assumptions batch_q_claims_disjoint.

Theorem batch_e3_runs_are_runs :
  forall c st0 st p f, breach c st0 st -> breach c st0 (fst (batch_e3step c st p f)).
Proof.
  intros c st0 st p f.
  exact (fused_step_closed (batch_step c) (fun st p => t_pc (b_thr st p)) batch_silent (breach c st0) (breachS c st0) st p).
Qed.
Print Assumptions batch_e3_runs_are_runs.

(* per-thread FIFO across completed results (C07_Batch_Fifo.v): the indices of a thread's completed pushes (batch intervals
   flattened; bpushed st p = items of p's completed pushes in program order) strictly increase, and so do those of its pops *)
Theorem batch_q_fifo_per_thread :
  forall c, cfg_ok c -> forall s scripts, 0 <= s -> s + c_cap c < W64 -> scripts_ok scripts ->
  forall st, breach_nw c (batch_init s scripts) st ->
  forall p, StronglySorted Z.lt (map fst (bpushed st p)) /\ StronglySorted Z.lt (map fst (bpopped st p)).
Proof.
  intros c Hc s scripts H0 HW Hok st R p. pose proof (breach_fifo c Hc s scripts st H0 HW Hok R) as F.
  split; [apply (lg_sort _ _ _ _ (bf_pushed s st F)) | apply (lg_sort _ _ _ _ (bf_popped s st F))].
Qed.
Print Assumptions batch_q_fifo_per_thread.

(* exactly once over completed results: completed push items are recorded under their index with their producer, below
   write_head; completed pop items carry the value pushed under their index, below head; an index is never returned by two
   pops; every index below write_head was pushed by a completed push of its producer; every index below head was returned
   by a completed pop *)
Theorem batch_q_exactly_once :
  forall c, cfg_ok c -> forall s scripts, 0 <= s -> s + c_cap c < W64 -> scripts_ok scripts ->
  forall st, breach_nw c (batch_init s scripts) st ->
  (forall p i v, In (i, v) (bpushed st p) -> s <= i < b_whead st /\ b_gval st i = v /\ b_gwho st i = p) /\
  (forall p i v, In (i, v) (bpopped st p) -> s <= i < b_head st /\ v = b_gval st i) /\
  (forall p q i v w, In (i, v) (bpopped st p) -> In (i, w) (bpopped st q) -> p = q /\ v = w) /\
  (forall i, s <= i < b_whead st -> In (i, b_gval st i) (bpushed st (b_gwho st i))) /\
  (forall i, s <= i < b_head st -> exists q, In (i, b_gval st i) (bpopped st q)).
Proof.
  intros c Hc s scripts H0 HW Hok st R. destruct (breach_fifo c Hc s scripts st H0 HW Hok R) as [_ [P1 _ _ P4] Who [C1 _ C3 C4]].
  split; [|split; [exact C1|split; [|split; [|exact C4]]]].
  - intros p i v H. destruct (P1 p i v H) as [A ->]. split; [exact A|]. split; [reflexivity | exact (Who p i _ H)].
  - intros p q i v w H H1. split; [exact (C3 p q i v w H H1)|]. destruct (C1 p i v H) as [_ ->]. destruct (C1 q i w H1) as [_ ->]. reflexivity.
  - intros i Hi. destruct (P4 i Hi) as [q Hq]. rewrite (Who q _ _ Hq). exact Hq.
Qed.
Print Assumptions batch_q_exactly_once.

Example batch_q_fifo_ex :
  let c := cfg_of 2 in
  let scripts := [[OPushB [7; 8]]; [OPopB 2]] in
  cfg_ok c /\ scripts_ok scripts /\
  exists st, breach_nw c (batch_init 5 scripts) st /\ bpushed st 0%nat = [(5, 7); (6, 8)] /\ b_whead st = 7.
Proof. exact batch_fifo_ex. Qed.
