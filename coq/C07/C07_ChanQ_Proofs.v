(* C07_ChanQ_Proofs.v — RingChannel over the fine-grained MPMC queue (product model C07_ChanQ_Model.v) REFINES RingChannel over
   the atomic FIFO (C07_Chan_Model.v): for every run of the product model (any number of participants, any scripts, any
   schedule, any time-out pattern, below the 2^64 index wrap) there is a run of the atomic-FIFO protocol model whose state
   agrees with it on all protocol variables and semaphores, has the abstract queue absq as its FIFO, and whose participants
   stand at the same program points — except that a participant inside a queue call whose linearisation point has passed
   already stands behind the call (with the result the call will return).  The linearisation point of a failing call is only
   known by looking ahead in the schedule (`doomed`: the participant's next step completes the call with false), which is why
   the relation is indexed by the remaining schedule (a prophecy variable).  Consequently the channel theorems
   chan_no_lost_wakeup / chan_no_lost_wakeup_sender, proved over the atomic FIFO, hold for the product model. *)
From Coq Require Import ZArith Lia List Bool Arith.
From PV Require Import C07.C07_Model C07.C07_Arith C07.C07_Lists C07.C07_MPMC_Model C07.C07_MPMC_Proofs
  C07.C07_MPMC_Report C07.C07_MPMC_Linear C07.C07_Chan_Model C07.C07_Chan_Inv C07.C07_ChanQ_Model.
Import ListNotations.
Local Open Scope Z_scope.

(* a queue call is named by its entry point: MPushLdT v is push(v), MPopLdH is pop *)
Definition push_pc (v : Z) (q : mpc) : Prop :=
  match q with
  | MPushLdT v' | MPushLdM v' _ | MPushCas v' _ | MPushLdH v' _ | MPushLdT2 v' _ _ => v' = v
  | MPushWr snd v' _ _ | MPushStM snd v' _ _ => snd = false /\ v' = v
  | _ => False
  end.
Definition pop_pc (q : mpc) : Prop :=
  match q with
  | MPopLdH | MPopLdM _ | MPopCas _ | MPopLdT _ | MPopLdH2 _ _ => True
  | MPopRd rcv _ _ | MPopStM rcv _ _ _ => rcv = false
  | _ => False
  end.
Definition call_pc (e q : mpc) : Prop :=
  match e with MPushLdT v => push_pc v q | MPopLdH => pop_pc q | _ => False end.
Definition site_ok (pc : cpc) (q : mpc) : Prop :=
  match site_entry pc with Some e => call_pc e q | None => False end.
Definition fail_res (e : mpc) : res := match e with MPopLdH => RPopFail | _ => RPushFail end.

Section ChanQ.
  Variable c : cfg.
  Hypothesis Hc : cfg_ok c.
  Variable s : Z.
  Hypothesis Hs0 : 0 <= s.
  Variable Y : Z.
  Let cap := c_cap c.

  (* an idle queue thread starts a call: the queue invariant is not affected *)
  Lemma inv_start st p o : MInv c s st -> t_pc (m_thr st p) = None ->
    MInv c s (m_set_thr st p (mkThr (Some (mpmc_entry o)) [] (t_res (m_thr st p)))).
  Proof.
    intros I En. destruct (entry_nohold o) as [Hw Hr].
    apply (inv_thr c s st p _ I); cbn [t_pc t_res ohold]; unfold held, ohold; rewrite ?En, ?Hw, ?Hr; try reflexivity.
    intros pc' [= <-]. apply entry_ok.
  Qed.

  Definition cfields (st : cstate) := (c_idler st, c_pending st, c_swait st, c_spend st, c_qsem st, c_ssem st).

  Ltac cunf :=
    unfold recv_done, c_finish, c_goto, c_set_thr, c_with_q, c_push, c_pop, c_with_idler, c_with_pending,
           c_with_swait, c_with_spend, c_with_qsem, c_with_ssem in *;
    cbn [fst c_q c_idler c_pending c_swait c_spend c_qsem c_ssem c_epoch c_tep c_fepoch c_tfep c_thr] in *.

  (* away from the call sites chan_step reads only the protocol variables and the record of the stepping thread *)
  Lemma chan_step_nonsite st1 st2 q f pc :
    t_pc (c_thr st1 q) = Some pc -> is_site pc = false -> c_thr st2 q = c_thr st1 q -> cfields st2 = cfields st1 ->
    cfields (fst (chan_step cap Y st2 q f)) = cfields (fst (chan_step cap Y st1 q f)) /\
    c_thr (fst (chan_step cap Y st2 q f)) q = c_thr (fst (chan_step cap Y st1 q f)) q /\
    c_q (fst (chan_step cap Y st2 q f)) = c_q st2.
  Proof.
    intros E Hs Et Hf. unfold cfields in Hf. injection Hf as E1 E2 E3 E4 E5 E6.
    unfold chan_step. rewrite Et, E.
    destruct pc; try discriminate; cbn [fst]; unfold recv_done; rewrite ?E1, ?E2, ?E3, ?E4, ?E5, ?E6;
      repeat match goal with |- context [if ?b then _ else _] => destruct b end;
      unfold cfields; cunf; rewrite ?upd_same, ?Et, ?E1, ?E2, ?E3, ?E4, ?E5, ?E6; repeat split; reflexivity.
  Qed.

  Definition thr_ok (st : xstate) (p : nat) : Prop :=
    t_ops (m_thr (x_m st) p) = [] /\
    match t_pc (c_thr (x_c st) p) with
    | Some pc => if is_site pc then exists q, t_pc (m_thr (x_m st) p) = Some q /\ site_ok pc q
                 else t_pc (m_thr (x_m st) p) = None
    | None => t_pc (m_thr (x_m st) p) = None
    end.

  Record Good (st : xstate) : Prop := mkGood {
    g_inv : MInv c s (x_m st);
    g_le : m_gh (x_m st) <= m_gt (x_m st);
    g_ge : m_gt (x_m st) <= m_gh (x_m st) + cap;
    g_thr : forall p, thr_ok st p;
  }.

  Lemma site_entry_spec pc : if is_site pc then exists e o, site_entry pc = Some e /\ e = mpmc_entry o /\ site_ok pc e
                             else site_entry pc = None.
  Proof.
    destruct pc; simpl; try reflexivity.
    - exists (MPushLdT v), (OPush v). repeat split; reflexivity.
    - exists (MPushLdT v), (OPush v). repeat split; reflexivity.
    - exists MPopLdH, OPop. repeat split; reflexivity.
    - exists MPopLdH, OPop. repeat split; reflexivity.
  Qed.

  Lemma arm_frame cst mst p :
    m_head (arm cst mst p) = m_head mst /\ m_tail (arm cst mst p) = m_tail mst /\ m_gh (arm cst mst p) = m_gh mst /\
    m_gt (arm cst mst p) = m_gt mst /\ m_gval (arm cst mst p) = m_gval mst /\
    (forall q, q <> p -> m_thr (arm cst mst p) q = m_thr mst q).
  Proof.
    unfold arm. destruct (t_pc (c_thr cst p)) as [pc|]; [|repeat split; reflexivity].
    destruct (site_entry pc); repeat split; try reflexivity. intros q N. unfold m_set_thr. simpl. apply upd_other; exact N.
  Qed.

  Lemma arm_inv cst mst p : MInv c s mst -> t_pc (m_thr mst p) = None -> MInv c s (arm cst mst p).
  Proof.
    intros I En. unfold arm. destruct (t_pc (c_thr cst p)) as [pc|]; [|exact I].
    pose proof (site_entry_spec pc) as S. destruct (is_site pc).
    - destruct S as (e & o & -> & -> & _). apply inv_start; assumption.
    - rewrite S. exact I.
  Qed.

  Lemma arm_thr cst mst p : t_pc (m_thr mst p) = None -> t_ops (m_thr mst p) = [] ->
    t_ops (m_thr (arm cst mst p) p) = [] /\
    match t_pc (c_thr cst p) with
    | Some pc => if is_site pc then exists q, t_pc (m_thr (arm cst mst p) p) = Some q /\ site_ok pc q /\ site_entry pc = Some q
                 else t_pc (m_thr (arm cst mst p) p) = None
    | None => t_pc (m_thr (arm cst mst p) p) = None
    end.
  Proof.
    intros En Eo. unfold arm. destruct (t_pc (c_thr cst p)) as [pc|]; [|auto].
    pose proof (site_entry_spec pc) as S. destruct (is_site pc).
    - destruct S as (e & o & -> & E2 & E3). unfold m_set_thr. simpl. rewrite upd_same. simpl. split; [reflexivity|]. exists e. auto.
    - rewrite S. auto.
  Qed.

  Lemma norecv_of_good st : Good st -> norecv (x_m st) /\ nosend (x_m st).
  Proof.
    intros G.
    assert (H : forall p mq, t_pc (m_thr (x_m st) p) = Some mq -> exists pc, site_ok pc mq).
    { intros p mq E. destruct (g_thr st G p) as [_ T]. destruct (t_pc (c_thr (x_c st) p)) as [pc|]; [|congruence].
      destruct (is_site pc); [|congruence]. destruct T as (q & Eq & Sq). exists pc. congruence. }
    split; intros p; rewrite (proj1 (g_thr st G p)); (split; [|simpl; tauto]).
    - intros E. destruct (H p _ E) as [pc Sq]. destruct pc; simpl in Sq; contradiction.
    - intros v E. destruct (H p _ E) as [pc Sq]. destruct pc; simpl in Sq; contradiction.
  Qed.

  Lemma after_call_pc cst p pc r : is_site pc = true ->
    (forall q, q <> p -> c_thr (after_call cst p pc r) q = c_thr cst q) /\
    cfields (after_call cst p pc r) = cfields cst /\
    exists pc', c_thr (after_call cst p pc r) p = thr_goto (c_thr cst p) pc' /\ is_site pc' = false.
  Proof.
    intros Hs. destruct pc; try discriminate; cbn [after_call]; destruct r;
      repeat match goal with |- context [if ?b then _ else _] => destruct b end;
      (split; [intros q N; cunf; apply upd_other; exact N|]); (split; [reflexivity|]);
      eexists; (split; [cunf; apply upd_same | reflexivity]).
  Qed.

  (* the next step of p completes its call with `false` *)
  Definition fails_now (mst : mstate) (p : nat) : bool :=
    match t_pc (m_thr mst p) with
    | Some (MPopLdH2 prev t) => (m_head mst =? prev) && check_empty (m_head mst) t
    | Some (MPushLdT2 v prev h) => (m_tail mst =? prev) && check_full c h (m_tail mst)
    | _ => false
    end.

  (* one step of a queue thread q that runs the single call e and stands at mq: it stays inside the call and claims
     nothing, claims the tail index, claims the head index, or returns *)
  Definition stays (mst mst' : mstate) (q : nat) (e mq : mpc) : Prop :=
    exists mq', t_pc (m_thr mst' q) = Some mq' /\ call_pc e mq' /\ whold mq' = whold mq /\ rhold mq' = rhold mq /\
      m_gt mst' = m_gt mst /\ m_gh mst' = m_gh mst /\ m_gval mst' = m_gval mst /\ fails_now mst q = false.
  Definition claims_tail (mst mst' : mstate) (q : nat) (e mq : mpc) : Prop :=
    exists v t, e = MPushLdT v /\ t_pc (m_thr mst' q) = Some (MPushWr false v t (m_gt mst)) /\
      whold mq = None /\ rhold mq = None /\ fails_now mst q = false /\
      m_gt mst' = m_gt mst + 1 /\ m_gh mst' = m_gh mst /\ m_gval mst' = updZ (m_gval mst) (m_gt mst) v.
  Definition claims_head (mst mst' : mstate) (q : nat) (e mq : mpc) : Prop :=
    exists h, e = MPopLdH /\ t_pc (m_thr mst' q) = Some (MPopRd false h (m_gh mst)) /\
      whold mq = None /\ rhold mq = None /\ fails_now mst q = false /\
      m_gt mst' = m_gt mst /\ m_gh mst' = m_gh mst + 1 /\ m_gval mst' = m_gval mst.
  Definition returns (mst mst' : mstate) (q : nat) (e mq : mpc) : Prop :=
    exists r, m_thr mst' q = mkThr None [] (r :: t_res (m_thr mst q)) /\
      m_gt mst' = m_gt mst /\ m_gh mst' = m_gh mst /\ m_gval mst' = m_gval mst /\
      ((exists i v, r = RPushOk i v /\ whold mq = Some i /\ e = MPushLdT v) \/
       (exists h i v, r = RPopOk i v /\ mq = MPopStM false h i v /\ e = MPopLdH) \/
       (whold mq = None /\ rhold mq = None /\ fails_now mst q = true /\ r = fail_res e)).

  (* in call_step: a step that stays inside the call; G computes the new thread record *)
  Ltac internal G :=
    rewrite G by reflexivity; split; [reflexivity | left; eexists; split; [reflexivity | cbn [call_pc push_pc pop_pc]; repeat split; try reflexivity; assumption]].

  Lemma call_step mst q e mq :
    t_ops (m_thr mst q) = [] -> t_pc (m_thr mst q) = Some mq -> call_pc e mq ->
    t_ops (m_thr (fst (mpmc_step c mst q)) q) = [] /\
    (stays mst (fst (mpmc_step c mst q)) q e mq \/ claims_tail mst (fst (mpmc_step c mst q)) q e mq \/
     claims_head mst (fst (mpmc_step c mst q)) q e mq \/ returns mst (fst (mpmc_step c mst q)) q e mq).
  Proof.
    intros Eo E H.
    assert (G : forall X pc', m_thr X = m_thr mst -> m_thr (m_goto X q pc') q = mkThr (Some pc') [] (t_res (m_thr mst q))).
    { intros X pc' EX. unfold m_goto, m_set_thr, thr_goto. cbn [m_thr]. rewrite upd_same, EX, Eo. reflexivity. }
    assert (F : forall X r, m_thr X = m_thr mst -> m_thr (m_finish X q r) q = mkThr None [] (r :: t_res (m_thr mst q))).
    { intros X r EX. unfold m_finish, m_set_thr, thr_finish. cbn [m_thr]. rewrite upd_same, EX, Eo. reflexivity. }
    (* unfold the step function once, in an equation about the successor state *)
    unfold stays, claims_tail, claims_head, returns.
    remember (fst (mpmc_step c mst q)) as mst' eqn:Est. unfold mpmc_step in Est. rewrite E in Est.
    unfold fails_now. rewrite E. revert Est.
    destruct e; try contradiction; destruct mq; cbn [call_pc push_pc pop_pc] in H; try contradiction.
    - (* MPushLdT *) subst v0. intros ->. cbn [fst]. internal G.
    - (* MPushLdM *) subst v0. destruct (_ =? _); intros ->; cbn [fst]; internal G.
    - (* MPushCas *) subst v0. destruct (m_tail mst =? t); intros ->; cbn [fst].
      + rewrite G by reflexivity. split; [reflexivity|]. right; left. exists v, t. repeat split; reflexivity.
      + internal G.
    - (* MPushLdH *) subst v0. intros ->. cbn [fst]. internal G.
    - (* MPushLdT2 *) subst v0. destruct (_ && _) eqn:Eb; intros ->; cbn [fst].
      + rewrite F by reflexivity. split; [reflexivity|]. do 3 right. eexists. repeat split; try reflexivity. right; right. repeat split; reflexivity.
      + internal G.
    - (* MPushWr *) destruct H as [-> ->]. intros ->. cbn [fst]. internal G.
    - (* MPushStM *) destruct H as [-> ->]. intros ->. cbn [fst]. rewrite F by reflexivity. split; [reflexivity|]. do 3 right. eexists. repeat split; try reflexivity. left. eexists _, _. repeat split; reflexivity.
    - (* MPopLdH *) intros ->. cbn [fst]. internal G.
    - (* MPopLdM *) destruct (_ =? _); intros ->; cbn [fst]; internal G.
    - (* MPopCas *) destruct (m_head mst =? h); intros ->; cbn [fst].
      + rewrite G by reflexivity. split; [reflexivity|]. right; right; left. exists h. repeat split; reflexivity.
      + internal G.
    - (* MPopLdT *) intros ->. cbn [fst]. internal G.
    - (* MPopLdH2 *) destruct (_ && _) eqn:Eb; intros ->; cbn [fst].
      + rewrite F by reflexivity. split; [reflexivity|]. do 3 right. eexists. repeat split; try reflexivity. right; right. repeat split; reflexivity.
      + internal G.
    - (* MPopRd *) intros ->. cbn [fst]. internal G.
    - (* MPopStM *) subst rcv. intros ->. cbn [fst]. rewrite F by reflexivity. split; [reflexivity|]. do 3 right. eexists. repeat split; try reflexivity. right; left. eexists _, _, _. repeat split; reflexivity.
  Qed.

  Definition fails_pc (o : option mpc) : Prop :=
    match o with Some (MPopLdH2 _ _) | Some (MPushLdT2 _ _ _) => True | _ => False end.
  Lemma fails_now_pc mst p : fails_now mst p = true -> fails_pc (t_pc (m_thr mst p)).
  Proof. unfold fails_now, fails_pc. destruct (t_pc (m_thr mst p)) as [q|]; [|discriminate]. destruct q; try discriminate; auto. Qed.

  (* a queue thread with an empty script: its step either stays inside the call of its site, or finishes *)
  Lemma site_step st p pc q :
    t_ops (m_thr st p) = [] -> t_pc (m_thr st p) = Some q -> site_ok pc q ->
    t_ops (m_thr (fst (mpmc_step c st p)) p) = [] /\
    forall q', t_pc (m_thr (fst (mpmc_step c st p)) p) = Some q' -> site_ok pc q'.
  Proof.
    intros Eo E S. unfold site_ok in *. destruct (site_entry pc) as [e|]; [|contradiction].
    destruct (call_step st p e q Eo E S) as (Eo' & [(mq' & E' & S' & _)|[(v & t & -> & E' & _)|[(h & -> & E' & _)|(r & E' & _)]]]);
      (split; [exact Eo'|]); rewrite E'; intros q' [= <-]; cbn; auto.
  Qed.

  Lemma good_step st p f : Good st -> nowrap c (x_m (x_step c Y st p f)) -> Good (x_step c Y st p f).
  Proof.
    intros G NW. unfold x_step in *. destruct (t_pc (c_thr (x_c st) p)) as [pc|] eqn:Epc; [|exact G].
    destruct (norecv_of_good st G) as [NR NS].
    destruct (g_thr st G p) as [Eo T]. rewrite Epc in T.
    destruct (is_site pc) eqn:Es.
    - (* a step inside the queue call *)
      destruct T as (q & Eq & Sq).
      destruct (site_step (x_m st) p pc q Eo Eq Sq) as [Eo' Sq'].
      set (mst' := fst (mpmc_step c (x_m st) p)) in *.
      assert (NW' : nowrap c mst').
      { destruct (t_pc (m_thr mst' p)); [exact NW|]. cbn [x_m] in NW. unfold nowrap in *.
        destruct (arm_frame (after_call (x_c st) p pc (hd RPopFail (t_res (m_thr mst' p)))) mst' p) as (_ & _ & A & B & _). rewrite A, B in NW. exact NW. }
      assert (I' : MInv c s mst') by (apply (mpmc_step_inv c Hc s); [apply (g_inv st G) | exact NW']).
      assert (Le' : m_gh mst' <= m_gt mst') by (apply (le_step c s); [apply (g_inv st G) | exact NR | apply (g_le st G)]).
      assert (Ge' : m_gt mst' <= m_gh mst' + cap) by (apply (ge_step c Hc s); [apply (g_inv st G) | exact NS | apply (g_ge st G)]).
      assert (Hoth : forall r, r <> p -> m_thr mst' r = m_thr (x_m st) r) by (intros r N; apply step_other; exact N).
      destruct (t_pc (m_thr mst' p)) as [q'|] eqn:Eq'.
      + constructor; cbn [x_m x_c]; try assumption.
        intros r. destruct (Nat.eq_dec r p) as [->|N].
        * split; [exact Eo'|]. cbn [x_c x_m]. rewrite Epc, Es. exists q'. split; [exact Eq' | apply Sq'; reflexivity].
        * destruct (g_thr st G r) as [A B]. split; cbn [x_c x_m]; rewrite Hoth by exact N; assumption.
      + set (cst' := after_call (x_c st) p pc (hd RPopFail (t_res (m_thr mst' p)))).
        destruct (after_call_pc (x_c st) p pc (hd RPopFail (t_res (m_thr mst' p))) Es) as (Ao & _ & pc' & Ap & Hs').
        fold cst' in Ao, Ap.
        destruct (arm_frame cst' mst' p) as (_ & _ & A & B & _ & Fo).
        constructor; cbn [x_m x_c]; rewrite ?A, ?B; try assumption.
        * apply arm_inv; assumption.
        * intros r. destruct (Nat.eq_dec r p) as [->|N].
          -- destruct (arm_thr cst' mst' p Eq' Eo') as [X1 X2]. split; [exact X1|]. cbn [x_c x_m].
             rewrite Ap in X2 |- *. cbn [thr_goto t_pc] in X2 |- *. rewrite Hs' in X2 |- *. exact X2.
          -- destruct (g_thr st G r) as [X1 X2]. split; cbn [x_c x_m]; rewrite Fo, Hoth, ?Ao by exact N; assumption.
    - (* a protocol step *)
      set (cst' := fst (chan_step (c_cap c) Y (x_c st) p f)).
      destruct (arm_frame cst' (x_m st) p) as (_ & _ & A & B & _ & Fo).
      constructor; cbn [x_m x_c]; rewrite ?A, ?B; try (apply G).
      + apply arm_inv; [apply (g_inv st G) | exact T].
      + intros r. destruct (Nat.eq_dec r p) as [->|N].
        * destruct (arm_thr cst' (x_m st) p T Eo) as [X1 X2]. split; [exact X1|]. cbn [x_c x_m].
          destruct (t_pc (c_thr cst' p)) as [pc'|]; [|exact X2]. destruct (is_site pc'); [|exact X2].
          destruct X2 as (q & X2 & X3 & _). eauto.
        * destruct (g_thr st G r) as [X1 X2]. split; cbn [x_c x_m]; rewrite Fo by exact N; [exact X1|].
          unfold cst'. fold cap. rewrite chan_step_other by exact N. exact X2.
  Qed.

  (* the protocol's branch after the call *)
  Definition post_ok (pc : cpc) (w : Z) : cpc :=
    match pc with
    | CSPush1 v => CSLdIdler v | CSPush2 v _ => CSSwDec v
    | CRPop1 => CNLdSw w false | CRPop2 _ => CNLdSw w true
    | _ => pc
    end.
  Definition post_fail (pc : cpc) : cpc :=
    match pc with
    | CSPush1 v => CSSwInc v | CSPush2 v yt => if 0 <? yt then CSYield v (yt - 1) else CSSemWait v
    | CRPop1 => CRYield0 | CRPop2 yt => if 0 <? yt then CRYield (yt - 1) else CRSemWait
    | _ => pc
    end.

  Lemma after_call_push_ok cst p pc v i v' w : site_entry pc = Some (MPushLdT v) -> after_call cst p pc (RPushOk i v') = c_goto cst p (post_ok pc w).
  Proof. destruct pc; try discriminate; reflexivity. Qed.
  Lemma after_call_pop_ok cst p pc i v : site_entry pc = Some MPopLdH -> after_call cst p pc (RPopOk i v) = c_goto cst p (post_ok pc v).
  Proof. destruct pc; try discriminate; reflexivity. Qed.
  Lemma after_call_fail cst p pc e : site_entry pc = Some e -> after_call cst p pc (fail_res e) = c_goto cst p (post_fail pc).
  Proof. destruct pc; try discriminate; intros [= <-]; reflexivity. Qed.

  Lemma chan_push_ok a q f pc v w : site_entry pc = Some (MPushLdT v) -> t_pc (c_thr a q) = Some pc -> (cap <=? Z.of_nat (length (c_q a))) = false ->
    fst (chan_step cap Y a q f) = c_goto (c_push a q v) q (post_ok pc w).
  Proof. intros H E Hf. unfold chan_step. rewrite E. destruct pc; try discriminate; injection H as <-; rewrite Hf; reflexivity. Qed.
  Lemma chan_push_fail a q f pc v : site_entry pc = Some (MPushLdT v) -> t_pc (c_thr a q) = Some pc -> (cap <=? Z.of_nat (length (c_q a))) = true ->
    fst (chan_step cap Y a q f) = c_goto a q (post_fail pc).
  Proof. intros H E Hf. unfold chan_step. rewrite E. destruct pc; try discriminate; rewrite Hf; reflexivity. Qed.
  Lemma chan_pop_ok a q f pc w r : site_entry pc = Some MPopLdH -> t_pc (c_thr a q) = Some pc -> c_q a = w :: r ->
    fst (chan_step cap Y a q f) = c_goto (c_pop a cap q r) q (post_ok pc w).
  Proof. intros H E Hq. unfold chan_step. rewrite E. destruct pc; try discriminate; rewrite Hq; reflexivity. Qed.
  Lemma chan_pop_fail a q f pc : site_entry pc = Some MPopLdH -> t_pc (c_thr a q) = Some pc -> c_q a = [] ->
    fst (chan_step cap Y a q f) = c_goto a q (post_fail pc).
  Proof. intros H E Hq. unfold chan_step. rewrite E. destruct pc; try discriminate; rewrite Hq; reflexivity. Qed.

  Lemma post_nonsite pc w : is_site pc = true -> is_site (post_ok pc w) = false /\ is_site (post_fail pc) = false.
  Proof. destruct pc; simpl; intros H; try discriminate; split; try reflexivity; destruct (0 <? yt); reflexivity. Qed.

  (* the prophecy: p's next step in the remaining schedule completes its call with false *)
  Fixpoint doomed (fut : list (nat * nat)) (st : xstate) (p : nat) : bool :=
    match fut with
    | [] => false
    | (q, f) :: rest => if Nat.eqb q p then fails_now (x_m st) p else doomed rest (x_step c Y st q f) p
    end.

  Lemma x_step_other st q f p : p <> q ->
    m_thr (x_m (x_step c Y st q f)) p = m_thr (x_m st) p /\ c_thr (x_c (x_step c Y st q f)) p = c_thr (x_c st) p.
  Proof.
    intros N. unfold x_step. destruct (t_pc (c_thr (x_c st) q)) as [pc|]; [|auto].
    destruct (is_site pc) eqn:Es.
    - destruct (t_pc (m_thr (fst (mpmc_step c (x_m st) q)) q)); cbn [x_m x_c].
      + split; [apply step_other; exact N | reflexivity].
      + destruct (arm_frame (after_call (x_c st) q pc (hd RPopFail (t_res (m_thr (fst (mpmc_step c (x_m st) q)) q)))) (fst (mpmc_step c (x_m st) q)) q) as (_ & _ & _ & _ & _ & Fo).
        rewrite Fo by exact N. split; [apply step_other; exact N|].
        apply (proj1 (after_call_pc _ q pc _ Es)). exact N.
    - cbn [x_m x_c]. destruct (arm_frame (fst (chan_step (c_cap c) Y (x_c st) q f)) (x_m st) q) as (_ & _ & _ & _ & _ & Fo).
      rewrite Fo by exact N. split; [reflexivity|]. apply chan_step_other; exact N.
  Qed.

  Lemma x_step_mono st q f :
    m_gt (x_m st) <= m_gt (x_m (x_step c Y st q f)) /\ m_gh (x_m st) <= m_gh (x_m (x_step c Y st q f)) /\
    (forall i, i < m_gt (x_m st) -> m_gval (x_m (x_step c Y st q f)) i = m_gval (x_m st) i).
  Proof.
    unfold x_step. destruct (t_pc (c_thr (x_c st) q)) as [pc|]; [|repeat split; lia].
    destruct (is_site pc).
    - destruct (step_mono c (x_m st) q) as [M1 M2]. pose proof (fun i => gval_stable_step c (x_m st) q i) as M3.
      destruct (t_pc (m_thr (fst (mpmc_step c (x_m st) q)) q)); cbn [x_m]; [auto|].
      destruct (arm_frame (after_call (x_c st) q pc (hd RPopFail (t_res (m_thr (fst (mpmc_step c (x_m st) q)) q)))) (fst (mpmc_step c (x_m st) q)) q) as (_ & _ & A & B & C0 & _).
      rewrite A, B, C0. auto.
    - cbn [x_m]. destruct (arm_frame (fst (chan_step (c_cap c) Y (x_c st) q f)) (x_m st) q) as (_ & _ & A & B & C0 & _).
      rewrite A, B, C0. repeat split; try lia. 
  Qed.

  Lemma x_run_mono st l : m_gt (x_m st) <= m_gt (x_m (x_run c Y st l)) /\ m_gh (x_m st) <= m_gh (x_m (x_run c Y st l)).
  Proof.
    revert st; induction l as [|[q f] l IH]; intros st; simpl; [lia|].
    destruct (x_step_mono st q f) as (A & B & _). destruct (IH (x_step c Y st q f)). lia.
  Qed.

  Lemma good_run st l : Good st -> nowrap c (x_m (x_run c Y st l)) -> Good (x_run c Y st l).
  Proof.
    revert st; induction l as [|[q f] l IH]; intros st G NW; simpl in *; [exact G|].
    apply IH; [|exact NW]. apply good_step; [exact G|].
    destruct (x_run_mono (x_step c Y st q f) l). unfold nowrap in *. lia.
  Qed.

  Lemma doomed_pc fut st p : doomed fut st p = true -> fails_pc (t_pc (m_thr (x_m st) p)).
  Proof.
    revert st; induction fut as [|[q f] fut IH]; intros st H; simpl in H; [discriminate|].
    destruct (Nat.eqb_spec q p) as [->|N]; [apply fails_now_pc; exact H|].
    apply IH in H. rewrite (proj1 (x_step_other st q f p (not_eq_sym N))) in H. exact H.
  Qed.

  (* the state in which the doomed step is taken *)
  Lemma doomed_spec fut st p : doomed fut st p = true ->
    exists pre post, fut = pre ++ post /\ m_thr (x_m (x_run c Y st pre)) p = m_thr (x_m st) p /\ fails_now (x_m (x_run c Y st pre)) p = true.
  Proof.
    revert st; induction fut as [|[q f] fut IH]; intros st H; simpl in H; [discriminate|].
    destruct (Nat.eqb_spec q p) as [->|N].
    - exists [], ((p, f) :: fut). auto.
    - destruct (IH _ H) as (pre & post & -> & A & B). exists ((q, f) :: pre), post. split; [reflexivity|]. simpl.
      split; [|exact B]. rewrite A. apply (proj1 (x_step_other st q f p (not_eq_sym N))).
  Qed.

  (* a doomed call: between now and its last step the other index does not move past the value read *)
  Lemma doomed_bound fut st p : Good st -> nowrap c (x_m (x_run c Y st fut)) -> doomed fut st p = true ->
    match t_pc (m_thr (x_m st) p) with
    | Some (MPopLdH2 prev t) => m_gh (x_m st) <= prev /\ prev = t
    | Some (MPushLdT2 v prev h) => m_gt (x_m st) <= prev /\ check_full c h prev = true
    | _ => False
    end.
  Proof.
    intros G NW D. destruct (doomed_spec fut st p D) as (pre & post & -> & A & B).
    assert (NW1 : nowrap c (x_m (x_run c Y st pre))).
    { pose proof (x_run_mono (x_run c Y st pre) post) as [M1 M2]. unfold nowrap in *.
      assert (E : x_run c Y st (pre ++ post) = x_run c Y (x_run c Y st pre) post).
      { clear. revert st; induction pre as [|[q f] pre IH]; intros st; simpl; [reflexivity | apply IH]. }
      rewrite E in NW. lia. }
    pose proof (good_run st pre G NW1) as G1. pose proof (g_inv _ G1) as I1.
    destruct (x_run_mono st pre) as [M1 M2].
    unfold fails_now in B. rewrite A in B.
    destruct (t_pc (m_thr (x_m st) p)) as [mq|]; [|discriminate]. destruct mq; try discriminate.
    - apply andb_true_iff in B. destruct B as [B1 B2]. apply Z.eqb_eq in B1. rewrite B1 in B2.
      split; [rewrite <- B1, (mv_tail c s _ I1); lia | exact B2].
    - apply andb_true_iff in B. destruct B as [B1 B2]. apply Z.eqb_eq in B1. unfold check_empty in B2. apply Z.eqb_eq in B2.
      rewrite (mv_head c s _ I1) in B1, B2. split; lia.
  Qed.

  (* the program point, in the atomic-FIFO protocol model, of a participant that stands at mq inside the call of site pc:
     behind the call once it holds an index, or once it is doomed to fail (d) *)
  Definition call_apc (pc : cpc) (mq : mpc) (mst : mstate) (d : bool) : option cpc :=
    match whold mq, rhold mq with
    | Some i, _ | None, Some i => Some (post_ok pc (m_gval mst i))
    | None, None => Some (if d then post_fail pc else pc)
    end.
  Definition apc (fut : list (nat * nat)) (st : xstate) (p : nat) : option cpc :=
    match t_pc (c_thr (x_c st) p) with
    | None => None
    | Some pc =>
      if is_site pc then
        match t_pc (m_thr (x_m st) p) with
        | Some mq => call_apc pc mq (x_m st) (doomed fut st p)
        | None => Some pc
        end
      else Some pc
    end.

  (* a participant at the first load of its queue call stands, in the atomic-FIFO model, in front of the call: it holds
     no index, and its next step does not return *)
  Lemma call_apc_first fut st p pc mq :
    t_pc (m_thr (x_m st) p) = Some mq -> whold mq = None -> rhold mq = None -> ~ fails_pc (Some mq) ->
    call_apc pc mq (x_m st) (doomed fut st p) = Some pc.
  Proof.
    intros E Hw Hr Hnf. unfold call_apc. rewrite Hw, Hr. destruct (doomed fut st p) eqn:Dn; [|reflexivity].
    exfalso. apply Hnf. rewrite <- E. exact (doomed_pc _ _ _ Dn).
  Qed.

  Record Rel (fut : list (nat * nat)) (st : xstate) (a : cstate) : Prop := mkRel {
    r_f : cfields a = cfields (x_c st);
    r_q : c_q a = absq (x_m st);
    r_pc : forall p, t_pc (c_thr a p) = apc fut st p;
    r_ops : forall p, t_ops (c_thr a p) = t_ops (c_thr (x_c st) p);
    r_res : forall p, t_res (c_thr a p) = t_res (c_thr (x_c st) p);
  }.

  Lemma thr_eq (t1 t2 : thr cpc) : t_pc t1 = t_pc t2 -> t_ops t1 = t_ops t2 -> t_res t1 = t_res t2 -> t1 = t2.
  Proof. destruct t1, t2; simpl; intros; subst; reflexivity. Qed.

  Lemma apc_other fut st q f p : p <> q -> Good st -> apc fut (x_step c Y st q f) p = apc ((q, f) :: fut) st p.
  Proof.
    intros N G. unfold apc. destruct (x_step_other st q f p N) as [A B]. rewrite A, B.
    destruct (t_pc (c_thr (x_c st) p)) as [pc|]; [|reflexivity]. destruct (is_site pc); [|reflexivity].
    destruct (t_pc (m_thr (x_m st) p)) as [mq|] eqn:Eq; [|reflexivity].
    destruct (x_step_mono st q f) as (_ & _ & M). unfold call_apc.
    destruct (whold mq) as [i|] eqn:Ew.
    - destruct (whold_lt c s _ p mq i (g_inv st G) Eq Ew) as [Hi _]. rewrite M by lia. reflexivity.
    - destruct (rhold mq) as [i|] eqn:Er.
      + destruct (rhold_lt c s _ p mq i (g_inv st G) Eq Er) as [Hi _]. pose proof (g_le st G). rewrite M by lia. reflexivity.
      + simpl. destruct (Nat.eqb_spec q p) as [->|_]; [contradiction|]. reflexivity.
  Qed.

  Lemma rel_build fut st a q f a' :
    Good st -> Rel ((q, f) :: fut) st a ->
    cfields a' = cfields (x_c (x_step c Y st q f)) ->
    c_q a' = absq (x_m (x_step c Y st q f)) ->
    (forall p, p <> q -> c_thr a' p = c_thr a p) ->
    t_pc (c_thr a' q) = apc fut (x_step c Y st q f) q ->
    t_ops (c_thr a' q) = t_ops (c_thr (x_c (x_step c Y st q f)) q) ->
    t_res (c_thr a' q) = t_res (c_thr (x_c (x_step c Y st q f)) q) ->
    Rel fut (x_step c Y st q f) a'.
  Proof.
    intros G R Hf Hq Ho Hpc Hops Hres. constructor; try assumption.
    - intros p. destruct (Nat.eq_dec p q) as [->|N]; [exact Hpc|]. rewrite Ho by exact N. rewrite apc_other by assumption. apply (r_pc _ _ _ R).
    - intros p. destruct (Nat.eq_dec p q) as [->|N]; [exact Hops|]. rewrite Ho by exact N. rewrite (proj2 (x_step_other st q f p N)). apply (r_ops _ _ _ R).
    - intros p. destruct (Nat.eq_dec p q) as [->|N]; [exact Hres|]. rewrite Ho by exact N. rewrite (proj2 (x_step_other st q f p N)). apply (r_res _ _ _ R).
  Qed.

  Lemma absq_ext m1 m2 : m_gh m1 = m_gh m2 -> m_gt m1 = m_gt m2 -> m_gval m1 = m_gval m2 -> absq m1 = absq m2.
  Proof. intros A B C0. unfold absq. rewrite A, B, C0. reflexivity. Qed.
  Lemma absq_arm cst mst p : absq (arm cst mst p) = absq mst.
  Proof. destruct (arm_frame cst mst p) as (_ & _ & A & B & C0 & _). apply absq_ext; assumption. Qed.
  Lemma absq_push m1 m2 v : m_gh m2 = m_gh m1 -> m_gt m2 = m_gt m1 + 1 -> m_gval m2 = updZ (m_gval m1) (m_gt m1) v ->
    m_gh m1 <= m_gt m1 -> absq m2 = absq m1 ++ [v].
  Proof.
    intros A B C0 L. unfold absq. rewrite A, B, C0. rewrite zrange_snoc by exact L. rewrite map_app. simpl. rewrite updZ_same. f_equal.
    apply map_ext_in. intros j Hj. apply zrange_In in Hj. apply updZ_other. lia.
  Qed.
  Lemma absq_pop m1 m2 : m_gh m2 = m_gh m1 + 1 -> m_gt m2 = m_gt m1 -> m_gval m2 = m_gval m1 -> m_gh m1 < m_gt m1 ->
    absq m1 = m_gval m1 (m_gh m1) :: absq m2.
  Proof. intros A B C0 L. unfold absq. rewrite A, B, C0. rewrite (zrange_cons _ _ L). reflexivity. Qed.

  Lemma c_goto_frame a q pc' :
    cfields (c_goto a q pc') = cfields a /\ c_q (c_goto a q pc') = c_q a /\
    (forall p, p <> q -> c_thr (c_goto a q pc') p = c_thr a p) /\
    c_thr (c_goto a q pc') q = thr_goto (c_thr a q) pc'.
  Proof. unfold c_goto, c_set_thr, cfields. simpl. repeat split; try reflexivity; [intros p N; apply upd_other; exact N | apply upd_same]. Qed.

  (* the atomic model does not move *)
  Lemma rel_stay fut st a q f :
    Good st -> Rel ((q, f) :: fut) st a ->
    cfields (x_c (x_step c Y st q f)) = cfields (x_c st) -> absq (x_m (x_step c Y st q f)) = absq (x_m st) ->
    apc fut (x_step c Y st q f) q = t_pc (c_thr a q) ->
    t_ops (c_thr (x_c (x_step c Y st q f)) q) = t_ops (c_thr (x_c st) q) ->
    t_res (c_thr (x_c (x_step c Y st q f)) q) = t_res (c_thr (x_c st) q) ->
    Rel fut (x_step c Y st q f) a.
  Proof.
    intros G R Hf Hq Hpc Ho Hr. apply (rel_build fut st a q f a G R); try reflexivity.
    - rewrite Hf. apply (r_f _ _ _ R).
    - rewrite Hq. apply (r_q _ _ _ R).
    - symmetry. exact Hpc.
    - rewrite Ho. apply (r_ops _ _ _ R).
    - rewrite Hr. apply (r_res _ _ _ R).
  Qed.

  (* q steps inside its queue call and the protocol state stays: the atomic model moves q to pc', after changing at most
     its queue and ghost epochs (a0) *)
  Lemma rel_call fut st a q f mst' a0 pc' :
    Good st -> Rel ((q, f) :: fut) st a -> x_step c Y st q f = mkX (x_c st) mst' ->
    cfields a0 = cfields a -> c_thr a0 = c_thr a -> c_q a0 = absq mst' ->
    apc fut (x_step c Y st q f) q = Some pc' ->
    Rel fut (x_step c Y st q f) (c_goto a0 q pc').
  Proof.
    intros G R Ex Hf Ht Hq Hpc. destruct (c_goto_frame a0 q pc') as (F1 & F2 & F3 & F4).
    apply (rel_build fut st a q f _ G R); rewrite ?F4, ?Ht.
    - rewrite F1, Hf, Ex. apply (r_f _ _ _ R).
    - rewrite F2, Ex. exact Hq.
    - intros p N. rewrite F3, Ht by exact N. reflexivity.
    - symmetry. exact Hpc.
    - rewrite Ex. apply (r_ops _ _ _ R).
    - rewrite Ex. apply (r_res _ _ _ R).
  Qed.

  Section InCall.
    Variables (fut : list (nat * nat)) (st : xstate) (a : cstate) (q f : nat) (pc : cpc) (e mq : mpc).
    Hypothesis G : Good st.
    Hypothesis NW : nowrap c (x_m (x_run c Y (x_step c Y st q f) fut)).
    Hypothesis R : Rel ((q, f) :: fut) st a.
    Hypothesis Epc : t_pc (c_thr (x_c st) q) = Some pc.
    Hypothesis Ese : site_entry pc = Some e.
    Hypothesis Eq : t_pc (m_thr (x_m st) q) = Some mq.

    Lemma site_is : is_site pc = true.
    Proof. destruct pc; try discriminate; reflexivity. Qed.

    Lemma apc_now : t_pc (c_thr a q) = call_apc pc mq (x_m st) (fails_now (x_m st) q).
    Proof. rewrite (r_pc _ _ _ R q). unfold apc. rewrite Epc, site_is, Eq. cbn [doomed]. rewrite Nat.eqb_refl. reflexivity. Qed.

    Lemma x_step_inside mq' : t_pc (m_thr (fst (mpmc_step c (x_m st) q)) q) = Some mq' ->
      x_step c Y st q f = mkX (x_c st) (fst (mpmc_step c (x_m st) q)).
    Proof. intros E'. unfold x_step. rewrite Epc, site_is, E'. reflexivity. Qed.

    Lemma good_next : Good (x_step c Y st q f).
    Proof. apply good_step; [exact G|]. destruct (x_run_mono (x_step c Y st q f) fut). unfold nowrap in *. lia. Qed.

    (* the step after which q is doomed is the linearisation point of its failing call: between now and its last step
       the other index does not move, so the atomic queue is full (empty) now *)
    Lemma fail_lp mq' :
      t_pc (m_thr (fst (mpmc_step c (x_m st) q)) q) = Some mq' -> call_pc e mq' ->
      m_gt (fst (mpmc_step c (x_m st) q)) = m_gt (x_m st) -> m_gh (fst (mpmc_step c (x_m st) q)) = m_gh (x_m st) ->
      t_pc (c_thr a q) = Some pc -> doomed fut (x_step c Y st q f) q = true ->
      fst (chan_step cap Y a q f) = c_goto a q (post_fail pc).
    Proof.
      intros Eq' Sq' Ht Hh Ra Dn.
      pose proof good_next as G1. pose proof (g_inv st G) as I.
      pose proof (doomed_pc _ _ _ Dn) as Fp. pose proof (doomed_bound _ _ _ G1 NW Dn) as Db.
      rewrite (x_step_inside mq' Eq') in Fp, Db. cbn [x_m] in Fp, Db. rewrite Eq' in Fp, Db.
      pose proof (mv_pc c s _ I q _ Eq) as K.
      destruct mq'; try contradiction; destruct Db as [Db1 Db2].
      - (* push: MPushLdT2 *)
        destruct (step_to_recheck c (x_m st) q mq _ Eq Eq') as (-> & -> & _). cbn [pc_ok] in K.
        destruct e; try contradiction. cbn in Sq'. subst v0.
        apply (chan_push_fail a q f pc v Ese Ra). rewrite (r_q _ _ _ R). apply Z.leb_le.
        rewrite (absq_length _ (g_le st G)). rewrite Ht in Db1.
        assert (Et : m_gt (x_m st) = prev) by lia. rewrite (mv_head c s _ I), <- Et in Db2.
        destruct (pushfull_arith c Hc _ _ Db2) as [Ne Md]. pose proof (g_le st G) as Le. pose proof (g_ge st G) as Ge.
        fold cap in Md. pose proof (cfg_cap_pos c Hc) as Hcp. fold cap in Hcp.
        destruct (Z_lt_dec (m_gt (x_m st) - m_gh (x_m st)) cap) as [L|L]; [|lia]. rewrite Z.mod_small in Md by lia. lia.
      - (* pop: MPopLdH2 *)
        destruct (step_to_recheck c (x_m st) q mq _ Eq Eq') as (-> & -> & _). cbn [pc_ok] in K.
        destruct e; try contradiction.
        apply (chan_pop_fail a q f pc Ese Ra). rewrite (r_q _ _ _ R). unfold absq.
        rewrite Hh in Db1. rewrite (mv_tail c s _ I) in Db2.
        replace (m_gh (x_m st)) with (m_gt (x_m st)) by lia. rewrite zrange_nil. reflexivity.
    Qed.

    (* an internal step: a stutter, unless it is the linearisation point of a failing call *)
    Lemma sim_stays : stays (x_m st) (fst (mpmc_step c (x_m st) q)) q e mq ->
      exists a', (a' = a \/ a' = fst (chan_step cap Y a q f)) /\ Rel fut (x_step c Y st q f) a'.
    Proof.
      intros (mq' & Eq' & Sq' & Hw & Hr & Ht & Hh & Hv & Fn).
      pose proof (x_step_inside mq' Eq') as Ex. pose proof apc_now as Rq. rewrite Fn in Rq.
      assert (Eabs : absq (fst (mpmc_step c (x_m st) q)) = absq (x_m st)) by (apply absq_ext; assumption).
      set (d := doomed fut (x_step c Y st q f) q).
      assert (Eapc : apc fut (x_step c Y st q f) q = call_apc pc mq (x_m st) d).
      { unfold apc, d. rewrite Ex. cbn [x_c x_m]. rewrite Epc, site_is, Eq'. unfold call_apc. rewrite Hw, Hr, Hv. reflexivity. }
      unfold call_apc in Rq, Eapc.
      destruct (match whold mq, rhold mq with None, None => d | _, _ => false end) eqn:Dn.
      - destruct (whold mq); [discriminate|]. destruct (rhold mq); [discriminate|]. rewrite Dn in Eapc.
        exists (c_goto a q (post_fail pc)). split; [right; symmetry; apply (fail_lp mq'); assumption|].
        apply (rel_call fut st a q f _ a (post_fail pc) G R Ex); try reflexivity; [|exact Eapc].
        rewrite Eabs. apply (r_q _ _ _ R).
      - exists a. split; [left; reflexivity|]. apply rel_stay; try assumption; try (rewrite Ex; try reflexivity; exact Eabs).
        rewrite Eapc, Rq. destruct (whold mq); [reflexivity|]. destruct (rhold mq); [reflexivity|]. rewrite Dn. reflexivity.
    Qed.

    (* the successful tail CAS is the atomic push *)
    Lemma sim_tail : claims_tail (x_m st) (fst (mpmc_step c (x_m st) q)) q e mq ->
      exists a', (a' = a \/ a' = fst (chan_step cap Y a q f)) /\ Rel fut (x_step c Y st q f) a'.
    Proof.
      intros (v & t & Ee & Eq' & Hw & Hr & Fn & Ht & Hh & Hv). pose proof Ese as Ese'. rewrite Ee in Ese'.
      pose proof (x_step_inside _ Eq') as Ex. pose proof apc_now as Rq. unfold call_apc in Rq. rewrite Hw, Hr, Fn in Rq.
      set (mst' := fst (mpmc_step c (x_m st) q)) in *.
      pose proof (g_ge _ good_next) as Ge1. rewrite Ex in Ge1. cbn [x_m] in Ge1. rewrite Ht, Hh in Ge1.
      assert (Hnf : (cap <=? Z.of_nat (length (c_q a))) = false).
      { apply Z.leb_gt. rewrite (r_q _ _ _ R), (absq_length _ (g_le st G)). lia. }
      set (w := m_gval mst' (m_gt (x_m st))).
      exists (c_goto (c_push a q v) q (post_ok pc w)).
      split; [right; symmetry; apply (chan_push_ok a q f pc v w Ese' Rq Hnf)|].
      apply (rel_call fut st a q f mst' (c_push a q v) (post_ok pc w) G R Ex); try reflexivity.
      - cbn [c_push c_q]. rewrite (r_q _ _ _ R). symmetry. apply absq_push; try assumption. apply (g_le st G).
      - unfold apc. rewrite Ex. cbn [x_c x_m]. rewrite Epc, site_is. fold mst'. rewrite Eq'. reflexivity.
    Qed.

    (* the successful head CAS is the atomic pop *)
    Lemma sim_head : claims_head (x_m st) (fst (mpmc_step c (x_m st) q)) q e mq ->
      exists a', (a' = a \/ a' = fst (chan_step cap Y a q f)) /\ Rel fut (x_step c Y st q f) a'.
    Proof.
      intros (h & Ee & Eq' & Hw & Hr & Fn & Ht & Hh & Hv). pose proof Ese as Ese'. rewrite Ee in Ese'.
      pose proof (x_step_inside _ Eq') as Ex. pose proof apc_now as Rq. unfold call_apc in Rq. rewrite Hw, Hr, Fn in Rq.
      set (mst' := fst (mpmc_step c (x_m st) q)) in *.
      pose proof (g_le _ good_next) as Le1. rewrite Ex in Le1. cbn [x_m] in Le1. rewrite Ht, Hh in Le1.
      assert (Eabs : absq (x_m st) = m_gval (x_m st) (m_gh (x_m st)) :: absq mst') by (apply absq_pop; try assumption; lia).
      set (w := m_gval (x_m st) (m_gh (x_m st))) in *.
      exists (c_goto (c_pop a cap q (absq mst')) q (post_ok pc w)).
      split; [right; symmetry; apply (chan_pop_ok a q f pc w (absq mst') Ese' Rq); rewrite (r_q _ _ _ R); exact Eabs|].
      apply (rel_call fut st a q f mst' (c_pop a cap q (absq mst')) (post_ok pc w) G R Ex); try reflexivity.
      unfold apc. rewrite Ex. cbn [x_c x_m]. rewrite Epc, site_is. fold mst'. rewrite Eq'. cbn [call_apc whold rhold]. rewrite Hv. reflexivity.
    Qed.

    (* the call returns: the atomic model is already behind the call *)
    Lemma sim_returns : returns (x_m st) (fst (mpmc_step c (x_m st) q)) q e mq ->
      exists a', (a' = a \/ a' = fst (chan_step cap Y a q f)) /\ Rel fut (x_step c Y st q f) a'.
    Proof.
      intros (r & Eth & Ht & Hh & Hv & Hcase). pose proof apc_now as Rq. unfold call_apc in Rq.
      set (mst' := fst (mpmc_step c (x_m st) q)) in *. set (cst' := after_call (x_c st) q pc r).
      assert (Ex : x_step c Y st q f = mkX cst' (arm cst' mst' q)).
      { unfold x_step. rewrite Epc, site_is. fold mst'. rewrite Eth. reflexivity. }
      assert (Ecst : exists pc', cst' = c_goto (x_c st) q pc' /\ t_pc (c_thr a q) = Some pc' /\ is_site pc' = false).
      { pose proof Ese as Ese'. destruct Hcase as [(i & v & -> & Hw & Ee)|[(h & i & v & -> & Em & Ee)|(Hw & Hr & Fn & ->)]]; try rewrite Ee in Ese'.
        - exists (post_ok pc (m_gval (x_m st) i)). rewrite Hw in Rq. split; [apply (after_call_push_ok _ _ _ v); exact Ese'|].
          split; [exact Rq | apply post_nonsite; apply site_is].
        - rewrite Em in Rq. cbn [whold rhold] in Rq. pose proof (mv_pc c s _ (g_inv st G) q _ Eq) as K. rewrite Em in K. cbn [pc_ok] in K. destruct K as (_ & _ & _ & Kv).
          exists (post_ok pc v). split; [apply after_call_pop_ok; exact Ese'|]. rewrite <- Kv in Rq.
          split; [exact Rq | apply post_nonsite; apply site_is].
        - exists (post_fail pc). rewrite Hw, Hr, Fn in Rq. split; [apply after_call_fail; exact Ese|].
          split; [exact Rq | apply (post_nonsite pc 0); apply site_is]. }
      destruct Ecst as (pc' & Ec & Ra & Hs'). destruct (c_goto_frame (x_c st) q pc') as (F1 & F2 & F3 & F4).
      exists a. split; [left; reflexivity|].
      apply rel_stay; try assumption; rewrite Ex; cbn [x_c x_m]; rewrite ?Ec, ?F4; try reflexivity.
      - rewrite absq_arm. apply absq_ext; assumption.
      - rewrite Ra. unfold apc. cbn [x_c]. rewrite F4. cbn [thr_goto t_pc]. rewrite Hs'. reflexivity.
    Qed.
  End InCall.

  (* a protocol step is the same step of the atomic-FIFO model *)
  Lemma sim_protocol fut st a q f pc :
    Good st -> Rel ((q, f) :: fut) st a -> t_pc (c_thr (x_c st) q) = Some pc -> is_site pc = false ->
    Rel fut (x_step c Y st q f) (fst (chan_step cap Y a q f)).
  Proof.
    intros G R Epc Es. destruct (g_thr st G q) as [Eo T]. rewrite Epc, Es in T.
    pose proof (r_pc _ _ _ R q) as Rq. unfold apc in Rq. rewrite Epc, Es in Rq.
    set (cst' := fst (chan_step (c_cap c) Y (x_c st) q f)).
    assert (Ex : x_step c Y st q f = mkX cst' (arm cst' (x_m st) q)) by (unfold x_step; rewrite Epc, Es; reflexivity).
    assert (Eth : c_thr a q = c_thr (x_c st) q).
    { apply thr_eq; [rewrite Rq, Epc; reflexivity | apply (r_ops _ _ _ R) | apply (r_res _ _ _ R)]. }
    destruct (chan_step_nonsite (x_c st) a q f pc Epc Es Eth (r_f _ _ _ R)) as (N1 & N2 & N3). fold cap in cst'. fold cst' in N1, N2.
    apply (rel_build fut st a q f _ G R); rewrite ?Ex; cbn [x_c x_m]; rewrite ?N2; try reflexivity.
    - exact N1.
    - rewrite N3, absq_arm. apply (r_q _ _ _ R).
    - intros p N. apply chan_step_other; exact N.
    - unfold apc. cbn [x_c x_m].
      destruct (arm_thr cst' (x_m st) q T Eo) as [_ X].
      destruct (t_pc (c_thr cst' q)) as [pc'|] eqn:Epc'; [|reflexivity].
      destruct (is_site pc') eqn:Es'; [|reflexivity].
      destruct X as (e & Xe & Xs & Xn). rewrite Xe.
      symmetry. apply (call_apc_first fut (mkX cst' (arm cst' (x_m st) q)) q pc' e Xe);
        destruct pc'; simpl in Xn; try discriminate; inversion Xn; subst e; auto.
  Qed.

  Lemma sim_step fut st a q f :
    Good st -> nowrap c (x_m (x_run c Y (x_step c Y st q f) fut)) -> Rel ((q, f) :: fut) st a ->
    exists a', (a' = a \/ a' = fst (chan_step cap Y a q f)) /\ Rel fut (x_step c Y st q f) a'.
  Proof.
    intros G NW R.
    destruct (t_pc (c_thr (x_c st) q)) as [pc|] eqn:Epc.
    2:{ (* finished participant *)
      assert (Ex : x_step c Y st q f = st) by (unfold x_step; rewrite Epc; reflexivity).
      exists a. split; [left; reflexivity|]. apply rel_stay; try assumption; rewrite ?Ex; try reflexivity.
      rewrite (r_pc _ _ _ R q). unfold apc. rewrite Epc. reflexivity. }
    destruct (g_thr st G q) as [Eo T]. rewrite Epc in T.
    destruct (is_site pc) eqn:Es.
    - destruct T as (mq & Eq & Sq). unfold site_ok in Sq. destruct (site_entry pc) as [e|] eqn:Ese; [|contradiction].
      destruct (call_step (x_m st) q e mq Eo Eq Sq) as (_ & [H|[H|[H|H]]]).
      + eapply sim_stays; eassumption.
      + eapply sim_tail; eassumption.
      + eapply sim_head; eassumption.
      + eapply sim_returns; eassumption.
    - exists (fst (chan_step cap Y a q f)). split; [right; reflexivity | apply sim_protocol with pc; assumption].
  Qed.
End ChanQ.
