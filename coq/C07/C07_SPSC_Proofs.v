(* C07_SPSC_Proofs.v — inductive invariant of the SPSC ring queue model (every schedule, every
   script of the one producer thread and the one consumer thread, every capacity 2^k, every start
   index: the arithmetic is mod 2^64 throughout, so index wrap-around is covered). *)
From Coq Require Import ZArith Lia List Bool Arith.
From PV Require Import Base.U64 C07.C07_Model C07.C07_Arith C07.C07_Lists C07.C07_SPSC_Model.
Import ListNotations.
Local Open Scope Z_scope.

Definition prod_op (o : op) : Prop := match o with OPush _ | OSend _ | OPushB _ => True | _ => False end.
Definition cons_op (o : op) : Prop := match o with OPop | ORecv => True | OPopB n => 0 <= n (* size_t *) | _ => False end.

Section SPSC.
  Variable c : cfg.
  Hypothesis Hc : cfg_ok c.
  Variable s : Z.                 (* start index *)
  Variables pp cc : nat.          (* the producer thread and the consumer thread *)
  Hypothesis Hne : pp <> cc.

  Let cap := c_cap c.

  Definition chron (st : sstate) (p : nat) : list res := rev (t_res (s_thr st p)).

  (* ws fits in front of the queued elements and sits in the slots of the indices gt, gt+1, ... *)
  Definition written (st : sstate) (ws : list Z) : Prop :=
    s_gt st + Z.of_nat (length ws) - s_gh st <= cap /\
    forall k, 0 <= k < Z.of_nat (length ws) -> s_slot st ((s_gt st + k) mod cap) = nth (Z.to_nat k) ws 0.

  (* what a parked producer / consumer knows; push and pop are push_batch and pop_batch of one element *)
  Definition prod_pc_ok (st : sstate) (pc : spc) : Prop :=
    let gh := s_gh st in let gt := s_gt st in
    match pc with
    | SPushLdT _ | SPbLdT _ => True
    | SPushLdH _ t | SPbLdH _ t => t = wrap gt
    | SPushWr _ t => t = wrap gt /\ gt + 1 - gh <= cap
    | SPushStT v t => t = wrap gt /\ written st [v]
    | SPbWr vs t n => t = wrap gt /\ 0 < n <= Z.of_nat (length vs) /\ gt + n - gh <= cap
    | SPbStT t n ws => t = wrap gt /\ Z.of_nat (length ws) = n /\ written st ws
    | _ => False
    end.
  Definition cons_pc_ok (st : sstate) (pc : spc) : Prop :=
    let gh := s_gh st in let gt := s_gt st in
    match pc with
    | SPopLdH => True
    | SObLdH n => 0 <= n
    | SPopLdT h => h = wrap gh
    | SObLdT n h => 0 <= n /\ h = wrap gh
    | SPopRd h => h = wrap gh /\ gh + 1 <= gt
    | SPopStH h v => h = wrap gh /\ gh + 1 <= gt /\ v = s_gval st gh
    | SObRd h n => h = wrap gh /\ 0 < n /\ gh + n <= gt
    | SObStH h n vs => h = wrap gh /\ 0 < n /\ gh + n <= gt /\ vs = map (s_gval st) (zseq gh (Z.to_nat n))
    | _ => False
    end.

  (* thread pp only produces, thread cc only consumes, the others have nothing to run *)
  Definition role_op (p : nat) (o : op) : Prop :=
    if Nat.eqb p pp then prod_op o else if Nat.eqb p cc then cons_op o else False.
  Definition role_pc (st : sstate) (p : nat) (pc : spc) : Prop :=
    if Nat.eqb p pp then prod_pc_ok st pc else if Nat.eqb p cc then cons_pc_ok st pc else False.

  Record SInv (st : sstate) : Prop := mkSInv {
    sv_head : s_head st = wrap (s_gh st);
    sv_tail : s_tail st = wrap (s_gt st);
    sv_lo : s <= s_gh st;
    sv_rng : 0 <= s_gt st - s_gh st <= cap;
    sv_ops : forall p, Forall (role_op p) (t_ops (s_thr st p));
    sv_pc : forall p pc, t_pc (s_thr st p) = Some pc -> role_pc st p pc;
    sv_slot : forall i, s_gh st <= i < s_gt st -> s_slot st (i mod cap) = s_gval st i;
    sv_pushed : push_items (chron st pp) = map (fun i => (i, s_gval st i)) (zrange s (s_gt st));
    sv_popped : pop_items (chron st cc) = map (fun i => (i, s_gval st i)) (zrange s (s_gh st));
  }.

  Lemma role_pp st pc : role_pc st pp pc = prod_pc_ok st pc.
  Proof. unfold role_pc. rewrite Nat.eqb_refl. reflexivity. Qed.
  Lemma role_cc st pc : role_pc st cc pc = cons_pc_ok st pc.
  Proof. unfold role_pc. rewrite (proj2 (Nat.eqb_neq cc pp)) by auto. rewrite Nat.eqb_refl. reflexivity. Qed.

  Lemma entry_role st p o : role_op p o -> role_pc st p (spsc_entry o).
  Proof.
    unfold role_op, role_pc. destruct (Nat.eqb p pp); [|destruct (Nat.eqb p cc); [|exact (fun F => F)]];
      destruct o; simpl; intros H; try contradiction; first [exact I | exact H].
  Qed.

  Lemma finish_role st p (th : thr spc) r : Forall (role_op p) (t_ops th) ->
    Forall (role_op p) (t_ops (thr_finish spsc_entry th r)) /\
    forall pc, t_pc (thr_finish spsc_entry th r) = Some pc -> role_pc st p pc.
  Proof.
    intros F. split; [apply thr_finish_ops; exact F|].
    intros pc E. apply thr_finish_pc in E. destruct E as (o & rest & Eo & ->). apply entry_role.
    rewrite Eo in F. inversion F; assumption.
  Qed.

  (* what a parked thread knows survives the other thread's index store *)
  Lemma cons_pc_mono st st' pc :
    s_gh st' = s_gh st -> s_gt st <= s_gt st' -> (forall i, i < s_gt st -> s_gval st' i = s_gval st i) ->
    cons_pc_ok st pc -> cons_pc_ok st' pc.
  Proof.
    intros Eh Lt Ev. destruct pc; cbn [cons_pc_ok]; rewrite ?Eh; try exact (fun K => K); try lia.
    - intros (? & ? & ->). rewrite Ev by lia. repeat split; lia.
    - intros (? & ? & ? & ->). repeat split; try lia.
      apply map_ext_in. intros i Hi. apply zseq_In in Hi. rewrite Ev by lia. reflexivity.
  Qed.
  Lemma prod_pc_mono st st' pc :
    s_gt st' = s_gt st -> s_gh st <= s_gh st' -> s_slot st' = s_slot st -> prod_pc_ok st pc -> prod_pc_ok st' pc.
  Proof.
    intros Et Lh Es. destruct pc; cbn [prod_pc_ok]; unfold written; rewrite ?Et, ?Es; try exact (fun K => K); intuition lia.
  Qed.

  Lemma inv_set_thr st p th' : SInv st ->
    Forall (role_op p) (t_ops th') -> (forall pc, t_pc th' = Some pc -> role_pc st p pc) ->
    push_items (rev (t_res th')) = push_items (chron st p) -> pop_items (rev (t_res th')) = pop_items (chron st p) ->
    SInv (s_set_thr st p th').
  Proof.
    intros [] Hops Hpc Epu Epo.
    constructor; unfold chron; cbn [s_set_thr s_head s_tail s_slot s_gh s_gt s_gval s_thr]; try assumption.
    - intros q. unfold upd. destruct (Nat.eqb_spec q p) as [->|N]; [exact Hops | apply sv_ops0].
    - intros q pc. unfold upd. destruct (Nat.eqb_spec q p) as [->|N]; [apply Hpc | apply sv_pc0].
    - unfold upd. destruct (Nat.eqb_spec pp p) as [<-|N]; [rewrite Epu|]; exact sv_pushed0.
    - unfold upd. destruct (Nat.eqb_spec cc p) as [<-|N]; [rewrite Epo|]; exact sv_popped0.
  Qed.

  Lemma inv_goto st p pc' : SInv st -> role_pc st p pc' -> SInv (s_goto st p pc').
  Proof.
    intros I K. apply inv_set_thr; try reflexivity; [exact I | apply (sv_ops st I) |].
    intros pc E. injection E as <-. exact K.
  Qed.

  Lemma inv_fail st p r : SInv st -> push_item r = [] -> pop_item r = [] -> SInv (s_finish st p r).
  Proof.
    intros I P1 P2. destruct (finish_role st p (s_thr st p) r (sv_ops st I p)) as [A B].
    apply inv_set_thr; try assumption; rewrite finish_res; unfold push_items, pop_items, chron;
      rewrite flat_map_snoc, ?P1, ?P2; apply app_nil_r.
  Qed.

  (* the producer copies ws into the free slots in front of the queued elements *)
  Lemma inv_write st ws pc' :
    let st1 := mkS (s_head st) (s_tail st) (ring_write c (s_slot st) (wrap (s_gt st)) ws) (s_gh st) (s_gt st) (s_gval st) (s_thr st) in
    SInv st -> s_gt st + Z.of_nat (length ws) - s_gh st <= cap -> (written st1 ws -> prod_pc_ok st1 pc') ->
    SInv (s_goto st1 pp pc').
  Proof.
    intros st1 I Hroom K. subst st1. pose proof (cfg_cap_pos c Hc) as Hcap. fold cap in Hcap. destruct I.
    constructor; unfold chron; cbn [s_goto s_set_thr s_head s_tail s_slot s_gh s_gt s_gval s_thr]; try assumption.
    - intros q. unfold upd. destruct (Nat.eqb_spec q pp) as [->|N]; apply sv_ops0.
    - intros q pc. unfold upd. destruct (Nat.eqb_spec q pp) as [->|N].
      + intros E. injection E as <-. rewrite role_pp. apply K. split; [exact Hroom|].
        intros k Hk. apply (ring_write_at c Hc); fold cap; lia.
      + intros E. specialize (sv_pc0 q pc E). unfold role_pc in *. rewrite (proj2 (Nat.eqb_neq q pp) N) in *. exact sv_pc0.
    - intros i Hi. rewrite (ring_write_other c Hc); [auto|].
      intros k Hk. apply (slot_ne_of_close (c_cap c)); fold cap; lia.
    - rewrite upd_same. exact sv_pushed0.
    - rewrite (upd_other _ _ _ _ (not_eq_sym Hne)). exact sv_popped0.
  Qed.

  (* the producer's tail store hands the written elements ws over *)
  Lemma inv_publish st ws r : SInv st -> written st ws -> push_item r = indexed (s_gt st) ws ->
    SInv (s_finish (mkS (s_head st) (wrap (s_gt st + Z.of_nat (length ws))) (s_slot st) (s_gh st)
                        (s_gt st + Z.of_nat (length ws)) (gval_write (s_gval st) (s_gt st) ws) (s_thr st)) pp r).
  Proof.
    intros I [Hroom Hsl] Er. pose proof I as [].
    set (n := Z.of_nat (length ws)) in *. assert (Hn : 0 <= n) by (unfold n; lia).
    set (st1 := mkS _ _ _ _ _ _ _).
    destruct (finish_role st1 pp (s_thr st pp) r (sv_ops0 pp)) as [A B].
    assert (Hold : forall i, i < s_gt st -> gval_write (s_gval st) (s_gt st) ws i = s_gval st i)
      by (intros i Hi; apply gval_write_other; lia).
    constructor; unfold chron; cbn [s_finish s_set_thr st1 s_head s_tail s_slot s_gh s_gt s_gval s_thr]; try assumption; try lia.
    - intros q. unfold upd. destruct (Nat.eqb_spec q pp) as [->|N]; [exact A | apply sv_ops0].
    - intros q pc. unfold upd. destruct (Nat.eqb_spec q pp) as [->|N]; [apply B|]. intros E. specialize (sv_pc0 q pc E).
      unfold role_pc in *. rewrite (proj2 (Nat.eqb_neq q pp) N) in *. destruct (Nat.eqb q cc); [|exact sv_pc0].
      apply (cons_pc_mono st); [reflexivity | cbn; lia | exact Hold | exact sv_pc0].
    - intros i Hi. destruct (Z_lt_dec i (s_gt st)) as [L|G].
      + rewrite Hold by exact L. apply sv_slot0. lia.
      + replace i with (s_gt st + (i - s_gt st)) by lia. rewrite gval_write_at by (fold n; lia). apply Hsl. fold n. lia.
    - rewrite upd_same, finish_res. fold (chron st pp). unfold push_items in *. rewrite flat_map_snoc, sv_pushed0, Er.
      rewrite (zrange_app s (s_gt st) (s_gt st + n)) by lia. rewrite map_app. f_equal.
      + apply map_ext_in. intros i Hi. apply zrange_In in Hi. rewrite Hold by lia. reflexivity.
      + apply indexed_map. intros k Hk. apply gval_write_at. exact Hk.
    - rewrite (upd_other _ _ _ _ (not_eq_sym Hne)). fold (chron st cc). rewrite sv_popped0.
      apply map_ext_in. intros i Hi. apply zrange_In in Hi. rewrite Hold by lia. reflexivity.
  Qed.

  (* the consumer's head store gives back the slots of the n elements it has copied out *)
  Lemma inv_consume st n r : SInv st -> 0 <= n -> s_gh st + n <= s_gt st ->
    pop_item r = indexed (s_gh st) (map (s_gval st) (zseq (s_gh st) (Z.to_nat n))) ->
    SInv (s_finish (mkS (wrap (s_gh st + n)) (s_tail st) (s_slot st) (s_gh st + n) (s_gt st) (s_gval st) (s_thr st)) cc r).
  Proof.
    intros I Hn Hle Er. pose proof I as [].
    set (st1 := mkS _ _ _ _ _ _ _).
    destruct (finish_role st1 cc (s_thr st cc) r (sv_ops0 cc)) as [A B].
    constructor; unfold chron; cbn [s_finish s_set_thr st1 s_head s_tail s_slot s_gh s_gt s_gval s_thr]; try assumption; try lia.
    - intros q. unfold upd. destruct (Nat.eqb_spec q cc) as [->|N]; [exact A | apply sv_ops0].
    - intros q pc. unfold upd. destruct (Nat.eqb_spec q cc) as [->|N]; [apply B|]. intros E. specialize (sv_pc0 q pc E).
      unfold role_pc in *. rewrite (proj2 (Nat.eqb_neq q cc) N) in *. destruct (Nat.eqb q pp); [|exact sv_pc0].
      apply (prod_pc_mono st); [reflexivity | cbn; lia | reflexivity | exact sv_pc0].
    - intros i Hi. apply sv_slot0. lia.
    - rewrite (upd_other _ _ _ _ Hne). exact sv_pushed0.
    - rewrite upd_same, finish_res. fold (chron st cc). unfold pop_items in *. rewrite flat_map_snoc, sv_popped0, Er, indexed_zseq.
      rewrite (zrange_app s (s_gh st) (s_gh st + n)) by lia. rewrite map_app. f_equal. f_equal.
      unfold zrange. f_equal. f_equal. lia.
  Qed.

  Lemma step_prod st : SInv st -> SInv (fst (spsc_step c st pp)).
  Proof.
    intros I. unfold spsc_step. destruct (t_pc (s_thr st pp)) as [pc|] eqn:Epc; [|exact I].
    pose proof (sv_pc st I pp pc Epc) as K. rewrite role_pp in K.
    pose proof (sv_head st I) as Ihd. pose proof (sv_rng st I) as Irng. fold cap in Irng.
    pose proof (cfg_cap_lt_W c Hc) as HcapW. fold cap in HcapW.
    destruct pc; cbn [prod_pc_ok] in K; try contradiction; cbn [fst].
    - (* SPushLdT *) apply inv_goto; [exact I | rewrite role_pp; exact (sv_tail st I)].
    - (* SPushLdH *) subst t. rewrite Ihd.
      destruct (check_full c (wrap (s_gh st)) (wrap (s_gt st))) eqn:Ef; cbn [fst].
      + now apply inv_fail.
      + apply inv_goto; [exact I | rewrite role_pp]. split; [reflexivity|].
        apply not_true_iff_false in Ef. rewrite (check_full_wrap c _ _ Hc Irng) in Ef. fold cap. lia.
    - (* SPushWr *) destruct K as [-> Hroom]. apply (inv_write st [v]); [exact I | exact Hroom |].
      intros Hw. split; [reflexivity | exact Hw].
    - (* SPushStT *) destruct K as [-> Hw]. rewrite wrap_add_wrap.
      apply (inv_publish st [v]); [exact I | exact Hw | reflexivity].
    - (* SPbLdT *) apply inv_goto; [exact I | rewrite role_pp; exact (sv_tail st I)].
    - (* SPbLdH *) subst t. rewrite Ihd, wrap_diff by lia.
      rewrite (wrap_small (c_cap c - _)) by (fold cap; lia). fold cap.
      destruct (Z.eqb_spec (zmin (Z.of_nat (length vs)) (cap - (s_gt st - s_gh st))) 0) as [En|En]; cbn [fst].
      + now apply inv_fail.
      + apply inv_goto; [exact I | rewrite role_pp]. split; [reflexivity|].
        unfold zmin in *. destruct (Z.ltb_spec (Z.of_nat (length vs)) (cap - (s_gt st - s_gh st))); lia.
    - (* SPbWr *) destruct K as (-> & Hn & Hroom).
      assert (Hlen : Z.of_nat (length (firstn (Z.to_nat n) vs)) = n) by (rewrite firstn_length; lia).
      apply inv_write; [exact I | rewrite Hlen; exact Hroom |].
      intros Hw. split; [reflexivity|]. split; [exact Hlen | exact Hw].
    - (* SPbStT *) destruct K as (-> & <- & Hw). rewrite wrap_add_wrap.
      apply inv_publish; [exact I | exact Hw | reflexivity].
  Qed.

  Lemma step_cons st : SInv st -> SInv (fst (spsc_step c st cc)).
  Proof.
    intros I. unfold spsc_step. destruct (t_pc (s_thr st cc)) as [pc|] eqn:Epc; [|exact I].
    pose proof (sv_pc st I cc pc Epc) as K. rewrite role_cc in K.
    pose proof (sv_tail st I) as Itl. pose proof (sv_rng st I) as Irng. fold cap in Irng.
    pose proof (cfg_cap_lt_W c Hc) as HcapW. fold cap in HcapW.
    destruct pc; cbn [cons_pc_ok] in K; try contradiction; cbn [fst].
    - (* SPopLdH *) apply inv_goto; [exact I | rewrite role_cc; exact (sv_head st I)].
    - (* SPopLdT *) subst h. rewrite Itl.
      destruct (check_empty (wrap (s_gh st)) (wrap (s_gt st))) eqn:Ee; cbn [fst].
      + now apply inv_fail.
      + apply inv_goto; [exact I | rewrite role_cc]. split; [reflexivity|].
        apply not_true_iff_false in Ee. rewrite (check_empty_wrap c _ _ Hc Irng) in Ee. lia.
    - (* SPopRd *) destruct K as [-> Hlt]. apply inv_goto; [exact I | rewrite role_cc].
      split; [reflexivity|]. split; [exact Hlt|]. rewrite idx_wrap by exact Hc. apply (sv_slot st I). lia.
    - (* SPopStH *) destruct K as (-> & Hlt & ->). rewrite wrap_add_wrap.
      apply (inv_consume st 1); [exact I | lia | exact Hlt | reflexivity].
    - (* SObLdH *) apply inv_goto; [exact I | rewrite role_cc]. split; [exact K | exact (sv_head st I)].
    - (* SObLdT *) destruct K as [Hn0 ->]. rewrite Itl, wrap_diff by lia.
      destruct (Z.eqb_spec (zmin n (s_gt st - s_gh st)) 0) as [En|En]; cbn [fst].
      + now apply inv_fail.
      + apply inv_goto; [exact I | rewrite role_cc]. split; [reflexivity|].
        unfold zmin in *. destruct (Z.ltb_spec n (s_gt st - s_gh st)); lia.
    - (* SObRd *) destruct K as (-> & Hn & Hle). apply inv_goto; [exact I | rewrite role_cc].
      split; [reflexivity|]. split; [exact Hn|]. split; [exact Hle|].
      rewrite (ring_read_spec c Hc). apply map_ext_in. intros i Hi. apply zseq_In in Hi. apply (sv_slot st I). lia.
    - (* SObStH *) destruct K as (-> & Hn & Hle & ->). rewrite wrap_add_wrap.
      apply inv_consume; [exact I | lia | exact Hle | reflexivity].
  Qed.

  Lemma step_any st p : SInv st -> SInv (fst (spsc_step c st p)).
  Proof.
    intros I. destruct (Nat.eq_dec p pp) as [->|N1]; [apply step_prod; exact I|].
    destruct (Nat.eq_dec p cc) as [->|N2]; [apply step_cons; exact I|].
    unfold spsc_step. destruct (t_pc (s_thr st p)) as [pc|] eqn:E; [|exact I]. exfalso.
    pose proof (sv_pc st I p pc E) as K. unfold role_pc in K.
    rewrite (proj2 (Nat.eqb_neq p pp) N1), (proj2 (Nat.eqb_neq p cc) N2) in K. exact K.
  Qed.

  (* programs inside the SPSC contract: thread pp only produces, thread cc only consumes, nobody else *)
  Definition spsc_wf (scripts : list (list op)) : Prop :=
    Forall prod_op (nth pp scripts []) /\ Forall cons_op (nth cc scripts []) /\
    forall p, p <> pp -> p <> cc -> nth p scripts [] = [].

  Lemma init_inv scripts : spsc_wf scripts -> SInv (spsc_init s scripts).
  Proof.
    intros (Hp & Hcn & Ho). pose proof (cfg_cap_pos c Hc).
    assert (Hops : forall p, Forall (role_op p) (nth p scripts [])).
    { intros p. unfold role_op. destruct (Nat.eqb_spec p pp) as [->|N1]; [exact Hp|].
      destruct (Nat.eqb_spec p cc) as [->|N2]; [exact Hcn|]. rewrite (Ho p N1 N2). constructor. }
    constructor; unfold chron; cbn [spsc_init s_head s_tail s_slot s_gh s_gt s_gval s_thr]; try reflexivity; try (fold cap; lia).
    - intros p. apply thr_init_ops. apply Hops.
    - intros p pc E. apply thr_init_pc in E. destruct E as (o & rest & Eo & ->). apply entry_role.
      specialize (Hops p). rewrite Eo in Hops. inversion Hops; assumption.
    - rewrite zrange_nil, thr_init_res. reflexivity.
    - rewrite zrange_nil, thr_init_res. reflexivity.
  Qed.

  (* every state reachable by ANY sequence of participant choices *)
  Inductive sreach (st0 : sstate) : sstate -> Prop :=
  | sreach0 : sreach st0 st0
  | sreachS st p : sreach st0 st -> sreach st0 (fst (spsc_step c st p)).

  Lemma sreach_inv scripts st : spsc_wf scripts -> sreach (spsc_init s scripts) st -> SInv st.
  Proof. intros W R. induction R; [apply init_inv; exact W | apply step_any; exact IHR]. Qed.
End SPSC.

(* non-vacuity: a concrete configuration meets the hypotheses, and a non-trivial state is reachable *)
Example cfg_ok_ex : cfg_ok (cfg_of 3) /\ c_cap (cfg_of 3) = 4 /\ cfg_ok (cfg_of 1) /\ c_cap (cfg_of 1) = 2.
Proof. unfold cfg_ok. vm_compute. intuition discriminate. Qed.
Example spsc_wf_ex : spsc_wf 0 1 [[OPush 7; OPushB [8; 9]]; [OPop; OPopB 2]].
Proof.
  split; [|split].
  - simpl. repeat constructor.
  - simpl. constructor; [exact I|]. constructor; [simpl; lia|constructor].
  - intros p H0 H1. destruct p as [|[|p]]; try contradiction; destruct p; reflexivity.
Qed.
Example spsc_reach_ex :
  let c := cfg_of 2 in
  let st := fst (spsc_step c (fst (spsc_step c (fst (spsc_step c (fst (spsc_step c
              (spsc_init 18446744073709551615 [[OPush 7; OPushB [8; 9]]; [OPop; OPopB 2]]) 0%nat)) 0%nat)) 0%nat)) 0%nat) in
  sreach c (spsc_init 18446744073709551615 [[OPush 7; OPushB [8; 9]]; [OPop; OPopB 2]]) st /\
  s_tail st = 0 /\ s_gt st = 18446744073709551616.        (* the tail index has wrapped *)
Proof. cbv zeta. split; [repeat constructor | vm_compute; split; reflexivity]. Qed.
