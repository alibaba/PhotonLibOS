(* C07_Chan_Inv.v — no lost wake-up for the RingChannel protocol model (C07_Chan_Model.v): the two handshakes of the
   channel (C07_Chan_Handshake.v) as sides of the channel state, every chan_step as a move of both at once, and the
   consumer-side theorem, for ANY number n of participants, any scripts, any schedule and any choice of semaphore
   time-outs.  The sender side is the mirror image: free slots instead of elements, the epoch is "since the queue last
   stopped being full", consumers that popped and have not finished notify_senders are the checkers. *)
From Coq Require Import ZArith Lia List Bool Arith.
From PV Require Import Base.U64 C07.C07_Model C07.C07_Lists C07.C07_Chan_Model C07.C07_Chan_Proofs C07.C07_Chan_Handshake.
Import ListNotations.
Local Open Scope Z_scope.

(* classes of program points, consumer side *)
Definition iB (pc : cpc) := match pc with CRSemWait => true | _ => false end.
Definition iA (pc : cpc) := match pc with CRPop2 _ | CRYield _ => true | _ => false end.
Definition iD (pc : cpc) := match pc with CRPdDec => true | _ => false end.
Definition iN (pc : cpc) :=
  match pc with
  | CRIdDec _ => true
  | CNLdSw _ d | CNLdSp _ d _ | CNLdFresh _ d _ _ | CNCasSp _ d _ _ | CNSignal _ d => d
  | _ => false
  end.
Definition iS (pc : cpc) := match pc with CSSignal _ => true | _ => false end.
Definition iK (pc : cpc) :=
  match pc with CSSwDec _ | CSLdIdler _ | CSLdPend _ _ | CSLdFresh _ _ _ | CSCasPend _ _ _ => true | _ => false end.

Lemma entry_class o : iB (chan_entry o) = false /\ iA (chan_entry o) = false /\ iD (chan_entry o) = false /\
                      iN (chan_entry o) = false /\ iS (chan_entry o) = false /\ iK (chan_entry o) = false.
Proof. destruct o; repeat split; reflexivity. Qed.

(* consumers wait for elements: idler, pending, queue_sem; producers are the notifiers (send, 754-771) *)
Definition recv_side : side :=
  mkSide c_idler c_pending c_qsem (fun st => Z.of_nat (length (c_q st))) c_epoch c_tep
    (fun pc => if iB pc then HBlk else if iA pc then HTry else if iD pc then HWoke else if iN pc then HGot
               else if iS pc then HSig
               else if iK pc then HChk match pc with
                                       | CSLdPend _ cur => KLdP cur
                                       | CSCasPend _ cur pd => KCas cur pd
                                       | CSLdFresh _ cur pd => KFresh cur pd
                                       | _ => KStart
                                       end
               else HOut).

(* senders wait for free slots: send_waiters, send_pending, send_sem; consumers are the notifiers (notify_senders) *)
Definition send_side (cap : Z) : side :=
  mkSide c_swait c_spend c_ssem (fun st => cap - Z.of_nat (length (c_q st))) c_fepoch c_tfep
    (fun pc => match pc with
               | CSSemWait _ => HBlk
               | CSPush2 _ _ | CSYield _ _ => HTry
               | CSSpDec _ => HWoke
               | CSSwDec _ => HGot
               | CNSignal _ _ => HSig
               | CNLdSw _ _ => HChk KStart
               | CNLdSp _ _ cw => HChk (KLdP cw)
               | CNCasSp _ _ cw sp => HChk (KCas cw sp)
               | CNLdFresh _ _ cw sp => HChk (KFresh cw sp)
               | _ => HOut
               end).

Lemma recv_entry o : srole recv_side (chan_entry o) = HOut.
Proof. cbn [srole recv_side]. destruct (entry_class o) as (-> & -> & -> & -> & -> & ->). reflexivity. Qed.
Lemma send_entry cap o : srole (send_side cap) (chan_entry o) = HOut.
Proof. destruct o; reflexivity. Qed.

Lemma send_loop_role cap v cur pd :
  srole recv_side (send_loop v cur pd) = HChk (kloop cur pd) /\ srole (send_side cap) (send_loop v cur pd) = HOut.
Proof. unfold send_loop, kloop. destruct (cur <=? pd); split; reflexivity. Qed.
Lemma notify_loop_role cap v dec cw sp :
  srole recv_side (notify_loop v dec cw sp) = srole recv_side (CNLdSw v dec) /\
  srole (send_side cap) (notify_loop v dec cw sp) = HChk (kloop cw sp).
Proof. unfold notify_loop, kloop. destruct (cw <=? sp); split; reflexivity. Qed.

Section ChanStep.
  Variables (cap Y : Z).

  (* the two queue operations, as the produce of one handshake and the take of the other *)
  Lemma push_produce st p v pc' : hstep recv_side st (c_goto (c_push st p v) p pc') p HOut (HChk KStart).
  Proof.
    right. repeat split; cbn.
    - rewrite app_length, Nat2Z.inj_add. reflexivity.
    - destruct (c_q st); cbn [length]; lia.
  Qed.
  Lemma pop_produce st p x r pc' : c_q st = x :: r ->
    hstep (send_side cap) st (c_goto (c_pop st cap p r) p pc') p HOut (HChk KStart).
  Proof.
    intros Eq. right. repeat split; cbn; rewrite Eq; cbn [length].
    - lia.
    - destruct (Z.leb_spec cap (Z.of_nat (Datatypes.S (length r)))); lia.
  Qed.
  (* a move that is not the produce and keeps the ghost epochs *)
  Ltac mv c := left; split; [reflexivity | split; [reflexivity | apply c]].
  (* the step replaces the thread record of p: name the successor record, then one goal per handshake; stepf when the
     successor record is a finished op, steploop when its program point is the head of a check loop *)
  Ltac step := cbn [fst]; right; eexists; split; [reflexivity | split].
  Ltac stepf := cbn [fst]; right; eexists; split; [reflexivity | rewrite (orole_finish _ recv_entry), (orole_finish _ (send_entry cap)); split].
  Ltac steploop H := cbn [fst]; right; eexists; split; [reflexivity | cbn [orole thr_goto t_pc]; destruct H as [-> ->]; split].

  Lemma chan_step_moves st p f pc : t_pc (c_thr st p) = Some pc ->
    fst (chan_step cap Y st p f) = st \/
    exists th', c_thr (fst (chan_step cap Y st p f)) = upd (c_thr st) p th' /\
      hstep recv_side st (fst (chan_step cap Y st p f)) p (srole recv_side pc) (orole recv_side (t_pc th')) /\
      hstep (send_side cap) st (fst (chan_step cap Y st p f)) p (srole (send_side cap) pc) (orole (send_side cap) (t_pc th')).
  Proof.
    intros Epc. unfold chan_step. rewrite Epc.
    destruct pc.
    - (* CSPush1 *) destruct (cap <=? Z.of_nat (length (c_q st))) eqn:Hf.
      + step; mv hm_stay.
      + step; [apply push_produce | mv hm_take; apply Z.leb_gt in Hf; cbn; rewrite ?app_length; cbn [length]; lia].
    - (* CSSwInc *) step; [mv hm_stay | mv hm_register].
    - (* CSPush2 *) destruct (cap <=? Z.of_nat (length (c_q st))) eqn:Hf.
      + destruct (0 <? yt).
        * step; mv hm_stay.
        * step; [mv hm_stay | mv hm_block]. apply Z.leb_le in Hf. cbn. lia.
      + step; [apply push_produce | mv hm_take_reg; apply Z.leb_gt in Hf; cbn; rewrite ?app_length; cbn [length]; lia].
    - (* CSYield *) step; mv hm_stay.
    - (* CSSemWait *) destruct (Z.ltb_spec 0 (c_ssem st)); [|destruct (Nat.eqb f 1); [|left; reflexivity]].
      + step; [mv hm_stay | mv hm_wake; assumption].
      + step; [mv hm_stay | mv hm_timeout].
    - (* CSSpDec *) step; [mv hm_stay | mv hm_ack].
    - (* CSSwDec *) step; [mv hm_stay | mv hm_unregister].
    - (* CSLdIdler *) destruct (Z.eqb_spec (c_idler st) 0) as [E0|N0].
      + stepf; [mv hm_nobody; exact E0 | mv hm_stay].
      + step; [mv hm_ld_waiters; exact N0 | mv hm_stay].
    - (* CSLdPend *) steploop (send_loop_role cap v cur (c_pending st)); [mv hm_ld_pending | mv hm_stay].
    - (* CSLdFresh *) destruct (Z.leb_spec (c_idler st) cur).
      + stepf; [mv hm_fresh_done; assumption | mv hm_stay].
      + steploop (send_loop_role cap v (c_idler st) pd); [mv hm_fresh_more; assumption | mv hm_stay].
    - (* CSCasPend *) destruct (Z.eqb_spec (c_pending st) pd) as [<-|No].
      + step; [mv hm_cas | mv hm_stay].
      + steploop (send_loop_role cap v cur (c_pending st)); [mv hm_cas_fail; exact No | mv hm_stay].
    - (* CSSignal *) stepf; [mv hm_signal | mv hm_stay].
    - (* CRPop1 *) destruct (c_q st) as [|x r] eqn:Eq.
      + step; mv hm_stay.
      + step; [mv hm_take; cbn; rewrite Eq; cbn [length]; lia | eapply pop_produce; exact Eq].
    - (* CRYield0 *) step; mv hm_stay.
    - (* CRIdInc *) step; [mv hm_register | mv hm_stay].
    - (* CRPop2 *) destruct (c_q st) as [|x r] eqn:Eq.
      + destruct (0 <? yt).
        * step; mv hm_stay.
        * step; [mv hm_block | mv hm_stay]. cbn. rewrite Eq. cbn. lia.
      + step; [mv hm_take_reg; cbn; rewrite Eq; cbn [length]; lia | eapply pop_produce; exact Eq].
    - (* CRYield *) step; mv hm_stay.
    - (* CRSemWait *) destruct (Z.ltb_spec 0 (c_qsem st)); [|destruct (Nat.eqb f 1); [|left; reflexivity]].
      + step; [mv hm_wake; assumption | mv hm_stay].
      + step; [mv hm_timeout | mv hm_stay].
    - (* CRPdDec *) step; [mv hm_ack | mv hm_stay].
    - (* CRIdDec *) stepf; [mv hm_unregister | mv hm_stay].
    - (* CNLdSw *) destruct (Z.eqb_spec (c_swait st) 0) as [E0|N0].
      + unfold recv_done. destruct dec; [step | stepf]; [mv hm_stay | mv hm_nobody; exact E0 | mv hm_stay | mv hm_nobody; exact E0].
      + step; [mv hm_stay | mv hm_ld_waiters; exact N0].
    - (* CNLdSp *) steploop (notify_loop_role cap v dec cw (c_spend st)); [mv hm_stay | mv hm_ld_pending].
    - (* CNLdFresh *) destruct (Z.leb_spec (c_swait st) cw).
      + unfold recv_done. destruct dec; [step | stepf]; [mv hm_stay | mv hm_fresh_done; assumption | mv hm_stay | mv hm_fresh_done; assumption].
      + steploop (notify_loop_role cap v dec (c_swait st) sp); [mv hm_stay | mv hm_fresh_more; assumption].
    - (* CNCasSp *) destruct (Z.eqb_spec (c_spend st) sp) as [<-|No].
      + step; [mv hm_stay | mv hm_cas].
      + steploop (notify_loop_role cap v dec cw (c_spend st)); [mv hm_stay | mv hm_cas_fail; exact No].
    - (* CNSignal *) unfold recv_done. destruct dec; [step | stepf]; [mv hm_stay | mv hm_signal | mv hm_stay | mv hm_signal].
  Qed.
End ChanStep.

Lemma chan_step_other cap Y st p f q : q <> p -> c_thr (fst (chan_step cap Y st p f)) q = c_thr st q.
Proof.
  intros N. destruct (t_pc (c_thr st p)) as [pc|] eqn:E; [|unfold chan_step; rewrite E; reflexivity].
  destruct (chan_step_moves cap Y st p f pc E) as [->|(th' & -> & _)]; [reflexivity | apply upd_other; exact N].
Qed.

Section ChanInv.
  Variables (n : nat) (cap Y : Z).
  Hypothesis Hn : Z.of_nat n + 1 < W64.

  Lemma chan_step_inv st p f :
    (HInv n recv_side st -> HInv n recv_side (fst (chan_step cap Y st p f))) /\
    (HInv n (send_side cap) st -> HInv n (send_side cap) (fst (chan_step cap Y st p f))).
  Proof.
    destruct (t_pc (c_thr st p)) as [pc|] eqn:Epc; [|unfold chan_step; rewrite Epc; auto].
    destruct (chan_step_moves cap Y st p f pc Epc) as [->|(th' & Et & Mr & Ms)]; [auto|].
    split; intros I; [apply (hinv_step n recv_side Hn st _ p pc th' I Epc Et Mr) | apply (hinv_step n (send_side cap) Hn st _ p pc th' I Epc Et Ms)].
  Qed.

  Lemma creach_inv scripts st : length scripts = n -> creach cap Y (chan_init scripts) st ->
    HInv n recv_side st /\ HInv n (send_side cap) st.
  Proof.
    intros Hl R. induction R as [|st p f R [Ir Is]].
    - split; apply hinv_init; try reflexivity; [apply recv_entry | exact Hl | apply send_entry | exact Hl].
    - destruct (chan_step_inv st p f) as [Sr Ss]. auto.
  Qed.
End ChanInv.

(* RingChannel, consumer side: in every reachable state of the protocol model — any number of participants, any
   scripts of sends and recvs, any interleaving, any pattern of semaphore time-outs — it is NOT the case that the
   queue is non-empty, queue_sem holds no token, some consumer is blocked in queue_sem.wait and every participant
   inside an operation is such a blocked consumer. *)
Theorem chan_no_lost_wakeup_recv cap Y scripts st :
  Z.of_nat (length scripts) + 1 < W64 ->
  creach cap Y (chan_init scripts) st -> lost_wakeup_recv (length scripts) st = false.
Proof.
  intros Hn R. destruct (creach_inv _ cap Y Hn scripts st eq_refl R) as [I _].
  unfold lost_wakeup_recv. destruct (c_q st) as [|x r] eqn:Eq; [reflexivity|].
  destruct (Z.eqb_spec (c_qsem st) 0) as [ET|]; [|reflexivity]. cbn [negb andb].
  apply (hinv_not_lost _ recv_side blocked_recv st); try assumption.
  - intros pc. destruct pc; try discriminate; reflexivity.
  - intros pc. destruct pc; try discriminate; reflexivity.
  - cbn. rewrite Eq. cbn [length]. lia.
Qed.

Example chan_reach_ex :
  let st := fst (chan_step 2 0 (fst (chan_step 2 0 (fst (chan_step 2 0 (fst (chan_step 2 0 (chan_init [[OSend 7]; [ORecv]]) 1 0)) 1 0)) 1 0)) 1 0) in
  creach 2 0 (chan_init [[OSend 7]; [ORecv]]) st /\ t_pc (c_thr st 1%nat) = Some CRSemWait /\ c_idler st = 1.
Proof. cbv zeta. split; [repeat constructor | vm_compute; split; reflexivity]. Qed.
