(* C07_Chan_Handshake.v — the sleep / wake-up handshake that RingChannel runs twice: consumers sleeping on an empty
   queue (idler, pending, queue_sem; lockfree_queue.h 743-809) and senders sleeping on a full one (send_waiters,
   send_pending, send_sem; SendBackoff 628-678).  One handshake has WAITERS, which register in a counter W, retry,
   block in sem.wait, and on waking acknowledge in a counter P, and NOTIFIERS, which produce a unit of the resource L
   the waiters wait for (an element, resp. a free slot) and then check W against P to decide whether to signal.
   `hmove` lists the moves of one participant; `HInv` is the invariant, for ANY number n of participants, that rules
   out a lost wake-up; a `side` says where the counters of one handshake live in the channel state.
   Idea.  Counters over the participants: B blocked, A registered and about to retry, D woken and about to decrement P,
   N registered with the resource in hand, S about to signal, K notifiers that produced in the current EPOCH (= since
   L last became positive) and have not finished their check.
     W = B+A+D+N,   P = T+D+S   (T = tokens in the semaphore),
     G:  0 < L  ->  L <= T+S+A+D+K   \/   B <= T+S.
   While L stays positive nobody newly blocks, so B+D and B-T-S never grow; a notifier of the epoch that loaded cur = W
   after producing has B+D <= cur for the rest of the epoch, so when it sees P >= cur it knows B <= T+S, which then
   persists; if it sees W = 0 then B = 0.  At quiescence S=A=D=K=0, hence T >= 1. *)
From Coq Require Import ZArith Lia List Bool Arith.
From PV Require Import Base.U64 C07.C07_Model C07.C07_Lists C07.C07_Chan_Model.
Import ListNotations.
Local Open Scope Z_scope.

(* finite sums over participants 0..n-1 *)
Fixpoint sumn (n : nat) (w : nat -> Z) : Z := match n with O => 0 | S k => sumn k w + w k end.

Lemma sumn_ext n w w' : (forall p, (p < n)%nat -> w' p = w p) -> sumn n w' = sumn n w.
Proof. induction n; intros H; simpl; [reflexivity|]. rewrite IHn by (intros; apply H; lia). rewrite H by lia. reflexivity. Qed.

Lemma sumn_upd n w w' p0 : (p0 < n)%nat -> (forall p, p <> p0 -> w' p = w p) -> sumn n w' = sumn n w - w p0 + w' p0.
Proof.
  induction n; intros Hp H; [lia|]. simpl.
  destruct (Nat.eq_dec p0 n) as [->|N].
  - rewrite (sumn_ext n w w') by (intros; apply H; lia). lia.
  - rewrite IHn by (auto; lia). rewrite (H n) by auto. lia.
Qed.

Lemma sumn_range n w : (forall p, 0 <= w p <= 1) -> 0 <= sumn n w <= Z.of_nat n.
Proof. intros H. induction n; simpl; [lia|]. specialize (H n). lia. Qed.

Lemma sumn_ge_term n w p0 : (p0 < n)%nat -> (forall p, 0 <= w p <= 1) -> w p0 <= sumn n w.
Proof.
  induction n; intros Hp H; [lia|]. simpl. destruct (Nat.eq_dec p0 n) as [->|N].
  - pose proof (sumn_range n w H). lia.
  - specialize (IHn ltac:(lia) H). specialize (H n). lia.
Qed.

Lemma sumn_add n w1 w2 : sumn n (fun p => w1 p + w2 p) = sumn n w1 + sumn n w2.
Proof. induction n; simpl; lia. Qed.

Lemma sumn_zero n w : (forall p, (p < n)%nat -> w p = 0) -> sumn n w = 0.
Proof. intros H. rewrite (sumn_ext n (fun _ => 0) w) by exact H. clear. induction n; simpl; lia. Qed.

Definition b2z (b : bool) : Z := if b then 1 else 0.
Lemma b2z_range b : 0 <= b2z b <= 1.
Proof. destruct b; simpl; lia. Qed.

(* what a checking notifier remembers: nothing yet; cur = W; cur and pd = P; the same on the way to re-reading W *)
Inductive hchk := KStart | KLdP (cur : Z) | KCas (cur pd : Z) | KFresh (cur pd : Z).
Inductive hrole :=
| HOut                 (* takes no part *)
| HTry                 (* registered waiter, retrying *)
| HBlk                 (* waiter blocked in sem.wait *)
| HWoke                (* waiter that took a token, about to decrement P *)
| HGot                 (* registered waiter that got the resource *)
| HSig                 (* notifier about to signal *)
| HChk (k : hchk).     (* notifier that produced, inside its check *)

(* the notifier's loop head (lockfree_queue.h 762 / 638): re-read W while cur <= pd, else try the CAS on P *)
Definition kloop (cur pd : Z) : hchk := if cur <=? pd then KFresh cur pd else KCas cur pd.

(* one move of a participant from role r to role r' that produces nothing: W P T L before, W P T L after *)
Inductive hmove (w p t l : Z) : hrole -> hrole -> Z -> Z -> Z -> Z -> Prop :=
| hm_stay r : hmove w p t l r r w p t l
| hm_register : hmove w p t l HOut HTry (wrap (w + 1)) p t l
| hm_block : l <= 0 -> hmove w p t l HTry HBlk w p t l
| hm_wake : 0 < t -> hmove w p t l HBlk HWoke w p (t - 1) l
| hm_timeout : hmove w p t l HBlk HTry w p t l
| hm_ack : hmove w p t l HWoke HTry w (wrap (p - 1)) t l
| hm_take l' : 0 < l -> l' = l - 1 -> hmove w p t l HOut HOut w p t l'
| hm_take_reg l' : 0 < l -> l' = l - 1 -> hmove w p t l HTry HGot w p t l'
| hm_unregister : hmove w p t l HGot HOut (wrap (w - 1)) p t l
| hm_nobody : w = 0 -> hmove w p t l (HChk KStart) HOut w p t l
| hm_ld_waiters : w <> 0 -> hmove w p t l (HChk KStart) (HChk (KLdP w)) w p t l
| hm_ld_pending cur : hmove w p t l (HChk (KLdP cur)) (HChk (kloop cur p)) w p t l
| hm_fresh_done cur pd : w <= cur -> hmove w p t l (HChk (KFresh cur pd)) HOut w p t l
| hm_fresh_more cur pd : cur < w -> hmove w p t l (HChk (KFresh cur pd)) (HChk (kloop w pd)) w p t l
| hm_cas cur : hmove w p t l (HChk (KCas cur p)) HSig w (wrap (p + 1)) t l
| hm_cas_fail cur pd : p <> pd -> hmove w p t l (HChk (KCas cur pd)) (HChk (kloop cur p)) w p t l
| hm_signal : hmove w p t l HSig HOut w p (t + 1) l.

(* same constructor *)
Definition in_class (r0 r : hrole) : bool :=
  match r0, r with
  | HTry, HTry | HBlk, HBlk | HWoke, HWoke | HGot, HGot | HSig, HSig | HChk _, HChk _ => true
  | _, _ => false
  end.

(* where one handshake lives in the channel state; sE / sStamp are the ghost epoch and each participant's epoch at
   its last produce *)
Record side := mkSide {
  sW : cstate -> Z; sP : cstate -> Z; sT : cstate -> Z; sL : cstate -> Z;
  sE : cstate -> Z; sStamp : cstate -> nat -> Z;
  srole : cpc -> hrole }.

Section Handshake.
  Variables (n : nat) (V : side).
  Hypothesis Hn : Z.of_nat n + 1 < W64.       (* fewer than 2^64 - 1 participants: W never wraps *)
  Hypothesis Hentry : forall o, srole V (chan_entry o) = HOut.

  Definition orole (o : option cpc) : hrole := match o with Some pc => srole V pc | None => HOut end.
  Definition rl (st : cstate) (p : nat) : hrole := orole (t_pc (c_thr st p)).
  Definition cnt (r0 : hrole) (st : cstate) : Z := sumn n (fun p => b2z (in_class r0 (rl st p))).
  Definition fresh (st : cstate) (p : nat) : bool := sStamp V st p =? sE V st.
  Definition cntK (st : cstate) : Z := sumn n (fun p => b2z (in_class (HChk KStart) (rl st p) && fresh st p)).

  Definition incur (st : cstate) (p : nat) : Prop := sStamp V st p = sE V st /\ 0 < sL V st.

  Definition loc_ok (st : cstate) (p : nat) (k : hchk) : Prop :=
    match k with
    | KStart => True
    | KLdP cur => 0 <= cur <= Z.of_nat n /\ (incur st p -> cnt HBlk st + cnt HWoke st <= cur)
    | KCas cur pd => 0 <= cur <= Z.of_nat n /\ 0 <= pd < cur /\ (incur st p -> cnt HBlk st + cnt HWoke st <= cur)
    | KFresh cur pd => 0 <= cur <= Z.of_nat n /\ 0 <= pd /\ (incur st p -> cnt HBlk st <= sT V st + cnt HSig st)
    end.

  Definition awake (st : cstate) : Prop :=
    sL V st <= sT V st + cnt HSig st + cnt HTry st + cnt HWoke st + cntK st \/ cnt HBlk st <= sT V st + cnt HSig st.

  Record HInv (st : cstate) : Prop := mkHInv {
    hi_out : forall p, (n <= p)%nat -> t_pc (c_thr st p) = None;
    hi_T : 0 <= sT V st;
    hi_W : sW V st = cnt HBlk st + cnt HTry st + cnt HWoke st + cnt HGot st;
    hi_P : sP V st = sT V st + cnt HWoke st + cnt HSig st;
    hi_Pb : sP V st <= Z.of_nat n;
    hi_stamp : forall p, sStamp V st p <= sE V st;
    hi_loc : forall p k, rl st p = HChk k -> loc_ok st p k;
    hi_G : 0 < sL V st -> awake st;
  }.

  Lemma cnt_range r0 st : 0 <= cnt r0 st.
  Proof. apply sumn_range. intros p. apply b2z_range. Qed.
  Lemma cntK_range st : 0 <= cntK st.
  Proof. apply sumn_range. intros p. apply b2z_range. Qed.

  Lemma waiters_le_n st : cnt HBlk st + cnt HTry st + cnt HWoke st + cnt HGot st <= Z.of_nat n.
  Proof. unfold cnt. rewrite <- !sumn_add. apply sumn_range. intros p. destruct (rl st p); simpl; lia. Qed.

  Lemma cnt_ge1 r0 st p : (p < n)%nat -> in_class r0 (rl st p) = true -> 1 <= cnt r0 st.
  Proof.
    intros Hp E. change 1 with (b2z true). rewrite <- E.
    apply (sumn_ge_term n (fun q => b2z (in_class r0 (rl st q)))); [exact Hp | intros q; apply b2z_range].
  Qed.

  Lemma orole_finish (th : thr cpc) r : orole (t_pc (thr_finish chan_entry th r)) = HOut.
  Proof. unfold thr_finish. destruct (t_ops th); simpl; [reflexivity | apply Hentry]. Qed.

  (* the counters after a step that replaces the thread record of p *)
  Lemma cnt_move r0 st st' p th' : (p < n)%nat -> c_thr st' = upd (c_thr st) p th' ->
    cnt r0 st' = cnt r0 st - b2z (in_class r0 (rl st p)) + b2z (in_class r0 (orole (t_pc th'))).
  Proof.
    intros Hp Et. unfold cnt. rewrite (sumn_upd n (fun q => b2z (in_class r0 (rl st q))) (fun q => b2z (in_class r0 (rl st' q))) p Hp).
    - unfold rl at 3. rewrite Et, upd_same. reflexivity.
    - intros q N. unfold rl. rewrite Et, upd_other by exact N. reflexivity.
  Qed.

  Lemma cntK_move st st' p th' : (p < n)%nat -> c_thr st' = upd (c_thr st) p th' ->
    sE V st' = sE V st -> sStamp V st' = sStamp V st ->
    cntK st' = cntK st - b2z (in_class (HChk KStart) (rl st p) && fresh st p)
               + b2z (in_class (HChk KStart) (orole (t_pc th')) && fresh st p).
  Proof.
    intros Hp Et Ee Es. unfold cntK.
    rewrite (sumn_upd n (fun q => b2z (in_class (HChk KStart) (rl st q) && fresh st q))
                     (fun q => b2z (in_class (HChk KStart) (rl st' q) && fresh st' q)) p Hp).
    - unfold rl at 3, fresh at 3. rewrite Et, Ee, Es, upd_same. reflexivity.
    - intros q N. unfold rl, fresh. rewrite Et, Ee, Es, upd_other by exact N. reflexivity.
  Qed.

  Lemma loc_frame st st' p k :
    (incur st' p -> incur st p /\ cnt HBlk st' + cnt HWoke st' <= cnt HBlk st + cnt HWoke st /\
                    cnt HBlk st' - sT V st' - cnt HSig st' <= cnt HBlk st - sT V st - cnt HSig st) ->
    loc_ok st p k -> loc_ok st' p k.
  Proof. intros H K. destruct k; simpl in *; intuition lia. Qed.

  (* a step of p that keeps the ghost epochs: what remains to be shown about the numbers *)
  Lemma hinv_frame st st' p th' :
    HInv st -> (p < n)%nat -> c_thr st' = upd (c_thr st) p th' -> sE V st' = sE V st -> sStamp V st' = sStamp V st ->
    (0 < sL V st' -> 0 < sL V st) ->
    0 <= sT V st' ->
    sW V st' = cnt HBlk st' + cnt HTry st' + cnt HWoke st' + cnt HGot st' ->
    sP V st' = sT V st' + cnt HWoke st' + cnt HSig st' ->
    sP V st' <= Z.of_nat n ->
    (0 < sL V st' -> cnt HBlk st' + cnt HWoke st' <= cnt HBlk st + cnt HWoke st /\
                     cnt HBlk st' - sT V st' - cnt HSig st' <= cnt HBlk st - sT V st - cnt HSig st) ->
    (forall k, orole (t_pc th') = HChk k -> loc_ok st' p k) ->
    (0 < sL V st' -> awake st') ->
    HInv st'.
  Proof.
    intros I Hp Et Ee Es Hl HT HW HP HPb Hmono Hloc HG.
    constructor; try assumption.
    - intros q Hge. rewrite Et, upd_other by lia. apply (hi_out st I q Hge).
    - intros q. rewrite Es, Ee. apply (hi_stamp st I).
    - intros q k E. unfold rl in E. destruct (Nat.eq_dec q p) as [->|N].
      + rewrite Et, upd_same in E. apply Hloc; exact E.
      + rewrite Et, upd_other in E by exact N. apply (loc_frame st st'); [|apply (hi_loc st I q k E)].
        unfold incur. rewrite Es, Ee. intros [A B]. auto.
  Qed.

  Lemma hinv_move st st' p th' :
    HInv st -> (p < n)%nat -> c_thr st' = upd (c_thr st) p th' -> sE V st' = sE V st -> sStamp V st' = sStamp V st ->
    hmove (sW V st) (sP V st) (sT V st) (sL V st) (rl st p) (orole (t_pc th'))
          (sW V st') (sP V st') (sT V st') (sL V st') ->
    HInv st'.
  Proof.
    intros I Hp Et Ee Es M.
    pose proof (cnt_move HBlk st st' p th' Hp Et) as EB. pose proof (cnt_move HTry st st' p th' Hp Et) as EA.
    pose proof (cnt_move HWoke st st' p th' Hp Et) as ED. pose proof (cnt_move HGot st st' p th' Hp Et) as EN.
    pose proof (cnt_move HSig st st' p th' Hp Et) as ES. pose proof (cntK_move st st' p th' Hp Et Ee Es) as EK.
    pose proof (cnt_range HBlk st) as PB. pose proof (cnt_range HTry st) as PA. pose proof (cnt_range HWoke st) as PD.
    pose proof (cnt_range HGot st) as PN. pose proof (cnt_range HSig st) as PS. pose proof (cntK_range st) as PK.
    pose proof (waiters_le_n st) as HR. pose proof (b2z_range (fresh st p)) as Hz.
    pose proof (hi_T st I) as HT. pose proof (hi_W st I) as HW. pose proof (hi_P st I) as HP.
    pose proof (hi_Pb st I) as HPb. pose proof (hi_G st I) as HG. pose proof (hi_loc st I p) as Hl.
    pose proof (cnt_ge1 HWoke st p Hp) as D1. pose proof (cnt_ge1 HGot st p Hp) as N1.
    unfold awake in *.
    apply (hinv_frame st st' p th' I Hp Et Ee Es); unfold awake;
      remember (rl st p) as r eqn:Er; remember (orole (t_pc th')) as r' eqn:Er';
      remember (sW V st') as w' eqn:Ew; remember (sP V st') as p' eqn:Ep;
      remember (sT V st') as t' eqn:Et'; remember (sL V st') as l' eqn:El;
      destruct M; cbn [in_class b2z andb] in *; try lia; try discriminate.
    all: try (rewrite wrap_small by lia); try lia.
    - (* the CAS on P succeeded *) specialize (Hl _ eq_refl). cbn [loc_ok] in Hl. lia.
    - (* stay *) intros k ->. apply (loc_frame st st'); [|apply Hl; reflexivity]. unfold incur. rewrite Es, Ee, <- El. lia.
    - (* loaded cur = W *) intros k [= <-]. cbn [loc_ok]. split; [lia|]. intros _. lia.
    - (* loaded pd = P *) specialize (Hl _ eq_refl). cbn [loc_ok] in Hl. destruct Hl as (Hc & Hin).
      intros k [= <-]. unfold kloop. destruct (Z.leb_spec cur (sP V st)); cbn [loc_ok]; repeat split; try lia;
        intros Hi; unfold incur in *; rewrite Es, Ee, <- El in Hi; specialize (Hin Hi); lia.
    - (* re-read W *) specialize (Hl _ eq_refl). cbn [loc_ok] in Hl. destruct Hl as (Hc & Hpd & Hin).
      intros k [= <-]. unfold kloop. destruct (Z.leb_spec (sW V st) pd); cbn [loc_ok]; repeat split; try lia.
      intros Hi. unfold incur in *. rewrite Es, Ee, <- El in Hi. specialize (Hin Hi). lia.
    - (* the CAS on P failed *) specialize (Hl _ eq_refl). cbn [loc_ok] in Hl. destruct Hl as (Hc & Hpd & Hin).
      intros k [= <-]. unfold kloop. destruct (Z.leb_spec cur (sP V st)); cbn [loc_ok]; repeat split; try lia;
        intros Hi; unfold incur in *; rewrite Es, Ee, <- El in Hi; specialize (Hin Hi); lia.
    - (* saw W <= cur: if p produced in this epoch, B <= T+S from now on *)
      specialize (Hl _ eq_refl). cbn [loc_ok] in Hl. destruct Hl as (Hc & Hpd & Hin). intros Hne. unfold fresh in EK.
      destruct (Z.eqb_spec (sStamp V st p) (sE V st)) as [Ee0|Ne]; cbn [b2z] in EK.
      + right. specialize (Hin (conj Ee0 Hne)). lia.
      + specialize (HG Hne). lia.
  Qed.

  (* p, not taking part, produces one unit and enters its check: the epoch ticks if L was not positive *)
  Lemma hinv_produce st st' p th' :
    HInv st -> (p < n)%nat -> c_thr st' = upd (c_thr st) p th' -> rl st p = HOut -> orole (t_pc th') = HChk KStart ->
    sW V st' = sW V st -> sP V st' = sP V st -> sT V st' = sT V st -> sL V st' = sL V st + 1 ->
    sStamp V st' = upd (sStamp V st) p (sE V st') ->
    (sL V st <= 0 /\ sE V st' = sE V st + 1 \/ 0 < sL V st /\ sE V st' = sE V st) ->
    HInv st'.
  Proof.
    intros I Hp Et Er Er' EW EP ET EL Es He.
    pose proof (cnt_move HBlk st st' p th' Hp Et) as EB. pose proof (cnt_move HTry st st' p th' Hp Et) as EA.
    pose proof (cnt_move HWoke st st' p th' Hp Et) as ED. pose proof (cnt_move HGot st st' p th' Hp Et) as EN.
    pose proof (cnt_move HSig st st' p th' Hp Et) as ES.
    rewrite Er, Er' in EB, EA, ED, EN, ES. cbn [in_class b2z] in EB, EA, ED, EN, ES.
    assert (Kp : b2z (in_class (HChk KStart) (rl st' p) && fresh st' p) = 1).
    { unfold rl, fresh. rewrite Et, Es, !upd_same, Er', Z.eqb_refl. reflexivity. }
    assert (EK1 : 1 <= cntK st').
    { rewrite <- Kp. apply (sumn_ge_term n (fun q => b2z (in_class (HChk KStart) (rl st' q) && fresh st' q))); [exact Hp | intros q; apply b2z_range]. }
    assert (EK2 : 0 < sL V st -> cntK st' = cntK st + 1).
    { intros Hl. assert (Ee : sE V st' = sE V st) by lia. unfold cntK.
      rewrite (sumn_upd n (fun q => b2z (in_class (HChk KStart) (rl st q) && fresh st q))
                        (fun q => b2z (in_class (HChk KStart) (rl st' q) && fresh st' q)) p Hp).
      - rewrite Kp, Er. simpl. lia.
      - intros q N. unfold rl, fresh. rewrite Et, Es, Ee, !upd_other by exact N. reflexivity. }
    pose proof (cnt_range HBlk st) as PB. pose proof (cnt_range HTry st) as PA. pose proof (cnt_range HWoke st) as PD.
    pose proof (cnt_range HSig st) as PS. pose proof (cntK_range st) as PK.
    destruct I as [Iout IT IW IP IPb Ist Iloc IG]. unfold awake in *.
    constructor; unfold awake; try lia.
    - intros q Hge. rewrite Et, upd_other by lia. apply Iout; exact Hge.
    - intros q. rewrite Es. destruct (Nat.eq_dec q p) as [->|N]; [rewrite upd_same; lia | rewrite upd_other by exact N; specialize (Ist q); lia].
    - intros q k E. unfold rl in E. destruct (Nat.eq_dec q p) as [->|N].
      + rewrite Et, upd_same, Er' in E. injection E as <-. exact Logic.I.
      + rewrite Et, upd_other in E by exact N. apply (loc_frame st st'); [|apply (Iloc q k E)].
        unfold incur. rewrite Es, upd_other by exact N. specialize (Ist q). lia.
  Qed.

  Lemma hinv_init scripts :
    length scripts = n -> sW V (chan_init scripts) = 0 -> sP V (chan_init scripts) = 0 -> sT V (chan_init scripts) = 0 ->
    sE V (chan_init scripts) = 0 -> (forall p, sStamp V (chan_init scripts) p = 0) -> HInv (chan_init scripts).
  Proof.
    intros Hl EW EP ET EE ES.
    assert (Hr : forall p, rl (chan_init scripts) p = HOut).
    { intros p. unfold rl. simpl. unfold thr_init. destruct (nth p scripts []); simpl; [reflexivity | apply Hentry]. }
    assert (Z0 : forall r0, cnt r0 (chan_init scripts) = 0).
    { intros r0. apply sumn_zero. intros p _. rewrite Hr. destruct r0; reflexivity. }
    constructor; unfold awake; rewrite ?Z0, ?EW, ?EP, ?ET; try lia.
    - intros p Hge. simpl. unfold thr_init. rewrite nth_overflow by lia. reflexivity.
    - intros p. rewrite ES, EE. lia.
    - intros p k E. rewrite Hr in E. discriminate.
  Qed.

  (* the property: with units available and no token, it is not the case that somebody is blocked and everybody
     else takes no part *)
  Lemma hinv_awake st pb :
    HInv st -> 0 < sL V st -> sT V st = 0 -> (pb < n)%nat -> rl st pb = HBlk ->
    (forall p, (p < n)%nat -> rl st p = HBlk \/ rl st p = HOut) -> False.
  Proof.
    intros I HL HT Hpb Eb Hall.
    assert (Z0 : forall r0, in_class r0 HBlk = false -> cnt r0 st = 0).
    { intros r0 Hr. apply sumn_zero. intros p Hp. destruct (Hall p Hp) as [-> | ->]; [rewrite Hr; reflexivity | destruct r0; reflexivity]. }
    assert (ZK : cntK st = 0).
    { apply sumn_zero. intros p Hp. destruct (Hall p Hp) as [-> | ->]; reflexivity. }
    pose proof (cnt_ge1 HBlk st pb Hpb) as HB. rewrite Eb in HB. specialize (HB eq_refl).
    pose proof (hi_G st I HL) as G. unfold awake in G.
    rewrite (Z0 HSig), (Z0 HTry), (Z0 HWoke), ZK in G by reflexivity. lia.
  Qed.

  Lemma hinv_not_lost (blocked : cpc -> bool) st :
    (forall pc, blocked pc = true -> srole V pc = HBlk) -> (forall pc, idle_pc pc = true -> srole V pc = HOut) ->
    HInv st -> 0 < sL V st -> sT V st = 0 ->
    existsb (thr_state st blocked false) (seq 0 n) &&
    forallb (thr_state st (fun pc => blocked pc || idle_pc pc) true) (seq 0 n) = false.
  Proof.
    intros Hb Hi I HL HT. apply andb_false_iff.
    destruct (existsb _ _) eqn:Eex; [right | left; reflexivity].
    destruct (forallb _ _) eqn:Eall; [exfalso | reflexivity].
    apply existsb_exists in Eex. destruct Eex as (pb & Hpb & Eb). apply in_seq in Hpb. rewrite forallb_forall in Eall.
    apply (hinv_awake st pb I HL HT); [lia | |]; unfold rl, thr_state in *.
    - destruct (t_pc (c_thr st pb)) as [pc|]; [apply Hb; exact Eb | discriminate].
    - intros p Hp. specialize (Eall p ltac:(apply in_seq; lia)).
      destruct (t_pc (c_thr st p)) as [pc|]; [|right; reflexivity].
      apply orb_true_iff in Eall. destruct Eall as [E|E]; [left; apply Hb | right; apply Hi]; exact E.
  Qed.

  (* a step of p seen from this handshake: a move, or the produce *)
  Definition hstep (st st' : cstate) (p : nat) (r r' : hrole) : Prop :=
    (sE V st' = sE V st /\ sStamp V st' = sStamp V st /\
     hmove (sW V st) (sP V st) (sT V st) (sL V st) r r' (sW V st') (sP V st') (sT V st') (sL V st')) \/
    (r = HOut /\ r' = HChk KStart /\ sW V st' = sW V st /\ sP V st' = sP V st /\ sT V st' = sT V st /\
     sL V st' = sL V st + 1 /\ sStamp V st' = upd (sStamp V st) p (sE V st') /\
     (sL V st <= 0 /\ sE V st' = sE V st + 1 \/ 0 < sL V st /\ sE V st' = sE V st)).

  Lemma hinv_step st st' p pc th' :
    HInv st -> t_pc (c_thr st p) = Some pc -> c_thr st' = upd (c_thr st) p th' ->
    hstep st st' p (srole V pc) (orole (t_pc th')) -> HInv st'.
  Proof.
    intros I Epc Et H.
    assert (Hp : (p < n)%nat).
    { destruct (lt_dec p n); [assumption|]. rewrite (hi_out st I p) in Epc by lia. discriminate. }
    assert (Er : rl st p = srole V pc) by (unfold rl; rewrite Epc; reflexivity).
    destruct H as [(Ee & Es & M)|(E1 & E2 & EW & EP & ET & EL & Es & He)].
    - apply (hinv_move st st' p th' I Hp Et Ee Es). rewrite Er. exact M.
    - apply (hinv_produce st st' p th' I Hp Et); try assumption. rewrite Er. exact E1.
  Qed.
End Handshake.
