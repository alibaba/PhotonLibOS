(* C07_MPMC_Report.v — emptiness / fullness REPORTING of the MPMC ring queue (CAS variant push / pop,
   lockfree_queue.h 227-271), i.e. linearisable failure:
     a pop  that returns false saw the queue EMPTY at an instant inside that call (its tail load, line 264);
     a push that returns false saw the queue FULL  at an instant inside that call (its head load, line 241).
   The model (C07_MPMC_Model.v) is untouched: the history variable is the SCHEDULE itself.  A run is
   `mrun c st0 l` (l = the list of participant choices, any list), an "instant inside the call" is a prefix
   l1 of l (l = l1 ++ p :: l2: the state just before that step of p itself which is the middle load; loads do not
   change the state) at which the same thread has completed exactly the same operations
   (t_res equal: t_res only grows, by one entry per completed call) and stands inside the failing call.
   Why it holds: head and tail never decrease; the failing pop re-reads head and finds the value it started
   the round with (`h == prevHead`), so head had that value when tail was read in between.
   Everything is for ANY number of participants, ANY scripts (push/pop/send/recv mixed), ANY schedule, below
   the 2^64 index wrap (guard `nowrap` on the last state; earlier states satisfy it by monotonicity). *)
From Coq Require Import ZArith Lia List Bool Arith.
From PV Require Import C07.C07_Model C07.C07_Arith C07.C07_Lists C07.C07_MPMC_Model C07.C07_MPMC_Proofs.
Import ListNotations.
Local Open Scope Z_scope.

Fixpoint mrun (c : cfg) (st : mstate) (sched : list nat) : mstate :=
  match sched with [] => st | p :: r => mrun c (fst (mpmc_step c st p)) r end.

Lemma mrun_app c st l1 l2 : mrun c st (l1 ++ l2) = mrun c (mrun c st l1) l2.
Proof. revert st; induction l1 as [|a l1 IH]; intros st; simpl; [reflexivity | apply IH]. Qed.
Lemma mrun_snoc c st l p : mrun c st (l ++ [p]) = fst (mpmc_step c (mrun c st l) p).
Proof. rewrite mrun_app. reflexivity. Qed.
Lemma mrun_reach c st0 l : mreach c st0 (mrun c st0 l).
Proof. induction l as [|p l IH] using rev_ind; [constructor | rewrite mrun_snoc; constructor; exact IH]. Qed.
Lemma mreach_mrun c st0 st : mreach c st0 st -> exists l, st = mrun c st0 l.
Proof.
  intros R. induction R as [|st p R [l ->]]; [exists []; reflexivity|].
  exists (l ++ [p]). symmetry. apply mrun_snoc.
Qed.
Lemma mrun_mono c st l : m_gt st <= m_gt (mrun c st l) /\ m_gh st <= m_gh (mrun c st l).
Proof.
  revert st; induction l as [|p l IH]; intros st; simpl; [lia|].
  destruct (step_mono c st p). destruct (IH (fst (mpmc_step c st p))). lia.
Qed.

Lemma cons_neq {A} (x : A) l : l = x :: l -> False.
Proof. intros E. apply (f_equal (@length A)) in E. simpl in E. lia. Qed.

Ltac step_split :=
  cbn [fst];
  repeat match goal with |- context [if ?b then _ else _] => destruct b eqn:? end;
  unfold m_finish, m_goto, m_set_thr, m_set_mark, m_set_slot, m_claim_tail, m_claim_head;
  cbn [fst m_head m_tail m_mark m_slot m_gh m_gt m_gval m_gwho m_gpop m_thr].

Lemma step_other c st q p : p <> q -> m_thr (fst (mpmc_step c st q)) p = m_thr st p.
Proof.
  intros N. unfold mpmc_step. destruct (t_pc (m_thr st q)) as [pc|]; [|reflexivity].
  destruct pc; step_split; apply upd_other; exact N.
Qed.

(* the thread that moves either goes to another program point of the same call (never an entry point) or completes
   its call with a result *)
Lemma step_self c st q pc : t_pc (m_thr st q) = Some pc ->
  (exists pc', m_thr (fst (mpmc_step c st q)) q = thr_goto (m_thr st q) pc' /\ forall o, pc' <> mpmc_entry o) \/
  (exists r, m_thr (fst (mpmc_step c st q)) q = thr_finish mpmc_entry (m_thr st q) r).
Proof.
  intros E. unfold mpmc_step. rewrite E.
  destruct pc; step_split; rewrite upd_same;
    first [ right; eexists; reflexivity
          | left; eexists; split; [reflexivity | intros o; destruct o; discriminate] ].
Qed.

Lemma step_idle c st q : t_pc (m_thr st q) = None -> fst (mpmc_step c st q) = st.
Proof. intros E. unfold mpmc_step. rewrite E. reflexivity. Qed.

(* the only way into the re-check loads MPopLdH2 / MPushLdT2 *)
Lemma step_to_recheck c st p pc pc' :
  t_pc (m_thr st p) = Some pc -> t_pc (m_thr (fst (mpmc_step c st p)) p) = Some pc' ->
  match pc' with
  | MPopLdH2 prev t => pc = MPopLdT prev /\ t = m_tail st /\ t_res (m_thr (fst (mpmc_step c st p)) p) = t_res (m_thr st p)
  | MPushLdT2 v prev h => pc = MPushLdH v prev /\ h = m_head st /\ t_res (m_thr (fst (mpmc_step c st p)) p) = t_res (m_thr st p)
  | _ => True
  end.
Proof.
  intros E. unfold mpmc_step. rewrite E.
  destruct pc; step_split; rewrite upd_same; intros E';
    try (apply thr_finish_pc in E'; destruct E' as (o & _ & _ & ->); destruct o; exact I);
    cbn [thr_goto t_pc t_res] in E' |- *; injection E' as <-; auto.
Qed.

(* the only way to complete a call with `false`, and with `true` *)
Lemma step_result c st p r :
  t_res (m_thr (fst (mpmc_step c st p)) p) = r :: t_res (m_thr st p) ->
  match r with
  | RPopFail => exists prev t, t_pc (m_thr st p) = Some (MPopLdH2 prev t) /\ m_head st = prev /\ check_empty (m_head st) t = true
  | RPushFail => exists v prev h, t_pc (m_thr st p) = Some (MPushLdT2 v prev h) /\ m_tail st = prev /\ check_full c h (m_tail st) = true
  | RPushOk i v => exists t, t_pc (m_thr st p) = Some (MPushStM false v t i)
  | RPopOk i v => exists h, t_pc (m_thr st p) = Some (MPopStM false h i v)
  | _ => True
  end.
Proof.
  unfold mpmc_step. destruct (t_pc (m_thr st p)) as [pc|] eqn:E; [|intros X; cbn [fst] in X; destruct (cons_neq _ _ X)].
  destruct pc; step_split; rewrite upd_same; intros X;
    try (cbn [thr_goto t_res] in X; destruct (cons_neq _ _ X));
    rewrite finish_tres in X; injection X as <-; try exact I; eauto.
  - match goal with H : (_ =? _) && _ = true |- _ => apply andb_true_iff in H; destruct H as [H1 H2] end.
    apply Z.eqb_eq in H1. eauto 6.
  - match goal with H : (_ =? _) && _ = true |- _ => apply andb_true_iff in H; destruct H as [H1 H2] end.
    apply Z.eqb_eq in H1. eauto.
Qed.

Section Report.
  Variable c : cfg.
  Hypothesis Hc : cfg_ok c.
  Variable s : Z.
  Hypothesis Hs0 : 0 <= s.
  Variable scripts : list (list op).
  Let cap := c_cap c.
  Let st0 := mpmc_init c s scripts.

  Lemma run_inv l : nowrap c (mrun c st0 l) -> MInv c s (mrun c st0 l).
  Proof. intros NW. apply (mreach_inv c Hc s scripts); [exact Hs0 | apply mrun_reach | exact NW]. Qed.

  (* an earlier instant of a run that stays below the wrap *)
  Lemma earlier l l1 l2 : l = l1 ++ l2 -> nowrap c (mrun c st0 l) ->
    nowrap c (mrun c st0 l1) /\ MInv c s (mrun c st0 l1) /\ MInv c s (mrun c st0 l) /\
    m_gt (mrun c st0 l1) <= m_gt (mrun c st0 l) /\ m_gh (mrun c st0 l1) <= m_gh (mrun c st0 l).
  Proof.
    intros -> NW. pose proof (mrun_mono c (mrun c st0 l1) l2) as M. rewrite <- mrun_app in M.
    assert (NW1 : nowrap c (mrun c st0 l1)) by (unfold nowrap in *; lia).
    split; [exact NW1|]. split; [exact (run_inv l1 NW1)|]. split; [exact (run_inv _ NW) | exact M].
  Qed.

  (* T is a property of program points that no entry point has and that only p's own steps can establish, at which moment
     E holds of the state before the step: then a thread standing at a T point got there by a step of its own at an earlier
     instant l1 of the same call (same completed results), and E held at l1 *)
  Lemma history p (T : mpc -> Prop) (E : mstate -> Prop) :
    (forall o, ~ T (mpmc_entry o)) ->
    (forall l pc pc', nowrap c (mrun c st0 l) -> t_pc (m_thr (mrun c st0 l) p) = Some pc ->
       t_pc (m_thr (fst (mpmc_step c (mrun c st0 l) p)) p) = Some pc' -> T pc' ->
       t_res (m_thr (fst (mpmc_step c (mrun c st0 l) p)) p) = t_res (m_thr (mrun c st0 l) p) /\ (T pc \/ E (mrun c st0 l))) ->
    forall l pc, nowrap c (mrun c st0 l) -> t_pc (m_thr (mrun c st0 l) p) = Some pc -> T pc ->
    exists l1 l2, l = l1 ++ p :: l2 /\ t_res (m_thr (mrun c st0 l1) p) = t_res (m_thr (mrun c st0 l) p) /\ E (mrun c st0 l1).
  Proof.
    intros T0 Tstep l. induction l as [|q l IH] using rev_ind; intros pc NW Epc Tpc.
    - apply init_entry in Epc. destruct Epc as [o ->]. destruct (T0 o Tpc).
    - rewrite mrun_snoc in *. set (st := mrun c st0 l) in *.
      pose proof (nowrap_step c st q NW) as NW0.
      assert (Hext : forall pc0, t_pc (m_thr st p) = Some pc0 -> T pc0 ->
                t_res (m_thr (fst (mpmc_step c st q)) p) = t_res (m_thr st p) ->
                exists l1 l2, l ++ [q] = l1 ++ p :: l2 /\
                  t_res (m_thr (mrun c st0 l1) p) = t_res (m_thr (fst (mpmc_step c st q)) p) /\ E (mrun c st0 l1)).
      { intros pc0 E0 T1 Er. destruct (IH pc0 NW0 E0 T1) as (l1 & l2 & -> & A & B).
        exists l1, (l2 ++ [q]). rewrite <- app_assoc, Er. auto. }
      destruct (Nat.eq_dec p q) as [<-|N].
      + destruct (t_pc (m_thr st p)) as [pc0|] eqn:E0; [|rewrite (step_idle c st p E0) in Epc; congruence].
        destruct (Tstep l pc0 pc NW0 E0 Epc Tpc) as [Er [Told|Ev]]; [apply (Hext pc0); auto|].
        exists l, []. split; [reflexivity|]. split; [symmetry; exact Er | exact Ev].
      + rewrite (step_other c st q p N) in Epc. apply (Hext pc); auto. rewrite (step_other c st q p N). reflexivity.
  Qed.

  (* a thread standing at the re-check load (MPopLdH2 prev t / MPushLdT2 v prev h) made its middle load (MPopLdT /
     MPushLdH) at an earlier instant of the same call; there the other index was not below `prev` *)
  Lemma hist_pop l p prev t : nowrap c (mrun c st0 l) -> t_pc (m_thr (mrun c st0 l) p) = Some (MPopLdH2 prev t) ->
    exists l1 l2, l = l1 ++ p :: l2 /\ t_res (m_thr (mrun c st0 l1) p) = t_res (m_thr (mrun c st0 l) p) /\
      t_pc (m_thr (mrun c st0 l1) p) = Some (MPopLdT prev) /\ m_tail (mrun c st0 l1) = t /\ prev <= m_gh (mrun c st0 l1).
  Proof.
    intros NW Epc. apply (history p (fun pc => pc = MPopLdH2 prev t)
                     (fun st1 => t_pc (m_thr st1 p) = Some (MPopLdT prev) /\ m_tail st1 = t /\ prev <= m_gh st1)) with (pc := MPopLdH2 prev t); auto.
    - intros o. destruct o; discriminate.
    - intros l0 pc pc' NW0 E0 E1 ->. destruct (step_to_recheck c _ p pc _ E0 E1) as (-> & -> & Eres).
      pose proof (mv_pc c s _ (run_inv l0 NW0) p _ E0) as K. cbn [pc_ok] in K. split; [exact Eres|]. right. repeat split; [exact E0 | lia].
  Qed.
  Lemma hist_push l p v prev h : nowrap c (mrun c st0 l) -> t_pc (m_thr (mrun c st0 l) p) = Some (MPushLdT2 v prev h) ->
    exists l1 l2, l = l1 ++ p :: l2 /\ t_res (m_thr (mrun c st0 l1) p) = t_res (m_thr (mrun c st0 l) p) /\
      t_pc (m_thr (mrun c st0 l1) p) = Some (MPushLdH v prev) /\ m_head (mrun c st0 l1) = h /\ prev <= m_gt (mrun c st0 l1).
  Proof.
    intros NW Epc. apply (history p (fun pc => pc = MPushLdT2 v prev h)
                     (fun st1 => t_pc (m_thr st1 p) = Some (MPushLdH v prev) /\ m_head st1 = h /\ prev <= m_gt st1)) with (pc := MPushLdT2 v prev h); auto.
    - intros o. destruct o; discriminate.
    - intros l0 pc pc' NW0 E0 E1 ->. destruct (step_to_recheck c _ p pc _ E0 E1) as (-> & -> & Eres).
      pose proof (mv_pc c s _ (run_inv l0 NW0) p _ E0) as K. cbn [pc_ok] in K. split; [exact Eres|]. right. repeat split; [exact E0 | lia].
  Qed.

  (* (a1) a pop that returns false saw the queue empty inside the call *)
  Lemma pop_fail_saw_empty l p :
    nowrap c (fst (mpmc_step c (mrun c st0 l) p)) ->
    t_res (m_thr (fst (mpmc_step c (mrun c st0 l) p)) p) = RPopFail :: t_res (m_thr (mrun c st0 l) p) ->
    exists l1 l2 h, l = l1 ++ p :: l2 /\
      t_pc (m_thr (mrun c st0 l1) p) = Some (MPopLdT h) /\
      t_res (m_thr (mrun c st0 l1) p) = t_res (m_thr (mrun c st0 l) p) /\
      m_head (mrun c st0 l1) = m_tail (mrun c st0 l1) /\
      m_gh (mrun c st0 l1) = m_gt (mrun c st0 l1).
  Proof.
    intros NW' X.
    pose proof (nowrap_step c _ p NW') as NW.
    destruct (step_result c _ p _ X) as (prev & t & Epc & Eh & Ee).
    destruct (hist_pop l p prev t NW Epc) as (l1 & l2 & El & B & A & C0 & D).
    exists l1, l2, prev. split; [exact El|]. split; [exact A|]. split; [exact B|].
    destruct (earlier l l1 (p :: l2) El NW) as (NW1 & I1 & I & _ & M).
    unfold check_empty in Ee. apply Z.eqb_eq in Ee.
    rewrite (mv_head c s _ I) in Eh, Ee. rewrite (mv_head c s _ I1). rewrite (mv_tail c s _ I1) in C0 |- *.
    split; lia.
  Qed.

  (* (a2) a push that returns false saw the queue full inside the call *)
  Lemma pushfull_arith gh gt : check_full c gh gt = true -> gt <> gh /\ (gt - gh) mod cap = 0.
  Proof.
    unfold check_full. rewrite andb_true_iff, negb_true_iff, Z.eqb_neq. intros [A B].
    apply (mask_equal_spec c gh gt Hc) in B. pose proof (cfg_cap_pos c Hc). fold cap in B |- *.
    split; [congruence|]. apply (mod_eq_diff cap gt gh); [lia | congruence].
  Qed.

  Lemma push_fail_saw_full l p :
    nowrap c (fst (mpmc_step c (mrun c st0 l) p)) ->
    t_res (m_thr (fst (mpmc_step c (mrun c st0 l) p)) p) = RPushFail :: t_res (m_thr (mrun c st0 l) p) ->
    exists l1 l2 v t, l = l1 ++ p :: l2 /\
      t_pc (m_thr (mrun c st0 l1) p) = Some (MPushLdH v t) /\
      t_res (m_thr (mrun c st0 l1) p) = t_res (m_thr (mrun c st0 l) p) /\
      check_full c (m_head (mrun c st0 l1)) (m_tail (mrun c st0 l1)) = true /\
      m_gt (mrun c st0 l1) <> m_gh (mrun c st0 l1) /\
      (m_gt (mrun c st0 l1) - m_gh (mrun c st0 l1)) mod cap = 0.
  Proof.
    intros NW' X.
    pose proof (nowrap_step c _ p NW') as NW.
    destruct (step_result c _ p _ X) as (v & prev & h & Epc & Et & Ef).
    destruct (hist_push l p v prev h NW Epc) as (l1 & l2 & El & B & A & C0 & D).
    exists l1, l2, v, prev. split; [exact El|]. split; [exact A|]. split; [exact B|].
    destruct (earlier l l1 (p :: l2) El NW) as (NW1 & I1 & I & M & _).
    assert (Et1 : m_tail (mrun c st0 l1) = m_tail (mrun c st0 l)).
    { rewrite (mv_tail c s _ I) in Et |- *. rewrite (mv_tail c s _ I1). lia. }
    assert (F : check_full c (m_head (mrun c st0 l1)) (m_tail (mrun c st0 l1)) = true) by (rewrite C0, Et1; exact Ef).
    split; [exact F|].
    rewrite (mv_head c s _ I1), (mv_tail c s _ I1) in F. apply pushfull_arith; exact F.
  Qed.
End Report.

(* (a3) what "full" means in index terms.
   check_full (the C++ `full()` test) says tail - head is a non-zero multiple of the capacity.  send / recv (the ticket
   variant) claim unconditionally, so tail - head may exceed the capacity (blocked senders) or be negative (blocked
   receivers).  If no participant ever calls recv, head <= tail in every reachable state, so a failing push saw at least
   `capacity` claimed-and-unclaimed elements; if moreover nobody calls send, tail <= head + capacity and it saw exactly
   `capacity`.  (With recv in the mix a push CAN return false on a drained queue: see mixed_push_fail_not_full.) *)
Definition norecv (st : mstate) : Prop :=
  forall p, t_pc (m_thr st p) <> Some MRecvFa /\ ~ In ORecv (t_ops (m_thr st p)).
Definition nosend (st : mstate) : Prop :=
  forall p, (forall v, t_pc (m_thr st p) <> Some (MSendFa v)) /\ (forall v, ~ In (OSend v) (t_ops (m_thr st p))).
Definition norecv_scripts (scripts : list (list op)) : Prop := forall p, ~ In ORecv (nth p scripts []).
Definition nosend_scripts (scripts : list (list op)) : Prop := forall p v, ~ In (OSend v) (nth p scripts []).

(* operations of a class P that no script contains are never started: no thread stands at their entry point or has one
   of them ahead *)
Definition never (P : op -> Prop) (st : mstate) : Prop :=
  forall p o, P o -> t_pc (m_thr st p) <> Some (mpmc_entry o) /\ ~ In o (t_ops (m_thr st p)).

Lemma never_run c s scripts (P : op -> Prop) l :
  (forall o o', P o -> mpmc_entry o' = mpmc_entry o -> P o') -> (forall p o, P o -> ~ In o (nth p scripts [])) ->
  never P (mrun c (mpmc_init c s scripts) l).
Proof.
  intros Hinj Hs.
  assert (Hnext : forall ops, (forall o, P o -> ~ In o ops) -> forall o, P o ->
            match ops with [] => True | o' :: rest => Some (mpmc_entry o') <> Some (mpmc_entry o) /\ ~ In o rest end).
  { intros [|o' rest] H o Po; [exact I|]. split; [|intros X; apply (H o Po); right; exact X].
    intros E. injection E as E. apply (H o' (Hinj o o' Po E)). left; reflexivity. }
  induction l as [|q l IH] using rev_ind; intros p o Po.
  - specialize (Hnext (nth p scripts []) (Hs p) o Po). simpl. unfold thr_init.
    destruct (nth p scripts []); simpl; [split; [discriminate | tauto] | exact Hnext].
  - rewrite mrun_snoc. set (st := mrun c _ l) in *. destruct (IH p o Po) as [H1 H2].
    destruct (Nat.eq_dec p q) as [->|N]; [|rewrite (step_other c st q p N); auto].
    destruct (t_pc (m_thr st q)) as [pc|] eqn:Epc; [|rewrite (step_idle c st q Epc); auto].
    destruct (step_self c st q pc Epc) as [(pc' & -> & A)|(r & ->)].
    + split; [intros E; injection E as E; exact (A o E) | exact H2].
    + specialize (Hnext (t_ops (m_thr st q)) (fun o' Po' => proj2 (IH q o' Po')) o Po). unfold thr_finish.
      destruct (t_ops (m_thr st q)); simpl; [split; [discriminate | tauto] | exact Hnext].
Qed.

Lemma norecv_run c s scripts l : norecv_scripts scripts -> norecv (mrun c (mpmc_init c s scripts) l).
Proof.
  intros H p. refine (never_run c s scripts (eq ORecv) l _ _ p ORecv eq_refl); [|intros q o <-; apply H].
  intros o o' <- E. destruct o'; try discriminate. reflexivity.
Qed.
Lemma nosend_run c s scripts l : nosend_scripts scripts -> nosend (mrun c (mpmc_init c s scripts) l).
Proof.
  intros H p.
  assert (N : never (fun o => exists v, o = OSend v) (mrun c (mpmc_init c s scripts) l)).
  { apply never_run; [|intros q o [v ->]; apply H]. intros o o' [v ->] E. destruct o'; try discriminate. eauto. }
  split; intros v; apply (N p (OSend v)); eauto.
Qed.

Section Bounds.
  Variable c : cfg.
  Hypothesis Hc : cfg_ok c.
  Variable s : Z.
  Let cap := c_cap c.

  Lemma shift_slot i : 0 < cap -> (i - cap) mod cap = i mod cap /\ (i - cap) / cap = i / cap - 1.
  Proof.
    intros Hp. replace (i - cap) with (i + (-1) * cap) by lia.
    split; [apply Z_mod_plus_full | rewrite Z_div_plus_full by lia; lia].
  Qed.

  (* head <= tail is preserved by every step except recv's fetch_add *)
  Lemma le_step st q : MInv c s st -> norecv st -> m_gh st <= m_gt st ->
    m_gh (fst (mpmc_step c st q)) <= m_gt (fst (mpmc_step c st q)).
  Proof.
    intros I NR B.
    destruct (step_claims c st q) as [(A & A' & _)|[(v & _ & A & A' & _)|([Epc|Epc] & A & A' & _)]]; rewrite A, A'; try lia.
    - (* head CAS: the mark of slot head says that the element is there *)
      pose proof (mv_pc c s st I q _ Epc) as K. cbn [pc_ok] in K. rewrite (mv_head c s st I) in K. destruct K as [_ K].
      destruct (mark_odd_published c s st (m_gh st) I (proj1 (mv_lo c s st I)) K) as [L _]. lia.
    - destruct (proj1 (NR q) Epc).
  Qed.

  (* tail <= head + capacity is preserved by every step except send's fetch_add *)
  Lemma ge_step st q : MInv c s st -> nosend st -> m_gt st <= m_gh st + cap ->
    m_gt (fst (mpmc_step c st q)) <= m_gh (fst (mpmc_step c st q)) + cap.
  Proof.
    intros I NS B. pose proof (cfg_cap_pos c Hc) as Hcp. fold cap in Hcp.
    destruct (step_claims c st q) as [(A & A' & _)|[(v & [Epc|Epc] & A & A' & _)|(_ & A & A' & _)]]; rewrite A, A'; try lia.
    - (* tail CAS: the mark of slot tail says that the element of the previous turn is gone *)
      pose proof (mv_pc c s st I q _ Epc) as K. cbn [pc_ok] in K. rewrite (mv_tail c s st I) in K. destruct K as [_ K].
      destruct (Z_le_gt_dec (m_gh st) (m_gt st - cap)) as [G|L]; [|lia].
      assert (G1 : s <= m_gt st - cap) by (pose proof (proj1 (mv_lo c s st I)); lia).
      pose proof (sd_unp c s (mv_r c s st I) (m_gt st - cap) G1 (or_introl G)) as U. cbn beta in U.
      fold cap in K, U. destruct (shift_slot (m_gt st) ltac:(lia)) as [E1 E2]. rewrite E1, E2 in U. lia.
    - destruct (proj1 (NS q) v Epc).
  Qed.

  Variable scripts : list (list op).
  Hypothesis Hs0 : 0 <= s.
  Let st0 := mpmc_init c s scripts.

  Lemma run_le l : norecv_scripts scripts -> nowrap c (mrun c st0 l) -> m_gh (mrun c st0 l) <= m_gt (mrun c st0 l).
  Proof.
    intros NR. induction l as [|q l IH] using rev_ind; intros NW; [simpl; lia|].
    rewrite mrun_snoc in NW |- *.
    pose proof (nowrap_step c _ q NW) as NW0.
    apply le_step; [apply (run_inv c Hc s Hs0 scripts l NW0) | apply norecv_run; exact NR | apply IH; exact NW0].
  Qed.
  Lemma run_ge l : nosend_scripts scripts -> nowrap c (mrun c st0 l) -> m_gt (mrun c st0 l) <= m_gh (mrun c st0 l) + cap.
  Proof.
    intros NS. pose proof (cfg_cap_pos c Hc) as Hcp. fold cap in Hcp.
    induction l as [|q l IH] using rev_ind; intros NW; [simpl; lia|].
    rewrite mrun_snoc in NW |- *.
    pose proof (nowrap_step c _ q NW) as NW0.
    apply ge_step; [apply (run_inv c Hc s Hs0 scripts l NW0) | apply nosend_run; exact NS | apply IH; exact NW0].
  Qed.

  (* a failing push in a run without recv saw >= capacity elements; without send and recv: exactly capacity *)
  Lemma push_fail_saw_full_cas l p :
    norecv_scripts scripts ->
    nowrap c (fst (mpmc_step c (mrun c st0 l) p)) ->
    t_res (m_thr (fst (mpmc_step c (mrun c st0 l) p)) p) = RPushFail :: t_res (m_thr (mrun c st0 l) p) ->
    exists l1 l2 v t, l = l1 ++ p :: l2 /\
      t_pc (m_thr (mrun c st0 l1) p) = Some (MPushLdH v t) /\
      t_res (m_thr (mrun c st0 l1) p) = t_res (m_thr (mrun c st0 l) p) /\
      cap <= m_gt (mrun c st0 l1) - m_gh (mrun c st0 l1) /\
      (nosend_scripts scripts -> m_gt (mrun c st0 l1) - m_gh (mrun c st0 l1) = cap).
  Proof.
    intros NR NW' X.
    destruct (push_fail_saw_full c Hc s Hs0 scripts l p NW' X) as (l1 & l2 & v & t & El & A & B & _ & Ne & Md).
    fold st0 in A, B, Ne, Md.
    exists l1, l2, v, t. split; [exact El|]. split; [exact A|]. split; [exact B|].
    pose proof (nowrap_step c _ p NW') as NW.
    destruct (earlier c Hc s Hs0 scripts l l1 (p :: l2) El NW) as (NW1 & _).
    pose proof (run_le l1 NR NW1) as Le. pose proof (cfg_cap_pos c Hc) as Hcp. fold cap in Hcp, Md.
    set (d := m_gt (mrun c st0 l1) - m_gh (mrun c st0 l1)) in *.
    assert (Hd : 0 < d) by (unfold d; lia).
    assert (Hge : cap <= d).
    { destruct (Z_lt_dec d cap) as [L|G]; [|lia]. rewrite Z.mod_small in Md by lia. lia. }
    split; [exact Hge|]. intros NS. pose proof (run_ge l1 NS NW1). unfold d in *. lia.
  Qed.
End Bounds.

(* with recv in the mix, the `full()` test can hold on a DRAINED queue (head > tail): capacity 2, two elements pushed and
   consumed except that the first consumer has not yet released slot 0, two more receivers waiting: head = 4, tail = 2,
   and push returns false.  (A spurious `false`, not a safety problem; RingChannel uses push with pop only.) *)
Example mixed_push_fail_not_full :
  let c := cfg_of 2 in
  let st0 := mpmc_init c 0 [[OPush 7; OPush 8; OPush 9]; [ORecv]; [ORecv; ORecv]; [ORecv]] in
  exists l, let st := mrun c st0 l in
    t_res (m_thr (fst (mpmc_step c st 0%nat)) 0%nat) = RPushFail :: t_res (m_thr st 0%nat) /\
    nowrap c (fst (mpmc_step c st 0%nat)) /\ m_gh st = 4 /\ m_gt st = 2.
Proof.
  cbv zeta.
  exists [0;0;0;0;0; 0;0;0;0;0; 1;1; 2;2;2;2; 2; 3; 0;0;0]%nat.
  vm_compute. repeat split; reflexivity.
Qed.
