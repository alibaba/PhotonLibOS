(* C07_Batch_Proofs.v — inductive invariant of the batch MPMC ring queue model (push_batch / pop_batch / push / pop
   with ordered publication through write_head / head): ANY number of participants, any scripts, any schedule, any
   capacity 2^k, any start index s >= 0, below the 2^64 index wrap (guard bnowrap: tail + capacity < 2^64, which rules
   out ABA on the claim CAS).  head <= read_tail <= write_head <= tail <= head + capacity; claimed intervals are
   pairwise disjoint; every element of [head, write_head) sits intact in its slot; every pop returns exactly the
   values pushed under the indices it claimed. *)
From Coq Require Import ZArith Lia List Bool Arith.
From PV Require Import Base.U64 C07.C07_Model C07.C07_Arith C07.C07_Lists C07.C07_Batch_Model.
Import ListNotations.
Local Open Scope Z_scope.

Definition wint (pc : bpc) : option (Z * Z) :=
  match pc with BPushWr _ _ _ wn i | BPushCasW _ _ wn i _ => Some (i, wn) | _ => None end.
Definition rint (pc : bpc) : option (Z * Z) :=
  match pc with BPopRd _ _ rn i | BPopCasH _ _ rn i _ => Some (i, rn) | _ => None end.
Definition bop_ok (o : op) : Prop := match o with OPopB n => 0 <= n | _ => True end.

Section Batch.
  Variable c : cfg.
  Hypothesis Hc : cfg_ok c.
  Variable s : Z.
  Let cap := c_cap c.

  Definition bpc_ok (st : bstate) (pc : bpc) : Prop :=
    let hd_ := b_head st in let tl := b_tail st in let wh := b_whead st in let rt_ := b_rtail st in
    match pc with
    | BPushLdT one vs => True
    | BPushLdH one vs wt => s <= wt <= tl
    | BPushCasT one vs wt wn => s <= wt <= tl /\ 0 < wn <= Z.of_nat (length vs) /\ (wt = tl -> tl + wn <= hd_ + cap)
    | BPushWr one vs wt wn i => wt = i /\ wh <= i /\ i + wn <= tl /\ 0 < wn <= Z.of_nat (length vs) /\
        (forall k, 0 <= k < wn -> b_gval st (i + k) = nth (Z.to_nat k) (firstn (Z.to_nat wn) vs) 0)
    | BPushCasW one wt wn i ws => wt = i /\ wh <= i /\ i + wn <= tl /\ 0 < wn /\ Z.of_nat (length ws) = wn /\
        (forall k, 0 <= k < wn -> b_gval st (i + k) = nth (Z.to_nat k) ws 0 /\
                                  b_slot st ((i + k) mod cap) = nth (Z.to_nat k) ws 0)
    | BPopLdRT one n => 0 <= n
    | BPopLdWH one n rt => 0 <= n /\ s <= rt <= rt_
    | BPopCasRT one n rt rn => 0 <= n /\ s <= rt <= rt_ /\ 0 < rn /\ (rt = rt_ -> rt_ + rn <= wh)
    | BPopRd one rt rn i => rt = i /\ hd_ <= i /\ i + rn <= rt_ /\ 0 < rn
    | BPopCasH one rt rn i vs => rt = i /\ hd_ <= i /\ i + rn <= rt_ /\ 0 < rn /\
        vs = map (b_gval st) (zseq i (Z.to_nat rn))
    end.

  Definition res_ok (st : bstate) (r : res) : Prop :=
    match r with
    | RPopOk i v => s <= i < b_tail st /\ v = b_gval st i
    | RPopB i vs => s <= i /\ i + Z.of_nat (length vs) <= b_tail st /\ vs = map (b_gval st) (zseq i (length vs))
    | RPushOk i v => i < b_tail st /\ b_gval st i = v
    | RPushB i ws => i + Z.of_nat (length ws) <= b_tail st /\
                     forall k, 0 <= k < Z.of_nat (length ws) -> b_gval st (i + k) = nth (Z.to_nat k) ws 0
    | _ => True
    end.

  Definition bnowrap (st : bstate) : Prop := b_tail st + cap < W64.

  (* the intervals that two different participants hold under f (wint: being written, rint: being read) are disjoint *)
  Definition disj (f : bpc -> option (Z * Z)) (st : bstate) : Prop :=
    forall p q pc1 pc2 a k b l, p <> q -> t_pc (b_thr st p) = Some pc1 -> t_pc (b_thr st q) = Some pc2 ->
    f pc1 = Some (a, k) -> f pc2 = Some (b, l) -> a + k <= b \/ b + l <= a.

  Record BInv (st : bstate) : Prop := mkBInv {
    bv_s : 0 <= s;
    bv_gt : b_gt st = b_tail st;
    bv_grt : b_grt st = b_rtail st;
    bv_ord : s <= b_head st /\ b_head st <= b_rtail st /\ b_rtail st <= b_whead st /\ b_whead st <= b_tail st /\
             b_tail st <= b_head st + cap;
    bv_g : bnowrap st;
    bv_pc : forall p pc, t_pc (b_thr st p) = Some pc -> bpc_ok st pc;
    bv_ops : forall p, Forall bop_ok (t_ops (b_thr st p));
    bv_wdisj : disj wint st;
    bv_rdisj : disj rint st;
    bv_data : forall j, b_head st <= j < b_whead st -> b_slot st (j mod cap) = b_gval st j;
    bv_res : forall p r, In r (t_res (b_thr st p)) -> res_ok st r;
  }.

  Lemma entry_bok st o : bop_ok o -> bpc_ok st (batch_entry o).
  Proof. destruct o; simpl; intros H; try exact I; try lia. Qed.
  Lemma entry_noint o : wint (batch_entry o) = None /\ rint (batch_entry o) = None.
  Proof. destruct o; split; reflexivity. Qed.

  (* the record of p is replaced by one that holds under f what p held, or nothing *)
  Lemma disj_keep f st st' p pc :
    t_pc (b_thr st p) = Some pc -> (forall q, q <> p -> b_thr st' q = b_thr st q) ->
    (forall pc', t_pc (b_thr st' p) = Some pc' -> f pc' = f pc \/ f pc' = None) ->
    disj f st -> disj f st'.
  Proof.
    intros Epc Ho Hp D.
    assert (Hint : forall q pcq a k, t_pc (b_thr st' q) = Some pcq -> f pcq = Some (a, k) ->
              exists pc0, t_pc (b_thr st q) = Some pc0 /\ f pc0 = Some (a, k)).
    { intros q pcq a k E Hf. destruct (Nat.eq_dec q p) as [->|N].
      - destruct (Hp pcq E) as [H|H]; [exists pc; split; [exact Epc | congruence] | congruence].
      - rewrite Ho in E by exact N. exists pcq. auto. }
    intros q1 q2 pc1 pc2 a k b l N E1 E2 H1 H2.
    destruct (Hint _ _ _ _ E1 H1) as (pa & Ea & Fa). destruct (Hint _ _ _ _ E2 H2) as (pb & Eb & Fb).
    exact (D q1 q2 pa pb a k b l N Ea Eb Fa Fb).
  Qed.

  (* p, holding nothing under f, claims [a, a+k) above everything held under f *)
  Lemma disj_claim f st st' p a k :
    (forall q, q <> p -> b_thr st' q = b_thr st q) ->
    (forall pc' b l, t_pc (b_thr st' p) = Some pc' -> f pc' = Some (b, l) -> b = a /\ l = k) ->
    (forall q pcq b l, q <> p -> t_pc (b_thr st q) = Some pcq -> f pcq = Some (b, l) -> b + l <= a) ->
    disj f st -> disj f st'.
  Proof.
    intros Ho Hp Hbelow D q1 q2 pc1 pc2 a1 k1 b l N E1 E2 H1 H2.
    destruct (Nat.eq_dec q1 p) as [->|N1]; destruct (Nat.eq_dec q2 p) as [->|N2]; try contradiction.
    - destruct (Hp _ _ _ E1 H1) as [-> ->]. rewrite Ho in E2 by exact N2. right. exact (Hbelow q2 pc2 b l N2 E2 H2).
    - destruct (Hp _ _ _ E2 H2) as [-> ->]. rewrite Ho in E1 by exact N1. left. exact (Hbelow q1 pc1 a1 k1 N1 E1 H1).
    - rewrite Ho in E1 by exact N1. rewrite Ho in E2 by exact N2. exact (D q1 q2 pc1 pc2 a1 k1 b l N E1 E2 H1 H2).
  Qed.

  (* a step that only replaces the thread record of p, keeping its claimed interval *)
  Lemma binv_goto st p pc pc' :
    BInv st -> t_pc (b_thr st p) = Some pc -> wint pc' = wint pc -> rint pc' = rint pc -> bpc_ok st pc' ->
    BInv (b_goto st p pc').
  Proof.
    intros I Epc Hw Hr K. destruct I.
    assert (Ho : forall q, q <> p -> b_thr (b_goto st p pc') q = b_thr st q) by (intros q N; apply upd_other; exact N).
    assert (Hp : forall pc'', t_pc (b_thr (b_goto st p pc') p) = Some pc'' -> pc'' = pc').
    { intros pc'' E. unfold b_goto, b_set_thr in E; simpl in E. rewrite upd_same in E. cbn in E. congruence. }
    constructor; try assumption.
    - intros q pcq E. destruct (Nat.eq_dec q p) as [->|N]; [rewrite (Hp pcq E); exact K | rewrite Ho in E by exact N; apply (bv_pc0 q pcq E)].
    - intros q. unfold b_goto, b_set_thr; simpl. destruct (Nat.eq_dec q p) as [->|N]; [rewrite upd_same | rewrite upd_other by exact N]; apply bv_ops0.
    - apply (disj_keep wint st _ p pc Epc Ho); [|exact bv_wdisj0]. intros pc'' E. rewrite (Hp pc'' E). auto.
    - apply (disj_keep rint st _ p pc Epc Ho); [|exact bv_rdisj0]. intros pc'' E. rewrite (Hp pc'' E). auto.
    - intros q r. unfold b_goto, b_set_thr; simpl. destruct (Nat.eq_dec q p) as [->|N]; [rewrite upd_same | rewrite upd_other by exact N]; apply bv_res0.
  Qed.

  (* p returns r after the shared part of the state has changed from st to st1, the threads being the same *)
  Lemma binv_finish st st1 p pc r :
    BInv st -> t_pc (b_thr st p) = Some pc -> b_thr st1 = b_thr st ->
    b_gt st1 = b_tail st1 -> b_grt st1 = b_rtail st1 ->
    (s <= b_head st1 /\ b_head st1 <= b_rtail st1 /\ b_rtail st1 <= b_whead st1 /\ b_whead st1 <= b_tail st1 /\
     b_tail st1 <= b_head st1 + cap) ->
    bnowrap st1 ->
    (forall q pcq, q <> p -> t_pc (b_thr st q) = Some pcq -> bpc_ok st1 pcq) ->
    (forall j, b_head st1 <= j < b_whead st1 -> b_slot st1 (j mod cap) = b_gval st1 j) ->
    (forall q x, In x (t_res (b_thr st q)) -> res_ok st1 x) -> res_ok st1 r ->
    BInv (b_finish st1 p r).
  Proof.
    intros I Epc Et Hgt Hgrt Hord Hg Hpc Hdata Hres Hro.
    set (st' := b_finish st1 p r).
    assert (Hthr : forall q, q <> p -> b_thr st' q = b_thr st q) by (intros q N; unfold st', b_finish, b_set_thr; cbn; rewrite Et; apply upd_other; exact N).
    assert (Hthp : b_thr st' p = thr_finish batch_entry (b_thr st p) r) by (unfold st', b_finish, b_set_thr; cbn; rewrite Et; apply upd_same).
    assert (Hnew : forall pc', t_pc (b_thr st' p) = Some pc' -> exists o, pc' = batch_entry o /\ bop_ok o).
    { intros pc' E. rewrite Hthp in E. apply thr_finish_pc in E. destruct E as (o & rest & Eo & ->). exists o. split; [reflexivity|].
      pose proof (bv_ops st I p) as F. rewrite Eo in F. inversion F; assumption. }
    constructor; try assumption.
    - apply (bv_s st I).
    - intros q pcq E. destruct (Nat.eq_dec q p) as [->|N].
      + destruct (Hnew pcq E) as (o & -> & Ho). apply entry_bok; exact Ho.
      + rewrite Hthr in E by exact N. apply (Hpc q pcq N E).
    - intros q. destruct (Nat.eq_dec q p) as [->|N]; [rewrite Hthp; apply thr_finish_ops | rewrite Hthr by exact N]; apply (bv_ops st I).
    - apply (disj_keep wint st st' p _ Epc Hthr); [|apply (bv_wdisj st I)].
      intros pc' E. destruct (Hnew pc' E) as (o & -> & _). right. apply entry_noint.
    - apply (disj_keep rint st st' p _ Epc Hthr); [|apply (bv_rdisj st I)].
      intros pc' E. destruct (Hnew pc' E) as (o & -> & _). right. apply entry_noint.
    - intros q x Hx. destruct (Nat.eq_dec q p) as [->|N].
      + rewrite Hthp, finish_tres in Hx. destruct Hx as [<-|Hx]; [exact Hro | apply (Hres p x Hx)].
      + rewrite Hthr in Hx by exact N. apply (Hres q x Hx).
  Qed.

  Lemma binv_fail st p pc r :
    BInv st -> t_pc (b_thr st p) = Some pc -> res_ok st r -> BInv (b_finish st p r).
  Proof.
    intros I E Hro. apply (binv_finish st st p pc r I E); try apply I; try reflexivity; [|exact Hro].
    intros q pcq _ Eq. apply (bv_pc st I q pcq Eq).
  Qed.

  Lemma res_ok_mono st st' r :
    b_tail st <= b_tail st' -> (forall j, j < b_tail st -> b_gval st' j = b_gval st j) -> res_ok st r -> res_ok st' r.
  Proof.
    intros Ht Hg K. destruct r; simpl in *; try exact K.
    - destruct K as [A B]. rewrite Hg by lia. split; [lia|exact B].
    - destruct K as [A B]. rewrite Hg by lia. split; [lia|exact B].
    - destruct K as [A B]. split; [lia|]. intros k Hk. rewrite Hg by lia. apply B; exact Hk.
    - destruct K as (A & B & C0). split; [exact A|]. split; [lia|]. rewrite C0 at 1. apply map_ext_in.
      intros j Hj. apply zseq_In in Hj. symmetry. apply Hg. lia.
  Qed.

  (* bpc_ok of another thread survives a claim at the tail or at the read tail *)
  Lemma bpc_ok_claim st st' pc :
    b_head st' = b_head st -> b_whead st' = b_whead st -> b_slot st' = b_slot st ->
    b_tail st <= b_tail st' -> b_rtail st <= b_rtail st' -> (forall j, j < b_tail st -> b_gval st' j = b_gval st j) ->
    b_rtail st <= b_tail st ->
    bpc_ok st pc -> bpc_ok st' pc.
  Proof.
    intros E1 E2 E4 Ht Hr Hg Hrt K.
    destruct pc; cbn [bpc_ok] in *; rewrite ?E1, ?E2, ?E4; try exact K; try lia;
      repeat match goal with H : _ /\ _ |- _ => destruct H end;
      repeat match goal with |- _ /\ _ => split end; try lia; try assumption.
    - intros k Hk. rewrite Hg by lia. auto.
    - intros k Hk. rewrite Hg by lia. auto.
    - subst vs. apply map_ext_in. intros j Hj. apply zseq_In in Hj. symmetry. apply Hg. lia.
  Qed.

  (* an interval being written lies in [write_head, tail), one being read in [head, read_tail) *)
  Lemma wint_bounds st q pcq a k : BInv st -> t_pc (b_thr st q) = Some pcq -> wint pcq = Some (a, k) ->
    b_whead st <= a /\ a + k <= b_tail st /\ 0 < k.
  Proof.
    intros I E H. pose proof (bv_pc st I q pcq E) as K.
    destruct pcq; cbn in H; try discriminate; injection H as <- <-; cbn [bpc_ok] in K; lia.
  Qed.
  Lemma rint_bounds st q pcq a k : BInv st -> t_pc (b_thr st q) = Some pcq -> rint pcq = Some (a, k) ->
    b_head st <= a /\ a + k <= b_rtail st /\ 0 < k.
  Proof.
    intros I E H. pose proof (bv_pc st I q pcq E) as K.
    destruct pcq; cbn in H; try discriminate; injection H as <- <-; cbn [bpc_ok] in K; lia.
  Qed.

  (* bpc_ok of another thread survives the advance of write_head or of head, as long as the frontier stays below the
     interval that the thread holds *)
  Lemma bpc_ok_advance st st' pc :
    b_tail st' = b_tail st -> b_rtail st' = b_rtail st -> b_slot st' = b_slot st -> b_gval st' = b_gval st ->
    b_head st <= b_head st' -> b_whead st <= b_whead st' ->
    (forall a k, wint pc = Some (a, k) -> b_whead st' <= a) -> (forall a k, rint pc = Some (a, k) -> b_head st' <= a) ->
    bpc_ok st pc -> bpc_ok st' pc.
  Proof.
    intros E1 E2 E3 E4 Lh Lw Hw Hr K.
    destruct pc; cbn [bpc_ok wint rint] in *; rewrite ?E1, ?E2, ?E3, ?E4; try exact K.
    - destruct K as (A & B & C0). split; [exact A|]. split; [exact B|]. intros Ht. specialize (C0 Ht). lia.
    - destruct K as (A & _ & C0). split; [exact A|]. split; [exact (Hw _ _ eq_refl) | exact C0].
    - destruct K as (A & _ & C0). split; [exact A|]. split; [exact (Hw _ _ eq_refl) | exact C0].
    - destruct K as (A & B & C0 & D). split; [exact A|]. split; [exact B|]. split; [exact C0|]. intros Ht. specialize (D Ht). lia.
    - destruct K as (A & _ & C0). split; [exact A|]. split; [exact (Hr _ _ eq_refl) | exact C0].
    - destruct K as (A & _ & C0). split; [exact A|]. split; [exact (Hr _ _ eq_refl) | exact C0].
  Qed.

  (* (C1) p claims [tail, tail+wn) *)
  Lemma binv_claim_tail st p one vs wn :
    BInv st -> t_pc (b_thr st p) = Some (BPushCasT one vs (b_tail st) wn) ->
    b_tail st + wn + cap < W64 ->
    BInv (b_goto (mkB (b_head st) (b_tail st + wn) (b_whead st) (b_rtail st) (b_slot st) (b_gt st + wn) (b_grt st)
                      (gwrite (b_gval st) (b_gt st) (firstn (Z.to_nat wn) vs))
                      (gwrite (b_gwho st) (b_gt st) (map (fun _ => p) (firstn (Z.to_nat wn) vs))) (b_thr st))
                 p (BPushWr one vs (b_tail st) wn (b_gt st))).
  Proof.
    intros I Epc NW. pose proof (bv_pc st I p _ Epc) as K. cbn [bpc_ok] in K. destruct K as (K1 & K2 & K3).
    specialize (K3 eq_refl).
    set (ws := firstn (Z.to_nat wn) vs).
    assert (Lws : Z.of_nat (length ws) = wn) by (unfold ws; rewrite firstn_length; lia).
    set (st' := b_goto _ p _).
    pose proof I as I0. destruct I. destruct bv_ord0 as (O1 & O2 & O3 & O4 & O5).
    assert (Hg : forall j, j < b_tail st -> b_gval st' j = b_gval st j).
    { intros j Hj. unfold st'. cbn. apply gwrite_other. lia. }
    assert (Ho : forall q, q <> p -> b_thr st' q = b_thr st q) by (intros q N; apply upd_other; exact N).
    assert (Hp : t_pc (b_thr st' p) = Some (BPushWr one vs (b_tail st) wn (b_gt st))) by (unfold st'; cbn; rewrite upd_same; reflexivity).
    constructor; try assumption.
    - unfold st'; cbn. lia.
    - unfold st'; cbn. repeat split; lia.
    - intros q pcq E. unfold st' in E; cbn in E. destruct (Nat.eq_dec q p) as [->|N].
      + rewrite upd_same in E. cbn in E. inversion E; subst pcq. cbn [bpc_ok]. unfold st'; cbn.
        repeat split; try lia. intros k Hk. fold ws. apply gwrite_at. lia.
      + rewrite upd_other in E by exact N. apply (bpc_ok_claim st st'); try reflexivity; try (unfold st'; cbn; lia); try assumption.
        apply (bv_pc0 q pcq E).
    - intros q. unfold st'; cbn. destruct (Nat.eq_dec q p) as [->|N]; [rewrite upd_same; apply bv_ops0 | rewrite upd_other by exact N; apply bv_ops0].
    - apply (disj_claim wint st st' p (b_gt st) wn Ho); [| |exact bv_wdisj0].
      + intros pc' b l E H. rewrite Hp in E. injection E as <-. injection H as <- <-. auto.
      + intros q pcq b l N E H. destruct (wint_bounds st q pcq b l I0 E H) as (_ & B & _). lia.
    - apply (disj_keep rint st st' p _ Epc Ho); [|exact bv_rdisj0]. intros pc' E. rewrite Hp in E. injection E as <-. left. reflexivity.
    - intros j Hj. unfold st' in Hj; cbn in Hj. rewrite Hg by lia. unfold st'; cbn. apply bv_data0; exact Hj.
    - intros q r Hr. apply (res_ok_mono st st'); [unfold st'; cbn; lia | exact Hg |].
      unfold st' in Hr; cbn in Hr. destruct (Nat.eq_dec q p) as [->|N]; [rewrite upd_same in Hr; cbn in Hr; apply (bv_res0 p r Hr) | rewrite upd_other in Hr by exact N; apply (bv_res0 q r Hr)].
  Qed.

  (* (C4) p claims [read_tail, read_tail+rn) *)
  Lemma binv_claim_rtail st p one n rn :
    BInv st -> t_pc (b_thr st p) = Some (BPopCasRT one n (b_rtail st) rn) ->
    BInv (b_goto (mkB (b_head st) (b_tail st) (b_whead st) (b_rtail st + rn) (b_slot st) (b_gt st) (b_grt st + rn)
                      (b_gval st) (b_gwho st) (b_thr st))
                 p (BPopRd one (b_rtail st) rn (b_grt st))).
  Proof.
    intros I Epc. pose proof (bv_pc st I p _ Epc) as K. cbn [bpc_ok] in K. destruct K as (K0 & K1 & K2 & K3).
    specialize (K3 eq_refl).
    set (st' := b_goto _ p _).
    pose proof I as I0. destruct I. destruct bv_ord0 as (O1 & O2 & O3 & O4 & O5).
    assert (Ho : forall q, q <> p -> b_thr st' q = b_thr st q) by (intros q N; apply upd_other; exact N).
    assert (Hp : t_pc (b_thr st' p) = Some (BPopRd one (b_rtail st) rn (b_grt st))) by (unfold st'; cbn; rewrite upd_same; reflexivity).
    constructor; try assumption.
    - unfold st'; cbn. lia.
    - unfold st'; cbn. repeat split; lia.
    - intros q pcq E. unfold st' in E; cbn in E. destruct (Nat.eq_dec q p) as [->|N].
      + rewrite upd_same in E. cbn in E. inversion E as [Ex]. cbn [bpc_ok]. unfold st'; cbn. repeat split; lia.
      + rewrite upd_other in E by exact N. apply (bpc_ok_claim st st'); try reflexivity; try (unfold st'; cbn; lia).
        apply (bv_pc0 q pcq E).
    - intros q. unfold st'; cbn. destruct (Nat.eq_dec q p) as [->|N]; [rewrite upd_same; apply bv_ops0 | rewrite upd_other by exact N; apply bv_ops0].
    - apply (disj_keep wint st st' p _ Epc Ho); [|exact bv_wdisj0]. intros pc' E. rewrite Hp in E. injection E as <-. left. reflexivity.
    - apply (disj_claim rint st st' p (b_grt st) rn Ho); [| |exact bv_rdisj0].
      + intros pc' b l E H. rewrite Hp in E. injection E as <-. injection H as <- <-. auto.
      + intros q pcq b l N E H. destruct (rint_bounds st q pcq b l I0 E H) as (_ & B & _). lia.
    - intros q r Hr. unfold st' in Hr; cbn in Hr.
      destruct (Nat.eq_dec q p) as [->|N]; [rewrite upd_same in Hr; cbn in Hr; apply (bv_res0 p r Hr) | rewrite upd_other in Hr by exact N; apply (bv_res0 q r Hr)].
  Qed.

  (* (C2) the memcpy into the claimed interval *)
  Lemma binv_write st p one vs wn i :
    BInv st -> t_pc (b_thr st p) = Some (BPushWr one vs i wn i) ->
    BInv (b_goto (mkB (b_head st) (b_tail st) (b_whead st) (b_rtail st)
                      (ring_write c (b_slot st) i (firstn (Z.to_nat wn) vs))
                      (b_gt st) (b_grt st) (b_gval st) (b_gwho st) (b_thr st))
                 p (BPushCasW one i wn i (firstn (Z.to_nat wn) vs))).
  Proof.
    intros I Epc. pose proof (bv_pc st I p _ Epc) as K. cbn [bpc_ok] in K. destruct K as (_ & K2 & K3 & K4 & K5).
    set (ws := firstn (Z.to_nat wn) vs) in *.
    assert (Lws : Z.of_nat (length ws) = wn) by (unfold ws; rewrite firstn_length; lia).
    pose proof (cfg_cap_gt0 c Hc : 0 < cap) as Hcp. pose proof (cfg_cap_lt_W c Hc) as HcW. fold cap in HcW.
    pose proof I as I0. destruct I. destruct bv_ord0 as (O1 & O2 & O3 & O4 & O5). unfold bnowrap in bv_g0.
    assert (Ei : wrap i = i) by (apply wrap_small; lia).
    set (st1 := mkB (b_head st) (b_tail st) (b_whead st) (b_rtail st) (ring_write c (b_slot st) i ws)
                    (b_gt st) (b_grt st) (b_gval st) (b_gwho st) (b_thr st)).
    assert (Hoth : forall j, (forall k, 0 <= k < wn -> j mod cap <> (i + k) mod cap) -> b_slot st1 (j mod cap) = b_slot st (j mod cap)).
    { intros j Hj. unfold st1; cbn. pose proof (ring_write_other c Hc (b_slot st) i ws (j mod cap)) as R. rewrite Ei in R. apply R.
      intros k Hk. fold cap. apply Hj. lia. }
    assert (I1 : BInv st1).
    { constructor; try assumption.
      - repeat split; assumption.
      - intros q pcq E. change (b_thr st1 q) with (b_thr st q) in E. pose proof (bv_pc0 q pcq E) as Kq.
        destruct pcq; try exact Kq. cbn [bpc_ok] in *. destruct Kq as (A & B & C0 & D & F & G).
        repeat split; try assumption; try (apply G; assumption).
        destruct (Nat.eq_dec q p) as [->|N]; [rewrite Epc in E; discriminate|].
        rewrite Hoth; [apply G; assumption|].
        intros k' Hk'. destruct (bv_wdisj0 q p _ _ i0 wn0 i wn N E Epc eq_refl eq_refl) as [Dj|Dj].
        + apply (slot_ne_of_close cap); lia.
        + intros Es. symmetry in Es. revert Es. apply (slot_ne_of_close cap); lia.
      - intros j Hj. change (b_gval st1 j) with (b_gval st j). rewrite Hoth; [apply bv_data0; exact Hj|].
        intros k Hk. apply (slot_ne_of_close cap); cbn in Hj; lia. }
    apply (binv_goto st1 p (BPushWr one vs i wn i)); try exact I1; try exact Epc; try reflexivity.
    cbn [bpc_ok]. change (b_whead st1) with (b_whead st). change (b_tail st1) with (b_tail st). change (b_gval st1) with (b_gval st).
    repeat split; try lia; try (apply K5; assumption).
    unfold st1; cbn. pose proof (ring_write_at c Hc (b_slot st) i ws k) as R. rewrite Ei in R. apply R; fold cap; lia.
  Qed.

  (* (C3) publication: write_head moves over the interval of its holder, which returns *)
  Lemma binv_publish st p one wn i ws :
    BInv st -> t_pc (b_thr st p) = Some (BPushCasW one i wn i ws) -> b_whead st = i ->
    BInv (b_finish (mkB (b_head st) (b_tail st) (i + wn) (b_rtail st) (b_slot st) (b_gt st) (b_grt st) (b_gval st) (b_gwho st) (b_thr st))
                   p (if one then RPushOk i (hd 0 ws) else RPushB i ws)).
  Proof.
    intros I Epc Ew. pose proof (bv_pc st I p _ Epc) as K. cbn [bpc_ok] in K. destruct K as (_ & K2 & K3 & K4 & K5 & K6).
    set (r := if one then RPushOk i (hd 0 ws) else RPushB i ws).
    destruct (bv_ord st I) as (O1 & O2 & O3 & O4 & O5).
    apply (binv_finish st _ p _ r I Epc); try reflexivity; cbn [b_head b_tail b_whead b_rtail b_slot b_gt b_grt b_gval].
    - apply (bv_gt st I).
    - apply (bv_grt st I).
    - repeat split; lia.
    - apply (bv_g st I).
    - intros q pcq N E. apply (bpc_ok_advance st); try reflexivity; cbn [b_head b_whead]; try lia; [| |apply (bv_pc st I q pcq E)].
      + intros a k H. destruct (wint_bounds st q pcq a k I E H) as (B1 & _ & B3).
        destruct (bv_wdisj st I q p _ _ a k i wn N E Epc H eq_refl); lia.
      + intros a k H. destruct (rint_bounds st q pcq a k I E H). lia.
    - intros j Hj. destruct (Z_lt_dec j i) as [L|G]; [apply (bv_data st I); lia|].
      destruct (K6 (j - i) ltac:(lia)) as [G1 G2]. replace (i + (j - i)) with j in * by lia. congruence.
    - apply (bv_res st I).
    - unfold r. destruct one; cbn [res_ok b_tail b_gval].
      + split; [lia|]. destruct (K6 0 ltac:(lia)) as [G _]. rewrite Z.add_0_r in G. rewrite G. destruct ws; reflexivity.
      + split; [lia|]. intros k Hk. apply K6. lia.
  Qed.

  (* (C5) release: head moves over the interval of its holder, which returns the values it read *)
  Lemma binv_release st p one rn i vs :
    BInv st -> t_pc (b_thr st p) = Some (BPopCasH one i rn i vs) -> b_head st = i ->
    BInv (b_finish (mkB (i + rn) (b_tail st) (b_whead st) (b_rtail st) (b_slot st) (b_gt st) (b_grt st) (b_gval st) (b_gwho st) (b_thr st))
                   p (if one then RPopOk i (hd 0 vs) else RPopB i vs)).
  Proof.
    intros I Epc Eh. pose proof (bv_pc st I p _ Epc) as K. cbn [bpc_ok] in K. destruct K as (_ & K2 & K3 & K4 & K5).
    set (r := if one then RPopOk i (hd 0 vs) else RPopB i vs).
    destruct (bv_ord st I) as (O1 & O2 & O3 & O4 & O5).
    assert (Lvs : length vs = Z.to_nat rn) by (rewrite K5, map_length, zseq_length; reflexivity).
    apply (binv_finish st _ p _ r I Epc); try reflexivity; cbn [b_head b_tail b_whead b_rtail b_slot b_gt b_grt b_gval].
    - apply (bv_gt st I).
    - apply (bv_grt st I).
    - repeat split; lia.
    - apply (bv_g st I).
    - intros q pcq N E. apply (bpc_ok_advance st); try reflexivity; cbn [b_head b_whead]; try lia; [| |apply (bv_pc st I q pcq E)].
      + intros a k H. destruct (wint_bounds st q pcq a k I E H). lia.
      + intros a k H. destruct (rint_bounds st q pcq a k I E H) as (B1 & _ & B3).
        destruct (bv_rdisj st I q p _ _ a k i rn N E Epc H eq_refl); lia.
    - intros j Hj. apply (bv_data st I). lia.
    - apply (bv_res st I).
    - unfold r. destruct one; cbn [res_ok b_tail b_gval].
      + split; [lia|]. rewrite K5. destruct (Z.to_nat rn) eqn:En; [lia|]. reflexivity.
      + split; [lia|]. split; [rewrite Lvs; lia|]. rewrite Lvs. exact K5.
  Qed.

  Lemma zmin_spec a b : (zmin a b = a /\ a < b) \/ (zmin a b = b /\ b <= a).
  Proof. unfold zmin. destruct (Z.ltb_spec a b); [left|right]; split; auto. Qed.

  Definition scripts_ok (scripts : list (list op)) : Prop := forall p, Forall bop_ok (nth p scripts []).

  Lemma binit_inv scripts : 0 <= s -> s + cap < W64 -> scripts_ok scripts -> BInv (batch_init s scripts).
  Proof.
    intros H0 HW Hok. pose proof (cfg_cap_gt0 c Hc : 0 < cap) as Hcp.
    assert (Ews : wrap s = s) by (apply wrap_small; lia).
    assert (Hnp : forall p pc, t_pc (b_thr (batch_init s scripts) p) = Some pc -> exists o, pc = batch_entry o /\ bop_ok o).
    { intros p pc E. apply thr_init_pc in E. destruct E as (o & rest & Eo & ->). exists o. split; [reflexivity|].
      specialize (Hok p). rewrite Eo in Hok. inversion Hok; assumption. }
    constructor; cbn [batch_init b_head b_tail b_whead b_rtail b_gt b_grt b_slot b_gval]; rewrite ?Ews; try lia.
    - unfold bnowrap. cbn. rewrite Ews. exact HW.
    - intros p pc E. destruct (Hnp p pc E) as (o & -> & Ho). apply entry_bok; exact Ho.
    - intros p. apply thr_init_ops. apply Hok.
    - intros p q pc1 pc2 a k b l N E1 E2 H1. destruct (Hnp p pc1 E1) as (o & -> & _). destruct (entry_noint o). congruence.
    - intros p q pc1 pc2 a k b l N E1 E2 H1. destruct (Hnp p pc1 E1) as (o & -> & _). destruct (entry_noint o). congruence.
    - intros p r Hr. cbn [batch_init b_thr] in Hr. rewrite thr_init_res in Hr. contradiction.
  Qed.

  (* reachable by ANY sequence of participant choices, the index-wrap guard holding all along *)
  Inductive breach_nw (st0 : bstate) : bstate -> Prop :=
  | bnw0 : bnowrap st0 -> breach_nw st0 st0
  | bnwS st p : breach_nw st0 st -> bnowrap (fst (batch_step c st p)) -> breach_nw st0 (fst (batch_step c st p)).
End Batch.
