(* C07_Batch_Fifo.v — batch MPMC ring queue (LockfreeBatchMPMCRingQueue, lockfree_queue.h 308-390): strict per-thread
   FIFO and exactly-once ACROSS COMPLETED RESULTS (C07_Batch_Proofs.v proves the frontier order, intact slots, right
   values and disjointness of the claims IN PROGRESS).
   bpushed st p / bpopped st p = the (absolute index, value) items of the completed pushes / pops of thread p in its
   program order (a batch result contributes its whole interval).  Why it holds: a push completes only by moving
   write_head from the start i of its interval to its end, so every item completed before (by anybody) is < i; dually
   a pop completes by moving head over its interval.
   ANY number of participants, any scripts, any schedule, below the 2^64 index wrap (breach_nw).  The induction over the
   transitions is done here once, for BInv (whose per-transition lemmas are in C07_Batch_Proofs.v) and BFifo together. *)
From Coq Require Import ZArith Lia List Bool Arith Sorted.
From PV Require Import Base.U64 C07.C07_Model C07.C07_Arith C07.C07_Lists C07.C07_Batch_Model C07.C07_Batch_Proofs.
Import ListNotations.
Local Open Scope Z_scope.

Definition bchron (st : bstate) (p : nat) : list res := rev (t_res (b_thr st p)).
Definition bpushed (st : bstate) (p : nat) : list (Z * Z) := push_items (bchron st p).
Definition bpopped (st : bstate) (p : nat) : list (Z * Z) := pop_items (bchron st p).

Lemma zseq_sorted a n : StronglySorted Z.lt (zseq a n).
Proof.
  revert a; induction n as [|n IH]; intros a; simpl; constructor; [apply IH|].
  apply Forall_forall. intros y Hy. apply zseq_In in Hy. lia.
Qed.

(* the items of an interval [i, i+n) under the ghost value map g *)
Definition items (g : Z -> Z) (i : Z) (n : nat) : list (Z * Z) := map (fun j => (j, g j)) (zseq i n).
Lemma items_In g i n j w : In (j, w) (items g i n) <-> i <= j < i + Z.of_nat n /\ w = g j.
Proof.
  unfold items. rewrite in_map_iff. split.
  - intros (x & E & Hx). inversion E; subst. apply zseq_In in Hx. auto.
  - intros [Hj ->]. exists j. split; [reflexivity | apply zseq_In; exact Hj].
Qed.
Lemma items_fst g i n : map fst (items g i n) = zseq i n.
Proof. unfold items. rewrite map_map. simpl. apply map_id. Qed.
Lemma indexed_items (g : Z -> Z) i ws :
  (forall k, 0 <= k < Z.of_nat (length ws) -> g (i + k) = nth (Z.to_nat k) ws 0) -> indexed i ws = items g i (length ws).
Proof.
  intros H. rewrite (indexed_map g i ws H). unfold items, zrange.
  replace (i + Z.of_nat (length ws) - i) with (Z.of_nat (length ws)) by lia. rewrite Nat2Z.id. reflexivity.
Qed.

(* `one` (the single-element wrappers push = push_batch(&x,1), pop = pop_batch(&x,1)) means the interval has length 1;
   the producer of a claimed write interval is its claimer *)
Definition bpc_x (st : bstate) (p : nat) (pc : bpc) : Prop :=
  match pc with
  | BPushLdT one vs | BPushLdH one vs _ | BPushCasT one vs _ _ => one = true -> length vs = 1%nat
  | BPushWr one _ _ wn i | BPushCasW one _ wn i _ => (one = true -> wn = 1) /\ forall k, 0 <= k < wn -> b_gwho st (i + k) = p
  | BPopLdRT one n | BPopLdWH one n _ => one = true -> n = 1
  | BPopCasRT one n _ rn => one = true -> n = 1 /\ rn = 1
  | BPopRd one _ rn _ | BPopCasH one _ rn _ _ => one = true -> rn = 1
  end.

Lemma entry_x st p o : bpc_x st p (batch_entry o).
Proof. destruct o; simpl; intros; first [reflexivity | discriminate]. Qed.


(* a ledger of completed items: its p = the items participant p has completed, in its program order; they lie in
   [s, fr), carry the values g, are strictly ordered per participant, belong to one participant each and cover [s, fr) *)
Section Ledger.
  Variable s : Z.

  Record Ledger (its : nat -> list (Z * Z)) (fr : Z) (g : Z -> Z) : Prop := mkLedger {
    lg_in : forall p i v, In (i, v) (its p) -> s <= i < fr /\ v = g i;
    lg_sort : forall p, StronglySorted Z.lt (map fst (its p));
    lg_once : forall p q i v w, In (i, v) (its p) -> In (i, w) (its q) -> p = q;
    lg_all : forall i, s <= i < fr -> exists q, In (i, g i) (its q);
  }.

  Lemma ledger_same its its' fr g g' :
    (forall p, its' p = its p) -> (forall j, j < fr -> g' j = g j) -> Ledger its fr g -> Ledger its' fr g'.
  Proof.
    intros Hi Hg [L1 L2 L3 L4]. constructor.
    - intros p i v H. rewrite Hi in H. destruct (L1 p i v H) as [A ->]. rewrite Hg by lia. auto.
    - intros p. rewrite Hi. apply L2.
    - intros p q i v w. rewrite !Hi. apply L3.
    - intros i H. destruct (L4 i H) as [q Hq]. exists q. rewrite Hi, Hg by lia. exact Hq.
  Qed.

  (* p completes the interval of n items that starts at the frontier *)
  Lemma ledger_append its its' fr g p n :
    s <= fr -> (forall q, q <> p -> its' q = its q) -> its' p = its p ++ items g fr n ->
    Ledger its fr g -> Ledger its' (fr + Z.of_nat n) g.
  Proof.
    intros Hs Ho Hp [L1 L2 L3 L4].
    assert (Hin : forall q i v, In (i, v) (its' q) -> In (i, v) (its q) \/ (q = p /\ fr <= i < fr + Z.of_nat n /\ v = g i)).
    { intros q i v H. destruct (Nat.eq_dec q p) as [->|N]; [|rewrite Ho in H by exact N; left; exact H].
      rewrite Hp in H. apply in_app_or in H. destruct H as [H|H]; [left; exact H|]. apply items_In in H. auto. }
    constructor.
    - intros q i v H. destruct (Hin q i v H) as [Old|(_ & A & B)]; [destruct (L1 q i v Old) | ]; split; try assumption; lia.
    - intros q. destruct (Nat.eq_dec q p) as [->|N]; [|rewrite Ho by exact N; apply L2].
      rewrite Hp, map_app, items_fst. apply SSorted_app; [apply L2 | apply zseq_sorted |].
      intros x y Hx Hy. apply in_map_iff in Hx. destruct Hx as ([j w] & <- & Hj). apply zseq_In in Hy.
      destruct (L1 p j w Hj) as (A & _). simpl. lia.
    - intros q1 q2 i v w H1 H2.
      destruct (Hin q1 i v H1) as [O1|(-> & R1 & _)]; destruct (Hin q2 i w H2) as [O2|(-> & R2 & _)].
      + exact (L3 q1 q2 i v w O1 O2).
      + destruct (L1 q1 i v O1). lia.
      + destruct (L1 q2 i w O2). lia.
      + reflexivity.
    - intros i Hi. destruct (Z_lt_dec i fr) as [L|G].
      + destruct (L4 i ltac:(lia)) as [q Hq]. exists q.
        destruct (Nat.eq_dec q p) as [->|N]; [rewrite Hp; apply in_or_app; left; exact Hq | rewrite Ho by exact N; exact Hq].
      + exists p. rewrite Hp. apply in_or_app. right. apply items_In. split; [lia | reflexivity].
  Qed.
End Ledger.

Section BatchFifo.
  Variable c : cfg.
  Hypothesis Hc : cfg_ok c.
  Variable s : Z.
  Let cap := c_cap c.

  Record BFifo (st : bstate) : Prop := mkBFifo {
    bf_x : forall p pc, t_pc (b_thr st p) = Some pc -> bpc_x st p pc;
    bf_pushed : Ledger s (bpushed st) (b_whead st) (b_gval st);
    bf_who : forall p i v, In (i, v) (bpushed st p) -> b_gwho st i = p;
    bf_popped : Ledger s (bpopped st) (b_head st) (b_gval st);
  }.

  (* a step that replaces the record of thread p without completing a successful op, leaves head / write_head alone
     and does not touch the ghost maps below tail *)
  Lemma bfifo_ext st st' p th' :
    BInv c s st -> BFifo st ->
    b_head st' = b_head st -> b_whead st' = b_whead st ->
    (forall j, j < b_tail st -> b_gval st' j = b_gval st j /\ b_gwho st' j = b_gwho st j) ->
    b_thr st' = upd (b_thr st) p th' ->
    push_items (rev (t_res th')) = bpushed st p -> pop_items (rev (t_res th')) = bpopped st p ->
    (forall pc', t_pc th' = Some pc' -> bpc_x st' p pc') ->
    BFifo st'.
  Proof.
    intros I F Eh Ew Hg Ethr Epu Epo Hx.
    destruct (bv_ord c s st I) as (O1 & O2 & O3 & O4 & O5).
    assert (Hpu : forall q, bpushed st' q = bpushed st q).
    { intros q. unfold bpushed, bchron. rewrite Ethr. destruct (Nat.eq_dec q p) as [->|N]; [rewrite upd_same; exact Epu | rewrite upd_other by exact N; reflexivity]. }
    assert (Hpo : forall q, bpopped st' q = bpopped st q).
    { intros q. unfold bpopped, bchron. rewrite Ethr. destruct (Nat.eq_dec q p) as [->|N]; [rewrite upd_same; exact Epo | rewrite upd_other by exact N; reflexivity]. }
    destruct F as [Fx Fpu Fwho Fpo]. constructor.
    - intros q pc E. rewrite Ethr in E. destruct (Nat.eq_dec q p) as [->|N]; [rewrite upd_same in E; apply Hx; exact E|].
      rewrite upd_other in E by exact N. pose proof (Fx q pc E) as X. pose proof (bv_pc c s st I q pc E) as K.
      destruct pc; cbn [bpc_x bpc_ok] in *; try exact X.
      + destruct X as [X1 X2]. split; [exact X1|]. intros k Hk. rewrite (proj2 (Hg (i + k) ltac:(lia))). apply X2; exact Hk.
      + destruct X as [X1 X2]. split; [exact X1|]. intros k Hk. rewrite (proj2 (Hg (i + k) ltac:(lia))). apply X2; exact Hk.
    - rewrite Ew. apply (ledger_same s (bpushed st) _ _ (b_gval st)); [exact Hpu | intros j Hj; apply Hg; lia | exact Fpu].
    - intros q i v Hin. rewrite Hpu in Hin. destruct (lg_in _ _ _ _ Fpu q i v Hin) as [A _].
      rewrite (proj2 (Hg i ltac:(lia))). exact (Fwho q i v Hin).
    - rewrite Eh. apply (ledger_same s (bpopped st) _ _ (b_gval st)); [exact Hpo | intros j Hj; apply Hg; lia | exact Fpo].
  Qed.

  Lemma bfifo_goto st st' p pc' :
    BInv c s st -> BFifo st ->
    b_head st' = b_head st -> b_whead st' = b_whead st ->
    (forall j, j < b_tail st -> b_gval st' j = b_gval st j /\ b_gwho st' j = b_gwho st j) ->
    b_thr st' = upd (b_thr st) p (thr_goto (b_thr st p) pc') ->
    bpc_x st' p pc' -> BFifo st'.
  Proof.
    intros I F Eh Ew Hg Ethr Hx. apply (bfifo_ext st st' p (thr_goto (b_thr st p) pc')); try assumption; try reflexivity.
    intros pc'' E. cbn in E. inversion E; subst. exact Hx.
  Qed.

  Lemma bfifo_thread st p pc' : BInv c s st -> BFifo st -> bpc_x st p pc' -> BFifo (b_goto st p pc').
  Proof. intros I F X. apply (bfifo_goto st _ p pc' I F); try reflexivity; [intros; split; reflexivity | exact X]. Qed.

  Lemma bfifo_fail st p r :
    BInv c s st -> BFifo st -> push_item r = [] -> pop_item r = [] -> BFifo (b_finish st p r).
  Proof.
    intros I F P1 P2. apply (bfifo_ext st (b_finish st p r) p (thr_finish batch_entry (b_thr st p) r)); try assumption; try reflexivity.
    - intros j _. split; reflexivity.
    - rewrite finish_res. unfold push_items. rewrite flat_map_snoc, P1, app_nil_r. reflexivity.
    - rewrite finish_res. unfold pop_items. rewrite flat_map_snoc, P2, app_nil_r. reflexivity.
    - intros pc' E. apply thr_finish_pc in E. destruct E as (o & rest & _ & ->). apply entry_x.
  Qed.

  (* p returns r after a frontier moved: the items of r are appended to p's completed items *)
  Lemma chron_finish st st1 p r : b_thr st1 = b_thr st ->
    (forall q, q <> p -> bpushed (b_finish st1 p r) q = bpushed st q /\ bpopped (b_finish st1 p r) q = bpopped st q) /\
    bpushed (b_finish st1 p r) p = bpushed st p ++ push_item r /\ bpopped (b_finish st1 p r) p = bpopped st p ++ pop_item r /\
    forall q pc, t_pc (b_thr (b_finish st1 p r) q) = Some pc -> (q = p /\ exists o, pc = batch_entry o) \/ (q <> p /\ t_pc (b_thr st q) = Some pc).
  Proof.
    intros Et. set (st' := b_finish st1 p r).
    assert (Hthr : forall q, q <> p -> b_thr st' q = b_thr st q) by (intros q N; unfold st', b_finish, b_set_thr; cbn; rewrite Et; apply upd_other; exact N).
    assert (Hthp : b_thr st' p = thr_finish batch_entry (b_thr st p) r) by (unfold st', b_finish, b_set_thr; cbn; rewrite Et; apply upd_same).
    repeat split.
    - unfold bpushed, bchron. rewrite Hthr by assumption. reflexivity.
    - unfold bpopped, bchron. rewrite Hthr by assumption. reflexivity.
    - unfold bpushed, bchron. rewrite Hthp, finish_res. apply flat_map_snoc.
    - unfold bpopped, bchron. rewrite Hthp, finish_res. apply flat_map_snoc.
    - intros q pc E. destruct (Nat.eq_dec q p) as [->|N]; [left | right; rewrite Hthr in E by exact N; auto].
      rewrite Hthp in E. apply thr_finish_pc in E. destruct E as (o & rest & _ & ->). eauto.
  Qed.

  (* publication: write_head moves over the interval of its holder p, whose push completes *)
  Lemma bfifo_publish st p one wn i ws :
    BInv c s st -> BFifo st -> t_pc (b_thr st p) = Some (BPushCasW one i wn i ws) -> b_whead st = i ->
    BFifo (b_finish (mkB (b_head st) (b_tail st) (i + wn) (b_rtail st) (b_slot st) (b_gt st) (b_grt st) (b_gval st) (b_gwho st) (b_thr st))
                    p (if one then RPushOk i (hd 0 ws) else RPushB i ws)).
  Proof.
    intros I F Epc Ew.
    pose proof (bv_pc c s st I p _ Epc) as K. cbn [bpc_ok] in K. destruct K as (_ & K2 & K3 & K4 & K5 & K6).
    pose proof (bf_x st F p _ Epc) as X. cbn [bpc_x] in X. destruct X as [X1 X2].
    destruct (bv_ord c s st I) as (O1 & O2 & O3 & O4 & O5).
    set (r := if one then RPushOk i (hd 0 ws) else RPushB i ws). set (st1 := mkB _ _ _ _ _ _ _ _ _ _).
    assert (Hitem : push_item r = items (b_gval st) i (length ws) /\ pop_item r = []).
    { assert (E : indexed i ws = items (b_gval st) i (length ws)) by (apply indexed_items; intros k Hk; apply K6; lia).
      unfold r. destruct one; [|split; [exact E | reflexivity]]. split; [|reflexivity].
      specialize (X1 eq_refl). rewrite <- E. destruct ws as [|w [|w' ws']]; simpl length in K5; try lia. reflexivity. }
    destruct Hitem as [Hpi Hci].
    destruct (chron_finish st st1 p r eq_refl) as (Ho & Hpu & Hpo & Hpc). rewrite Hpi in Hpu. rewrite Hci, app_nil_r in Hpo.
    subst st1. destruct F as [Fx Fpu Fwho Fpo]. constructor.
    - intros q pc E. destruct (Hpc q pc E) as [(-> & o & ->)|(N & E0)]; [apply entry_x | exact (Fx q pc E0)].
    - cbn [b_whead b_gval]. rewrite <- K5. apply (ledger_append s (bpushed st) _ i (b_gval st) p (length ws)); [lia | apply Ho | exact Hpu |].
      rewrite <- Ew. exact Fpu.
    - intros q i' v Hin. cbn [b_gwho]. destruct (Nat.eq_dec q p) as [->|N]; [|rewrite (proj1 (Ho q N)) in Hin; exact (Fwho q i' v Hin)].
      rewrite Hpu in Hin. apply in_app_or in Hin. destruct Hin as [Hin|Hin]; [exact (Fwho p i' v Hin)|].
      apply items_In in Hin. replace i' with (i + (i' - i)) by lia. apply X2. lia.
    - cbn [b_head b_gval]. apply (ledger_same s (bpopped st) _ _ (b_gval st)); [|auto|exact Fpo].
      intros q. destruct (Nat.eq_dec q p) as [->|N]; [exact Hpo | apply Ho; exact N].
  Qed.

  (* release: head moves over the interval of its holder p, whose pop completes with the values it read *)
  Lemma bfifo_release st p one rn i vs :
    BInv c s st -> BFifo st -> t_pc (b_thr st p) = Some (BPopCasH one i rn i vs) -> b_head st = i ->
    BFifo (b_finish (mkB (i + rn) (b_tail st) (b_whead st) (b_rtail st) (b_slot st) (b_gt st) (b_grt st) (b_gval st) (b_gwho st) (b_thr st))
                    p (if one then RPopOk i (hd 0 vs) else RPopB i vs)).
  Proof.
    intros I F Epc Eh.
    pose proof (bv_pc c s st I p _ Epc) as K. cbn [bpc_ok] in K. destruct K as (_ & K2 & K3 & K4 & K5).
    pose proof (bf_x st F p _ Epc) as X1. cbn [bpc_x] in X1.
    destruct (bv_ord c s st I) as (O1 & O2 & O3 & O4 & O5).
    set (r := if one then RPopOk i (hd 0 vs) else RPopB i vs). set (st1 := mkB _ _ _ _ _ _ _ _ _ _).
    set (n := Z.to_nat rn).
    assert (Hn : Z.of_nat n = rn) by (unfold n; lia).
    assert (Hitem : pop_item r = items (b_gval st) i n /\ push_item r = []).
    { assert (E : indexed i vs = items (b_gval st) i n) by (rewrite K5; apply indexed_zseq).
      unfold r. destruct one; [|split; [exact E | reflexivity]]. split; [|reflexivity].
      specialize (X1 eq_refl). rewrite <- E. rewrite K5. fold n. replace n with 1%nat by lia. reflexivity. }
    destruct Hitem as [Hci Hpi].
    destruct (chron_finish st st1 p r eq_refl) as (Ho & Hpu & Hpo & Hpc). rewrite Hci in Hpo. rewrite Hpi, app_nil_r in Hpu.
    assert (Hpu' : forall q, bpushed (b_finish st1 p r) q = bpushed st q).
    { intros q. destruct (Nat.eq_dec q p) as [->|N]; [exact Hpu | apply Ho; exact N]. }
    subst st1. destruct F as [Fx Fpu Fwho Fpo]. constructor.
    - intros q pc E. destruct (Hpc q pc E) as [(-> & o & ->)|(N & E0)]; [apply entry_x | exact (Fx q pc E0)].
    - cbn [b_whead b_gval]. apply (ledger_same s (bpushed st) _ _ (b_gval st)); [exact Hpu' | auto | exact Fpu].
    - intros q i' v Hin. cbn [b_gwho]. rewrite Hpu' in Hin. exact (Fwho q i' v Hin).
    - cbn [b_head b_gval]. rewrite <- Hn. apply (ledger_append s (bpopped st) _ i (b_gval st) p n); [lia | apply Ho | exact Hpo |].
      rewrite <- Eh. exact Fpo.
  Qed.

  Lemma batch_step_both st p : BInv c s st -> BFifo st -> bnowrap c (fst (batch_step c st p)) ->
    BInv c s (fst (batch_step c st p)) /\ BFifo (fst (batch_step c st p)).
  Proof.
    intros I F NW. unfold batch_step in *. destruct (t_pc (b_thr st p)) as [pc|] eqn:Epc; [|auto].
    pose proof (bv_pc c s st I p pc Epc) as K. pose proof (bf_x st F p pc Epc) as X. pose proof (bv_s c s st I) as Hs0.
    pose proof (bv_gt c s st I) as Hgt. pose proof (bv_grt c s st I) as Hgrt. pose proof (bv_g c s st I) as Hg. unfold bnowrap in Hg.
    destruct (bv_ord c s st I) as (O1 & O2 & O3 & O4 & O5).
    pose proof (cfg_cap_pos c Hc) as Hcp. pose proof (cfg_cap_lt_W c Hc) as HcW. fold cap in Hcp, HcW, Hg, O5.
    assert (Hsame : forall j : Z, j < b_tail st -> b_gval st j = b_gval st j /\ b_gwho st j = b_gwho st j) by (intros; split; reflexivity).
    destruct pc; cbn [bpc_ok bpc_x] in K, X; cbn [fst] in *.
    - (* BPushLdT *) split; [|apply (bfifo_thread st p _ I F); exact X].
      apply (binv_goto c s st p _ _ I Epc); try reflexivity. cbn [bpc_ok]. lia.
    - (* BPushLdH *)
      set (wn := zmin (Z.of_nat (length vs)) (wrap (c_cap c - wrap (wt - b_head st)))) in *.
      assert (Hx : 0 <= wrap (c_cap c - wrap (wt - b_head st))) by apply wrap_range.
      destruct (Z.eqb_spec wn 0) as [E0|N0]; cbn [fst] in *.
      + split; [|apply bfifo_fail; try assumption; destruct one; reflexivity].
        apply (binv_fail c s st p _ _ I Epc).
        destruct one; cbn [res_ok]; [exact Logic.I|]. simpl length. split; [lia|]. intros k Hk. simpl in Hk. lia.
      + split; [|apply (bfifo_thread st p _ I F); exact X].
        apply (binv_goto c s st p _ _ I Epc); try reflexivity. cbn [bpc_ok].
        destruct (zmin_spec (Z.of_nat (length vs)) (wrap (c_cap c - wrap (wt - b_head st)))) as [[Em Hm]|[Em Hm]]; fold wn in Em.
        * repeat split; try lia. intros ->. rewrite (wrap_small (b_tail st - b_head st)) in Hm by lia.
          fold cap in Hm. rewrite (wrap_small (cap - (b_tail st - b_head st))) in Hm by lia. lia.
        * repeat split; try lia. intros ->. rewrite (wrap_small (b_tail st - b_head st)) in Em by lia.
          fold cap in Em. rewrite (wrap_small (cap - (b_tail st - b_head st))) in Em by lia. lia.
    - (* BPushCasT *) destruct K as (K1 & K2 & K3).
      destruct (Z.eqb_spec (b_tail st) wt) as [Eq|Nq]; cbn [fst] in *.
      + subst wt. specialize (K3 eq_refl). rewrite (wrap_small (b_tail st + wn)) in * by lia. split.
        * apply (binv_claim_tail c s st p one vs wn I Epc). unfold bnowrap in NW. cbn in NW. fold cap in NW. lia.
        * set (ws := firstn (Z.to_nat wn) vs).
          assert (Lws : Z.of_nat (length ws) = wn) by (unfold ws; rewrite firstn_length; lia).
          eapply (bfifo_goto st _ p _ I F); try reflexivity.
          -- intros j Hj. cbn. split; apply gwrite_other; lia.
          -- cbn [bpc_x]. split; [intros E1; specialize (X E1); lia|].
             intros k Hk. cbn. fold ws. rewrite Hgt. apply gwrite_const. lia.
      + split; [|apply (bfifo_thread st p _ I F); exact X].
        apply (binv_goto c s st p _ _ I Epc); try reflexivity. cbn [bpc_ok]. lia.
    - (* BPushWr *) split; [|eapply (bfifo_goto st _ p _ I F); try reflexivity; try exact Hsame; cbn [bpc_x]; exact X].
      destruct K as (-> & K2). apply (binv_write c Hc s); assumption.
    - (* BPushCasW *) destruct K as (-> & K2 & K3 & K4).
      destruct (Z.eqb_spec (b_whead st) i) as [Eq|Nq]; cbn [fst] in *; [|auto].
      rewrite (wrap_small (i + wn)) by lia. split; [apply binv_publish | apply bfifo_publish]; assumption.
    - (* BPopLdRT *) split; [|apply (bfifo_thread st p _ I F); exact X].
      apply (binv_goto c s st p _ _ I Epc); try reflexivity. cbn [bpc_ok]. lia.
    - (* BPopLdWH *) destruct K as [Kn K].
      set (rn := zmin n (wrap (b_whead st - rt))) in *.
      assert (Hx : 0 <= wrap (b_whead st - rt)) by apply wrap_range.
      destruct (Z.eqb_spec rn 0) as [E0|N0]; cbn [fst] in *.
      + split; [|apply bfifo_fail; try assumption; destruct one; reflexivity].
        apply (binv_fail c s st p _ _ I Epc).
        destruct one; cbn [res_ok]; [exact Logic.I|]. simpl length. repeat split; try lia.
      + destruct (zmin_spec n (wrap (b_whead st - rt))) as [[Em Hm]|[Em Hm]]; fold rn in Em;
          (split; [apply (binv_goto c s st p _ _ I Epc); try reflexivity; cbn [bpc_ok]
                 | apply (bfifo_thread st p _ I F); cbn [bpc_x]; intros E1; specialize (X E1); lia]).
        * repeat split; try lia. intros ->. rewrite (wrap_small (b_whead st - b_rtail st)) in Hm by lia. lia.
        * repeat split; try lia. intros ->. rewrite (wrap_small (b_whead st - b_rtail st)) in Em by lia. lia.
    - (* BPopCasRT *) destruct K as (K0 & K1 & K2 & K3).
      split; [|destruct (b_rtail st =? rt); cbn [fst]; eapply (bfifo_goto st _ p _ I F); try reflexivity; try exact Hsame; cbn [bpc_x]; intros E1; apply X; exact E1].
      destruct (Z.eqb_spec (b_rtail st) rt) as [Eq|Nq]; cbn [fst] in *.
      + subst rt. specialize (K3 eq_refl). rewrite (wrap_small (b_rtail st + rn)) by lia.
        apply (binv_claim_rtail c s st p one n rn I Epc).
      + apply (binv_goto c s st p _ _ I Epc); try reflexivity. cbn [bpc_ok]. lia.
    - (* BPopRd *) split; [|apply (bfifo_thread st p _ I F); exact X].
      destruct K as (-> & K2 & K3 & K4).
      apply (binv_goto c s st p _ _ I Epc); try reflexivity. cbn [bpc_ok]. repeat split; try lia.
      pose proof (ring_read_spec c Hc (b_slot st) i (Z.to_nat rn)) as R. rewrite (wrap_small i) in R by lia. rewrite R.
      apply map_ext_in. intros j Hj. apply zseq_In in Hj. fold cap. apply (bv_data c s st I). lia.
    - (* BPopCasH *) destruct K as (-> & K2 & K3 & K4 & K5).
      destruct (Z.eqb_spec (b_head st) i) as [Eq|Nq]; cbn [fst] in *; [|auto].
      rewrite (wrap_small (i + rn)) by lia. split; [apply binv_release | apply bfifo_release]; assumption.
  Qed.

  Lemma binit_fifo scripts : 0 <= s -> s + cap < W64 -> BFifo (batch_init s scripts).
  Proof.
    intros H0 HW. assert (Ews : wrap s = s) by (apply wrap_small; pose proof (cfg_cap_pos c Hc); unfold cap in HW; lia).
    assert (Hres : forall p, bchron (batch_init s scripts) p = []).
    { intros p. unfold bchron. cbn [batch_init b_thr]. rewrite thr_init_res. reflexivity. }
    assert (L0 : forall its, (forall p, its p = []) -> Ledger s its s (fun _ => 0)).
    { intros its E. constructor; try (intros p; rewrite E); try (intros p q i v w; rewrite E); try (intros i v; rewrite E); try contradiction; [constructor | lia]. }
    constructor; unfold bpushed, bpopped; cbn [batch_init b_whead b_head b_gval]; rewrite ?Ews.
    - intros p pc E. apply thr_init_pc in E. destruct E as (o & _ & _ & ->). apply entry_x.
    - apply L0. intros p. rewrite Hres. reflexivity.
    - intros p i v Hin. rewrite Hres in Hin. destruct Hin.
    - apply L0. intros p. rewrite Hres. reflexivity.
  Qed.

  Lemma breach_both scripts st : 0 <= s -> s + cap < W64 -> scripts_ok scripts -> breach_nw c (batch_init s scripts) st ->
    BInv c s st /\ BFifo st.
  Proof.
    intros H0 HW Hok R. induction R as [NW|st p R [I F] NW].
    - split; [apply (binit_inv c Hc) | apply binit_fifo]; assumption.
    - apply batch_step_both; assumption.
  Qed.

  Lemma breach_inv scripts st : 0 <= s -> s + cap < W64 -> scripts_ok scripts -> breach_nw c (batch_init s scripts) st -> BInv c s st.
  Proof. intros H0 HW Hok R. apply (breach_both scripts st H0 HW Hok R). Qed.
  Lemma breach_fifo scripts st : 0 <= s -> s + cap < W64 -> scripts_ok scripts -> breach_nw c (batch_init s scripts) st -> BFifo st.
  Proof. intros H0 HW Hok R. apply (breach_both scripts st H0 HW Hok R). Qed.
End BatchFifo.

(* the hypotheses are inhabited: a reachable state with a completed push_batch *)
Example batch_fifo_ex :
  let c := cfg_of 2 in
  let scripts := [[OPushB [7; 8]]; [OPopB 2]] in
  cfg_ok c /\ scripts_ok scripts /\
  exists st, breach_nw c (batch_init 5 scripts) st /\ bpushed st 0%nat = [(5, 7); (6, 8)] /\ b_whead st = 7.
Proof.
  cbv zeta. split; [split; [vm_compute; split; discriminate | reflexivity]|].
  split.
  { intros p. destruct p as [|[|[|p]]]; simpl; repeat constructor; simpl; lia. }
  eexists. split.
  { eapply (bnwS _ _ _ 0%nat); [eapply (bnwS _ _ _ 0%nat); [eapply (bnwS _ _ _ 0%nat); [eapply (bnwS _ _ _ 0%nat);
      [eapply (bnwS _ _ _ 0%nat); [apply bnw0|]|]|]|]|]; unfold bnowrap; vm_compute; reflexivity. }
  split; vm_compute; reflexivity.
Qed.
