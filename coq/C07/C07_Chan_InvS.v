(* C07_Chan_InvS.v — no lost wake-up for the RingChannel protocol model, SENDER side (a producer blocked on a full
   queue in send_sem.wait): the handshake invariant of C07_Chan_Inv.v read on send_side, and the two sides together. *)
From Coq Require Import ZArith Lia List Bool Arith.
From PV Require Import Base.U64 C07.C07_Model C07.C07_Chan_Model C07.C07_Chan_Proofs C07.C07_Chan_Handshake C07.C07_Chan_Inv.
Import ListNotations.
Local Open Scope Z_scope.

(* RingChannel, sender side: in every reachable state it is NOT the case that the queue has room, send_sem holds no
   token, some sender is blocked in send_sem.wait and every participant inside an operation is such a blocked sender. *)
Theorem chan_no_lost_wakeup_send cap Y scripts st :
  Z.of_nat (length scripts) + 1 < W64 ->
  creach cap Y (chan_init scripts) st -> lost_wakeup_send cap (length scripts) st = false.
Proof.
  intros Hn R. destruct (creach_inv _ cap Y Hn scripts st eq_refl R) as [_ I].
  unfold lost_wakeup_send. destruct (Z.ltb_spec (Z.of_nat (length (c_q st))) cap) as [HL|]; [|reflexivity].
  destruct (Z.eqb_spec (c_ssem st) 0) as [ET|]; [|reflexivity]. cbn [andb].
  apply (hinv_not_lost _ (send_side cap) blocked_send st); try assumption.
  - intros pc. destruct pc; try discriminate; reflexivity.
  - intros pc. destruct pc; try discriminate; reflexivity.
  - cbn. lia.
Qed.

(* the full statement of C07_Chan_Proofs *)
Theorem chan_no_lost_wakeup_full : forall cap Y scripts st,
  0 <= cap -> Z.of_nat (length scripts) + 1 < W64 -> creach cap Y (chan_init scripts) st ->
  lost_wakeup_recv (length scripts) st = false /\ lost_wakeup_send cap (length scripts) st = false.
Proof.
  intros cap Y scripts st _ Hn R. split; [apply (chan_no_lost_wakeup_recv cap Y scripts st Hn R) | apply (chan_no_lost_wakeup_send cap Y scripts st Hn R)].
Qed.

Example chan_send_blocked_ex :
  let st0 := chan_init [[OSend 1; OSend 2; OSend 3]; [ORecv]] in
  let st := fst (chan_step 2 0 (fst (chan_step 2 0 (fst (chan_step 2 0 (fst (chan_step 2 0 (fst (chan_step 2 0 (fst (chan_step 2 0
             (fst (chan_step 2 0 (fst (chan_step 2 0 st0 0 0)) 0 0)) 0 0)) 0 0)) 0 0)) 0 0)) 0 0)) 0 0) in
  creach 2 0 st0 st /\ t_pc (c_thr st 0%nat) = Some (CSSemWait 3) /\ c_swait st = 1.
Proof. cbv zeta. split; [repeat constructor | vm_compute; split; reflexivity]. Qed.
