(* C07_Lists.v — list helpers for the ghost histories of the C07 proofs: integer ranges, indexed
   items of results, ring_write / ring_read, the ghost arrays gwrite / gval_write. *)
From Coq Require Import ZArith Lia List Bool Arith Sorted.
From PV Require Import Base.U64 C07.C07_Model C07.C07_Arith C07.C07_SPSC_Model C07.C07_Batch_Model.
Import ListNotations.
Local Open Scope Z_scope.

(* [a; a+1; ...; a+n-1] *)
Fixpoint zseq (a : Z) (n : nat) : list Z := match n with O => [] | S n' => a :: zseq (a + 1) n' end.
Definition zrange (a b : Z) : list Z := zseq a (Z.to_nat (b - a)).

Lemma zseq_length a n : length (zseq a n) = n.
Proof. revert a; induction n; intros; simpl; auto. Qed.

Lemma zseq_app a n m : zseq a (n + m) = zseq a n ++ zseq (a + Z.of_nat n) m.
Proof.
  revert a; induction n; intros a; simpl.
  - f_equal. lia.
  - f_equal. rewrite IHn. f_equal. f_equal. lia.
Qed.

Lemma zseq_In a n x : In x (zseq a n) <-> a <= x < a + Z.of_nat n.
Proof.
  revert a; induction n; intros a; simpl.
  - lia.
  - rewrite IHn. lia.
Qed.

Lemma zrange_In a b x : In x (zrange a b) <-> a <= x < b.
Proof. unfold zrange. rewrite zseq_In. lia. Qed.

Lemma zrange_app a b d : a <= b -> b <= d -> zrange a d = zrange a b ++ zrange b d.
Proof.
  intros H1 H2. unfold zrange.
  replace (Z.to_nat (d - a)) with (Z.to_nat (b - a) + Z.to_nat (d - b))%nat by lia.
  rewrite zseq_app. f_equal. f_equal. lia.
Qed.

Lemma zrange_nil a : zrange a a = [].
Proof. unfold zrange. rewrite Z.sub_diag. reflexivity. Qed.

Lemma zrange_one a : zrange a (a + 1) = [a].
Proof. unfold zrange. replace (a + 1 - a) with 1 by lia. reflexivity. Qed.

Lemma zrange_snoc a b : a <= b -> zrange a (b + 1) = zrange a b ++ [b].
Proof. intros H. rewrite (zrange_app a b (b + 1)) by lia. rewrite zrange_one. reflexivity. Qed.

Lemma zrange_length a b : a <= b -> Z.of_nat (length (zrange a b)) = b - a.
Proof. intros. unfold zrange. rewrite zseq_length. lia. Qed.

(* (i, w0) :: (i+1, w1) :: ... *)
Fixpoint indexed (i : Z) (ws : list Z) : list (Z * Z) :=
  match ws with [] => [] | w :: r => (i, w) :: indexed (i + 1) r end.

Lemma indexed_map g i ws :
  (forall k, 0 <= k < Z.of_nat (length ws) -> g (i + k) = nth (Z.to_nat k) ws 0) ->
  indexed i ws = map (fun j => (j, g j)) (zrange i (i + Z.of_nat (length ws))).
Proof.
  revert i; induction ws as [|w r IH]; intros i H.
  - simpl. rewrite Z.add_0_r, zrange_nil. reflexivity.
  - unfold zrange. replace (i + Z.of_nat (length (w :: r)) - i) with (Z.of_nat (S (length r))) by (simpl length; lia).
    rewrite Nat2Z.id. simpl. f_equal.
    + f_equal. specialize (H 0). rewrite Z.add_0_r in H. simpl in H. rewrite H; [reflexivity|lia].
    + rewrite IH.
      * unfold zrange. replace (i + 1 + Z.of_nat (length r) - (i + 1)) with (Z.of_nat (length r)) by lia.
        rewrite Nat2Z.id. reflexivity.
      * intros k Hk. specialize (H (k + 1)). replace (i + (k + 1)) with (i + 1 + k) in H by lia.
        rewrite H by (simpl length; lia).
        replace (Z.to_nat (k + 1)) with (S (Z.to_nat k)) by lia. reflexivity.
Qed.

Lemma indexed_zseq (g : Z -> Z) i n : indexed i (map g (zseq i n)) = map (fun j => (j, g j)) (zseq i n).
Proof. revert i; induction n; intros i; simpl; [reflexivity|]. f_equal. apply IHn. Qed.

Lemma map_snd_indexed i ws : map snd (indexed i ws) = ws.
Proof. revert i; induction ws; intros; simpl; [reflexivity|]. f_equal. apply IHws. Qed.

(* items pushed / popped by a chronological list of results: (ghost index, value) *)
Definition push_item (r : res) : list (Z * Z) :=
  match r with RPushOk i v | RSent i v => [(i, v)] | RPushB i ws => indexed i ws | _ => [] end.
Definition pop_item (r : res) : list (Z * Z) :=
  match r with RPopOk i v | RRecv i v => [(i, v)] | RPopB i vs => indexed i vs | _ => [] end.
Definition push_items (l : list res) := flat_map push_item l.
Definition pop_items (l : list res) := flat_map pop_item l.

Lemma flat_map_snoc {A B} (f : A -> list B) l x : flat_map f (l ++ [x]) = flat_map f l ++ f x.
Proof. rewrite flat_map_app. simpl. rewrite app_nil_r. reflexivity. Qed.

(* updates of function-represented maps *)
Lemma upd_same {A} (f : nat -> A) i x : upd f i x i = x.
Proof. unfold upd. rewrite Nat.eqb_refl. reflexivity. Qed.
Lemma upd_other {A} (f : nat -> A) i x j : j <> i -> upd f i x j = f j.
Proof. intros H. unfold upd. destruct (Nat.eqb_spec j i); [contradiction|reflexivity]. Qed.
Lemma updZ_same {A} (f : Z -> A) i x : updZ f i x i = x.
Proof. unfold updZ. rewrite Z.eqb_refl. reflexivity. Qed.
Lemma updZ_other {A} (f : Z -> A) i x j : j <> i -> updZ f i x j = f j.
Proof. intros H. unfold updZ. destruct (Z.eqb_spec j i); [contradiction|reflexivity]. Qed.

(* the ghost arrays written by a batch claim: gwrite of the batch queue, gval_write of the SPSC queue *)
Lemma gwrite_other {A} (g : Z -> A) i xs j : j < i \/ i + Z.of_nat (length xs) <= j -> gwrite g i xs j = g j.
Proof.
  revert g i; induction xs as [|x r IH]; intros g i H; simpl; [reflexivity|].
  rewrite IH by (simpl length in H; lia). apply updZ_other. simpl length in H. lia.
Qed.
Lemma gwrite_at {A} (g : Z -> A) i xs k d : 0 <= k < Z.of_nat (length xs) -> gwrite g i xs (i + k) = nth (Z.to_nat k) xs d.
Proof.
  revert g i k; induction xs as [|x r IH]; intros g i k H; simpl in *; [lia|].
  destruct (Z.eq_dec k 0) as [->|N].
  - rewrite Z.add_0_r. rewrite gwrite_other by lia. simpl. apply updZ_same.
  - replace (i + k) with (i + 1 + (k - 1)) by lia. rewrite IH by lia.
    replace (Z.to_nat k) with (S (Z.to_nat (k - 1))) by lia. reflexivity.
Qed.
Lemma gwrite_const {A B} (g : Z -> A) i (xs : list B) (a : A) k :
  0 <= k < Z.of_nat (length xs) -> gwrite g i (map (fun _ => a) xs) (i + k) = a.
Proof.
  intros H. rewrite (gwrite_at _ _ _ _ a) by (rewrite map_length; exact H).
  destruct xs as [|x r]; [simpl in H; lia|]. exact (map_nth (fun _ => a) (x :: r) x (Z.to_nat k)).
Qed.
(* by induction and not by conversion: gwrite binds its type argument inside the fix *)
Lemma gval_write_gwrite g i ws : gval_write g i ws = gwrite g i ws.
Proof. revert g i; induction ws as [|w r IH]; intros g i; simpl; [reflexivity | apply IH]. Qed.
Lemma gval_write_other g i ws j : j < i \/ i + Z.of_nat (length ws) <= j -> gval_write g i ws j = g j.
Proof. rewrite gval_write_gwrite. apply gwrite_other. Qed.
Lemma gval_write_at g i ws k : 0 <= k < Z.of_nat (length ws) -> gval_write g i ws (i + k) = nth (Z.to_nat k) ws 0.
Proof. rewrite gval_write_gwrite. apply gwrite_at. Qed.

Section Ring.
  Variable c : cfg.
  Hypothesis Hc : cfg_ok c.

  Lemma ring_write_other sl g ws j :
    (forall k, 0 <= k < Z.of_nat (length ws) -> j <> (g + k) mod c_cap c) ->
    ring_write c sl (wrap g) ws j = sl j.
  Proof.
    revert sl g; induction ws as [|w r IH]; intros sl g H; simpl; [reflexivity|].
    rewrite wrap_add_wrap. rewrite IH.
    - rewrite idx_wrap by exact Hc. apply updZ_other.
      specialize (H 0). rewrite Z.add_0_r in H. apply H. simpl length. lia.
    - intros k Hk. specialize (H (k + 1)). replace (g + (k + 1)) with (g + 1 + k) in H by lia.
      apply H. simpl length. lia.
  Qed.

  Lemma ring_write_at sl g ws k :
    Z.of_nat (length ws) <= c_cap c -> 0 <= k < Z.of_nat (length ws) ->
    ring_write c sl (wrap g) ws ((g + k) mod c_cap c) = nth (Z.to_nat k) ws 0.
  Proof.
    pose proof (cfg_cap_pos c Hc) as Hcap.
    revert sl g k; induction ws as [|w r IH]; intros sl g k Hl Hk; simpl in *; [lia|].
    rewrite wrap_add_wrap.
    destruct (Z.eq_dec k 0) as [->|Hk0].
    - rewrite Z.add_0_r. simpl. rewrite ring_write_other.
      + rewrite idx_wrap by exact Hc. apply updZ_same.
      + intros k' Hk'. apply (slot_ne_of_close (c_cap c)); lia.
    - replace (g + k) with (g + 1 + (k - 1)) by lia. rewrite IH by lia.
      replace (Z.to_nat k) with (S (Z.to_nat (k - 1))) by lia. reflexivity.
  Qed.

  Lemma ring_read_spec sl g n :
    ring_read c sl (wrap g) n = map (fun i => sl (i mod c_cap c)) (zseq g n).
  Proof.
    revert g; induction n; intros g; simpl; [reflexivity|].
    rewrite idx_wrap by exact Hc. f_equal. rewrite wrap_add_wrap. apply IHn.
  Qed.
End Ring.

(* thr_init and thr_finish, whatever the entry points of the model: the thread stands at the entry of its next call,
   or has none; a completed call appends its result to the thread's history *)
Lemma thr_init_pc {PC} (entry : op -> PC) ops pc :
  t_pc (thr_init entry ops) = Some pc -> exists o rest, ops = o :: rest /\ pc = entry o.
Proof. destruct ops as [|o rest]; simpl; intros E; [discriminate|]. injection E as <-. eauto. Qed.
Lemma thr_init_ops {PC} (entry : op -> PC) ops (P : op -> Prop) : Forall P ops -> Forall P (t_ops (thr_init entry ops)).
Proof. destruct ops; simpl; intros F; [constructor | inversion F; assumption]. Qed.
Lemma thr_init_res {PC} (entry : op -> PC) ops : t_res (thr_init entry ops) = [].
Proof. destruct ops; reflexivity. Qed.
Lemma thr_finish_pc {PC} (entry : op -> PC) (th : thr PC) r pc :
  t_pc (thr_finish entry th r) = Some pc -> exists o rest, t_ops th = o :: rest /\ pc = entry o.
Proof. unfold thr_finish. destruct (t_ops th) as [|o rest]; simpl; intros E; [discriminate|]. injection E as <-. eauto. Qed.
Lemma thr_finish_ops {PC} (entry : op -> PC) (th : thr PC) r (P : op -> Prop) :
  Forall P (t_ops th) -> Forall P (t_ops (thr_finish entry th r)).
Proof. unfold thr_finish. destruct (t_ops th); simpl; intros F; [constructor | inversion F; assumption]. Qed.
Lemma finish_tres {PC} (entry : op -> PC) (th : thr PC) r : t_res (thr_finish entry th r) = r :: t_res th.
Proof. unfold thr_finish. destruct (t_ops th); reflexivity. Qed.
Lemma finish_res {PC} (entry : op -> PC) (th : thr PC) r : rev (t_res (thr_finish entry th r)) = rev (t_res th) ++ [r].
Proof. rewrite finish_tres. reflexivity. Qed.

(* the E3 replay step of the three queue models: the logged step, then the silent step that follows it, if any.
   A set closed under the steps is closed under the replay steps. *)
Lemma fused_step_closed {St PC O} (step : St -> nat -> St * O) (pcof : St -> nat -> option PC) (silent : PC -> bool)
    (R : St -> Prop) :
  (forall st p, R st -> R (fst (step st p))) ->
  forall st p, R st ->
  R (fst (let '(st1, o) := step st p in
          match pcof st1 p with
          | Some pc => if silent pc then (fst (step st1 p), o) else (st1, o)
          | None => (st1, o)
          end)).
Proof.
  intros Hstep st p H. pose proof (Hstep st p H) as H1. destruct (step st p) as [st1 o]. cbn [fst] in H1.
  destruct (pcof st1 p) as [pc|]; [|exact H1].
  destruct (silent pc); [|exact H1]. apply Hstep. exact H1.
Qed.

Lemma SSorted_app (l1 l2 : list Z) :
  StronglySorted Z.lt l1 -> StronglySorted Z.lt l2 -> (forall x y, In x l1 -> In y l2 -> x < y) ->
  StronglySorted Z.lt (l1 ++ l2).
Proof.
  induction l1 as [|a l1 IH]; intros S1 S2 H; simpl; [exact S2|].
  inversion S1; subst. constructor.
  - apply IH; [assumption | assumption |]. intros x y Hx Hy. apply H; [right; exact Hx | exact Hy].
  - apply Forall_app. split; [assumption|]. apply Forall_forall. intros y Hy. apply H; [left; reflexivity | exact Hy].
Qed.
