(* C07_Chan_Proofs.v — reachability relations of the RingChannel protocol model (creach) and of the batch queue model
   (breach), the channel property statement (proved in C07_Chan_Inv.v / C07_Chan_InvS.v as chan_no_lost_wakeup_full). *)
From Coq Require Import ZArith List Bool Arith.
From PV Require Import Base.U64 C07.C07_Model C07.C07_Chan_Model C07.C07_Batch_Model.
Import ListNotations.
Local Open Scope Z_scope.

(* any sequence of participant choices and of "the timed wait times out" choices (flavor) *)
Inductive creach (cap Y : Z) (st0 : cstate) : cstate -> Prop :=
| creach0 : creach cap Y st0 st0
| creachS st p f : creach cap Y st0 st -> creach cap Y st0 (fst (chan_step cap Y st p f)).

(* the statement; proved (for 0 <= cap and fewer than 2^64 - 1 participants) as C07_Chan_InvS.chan_no_lost_wakeup_full *)
Definition chan_no_lost_wakeup_statement : Prop :=
  forall cap Y scripts st, 2 <= cap -> 0 <= Y -> creach cap Y (chan_init scripts) st ->
  lost_wakeup_recv (length scripts) st = false /\ lost_wakeup_send cap (length scripts) st = false.

Inductive breach (c : cfg) (st0 : bstate) : bstate -> Prop :=
| breach0 : breach c st0 st0
| breachS st p : breach c st0 st -> breach c st0 (fst (batch_step c st p)).

(* a formulation of the batch queue invariant over breach, without the index-wrap guard; not proved in this form: the
   theorems are those of C07_Batch_Proofs.v (BInv along breach_nw) *)
Definition batch_q_statement : Prop :=
  forall c s scripts st, 2 <= c_cap c -> breach c (batch_init s scripts) st ->
  let gh := b_grt st - wrap (b_rtail st - b_head st) in
  0 <= wrap (b_tail st - b_head st) <= c_cap c /\
  wrap (b_rtail st - b_head st) <= wrap (b_whead st - b_head st) <= wrap (b_tail st - b_head st) /\
  forall i, b_grt st <= i < b_grt st + wrap (b_whead st - b_rtail st) -> b_slot st (idx c (wrap i)) = b_gval st i.
