(* C07_MPMC_Linear.v — the fine-grained MPMC ring queue (CAS variant push / pop, C07_MPMC_Model.v) IS an atomic bounded
   FIFO at its linearisation points: the composition step between the queue theorems and the RingChannel protocol
   theorems (C07_Chan_Inv*.v), whose model uses an atomic bounded FIFO `c_q` (push fails iff full, pop fails iff empty).

   Abstraction function: absq st = the values of the indices claimed by a push and not yet claimed by a pop,
   [m_gh st, m_gt st), in index order.  For scripts of push / pop only (no send / recv), any number of participants, any
   schedule, below the 2^64 index wrap:
   * abs_step_run: every step of the fine-grained model either leaves absq unchanged, or is a successful tail CAS and
     appends the pushed value to a non-full absq, or is a successful head CAS and removes the first element of absq;
   * linearisable: every COMPLETED call has a linearisation point — a step of the calling thread itself, inside that
     call (same list of completed results before it) — at which the abstract FIFO makes exactly the transition of the atomic
     operation with the result the call returns later (fifo_lp): push-true appends its value to a non-full queue,
     push-false sees exactly `capacity` elements, pop-true removes the value it returns from the front, pop-false sees
     the empty queue.  The LPs: the successful CAS on tail / head; for a failing call the middle load (C07_MPMC_Report.v).
   Together: the history of any run is linearisable with respect to the atomic bounded FIFO, with LPs inside the calls. *)
From Coq Require Import ZArith Lia List Bool Arith.
From PV Require Import C07.C07_Model C07.C07_Arith C07.C07_Lists C07.C07_MPMC_Model C07.C07_MPMC_Proofs C07.C07_MPMC_Report.
Import ListNotations.
Local Open Scope Z_scope.

Definition absq (st : mstate) : list Z := map (m_gval st) (zrange (m_gh st) (m_gt st)).

(* the atomic bounded FIFO: state before, result of the operation, state after *)
Inductive fifo_lp (cap : Z) : list Z -> res -> list Z -> Prop :=
| lp_push q i v : Z.of_nat (length q) < cap -> fifo_lp cap q (RPushOk i v) (q ++ [v])
| lp_pushfail q : Z.of_nat (length q) = cap -> fifo_lp cap q RPushFail q
| lp_pop q i v : fifo_lp cap (v :: q) (RPopOk i v) q
| lp_popfail : fifo_lp cap [] RPopFail [].

Lemma zrange_cons a b : a < b -> zrange a b = a :: zrange (a + 1) b.
Proof.
  intros H. unfold zrange. replace (Z.to_nat (b - a)) with (S (Z.to_nat (b - (a + 1)))) by lia. reflexivity.
Qed.
Lemma absq_length st : m_gh st <= m_gt st -> Z.of_nat (length (absq st)) = m_gt st - m_gh st.
Proof. intros H. unfold absq. rewrite map_length. apply zrange_length; exact H. Qed.

Lemma gval_stable_step c st q i : i < m_gt st -> m_gval (fst (mpmc_step c st q)) i = m_gval st i.
Proof.
  intros H. destruct (step_claims c st q) as [(_ & _ & ->)|[(v & _ & _ & _ & ->)|(_ & _ & _ & ->)]]; try reflexivity.
  apply updZ_other. lia.
Qed.
Lemma gval_stable_run c st l i : i < m_gt st -> m_gval (mrun c st l) i = m_gval st i.
Proof.
  revert st; induction l as [|q l IH]; intros st H; simpl; [reflexivity|].
  rewrite IH by (destruct (step_mono c st q); lia). apply gval_stable_step; exact H.
Qed.

(* a thread that holds a ticket after its step held it before, or has just claimed it; it is still inside the same call *)
Lemma step_hold c st q pc pc' :
  t_pc (m_thr st q) = Some pc -> t_pc (m_thr (fst (mpmc_step c st q)) q) = Some pc' ->
  (forall i, whold pc' = Some i -> t_res (m_thr (fst (mpmc_step c st q)) q) = t_res (m_thr st q) /\
     (whold pc = Some i \/ (m_gt st = i /\ m_gt (fst (mpmc_step c st q)) = i + 1))) /\
  (forall i, rhold pc' = Some i -> t_res (m_thr (fst (mpmc_step c st q)) q) = t_res (m_thr st q) /\
     (rhold pc = Some i \/ (m_gh st = i /\ m_gh (fst (mpmc_step c st q)) = i + 1))).
Proof.
  intros E. unfold mpmc_step. rewrite E.
  destruct pc; step_split; rewrite upd_same; intros E'; split; intros j Hh;
    try (apply thr_finish_pc in E'; destruct E' as (o & _ & _ & ->); destruct o; discriminate);
    cbn [thr_goto t_pc t_res] in E' |- *; injection E' as <-; cbn [whold rhold] in Hh |- *;
    try discriminate; (split; [reflexivity|]);
    first [ left; exact Hh | right; injection Hh as <-; split; reflexivity ].
Qed.

Section Linear.
  Variable c : cfg.
  Hypothesis Hc : cfg_ok c.
  Variable s : Z.
  Hypothesis Hs0 : 0 <= s.
  Variable scripts : list (list op).
  Let cap := c_cap c.
  Let st0 := mpmc_init c s scripts.

  Lemma abs_step st q : MInv c s st -> norecv st -> m_gh st <= m_gt st ->
    (m_gt (fst (mpmc_step c st q)) = m_gt st /\ m_gh (fst (mpmc_step c st q)) = m_gh st /\
     absq (fst (mpmc_step c st q)) = absq st) \/
    (m_gt (fst (mpmc_step c st q)) = m_gt st + 1 /\ m_gh (fst (mpmc_step c st q)) = m_gh st /\
     absq (fst (mpmc_step c st q)) = absq st ++ [m_gval (fst (mpmc_step c st q)) (m_gt st)]) \/
    (m_gt (fst (mpmc_step c st q)) = m_gt st /\ m_gh (fst (mpmc_step c st q)) = m_gh st + 1 /\
     absq st = m_gval st (m_gh st) :: absq (fst (mpmc_step c st q))).
  Proof.
    intros I NR B. unfold absq.
    destruct (step_claims c st q) as [(A & A' & Ev)|[(v & _ & A & A' & Ev)|([Epc|Epc] & A & A' & Ev)]]; rewrite A, A', Ev.
    - left. auto.
    - right; left. split; [reflexivity|]. split; [reflexivity|].
      rewrite zrange_snoc by exact B. rewrite map_app. simpl. f_equal.
      apply map_ext_in. intros j Hj. apply zrange_In in Hj. apply updZ_other. lia.
    - (* head CAS: the queue is not empty, since the mark of slot head says that the element is there *)
      right; right. split; [reflexivity|]. split; [reflexivity|].
      pose proof (mv_pc c s st I q _ Epc) as K. cbn [pc_ok] in K. rewrite (mv_head c s st I) in K. destruct K as [_ K].
      destruct (mark_odd_published c s st (m_gh st) I (proj1 (mv_lo c s st I)) K) as [L _].
      rewrite (zrange_cons _ _ L). reflexivity.
    - destruct (proj1 (NR q) Epc).
  Qed.

  (* who holds a claimed index claimed it by its own step inside the same call *)
  Lemma hist_claim l p pc i : nowrap c (mrun c st0 l) -> t_pc (m_thr (mrun c st0 l) p) = Some pc ->
    (whold pc = Some i ->
     exists l1 l2, l = l1 ++ p :: l2 /\ t_res (m_thr (mrun c st0 l1) p) = t_res (m_thr (mrun c st0 l) p) /\
       m_gt (mrun c st0 l1) = i /\ m_gt (fst (mpmc_step c (mrun c st0 l1) p)) = i + 1) /\
    (rhold pc = Some i ->
     exists l1 l2, l = l1 ++ p :: l2 /\ t_res (m_thr (mrun c st0 l1) p) = t_res (m_thr (mrun c st0 l) p) /\
       m_gh (mrun c st0 l1) = i /\ m_gh (fst (mpmc_step c (mrun c st0 l1) p)) = i + 1).
  Proof.
    intros NW Epc. split; intros Hh.
    - apply (history c s scripts p (fun pc => whold pc = Some i)
                     (fun st1 => m_gt st1 = i /\ m_gt (fst (mpmc_step c st1 p)) = i + 1)) with (pc := pc); auto.
      + intros o. destruct (entry_nohold o). congruence.
      + intros l0 pc0 pc' _ E0 E1 H. exact (proj1 (step_hold c _ p pc0 pc' E0 E1) i H).
    - apply (history c s scripts p (fun pc => rhold pc = Some i)
                     (fun st1 => m_gh st1 = i /\ m_gh (fst (mpmc_step c st1 p)) = i + 1)) with (pc := pc); auto.
      + intros o. destruct (entry_nohold o). congruence.
      + intros l0 pc0 pc' _ E0 E1 H. exact (proj2 (step_hold c _ p pc0 pc' E0 E1) i H).
  Qed.

  Hypothesis NR : norecv_scripts scripts.
  Hypothesis NS : nosend_scripts scripts.

  (* every step is a stutter or an atomic FIFO transition *)
  Lemma abs_step_run l q : nowrap c (fst (mpmc_step c (mrun c st0 l) q)) ->
    let st := mrun c st0 l in let st' := fst (mpmc_step c st q) in
    absq st' = absq st \/
    (exists v, absq st' = absq st ++ [v] /\ Z.of_nat (length (absq st)) < cap) \/
    (exists v, absq st = v :: absq st').
  Proof.
    intros NW'.
    pose proof (nowrap_step c _ q NW') as NW.
    cbv zeta. set (st := mrun c st0 l) in *. set (st' := fst (mpmc_step c st q)) in *.
    pose proof (run_inv c Hc s Hs0 scripts l NW) as I. fold st0 in I. fold st in I.
    pose proof (run_le c Hc s scripts Hs0 l NR NW) as Le. fold st0 in Le. fold st in Le.
    destruct (abs_step st q I (norecv_run c s scripts l NR) Le) as [(A & B & C0)|[(A & B & C0)|(A & B & C0)]]; fold st' in A, B, C0.
    - left. exact C0.
    - right; left. eexists. split; [exact C0|].
      rewrite (absq_length st Le).
      pose proof (run_ge c Hc s scripts Hs0 (l ++ [q]) NS) as Ge. rewrite mrun_snoc in Ge. fold st0 in Ge. fold st st' in Ge.
      specialize (Ge NW'). fold cap in Ge. lia.
    - right; right. eexists. exact C0.
  Qed.

  (* every completed call has its linearisation point inside the call *)
  Lemma linearisable l p r :
    nowrap c (fst (mpmc_step c (mrun c st0 l) p)) ->
    t_res (m_thr (fst (mpmc_step c (mrun c st0 l) p)) p) = r :: t_res (m_thr (mrun c st0 l) p) ->
    match r with RPushOk _ _ | RPushFail | RPopOk _ _ | RPopFail => True | _ => False end ->
    exists l1 l2, l = l1 ++ p :: l2 /\
      t_res (m_thr (mrun c st0 l1) p) = t_res (m_thr (mrun c st0 l) p) /\
      fifo_lp cap (absq (mrun c st0 l1)) r (absq (fst (mpmc_step c (mrun c st0 l1) p))).
  Proof.
    intros NW' X Hr.
    pose proof (nowrap_step c _ p NW') as NW.
    pose proof (run_inv c Hc s Hs0 scripts l NW) as I. fold st0 in I.
    (* facts about any earlier instant l = l1 ++ p :: l2 *)
    assert (Pre : forall l1 l2, l = l1 ++ p :: l2 ->
              nowrap c (fst (mpmc_step c (mrun c st0 l1) p)) /\ nowrap c (mrun c st0 l1) /\
              MInv c s (mrun c st0 l1) /\ m_gh (mrun c st0 l1) <= m_gt (mrun c st0 l1) /\
              mrun c st0 l = mrun c (fst (mpmc_step c (mrun c st0 l1) p)) l2).
    { intros l1 l2 El.
      destruct (earlier c Hc s Hs0 scripts l (l1 ++ [p]) l2 ltac:(rewrite <- app_assoc; exact El) NW) as (N1 & _).
      destruct (earlier c Hc s Hs0 scripts l l1 (p :: l2) El NW) as (N0 & I1 & _).
      rewrite mrun_snoc in N1. split; [exact N1|]. split; [exact N0|]. split; [exact I1|].
      split; [apply (run_le c Hc s scripts Hs0 l1 NR N0) | rewrite El, mrun_app; reflexivity]. }
    destruct r; try contradiction.
    - (* RPushOk *)
      destruct (step_result c _ p _ X) as [t Epc].
      pose proof (mv_pc c s _ I p _ Epc) as K. cbn [pc_ok] in K. destruct K as (_ & (Hi & Hv & _) & _).
      destruct (proj1 (hist_claim l p _ i NW Epc) eq_refl) as (l1 & l2 & El & A & B & C0).
      destruct (Pre l1 l2 El) as (N1 & N0 & I1 & Le & E2).
      exists l1, l2. split; [exact El|]. split; [exact A|].
      destruct (abs_step _ p I1 (norecv_run c s scripts l1 NR) Le) as [(G1 & _)|[(G1 & G2 & G3)|(G1 & _)]]; fold st0 in G1; try lia.
      fold st0 in G3. rewrite G3. rewrite B.
      assert (Ev : m_gval (fst (mpmc_step c (mrun c st0 l1) p)) i = v).
      { rewrite <- Hv. rewrite E2. symmetry. apply gval_stable_run. lia. }
      rewrite Ev. apply lp_push. rewrite (absq_length _ Le).
      pose proof (run_ge c Hc s scripts Hs0 (l1 ++ [p]) NS) as Ge. rewrite mrun_snoc in Ge. specialize (Ge N1). fold cap st0 in Ge. lia.
    - (* RPushFail *)
      destruct (push_fail_saw_full_cas c Hc s scripts Hs0 l p NR NW' X) as (l1 & l2 & v & t & El & A & B & _ & C0).
      specialize (C0 NS). fold st0 cap in A, B, C0.
      destruct (Pre l1 l2 El) as (N1 & N0 & I1 & Le & E2).
      exists l1, l2. split; [exact El|]. split; [exact B|].
      destruct (abs_step _ p I1 (norecv_run c s scripts l1 NR) Le) as [(G1 & G2 & G3)|[(G1 & _)|(_ & G2 & _)]].
      + rewrite G3. apply lp_pushfail. rewrite (absq_length _ Le). exact C0.
      + exfalso. revert G1. unfold mpmc_step. rewrite A. cbn. lia.
      + exfalso. revert G2. unfold mpmc_step. rewrite A. cbn. lia.
    - (* RPopOk *)
      destruct (step_result c _ p _ X) as [h Epc].
      pose proof (mv_pc c s _ I p _ Epc) as K. cbn [pc_ok] in K. destruct K as (_ & (Hi & _) & Hm & Hv).
      destruct (proj2 (hist_claim l p _ i NW Epc) eq_refl) as (l1 & l2 & El & A & B & C0).
      destruct (Pre l1 l2 El) as (N1 & N0 & I1 & Le & E2).
      exists l1, l2. split; [exact El|]. split; [exact A|].
      destruct (abs_step _ p I1 (norecv_run c s scripts l1 NR) Le) as [(_ & G2 & _)|[(_ & G2 & _)|(G1 & G2 & G3)]]; fold st0 in G2; try lia.
      fold st0 in G3. rewrite G3, B.
      assert (Ev : m_gval (mrun c st0 l1) i = v).
      { rewrite Hv. rewrite El, mrun_app. symmetry. apply gval_stable_run.
        assert (Z.of_nat (length (absq (mrun c st0 l1))) = m_gt (mrun c st0 l1) - m_gh (mrun c st0 l1)) by (apply absq_length; exact Le).
        rewrite G3 in H. simpl length in H. lia. }
      rewrite Ev. apply lp_pop.
    - (* RPopFail *)
      destruct (pop_fail_saw_empty c Hc s Hs0 scripts l p NW' X) as (l1 & l2 & h & El & A & B & _ & C0). fold st0 in A, B, C0.
      destruct (Pre l1 l2 El) as (N1 & N0 & I1 & Le & E2).
      exists l1, l2. split; [exact El|]. split; [exact B|].
      assert (E0 : absq (mrun c st0 l1) = []) by (unfold absq; rewrite C0, zrange_nil; reflexivity).
      destruct (abs_step _ p I1 (norecv_run c s scripts l1 NR) Le) as [(G1 & G2 & G3)|[(G1 & _)|(_ & G2 & _)]].
      + rewrite G3, E0. apply lp_popfail.
      + exfalso. revert G1. unfold mpmc_step. rewrite A. cbn. lia.
      + exfalso. revert G2. unfold mpmc_step. rewrite A. cbn. lia.
  Qed.
End Linear.

(* the hypotheses of `linearisable` (and of the reporting lemmas of C07_MPMC_Report.v) are inhabited: capacity 2, the third
   push of thread 0 returns false while thread 1 has not started its pop *)
Example linear_ex :
  let c := cfg_of 2 in
  let scripts := [[OPush 1; OPush 2; OPush 3]; [OPop]] in
  let l := [0;0;0;0;0; 0;0;0;0;0; 0;0;0]%nat in
  let st := mrun c (mpmc_init c 0 scripts) l in
  cfg_ok c /\ norecv_scripts scripts /\ nosend_scripts scripts /\
  nowrap c (fst (mpmc_step c st 0%nat)) /\
  t_res (m_thr (fst (mpmc_step c st 0%nat)) 0%nat) = RPushFail :: t_res (m_thr st 0%nat) /\
  absq st = [1; 2].
Proof.
  cbv zeta. split; [split; [vm_compute; split; discriminate | reflexivity]|].
  split; [intros p; destruct p as [|[|[|p]]]; simpl; intuition discriminate|].
  split; [intros p v; destruct p as [|[|[|p]]]; simpl; intuition discriminate|].
  vm_compute. repeat split; reflexivity.
Qed.
