(* C07_ChanQ_Thm.v — RingChannel over the fine-grained MPMC queue: the refinement theorem for whole runs and the two
   no-lost-wake-up theorems for the PRODUCT model (C07_ChanQ_Model.v), obtained from the theorems about the protocol over
   an atomic FIFO (C07_Chan_Inv.v, C07_Chan_InvS.v) through the refinement (C07_ChanQ_Proofs.v). *)
From Coq Require Import ZArith Lia List Bool Arith.
From PV Require Import Base.U64 C07.C07_Model C07.C07_Arith C07.C07_Lists C07.C07_MPMC_Model C07.C07_MPMC_Proofs
  C07.C07_MPMC_Linear C07.C07_Chan_Model C07.C07_Chan_Proofs C07.C07_Chan_Inv C07.C07_Chan_InvS C07.C07_ChanQ_Model
  C07.C07_ChanQ_Proofs.
Import ListNotations.
Local Open Scope Z_scope.

(* the lost-wake-up predicates look only at the queue, one semaphore and the program points of participants 0..n-1 *)
Lemma thr_state_ext a b f d l : (forall p, In p l -> t_pc (c_thr a p) = t_pc (c_thr b p)) ->
  existsb (thr_state a f d) l = existsb (thr_state b f d) l /\ forallb (thr_state a f d) l = forallb (thr_state b f d) l.
Proof.
  induction l as [|p l IH]; intros H; simpl; [auto|].
  destruct (IH (fun q Hq => H q (or_intror Hq))) as [-> ->].
  assert (E : thr_state a f d p = thr_state b f d p) by (unfold thr_state; rewrite (H p) by (left; reflexivity); reflexivity).
  rewrite E. auto.
Qed.
Lemma lw_recv_ext n a b : c_q a = c_q b -> c_qsem a = c_qsem b ->
  (forall p, In p (seq 0 n) -> t_pc (c_thr a p) = t_pc (c_thr b p)) -> lost_wakeup_recv n a = lost_wakeup_recv n b.
Proof. intros E1 E2 E3. unfold lost_wakeup_recv. destruct (thr_state_ext a b blocked_recv false _ E3) as [-> _]. destruct (thr_state_ext a b (fun pc => blocked_recv pc || idle_pc pc) true _ E3) as [_ ->]. rewrite E1, E2. reflexivity. Qed.
Lemma lw_send_ext cap n a b : c_q a = c_q b -> c_ssem a = c_ssem b ->
  (forall p, In p (seq 0 n) -> t_pc (c_thr a p) = t_pc (c_thr b p)) -> lost_wakeup_send cap n a = lost_wakeup_send cap n b.
Proof. intros E1 E2 E3. unfold lost_wakeup_send. destruct (thr_state_ext a b blocked_send false _ E3) as [-> _]. destruct (thr_state_ext a b (fun pc => blocked_send pc || idle_pc pc) true _ E3) as [_ ->]. rewrite E1, E2. reflexivity. Qed.

(* the protocol state of the product model with the abstract queue as its FIFO *)
Definition x_view (st : xstate) : cstate := c_with_q (x_c st) (absq (x_m st)).
(* participant p is not in the middle of a queue call (its queue thread stands at the first load, or is not in a call) *)
Definition x_idle (st : xstate) (p : nat) : bool :=
  match t_pc (m_thr (x_m st) p) with Some (MPushLdT _) | Some MPopLdH | None => true | _ => false end.
(* lost wake-up in the product model: the atomic-model predicate on x_view, and nobody is in the middle of a queue call *)
Definition xlost_recv (n : nat) (st : xstate) : bool := lost_wakeup_recv n (x_view st) && forallb (x_idle st) (seq 0 n).
Definition xlost_send (cap : Z) (n : nat) (st : xstate) : bool := lost_wakeup_send cap n (x_view st) && forallb (x_idle st) (seq 0 n).

Section ChanQThm.
  Variable c : cfg.
  Hypothesis Hc : cfg_ok c.
  Variable s : Z.
  Hypothesis Hs0 : 0 <= s.
  Variable Y : Z.
  Variable scripts : list (list op).
  Let cap := c_cap c.

  Lemma nth_first_qop p : nth p (map first_qop scripts) [] = first_qop (nth p scripts []).
  Proof. change (@nil op) with (first_qop []) at 1. apply map_nth. Qed.

  Lemma good_init : s + cap < W64 -> Good c s (x_init c s scripts).
  Proof.
    intros HW. pose proof (cfg_cap_pos c Hc) as Hcp. fold cap in Hcp. constructor.
    - apply (C07_MPMC_Proofs.init_inv c Hc s _ Hs0 HW).
    - simpl. lia.
    - simpl. fold cap. lia.
    - intros p. unfold thr_ok, x_init. cbn [x_c x_m]. simpl. rewrite nth_first_qop.
      destruct (nth p scripts []) as [|o r]; [simpl; auto|]. destruct o; simpl; split; try reflexivity; eexists; split; reflexivity.
  Qed.

  Lemma rel_init fut : Rel c Y fut (x_init c s scripts) (chan_init scripts).
  Proof.
    constructor; try reflexivity.
    - unfold absq. simpl. rewrite zrange_nil. reflexivity.
    - intros p. unfold apc. cbn [x_init x_c x_m].
      destruct (t_pc (c_thr (chan_init scripts) p)) as [pc|] eqn:Epc; [|reflexivity].
      destruct (is_site pc) eqn:Es; [|reflexivity].
      destruct (t_pc (m_thr (mpmc_init c s (map first_qop scripts)) p)) as [mq|] eqn:Eq; [|reflexivity].
      symmetry. apply (call_apc_first c Y fut (x_init c s scripts) p pc mq Eq);
        simpl in Eq; rewrite nth_first_qop in Eq; (destruct (nth p scripts []) as [|o r]; [discriminate|]);
        destruct o; simpl in Eq; inversion Eq; subst mq; auto.
  Qed.

  Lemma sim_run fut : forall st a, Good c s st -> nowrap c (x_m (x_run c Y st fut)) -> Rel c Y fut st a ->
    creach cap Y (chan_init scripts) a ->
    exists a', creach cap Y (chan_init scripts) a' /\ Rel c Y [] (x_run c Y st fut) a'.
  Proof.
    induction fut as [|[q f] fut IH]; intros st a G NW R CR; [exists a; auto|]. simpl in NW |- *.
    destruct (sim_step c Hc s Y fut st a q f G NW R) as (a1 & Ha1 & R1).
    assert (NW1 : nowrap c (x_m (x_step c Y st q f))).
    { destruct (x_run_mono c Y (x_step c Y st q f) fut). unfold nowrap in *. lia. }
    apply (IH (x_step c Y st q f) a1); [apply good_step; assumption | exact NW | exact R1|].
    destruct Ha1 as [->| ->]; [exact CR | constructor; exact CR].
  Qed.

  (* REFINEMENT: every run of the channel over the fine-grained queue is matched by a run of the channel over the atomic
     FIFO: same protocol variables and semaphores, FIFO = abstract queue, and every participant that is not in the middle
     of a queue call stands at the same program point with the same remaining script and results *)
  Theorem chanq_refines fut :
    nowrap c (x_m (x_run c Y (x_init c s scripts) fut)) ->
    exists a, creach cap Y (chan_init scripts) a /\
      cfields a = cfields (x_c (x_run c Y (x_init c s scripts) fut)) /\
      c_q a = absq (x_m (x_run c Y (x_init c s scripts) fut)) /\
      forall p, x_idle (x_run c Y (x_init c s scripts) fut) p = true ->
                c_thr a p = c_thr (x_c (x_run c Y (x_init c s scripts) fut)) p.
  Proof.
    intros NW.
    assert (HW : s + cap < W64).
    { destruct (x_run_mono c Y (x_init c s scripts) fut) as [M _]. destruct NW as [NW _]. simpl in M. fold cap in NW. lia. }
    destruct (sim_run fut _ _ (good_init HW) NW (rel_init fut) (creach0 _ _ _)) as (a & CR & R).
    exists a. split; [exact CR|]. split; [apply (r_f _ _ _ _ _ R)|]. split; [apply (r_q _ _ _ _ _ R)|].
    intros p Hi. apply thr_eq; [|apply (r_ops _ _ _ _ _ R) | apply (r_res _ _ _ _ _ R)].
    rewrite (r_pc _ _ _ _ _ R p). unfold apc. set (st := x_run c Y (x_init c s scripts) fut) in *.
    destruct (t_pc (c_thr (x_c st) p)) as [pc|]; [|reflexivity]. destruct (is_site pc); [|reflexivity].
    unfold x_idle in Hi. destruct (t_pc (m_thr (x_m st) p)) as [mq|]; [|reflexivity].
    destruct mq; try discriminate; reflexivity.
  Qed.

  Hypothesis Hn : Z.of_nat (length scripts) + 1 < W64.

  (* NO LOST WAKE-UP for the channel over the real queue algorithm, consumer side and sender side *)
  Theorem chanq_no_lost_wakeup fut :
    nowrap c (x_m (x_run c Y (x_init c s scripts) fut)) ->
    xlost_recv (length scripts) (x_run c Y (x_init c s scripts) fut) = false /\
    xlost_send cap (length scripts) (x_run c Y (x_init c s scripts) fut) = false.
  Proof.
    intros NW. destruct (chanq_refines fut NW) as (a & CR & Hf & Hq & Ht).
    set (st := x_run c Y (x_init c s scripts) fut) in *.
    unfold cfields in Hf. injection Hf as E1 E2 E3 E4 E5 E6.
    split.
    - unfold xlost_recv. destruct (forallb (x_idle st) (seq 0 (length scripts))) eqn:Fi; [|apply andb_false_r].
      rewrite andb_true_r. rewrite forallb_forall in Fi.
      rewrite <- (lw_recv_ext (length scripts) a (x_view st)); [apply (chan_no_lost_wakeup_recv cap Y scripts a Hn CR) | exact Hq | exact E5 |].
      intros p Hp. rewrite (Ht p (Fi p Hp)). reflexivity.
    - unfold xlost_send. destruct (forallb (x_idle st) (seq 0 (length scripts))) eqn:Fi; [|apply andb_false_r].
      rewrite andb_true_r. rewrite forallb_forall in Fi.
      rewrite <- (lw_send_ext cap (length scripts) a (x_view st)); [apply (chan_no_lost_wakeup_send cap Y scripts a Hn CR) | exact Hq | exact E6 |].
      intros p Hp. rewrite (Ht p (Fi p Hp)). reflexivity.
  Qed.
End ChanQThm.

(* the product model runs: one participant sends 7 (push = 5 atomic steps of the queue, then the idler check), the other
   receives it (pop = 5 steps, then notify_senders); the hypotheses of the theorems are met *)
Example chanq_ex :
  let c := cfg_of 2 in
  let scripts := [[OSend 7]; [ORecv]] in
  let fut := [(0,0);(0,0);(0,0);(1,0);(1,0);(0,0);(0,0);(0,0);(1,0);(1,0);(1,0);(1,0);(1,0);(1,0);(1,0);(1,0);(1,0);(1,0)]%nat in
  let st := x_run c 0 (x_init c 0 scripts) fut in
  cfg_ok c /\ nowrap c (x_m st) /\ Z.of_nat (length scripts) + 1 < W64 /\
  t_res (c_thr (x_c st) 0%nat) = [RSent 0 7] /\ t_res (c_thr (x_c st) 1%nat) = [RRecv 0 7] /\ absq (x_m st) = [].
Proof.
  cbv zeta. split; [split; [vm_compute; split; discriminate | reflexivity]|].
  vm_compute. repeat split; reflexivity.
Qed.
