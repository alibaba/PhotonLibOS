(* C07_MPMC_Proofs.v — inductive invariant of the MPMC ring queue model (push/pop CAS variant and
   send/recv ticket variant, freely mixed): ANY number of participants, ANY scripts, ANY schedule,
   any capacity 2^k, any start index; guard: the claim counters stay below 2^64 - capacity (no index
   wrap: at the wrap a queue of capacity >= 4 stops accepting pushes, see notes/C07.md N1). *)
From Coq Require Import ZArith Lia List Bool Arith Sorted.
From PV Require Import Base.U64 C07.C07_Model C07.C07_Arith C07.C07_Lists C07.C07_MPMC_Model.
Import ListNotations.
Local Open Scope Z_scope.

Definition whold (pc : mpc) : option Z :=
  match pc with MPushWr _ _ _ i | MPushStM _ _ _ i | MSendLdM _ _ i | MSendSp _ _ i => Some i | _ => None end.
Definition rhold (pc : mpc) : option Z :=
  match pc with MPopRd _ _ i | MPopStM _ _ i _ | MRecvLdM _ i | MRecvSp _ i => Some i | _ => None end.

Section MPMC.
  Variable c : cfg.
  Hypothesis Hc : cfg_ok c.
  Variable s : Z.
  Let cap := c_cap c.

  Definition chron (st : mstate) (p : nat) : list res := rev (t_res (m_thr st p)).
  Definition pushed (st : mstate) (p : nat) := push_items (chron st p).
  Definition popped (st : mstate) (p : nat) := pop_items (chron st p).

  Definition wheld (st : mstate) (p : nat) (i v : Z) : Prop :=
    s <= i < m_gt st /\ m_gval st i = v /\ m_gwho st i = p /\ forall j w, In (j, w) (pushed st p) -> j < i.
  Definition rheld (st : mstate) (p : nat) (i : Z) : Prop :=
    s <= i < m_gh st /\ m_gpop st i = p /\ forall j w, In (j, w) (popped st p) -> j < i.

  Definition pc_ok (st : mstate) (p : nat) (pc : mpc) : Prop :=
    match pc with
    | MPushLdM v t | MPushLdH v t => s <= t <= m_gt st
    | MPushCas v t => s <= t <= m_gt st /\ 2 * (t / cap) <= m_mark st (t mod cap)
    | MPushWr snd v t i => t = i /\ wheld st p i v /\ m_mark st (i mod cap) = 2 * (i / cap)
    | MPushStM snd v t i => t = i /\ wheld st p i v /\ m_mark st (i mod cap) = 2 * (i / cap) /\ m_slot st (i mod cap) = v
    | MSendLdM v t i | MSendSp v t i => t = i /\ wheld st p i v
    | MPopLdM h | MPopLdT h => s <= h <= m_gh st
    | MPopCas h => s <= h <= m_gh st /\ 2 * (h / cap) + 1 <= m_mark st (h mod cap)
    | MPopRd rcv h i => h = i /\ rheld st p i /\ m_mark st (i mod cap) = 2 * (i / cap) + 1
    | MPopStM rcv h i v => h = i /\ rheld st p i /\ m_mark st (i mod cap) = 2 * (i / cap) + 1 /\ v = m_gval st i
    | MRecvLdM h i | MRecvSp h i => h = i /\ rheld st p i
    | _ => True
    end.

  Definition wfree (st : mstate) (i : Z) : Prop := forall p pc, t_pc (m_thr st p) = Some pc -> whold pc <> Some i.
  Definition rbusy (st : mstate) (i : Z) : Prop := exists p pc, t_pc (m_thr st p) = Some pc /\ rhold pc = Some i.

  Lemma marks_nowrap t : 0 <= t -> t + cap < W64 ->
    last_turn_read c t = 2 * (t / cap) /\ this_turn_write c t = 2 * (t / cap) + 1 /\ this_turn_read c t = 2 * (t / cap) + 2.
  Proof.
    intros H0 H1. unfold last_turn_read, this_turn_write, this_turn_read.
    rewrite turn_div by exact Hc. fold cap. rewrite Z.shiftl_mul_pow2 by lia. change (2 ^ 1) with 2.
    pose proof (cfg_cap_gt0 c Hc : 0 < cap) as Hp. pose proof (cfg_cap_pos c Hc) as H2. fold cap in H2.
    assert (0 <= t / cap) by (apply Z.div_pos; lia).
    assert (2 * (t / cap) <= t) by (pose proof (Z.mul_div_le t cap Hp); nia).
    rewrite !wrap_small by lia. lia.
  Qed.

  Lemma entry_nohold o : whold (mpmc_entry o) = None /\ rhold (mpmc_entry o) = None.
  Proof. destruct o; split; reflexivity. Qed.
  Lemma entry_ok st p o : pc_ok st p (mpmc_entry o).
  Proof. destruct o; exact I. Qed.

  Lemma pc_ok_ext st st' p pc :
    m_gt st' = m_gt st -> m_gh st' = m_gh st -> m_mark st' = m_mark st -> m_slot st' = m_slot st ->
    m_gval st' = m_gval st -> m_gwho st' = m_gwho st -> m_gpop st' = m_gpop st ->
    pushed st' p = pushed st p -> popped st' p = popped st p ->
    pc_ok st p pc -> pc_ok st' p pc.
  Proof.
    intros E1 E2 E3 E4 E5 E6 E7 E8 E9 H.
    destruct pc; simpl in *; unfold wheld, rheld in *; rewrite ?E1, ?E2, ?E3, ?E4, ?E5, ?E6, ?E7, ?E8, ?E9; exact H.
  Qed.

  (* One side of the protocol.
     The producers' side (whold, pushed, m_gt, m_gwho; the mark of a slot is at most 2t before and at least 2t+1 after the
     store of the ticket of turn t) and the consumers' side (rhold, popped, m_gh, m_gpop; 2t+1 and 2t+2) obey the same six
     clauses: a ticket has one holder; the mark of a slot against the tickets mapped to it (sd_pub, sd_unp); the completed
     operations (sd_item, sd_sort, sd_all).  [held] is the ticket a thread holds; a transition changes it for the moving
     thread only. *)
  Section Side.
    Variables (hold : mpc -> option Z) (item : res -> list (Z * Z)) (cnt : mstate -> Z) (who : mstate -> Z -> nat).
    Variables lo hi : Z -> Z.

    Definition ohold (o : option mpc) : option Z := match o with Some pc => hold pc | None => None end.
    Definition held (st : mstate) (p : nat) : option Z := ohold (t_pc (m_thr st p)).
    Definition items (st : mstate) (p : nat) : list (Z * Z) := flat_map item (chron st p).

    Record Side (st : mstate) : Prop := mkSide {
      sd_uniq : forall p q i, held st p = Some i -> held st q = Some i -> p = q;
      sd_pub : forall i, s <= i < cnt st -> (forall p, held st p <> Some i) -> lo (i / cap) <= m_mark st (i mod cap);
      sd_unp : forall i, s <= i -> cnt st <= i \/ (exists p, held st p = Some i) -> m_mark st (i mod cap) <= hi (i / cap);
      sd_item : forall p i v, In (i, v) (items st p) -> s <= i < cnt st /\ i < m_gt st /\ v = m_gval st i /\ who st i = p;
      sd_sort : forall p, StronglySorted Z.lt (map fst (items st p));
      sd_all : forall i, s <= i < cnt st -> In (i, m_gval st i) (items st (who st i)) \/ held st (who st i) = Some i }.

    Lemma held_pc st p i : held st p = Some i <-> exists pc, t_pc (m_thr st p) = Some pc /\ hold pc = Some i.
    Proof.
      unfold held. destruct (t_pc (m_thr st p)) as [pc|]; simpl; split.
      - eauto.
      - intros (pc' & E & H). congruence.
      - discriminate.
      - intros (pc' & E & _). discriminate.
    Qed.

    Lemma side_uniq st p q pc1 pc2 i : Side st -> t_pc (m_thr st p) = Some pc1 -> t_pc (m_thr st q) = Some pc2 ->
      hold pc1 = Some i -> hold pc2 = Some i -> p = q.
    Proof. intros S E1 E2 H1 H2. apply (sd_uniq st S p q i); apply held_pc; eauto. Qed.

    Lemma side_init st : (forall p, held st p = None) -> (forall p, items st p = []) -> cnt st = s ->
      (forall i, s <= i -> m_mark st (i mod cap) <= hi (i / cap)) -> Side st.
    Proof.
      intros Hh Hi Ec Hm. constructor; rewrite ?Ec; try lia.
      - intros p q i Hp. rewrite Hh in Hp. discriminate.
      - intros i Hs _. exact (Hm i Hs).
      - intros p i v. rewrite Hi. intros [].
      - intros p. rewrite Hi. constructor.
    Qed.

    Lemma others st st' p : (forall q, q <> p -> m_thr st' q = m_thr st q) ->
      forall q, q <> p -> held st' q = held st q /\ items st' q = items st q.
    Proof. intros Hoth q N. unfold held, items, chron. rewrite Hoth by exact N. auto. Qed.

    (* a step that changes nothing on this side: p keeps its ticket (or keeps having none) and completes nothing here;
       the other side may claim (m_gt grows, the ghost value of the new index is set) *)
    Lemma side_keep st st' p :
      (forall q, q <> p -> m_thr st' q = m_thr st q) -> held st' p = held st p -> items st' p = items st p ->
      cnt st' = cnt st -> m_mark st' = m_mark st -> m_gt st <= m_gt st' ->
      (forall i, i < m_gt st -> m_gval st' i = m_gval st i) -> (forall i, i < cnt st -> who st' i = who st i) ->
      Side st -> Side st'.
    Proof.
      intros Hoth Hp Ip Ec Em Lt Ev Ew [].
      assert (Hh : forall q, held st' q = held st q)
        by (intros q; destruct (Nat.eq_dec q p) as [->|N]; [exact Hp | apply (others st st' p Hoth q N)]).
      assert (Hi : forall q, items st' q = items st q)
        by (intros q; destruct (Nat.eq_dec q p) as [->|N]; [exact Ip | apply (others st st' p Hoth q N)]).
      constructor; rewrite ?Ec, ?Em.
      - intros a b i. rewrite !Hh. apply sd_uniq0.
      - intros i Hi' F. apply sd_pub0; [exact Hi'|]. intros q. rewrite <- Hh. apply F.
      - intros i Hi' [G|[q B]]; apply sd_unp0; auto. right. exists q. rewrite <- Hh. exact B.
      - intros q i v. rewrite Hi. intros H. destruct (sd_item0 q i v H) as (A & B & C0 & D).
        rewrite Ev, Ew by lia. repeat split; try assumption; lia.
      - intros q. rewrite Hi. apply sd_sort0.
      - intros i Hi'. rewrite Ew, Hi, Hh by lia. destruct (sd_all0 i Hi') as [L|R]; [left|right; exact R].
        destruct (sd_item0 _ _ _ L) as (_ & B & _). rewrite Ev by exact B. exact L.
    Qed.

    Lemma side_claim st st' p :
      (forall q, q <> p -> m_thr st' q = m_thr st q) ->
      held st p = None -> held st' p = Some (cnt st) -> items st' p = items st p ->
      (forall q, held st q <> Some (cnt st)) -> s <= cnt st ->
      cnt st' = cnt st + 1 -> m_mark st' = m_mark st -> m_gt st <= m_gt st' ->
      (forall i, i < m_gt st -> m_gval st' i = m_gval st i) ->
      who st' (cnt st) = p -> (forall i, i <> cnt st -> who st' i = who st i) ->
      Side st -> Side st'.
    Proof.
      intros Hoth Hp0 Hp1 Ip Hfresh Hs Ec Em Lt Ev Ewp Ew [].
      assert (Hh : forall q, q <> p -> held st' q = held st q) by (intros q N; apply (others st st' p Hoth q N)).
      assert (Hi : forall q, items st' q = items st q)
        by (intros q; destruct (Nat.eq_dec q p) as [->|N]; [exact Ip | apply (others st st' p Hoth q N)]).
      constructor; rewrite ?Ec, ?Em.
      - intros a b i Ha Hb. destruct (Nat.eq_dec a p) as [->|Na]; destruct (Nat.eq_dec b p) as [->|Nb]; try reflexivity.
        + rewrite Hp1 in Ha. injection Ha as <-. rewrite Hh in Hb by exact Nb. destruct (Hfresh b Hb).
        + rewrite Hp1 in Hb. injection Hb as <-. rewrite Hh in Ha by exact Na. destruct (Hfresh a Ha).
        + rewrite Hh in Ha, Hb by assumption. exact (sd_uniq0 a b i Ha Hb).
      - intros i Hi' F. assert (i <> cnt st) by (intros ->; exact (F p Hp1)). apply sd_pub0; [lia|].
        intros q Hq. destruct (Nat.eq_dec q p) as [->|N]; [congruence|]. apply (F q). rewrite Hh by exact N. exact Hq.
      - intros i Hi' [G|[q B]]; apply sd_unp0; try exact Hi'; [left; lia|].
        destruct (Nat.eq_dec q p) as [->|N]; [left; rewrite Hp1 in B; injection B as <-; lia|].
        right. exists q. rewrite <- Hh by exact N. exact B.
      - intros q i v. rewrite Hi. intros H. destruct (sd_item0 q i v H) as (A & B & C0 & D).
        rewrite Ev, Ew by lia. repeat split; try assumption; lia.
      - intros q. rewrite Hi. apply sd_sort0.
      - intros i Hi'. destruct (Z.eq_dec i (cnt st)) as [->|N]; [right; rewrite Ewp; exact Hp1|].
        rewrite Ew, Hi by exact N. destruct (sd_all0 i ltac:(lia)) as [L|R]; [left|right].
        + destruct (sd_item0 _ _ _ L) as (_ & B & _). rewrite Ev by exact B. exact L.
        + rewrite Hh; [exact R|]. intros E. rewrite E, Hp0 in R. discriminate.
    Qed.

    (* p returns from its call while the mark of slot j mod cap goes up from m to m': either p gives back its ticket j of
       this side, which makes (j, value of j) its latest completed item here, or the step belongs to the other side *)
    Lemma side_bump st st' p j m' new :
      (forall q, q <> p -> m_thr st' q = m_thr st q) -> held st' p = None -> items st' p = items st p ++ new ->
      (held st p = None /\ new = [] \/
       held st p = Some j /\ new = [(j, m_gval st j)] /\ s <= j < cnt st /\ j < m_gt st /\ who st j = p /\
       (forall k w, In (k, w) (items st p) -> k < j) /\ lo (j / cap) <= m') ->
      cnt st' = cnt st -> m_gt st' = m_gt st -> m_gval st' = m_gval st -> who st' = who st ->
      (forall k, m_mark st' k = updZ (m_mark st) (j mod cap) m' k) -> m_mark st (j mod cap) <= m' ->
      (forall i, i mod cap = j mod cap -> held st p <> Some i -> m_mark st (j mod cap) <= hi (i / cap) -> m' <= hi (i / cap)) ->
      Side st -> Side st'.
    Proof.
      intros Hoth Hp1 Ip Hcase Ec Et Ev Ew Em Hmono Hup [].
      assert (Hh : forall q, q <> p -> held st' q = held st q) by (intros q N; apply (others st st' p Hoth q N)).
      assert (Hi : forall q, q <> p -> items st' q = items st q) by (intros q N; apply (others st st' p Hoth q N)).
      assert (Hfree : forall i, (forall q, held st' q <> Some i) -> held st p <> Some i -> forall q, held st q <> Some i).
      { intros i F Np q. destruct (Nat.eq_dec q p) as [->|N]; [exact Np | rewrite <- Hh by exact N; apply F]. }
      assert (Hbusy : forall i, (exists q, held st' q = Some i) -> exists q, q <> p /\ held st q = Some i).
      { intros i [q B]. exists q. destruct (Nat.eq_dec q p) as [->|N]; [congruence | rewrite <- Hh by exact N; auto]. }
      assert (Hmk : forall i, m_mark st (i mod cap) <= m_mark st' (i mod cap)).
      { intros i. rewrite Em. unfold updZ. destruct (Z.eqb_spec (i mod cap) (j mod cap)) as [->|]; lia. }
      constructor; rewrite ?Ec, ?Et, ?Ev, ?Ew.
      - intros a b i Ha Hb. destruct (Nat.eq_dec a p) as [->|Na]; [congruence|]. destruct (Nat.eq_dec b p) as [->|Nb]; [congruence|].
        rewrite Hh in Ha, Hb by assumption. exact (sd_uniq0 a b i Ha Hb).
      - intros i Hi' F.
        assert (Hpi : held st p <> Some i \/ i = j /\ lo (j / cap) <= m').
        { destruct Hcase as [[E0 _]|(E0 & _ & _ & _ & _ & _ & L)]; [left; congruence|].
          destruct (Z.eq_dec i j) as [->|Nij]; [right; auto | left; congruence]. }
        destruct Hpi as [Np|[-> L]]; [|rewrite Em, updZ_same; exact L].
        specialize (sd_pub0 i Hi' (Hfree i F Np)). specialize (Hmk i). lia.
      - intros i Hi' Hor.
        assert (Hor0 : cnt st <= i \/ exists q, q <> p /\ held st q = Some i) by (destruct Hor as [G|B]; [left; exact G | right; exact (Hbusy i B)]).
        assert (Hold : m_mark st (i mod cap) <= hi (i / cap)).
        { apply sd_unp0; [exact Hi'|]. destruct Hor0 as [G|(q & _ & B)]; [left; exact G | right; exists q; exact B]. }
        rewrite Em. unfold updZ. destruct (Z.eqb_spec (i mod cap) (j mod cap)) as [E|]; [|exact Hold].
        apply Hup; [exact E | | rewrite <- E; exact Hold]. intros Hpi.
        destruct Hcase as [[E0 _]|(E0 & _ & Hj & _)]; [congruence|]. rewrite E0 in Hpi. injection Hpi as ->.
        destruct Hor0 as [G|(q & N & B)]; [lia|]. apply N. apply (sd_uniq0 q p i B E0).
      - intros q i v. destruct (Nat.eq_dec q p) as [->|N]; [|rewrite Hi by exact N; apply sd_item0].
        rewrite Ip. intros H. apply in_app_or in H. destruct H as [H|H]; [exact (sd_item0 p i v H)|].
        destruct Hcase as [[_ ->]|(_ & -> & Hj & Hlt & Hwho & _)]; [destruct H|]. destruct H as [H|[]]. injection H as <- <-. auto.
      - intros q. destruct (Nat.eq_dec q p) as [->|N]; [|rewrite Hi by exact N; apply sd_sort0].
        rewrite Ip. destruct Hcase as [[_ ->]|(_ & -> & _ & _ & _ & Hlt & _)]; [rewrite app_nil_r; apply sd_sort0|].
        rewrite map_app. apply SSorted_app; [apply sd_sort0 | repeat constructor |].
        intros y x Hy [<-|[]]. apply in_map_iff in Hy. destruct Hy as ([k w] & <- & Hin). exact (Hlt k w Hin).
      - intros i Hi'. destruct (Nat.eq_dec (who st i) p) as [E|N].
        + rewrite E, Ip. left. apply in_or_app. destruct (sd_all0 i Hi') as [L|R]; rewrite E in *; [left; exact L | right].
          destruct Hcase as [[E0 _]|(E0 & -> & _)]; [congruence|]. rewrite E0 in R. injection R as ->. left; reflexivity.
        + rewrite Hi, Hh by exact N. apply sd_all0. exact Hi'.
    Qed.
  End Side.
  Global Arguments sd_uniq {hold item cnt who lo hi st}.
  Global Arguments sd_pub {hold item cnt who lo hi st}.
  Global Arguments sd_unp {hold item cnt who lo hi st}.
  Global Arguments sd_item {hold item cnt who lo hi st}.
  Global Arguments sd_sort {hold item cnt who lo hi st}.
  Global Arguments sd_all {hold item cnt who lo hi st}.
  Global Arguments side_uniq {hold item cnt who lo hi}.
  Global Arguments side_keep {hold item cnt who lo hi}.
  Global Arguments side_claim {hold item cnt who lo hi}.
  Global Arguments side_bump {hold item cnt who lo hi}.

  Definition WSide := Side whold push_item m_gt m_gwho (fun t => 2 * t + 1) (fun t => 2 * t).
  Definition RSide := Side rhold pop_item m_gh m_gpop (fun t => 2 * t + 2) (fun t => 2 * t + 1).

  Record MInv (st : mstate) : Prop := mkMInv {
    mv_s : 0 <= s;
    mv_head : m_head st = m_gh st;
    mv_tail : m_tail st = m_gt st;
    mv_lo : s <= m_gh st /\ s <= m_gt st;
    mv_g : m_gt st + cap < W64 /\ m_gh st + cap < W64;
    mv_pc : forall p pc, t_pc (m_thr st p) = Some pc -> pc_ok st p pc;
    mv_data : forall i, s <= i < m_gt st -> m_mark st (i mod cap) = 2 * (i / cap) + 1 -> m_slot st (i mod cap) = m_gval st i;
    mv_w : WSide st;
    mv_r : RSide st }.

  (* p replaces its own thread record and keeps what it holds (an idle thread holds nothing) *)
  Lemma inv_thr st p th' :
    MInv st -> ohold whold (t_pc th') = held whold st p -> ohold rhold (t_pc th') = held rhold st p ->
    (forall pc', t_pc th' = Some pc' -> pc_ok st p pc') ->
    push_items (rev (t_res th')) = pushed st p -> pop_items (rev (t_res th')) = popped st p ->
    MInv (m_set_thr st p th').
  Proof.
    intros [] Hw Hr Hpc Epu Epo. set (st' := m_set_thr st p th').
    assert (Hoth : forall q, q <> p -> m_thr st' q = m_thr st q) by (intros q N; apply upd_other; exact N).
    assert (Hthp : m_thr st' p = th') by apply upd_same.
    constructor; try assumption.
    - intros q pcq E. apply (pc_ok_ext st st'); try reflexivity.
      + destruct (Nat.eq_dec q p) as [->|N]; [unfold pushed, chron; rewrite Hthp; exact Epu | apply (others whold push_item st st' p Hoth q N)].
      + destruct (Nat.eq_dec q p) as [->|N]; [unfold popped, chron; rewrite Hthp; exact Epo | apply (others rhold pop_item st st' p Hoth q N)].
      + destruct (Nat.eq_dec q p) as [->|N]; [apply Hpc; rewrite <- Hthp; exact E | apply mv_pc0; rewrite <- Hoth by exact N; exact E].
    - apply (side_keep st st' p Hoth); try reflexivity; try assumption; [unfold held | unfold items, chron]; rewrite Hthp; assumption.
    - apply (side_keep st st' p Hoth); try reflexivity; try assumption; [unfold held | unfold items, chron]; rewrite Hthp; assumption.
  Qed.

  Lemma whold_lt st q pcq i : MInv st -> t_pc (m_thr st q) = Some pcq -> whold pcq = Some i ->
    s <= i < m_gt st /\ m_gwho st i = q.
  Proof.
    intros I E H. pose proof (mv_pc st I q pcq E) as K.
    destruct pcq; simpl in H; try discriminate; inversion H; subst; simpl in K; unfold wheld in K; intuition.
  Qed.
  Lemma rhold_lt st q pcq i : MInv st -> t_pc (m_thr st q) = Some pcq -> rhold pcq = Some i ->
    s <= i < m_gh st /\ m_gpop st i = q.
  Proof.
    intros I E H. pose proof (mv_pc st I q pcq E) as K.
    destruct pcq; simpl in H; try discriminate; inversion H; subst; simpl in K; unfold rheld in K; intuition.
  Qed.
  Lemma mark_odd_published st i : MInv st -> s <= i -> 2 * (i / cap) + 1 <= m_mark st (i mod cap) -> i < m_gt st /\ wfree st i.
  Proof.
    intros I Hi Hm. split.
    - destruct (Z_lt_dec i (m_gt st)) as [L|G]; [exact L|].
      assert (G' : m_gt st <= i) by lia.
      pose proof (sd_unp (mv_w st I) i Hi (or_introl G')) as U. cbn beta in U. lia.
    - intros q pcq E Hh. assert (B : held whold st q = Some i) by (unfold held; rewrite E; exact Hh).
      pose proof (sd_unp (mv_w st I) i Hi (or_intror (ex_intro _ q B))) as U. cbn beta in U. lia.
  Qed.

  (* pc_ok of a thread survives a claim made by another thread *)
  Lemma pc_ok_mono st st' q pc :
    MInv st ->
    m_gt st <= m_gt st' -> m_gh st <= m_gh st' -> m_mark st' = m_mark st -> m_slot st' = m_slot st ->
    (forall i, i < m_gt st -> m_gval st' i = m_gval st i /\ m_gwho st' i = m_gwho st i) ->
    (forall i, i < m_gh st -> m_gpop st' i = m_gpop st i) ->
    pushed st' q = pushed st q -> popped st' q = popped st q ->
    pc_ok st q pc -> pc_ok st' q pc.
  Proof.
    intros I G1 G2 Em Es Hv Hp Epu Epo K.
    assert (WH : forall i v, wheld st q i v -> wheld st' q i v).
    { unfold wheld. intros i v (A & B & C0 & D). destruct (Hv i ltac:(lia)) as [X Y]. rewrite Epu, X, Y. repeat split; try assumption; lia. }
    assert (RH : forall i, rheld st q i -> rheld st' q i).
    { unfold rheld. intros i (A & B & D). rewrite Epo, Hp by lia. repeat split; try assumption; lia. }
    destruct pc; cbn [pc_ok] in *; rewrite ?Em, ?Es; try exact K; try lia; intuition.
    (* MPopStM: v = gval i, and i < gt because the mark is odd *)
    match goal with Hm : m_mark st (?i mod cap) = _, Hr : rheld st q ?i |- _ =>
      destruct (mark_odd_published st i I ltac:(destruct Hr; lia) ltac:(lia)) as [Hlt _]; rewrite (proj1 (Hv i Hlt)); assumption end.
  Qed.

  Lemma finish_held (th : thr mpc) r :
    ohold whold (t_pc (thr_finish mpmc_entry th r)) = None /\ ohold rhold (t_pc (thr_finish mpmc_entry th r)) = None.
  Proof.
    destruct (t_pc (thr_finish mpmc_entry th r)) as [pc|] eqn:E; [|split; reflexivity].
    apply thr_finish_pc in E. destruct E as (o & _ & _ & ->). apply entry_nohold.
  Qed.

  Lemma inv_goto st p pc pc' :
    MInv st -> t_pc (m_thr st p) = Some pc -> whold pc' = whold pc -> rhold pc' = rhold pc -> pc_ok st p pc' ->
    MInv (m_goto st p pc').
  Proof.
    intros I E Hw Hr K. apply inv_thr; try assumption; try reflexivity; unfold held; try (rewrite E; assumption).
    intros pc'' E'. injection E' as <-. exact K.
  Qed.

  Lemma inv_fail st p pc r :
    MInv st -> t_pc (m_thr st p) = Some pc -> whold pc = None -> rhold pc = None -> push_item r = [] -> pop_item r = [] ->
    MInv (m_finish st p r).
  Proof.
    intros I E Hw Hr P1 P2. destruct (finish_held (m_thr st p) r) as [Fw Fr].
    apply inv_thr; try assumption; unfold held; rewrite ?E; cbn [ohold]; rewrite ?Hw, ?Hr; try assumption.
    - intros pc' E'. apply thr_finish_pc in E'. destruct E' as (o & _ & _ & ->). apply entry_ok.
    - rewrite finish_res. unfold push_items, pushed, chron. rewrite flat_map_snoc, P1, app_nil_r. reflexivity.
    - rewrite finish_res. unfold pop_items, popped, chron. rewrite flat_map_snoc, P2, app_nil_r. reflexivity.
  Qed.

  (* a mark that stands in the turn of j does not stand in the turn of another ticket of the same slot *)
  Lemma bump_other i j m : i mod cap = j mod cap -> 0 <= m - 2 * (j / cap) <= 1 -> 0 <= m - 2 * (i / cap) <= 1 -> i = j.
  Proof. intros E Hj Hi. apply (same_slot_eq cap i j (cfg_cap_gt0 c Hc) E). lia. Qed.

  (* pc_ok of a thread survives the mark store that ends another thread's call on ticket j: e = 0 for the store of the
     write ticket j, e = 1 for the store of the read ticket j *)
  Lemma pc_ok_bump st p r q pc j e :
    q <> p -> 0 <= e <= 1 -> m_mark st (j mod cap) = 2 * (j / cap) + e ->
    (e = 0 -> whold pc <> Some j) -> (e = 1 -> rhold pc <> Some j) ->
    pc_ok st q pc -> pc_ok (m_finish (m_set_mark st (j mod cap) (m_mark st (j mod cap) + 1)) p r) q pc.
  Proof.
    intros N He Hm Hw Hr K. set (st1 := m_set_mark st _ _).
    apply (pc_ok_ext st1); try reflexivity;
      try (unfold pushed, popped, chron; cbn [m_finish m_set_thr m_thr]; rewrite upd_other by exact N; reflexivity).
    assert (Hlow : forall i, m_mark st (i mod cap) <= m_mark st1 (i mod cap)).
    { intros i. cbn [st1 m_set_mark m_mark]. unfold updZ. destruct (Z.eqb_spec (i mod cap) (j mod cap)) as [->|]; lia. }
    assert (Hsame : forall i d, m_mark st (i mod cap) = 2 * (i / cap) + d -> (i = j -> d <> e) -> 0 <= d <= 1 ->
                     m_mark st1 (i mod cap) = m_mark st (i mod cap)).
    { intros i d Hi Ni Hd. apply updZ_other. intros E.
      assert (i = j) by (apply (bump_other i j (m_mark st (j mod cap)) E); [|rewrite <- E]; lia). subst i. apply Ni; [reflexivity|lia]. }
    destruct pc; cbn [pc_ok whold rhold] in *; try exact K.
    - destruct K as [A B]. split; [exact A|]. specialize (Hlow t). lia.
    - destruct K as (A & B & C0). rewrite (Hsame i 0); [auto | lia | intros -> E0; exact (Hw (eq_sym E0) eq_refl) | lia].
    - destruct K as (A & B & C0 & D). rewrite (Hsame i 0); [auto | lia | intros -> E0; exact (Hw (eq_sym E0) eq_refl) | lia].
    - destruct K as [A B]. split; [exact A|]. specialize (Hlow h). lia.
    - destruct K as (A & B & C0). rewrite (Hsame i 1); [auto | lia | intros -> E0; exact (Hr (eq_sym E0) eq_refl) | lia].
    - destruct K as (A & B & C0 & D). rewrite (Hsame i 1); [auto | lia | intros -> E0; exact (Hr (eq_sym E0) eq_refl) | lia].
  Qed.

  Lemma inv_claim_tail st p pc v pc' :
    MInv st -> t_pc (m_thr st p) = Some pc -> whold pc = None -> rhold pc = None ->
    m_gt st + 1 + cap < W64 ->
    (pc' = MPushWr false v (m_gt st) (m_gt st) /\ 2 * (m_gt st / cap) <= m_mark st (m_gt st mod cap)) \/
     pc' = MSendLdM v (m_gt st) (m_gt st) ->
    MInv (m_goto (m_claim_tail st p (m_gt st + 1) v) p pc').
  Proof.
    intros I Epc Hw Hr Hg Hpc'. pose proof I as I0. destruct I. set (st' := m_goto _ p pc').
    assert (Hoth : forall q, q <> p -> m_thr st' q = m_thr st q) by (intros q N; apply upd_other; exact N).
    assert (Hthp : m_thr st' p = thr_goto (m_thr st p) pc') by apply upd_same.
    assert (Hwp : whold pc' = Some (m_gt st) /\ rhold pc' = None) by (destruct Hpc' as [[-> _]| ->]; split; reflexivity).
    assert (Hgv : forall i, i < m_gt st -> m_gval st' i = m_gval st i) by (intros i L; apply updZ_other; lia).
    pose proof (sd_unp mv_w0 (m_gt st) (proj2 mv_lo0) (or_introl (Z.le_refl _))) as Hun. cbn beta in Hun.
    constructor; try assumption; try (cbn; lia).
    - intros q pcq E. destruct (Nat.eq_dec q p) as [->|N].
      + rewrite Hthp in E. injection E as <-.
        assert (WH : wheld st' p (m_gt st) v).
        { unfold wheld, pushed, chron. rewrite Hthp. cbn. rewrite !updZ_same. repeat split; try lia.
          intros j w Hj. apply (sd_item mv_w0 p j w) in Hj. lia. }
        destruct Hpc' as [[-> Hm]| ->]; cbn [pc_ok]; (split; [reflexivity|]); [split; [exact WH|] | exact WH].
        change (m_mark st') with (m_mark st). lia.
      + rewrite Hoth in E by exact N.
        apply (pc_ok_mono st st'); try assumption; try reflexivity; try (cbn; lia); try (apply (others whold push_item st st' p Hoth q N)).
        * intros i Hi. split; apply updZ_other; lia.
        * apply (others rhold pop_item st st' p Hoth q N).
        * apply mv_pc0. exact E.
    - intros i Hi Hm. destruct (Z.eq_dec i (m_gt st)) as [->|N]; [change (m_mark st') with (m_mark st) in Hm; lia|].
      rewrite Hgv by (cbn in Hi; lia). apply mv_data0; [cbn in Hi; lia | exact Hm].
    - apply (side_claim st st' p Hoth); try reflexivity; try assumption; unfold held, items, chron; rewrite ?Hthp, ?Epc; cbn [ohold thr_goto t_pc t_res]; try reflexivity; try tauto.
      + intros q Hq. apply held_pc in Hq. destruct Hq as (pcq & E & H). destruct (whold_lt st q pcq _ I0 E H). lia.
      + cbn. lia.
      + apply updZ_same.
      + intros i N. apply updZ_other. exact N.
    - apply (side_keep st st' p Hoth); try reflexivity; try assumption; unfold held, items, chron; rewrite ?Hthp, ?Epc; cbn [ohold thr_goto t_pc t_res]; try reflexivity; try (cbn; lia).
      destruct Hwp. congruence.
  Qed.

  Lemma inv_claim_head st p pc pc' :
    MInv st -> t_pc (m_thr st p) = Some pc -> whold pc = None -> rhold pc = None ->
    m_gh st + 1 + cap < W64 ->
    (pc' = MPopRd false (m_gh st) (m_gh st) /\ 2 * (m_gh st / cap) + 1 <= m_mark st (m_gh st mod cap)) \/
     pc' = MRecvLdM (m_gh st) (m_gh st) ->
    MInv (m_goto (m_claim_head st p (m_gh st + 1)) p pc').
  Proof.
    intros I Epc Hw Hr Hg Hpc'. pose proof I as I0. destruct I. set (st' := m_goto _ p pc').
    assert (Hoth : forall q, q <> p -> m_thr st' q = m_thr st q) by (intros q N; apply upd_other; exact N).
    assert (Hthp : m_thr st' p = thr_goto (m_thr st p) pc') by apply upd_same.
    assert (Hwp : whold pc' = None /\ rhold pc' = Some (m_gh st)) by (destruct Hpc' as [[-> _]| ->]; split; reflexivity).
    pose proof (sd_unp mv_r0 (m_gh st) (proj1 mv_lo0) (or_introl (Z.le_refl _))) as Hun. cbn beta in Hun.
    constructor; try assumption; try (cbn; lia).
    - intros q pcq E. destruct (Nat.eq_dec q p) as [->|N].
      + rewrite Hthp in E. injection E as <-.
        assert (RH : rheld st' p (m_gh st)).
        { unfold rheld, popped, chron. rewrite Hthp. cbn. rewrite !updZ_same. repeat split; try lia.
          intros j w Hj. apply (sd_item mv_r0 p j w) in Hj. lia. }
        destruct Hpc' as [[-> Hm]| ->]; cbn [pc_ok]; (split; [reflexivity|]); [split; [exact RH|] | exact RH].
        change (m_mark st') with (m_mark st). lia.
      + rewrite Hoth in E by exact N.
        apply (pc_ok_mono st st'); try assumption; try reflexivity; try (cbn; lia); try (apply (others whold push_item st st' p Hoth q N)).
        * intros i Hi. apply updZ_other. lia.
        * apply (others rhold pop_item st st' p Hoth q N).
        * apply mv_pc0. exact E.
    - apply (side_keep st st' p Hoth); try reflexivity; try assumption; unfold held, items, chron; rewrite ?Hthp, ?Epc; cbn [ohold thr_goto t_pc t_res]; try reflexivity; try (cbn; lia).
      destruct Hwp. congruence.
    - apply (side_claim st st' p Hoth); try reflexivity; try assumption; unfold held, items, chron; rewrite ?Hthp, ?Epc; cbn [ohold thr_goto t_pc t_res]; try reflexivity; try tauto.
      + intros q Hq. apply held_pc in Hq. destruct Hq as (pcq & E & H). destruct (rhold_lt st q pcq _ I0 E H). lia.
      + apply updZ_same.
      + intros i N. apply updZ_other. exact N.
  Qed.

  Lemma inv_write st p snd v i :
    MInv st -> t_pc (m_thr st p) = Some (MPushWr snd v i i) ->
    MInv (m_goto (m_set_slot st (i mod cap) v) p (MPushStM snd v i i)).
  Proof.
    intros I Epc.
    pose proof (mv_pc st I p _ Epc) as Kp. cbn [pc_ok] in Kp. destruct Kp as (_ & WHp & Hmp).
    set (st1 := m_set_slot st (i mod cap) v).
    assert (Hsl : forall k, m_mark st (k mod cap) = 2 * (k / cap) \/ m_mark st (k mod cap) = 2 * (k / cap) + 1 -> k <> i ->
                   m_slot st1 (k mod cap) = m_slot st (k mod cap)).
    { intros k Hm Nk. apply updZ_other. intros E. apply Nk. apply (bump_other k i (m_mark st (i mod cap)) E); [|rewrite <- E]; lia. }
    assert (I1 : MInv st1).
    { destruct I. constructor; try assumption.
      - intros q pcq E. change (m_thr st1 q) with (m_thr st q) in E. specialize (mv_pc0 q pcq E). destruct pcq; try exact mv_pc0. cbn [pc_ok] in *.
        destruct mv_pc0 as (A & B & C0 & D). rewrite Hsl; auto.
        intros ->. assert (q = p) by (apply (side_uniq st q p _ _ i mv_w0 E Epc); reflexivity). subst q. congruence.
      - intros k Hk Hm. change (m_mark st1) with (m_mark st) in Hm. rewrite Hsl; [exact (mv_data0 k Hk Hm) | right; exact Hm | intros ->; lia].
      - apply (side_keep st st1 p); try assumption; try reflexivity; intros; reflexivity.
      - apply (side_keep st st1 p); try assumption; try reflexivity; intros; reflexivity. }
    apply (inv_goto st1 p (MPushWr snd v i i)); try reflexivity; try assumption.
    cbn [pc_ok]. repeat split; try apply WHp; try assumption. apply updZ_same.
  Qed.

  Lemma inv_publish st p snd v i :
    MInv st -> t_pc (m_thr st p) = Some (MPushStM snd v i i) ->
    MInv (m_finish (m_set_mark st (i mod cap) (2 * (i / cap) + 1)) p (if snd then RSent i v else RPushOk i v)).
  Proof.
    intros [] Epc.
    pose proof (mv_pc0 p _ Epc) as Kp. cbn [pc_ok] in Kp. destruct Kp as (_ & (Hi & Hv & Hwho & Hlt) & Hmp & Hsp).
    set (r := if snd then RSent i v else RPushOk i v).
    replace (2 * (i / cap) + 1) with (m_mark st (i mod cap) + 1) by lia. set (st' := m_finish _ p r).
    assert (Hoth : forall q, q <> p -> m_thr st' q = m_thr st q) by (intros q N; apply upd_other; exact N).
    assert (Hthp : m_thr st' p = thr_finish mpmc_entry (m_thr st p) r) by apply upd_same.
    destruct (finish_held (m_thr st p) r) as [Fw Fr].
    assert (Hmk : forall k, m_mark st' k = updZ (m_mark st) (i mod cap) (m_mark st (i mod cap) + 1) k) by reflexivity.
    constructor; try assumption.
    - intros q pcq E. destruct (Nat.eq_dec q p) as [->|N].
      + rewrite Hthp in E. apply thr_finish_pc in E. destruct E as (o & _ & _ & ->). apply entry_ok.
      + rewrite Hoth in E by exact N. apply (pc_ok_bump st p r q pcq i 0); try lia; [|apply mv_pc0; exact E].
        intros _ H. apply N. apply (side_uniq st q p _ _ i mv_w0 E Epc H). reflexivity.
    - intros k Hk Hm. rewrite Hmk in Hm. unfold updZ in Hm. destruct (Z.eqb_spec (k mod cap) (i mod cap)) as [E|NE].
      + assert (k = i) by (apply (same_slot_eq cap k i (cfg_cap_gt0 c Hc) E); lia). subst k. exact (eq_trans Hsp (eq_sym Hv)).
      + apply mv_data0; assumption.
    - apply (side_bump st st' p i (m_mark st (i mod cap) + 1) [(i, m_gval st i)] Hoth); try reflexivity; try assumption; cbn beta; try lia.
      + unfold held. rewrite Hthp. exact Fw.
      + unfold items, chron. rewrite Hthp, finish_res, flat_map_snoc, Hv. unfold r. destruct snd; reflexivity.
      + right. unfold held. rewrite Epc. repeat split; try assumption; try lia.
      + intros k E Nk Hold. unfold held in Nk. rewrite Epc in Nk. cbn in Nk.
        assert (k / cap <> i / cap) by (intros D; apply Nk; f_equal; symmetry; apply (same_slot_eq cap k i (cfg_cap_gt0 c Hc) E D)). lia.
    - apply (side_bump st st' p i (m_mark st (i mod cap) + 1) [] Hoth); try reflexivity; try assumption; cbn beta; try lia.
      + unfold held. rewrite Hthp. exact Fr.
      + unfold items, chron. rewrite Hthp, finish_res, flat_map_snoc. unfold r. destruct snd; reflexivity.
      + left. unfold held. rewrite Epc. split; reflexivity.
  Qed.

  Lemma inv_release st p rcv i v :
    MInv st -> t_pc (m_thr st p) = Some (MPopStM rcv i i v) ->
    MInv (m_finish (m_set_mark st (i mod cap) (2 * (i / cap) + 2)) p (if rcv then RRecv i v else RPopOk i v)).
  Proof.
    intros I Epc. pose proof (mv_pc st I p _ Epc) as Kp. cbn [pc_ok] in Kp. destruct Kp as (_ & (Hi & Hwho & Hlt) & Hmp & Hvp).
    destruct (mark_odd_published st i I ltac:(lia) ltac:(lia)) as [Hilt _].
    destruct I. set (r := if rcv then RRecv i v else RPopOk i v).
    replace (2 * (i / cap) + 2) with (m_mark st (i mod cap) + 1) by lia. set (st' := m_finish _ p r).
    assert (Hoth : forall q, q <> p -> m_thr st' q = m_thr st q) by (intros q N; apply upd_other; exact N).
    assert (Hthp : m_thr st' p = thr_finish mpmc_entry (m_thr st p) r) by apply upd_same.
    destruct (finish_held (m_thr st p) r) as [Fw Fr].
    assert (Hmk : forall k, m_mark st' k = updZ (m_mark st) (i mod cap) (m_mark st (i mod cap) + 1) k) by reflexivity.
    constructor; try assumption.
    - intros q pcq E. destruct (Nat.eq_dec q p) as [->|N].
      + rewrite Hthp in E. apply thr_finish_pc in E. destruct E as (o & _ & _ & ->). apply entry_ok.
      + rewrite Hoth in E by exact N. apply (pc_ok_bump st p r q pcq i 1); try lia; [|apply mv_pc0; exact E].
        intros _ H. apply N. apply (side_uniq st q p _ _ i mv_r0 E Epc H). reflexivity.
    - intros k Hk Hm. rewrite Hmk in Hm. unfold updZ in Hm. destruct (Z.eqb_spec (k mod cap) (i mod cap)) as [E|NE]; [lia|].
      apply mv_data0; assumption.
    - apply (side_bump st st' p i (m_mark st (i mod cap) + 1) [] Hoth); try reflexivity; try assumption; cbn beta; try lia.
      + unfold held. rewrite Hthp. exact Fw.
      + unfold items, chron. rewrite Hthp, finish_res, flat_map_snoc. unfold r. destruct rcv; reflexivity.
      + left. unfold held. rewrite Epc. split; reflexivity.
    - apply (side_bump st st' p i (m_mark st (i mod cap) + 1) [(i, m_gval st i)] Hoth); try reflexivity; try assumption; cbn beta; try lia.
      + unfold held. rewrite Hthp. exact Fr.
      + unfold items, chron. rewrite Hthp, finish_res, flat_map_snoc, <- Hvp. unfold r. destruct rcv; reflexivity.
      + right. unfold held. rewrite Epc. repeat split; try assumption; try lia.
      + intros k E Nk Hold. unfold held in Nk. rewrite Epc in Nk. cbn in Nk.
        assert (k / cap <> i / cap) by (intros D; apply Nk; f_equal; symmetry; apply (same_slot_eq cap k i (cfg_cap_gt0 c Hc) E D)). lia.
  Qed.

  Definition nowrap (st : mstate) : Prop := m_gt st + cap < W64 /\ m_gh st + cap < W64.

  Lemma mpmc_step_inv st p : MInv st -> nowrap (fst (mpmc_step c st p)) -> MInv (fst (mpmc_step c st p)).
  Proof.
    intros I NW. unfold mpmc_step in *. destruct (t_pc (m_thr st p)) as [pc|] eqn:Epc; [|exact I].
    pose proof (mv_pc st I p pc Epc) as K. pose proof (mv_s st I) as Hs0.
    pose proof (mv_head st I) as Hhd. pose proof (mv_tail st I) as Htl.
    destruct (mv_lo st I) as [Hlo1 Hlo2]. destruct (mv_g st I) as [Hg1 Hg2].
    pose proof (cfg_cap_gt0 c Hc : 0 < cap) as Hcp. pose proof (fun pc' => inv_goto st p pc pc' I Epc) as G.
    destruct pc; cbn [pc_ok] in K; cbn [fst]; rewrite ?Htl, ?Hhd in NW |- *.
    - (* MPushLdT *) apply G; try reflexivity. cbn [pc_ok]. rewrite ?Htl. lia.
    - (* MPushLdM *) rewrite idx_mod by exact Hc. fold cap.
      destruct (marks_nowrap t ltac:(lia) ltac:(lia)) as (Em & _ & _). rewrite Em.
      destruct (Z.eqb_spec (m_mark st (t mod cap)) (2 * (t / cap))) as [Eq|Nq]; cbn [fst];
        apply G; try reflexivity; cbn [pc_ok]; [split; [exact K|lia] | exact K].
    - (* MPushCas *) destruct K as [K1 K2]. rewrite ?Htl.
      destruct (Z.eqb_spec (m_gt st) t) as [Eq|Nq]; cbn [fst] in *.
      + subst t. rewrite wrap_small by lia.
        apply (inv_claim_tail st p _ v _ I Epc); try reflexivity.
        * unfold nowrap in NW. cbn [fst m_goto m_claim_tail m_set_thr m_gt m_gh] in NW. lia.
        * left. split; [reflexivity|exact K2].
      + apply G; try reflexivity. cbn [pc_ok]. lia.
    - (* MPushLdH *) apply G; try reflexivity; try exact Logic.I.
    - (* MPushLdT2 *) rewrite ?Htl.
      destruct ((m_gt st =? prev) && check_full c h (m_gt st)); cbn [fst].
      + apply (inv_fail st p _ _ I Epc); reflexivity.
      + apply G; try reflexivity. cbn [pc_ok]. lia.
    - (* MPushWr *) destruct K as (-> & K2 & K3). rewrite idx_mod by exact Hc. apply inv_write; assumption.
    - (* MPushStM *) destruct K as (-> & K2 & K3 & K4). rewrite idx_mod by exact Hc. fold cap.
      assert (Hi : s <= i < m_gt st) by (destruct K2; assumption).
      destruct (marks_nowrap i ltac:(lia) ltac:(lia)) as (_ & Em & _). rewrite Em. apply inv_publish; assumption.
    - (* MPopLdH *) apply G; try reflexivity. cbn [pc_ok]. rewrite ?Hhd. lia.
    - (* MPopLdM *) rewrite idx_mod by exact Hc. fold cap.
      destruct (marks_nowrap h ltac:(lia) ltac:(lia)) as (_ & Em & _). rewrite Em.
      destruct (Z.eqb_spec (m_mark st (h mod cap)) (2 * (h / cap) + 1)) as [Eq|Nq]; cbn [fst];
        apply G; try reflexivity; cbn [pc_ok]; [split; [exact K|lia] | exact K].
    - (* MPopCas *) destruct K as [K1 K2]. rewrite ?Hhd.
      destruct (Z.eqb_spec (m_gh st) h) as [Eq|Nq]; cbn [fst] in *.
      + subst h. rewrite wrap_small by lia.
        apply (inv_claim_head st p _ _ I Epc); try reflexivity.
        * unfold nowrap in NW. cbn [fst m_goto m_claim_head m_set_thr m_gt m_gh] in NW. lia.
        * left. split; [reflexivity|exact K2].
      + apply G; try reflexivity. cbn [pc_ok]. lia.
    - (* MPopLdT *) apply G; try reflexivity; try exact Logic.I.
    - (* MPopLdH2 *) rewrite ?Hhd.
      destruct ((m_gh st =? prev) && check_empty (m_gh st) t); cbn [fst].
      + apply (inv_fail st p _ _ I Epc); reflexivity.
      + apply G; try reflexivity. cbn [pc_ok]. lia.
    - (* MPopRd *) destruct K as (-> & K2 & K3). rewrite idx_mod by exact Hc. fold cap.
      apply G; try reflexivity. cbn [pc_ok]. split; [reflexivity|]. split; [exact K2|]. split; [exact K3|].
      assert (Hi : s <= i) by (destruct K2; lia).
      destruct (mark_odd_published st i I Hi ltac:(lia)) as [Hlt _].
      apply (mv_data st I i); [lia|exact K3].
    - (* MPopStM *) destruct K as (-> & K2 & K3 & K4). rewrite idx_mod by exact Hc. fold cap.
      assert (Hi : s <= i < m_gh st) by (destruct K2; assumption).
      destruct (marks_nowrap i ltac:(lia) ltac:(lia)) as (_ & _ & Em). rewrite Em. apply inv_release; assumption.
    - (* MSendFa *) rewrite ?Htl. rewrite wrap_small by lia.
      apply (inv_claim_tail st p _ v _ I Epc); try reflexivity.
      + unfold nowrap in NW. cbn [fst m_goto m_claim_tail m_set_thr m_gt m_gh] in NW. lia.
      + right. reflexivity.
    - (* MSendLdM *) destruct K as [-> K2]. rewrite idx_mod by exact Hc. fold cap.
      assert (Hi : s <= i < m_gt st) by (destruct K2; assumption).
      destruct (marks_nowrap i ltac:(lia) ltac:(lia)) as (Em & _ & _). rewrite Em.
      destruct (Z.eqb_spec (m_mark st (i mod cap)) (2 * (i / cap))) as [Eq|Nq]; cbn [fst];
        apply G; try reflexivity; cbn [pc_ok]; auto.
    - (* MSendSp *) apply G; try reflexivity. exact K.
    - (* MRecvFa *) rewrite ?Hhd. rewrite wrap_small by lia.
      apply (inv_claim_head st p _ _ I Epc); try reflexivity.
      + unfold nowrap in NW. cbn [fst m_goto m_claim_head m_set_thr m_gt m_gh] in NW. lia.
      + right. reflexivity.
    - (* MRecvLdM *) destruct K as [-> K2]. rewrite idx_mod by exact Hc. fold cap.
      assert (Hi : s <= i < m_gh st) by (destruct K2; assumption).
      destruct (marks_nowrap i ltac:(lia) ltac:(lia)) as (_ & Em & _). rewrite Em.
      destruct (Z.eqb_spec (m_mark st (i mod cap)) (2 * (i / cap) + 1)) as [Eq|Nq]; cbn [fst];
        apply G; try reflexivity; cbn [pc_ok]; auto.
    - (* MRecvSp *) apply G; try reflexivity. exact K.
  Qed.

  Lemma init_mark_le i : 0 <= s -> s + cap < W64 -> s <= i -> init_mark c s (i mod cap) <= 2 * (i / cap).
  Proof.
    intros H0 HW Hi. pose proof (cfg_cap_gt0 c Hc : 0 < cap) as Hp. pose proof (cfg_cap_pos c Hc) as H2. fold cap in H2.
    unfold init_mark. rewrite idx_mod by exact Hc. fold cap.
    set (q := s / cap). set (r := s mod cap).
    assert (Es : s = cap * q + r) by (apply Z.div_mod; lia).
    assert (Hr : 0 <= r < cap) by (apply Z.mod_pos_bound; lia).
    set (j := i mod cap). assert (Hj : 0 <= j < cap) by (apply Z.mod_pos_bound; lia).
    assert (Ei : i = cap * (i / cap) + j) by (apply Z.div_mod; lia).
    assert (Hq : 0 <= q) by (apply Z.div_pos; lia).
    replace (s - r) with (cap * q) by lia.
    assert (Hqi : q <= i / cap) by (apply Z.div_le_mono; lia).
    assert (Hnx : forall n, 0 <= n -> n < W64 -> last_turn_read c n = 2 * (n / cap)).
    { intros n Hn HnW. unfold last_turn_read. rewrite turn_div by exact Hc. fold cap. rewrite Z.shiftl_mul_pow2 by lia. change (2 ^ 1) with 2.
      assert (0 <= n / cap) by (apply Z.div_pos; lia).
      assert (2 * (n / cap) <= n) by (pose proof (Z.mul_div_le n cap Hp); nia).
      rewrite wrap_small by lia. lia. }
    destruct (Z.ltb_spec j r) as [Hlt|Hge].
    - rewrite Hnx by nia.
      assert (X : (cap * q + j + cap) / cap = q + 1) by (symmetry; apply (Z.div_unique _ _ _ j); [left; lia | ring]). rewrite X.
      assert (q < i / cap).
      { destruct (Z.eq_dec q (i / cap)) as [Eq|Nq]; [|lia]. rewrite <- Eq in Ei. lia. }
      lia.
    - rewrite Hnx by nia.
      assert (X : (cap * q + j) / cap = q) by (symmetry; apply (Z.div_unique _ _ _ j); [left; lia | ring]). rewrite X.
      lia.
  Qed.

  Lemma init_entry scripts p pc : t_pc (m_thr (mpmc_init c s scripts) p) = Some pc -> exists o, pc = mpmc_entry o.
  Proof. intros E. apply thr_init_pc in E. destruct E as (o & _ & _ & ->). eauto. Qed.

  Lemma init_inv scripts : 0 <= s -> s + cap < W64 -> MInv (mpmc_init c s scripts).
  Proof.
    intros H0 HW. pose proof (cfg_cap_gt0 c Hc : 0 < cap) as Hp. pose proof (init_entry scripts) as Hnp.
    assert (Hres : forall p, chron (mpmc_init c s scripts) p = []).
    { intros p. unfold chron. cbn [mpmc_init m_thr]. rewrite thr_init_res. reflexivity. }
    assert (Hnh : forall hold, (forall o, hold (mpmc_entry o) = None) -> forall p, held hold (mpmc_init c s scripts) p = None).
    { intros hold Hh p. unfold held. destruct (t_pc _) as [pc|] eqn:E; [|reflexivity]. destruct (Hnp p pc E) as [o ->]. apply Hh. }
    constructor; cbn [mpmc_init m_head m_tail m_gh m_gt m_mark m_slot m_gval]; try lia.
    - apply wrap_small. lia.
    - apply wrap_small. lia.
    - intros p pc E. destruct (Hnp p pc E) as [o ->]. apply entry_ok.
    - apply side_init; [apply Hnh; intros o; apply entry_nohold | intros p; unfold items; rewrite Hres; reflexivity | reflexivity |].
      intros i Hi. apply init_mark_le; assumption.
    - apply side_init; [apply Hnh; intros o; apply entry_nohold | intros p; unfold items; rewrite Hres; reflexivity | reflexivity |].
      intros i Hi. pose proof (init_mark_le i H0 HW Hi). cbn [mpmc_init m_mark]. lia.
  Qed.

  (* reachability: ANY sequence of participant choices *)
  Inductive mreach (st0 : mstate) : mstate -> Prop :=
  | mreach0 : mreach st0 st0
  | mreachS st p : mreach st0 st -> mreach st0 (fst (mpmc_step c st p)).

  (* the claim counters and the ghost values change at the two CASes and the two fetch_adds only *)
  Lemma step_claims st p (st' := fst (mpmc_step c st p)) :
    m_gt st' = m_gt st /\ m_gh st' = m_gh st /\ m_gval st' = m_gval st \/
    (exists v, (t_pc (m_thr st p) = Some (MPushCas v (m_tail st)) \/ t_pc (m_thr st p) = Some (MSendFa v)) /\
               m_gt st' = m_gt st + 1 /\ m_gh st' = m_gh st /\ m_gval st' = updZ (m_gval st) (m_gt st) v) \/
    (t_pc (m_thr st p) = Some (MPopCas (m_head st)) \/ t_pc (m_thr st p) = Some MRecvFa) /\
    m_gt st' = m_gt st /\ m_gh st' = m_gh st + 1 /\ m_gval st' = m_gval st.
  Proof.
    subst st'. unfold mpmc_step. destruct (t_pc (m_thr st p)) as [pc|]; [|left; auto].
    destruct pc; cbn [fst]; try (left; repeat split; reflexivity).
    - destruct (Z.eqb_spec (m_tail st) t) as [<-|]; [right; left; exists v|left]; auto 6.
    - destruct ((m_tail st =? prev) && check_full c h (m_tail st)); left; auto.
    - destruct (Z.eqb_spec (m_head st) h) as [<-|]; [right; right|left]; auto 6.
    - destruct ((m_head st =? prev) && check_empty (m_head st) t); left; auto.
    - right; left. exists v. auto 6.
    - right; right. auto 6.
  Qed.

  Lemma step_mono st p : m_gt st <= m_gt (fst (mpmc_step c st p)) /\ m_gh st <= m_gh (fst (mpmc_step c st p)).
  Proof. destruct (step_claims st p) as [(A & B & _)|[(v & _ & A & B & _)|(_ & A & B & _)]]; lia. Qed.

  Lemma nowrap_step st p : nowrap (fst (mpmc_step c st p)) -> nowrap st.
  Proof. destruct (step_mono st p). unfold nowrap. lia. Qed.

  Lemma mreach_inv scripts st : 0 <= s -> mreach (mpmc_init c s scripts) st -> nowrap st -> MInv st.
  Proof.
    intros H0 R. induction R as [|st p R IH]; intros NW.
    - apply init_inv; [exact H0|]. destruct NW as [A _]. exact A.
    - apply mpmc_step_inv; [|exact NW]. apply IH. exact (nowrap_step st p NW).
  Qed.

  (* element i is stored: published by its producer and not yet released by a consumer *)
  Definition stored (st : mstate) (i : Z) : Prop :=
    s <= i < m_gt st /\ wfree st i /\ (m_gh st <= i \/ rbusy st i).

  (* bounded / no overwrite: a stored element sits intact in its slot under its own turn mark *)
  Lemma stored_intact st i : MInv st -> stored st i ->
    m_mark st (i mod cap) = 2 * (i / cap) + 1 /\ m_slot st (i mod cap) = m_gval st i.
  Proof.
    intros I (A & B & C0).
    assert (L : 2 * (i / cap) + 1 <= m_mark st (i mod cap)).
    { apply (sd_pub (mv_w st I) i A). intros p Hp. apply held_pc in Hp. destruct Hp as (pc & E & H). exact (B p pc E H). }
    assert (U : m_mark st (i mod cap) <= 2 * (i / cap) + 1).
    { apply (sd_unp (mv_r st I) i); [lia|]. destruct C0 as [G|(p & pc & E & H)]; [left; exact G|].
      right. exists p. apply held_pc. eauto. }
    assert (E : m_mark st (i mod cap) = 2 * (i / cap) + 1) by lia.
    split; [exact E | apply (mv_data st I i A E)].
  Qed.
End MPMC.

Example mpmc_reach_ex :
  let c := cfg_of 2 in
  let st0 := mpmc_init c 5 [[OPush 7; OSend 8]; [OPop; ORecv]] in
  let st := fst (mpmc_step c (fst (mpmc_step c (fst (mpmc_step c (fst (mpmc_step c st0 0%nat)) 0%nat)) 0%nat)) 1%nat) in
  mreach c st0 st /\ nowrap c st /\ m_gt st = 6.
Proof. cbv zeta. split; [repeat constructor | vm_compute; repeat split; reflexivity]. Qed.
