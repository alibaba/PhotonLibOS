(* C07_Arith.v — arithmetic facts about the ring index functions of C07_Model.v *)
From Coq Require Import ZArith Znumtheory Lia List Bool.
From PV Require Import Base.U64 C07.C07_Model.
Local Open Scope Z_scope.

(* a configuration the constructor can produce: capacity 2^k, 1 <= k <= 63, shift = k *)
Definition cfg_ok (c : cfg) : Prop := 1 <= c_shift c <= 63 /\ c_cap c = 2 ^ (c_shift c).

Lemma cfg_cap_pos c : cfg_ok c -> 2 <= c_cap c.
Proof.
  intros [Hk Hc]. rewrite Hc.
  replace 2 with (2 ^ 1) at 1 by reflexivity. apply Z.pow_le_mono_r; lia.
Qed.

Lemma cfg_cap_gt0 c : cfg_ok c -> 0 < c_cap c.
Proof. intros H. pose proof (cfg_cap_pos c H). lia. Qed.

Lemma cfg_cap_W c : cfg_ok c -> W64 = c_cap c * 2 ^ (lshift c).
Proof.
  intros [Hk Hc]. unfold lshift. rewrite Hc, <- Z.pow_add_r by lia.
  replace (c_shift c + (64 - c_shift c)) with 64 by lia. reflexivity.
Qed.

Lemma cfg_cap_lt_W c : cfg_ok c -> c_cap c < W64.
Proof.
  intros H. destruct H as [Hk Hc]. rewrite Hc. rewrite W64_eq.
  apply Z.pow_lt_mono_r; lia.
Qed.

Lemma cfg_cap_div_W c : cfg_ok c -> (c_cap c | W64).
Proof. intros H. exists (2 ^ lshift c). rewrite (cfg_cap_W c H). lia. Qed.

Lemma idx_mod c x : cfg_ok c -> idx c x = x mod c_cap c.
Proof.
  intros [Hk Hc]. unfold idx, mask. rewrite Hc.
  replace (2 ^ c_shift c - 1) with (Z.ones (c_shift c)) by (rewrite Z.ones_equiv; lia).
  apply Z.land_ones. lia.
Qed.

Lemma turn_div c x : cfg_ok c -> turn c x = x / c_cap c.
Proof. intros [Hk Hc]. unfold turn. rewrite Hc. apply Z.shiftr_div_pow2. lia. Qed.

Lemma wrap_mod_cap c x : cfg_ok c -> (wrap x) mod c_cap c = x mod c_cap c.
Proof.
  intros H. unfold wrap. symmetry. apply Zmod_div_mod.
  - pose proof (cfg_cap_pos c H). lia.
  - exact W64_pos.
  - apply cfg_cap_div_W; exact H.
Qed.

Lemma idx_wrap c x : cfg_ok c -> idx c (wrap x) = x mod c_cap c.
Proof. intros H. rewrite idx_mod by exact H. apply wrap_mod_cap; exact H. Qed.

Lemma idx_range c x : cfg_ok c -> 0 <= idx c x < c_cap c.
Proof. intros H. rewrite idx_mod by exact H. apply Z.mod_pos_bound. pose proof (cfg_cap_pos c H). lia. Qed.

Lemma mask_equal_spec c x y : cfg_ok c ->
  mask_equal c x y = true <-> x mod c_cap c = y mod c_cap c.
Proof.
  intros H. unfold mask_equal. rewrite Z.eqb_eq. unfold wrap.
  assert (Hl : 0 <= lshift c) by (destruct H; unfold lshift; lia).
  rewrite !Z.shiftl_mul_pow2 by exact Hl.
  rewrite (cfg_cap_W c H).
  assert (Hp : 0 < 2 ^ lshift c) by (apply Z.pow_pos_nonneg; lia).
  pose proof (cfg_cap_pos c H) as Hc.
  rewrite !Z.mul_mod_distr_r by lia.
  split; intros E.
  - apply Z.mul_cancel_r in E; lia.
  - rewrite E. reflexivity.
Qed.

(* two indices mapped to the same slot *)
Lemma same_slot_eq c i j : 0 < c -> i mod c = j mod c -> i / c = j / c -> i = j.
Proof.
  intros Hc E D.
  pose proof (Z.div_mod i c ltac:(lia)). pose proof (Z.div_mod j c ltac:(lia)). rewrite D, E in *. lia.
Qed.

Lemma mod_eq_diff c a b : 0 < c -> a mod c = b mod c <-> (a - b) mod c = 0.
Proof.
  intros Hc. split; intros E.
  - rewrite Zminus_mod, E, Z.sub_diag. apply Z.mod_0_l. lia.
  - replace a with (b + (a - b)) by lia. rewrite Zplus_mod, E, Z.add_0_r, Z.mod_mod; lia.
Qed.

Lemma slot_ne_of_close c i j : 0 < c -> i < j < i + c -> i mod c <> j mod c.
Proof.
  intros Hc R E. symmetry in E. apply (proj1 (mod_eq_diff c j i Hc)) in E. rewrite Z.mod_small in E by lia. lia.
Qed.

Lemma mod_eq_close c a b : 0 <= b - a < c -> a mod c = b mod c -> a = b.
Proof. intros R E. destruct (Z.eq_dec a b) as [|N]; [assumption|]. exfalso. apply (slot_ne_of_close c a b); lia. Qed.

(* full / empty tests on wrapped indices, in terms of the ghost absolute indices *)
Lemma check_empty_wrap c gh gt : cfg_ok c -> 0 <= gt - gh <= c_cap c ->
  check_empty (wrap gh) (wrap gt) = true <-> gt = gh.
Proof.
  intros H Hr. unfold check_empty, wrap. rewrite Z.eqb_eq. pose proof (cfg_cap_lt_W c H).
  split; [intros E; symmetry; apply (mod_eq_close W64); [lia | exact E] | intros ->; reflexivity].
Qed.

Lemma check_full_wrap c gh gt : cfg_ok c -> 0 <= gt - gh <= c_cap c ->
  check_full c (wrap gh) (wrap gt) = true <-> gt - gh = c_cap c.
Proof.
  intros H Hr. unfold check_full. rewrite andb_true_iff, negb_true_iff.
  pose proof (cfg_cap_pos c H) as Hc.
  assert (E0 : (wrap gh =? wrap gt) = false <-> gt <> gh).
  { rewrite <- not_true_iff_false. pose proof (check_empty_wrap c gh gt H Hr) as Q.
    unfold check_empty in Q. rewrite Q. tauto. }
  rewrite E0, mask_equal_spec, !wrap_mod_cap by exact H.
  split.
  - intros [Hne Hm]. destruct (Z.eq_dec (gt - gh) (c_cap c)) as [|N]; [assumption|].
    exfalso. apply Hne. symmetry. apply (mod_eq_close (c_cap c)); [lia | exact Hm].
  - intros E. split; [lia|]. replace gt with (gh + 1 * c_cap c) by lia. symmetry. apply Z_mod_plus_full.
Qed.

(* u64 differences of in-range ghost indices *)
Lemma wrap_diff gh gt : 0 <= gt - gh < W64 -> wrap (wrap gt - wrap gh) = gt - gh.
Proof.
  intros Hr. unfold wrap. rewrite <- Zminus_mod. apply Z.mod_small. exact Hr.
Qed.

Lemma wrap_add_wrap x n : wrap (wrap x + n) = wrap (x + n).
Proof. unfold wrap. rewrite Zplus_mod_idemp_l. reflexivity. Qed.
