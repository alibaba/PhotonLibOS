(* C20_Properties.v — the property theorems of C20, each derived from the general lemmas of
   C20_Proofs.v and C20_Compose.v.
   Scope assumptions carried by the statements: the sub-filesystem was created with a NON-EMPTY base
   (an empty base is "default relative path": PathCat passes everything through unvalidated, by
   design) of fewer than 2^32 bytes.  Confinement is lexical. *)
From Coq Require Import ZArith List Lia.
From PV Require Import C20.C20_Model C20.C20_Proofs C20.C20_Compose.
Import ListNotations.
Local Open Scope Z_scope.

(* Whatever PathCat forwards is base ++ path (base with its trailing '/'), every prefix of the
   path's component list has depth >= 0, and the lexical resolution of the forwarded string is
   the resolution of the base followed by ordinary names only. *)
Theorem no_escape : forall st base fs path fwd,
  base <> [] -> slen base < 4294967296 ->
  subfs_init st base = InitOk fs ->
  pathcat fs path = PcOk (PStr fwd) ->
    fwd = base_path fs ++ path
    /\ (base_path fs = base \/ base_path fs = base ++ [SLASH])
    /\ slen fwd < PATH_MAX - 2
    /\ (forall k, 0 <= depth (firstn k (components path)))
    /\ is_abs fwd = is_abs base
    /\ exists below, Forall proper below /\ resolve fwd = resolve base ++ below
                     /\ Z.of_nat (length below) = depth (components path).
Proof.
  intros st base fs path fwd Hne Hlen Hinit Hpc.
  pose proof (init_base_nonempty _ _ _ Hne Hlen Hinit) as Hb.
  destruct (pathcat_accept_inv _ _ _ Hb Hpc) as [[Hl Hd] ->].
  destruct (init_base _ _ _ Hne Hlen Hinit) as (_ & Hor & _).
  destruct (init_confines _ _ _ path Hne Hlen Hinit Hd) as [Habs Hres].
  rewrite slen_app. unfold base_path_len in Hl. repeat split; [assumption|lia|assumption..].
Qed.
Print Assumptions no_escape.

(* ... and no intermediate step of the resolution leaves the base either. *)
Theorem no_escape_every_prefix : forall st base fs path fwd k,
  base <> [] -> slen base < 4294967296 ->
  subfs_init st base = InitOk fs ->
  pathcat fs path = PcOk (PStr fwd) ->
  exists below, Forall proper below /\
    rev (resolve_from (is_abs base) [] (components base ++ firstn k (components path)))
    = resolve base ++ below.
Proof.
  intros st base fs path fwd k Hne Hlen Hinit Hpc.
  destruct (pathcat_accept_inv fs path fwd) as [[_ Hd] _];
    [eapply init_base_nonempty; eassumption|exact Hpc|].
  destruct (resolve_below (is_abs base) (components base) (firstn k (components path)))
    as (below & H1 & H2 & _).
  - pose proof (components_nonempty path) as H. rewrite <- (firstn_skipn k) in H.
    apply Forall_app in H. apply H.
  - apply stays_inside_firstn, stays_inside_iff, Hd.
  - exists below. split; [exact H1|exact H2].
Qed.
Print Assumptions no_escape_every_prefix.

(* Conversely: a path within the length limit whose every component prefix stays at or below
   the base is accepted and forwarded unchanged apart from the base prefix. *)
Theorem accepts_legal : forall fs path,
  base_path fs <> [] ->
  slen path + base_path_len fs < PATH_MAX - 2 ->
  (forall k, 0 <= depth (firstn k (components path))) ->
  pathcat fs path = PcOk (PStr (base_path fs ++ path)).
Proof.
  intros fs path Hb Hl Hd. rewrite pathcat_spec, fwd_of_legal by (assumption || split; assumption).
  reflexivity.
Qed.
Print Assumptions accepts_legal.

(* Everything else is rejected (nullptr forwarded); PathCat never hits the model's error values
   (loop fuel, int overflow of the level counter). *)
Theorem rejects_illegal : forall fs path,
  base_path fs <> [] -> ~ legal fs path -> pathcat fs path = PcOk PNull.
Proof.
  intros fs path Hb N. rewrite pathcat_spec by assumption.
  destruct (fwd_of_cases fs path) as [[L _]|[_ ->]]; [contradiction|reflexivity].
Qed.
Print Assumptions rejects_illegal.

Theorem pathcat_never_stuck : forall fs path, exists a, pathcat fs path = PcOk a.
Proof.
  intros fs path. destruct (base_path fs) eqn:E; eexists.
  - apply pathcat_empty_base. exact E.
  - apply pathcat_spec. congruence.
Qed.
Print Assumptions pathcat_never_stuck.

(* Every path-taking operation (32 of them, xattr and two-path ones included): the underlay is
   called with the same operation, and each path argument that PathCat guards is either nullptr or
   confined.  symlink guards only `newname`; `oldname` (the link's content) is passed as is. *)
Theorem all_ops_confined : forall st xa base fs o p1 p2,
  base <> [] -> slen base < 4294967296 -> subfs_init st base = InitOk fs ->
  match run_op xa fs o p1 p2 with
  | CallError _ => False
  | NoCall => op_kind o = OneXattr /\ xa = false
  | Call o' args =>
    o' = o /\
    match op_kind o with
    | TwoBoth => exists a1 a2, args = [a1; a2] /\ confined_arg fs base p1 a1 /\ confined_arg fs base p2 a2
    | TwoNew => exists a2, args = [PStr p1; a2] /\ confined_arg fs base p2 a2
    | _ => exists a1, args = [a1] /\ confined_arg fs base p1 a1
    end
  end.
Proof.
  intros st xa base fs o p1 p2 Hne Hlen Hinit.
  rewrite run_op_spec by (eapply init_base_nonempty; eassumption).
  pose proof (fwd_of_confined st base fs p1 Hne Hlen Hinit) as C1.
  pose proof (fwd_of_confined st base fs p2 Hne Hlen Hinit) as C2.
  destruct (op_kind o); [| | |destruct xa]; try (split; [reflexivity|]); eauto.
Qed.
Print Assumptions all_ops_confined.

Theorem all_ops_accept_legal : forall xa fs o p1 p2,
  base_path fs <> [] ->
  (op_kind o <> TwoNew -> legal fs p1) ->
  (op_kind o = TwoBoth \/ op_kind o = TwoNew -> legal fs p2) ->
  (op_kind o = OneXattr -> xa = true) ->
  run_op xa fs o p1 p2 =
    match op_kind o with
    | TwoBoth => Call o [PStr (base_path fs ++ p1); PStr (base_path fs ++ p2)]
    | TwoNew => Call o [PStr p1; PStr (base_path fs ++ p2)]
    | _ => Call o [PStr (base_path fs ++ p1)]
    end.
Proof.
  intros xa fs o p1 p2 Hb H1 H2 Hx. rewrite run_op_spec by assumption.
  destruct (op_kind o) eqn:E.
  - rewrite fwd_of_legal by (apply H1; discriminate). reflexivity.
  - rewrite !fwd_of_legal by (apply H1 || apply H2; auto; discriminate). reflexivity.
  - rewrite fwd_of_legal by (apply H2; auto). reflexivity.
  - rewrite (Hx eq_refl), fwd_of_legal by (apply H1; discriminate). reflexivity.
Qed.
Print Assumptions all_ops_accept_legal.

(* Path::level_valid itself, for every string shorter than 2^31 bytes: it terminates, the int
   counter does not overflow, and it answers exactly "no component prefix goes below 0". *)
Theorem level_valid_total : forall path, slen path <= INT_MAX ->
  (level_valid path = LvTrue /\ (forall k, 0 <= depth (firstn k (components path)))) \/
  (level_valid path = LvFalse /\ exists k, depth (firstn k (components path)) < 0).
Proof.
  intros path Hl. rewrite level_valid_spec by assumption.
  pose proof (stays_inside_spec (components path)) as H.
  destruct (stays_inside (components path)); [left|right]; (split; [reflexivity|exact H]).
Qed.
Print Assumptions level_valid_total.

(* Finding F1 (repaired by repo_patches/C20-fix-level-valid.diff): the pre-fix validator refused
   legal paths — witness "a/.." — while the repaired one accepts them. *)
Theorem accepts_legal_prefix_refuted :
  exists path, slen path < 10 /\ (forall k, 0 <= depth (firstn k (components path))) /\
               level_valid_prefix path = LvFalse /\ level_valid path = LvTrue.
Proof.
  exists [97; 47; 46; 46]. repeat split. apply stays_inside_iff. reflexivity.
Qed.
Print Assumptions accepts_legal_prefix_refuted.

(* The pre-fix validator was safe (never accepted an escaping path); the repair only accepts more. *)
Theorem prefix_was_safe : forall path,
  level_valid_prefix path = LvTrue ->
  (forall k, 0 <= depth (firstn k (components path))) /\
  (slen path <= INT_MAX -> level_valid path = LvTrue).
Proof.
  intros path H. apply level_valid_prefix_sound in H. split.
  - apply stays_inside_iff. exact H.
  - intros Hl. rewrite level_valid_spec, H by assumption. reflexivity.
Qed.
Print Assumptions prefix_was_safe.

(* The Path iterator by itself: iterating yields exactly the non-empty slash-free pieces, in order;
   repeated, leading and trailing slashes yield nothing. *)
Theorem iterator_visits_components : forall p,
  iter_collect (S (length p)) (iter_begin p) = Some (components p) /\
  Forall (fun c => c <> [] /\ Forall (fun x => x <> SLASH) c) (components p) /\
  (forall a b, components (a ++ SLASH :: b) = components a ++ components b) /\
  (forall n, n <> [] -> Forall (fun x => x <> SLASH) n -> components n = [n]).
Proof.
  intros p. split; [apply iter_collect_spec; lia|]. split; [exact (components_pieces p)|split].
  - exact components_app_slash.
  - intros n Hne Hn. rewrite take_name_components, (take_name_no_slash n Hn).
    destruct n; [contradiction|reflexivity].
Qed.
Print Assumptions iterator_visits_components.

(* Neither init nor PathCat writes beyond its PATH_MAX-byte buffer. *)
Theorem buffers_fit : forall st base fs, slen base < 4294967296 ->
  subfs_init st base = InitOk fs ->
  base_path_len fs <= PATH_MAX - 1 /\
  forall path fwd, base_path fs <> [] -> pathcat fs path = PcOk (PStr fwd) -> slen fwd + 1 <= PATH_MAX - 2.
Proof.
  intros st base fs Hlen Hinit. unfold base_path_len. split.
  - destruct base as [|c0 b0] eqn:Eb; [injection Hinit as <-; unfold PATH_MAX; cbn; lia|]. rewrite <- Eb in *.
    destruct (init_base st base fs) as (Hle & [-> | ->] & _); [congruence|assumption..|lia|].
    rewrite slen_app. change (slen [SLASH]) with 1. lia.
  - intros path fwd Hb Hpc. destruct (pathcat_accept_inv _ _ _ Hb Hpc) as [[Hl _] ->].
    rewrite slen_app. unfold base_path_len in Hl. lia.
Qed.
Print Assumptions buffers_fit.

(* Compositionality of the decision (what a caller that builds paths piecewise relies on): joining two
   paths that PathCat accepts with a '/' is accepted whenever the joined string passes the length
   test, and is forwarded as base ++ joined string ... *)
Theorem accepted_paths_compose : forall fs p1 p2 f1 f2,
  base_path fs <> [] ->
  pathcat fs p1 = PcOk (PStr f1) -> pathcat fs p2 = PcOk (PStr f2) ->
  slen (p1 ++ SLASH :: p2) + base_path_len fs < PATH_MAX - 2 ->
  pathcat fs (p1 ++ SLASH :: p2) = PcOk (PStr (base_path fs ++ p1 ++ SLASH :: p2)).
Proof.
  intros fs p1 p2 f1 f2 Hb H1 H2 Hlen.
  apply pathcat_accept_inv in H1 as [[_ S1] _], H2 as [[_ S2] _]; try assumption.
  rewrite pathcat_spec by assumption. rewrite fwd_of_legal; [reflexivity|].
  split; [exact Hlen|]. rewrite components_app_slash. apply prefixes_inside_app; assumption.
Qed.
Print Assumptions accepted_paths_compose.

(* ... and, conversely, a path that was refused although it passes the length test (= some prefix of
   it escapes the base) is refused with EVERY continuation: no suffix ("/x/y", "/../..", ...) makes an
   escaping prefix acceptable. *)
Theorem escaping_prefix_never_rescued : forall fs p1 p2,
  base_path fs <> [] ->
  slen p1 + base_path_len fs < PATH_MAX - 2 -> pathcat fs p1 = PcOk PNull ->
  pathcat fs (p1 ++ SLASH :: p2) = PcOk PNull.
Proof.
  intros fs p1 p2 Hb Hlen H. rewrite pathcat_spec in * by assumption.
  destruct (fwd_of_cases fs (p1 ++ SLASH :: p2)) as [[[_ L] _]|[_ ->]]; [|reflexivity].
  rewrite components_app_slash in L.
  rewrite fwd_of_legal in H by (split; [assumption|exact (prefixes_inside_app_l _ _ L)]). discriminate.
Qed.
Print Assumptions escaping_prefix_never_rescued.
