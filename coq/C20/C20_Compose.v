(* C20_Compose.v — how the confinement condition behaves under joining two paths with '/':
   the component lists concatenate, depths add, so prefixes that stay inside compose and a prefix
   that escapes is never rescued by a suffix. *)
From Coq Require Import ZArith List Lia.
From PV Require Import C20.C20_Model C20.C20_Proofs.
Import ListNotations.
Local Open Scope Z_scope.

Lemma depth_app a b : depth (a ++ b) = depth a + depth b.
Proof. induction a as [|c a IH]; cbn [app depth]; lia. Qed.

Lemma prefixes_inside_app a b :
  (forall k, 0 <= depth (firstn k a)) -> (forall k, 0 <= depth (firstn k b)) ->
  forall k, 0 <= depth (firstn k (a ++ b)).
Proof.
  intros Ha Hb k. rewrite firstn_app, depth_app.
  specialize (Ha k). specialize (Hb (k - length a)%nat). lia.
Qed.

Lemma prefixes_inside_app_l a b :
  (forall k, 0 <= depth (firstn k (a ++ b))) -> forall k, 0 <= depth (firstn k a).
Proof.
  intros H k. replace (firstn k a) with (firstn (min k (length a)) (a ++ b)); [apply H|].
  rewrite <- firstn_firstn. f_equal. rewrite firstn_app, firstn_all, Nat.sub_diag. apply app_nil_r.
Qed.

(* the hypotheses of accepted_paths_compose and escaping_prefix_never_rescued (C20_Properties.v) are met by
   ordinary inputs: "a/.." and "x/../y" are accepted and so is
   their join (which dips back to the base in the middle); "a/../.." is refused within the length limit,
   and stays refused when "/b/c" is appended *)
From Coq Require Import String.
Local Open Scope string_scope.
Example compose_hyps :
  let fs := mkSubfs (s "/b/") in
  base_path fs <> [] /\
  pathcat fs (s "a/..") = PcOk (PStr (s "/b/a/..")) /\ pathcat fs (s "x/../y") = PcOk (PStr (s "/b/x/../y")) /\
  slen ((s "a/.." ++ SLASH :: s "x/../y")%list) + base_path_len fs < PATH_MAX - 2 /\
  pathcat fs (s "a/../x/../y") = PcOk (PStr (s "/b/a/../x/../y")) /\
  slen (s "a/../..") + base_path_len fs < PATH_MAX - 2 /\ pathcat fs (s "a/../..") = PcOk PNull /\
  pathcat fs (s "a/../../b/c") = PcOk PNull.
Proof. vm_compute. repeat split; try discriminate; reflexivity. Qed.
