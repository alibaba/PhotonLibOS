(* C20_Proofs.v — the general facts about the sub-filesystem confinement model: the iterator visits
   [components], Path::level_valid decides [stays_inside], PathCat and init as equations, and the
   lexical resolution of a forwarded path.  The file closes with evaluated examples: the unit-test
   paths, and inputs that meet the hypotheses of the property theorems, which are in C20_Properties.v. *)
From Coq Require Import ZArith List Bool Lia.
From PV Require Import C20.C20_Model.
Import ListNotations.
Local Open Scope Z_scope.

Lemma slen_app a b : slen (a ++ b) = slen a + slen b.
Proof. unfold slen. rewrite app_length. lia. Qed.

Lemma str_eqb_eq a b : str_eqb a b = true <-> a = b.
Proof.
  unfold str_eqb. revert b. induction a as [|x a IH]; intros [|y b]; cbn; try (split; [discriminate|congruence]).
  - tauto.
  - specialize (IH b). destruct (Nat.eqb_spec (length a) (length b)) as [Hl|Hl]; cbn in *.
    + destruct (Z.eqb_spec x y) as [->|Hxy]; cbn.
      * rewrite IH. split; [intros ->; reflexivity | intros H; injection H; auto].
      * split; [discriminate | intros H; injection H; intros; contradiction].
    + split; [discriminate | intros H; injection H; intros; subst; contradiction].
Qed.

Lemma is_dot_iff n : is_dot n = true <-> n = [DOT].
Proof. apply str_eqb_eq. Qed.
Lemma is_dotdot_iff n : is_dotdot n = true <-> n = [DOT; DOT].
Proof. apply str_eqb_eq. Qed.

Lemma delta_cases n :
  (n = [DOT] /\ delta n = 0) \/ (n = [DOT; DOT] /\ delta n = -1) \/
  (n <> [DOT] /\ n <> [DOT; DOT] /\ delta n = 1).
Proof.
  unfold delta. destruct (is_dot n) eqn:E1; [|destruct (is_dotdot n) eqn:E2].
  - left. apply is_dot_iff in E1. auto.
  - right; left. apply is_dotdot_iff in E2. auto.
  - right; right. repeat split; [intros H; apply is_dot_iff in H | intros H; apply is_dotdot_iff in H]; congruence.
Qed.

Lemma delta_range n : -1 <= delta n <= 1.
Proof. destruct (delta_cases n) as [[_ H]|[[_ H]|[_ [_ H]]]]; lia. Qed.

Lemma split_nonnil p : split p <> [].
Proof.
  destruct p as [|c p]; cbn; [discriminate|].
  destruct (c =? SLASH); [discriminate|]. destruct (split p); discriminate.
Qed.

Lemma components_slash p : components (SLASH :: p) = components p.
Proof. reflexivity. Qed.

Lemma split_app_slash a b : split (a ++ SLASH :: b) = split a ++ split b.
Proof.
  induction a as [|c a IH]; cbn [app split]; [reflexivity|].
  rewrite IH. destruct (c =? SLASH); [reflexivity|].
  destruct (split a) eqn:E; [exfalso; eapply split_nonnil; eauto | reflexivity].
Qed.

Lemma components_app_slash a b : components (a ++ SLASH :: b) = components a ++ components b.
Proof. unfold components. rewrite split_app_slash, filter_app. reflexivity. Qed.

Lemma components_trailing_slash a : components (a ++ [SLASH]) = components a.
Proof. rewrite components_app_slash. apply app_nil_r. Qed.

Definition no_slash (n : str) : Prop := Forall (fun c => c <> SLASH) n.

Lemma split_no_slash p : Forall no_slash (split p).
Proof.
  induction p as [|c p IH]; cbn [split]; [repeat constructor|].
  destruct (Z.eqb_spec c SLASH); [constructor; [constructor|assumption]|].
  destruct IH; repeat constructor; assumption.
Qed.

Lemma components_pieces p : Forall (fun c => c <> [] /\ no_slash c) (components p).
Proof.
  apply Forall_forall. intros c H. apply filter_In in H as [H Hc]. split; [destruct c; discriminate|].
  exact (proj1 (Forall_forall _ _) (split_no_slash p) c H).
Qed.

Lemma components_nonempty p : Forall (fun c => c <> []) (components p).
Proof. exact (Forall_impl _ (fun c H => proj1 H) (components_pieces p)). Qed.

Lemma components_length p : (length (components p) <= length p)%nat.
Proof.
  unfold components. induction p as [|c p IH]; cbn [split]; [cbn; lia|].
  destruct (c =? SLASH); [cbn; lia|].
  destruct (split p) as [|[|x h] t]; cbn in *; lia.
Qed.

(* one iterator step on the specification side: the name up to the next '/', then the rest *)
Lemma take_name_split p :
  exists t, split p = fst (take_name p) :: t /\ filter nonempty t = components (snd (take_name p)).
Proof.
  induction p as [|c p (t & Hs & Ht)]; cbn [take_name split]; [exists []; auto|].
  destruct (Z.eqb_spec c SLASH) as [->|_]; [exists (split p); auto|].
  destruct (take_name p) as [n r]. rewrite Hs. exists t. auto.
Qed.

Lemma take_name_components p :
  components p = filter nonempty [fst (take_name p)] ++ components (snd (take_name p)).
Proof.
  destruct (take_name_split p) as (t & Hs & <-). unfold components at 1. rewrite Hs.
  cbn [filter]. destruct (nonempty _); reflexivity.
Qed.

Lemma take_name_length p : (length (fst (take_name p)) + length (snd (take_name p)) = length p)%nat.
Proof.
  induction p as [|c p IH]; cbn [take_name]; [reflexivity|].
  destruct (c =? SLASH); [reflexivity|]. destruct (take_name p). cbn in *. lia.
Qed.

Lemma take_name_no_slash n : no_slash n -> take_name n = (n, []).
Proof.
  induction 1 as [|c n Hc _ IH]; cbn [take_name]; [reflexivity|].
  destruct (Z.eqb_spec c SLASH); [contradiction|]. rewrite IH. reflexivity.
Qed.

Lemma skip_slashes_components p : components (skip_slashes p) = components p.
Proof.
  induction p as [|c p IH]; cbn [skip_slashes]; [reflexivity|].
  destruct (Z.eqb_spec c SLASH) as [->|_]; [exact IH|reflexivity].
Qed.

Lemma skip_slashes_length p : (length (skip_slashes p) <= length p)%nat.
Proof.
  induction p as [|c p IH]; cbn [skip_slashes]; [lia|].
  destruct (c =? SLASH); cbn; lia.
Qed.

(* after the slashes are skipped an empty name can only mean the end of the string *)
Lemma take_name_skip_empty p : fst (take_name (skip_slashes p)) = [] -> components p = [].
Proof.
  induction p as [|c p IH]; cbn [skip_slashes]; [reflexivity|].
  destruct (Z.eqb_spec c SLASH) as [->|Hc]; [exact IH|]. cbn [take_name].
  destruct (Z.eqb_spec c SLASH); [contradiction|]. destruct (take_name p); discriminate.
Qed.

Lemma iter_set_components p :
  if iter_at_end (iter_set p) then components p = []
  else components p = it_view (iter_set p) :: components (it_rest (iter_set p))
       /\ (length (it_rest (iter_set p)) < length p)%nat.
Proof.
  assert (E : iter_set p = let (n, r) := take_name (skip_slashes p) in mkIter n r) by (destruct p; reflexivity).
  rewrite E.
  pose proof (take_name_skip_empty p) as H0. pose proof (take_name_components (skip_slashes p)) as Hc.
  pose proof (take_name_length (skip_slashes p)) as Hl. pose proof (skip_slashes_length p).
  rewrite skip_slashes_components in Hc.
  destruct (take_name (skip_slashes p)) as [[|a n] r]; unfold iter_at_end; cbn [it_view it_rest fst snd] in *.
  - auto.
  - split; [exact Hc|]. cbn [length] in Hl. lia.
Qed.

(* the loop as a fold over a component list *)
Section Walk.
  Variable step : Z -> str -> step_result.
  Fixpoint walk (level : Z) (cs : list str) : lvres :=
    match cs with
    | [] => LvTrue
    | c :: cs' =>
      match step level c with
      | ReturnFalse => LvFalse
      | IntOverflow => LvOverflow
      | Continue l' => walk l' cs'
      end
    end.

  Lemma loop_walk fuel : forall p level, (length p < fuel)%nat ->
    level_loop step fuel (iter_set p) level = walk level (components p).
  Proof.
    induction fuel as [|f IH]; intros p level Hf; [lia|].
    pose proof (iter_set_components p) as H.
    cbn [level_loop]. destruct (iter_at_end (iter_set p)).
    - rewrite H. reflexivity.
    - destruct H as [-> Hl]. cbn [walk].
      destruct (step level (it_view (iter_set p))); try reflexivity.
      unfold iter_next. apply IH. lia.
  Qed.

  (* the shape of [level_valid] and [level_valid_prefix]: strlen+1 iterations are enough *)
  Lemma loop_walk_path path :
    level_loop step (S (length path)) (iter_begin path) 0 = walk 0 (components path).
  Proof. apply loop_walk. lia. Qed.
End Walk.

(* On a name other than "." and ".." the repaired body counts one level; the pre-fix body
   counted it only if it began with a dot and was longer than two characters (finding F1). *)
Lemma ordinary_step l n : n <> [] -> n <> [DOT] -> n <> [DOT; DOT] ->
  level_step l n = incr l /\
  (level_step_prefix l n = incr l \/ level_step_prefix l n = Continue l).
Proof.
  intros H0 H1 H2. unfold level_step, level_step_prefix, char_at, slen.
  destruct n as [|a [|b [|c m]]]; [contradiction|cbn [nth length]..].
  - cbn. destruct (Z.eqb_spec a DOT) as [->|]; [congruence|auto].
  - cbn. destruct (Z.eqb_spec a DOT) as [->|], (Z.eqb_spec b DOT) as [->|]; [congruence|auto..].
  - set (size := Z.of_nat _). assert (2 < size) by (unfold size; lia).
    destruct (Z.ltb_spec 0 size), (Z.eqb_spec size 1), (Z.eqb_spec size 2); try lia.
    destruct (a =? DOT); auto.
Qed.

(* the repaired loop body is one step of [stays_inside_from] *)
Lemma level_step_spec l n : n <> [] -> 0 <= l < INT_MAX ->
  level_step l n = if l + delta n <? 0 then ReturnFalse else Continue (l + delta n).
Proof.
  intros Hne Hl. destruct (delta_cases n) as [[-> ->]|[[-> ->]|(H1 & H2 & ->)]].
  - rewrite Z.add_0_r. destruct (Z.ltb_spec l 0); [lia|reflexivity].
  - reflexivity.
  - rewrite (proj1 (ordinary_step l n Hne H1 H2)). unfold incr.
    destruct (Z.ltb_spec INT_MAX (l + 1)), (Z.ltb_spec (l + 1) 0); lia || reflexivity.
Qed.

Lemma level_step_prefix_le l n l2 : 0 <= l ->
  level_step_prefix l n = Continue l2 -> 0 <= l2 <= l + delta n.
Proof.
  intros Hl. destruct (delta_cases n) as [[-> ->]|[[-> ->]|(H1 & H2 & ->)]].
  - intros [= <-]. lia.
  - change (level_step_prefix l [DOT; DOT]) with (if l - 1 <? 0 then ReturnFalse else Continue (l - 1)).
    destruct (Z.ltb_spec (l - 1) 0); [discriminate|]. intros [= <-]. lia.
  - destruct n as [|a m]; [intros [= <-]; lia|].
    destruct (ordinary_step l (a :: m)) as [_ [-> | ->]]; [discriminate|assumption..| |].
    + unfold incr. destruct (INT_MAX <? l + 1); [discriminate|]. intros [= <-]. lia.
    + intros [= <-]. lia.
Qed.

Lemma walk_level_step cs : forall level,
  Forall (fun c => c <> []) cs -> 0 <= level -> level + Z.of_nat (length cs) <= INT_MAX ->
  walk level_step level cs = if stays_inside_from level cs then LvTrue else LvFalse.
Proof.
  induction cs as [|c cs IH]; intros level Hne H0 Hmax; [reflexivity|].
  inversion Hne as [|? ? Hc Hcs]; subst. cbn [length] in Hmax.
  cbn [walk stays_inside_from]. rewrite level_step_spec by (assumption || lia).
  destruct (Z.ltb_spec (level + delta c) 0); [reflexivity|].
  pose proof (delta_range c). apply IH; [assumption|lia..].
Qed.

(* Path::level_valid on any string shorter than 2^31: no fuel exhaustion, no int overflow,
   and the answer is exactly "every component prefix stays at depth >= 0" *)
Lemma level_valid_spec path : slen path <= INT_MAX ->
  level_valid path = if stays_inside (components path) then LvTrue else LvFalse.
Proof.
  intros H. unfold level_valid, stays_inside. rewrite loop_walk_path.
  apply walk_level_step; [apply components_nonempty|lia|].
  pose proof (components_length path). unfold slen in H. unfold str in *. lia.
Qed.

(* pre-fix validator: whatever it accepts the specification accepts (it was safe; it only
   under-counted the depth) *)
Lemma walk_prefix_sound cs : forall l l',
  0 <= l <= l' -> walk level_step_prefix l cs = LvTrue -> stays_inside_from l' cs = true.
Proof.
  induction cs as [|c cs IH]; intros l l' Hle H; [reflexivity|].
  cbn [walk stays_inside_from] in *.
  destruct (level_step_prefix l c) as [l2| |] eqn:E; try discriminate.
  apply level_step_prefix_le in E; [|lia].
  destruct (Z.ltb_spec (l' + delta c) 0); [lia|]. apply (IH l2); [lia|exact H].
Qed.

Lemma level_valid_prefix_sound path :
  level_valid_prefix path = LvTrue -> stays_inside (components path) = true.
Proof. unfold level_valid_prefix. rewrite loop_walk_path. apply walk_prefix_sound. lia. Qed.

Lemma stays_inside_from_spec cs : forall s, 0 <= s ->
  if stays_inside_from s cs then forall k, 0 <= s + depth (firstn k cs)
  else exists k, s + depth (firstn k cs) < 0.
Proof.
  induction cs as [|c cs IH]; intros s Hs; cbn [stays_inside_from].
  - intros k. rewrite firstn_nil. cbn. lia.
  - destruct (Z.ltb_spec (s + delta c) 0) as [Hlt|Hge].
    + exists 1%nat. cbn [firstn depth]. lia.
    + specialize (IH _ Hge). destruct (stays_inside_from (s + delta c) cs).
      * intros [|k]; cbn [firstn depth]; [lia|]. specialize (IH k). lia.
      * destruct IH as [k Hk]. exists (S k). cbn [firstn depth]. lia.
Qed.

Lemma stays_inside_spec cs :
  if stays_inside cs then forall k, 0 <= depth (firstn k cs) else exists k, depth (firstn k cs) < 0.
Proof. exact (stays_inside_from_spec cs 0 (Z.le_refl 0)). Qed.

Lemma stays_inside_iff cs : stays_inside cs = true <-> forall k, 0 <= depth (firstn k cs).
Proof.
  pose proof (stays_inside_spec cs) as H. destruct (stays_inside cs); split; auto; [discriminate|].
  intros Hk. destruct H as [k H]. specialize (Hk k). lia.
Qed.

Lemma stays_inside_firstn cs k : stays_inside cs = true -> stays_inside (firstn k cs) = true.
Proof.
  rewrite !stays_inside_iff. intros H j. rewrite firstn_firstn. apply H.
Qed.

(* a path the property calls legal: within the length limit, every component prefix at depth >= 0 *)
Definition legal (fs : subfs) (path : str) : Prop :=
  slen path + base_path_len fs < PATH_MAX - 2 /\
  forall k, 0 <= depth (firstn k (components path)).

Definition legal_b (fs : subfs) (path : str) : bool :=
  (slen path + base_path_len fs <? PATH_MAX - 2) && stays_inside (components path).
Definition fwd_of (fs : subfs) (path : str) : parg :=
  if legal_b fs path then PStr (base_path fs ++ path) else PNull.

Lemma legal_b_iff fs path : legal_b fs path = true <-> legal fs path.
Proof.
  unfold legal_b, legal. rewrite andb_true_iff, Z.ltb_lt, stays_inside_iff. reflexivity.
Qed.

Lemma fwd_of_cases fs path :
  (legal fs path /\ fwd_of fs path = PStr (base_path fs ++ path)) \/
  (~ legal fs path /\ fwd_of fs path = PNull).
Proof.
  unfold fwd_of. rewrite <- legal_b_iff. destruct (legal_b fs path); [left|right]; split; congruence.
Qed.

Lemma fwd_of_legal fs path : legal fs path -> fwd_of fs path = PStr (base_path fs ++ path).
Proof. intros L. destruct (fwd_of_cases fs path) as [[_ H]|[N _]]; [exact H|contradiction]. Qed.

(* total functional characterisation of PathCat for a confining (non-empty) base *)
Lemma pathcat_spec fs path : base_path fs <> [] -> pathcat fs path = PcOk (fwd_of fs path).
Proof.
  intros Hb. unfold pathcat, fwd_of, legal_b.
  destruct (Z.eqb_spec (base_path_len fs) 0) as [E|_].
  { unfold base_path_len, slen in E. destruct (base_path fs); [contradiction|discriminate]. }
  rewrite Z.leb_antisym.
  destruct (Z.ltb_spec (slen path + base_path_len fs) (PATH_MAX - 2)); [|reflexivity]. cbn [negb andb].
  pose proof (slen_app (base_path fs) path). unfold base_path_len, slen in *.
  rewrite level_valid_spec by (unfold PATH_MAX, INT_MAX, slen in *; lia).
  destruct (stays_inside (components path)); reflexivity.
Qed.

Lemma pathcat_accept_inv fs path fwd : base_path fs <> [] ->
  pathcat fs path = PcOk (PStr fwd) -> legal fs path /\ fwd = base_path fs ++ path.
Proof.
  intros Hb H. rewrite pathcat_spec in H by assumption.
  destruct (fwd_of_cases fs path) as [[L E]|[_ E]]; rewrite E in H; [|discriminate].
  split; [exact L|congruence].
Qed.

Lemma pathcat_empty_base fs path : base_path fs = [] -> pathcat fs path = PcOk (PStr path).
Proof. intros H. unfold pathcat, base_path_len. rewrite H. reflexivity. Qed.

Lemma run_op_spec xa fs o p1 p2 : base_path fs <> [] ->
  run_op xa fs o p1 p2 =
    match op_kind o with
    | OneFs => Call o [fwd_of fs p1]
    | OneXattr => if xa then Call o [fwd_of fs p1] else NoCall
    | TwoBoth => Call o [fwd_of fs p1; fwd_of fs p2]
    | TwoNew => Call o [PStr p1; fwd_of fs p2]
    end.
Proof.
  intros Hb. unfold run_op. rewrite !(pathcat_spec fs _ Hb).
  destruct (op_kind o); destruct xa; reflexivity.
Qed.

Lemma resolve_from_app abs cs1 : forall S cs2,
  resolve_from abs S (cs1 ++ cs2) = resolve_from abs (resolve_from abs S cs1) cs2.
Proof.
  induction cs1 as [|c cs1 IH]; intros S cs2; [reflexivity|].
  cbn [app resolve_from]. destruct (is_dot c); [apply IH|].
  destruct (is_dotdot c); [|apply IH].
  destruct S as [|top rest]; [destruct abs; apply IH|].
  destruct (is_dotdot top); apply IH.
Qed.

(* a proper name: what is pushed on the resolution stack *)
Definition proper (n : str) : Prop := n <> [] /\ is_dot n = false /\ is_dotdot n = false.

(* starting with |T| proper names on top of an arbitrary stack S, a component list that never
   goes below the starting level only ever touches T: S is preserved underneath *)
Lemma resolve_inside abs cs : forall T S lvl,
  Forall proper T -> Forall (fun c => c <> []) cs -> lvl = Z.of_nat (length T) ->
  stays_inside_from lvl cs = true ->
  resolve_from abs (T ++ S) cs = resolve_from abs T cs ++ S /\
  Forall proper (resolve_from abs T cs) /\
  Z.of_nat (length (resolve_from abs T cs)) = lvl + depth cs.
Proof.
  induction cs as [|c cs IH]; intros T S lvl HT Hne Hlvl Hin.
  - cbn. repeat split; [assumption|lia].
  - apply Forall_cons_iff in Hne as [Hc Hcs]. cbn [stays_inside_from resolve_from depth] in *.
    destruct (Z.ltb_spec (lvl + delta c) 0) as [|Hl]; [discriminate|]. rewrite Z.add_assoc.
    unfold delta in *. destruct (is_dot c) eqn:E1; [|destruct (is_dotdot c) eqn:E2].
    + apply IH; [assumption..|lia|exact Hin].
    + destruct T as [|t T0]; [cbn [length] in Hlvl; lia|].
      inversion HT as [|? ? (_ & _ & Ht) HT0]; subst. cbn [app]. rewrite Ht.
      apply IH; [assumption..|cbn [length]; lia|exact Hin].
    + apply (IH (c :: T)); [constructor; [repeat split|]; assumption|assumption|cbn [length]; lia|exact Hin].
Qed.

Lemma resolve_below abs base cs :
  Forall (fun c => c <> []) cs -> stays_inside cs = true ->
  exists below, Forall proper below /\
    rev (resolve_from abs [] (base ++ cs)) = rev (resolve_from abs [] base) ++ below /\
    Z.of_nat (length below) = depth cs.
Proof.
  intros Hne Hin. exists (rev (resolve_from abs [] cs)).
  destruct (resolve_inside abs cs [] (resolve_from abs [] base) 0 (Forall_nil _) Hne eq_refl Hin) as (H1 & H2 & H3).
  cbn [app] in H1. rewrite resolve_from_app, H1, rev_app_distr, rev_length.
  repeat split; [apply Forall_rev; exact H2|exact H3].
Qed.

Lemma is_abs_app_nonempty a b : a <> [] -> is_abs (a ++ b) = is_abs a.
Proof. destruct a; [contradiction|reflexivity]. Qed.

Lemma init_eq st base : base <> [] -> slen base < 4294967296 ->
  subfs_init st base =
    match st with
    | StatDir =>
      if PATH_MAX - 2 <? slen base then InitFail
      else InitOk (mkSubfs (if last base 0 =? SLASH then base else base ++ [SLASH]))
    | _ => InitFail
    end.
Proof.
  intros Hne Hlen. unfold subfs_init. destruct base as [|c0 b0] eqn:Eb; [contradiction|].
  rewrite <- Eb in *. destruct st; try reflexivity.
  assert (0 < slen base) by (rewrite Eb; unfold slen; cbn [length]; lia).
  rewrite Z.mod_small by lia.
  destruct (PATH_MAX - 2 <? slen base); [reflexivity|].
  destruct (Z.eqb_spec (slen base) 0); [lia|].
  unfold slen. rewrite Nat2Z.id, firstn_all. destruct (last base 0 =? SLASH); reflexivity.
Qed.

Lemma init_base st base fs : base <> [] -> slen base < 4294967296 ->
  subfs_init st base = InitOk fs ->
  slen base <= PATH_MAX - 2 /\ (base_path fs = base \/ base_path fs = base ++ [SLASH]) /\
  (exists b, base_path fs = b ++ [SLASH]) /\
  is_abs (base_path fs) = is_abs base /\ resolve (base_path fs) = resolve base.
Proof.
  intros Hne Hlen H. rewrite init_eq in H by assumption. destruct st; try discriminate.
  destruct (Z.ltb_spec (PATH_MAX - 2) (slen base)); [discriminate|]. injection H as <-. cbn [base_path].
  split; [assumption|]. destruct (Z.eqb_spec (last base 0) SLASH) as [El|_].
  - destruct (exists_last Hne) as (b & a & Hb). rewrite Hb, last_last in El. subst a. eauto 6.
  - split; [auto|]. split; [eauto|]. unfold resolve.
    rewrite is_abs_app_nonempty, components_trailing_slash by assumption. auto.
Qed.

Lemma init_base_nonempty st base fs : base <> [] -> slen base < 4294967296 ->
  subfs_init st base = InitOk fs -> base_path fs <> [].
Proof.
  intros Hne Hlen H. destruct (init_base _ _ _ Hne Hlen H) as (_ & _ & (b & ->) & _). destruct b; discriminate.
Qed.

Lemma init_empty_base st : subfs_init st [] = InitOk (mkSubfs []).
Proof. reflexivity. Qed.

Lemma init_confines st base fs path : base <> [] -> slen base < 4294967296 ->
  subfs_init st base = InitOk fs -> (forall k, 0 <= depth (firstn k (components path))) ->
  is_abs (base_path fs ++ path) = is_abs base /\
  exists below, Forall proper below /\ resolve (base_path fs ++ path) = resolve base ++ below /\
                Z.of_nat (length below) = depth (components path).
Proof.
  intros Hne Hlen Hinit Hin.
  destruct (init_base _ _ _ Hne Hlen Hinit) as (_ & _ & (b & Hb) & Habs & Hres).
  assert (Ha : is_abs (base_path fs ++ path) = is_abs (base_path fs)).
  { apply is_abs_app_nonempty. rewrite Hb. destruct b; discriminate. }
  split; [congruence|]. rewrite <- Hres. unfold resolve. rewrite Ha, Hb, <- app_assoc.
  cbn [app]. rewrite components_app_slash, components_trailing_slash.
  apply resolve_below; [apply components_nonempty|apply stays_inside_iff; exact Hin].
Qed.

Definition inside_base (base fwd : str) : Prop :=
  is_abs fwd = is_abs base /\
  exists below, Forall proper below /\ resolve fwd = resolve base ++ below.

(* PathCat's result, as a relation between the argument and what the underlay receives *)
Definition confined_arg (fs : subfs) (base path : str) (a : parg) : Prop :=
  a = PNull \/
  (a = PStr (base_path fs ++ path) /\
   (forall k, 0 <= depth (firstn k (components path))) /\
   inside_base base (base_path fs ++ path)).

Lemma fwd_of_confined st base fs path :
  base <> [] -> slen base < 4294967296 -> subfs_init st base = InitOk fs ->
  confined_arg fs base path (fwd_of fs path).
Proof.
  intros Hne Hlen Hinit. destruct (fwd_of_cases fs path) as [[[_ Hd] ->]|[_ ->]]; [right|left; reflexivity].
  destruct (init_confines _ _ _ path Hne Hlen Hinit Hd) as (Habs & below & H1 & H2 & _).
  repeat split; [assumption..|]. exists below. auto.
Qed.

(* `for (auto& name : Path(p)) out.push_back(name)` *)
Fixpoint iter_collect (fuel : nat) (it : iter) : option (list str) :=
  if iter_at_end it then Some [] else
  match fuel with
  | O => None
  | S f => option_map (cons (it_view it)) (iter_collect f (iter_next it))
  end.

Lemma iter_collect_spec fuel : forall p, (length p < fuel)%nat ->
  iter_collect fuel (iter_set p) = Some (components p).
Proof.
  induction fuel as [|f IH]; intros p Hf; [lia|].
  pose proof (iter_set_components p) as H. cbn [iter_collect].
  destruct (iter_at_end (iter_set p)).
  - rewrite H. reflexivity.
  - destruct H as [-> Hl]. unfold iter_next. rewrite IH by lia. reflexivity.
Qed.

From Coq Require Import String Ascii.
Definition s (x : string) : str := map (fun a => Z.of_N (N_of_ascii a)) (list_ascii_of_string x).

(* fs/test/test.cpp, TEST(Path, level_valid_ness): the four expectations hold for the repaired function *)
Example unit_test_paths :
  level_valid (s "/asdf/jkl/bmp/qwer/x.jpg") = LvTrue /\
  level_valid (s "/x.jpg/../../x.jpg") = LvFalse /\
  level_valid (s "asdf/../../x.jpg") = LvFalse /\
  level_valid (s "../asdf") = LvFalse.
Proof. vm_compute. repeat split. Qed.
(* ... and held for the pre-fix function too (which is why the suite did not notice F1) *)
Example unit_test_paths_prefix :
  level_valid_prefix (s "/asdf/jkl/bmp/qwer/x.jpg") = LvTrue /\
  level_valid_prefix (s "/x.jpg/../../x.jpg") = LvFalse /\
  level_valid_prefix (s "asdf/../../x.jpg") = LvFalse /\
  level_valid_prefix (s "../asdf") = LvFalse.
Proof. vm_compute. repeat split. Qed.

(* names that merely begin with dots are ordinary names: +1 *)
Example dot_names_are_ordinary :
  delta (s "...") = 1 /\ delta (s "..a") = 1 /\ delta (s ".a") = 1 /\ delta (s "a.") = 1 /\
  delta (s ".") = 0 /\ delta (s "..") = -1 /\
  level_valid (s ".../..") = LvTrue /\ level_valid (s "..a/..") = LvTrue /\ level_valid (s ".a/..") = LvTrue /\
  level_valid (s ".../../..") = LvFalse /\ level_valid (s "..a/../..") = LvFalse /\
  (* pre-fix: "..." and "..a" counted, ".a" and "a" did not *)
  level_valid_prefix (s ".../..") = LvTrue /\ level_valid_prefix (s "..a/..") = LvTrue /\
  level_valid_prefix (s ".a/..") = LvFalse /\ level_valid_prefix (s "a/..") = LvFalse /\
  level_valid_prefix (s "a/b/../..") = LvFalse /\ level_valid_prefix (s "/a/../b") = LvFalse.
Proof. vm_compute. repeat split. Qed.

(* hypotheses of no_escape are satisfiable in a non-trivial way: base "/b" (gets its '/' appended),
   a path that goes down, up and down again *)
Example no_escape_hyps :
  exists fs, subfs_init StatDir (s "/b") = InitOk fs /\ s "/b" <> [] /\ slen (s "/b") < 4294967296 /\
             pathcat fs (s "a//./../c/") = PcOk (PStr (s "/b/a//./../c/")) /\
             resolve (s "/b/a//./../c/") = [s "b"; s "c"] /\ resolve (s "/b") = [s "b"].
Proof. eexists. vm_compute. repeat split; discriminate. Qed.
(* relative base containing '..', and a base that already ends with '/' *)
Example no_escape_hyps_relative :
  exists fs, subfs_init StatDir (s "../b/") = InitOk fs /\ base_path fs = s "../b/" /\
             pathcat fs (s "x/..") = PcOk (PStr (s "../b/x/..")) /\
             pathcat fs (s "x/../..") = PcOk PNull /\
             resolve (s "../b/x/..") = [s ".."; s "b"] /\ resolve (s "../b/") = [s ".."; s "b"].
Proof. eexists. vm_compute. repeat split. Qed.
(* hypotheses of accepts_legal *)
Example accepts_legal_hyps :
  base_path (mkSubfs (s "/b/")) <> [] /\ legal (mkSubfs (s "/b/")) (s "a/b/../..").
Proof.
  split; [discriminate|]. apply legal_b_iff. vm_compute. reflexivity.
Qed.
(* the two-path operations *)
Example rename_example :
  run_op true (mkSubfs (s "/b/")) Rename (s "a/..") (s "../x")
  = Call Rename [PStr (s "/b/a/.."); PNull] /\
  run_op true (mkSubfs (s "/b/")) Symlink (s "../../etc/passwd") (s "l")
  = Call Symlink [PStr (s "../../etc/passwd"); PStr (s "/b/l")] /\
  run_op false (mkSubfs (s "/b/")) Getxattr (s "a") [] = NoCall.
Proof. vm_compute. repeat split. Qed.
(* out of scope by design: an empty base confines nothing *)
Example empty_base_confines_nothing :
  exists fs, subfs_init StatFail [] = InitOk fs /\ pathcat fs (s "../../etc") = PcOk (PStr (s "../../etc")).
Proof. eexists. vm_compute. repeat split. Qed.
(* init failure modes *)
Example init_failures :
  subfs_init StatNotDir (s "/b") = InitFail /\ subfs_init StatFail (s "/b") = InitFail /\
  subfs_init StatDir (repeat 97 4095) = InitFail /\
  (exists fs, subfs_init StatDir (repeat 97 4094) = InitOk fs /\ base_path_len fs = 4095 /\
              pathcat fs [] = PcOk PNull).
Proof.
  (* the witness is given unevaluated: normalising the goal would write the 4095-byte string
     into the proof term *)
  repeat split. exists (mkSubfs (repeat 97 4094 ++ [SLASH])). repeat split.
Qed.
