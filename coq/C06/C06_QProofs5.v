(* C06_QProofs5.v — qrwlock admission: try_wake() run to completion (it runs under `spin`, so nobody
   can enqueue meanwhile): a waiting writer => exactly the head writer is notified; no writer
   waiting => every waiting reader is notified. *)
From Coq Require Import ZArith List.
From PV Require Import Base.U64 C06.C06_Model C06.C06_RWProofs C06.C06_QModel C06.C06_QProofs.
Import ListNotations.
Local Open Scope Z_scope.

Fixpoint q_run_thread (fuel : nat) (s : qrw) (t : tid) : option qrw :=
  match fuel with
  | O => None
  | S f => match qth_step s t with
           | Some (s', ORet _ _) => Some s'
           | Some (s', _) => q_run_thread f s' t
           | None => None
           end
  end.

Lemma q_run_step f s t s' : qth_step s t = Some (s', OStep) -> q_run_thread (S f) s t = q_run_thread f s' t.
Proof. intros H. cbn [q_run_thread]. rewrite H. reflexivity. Qed.

Lemma q_run_ret f s t s' r e : qth_step s t = Some (s', ORet r e) -> q_run_thread (S f) s t = Some s'.
Proof. intros H. cbn [q_run_thread]. rewrite H. reflexivity. Qed.

Lemma qth_step_WakeU s t : qp (qthr s t) = QWakeU ->
  qth_step s t = match qu s with
                 | h :: r => Some (qgoto (q_notify (qset_qu s r) h) t (QRel 0 0), OStep)
                 | [] => Some (qgoto s t QWakeS, OStep)
                 end.
Proof. intros H. unfold qth_step. rewrite H. reflexivity. Qed.

Lemma qth_step_WakeS s t : qp (qthr s t) = QWakeS ->
  qth_step s t = match qs s with
                 | h :: r => Some (q_notify (qset_qs s r) h, OStep)
                 | [] => Some (qgoto s t (QRel 0 0), OStep)
                 end.
Proof. intros H. unfold qth_step. rewrite H. reflexivity. Qed.

Lemma qth_step_Rel s t r e : qp (qthr s t) = QRel r e ->
  qth_step s t = Some (qgoto (qset_spin s None) t QIdle, ORet r e).
Proof. intros H. unfold qth_step. rewrite H. reflexivity. Qed.

Lemma qgoto_pc s t p : qp (qthr (qgoto s t p) t) = p.
Proof. cbn. rewrite upd_same. reflexivity. Qed.

Lemma qgoto_other s t p x : x <> t -> qthr (qgoto s t p) x = qthr s x.
Proof. intros H. cbn. apply upd_other. exact H. Qed.

(* ~SCOPED_LOCK(spin); return *)
Lemma release_run s t r e : qp (qthr s t) = QRel r e ->
  exists s', q_run_thread 1 s t = Some s' /\ qu s' = qu s /\ qs s' = qs s /\ ls s' = ls s /\
    spin s' = None /\ qp (qthr s' t) = QIdle /\ (forall x, x <> t -> qthr s' x = qthr s x).
Proof.
  intros H. eexists. split; [exact (q_run_ret 0 _ _ _ _ _ (qth_step_Rel _ _ _ _ H))|].
  repeat split; [apply qgoto_pc|]. intros x Hx. cbn. apply upd_other. exact Hx.
Qed.

(* cv_shared.notify_all() wakes the queue from the head, one thread per step *)
Lemma wake_all_loop : forall (l : list tid) (s : qrw) (t : tid),
  qs s = l -> qp (qthr s t) = QWakeS -> ~ In t l -> NoDup l ->
  exists n s', q_run_thread n s t = Some s' /\ qs s' = [] /\ qu s' = qu s /\ ls s' = ls s /\
    spin s' = None /\ qp (qthr s' t) = QIdle /\
    (forall x, In x l -> qwake (qthr s' x) = Some WNotify) /\
    (forall x, ~ In x l -> x <> t -> qthr s' x = qthr s x).
Proof.
  induction l as [|h r IH]; intros s t Hq Hpc Hnt Hnd;
    pose proof (qth_step_WakeS _ _ Hpc) as Hstep; rewrite Hq in Hstep.
  - destruct (release_run (qgoto s t (QRel 0 0)) t 0 0) as [s' [Hrun [Hu [Hs [Hl [Hsp [Hp Hoth]]]]]]];
      [apply qgoto_pc|].
    exists 2%nat, s'. rewrite (q_run_step _ _ _ _ Hstep).
    repeat split; try assumption; [rewrite Hs; exact Hq|tauto|].
    intros x _ Hx. rewrite Hoth by exact Hx. apply qgoto_other. exact Hx.
  - assert (h <> t) as Hht by (intros ->; apply Hnt; left; reflexivity).
    inversion Hnd as [|? ? Hhr Hnr]; subst.
    destruct (IH (q_notify (qset_qs s r) h) t) as [n [s' [Hrun [Hs [Hu [Hl [Hsp [Hp [Hw Hoth]]]]]]]]];
      [reflexivity | cbn; rewrite upd_other by (intros E; apply Hht; symmetry; exact E); exact Hpc
      | intros Hin; apply Hnt; right; exact Hin | exact Hnr |].
    exists (S n), s'. rewrite (q_run_step _ _ _ _ Hstep).
    repeat split; try assumption.
    + intros x [<-|Hx]; [|apply Hw; exact Hx].
      rewrite Hoth by assumption. cbn. rewrite upd_same. reflexivity.
    + intros x Hx Hxt. rewrite Hoth; [|intros Hin; apply Hx; right; exact Hin|exact Hxt].
      cbn. apply upd_other. intros ->. apply Hx. left. reflexivity.
Qed.
