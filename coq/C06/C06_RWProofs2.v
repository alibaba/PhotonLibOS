(* C06_RWProofs2.v — rwlock: the failed-lock frame, what mtx protects, and admission (unlock() run to
   completion). *)
From Coq Require Import ZArith List Bool.
From PV Require Import Base.U64 C06.C06_Model C06.C06_RWArith C06.C06_RWProofs.
Import ListNotations.
Local Open Scope Z_scope.

Definition lock_pc (p : rpc) : bool :=
  match p with LkEnter | LkEnq | LkDefer | LkSleep => true | _ => false end.

Definition actor (l : label) : tid :=
  match l with CallLock t _ _ | CallUnlock t | Th t | Timeout t | Intr t _ => t end.

(* the labels that belong to a lock() call of `actor l`: its own steps, and the environment
   taking it out of the queue *)
Definition lock_label (s : rw) (l : label) : bool :=
  match l with
  | CallLock _ _ _ => true
  | CallUnlock _ => false
  | Th t => lock_pc (pc (thr s t))
  | Timeout _ | Intr _ _ => true
  end.

Definition frame (t : tid) (s s' : rw) : Prop :=
  st s' = st s /\ holders s' = holders s /\ nlog s' = nlog s /\
  remove_tid t (q s') = remove_tid t (q s) /\
  (forall u, u <> t -> thr s' u = thr s u) /\
  (mtx s' = mtx s \/ (mtx s = None /\ mtx s' = Some t) \/ (mtx s = Some t /\ mtx s' = None)).

Lemma frame_move s t x' m' q' :
  remove_tid t q' = remove_tid t (q s) ->
  m' = mtx s \/ mtx s = None /\ m' = Some t \/ mtx s = Some t /\ m' = None ->
  frame t s (mkRW (st s) m' q' (upd (thr s) t x') (holders s) (nlog s)).
Proof. intros Hq Hm. unfold frame. cbn. repeat split; auto. intros u Hu. apply upd_other. exact Hu. Qed.

Lemma lock_step_frame s l s' :
  Inv s -> step s l = Some s' -> lock_label s l = true ->
  (exists t, l = Th t /\ th_step s t = Some (s', ORet 0 0) /\
             holders s' = (t, md (thr s t)) :: holders s)
  \/ frame (actor l) s s'.
Proof.
  intros HI Hstep Hl.
  destruct (step_inv _ _ _ Hstep); cbn [lock_label actor] in *; [|discriminate Hl|destruct Hsp| | |];
    rewrite ?Hp in Hl; try discriminate Hl;
    try solve [right; unfold leave, goto, set_thr, set_mtx, set_q; cbn [st mtx q thr holders nlog];
               apply frame_move; auto; apply remove_tid_idem, (i_nodup _ HI)].
  - left. exists t. repeat split. exact Hth.
  - (* the enqueue: t was not in the queue *)
    right. apply (frame_move s t _ (mtx s) (q s ++ [t])); auto.
    destruct (Inv_awake s t HI) as [Hn _]; [rewrite Hp; discriminate..|].
    rewrite remove_tid_app_self by exact Hn. symmetry. apply remove_tid_notin. exact Hn.
  - (* the deferred unlock: t owned mtx *)
    right. apply (frame_move s t _ None (q s)); auto.
    right. right. split; [|reflexivity]. apply (i_mtx1 _ HI). rewrite Hp. reflexivity.
Qed.

Lemma failed_lock_frame s t s' r e :
  Inv s -> lock_pc (pc (thr s t)) = true -> th_step s t = Some (s', ORet r e) -> r <> 0 -> frame t s s'.
Proof.
  intros HI Hp Hth Hr.
  destruct (lock_step_frame s (Th t) s' HI) as [[t' [Ht [Hth' _]]]|Hf].
  - simpl. rewrite Hth. reflexivity.
  - exact Hp.
  - inversion Ht; subst t'. rewrite Hth in Hth'. inversion Hth'; subst. tauto.
  - exact Hf.
Qed.

(* a lock() step either is the one acquiring step (returns 0) or leaves state and ledger alone *)
Lemma lock_step_state s l s' :
  Inv s -> step s l = Some s' -> lock_label s l = true ->
  (st s' = st s /\ holders s' = holders s) \/
  (exists t, l = Th t /\ th_step s t = Some (s', ORet 0 0)).
Proof.
  intros HI Hs Hl. destruct (lock_step_frame s l s' HI Hs Hl) as [[t [H1 [H2 _]]]|Hf].
  - right. exists t. tauto.
  - left. unfold frame in Hf. tauto.
Qed.

(* what mtx protects: `st` and the ledger change only in a step of a thread's own call that found
   mtx free (and leaves it free or takes it) *)
Lemma footprint_protected s l s' :
  reach s -> step s l = Some s' -> (st s' <> st s \/ holders s' <> holders s) ->
  exists t, l = Th t /\ mtx s = None /\ (mtx s' = None \/ mtx s' = Some t).
Proof.
  intros _ Hstep Hch. destruct (notify_one_same s) as (_ & Ns & Nh & _).
  destruct (step_inv _ _ _ Hstep); [| |destruct Hsp| | |];
    try (exfalso; destruct Hch as [Hch|Hch]; apply Hch; (reflexivity || assumption)).
  all: exists t; auto.
Qed.

Fixpoint run_thread (fuel : nat) (s : rw) (t : tid) : option rw :=
  match fuel with
  | O => None
  | S f => match th_step s t with
           | Some (s', ORet _ _) => Some s'
           | Some (s', _) => run_thread f s' t
           | None => None
           end
  end.

Lemma run_thread_step f s t s' : th_step s t = Some (s', OStep) -> run_thread (S f) s t = run_thread f s' t.
Proof. intros H. cbn [run_thread]. rewrite H. reflexivity. Qed.

Lemma run_thread_ret f s t s' r e : th_step s t = Some (s', ORet r e) -> run_thread (S f) s t = Some s'.
Proof. intros H. cbn [run_thread]. rewrite H. reflexivity. Qed.

Lemma th_step_UlEnter s t : pc (thr s t) = UlEnter -> mtx s = None ->
  th_step s t =
    let s1 := set_holders (set_st s (dec_state (st s))) (remove_holder t (holders s)) in
    if (dec_state (st s) =? 0) && negb (is_nil (q s))
    then Some (goto (set_mtx s1 (Some t)) t UlIf2, OStep) else Some (goto s1 t Idle, ORet 0 0).
Proof. intros Hp Hm. unfold th_step. rewrite Hp, Hm. reflexivity. Qed.

Lemma th_step_UlIf2 s t : pc (thr s t) = UlIf2 ->
  th_step s t = Some (goto s t match q s with
                               | h :: _ => match md (thr s h) with WR => UlNotW | RD => UlWhile end
                               | [] => UlWhile
                               end, OStep).
Proof.
  intros Hp. unfold th_step. rewrite Hp. destruct (q s) as [|h r]; [|destruct (md (thr s h))]; reflexivity.
Qed.

Lemma th_step_UlNotW s t : pc (thr s t) = UlNotW -> th_step s t = Some (ul_return (notify_one s) t).
Proof. intros Hp. unfold th_step. rewrite Hp. reflexivity. Qed.

Lemma th_step_UlWhile s t : pc (thr s t) = UlWhile ->
  th_step s t = match q s with
                | h :: _ => match md (thr s h) with
                            | RD => Some (goto s t UlNotR, OStep)
                            | WR => Some (ul_return s t)
                            end
                | [] => Some (ul_return s t)
                end.
Proof. intros Hp. unfold th_step. rewrite Hp. reflexivity. Qed.

Lemma th_step_UlNotR s t : pc (thr s t) = UlNotR -> th_step s t = Some (goto (notify_one s) t UlWhile, OStep).
Proof. intros Hp. unfold th_step. rewrite Hp. reflexivity. Qed.

Lemma goto_pc s t p : pc (thr (goto s t p) t) = p.
Proof. cbn. rewrite upd_same. reflexivity. Qed.

Lemma goto_other s t p x : x <> t -> thr (goto s t p) x = thr s x.
Proof. intros H. cbn. apply upd_other. exact H. Qed.

Lemma notify_one_head s h r : q s = h :: r ->
  q (notify_one s) = r /\ thr (notify_one s) h = set_wake (thr s h) (Some WNotify) /\
  (forall x, x <> h -> thr (notify_one s) x = thr s x) /\
  st (notify_one s) = st s /\ holders (notify_one s) = holders s.
Proof.
  intros H. unfold notify_one. rewrite H. cbn. repeat split; [apply upd_same|].
  intros x Hx. apply upd_other. exact Hx.
Qed.

(* ~scoped_lock; return 0, from the state s0 that the last step of unlock() computed *)
Lemma ul_return_run s s0 t : th_step s t = Some (ul_return s0 t) ->
  exists s', run_thread 1 s t = Some s' /\ q s' = q s0 /\ st s' = st s0 /\ holders s' = holders s0 /\
             mtx s' = None /\ pc (thr s' t) = Idle /\ (forall x, x <> t -> thr s' x = thr s0 x).
Proof.
  intros H. eexists. split; [exact (run_thread_ret 0 _ _ _ _ _ H)|].
  repeat split; [apply goto_pc|]. intros x Hx. cbn. apply upd_other. exact Hx.
Qed.

(* the maximal run of readers at the head of a queue, and what follows it *)
Fixpoint rd_split (mdf : tid -> mode) (l : list tid) : list tid * list tid :=
  match l with
  | [] => ([], [])
  | h :: r => match mdf h with
              | RD => let '(a, b) := rd_split mdf r in (h :: a, b)
              | WR => ([], l)
              end
  end.

(* the `while` loop (1986-1987) over a queue whose marks are `mdf`: it notifies the leading run of
   readers, one per round, and stops at the first writer *)
Lemma while_loop (mdf : tid -> mode) : forall (l : list tid) (s : rw) (t : tid),
  q s = l -> pc (thr s t) = UlWhile -> ~ In t l -> NoDup l ->
  (forall x, In x l -> md (thr s x) = mdf x) ->
  exists n s', run_thread n s t = Some s' /\
    q s' = snd (rd_split mdf l) /\
    (forall x, In x (fst (rd_split mdf l)) -> wake (thr s' x) = Some WNotify) /\
    (forall x, ~ In x (fst (rd_split mdf l)) -> x <> t -> thr s' x = thr s x) /\
    st s' = st s /\ holders s' = holders s /\ mtx s' = None /\ pc (thr s' t) = Idle.
Proof.
  induction l as [|h r IH]; intros s t Hq Hpc Hnt Hnd Hmd;
    pose proof (th_step_UlWhile _ _ Hpc) as Hstep; rewrite Hq in Hstep.
  - destruct (ul_return_run _ _ _ Hstep) as (s' & Hrun & Hq' & Hst & Hho & Hm & Hp & Hoth).
    exists 1%nat, s'. cbn [rd_split fst snd].
    repeat split; try assumption; [congruence | intros x [] | intros x _; apply Hoth].
  - rewrite (Hmd h (or_introl eq_refl)) in Hstep. cbn [rd_split]. destruct (mdf h) eqn:Hh.
    + assert (h <> t) as Hht by (intros ->; apply Hnt; left; reflexivity).
      inversion Hnd as [|? ? Hhr Hnr]; subst.
      destruct (notify_one_head (goto s t UlNotR) h r Hq) as (Nq & Nh & Noth & Nst & Nho).
      set (s2 := goto (notify_one (goto s t UlNotR)) t UlWhile).
      assert (forall x, x <> t -> x <> h -> thr s2 x = thr s x) as Hx2.
      { intros x Hxt Hxh. unfold s2. rewrite goto_other, Noth, goto_other by assumption. reflexivity. }
      destruct (IH s2 t) as (n & s' & Hrun & Hq' & Hw & Hoth & Hst & Hho & Hm & Hp);
        [exact Nq | apply goto_pc | intros Hin; apply Hnt; right; exact Hin | exact Hnr | |].
      { intros x Hx. rewrite Hx2; [apply Hmd; right; exact Hx | intros ->; apply Hnt; right; exact Hx | intros ->; exact (Hhr Hx)]. }
      exists (S (S n)), s'.
      rewrite (run_thread_step _ _ _ _ Hstep), (run_thread_step _ _ _ _ (th_step_UlNotR _ t (goto_pc _ _ _))).
      destruct (rd_split mdf r) as [a b]. cbn [fst snd] in *.
      repeat split; try assumption.
      * intros x [<-|Hx]; [|apply Hw; exact Hx].
        destruct (in_dec Nat.eq_dec h a) as [Hin|Hnin]; [apply Hw; exact Hin|].
        rewrite Hoth by assumption. unfold s2. rewrite goto_other, Nh, goto_other by assumption. reflexivity.
      * intros x Hx Hxt. rewrite Hoth; [|intros Hin; apply Hx; right; exact Hin|exact Hxt].
        apply Hx2; [exact Hxt | intros ->; apply Hx; left; reflexivity].
      * rewrite Hst. exact Nst.
      * rewrite Hho. exact Nho.
    + destruct (ul_return_run _ _ _ Hstep) as (s' & Hrun & Hq' & Hst & Hho & Hm & Hp & Hoth).
      exists 1%nat, s'. cbn [fst snd].
      repeat split; try assumption; [congruence | intros x [] | intros x _; apply Hoth].
Qed.

(* what t's unlock() has done to the waiters of s when it has run to s': with marks `mdf`, exactly the head
   writer, or exactly the leading run of readers, is notified *)
Definition admits (mdf : tid -> mode) (s : rw) (t : tid) (s' : rw) : Prop :=
  match q s with
  | [] => q s' = []
  | h :: r =>
      match mdf h with
      | WR => q s' = r /\ wake (thr s' h) = Some WNotify /\ (forall x, x <> h -> x <> t -> thr s' x = thr s x)
      | RD => q s' = snd (rd_split mdf (q s)) /\
              (forall x, In x (fst (rd_split mdf (q s))) -> wake (thr s' x) = Some WNotify) /\
              (forall x, ~ In x (fst (rd_split mdf (q s))) -> x <> t -> thr s' x = thr s x)
      end
  end.

(* unlock() from its first look at the queue (1983) to its return, with nobody leaving the queue meanwhile *)
Lemma unlock_window (mdf : tid -> mode) s t :
  pc (thr s t) = UlIf2 -> ~ In t (q s) -> NoDup (q s) -> (forall x, In x (q s) -> md (thr s x) = mdf x) ->
  exists n s', run_thread n s t = Some s' /\ st s' = st s /\ holders s' = holders s /\ mtx s' = None /\
    pc (thr s' t) = Idle /\ admits mdf s t s'.
Proof.
  unfold admits. intros Hpc Hnt Hnd Hmd. pose proof (th_step_UlIf2 _ _ Hpc) as Hstep.
  assert (th_step s t = Some (goto s t UlWhile, OStep) ->
          exists n s', run_thread n s t = Some s' /\ q s' = snd (rd_split mdf (q s)) /\
            (forall x, In x (fst (rd_split mdf (q s))) -> wake (thr s' x) = Some WNotify) /\
            (forall x, ~ In x (fst (rd_split mdf (q s))) -> x <> t -> thr s' x = thr s x) /\
            st s' = st s /\ holders s' = holders s /\ mtx s' = None /\ pc (thr s' t) = Idle) as Hloop.
  { intros Hs.
    destruct (while_loop mdf (q s) (goto s t UlWhile) t) as (n & s' & Hrun & Hq' & Hw & Hoth & Hrest);
      [reflexivity | apply goto_pc | exact Hnt | exact Hnd | |].
    { intros x Hx. rewrite goto_other by (intros ->; tauto). apply Hmd. exact Hx. }
    exists (S n), s'. rewrite (run_thread_step _ _ _ _ Hs). repeat split; try assumption; try apply Hrest.
    intros x Hx Hxt. rewrite Hoth by assumption. apply goto_other. exact Hxt. }
  destruct (q s) as [|h r] eqn:Hq.
  - destruct (Hloop Hstep) as (n & s' & Hrun & Hq' & _ & _ & Hst & Hho & Hm & Hp).
    exists n, s'. repeat split; assumption.
  - rewrite (Hmd h (or_introl eq_refl)) in Hstep. destruct (mdf h) eqn:Hh.
    + destruct (Hloop Hstep) as (n & s' & Hrun & Hq' & Hw & Hoth & Hst & Hho & Hm & Hp).
      exists n, s'. repeat split; assumption.
    + assert (h <> t) as Hht by (intros ->; apply Hnt; left; reflexivity).
      destruct (notify_one_head (goto s t UlNotW) h r Hq) as (Nq & Nh & Noth & Nst & Nho).
      destruct (ul_return_run _ _ _ (th_step_UlNotW _ t (goto_pc s t UlNotW)))
        as (s' & Hrun & Hq' & Hst & Hho & Hm & Hp & Hoth).
      exists 2%nat, s'. rewrite (run_thread_step _ _ _ _ Hstep).
      repeat split; try assumption.
      * rewrite Hst. exact Nst.
      * rewrite Hho. exact Nho.
      * rewrite Hq'. exact Nq.
      * rewrite Hoth, Nh, goto_other by assumption. reflexivity.
      * intros x Hxh Hxt. rewrite Hoth, Noth, goto_other by assumption. reflexivity.
Qed.

(* unlock() by the last holder, run to completion with nobody leaving the queue meanwhile; `state` ends at 0 *)
Theorem admission_atomic s t :
  Inv s -> pc (thr s t) = UlEnter -> mtx s = None -> dec_state (st s) = 0 ->
  exists n s', run_thread n s t = Some s' /\ st s' = 0 /\ mtx s' = None /\ pc (thr s' t) = Idle /\
    admits (fun x => md (thr s x)) s t s'.
Proof.
  unfold admits. intros HI Hpc Hm Hd.
  assert (~ In t (q s)) as Hnt.
  { intros Hin. destruct (i_q _ HI _ Hin) as [[Hp|Hp] _]; rewrite Hpc in Hp; discriminate. }
  pose proof (th_step_UlEnter _ _ Hpc Hm) as Hstep. cbv zeta in Hstep. rewrite Hd in Hstep.
  destruct (q s) as [|h r] eqn:Hq.
  - eexists 1%nat, _. split; [exact (run_thread_ret 0 _ _ _ _ _ Hstep)|].
    repeat split; [exact Hm | apply goto_pc | exact Hq].
  - cbn [is_nil negb andb Z.eqb] in Hstep.
    match type of Hstep with _ = Some (?x, _) => set (s1 := x) in Hstep end.
    assert (forall x, x <> t -> thr s1 x = thr s x) as Hs1 by (intros x Hx; exact (goto_other _ _ _ x Hx)).
    destruct (unlock_window (fun x => md (thr s x)) s1 t) as (n & s' & Hrun & Hst & _ & Hm' & Hp & Hres);
      [apply goto_pc | rewrite <- Hq in Hnt; exact Hnt | exact (i_nodup _ HI) | |].
    { intros x Hx. rewrite Hs1; [reflexivity | intros ->; rewrite <- Hq in Hnt; tauto]. }
    exists (S n), s'. rewrite (run_thread_step _ _ _ _ Hstep).
    repeat split; try assumption.
    unfold admits in Hres. change (q s1) with (q s) in Hres. rewrite Hq in Hres.
    destruct (md (thr s h)); repeat split; try apply Hres;
      intros x Hx Hxt; rewrite <- Hs1 by exact Hxt; apply Hres; assumption.
Qed.
