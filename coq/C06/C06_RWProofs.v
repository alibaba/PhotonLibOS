(* C06_RWProofs.v — invariants of the fine-grained rwlock model over EVERY schedule. *)
From Coq Require Import ZArith Lia List Bool.
From PV Require Import Base.U64 C06.C06_Model C06.C06_RWArith.
Import ListNotations.
Local Open Scope Z_scope.

Inductive reach : rw -> Prop :=
| reach0 : reach rw0
| reachS s l s' : reach s -> wf_label s l = true -> step s l = Some s' -> reach s'.

(* schedules in which no waiter leaves the queue while an unlock() is in its decision window *)
Inductive greach : rw -> Prop :=
| greach0 : greach rw0
| greachS s l s' : greach s -> wf_label s l = true -> guard_label s l = true -> step s l = Some s' -> greach s'.

Lemma greach_reach s : greach s -> reach s.
Proof. induction 1; [constructor|econstructor; eauto]. Qed.

Lemma run_reach ls : forall s s', reach s -> run s ls = Some s' -> reach s'.
Proof.
  induction ls as [|l r IH]; simpl; intros s s' Hr H.
  - inversion H; subst; exact Hr.
  - destruct (wf_label s l) eqn:Hwf; [|discriminate].
    destruct (step s l) as [s1|] eqn:Hs; [|discriminate].
    eapply IH; [|exact H]. econstructor; eauto.
Qed.

Lemma grun_greach ls : forall s s', greach s -> grun s ls = Some s' -> greach s'.
Proof.
  induction ls as [|l r IH]; simpl; intros s s' Hr H.
  - inversion H; subst; exact Hr.
  - destruct (wf_label s l && guard_label s l) eqn:Hwf; [|discriminate].
    apply andb_true_iff in Hwf. destruct Hwf.
    destruct (step s l) as [s1|] eqn:Hs; [|discriminate].
    eapply IH; [|exact H]. econstructor; eauto.
Qed.

Lemma mem_tid_In t l : mem_tid t l = true <-> In t l.
Proof.
  induction l as [|x r IH]; simpl; [split; [discriminate|tauto]|].
  rewrite orb_true_iff, IH. split; intros [H|H]; auto.
  - left. apply Nat.eqb_eq in H. exact H.
  - left. apply Nat.eqb_eq. exact H.
Qed.

Lemma remove_tid_In t u l : In u (remove_tid t l) -> In u l.
Proof.
  induction l as [|x r IH]; simpl; [tauto|].
  destruct (Nat.eqb_spec x t); simpl; intros H; [tauto|]. destruct H; auto.
Qed.

Lemma remove_tid_NoDup t l : NoDup l -> NoDup (remove_tid t l).
Proof.
  induction 1 as [|x r Hx Hr IH]; simpl; [constructor|].
  destruct (Nat.eqb_spec x t); [exact Hr|]. constructor; [|exact IH].
  intros Hin. apply Hx. eapply remove_tid_In; eauto.
Qed.

Lemma remove_tid_notin t l : ~ In t l -> remove_tid t l = l.
Proof.
  induction l as [|x r IH]; simpl; intros H; [reflexivity|].
  destruct (Nat.eqb_spec x t); [subst; tauto|]. f_equal. apply IH. tauto.
Qed.

Lemma remove_tid_other t u l : u <> t -> In u l -> In u (remove_tid t l).
Proof.
  intros Hne. induction l as [|x r IH]; simpl; [tauto|].
  destruct (Nat.eqb_spec x t); intros [H|H]; subst; simpl; auto; try tauto.
Qed.

Lemma remove_tid_app_self t l : ~ In t l -> remove_tid t (l ++ [t]) = l.
Proof.
  induction l as [|x r IH]; simpl; intros H.
  - rewrite Nat.eqb_refl. reflexivity.
  - destruct (Nat.eqb_spec x t); [subst; tauto|]. f_equal. apply IH. tauto.
Qed.

Lemma remove_tid_self_notin t l : NoDup l -> ~ In t (remove_tid t l).
Proof.
  induction 1 as [|x r Hx Hr IH]; simpl; [tauto|].
  destruct (Nat.eqb_spec x t); [subst; exact Hx|]. simpl. intros [H|H]; [tauto|]. apply IH. exact H.
Qed.

Lemma remove_tid_sub t l : NoDup l -> forall x, In x (remove_tid t l) -> In x l /\ x <> t.
Proof.
  intros Hnd x Hx. split; [eapply remove_tid_In; exact Hx|]. intros ->. exact (remove_tid_self_notin _ _ Hnd Hx).
Qed.

Lemma remove_tid_idem t l : NoDup l -> remove_tid t (remove_tid t l) = remove_tid t l.
Proof. intros H. apply remove_tid_notin. apply remove_tid_self_notin. exact H. Qed.

Lemma NoDup_snoc (l : list tid) t : NoDup l -> ~ In t l -> NoDup (l ++ [t]).
Proof.
  induction 1 as [|x r Hx Hr IH]; simpl; intros Hn; [constructor; [tauto|constructor]|].
  constructor; [|apply IH; tauto].
  intros Hin. apply in_app_or in Hin. destruct Hin as [Hin|[<-|[]]]; tauto.
Qed.

Lemma holds_In s t : holds s t = true <-> In t (map fst (holders s)).
Proof. unfold holds. apply mem_tid_In. Qed.

Lemma remove_holder_length t l : In t (map fst l) -> S (length (remove_holder t l)) = length l.
Proof.
  induction l as [|[x m] r IH]; simpl; [tauto|].
  destruct (Nat.eqb_spec x t); [reflexivity|]. intros [H|H]; [tauto|]. simpl. f_equal. apply IH. exact H.
Qed.

Lemma remove_holder_Forall P t l : Forall P l -> Forall P (remove_holder t l).
Proof.
  induction 1 as [|[x m] r Hx Hr IH]; simpl; [constructor|].
  destruct (Nat.eqb x t); [exact Hr|constructor; assumption].
Qed.

Lemma remove_holder_other t u l : u <> t -> In u (map fst l) -> In u (map fst (remove_holder t l)).
Proof.
  intros Hne. induction l as [|[x m] r IH]; simpl; [tauto|].
  destruct (Nat.eqb_spec x t); intros [H|H]; subst; simpl; auto; try tauto.
Qed.

Lemma upd_same {A} (f : tid -> A) t v : upd f t v t = v.
Proof. unfold upd. rewrite Nat.eqb_refl. reflexivity. Qed.
Lemma upd_other {A} (f : tid -> A) t v u : u <> t -> upd f t v u = f u.
Proof. unfold upd. intros H. destruct (Nat.eqb_spec u t); [tauto|reflexivity]. Qed.

Definition mtx_pc (p : rpc) : bool :=
  match p with LkEnq | LkDefer | UlIf2 | UlNotW | UlWhile | UlNotR => true | _ => false end.

(* the ledger of holders against the state word *)
Definition excl_ (x : Z) (hs : list (tid * mode)) : Prop :=
  (Forall (fun h => snd h = RD) hs /\ x = Z.of_nat (length hs))
  \/ (exists w, hs = [(w, WR)] /\ x = -1).
Definition excl (s : rw) : Prop := excl_ (st s) (holders s).

(* writers exclusive, readers shared; |state| = number of holders *)
Lemma excl_cases x hs : excl_ x hs ->
  (forall w, In (w, WR) hs -> hs = [(w, WR)] /\ x = -1) /\
  ((forall h, In h hs -> snd h = RD) -> x = Z.of_nat (length hs)) /\
  (x = -1 \/ x = Z.of_nat (length hs)) /\ -1 <= x.
Proof.
  intros [[Hall ->]|[w [-> ->]]]; (split; [|split; [|split]]); auto; try (cbn; lia).
  - intros w Hin. rewrite Forall_forall in Hall. apply Hall in Hin. discriminate Hin.
  - intros w' [[= <-]|[]]. split; reflexivity.
  - intros Hall. discriminate (Hall (w, WR) (or_introl eq_refl)).
Qed.

Lemma excl_acq x hs t m :
  excl_ x hs -> in_range x = true -> conflict m x = false ->
  excl_ (add_op m x) ((t, m) :: hs) /\ add_op m x < I63 /\ add_op m x <> 0.
Proof.
  intros He Hr Hc. apply in_range_spec in Hr.
  destruct (excl_cases _ _ He) as (_ & _ & _ & Hlo).
  assert (- I63 <= x < I63) as Hx by (unfold I63 in *; lia).
  destruct m.
  - rewrite conflict_RD in Hc by exact Hx. apply Z.ltb_ge in Hc.
    rewrite add_op_RD by lia.
    destruct He as [[Hall ->]|[w [_ ->]]]; [|lia].
    split; [|lia]. left. split; [constructor; [reflexivity|exact Hall]|].
    simpl length. lia.
  - rewrite conflict_WR in Hc by exact Hx. apply negb_false_iff, Z.eqb_eq in Hc. subst x.
    rewrite add_op_WR by (unfold I63; lia).
    destruct He as [[Hall Hlen]|[w [_ Hw]]]; [|lia].
    destruct hs; [|simpl in Hlen; lia].
    split; [|unfold I63; lia]. right. exists t. split; reflexivity.
Qed.

Lemma excl_rel x hs t :
  excl_ x hs -> In t (map fst hs) ->
  excl_ (dec_state x) (remove_holder t hs) /\ dec_state x <= Z.max x 0.
Proof.
  intros He Hin. unfold dec_state.
  destruct He as [[Hall ->]|[w [-> ->]]].
  - pose proof (remove_holder_length _ _ Hin) as Hl.
    destruct (Z.ltb_spec 0 (Z.of_nat (length hs))); [|lia].
    split; [|lia]. left. split; [apply remove_holder_Forall; exact Hall|lia].
  - simpl in Hin. destruct Hin as [->|[]]. simpl. rewrite Nat.eqb_refl.
    split; [|lia]. left. split; [constructor|reflexivity].
Qed.

Record Inv (s : rw) : Prop := mkInv {
  i_excl : excl s;
  i_rng : st s < I63;
  i_mtx1 : forall t, mtx_pc (pc (thr s t)) = true -> mtx s = Some t;
  i_mtx2 : forall t, mtx s = Some t -> mtx_pc (pc (thr s t)) = true;
  i_q : forall h, In h (q s) -> (pc (thr s h) = LkDefer \/ pc (thr s h) = LkSleep) /\ wake (thr s h) = None;
  i_nodup : NoDup (q s);
  i_wake : forall t w, wake (thr s t) = Some w -> pc (thr s t) = LkDefer \/ pc (thr s t) = LkSleep;
  i_win : forall t, in_window (pc (thr s t)) = true -> st s = 0;
  i_ul : forall t, pc (thr s t) = UlEnter -> holds s t = true
}.

Lemma Inv0 : Inv rw0.
Proof.
  constructor; simpl; try (intros; discriminate); try tauto.
  - left. split; [constructor|reflexivity].
  - reflexivity.
  - constructor.
Qed.

Lemma in_window_mtx_pc p : in_window p = true -> mtx_pc p = true.
Proof. destruct p; simpl; auto. Qed.

(* the transitions, listed once: every invariant is a case analysis on these *)
Inductive th_spec (s : rw) (t : tid) : rw -> obs -> Prop :=
| TWait (Hp : pc (thr s t) = LkEnter) (Hm : mtx s = None)
        (Hc : negb (is_nil (q s)) || conflict (md (thr s t)) (st s) = true) :
    th_spec s t (goto (set_mtx s (Some t)) t LkEnq) OStep
| TAcquire (Hp : pc (thr s t) = LkEnter /\ q s = [] \/ pc (thr s t) = LkSleep /\ wake (thr s t) = Some WNotify)
           (Hm : mtx s = None) (Hc : conflict (md (thr s t)) (st s) = false) (Hr : in_range (st s) = true) :
    th_spec s t
      (set_thr (set_mtx (set_holders (set_st s (add_op (md (thr s t)) (st s))) ((t, md (thr s t)) :: holders s)) None)
               t (set_wake (set_pc (thr s t) Idle) None))
      (ORet 0 0)
| TEnq (Hp : pc (thr s t) = LkEnq) :
    th_spec s t (set_thr (set_q s (q s ++ [t])) t (set_wake (set_pc (thr s t) LkDefer) None)) OSleep
| TDefer (Hp : pc (thr s t) = LkDefer) : th_spec s t (goto (set_mtx s None) t LkSleep) OStep
| TRewait (Hp : pc (thr s t) = LkSleep) (Hw : wake (thr s t) = Some WNotify) (Hm : mtx s = None)
          (Hc : conflict (md (thr s t)) (st s) = true) :
    th_spec s t (set_thr (set_mtx s (Some t)) t (set_wake (set_pc (thr s t) LkEnq) None)) OStep
| TFail w e (Hp : pc (thr s t) = LkSleep) (Hw : wake (thr s t) = Some w) (Hm : mtx s = None)
        (He : w = WTimeout /\ e = ETIMEDOUT \/ w = WIntr e) :
    th_spec s t (set_thr s t (set_wake (set_pc (thr s t) Idle) None)) (ORet (-1) e)
| TUlWake (Hp : pc (thr s t) = UlEnter) (Hm : mtx s = None) (Hz : dec_state (st s) = 0) (Hq : q s <> []) :
    th_spec s t
      (goto (set_mtx (set_holders (set_st s (dec_state (st s))) (remove_holder t (holders s))) (Some t)) t UlIf2) OStep
| TUlDone (Hp : pc (thr s t) = UlEnter) (Hm : mtx s = None) (Hz : dec_state (st s) <> 0 \/ q s = []) :
    th_spec s t (goto (set_holders (set_st s (dec_state (st s))) (remove_holder t (holders s))) t Idle) (ORet 0 0)
| TIf2W h r (Hp : pc (thr s t) = UlIf2) (Hq : q s = h :: r) (Hh : md (thr s h) = WR) :
    th_spec s t (goto s t UlNotW) OStep
| TIf2R (Hp : pc (thr s t) = UlIf2) (Hq : forall h r, q s = h :: r -> md (thr s h) = RD) :
    th_spec s t (goto s t UlWhile) OStep
| TNotW (Hp : pc (thr s t) = UlNotW) : th_spec s t (goto (set_mtx (notify_one s) None) t Idle) (ORet 0 0)
| TWhileR h r (Hp : pc (thr s t) = UlWhile) (Hq : q s = h :: r) (Hh : md (thr s h) = RD) :
    th_spec s t (goto s t UlNotR) OStep
| TWhileEnd (Hp : pc (thr s t) = UlWhile) (Hq : forall h r, q s = h :: r -> md (thr s h) = WR) :
    th_spec s t (goto (set_mtx s None) t Idle) (ORet 0 0)
| TNotR (Hp : pc (thr s t) = UlNotR) : th_spec s t (goto (notify_one s) t UlWhile) OStep.

Lemma th_step_inv s t s' o : th_step s t = Some (s', o) -> th_spec s t s' o.
Proof.
  unfold th_step, acquire, ul_return. cbv zeta. intros H.
  destruct (pc (thr s t)) eqn:Hp; try discriminate H.
  - destruct (mtx s) eqn:Hm; [discriminate H|].
    destruct (negb (is_nil (q s)) || conflict (md (thr s t)) (st s)) eqn:Hc.
    + injection H as <- <-. apply TWait; assumption.
    + apply orb_false_iff in Hc. destruct Hc as [Hn Hc].
      destruct (in_range (st s)) eqn:Hr; [|discriminate H]. injection H as <- <-.
      apply TAcquire; auto. left. split; [exact Hp|]. destruct (q s); [reflexivity|discriminate Hn].
  - injection H as <- <-. apply TEnq. exact Hp.
  - injection H as <- <-. apply TDefer. exact Hp.
  - destruct (wake (thr s t)) as [w|] eqn:Hw; [|discriminate H].
    destruct (mtx s) eqn:Hm; [discriminate H|]. destruct w as [| |e].
    + destruct (conflict (md (thr s t)) (st s)) eqn:Hc.
      * injection H as <- <-. apply TRewait; assumption.
      * destruct (in_range (st s)) eqn:Hr; [|discriminate H]. injection H as <- <-. apply TAcquire; auto.
    + injection H as <- <-. apply (TFail s t WTimeout); auto.
    + injection H as <- <-. apply (TFail s t (WIntr e)); auto.
  - destruct (mtx s) eqn:Hm; [discriminate H|]. cbn [st q set_st set_holders] in H.
    destruct (dec_state (st s) =? 0) eqn:Hz; [destruct (q s) eqn:Hq|]; injection H as <- <-.
    + apply TUlDone; auto.
    + apply Z.eqb_eq in Hz. apply TUlWake; auto. rewrite Hq. discriminate.
    + apply Z.eqb_neq in Hz. apply TUlDone; auto.
  - destruct (q s) as [|h r] eqn:Hq; [|destruct (md (thr s h)) eqn:Hh]; injection H as <- <-.
    + apply TIf2R; [exact Hp|]. intros h0 r0 E. rewrite Hq in E. discriminate E.
    + apply TIf2R; [exact Hp|]. intros h0 r0 E. rewrite Hq in E. injection E as <- <-. exact Hh.
    + eapply TIf2W; eassumption.
  - injection H as <- <-. apply TNotW. exact Hp.
  - destruct (q s) as [|h r] eqn:Hq; [|destruct (md (thr s h)) eqn:Hh]; injection H as <- <-.
    + apply TWhileEnd; [exact Hp|]. intros h0 r0 E. rewrite Hq in E. discriminate E.
    + eapply TWhileR; eassumption.
    + apply TWhileEnd; [exact Hp|]. intros h0 r0 E. rewrite Hq in E. injection E as <- <-. exact Hh.
  - injection H as <- <-. apply TNotR. exact Hp.
Qed.

(* a waiter taken out of cvar.q by the environment *)
Definition leave (s : rw) (t : tid) (w : wake_t) : rw :=
  set_thr (set_q s (remove_tid t (q s))) t (set_wake (thr s t) (Some w)).

Inductive step_spec (s : rw) : label -> rw -> Prop :=
| SCallLock t m tm (Hp : pc (thr s t) = Idle) : step_spec s (CallLock t m tm) (set_thr s t (mkT LkEnter m tm None))
| SCallUnlock t (Hp : pc (thr s t) = Idle) : step_spec s (CallUnlock t) (goto s t UlEnter)
| STh t s' o (Hth : th_step s t = Some (s', o)) (Hsp : th_spec s t s' o) : step_spec s (Th t) s'
| STimeout t (Hin : In t (q s)) : step_spec s (Timeout t) (leave s t WTimeout)
| SIntr t e (Hin : In t (q s)) : step_spec s (Intr t e) (leave s t (WIntr e))
| SIntrLate t e (Hin : ~ In t (q s)) (Hw : wake (thr s t) = Some WTimeout) :
    step_spec s (Intr t e) (set_thr s t (set_wake (thr s t) (Some (WIntr e)))).

Lemma step_inv s l s' : step s l = Some s' -> step_spec s l s'.
Proof.
  destruct l as [t m tm|t|t|t|t e]; cbn [step]; intros H.
  - destruct (pc (thr s t)) eqn:Hp; try discriminate H. injection H as <-. apply SCallLock. exact Hp.
  - destruct (pc (thr s t)) eqn:Hp; try discriminate H. injection H as <-. apply SCallUnlock. exact Hp.
  - destruct (th_step s t) as [[s1 o]|] eqn:Hth; [|discriminate H]. injection H as <-.
    eapply STh; [exact Hth|]. apply th_step_inv. exact Hth.
  - destruct (mem_tid t (q s)) eqn:Hin; [|discriminate H]. destruct (timed (thr s t)); [|discriminate H].
    injection H as <-. apply STimeout. apply mem_tid_In. exact Hin.
  - destruct (0 <? e); [|discriminate H]. destruct (mem_tid t (q s)) eqn:Hin.
    + injection H as <-. apply SIntr. apply mem_tid_In. exact Hin.
    + destruct (wake (thr s t)) as [[| |]|] eqn:Hw; try discriminate H. injection H as <-.
      apply SIntrLate; [|exact Hw]. intros Hi. apply mem_tid_In in Hi. congruence.
Qed.

Lemma Inv_awake s t : Inv s -> pc (thr s t) <> LkDefer -> pc (thr s t) <> LkSleep ->
  ~ In t (q s) /\ wake (thr s t) = None.
Proof.
  intros HI H1 H2. split.
  - intros Hin. destruct (i_q _ HI _ Hin) as [[H|H] _]; contradiction.
  - destruct (wake (thr s t)) eqn:Hw; [|reflexivity]. destruct (i_wake _ HI _ _ Hw); contradiction.
Qed.

(* The one preservation lemma: thread t moves to x', mtx passes to m' (handed over only by or to t),
   the queue becomes q' (only t may be new in it), state word and ledger become x and hs. *)
Lemma Inv_upd s t x' m' q' x hs :
  Inv s ->
  (mtx_pc (pc x') = true <-> m' = Some t) ->
  m' = mtx s \/ mtx s = None /\ m' = Some t \/ mtx s = Some t /\ m' = None ->
  (In t q' -> (pc x' = LkDefer \/ pc x' = LkSleep) /\ wake x' = None) ->
  (forall h, h <> t -> In h q' -> In h (q s)) -> NoDup q' ->
  (forall w, wake x' = Some w -> pc x' = LkDefer \/ pc x' = LkSleep) ->
  excl_ x hs -> x < I63 ->
  (in_window (pc x') = true -> x = 0) -> x = st s \/ mtx s = None \/ mtx s = Some t ->
  (pc x' = UlEnter -> mem_tid t (map fst hs) = true) ->
  (forall u, u <> t -> holds s u = true -> mem_tid u (map fst hs) = true) ->
  Inv (mkRW x m' q' (upd (thr s) t x') hs (nlog s)).
Proof.
  intros [He Hr Hm1 Hm2 Hq Hnd Hwk Hwin Hul] Cm Cm' Cq Cq' Cnd Cw Ce Cr Cwin Cst Cul Chold.
  constructor; cbn [st mtx q thr holders nlog]; try assumption.
  - intros u. unfold upd. destruct (Nat.eqb_spec u t) as [->|Hne]; [apply Cm|].
    intros H. apply Hm1 in H. destruct Cm' as [->|[[E _]|[E _]]]; congruence.
  - intros u H. unfold upd. destruct (Nat.eqb_spec u t) as [->|Hne]; [apply Cm; exact H|].
    apply Hm2. destruct Cm' as [E|[[_ E]|[_ E]]]; congruence.
  - intros h Hin. unfold upd. destruct (Nat.eqb_spec h t) as [->|Hne]; [apply Cq; exact Hin|].
    apply Hq. apply Cq'; assumption.
  - intros u w. unfold upd. destruct (Nat.eqb_spec u t) as [->|_]; [apply Cw|apply Hwk].
  - intros u. unfold upd. destruct (Nat.eqb_spec u t) as [->|Hne]; [exact Cwin|].
    intros H. pose proof (Hwin _ H) as Hz. apply in_window_mtx_pc, Hm1 in H. destruct Cst as [->|[E|E]]; congruence.
  - intros u. unfold holds. cbn [holders]. unfold upd. destruct (Nat.eqb_spec u t) as [->|Hne]; [exact Cul|].
    intros H. apply Chold; [exact Hne|]. apply Hul. exact H.
Qed.

Lemma Inv_move s t x' m' :
  Inv s -> (mtx_pc (pc x') = true <-> m' = Some t) ->
  m' = mtx s \/ mtx s = None /\ m' = Some t \/ mtx s = Some t /\ m' = None ->
  (In t (q s) -> (pc x' = LkDefer \/ pc x' = LkSleep) /\ wake x' = None) ->
  (forall w, wake x' = Some w -> pc x' = LkDefer \/ pc x' = LkSleep) ->
  (in_window (pc x') = true -> st s = 0) -> (pc x' = UlEnter -> holds s t = true) ->
  Inv (mkRW (st s) m' (q s) (upd (thr s) t x') (holders s) (nlog s)).
Proof.
  intros HI Cm Cm' Cq Cw Cwin Cul.
  apply Inv_upd; auto; [apply (i_nodup _ HI) | apply (i_excl _ HI) | apply (i_rng _ HI)].
Qed.

Lemma notify_one_same s :
  mtx (notify_one s) = mtx s /\ st (notify_one s) = st s /\ holders (notify_one s) = holders s /\
  forall u, pc (thr (notify_one s) u) = pc (thr s u).
Proof.
  unfold notify_one. destruct (q s) as [|h r]; [auto|]. cbn. repeat split.
  intros u. unfold upd. destruct (Nat.eqb_spec u h) as [->|_]; reflexivity.
Qed.

(* what Inv says of one thread *)
Ltac own HI t :=
  pose proof (i_mtx1 _ HI t); pose proof (i_mtx2 _ HI t); pose proof (i_win _ HI t);
  pose proof (i_ul _ HI t); pose proof (i_q _ HI t); pose proof (Inv_awake _ t HI);
  try match goal with Hw : wake _ = Some _ |- _ => pose proof (i_wake _ HI _ _ Hw) end.
Ltac own_done := cbn in *; intuition (try congruence).

Lemma Inv_leave s t w : Inv s -> In t (q s) -> Inv (leave s t w).
Proof.
  intros HI Hin. own HI t.
  apply (Inv_upd s t (set_wake (thr s t) (Some w)) (mtx s) (remove_tid t (q s)) (st s) (holders s) HI);
    [ | | intros Hc; destruct (remove_tid_self_notin t _ (i_nodup _ HI) Hc)
    | intros h _; apply remove_tid_In | apply remove_tid_NoDup, (i_nodup _ HI) | | apply (i_excl _ HI)
    | apply (i_rng _ HI) | .. ]; own_done.
Qed.

(* cvar.notify_one() takes the head out of the queue like the environment does, with WNotify *)
Lemma notify_one_leave s h r :
  q s = h :: r -> notify_one s = set_nlog (leave s h WNotify) (h :: nlog s).
Proof. intros E. unfold notify_one, leave. rewrite E. cbn. rewrite Nat.eqb_refl. reflexivity. Qed.

Lemma Inv_notify s : Inv s -> Inv (notify_one s).
Proof.
  intros HI. destruct (q s) as [|h r] eqn:E; [unfold notify_one; rewrite E; exact HI|].
  rewrite (notify_one_leave s h r E).
  destruct (Inv_leave s h WNotify HI) as [? ? ? ? ? ? ? ? ?]; [rewrite E; left; reflexivity|].
  constructor; assumption.
Qed.

Lemma Inv_step s l s' : Inv s -> wf_label s l = true -> step s l = Some s' -> Inv s'.
Proof.
  intros HI Hwf Hstep.
  destruct (step_inv _ _ _ Hstep); clear Hstep; [| |clear Hth; destruct Hsp| | |]; own HI t;
    unfold goto, set_thr, set_mtx, set_q, set_holders, set_st; cbn [st mtx q thr holders nlog].
  (* moves that leave queue, state word and ledger alone *)
  all: try solve [apply Inv_move; [exact HI|..]; rewrite ?Hp in *; own_done].
  { destruct (excl_acq _ _ t _ (i_excl _ HI) Hr Hc) as (Ha1 & Ha2 & _).
    apply Inv_upd; try assumption; try apply (i_nodup _ HI);
      destruct Hp as [[Hp Hq]|[Hp Hw]]; rewrite Hp in *; own_done; apply orb_true_iff; right; assumption. }
  { apply Inv_upd;
      [ exact HI | | | | intros h Hne Hin; apply in_app_or in Hin; destruct Hin as [Hin|[<-|[]]]; [exact Hin|contradiction]
      | apply NoDup_snoc; [apply (i_nodup _ HI)|] | | apply (i_excl _ HI) | apply (i_rng _ HI) | .. ];
      rewrite Hp in *; own_done. }
  all: try apply Inv_leave; try assumption.
  (* the decrement of unlock() *)
  1-2: destruct (excl_rel _ _ t (i_excl _ HI)) as (Hr1 & Hr2); [apply holds_In; tauto|];
    assert (dec_state (st s) < I63) by (pose proof (i_rng _ HI); unfold I63 in *; lia);
    apply Inv_upd; try assumption; try apply (i_nodup _ HI);
    try (intros u Hne Hu; apply mem_tid_In, remove_holder_other, mem_tid_In; assumption); rewrite Hp in *; own_done.
  (* the two notifying steps: first the notify, then the move *)
  all: clear - HI Hp; pose proof (Inv_notify _ HI) as HI1;
    rewrite <- (proj2 (proj2 (proj2 (notify_one_same s))) t) in Hp; own HI1 t;
    apply Inv_move; [exact HI1|..]; rewrite Hp in *; own_done.
Qed.

Lemma reach_Inv s : reach s -> Inv s.
Proof. induction 1; [exact Inv0|eapply Inv_step; eauto]. Qed.

