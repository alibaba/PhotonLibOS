(* C06_QProofs.v — invariants of the fine-grained qrwlock model over EVERY schedule: the ledger (QA), and
   spin ownership with the wake and queue bookkeeping (QB). *)
From Coq Require Import ZArith Lia List Bool.
From PV Require Import Base.U64 C06.C06_Model C06.C06_RWProofs C06.C06_QModel.
Import ListNotations.
Local Open Scope Z_scope.

Inductive qreach : qrw -> Prop :=
| qreach0 : qreach qrw0
| qreachS s l s' : qreach s -> qwf_label s l = true -> qstep s l = Some s' -> qreach s'.

Lemma qrun_qreach lbls : forall s s', qreach s -> qrun s lbls = Some s' -> qreach s'.
Proof.
  induction lbls as [|l r IH]; simpl; intros s s' Hr H.
  - inversion H; subst; exact Hr.
  - destruct (qwf_label s l) eqn:Hwf; [|discriminate].
    destruct (qstep s l) as [s1|] eqn:Hs; [|discriminate].
    eapply IH; [|exact H]. econstructor; eauto.
Qed.

Definition spin_pc (p : qpc) : bool :=
  match p with
  | QTry true | QCas true _ | QRel _ _ | QEnq | QDefer | QUlStore | QWakeU | QWakeS => true
  | _ => false
  end.

Definition wake_pc (p : qpc) : bool :=
  match p with QDefer | QSleep | QSpinX NWake | QSpinL NWake => true | _ => false end.

Definition unique_pc (p : qpc) : bool :=
  match p with QSpinX NUnique | QSpinL NUnique | QUlStore => true | _ => false end.

Ltac inv_some :=
  repeat match goal with
  | H : Some _ = Some _ |- _ => inversion H; subst; clear H
  | H : None = Some _ |- _ => discriminate H
  | H : (_, _) = (_, _) |- _ => inversion H; subst; clear H
  end.

Ltac qbreak H :=
  unfold qth_step, q_success, q_fail, q_xchg, q_after_spin, q_notify, q_dequeue in H;
  repeat (match type of H with
          | context [match ?x with _ => _ end] =>
              match x with
              | context [match _ with _ => _ end] => fail 1
              | _ => let E := fresh "E" in destruct x eqn:E
              end
          end; simpl in H; try discriminate H).

Ltac qstep_cases Hstep :=
  match type of Hstep with
  | qstep ?s ?l = Some ?s' =>
      destruct l as [t m tm|t m|t|t|t|t e]; simpl in Hstep;
      [ qbreak Hstep; inv_some
      | qbreak Hstep; inv_some
      | qbreak Hstep; inv_some
      | destruct (qth_step s t) as [[s1 o]|] eqn:Hth; simpl in Hstep; [|discriminate Hstep];
        inv_some; qbreak Hth; inv_some
      | qbreak Hstep; inv_some
      | qbreak Hstep; inv_some ]
  end.

Ltac qthr_simp :=
  unfold qgoto, qset_thr, qset_qu, qset_qs, qset_spin, qset_ls, qset_holders, qset_nlog in *; simpl in *.

Lemma remove_holder_keep t u m l : u <> t -> In (t, m) l -> In (t, m) (remove_holder u l).
Proof.
  intros Hne. induction l as [|[x mx] r IH]; simpl; [tauto|].
  destruct (Nat.eqb_spec x u); intros [H|H]; simpl; auto.
  inversion H; subst. tauto.
Qed.

Lemma qholds_In s t : qholds s t = true <-> In t (map fst (qholders s)).
Proof. unfold qholds. apply mem_tid_In. Qed.

Lemma in_fst {A B} (a : A) (b : B) l : In (a, b) l -> In a (map fst l).
Proof. intros H. apply (in_map fst) in H. exact H. Qed.

Record QA (s : qrw) : Prop := mkQA {
  qa_excl : excl_ (ls s) (qholders s);
  qa_W : forall t, unique_pc (qp (qthr s t)) = true -> In (t, WR) (qholders s);
  qa_R : forall t, qp (qthr s t) = QUlSub -> In (t, RD) (qholders s);
  qa_L : forall t, qp (qthr s t) = QUlLoad -> In t (map fst (qholders s));
  qa_C : forall t slow v, qp (qthr s t) = QCas slow v -> shared_ok v = true /\ qmd (qthr s t) = RD
}.

Lemma QA0 : QA qrw0.
Proof. constructor; simpl; try (intros; discriminate). left. split; [constructor|reflexivity]. Qed.

Lemma excl_add_W hs t : excl_ 0 hs -> excl_ (-1) ((t, WR) :: hs).
Proof.
  intros [[_ Hl]|[w [_ H]]]; [|discriminate H].
  destruct hs; [|simpl in Hl; lia]. right. exists t. split; reflexivity.
Qed.

Lemma excl_add_R v hs t : 0 <= v -> excl_ v hs -> excl_ (v + 1) ((t, RD) :: hs).
Proof.
  intros Hv [[Hall Hl]|[w [_ H]]]; [|lia].
  left. split; [constructor; [reflexivity|exact Hall]|]. simpl length. lia.
Qed.

Lemma excl_store0 hs t : excl_ (-1) hs -> In (t, WR) hs -> excl_ 0 (remove_holder t hs).
Proof. intros He Hin. exact (proj1 (excl_rel _ _ t He (in_fst _ _ _ Hin))). Qed.

Lemma excl_sub v hs t : excl_ v hs -> In (t, RD) hs -> excl_ (v - 1) (remove_holder t hs) /\ 1 <= v.
Proof.
  intros [[Hall Hl]|[w [-> _]]] Hin.
  - pose proof (remove_holder_length t hs (in_fst _ _ _ Hin)) as Hlen.
    split; [|subst v; lia]. left. split; [apply remove_holder_Forall; exact Hall|]. subst v. lia.
  - destruct Hin as [H|[]]. discriminate H.
Qed.

Lemma excl_W_is hs t : excl_ (-1) hs -> In t (map fst hs) -> In (t, WR) hs.
Proof.
  intros [[_ Hl]|[w [-> _]]] Hin; [lia|]. simpl in Hin. destruct Hin as [<-|[]]. left. reflexivity.
Qed.

Lemma excl_R_is v hs t : excl_ v hs -> v <> -1 -> In t (map fst hs) -> In (t, RD) hs.
Proof.
  intros [[Hall _]|[w [_ H]]] Hv Hin; [|tauto].
  apply in_map_iff in Hin. destruct Hin as [[x m] [Hx Hin]]. simpl in Hx. subst x.
  rewrite Forall_forall in Hall. pose proof (Hall _ Hin) as Hm. simpl in Hm. subst m. exact Hin.
Qed.

(* thread t moves to x'; lock_state and ledger become l', hs', where the holds of the others stay *)
Lemma QA_upd s t x' l' hs' sp' qu' qs' nl' :
  QA s -> excl_ l' hs' ->
  (forall u m, u <> t -> In (u, m) (qholders s) -> In (u, m) hs') ->
  (unique_pc (qp x') = true -> In (t, WR) hs') ->
  (qp x' = QUlSub -> In (t, RD) hs') ->
  (qp x' = QUlLoad -> In t (map fst hs')) ->
  (forall slow v, qp x' = QCas slow v -> shared_ok v = true /\ qmd x' = RD) ->
  QA (mkQ l' sp' qu' qs' (upd (qthr s) t x') hs' nl').
Proof.
  intros [He HW HR HL HC] Ce Co CW CR CL CC.
  constructor; cbn [ls qholders qthr]; [exact Ce|..]; intros u; unfold upd;
    (destruct (Nat.eqb_spec u t) as [->|Hne]; [assumption|]).
  - intros H. apply Co, HW; assumption.
  - intros H. apply Co, HR; assumption.
  - intros H. apply HL in H. apply in_map_iff in H. destruct H as [[u' m] [E H]]. cbn in E. subst u'.
    apply (in_fst _ m), Co; assumption.
  - apply HC.
Qed.

(* QA does not look at wake fields and queues *)
Lemma QA_wake s h w sp' qu' qs' nl' :
  QA s -> QA (mkQ (ls s) sp' qu' qs' (upd (qthr s) h (qset_wake (qthr s h) w)) (qholders s) nl').
Proof.
  intros HA. apply QA_upd; auto; apply HA.
Qed.

Ltac qaown HA t :=
  pose proof (qa_W _ HA t); pose proof (qa_R _ HA t); pose proof (qa_L _ HA t);
  try match goal with E : qp _ = QCas _ _ |- _ => pose proof (qa_C _ HA _ _ _ E) end.

Lemma QA_step s l s' : QA s -> qwf_label s l = true -> qstep s l = Some s' -> QA s'.
Proof.
  intros HA Hwf Hstep.
  qstep_cases Hstep; qthr_simp; qaown HA t; try assumption; try (apply QA_wake; exact HA).
  all: try solve [apply QA_upd; [exact HA|try apply (qa_excl _ HA)|auto..]; clear HA; rewrite ?E in *;
                  try (match goal with n : spin_next |- _ => destruct n end); cbn in *; intuition (try congruence)].
  all: try match goal with Hz : (ls _ =? _) = true |- _ => apply Z.eqb_eq in Hz end.
  all: try match goal with Hz : (ls _ =? -1) = false |- _ => apply Z.eqb_neq in Hz end.
  11: { (* try_wake wakes the head writer: a wake field, then the move of t *)
    apply (QA_upd (mkQ (ls s) (spin s) l (qs s) (upd (qthr s) t0 (qset_wake (qthr s t0) (Some WNotify)))
                       (qholders s) (qnlog s)) t); [apply QA_wake; exact HA|apply HA|auto|..];
      cbn; try discriminate; intros ? ? [=]. }
  all: apply QA_upd; [exact HA|..]; cbn; auto; try discriminate; try (intros ? ? [=]).
  all: try apply (qa_excl _ HA); try (intros u m Hne Hin; apply remove_holder_keep; [congruence|assumption]).
  all: try match goal with Hz : ls _ = _ |- _ => pose proof (qa_excl _ HA) as He; rewrite Hz in He end.
  - intros _. apply qholds_In. exact Hwf.
  - apply excl_add_W. exact He.
  - apply excl_add_W. exact He.
  - destruct H2 as [Hok ->]. apply excl_add_R; [|exact He]. unfold shared_ok in Hok. lia.
  - destruct H2 as [Hok ->]. apply excl_add_R; [|exact He]. unfold shared_ok in Hok. lia.
  - intros _. apply excl_W_is; [exact He|]. apply H1. exact E.
  - intros _. apply (excl_R_is (ls s)); [apply HA|assumption|]. apply H1. exact E.
  - eapply proj1, excl_sub; [apply HA|]. apply H0. exact E.
  - eapply proj1, excl_sub; [apply HA|]. apply H0. exact E.
  - rewrite E in H. specialize (H eq_refl). apply excl_store0; [|exact H].
    destruct (qa_excl _ HA) as [[Hall _]|[w [Hh _]]]; [|right; exists w; split; [exact Hh|reflexivity]].
    rewrite Forall_forall in Hall. apply Hall in H. discriminate H.
Qed.

Lemma qreach_QA s : qreach s -> QA s.
Proof. induction 1; [exact QA0|eapply QA_step; eauto]. Qed.

Record QB (s : qrw) : Prop := mkQB {
  qb_s1 : forall t, spin_pc (qp (qthr s t)) = true -> spin s = Some t;
  qb_s2 : forall t, spin s = Some t -> spin_pc (qp (qthr s t)) = true;
  qb_wk : forall t w, qwake (qthr s t) = Some w -> wake_pc (qp (qthr s t)) = true;
  qb_qu : forall h, In h (qu s) -> (qp (qthr s h) = QDefer \/ qp (qthr s h) = QSleep) /\ qwake (qthr s h) = None;
  qb_qs : forall h, In h (qs s) -> (qp (qthr s h) = QDefer \/ qp (qthr s h) = QSleep) /\ qwake (qthr s h) = None;
  qb_ndu : NoDup (qu s);
  qb_nds : NoDup (qs s);
  qb_dis : forall h, In h (qu s) -> In h (qs s) -> False
}.

Lemma QB0 : QB qrw0.
Proof. constructor; simpl; try (intros; discriminate); try tauto; constructor. Qed.

(* thread t moves to x', spin passes to sp' (handed over only by or to t), the queues become qu', qs'
   (only t may be new in them) *)
Lemma QB_upd s t x' sp' qu' qs' l' hs' nl' :
  QB s ->
  (spin_pc (qp x') = true <-> sp' = Some t) ->
  sp' = spin s \/ spin s = None /\ sp' = Some t \/ spin s = Some t /\ sp' = None ->
  (forall w, qwake x' = Some w -> wake_pc (qp x') = true) ->
  (In t qu' \/ In t qs' -> (qp x' = QDefer \/ qp x' = QSleep) /\ qwake x' = None) ->
  (forall h, h <> t -> In h qu' -> In h (qu s)) -> (forall h, h <> t -> In h qs' -> In h (qs s)) ->
  NoDup qu' -> NoDup qs' -> (In t qu' -> In t qs' -> False) ->
  QB (mkQ l' sp' qu' qs' (upd (qthr s) t x') hs' nl').
Proof.
  intros [H1 H2 Hwk Hqu Hqs Hndu Hnds Hdis] Cs Cs' Cw Cq Cu Cq' Cnu Cns Cd.
  constructor; cbn [spin qu qs qthr]; try assumption.
  - intros u. unfold upd. destruct (Nat.eqb_spec u t) as [->|Hne]; [apply Cs|].
    intros H. apply H1 in H. destruct Cs' as [->|[[E _]|[E _]]]; congruence.
  - intros u H. unfold upd. destruct (Nat.eqb_spec u t) as [->|Hne]; [apply Cs; exact H|].
    apply H2. destruct Cs' as [E|[[_ E]|[_ E]]]; congruence.
  - intros u w. unfold upd. destruct (Nat.eqb_spec u t) as [->|_]; [apply Cw|apply Hwk].
  - intros h Hin. unfold upd. destruct (Nat.eqb_spec h t) as [->|Hne]; [apply Cq; left; exact Hin|].
    apply Hqu, Cu; assumption.
  - intros h Hin. unfold upd. destruct (Nat.eqb_spec h t) as [->|Hne]; [apply Cq; right; exact Hin|].
    apply Hqs, Cq'; assumption.
  - intros h Hu Hs. destruct (Nat.eq_dec h t) as [->|Hne]; [exact (Cd Hu Hs)|].
    apply (Hdis h); [apply Cu|apply Cq']; assumption.
Qed.

(* a step that leaves spin and the queues alone *)
Lemma QB_move s t x' l' hs' nl' :
  QB s -> (spin_pc (qp x') = true <-> spin s = Some t) ->
  (forall w, qwake x' = Some w -> wake_pc (qp x') = true) ->
  (In t (qu s) \/ In t (qs s) -> (qp x' = QDefer \/ qp x' = QSleep) /\ qwake x' = None) ->
  QB (mkQ l' (spin s) (qu s) (qs s) (upd (qthr s) t x') hs' nl').
Proof. intros HB C1 C2 C3. apply QB_upd; auto; apply HB. Qed.

Lemma QB_awake s t : QB s -> wake_pc (qp (qthr s t)) = false -> qwake (qthr s t) = None.
Proof.
  intros HB H. destruct (qwake (qthr s t)) eqn:Hw; [|reflexivity]. apply (qb_wk _ HB) in Hw. congruence.
Qed.

Lemma q_waiting_In s t : q_waiting s t = true <-> In t (qu s) \/ In t (qs s).
Proof. unfold q_waiting. rewrite orb_true_iff, !mem_tid_In. reflexivity. Qed.

Lemma QB_waiting s t : QB s -> q_waiting s t = true ->
  (qp (qthr s t) = QDefer \/ qp (qthr s t) = QSleep) /\ qwake (qthr s t) = None.
Proof.
  intros HB H. apply q_waiting_In in H. destruct H; [apply (qb_qu _ HB)|apply (qb_qs _ HB)]; assumption.
Qed.

Ltac qown HB t :=
  pose proof (qb_s1 _ HB t); pose proof (qb_s2 _ HB t); pose proof (qb_qu _ HB t); pose proof (qb_qs _ HB t);
  pose proof (QB_awake _ t HB);
  try match goal with Hw : qwake _ = Some _ |- _ => pose proof (qb_wk _ HB _ _ Hw) end.

(* a waiter h leaves its queue, by the environment or by a notify *)
Lemma QB_deq s h w qu' qs' l' hs' nl' :
  QB s -> In h (qu s) \/ In h (qs s) ->
  (forall x, In x qu' -> In x (qu s) /\ x <> h) -> (forall x, In x qs' -> In x (qs s) /\ x <> h) ->
  NoDup qu' -> NoDup qs' ->
  QB (mkQ l' (spin s) qu' qs' (upd (qthr s) h (qset_wake (qthr s h) (Some w))) hs' nl').
Proof.
  intros HB Hin Cu Cs Cnu Cns. qown HB h.
  assert ((qp (qthr s h) = QDefer \/ qp (qthr s h) = QSleep) /\ qwake (qthr s h) = None) as [Hp _] by tauto.
  apply QB_upd; try assumption; cbn; try tauto.
  - intros w' _. destruct Hp as [-> | ->]; reflexivity.
  - intros [Hc|Hc]; [apply Cu in Hc|apply Cs in Hc]; tauto.
  - intros x _ Hx. apply Cu. exact Hx.
  - intros x _ Hx. apply Cs. exact Hx.
  - intros Hc. apply Cu in Hc. tauto.
Qed.

Lemma QB_step s l s' : QB s -> qstep s l = Some s' -> QB s'.
Proof.
  intros HB Hstep.
  qstep_cases Hstep; qthr_simp; qown HB t; try assumption.
  all: try solve [first [ apply QB_move; [exact HB|..]
                        | apply QB_upd; [exact HB|..]; try apply (qb_ndu _ HB); try apply (qb_nds _ HB); try apply (qb_dis _ HB) ];
                  clear HB; rewrite ?E in *; try (match goal with n : spin_next |- _ => destruct n end);
                  try (match goal with b : bool |- _ => destruct b end); cbn in *; intuition (try congruence)].
  (* enqueue *)
  1-2: apply QB_upd; [exact HB|..]; rewrite ?E in *;
    try (intros h Hne Hin; apply in_app_or in Hin; destruct Hin as [Hin|[<-|[]]]; [exact Hin|contradiction]);
    try (apply NoDup_snoc; [apply HB|]); try apply (qb_ndu _ HB); try apply (qb_nds _ HB);
    cbn in *; try rewrite in_app_iff; cbn; intuition (try congruence).
  (* notifies and the environment's dequeue: QB_deq *)
  2-4: apply QB_deq; [exact HB|..];
    try match goal with Hm0 : q_waiting _ _ && _ = true |- _ => apply andb_true_iff in Hm0; destruct Hm0 as [Hm0 _] end;
    try match goal with Hm0 : q_waiting _ _ = true |- _ => apply q_waiting_In in Hm0 end;
    try assumption; try apply remove_tid_sub; try apply remove_tid_NoDup; try apply (qb_ndu _ HB); try apply (qb_nds _ HB).
  - (* try_wake wakes the head writer t0 and goes on to release spin *)
    pose proof (qb_ndu _ HB) as Hnd. rewrite E0 in Hnd. inversion Hnd as [|? ? Ht0 Hl]; subst.
    assert (t <> t0) as Hne.
    { intros <-. destruct H1 as [[Hp|Hp] _]; [rewrite E0; left; reflexivity|..]; rewrite E in Hp; discriminate Hp. }
    rewrite (upd_other _ _ _ t) by exact Hne.
    apply (QB_upd (mkQ (ls s) (spin s) l (qs s) (upd (qthr s) t0 (qset_wake (qthr s t0) (Some WNotify)))
                       (qholders s) (qnlog s)) t).
    + apply QB_deq; [exact HB | left; rewrite E0; left; reflexivity | | | exact Hl | apply (qb_nds _ HB)].
      * intros x Hx. split; [rewrite E0; right; exact Hx | intros ->; contradiction].
      * intros x Hx. split; [exact Hx | intros ->; apply (qb_dis _ HB t0); [rewrite E0; left; reflexivity | exact Hx]].
    + rewrite E in *. cbn in *. tauto.
    + auto.
    + rewrite E in *. cbn in *. intros w Hw. rewrite H3 in Hw by reflexivity. discriminate Hw.
    + rewrite E, E0 in *. cbn in *. intros [Hc|Hc]; [destruct H1 as [[Hp|Hp] _]; [right; exact Hc|..]
                                                       | destruct H2 as [[Hp|Hp] _]; [exact Hc|..]]; discriminate Hp.
    + auto.
    + auto.
    + exact Hl.
    + apply (qb_nds _ HB).
    + cbn. intros Hc. rewrite E, E0 in H1. destruct H1 as [[Hp|Hp] _]; [right; exact Hc|..]; discriminate Hp.
  - right. rewrite E0. left. reflexivity.
  - intros x Hx. split; [exact Hx | intros ->; apply (qb_dis _ HB t0 Hx); rewrite E0; left; reflexivity].
  - pose proof (qb_nds _ HB) as Hnd. rewrite E0 in *. inversion Hnd; subst.
    intros x Hx. split; [right; exact Hx | intros ->; contradiction].
  - pose proof (qb_nds _ HB) as Hnd. rewrite E0 in Hnd. inversion Hnd; assumption.
Qed.

Lemma qreach_QB s : qreach s -> QB s.
Proof. induction 1; [exact QB0|eapply QB_step; eauto]. Qed.

