(* C06_RWProofs4.v — rwlock: the no-stuck invariant on `greach`, and the witness schedules W1-W4. *)
From Coq Require Import ZArith List.
From PV Require Import Base.U64 C06.C06_Model C06.C06_RWArith C06.C06_RWProofs C06.C06_RWProofs2 C06.C06_RWProofs3 C06.C06_RWRun.
Import ListNotations.
Local Open Scope Z_scope.

Lemma greach_NS s : greach s -> NS s.
Proof.
  induction 1 as [|s l s' Hr IH Hwf Hg Hs]; [exact NS0|].
  eapply NS_step; eauto. apply reach_Inv. apply greach_reach. exact Hr.
Qed.

(* nobody is inside a call, except waiters sleeping un-notified in the queue *)
Definition quiescent (s : rw) : Prop :=
  forall t, pc (thr s t) = Idle \/ (pc (thr s t) = LkSleep /\ wake (thr s t) = None).

Definition n_writers (hs : list (tid * mode)) : nat := length (filter (fun h => mode_eqb (snd h) WR) hs).
Definition n_readers (hs : list (tid * mode)) : nat := length (filter (fun h => mode_eqb (snd h) RD) hs).

(* W1 — F18 window, source-level reading of unlock(): the head reader times out between the inner
   `if` (1983) and the `while` condition (1986); the loop sees a writer at the head and wakes
   nobody.  Result: lock free, writer 2 asleep un-notified, every later locker queues behind it. *)
Local Open Scope nat_scope.
Definition w1_sched : list label :=
  [ CallLock 0 WR false; Th 0;                          (* T0 holds the lock in write mode *)
    CallLock 1 RD true; Th 1; Th 1; Th 1;               (* T1: timed read lock, waits *)
    CallLock 2 WR false; Th 2; Th 2; Th 2;              (* T2: untimed write lock, waits behind T1 *)
    CallUnlock 0; Th 0;                                 (* T0: state := 0, queue non-empty *)
    Th 0;                                               (* inner if: head T1 is a reader -> else arm *)
    Timeout 1;                                          (* T1's deadline passes on another vCPU *)
    Th 0;                                               (* while: head T2 is a writer -> no notify; return *)
    Th 1 ].                                             (* T1 returns -1/ETIMEDOUT *)
Local Close Scope nat_scope.

Lemma w1_result :
  option_map (fun r => (view 4 (fst r), snd r)) (run_obs rw0 w1_sched)
  = Some ((0, None, [2%nat], [], [(0, 0); (0, 0); (4, 0); (0, 0)]),
          [(0%nat, 0, 0); (0%nat, 0, 0); (1%nat, -1, ETIMEDOUT)]).
Proof. vm_compute. reflexivity. Qed.

(* ... and a reader arriving afterwards queues although the lock is free *)
Lemma w1_later_reader_queues :
  option_map (fun r => view 4 (fst r)) (run_obs rw0 (w1_sched ++ [CallLock 3%nat RD false; Th 3%nat; Th 3%nat; Th 3%nat]))
  = Some (0, None, [2%nat; 3%nat], [], [(0, 0); (0, 0); (4, 0); (4, 0)]).
Proof. vm_compute. reflexivity. Qed.

(* W2 — the window that is also present in the shipped x86-64 binary (head pointer loaded once):
   the head WRITER leaves between the mark test (1983) and cvar.notify_one() (1984); notify_one
   wakes the new head, a reader, and only that one: reader 3 stays queued un-notified. *)
Local Open Scope nat_scope.
Definition w2_sched : list label :=
  [ CallLock 0 WR false; Th 0;
    CallLock 1 WR true; Th 1; Th 1; Th 1;
    CallLock 2 RD false; Th 2; Th 2; Th 2;
    CallLock 3 RD false; Th 3; Th 3; Th 3;
    CallUnlock 0; Th 0; Th 0;                           (* head T1 is a writer -> writer arm *)
    Timeout 1;
    Th 0 ].                                             (* notify_one wakes T2 only; return *)
Local Close Scope nat_scope.

Lemma w2_result :
  option_map (fun r => view 4 (fst r)) (run_obs rw0 w2_sched)
  = Some (0, None, [3%nat], [], [(0, 0); (4, -2); (4, -1); (4, 0)]).
Proof. vm_compute. reflexivity. Qed.

(* W3 — scenario (a): reader R2 (T2) queues behind waiting writer W (T1) while R1 (T0) holds;
   W times out; R2 stays queued; a later reader (T3) queues too.  The same schedule with W's
   call erased admits both at once.  So a failed lock() is NOT "exactly as if it had not been
   called" once the queue is counted as part of the lock state. *)
Local Open Scope nat_scope.
Definition w3_sched : list label :=
  [ CallLock 0 RD false; Th 0;
    CallLock 1 WR true; Th 1; Th 1; Th 1;
    CallLock 2 RD false; Th 2; Th 2; Th 2;
    Timeout 1; Th 1;
    CallLock 3 RD false; Th 3; Th 3; Th 3 ].
Local Close Scope nat_scope.
Definition erase_actor (t : tid) (ls : list label) : list label :=
  filter (fun l => negb (Nat.eqb (actor_of l) t)) ls.
(* in the erased run T2/T3 need a single step each; the surplus `Th` labels are not enabled *)
Local Open Scope nat_scope.
Definition w3_erased : list label :=
  [ CallLock 0 RD false; Th 0; CallLock 2 RD false; Th 2; CallLock 3 RD false; Th 3 ].
Local Close Scope nat_scope.

Lemma w3_with_failed_call :
  option_map (fun r => (view 4 (fst r), snd r)) (run_obs rw0 w3_sched)
  = Some ((1, None, [2%nat; 3%nat], [(0%nat, RD)], [(0, 0); (0, 0); (4, 0); (4, 0)]),
          [(0%nat, 0, 0); (1%nat, -1, ETIMEDOUT)]).
Proof. vm_compute. reflexivity. Qed.

Lemma w3_without_it :
  option_map (fun r => (view 4 (fst r), snd r)) (run_obs rw0 w3_erased)
  = Some ((3, None, [], [(3%nat, RD); (2%nat, RD); (0%nat, RD)], [(0, 0); (0, 0); (0, 0); (0, 0)]),
          [(0%nat, 0, 0); (2%nat, 0, 0); (3%nat, 0, 0)]).
Proof. vm_compute. reflexivity. Qed.

(* R2 and R3 are not blocked for ever: R1's unlock() notifies the whole run, and both get in *)
Lemma w3_then_unlock :
  option_map (fun r => (view 4 (fst r), snd r))
    (run_obs rw0 (w3_sched ++ CallUnlock 0%nat :: map Th [0; 0; 0; 0; 0; 0; 0; 2; 3]%nat))
  = Some ((2, None, [], [(3%nat, RD); (2%nat, RD)], [(0, 0); (0, 0); (0, 0); (0, 0)]),
          [(0%nat, 0, 0); (1%nat, -1, ETIMEDOUT); (0%nat, 0, 0); (2%nat, 0, 0); (3%nat, 0, 0)]).
Proof. vm_compute. reflexivity. Qed.

(* W4 — scenario (b): unlock() notifies a run of readers; a writer barges in before they run
   (queue empty, state 0); the readers re-check `op & state`, find the writer and wait again. *)
Local Open Scope nat_scope.
Definition w4_sched : list label :=
  [ CallLock 0 WR false; Th 0;
    CallLock 1 RD false; Th 1; Th 1; Th 1;
    CallLock 2 RD false; Th 2; Th 2; Th 2;
    CallUnlock 0; Th 0; Th 0; Th 0; Th 0; Th 0; Th 0; Th 0;     (* both readers notified, unlock returns *)
    CallLock 3 WR false; Th 3;                                   (* barging writer: admitted at once *)
    Th 1; Th 1; Th 1; Th 2; Th 2; Th 2 ].                        (* the readers wait again *)
Local Close Scope nat_scope.

Lemma w4_result :
  option_map (fun r => (view 4 (fst r), snd r)) (run_obs rw0 w4_sched)
  = Some ((-1, None, [1%nat; 2%nat], [(3%nat, WR)], [(0, 0); (4, 0); (4, 0); (0, 0)]),
          [(0%nat, 0, 0); (0%nat, 0, 0); (3%nat, 0, 0)]).
Proof. vm_compute. reflexivity. Qed.

(* hypotheses of the theorems are met by non-trivial states *)
Example w4_reachable : exists s, run rw0 w4_sched = Some s /\ reach s /\ st s = -1 /\ q s = [1%nat; 2%nat].
Proof.
  eexists. split; [vm_compute; reflexivity|].
  split; [apply (run_reach w4_sched rw0); [constructor|vm_compute; reflexivity]|split; reflexivity].
Qed.

Example w3_greachable : exists s, grun rw0 w3_sched = Some s /\ greach s /\ st s = 1 /\ q s = [2%nat; 3%nat].
Proof.
  eexists. split; [vm_compute; reflexivity|].
  split; [apply (grun_greach w3_sched rw0); [constructor|vm_compute; reflexivity]|split; reflexivity].
Qed.
