(* C06_RWProofs3.v — rwlock: the no-stuck invariant over schedules in which no waiter leaves the
   queue inside an unlock()'s decision window (greach). *)
From Coq Require Import ZArith List Bool.
From PV Require Import Base.U64 C06.C06_Model C06.C06_RWArith C06.C06_RWProofs C06.C06_RWProofs2.
Import ListNotations.
Local Open Scope Z_scope.

Definition notified (s : rw) : Prop := exists a, wake (thr s a) = Some WNotify.
Definition windowed (s : rw) : Prop := exists u, in_window (pc (thr s u)) = true.

(* what the owner of mtx knows at program counter p: in the window, why it is still there; about to
   enqueue, why waiting is safe *)
Definition own_ok (s : rw) (p : rpc) : Prop :=
  match p with
  | UlIf2 | UlNotW | UlNotR => q s <> []
  | UlWhile => q s = [] \/ (exists h r, q s = h :: r /\ md (thr s h) = RD) \/ notified s
  | LkEnq => st s <> 0 \/ notified s
  | _ => True
  end.

Record NS (s : rw) : Prop := mkNS {
  ns_main : st s = 0 -> q s <> [] -> windowed s \/ notified s;
  ns_own : forall u, own_ok s (pc (thr s u))
}.

Lemma NS0 : NS rw0.
Proof. constructor; simpl; intros; try exact I; tauto. Qed.

(* a step that keeps every notified-and-not-yet-resumed thread as it is *)
Lemma notified_keep s s' :
  (forall a, wake (thr s a) = Some WNotify -> wake (thr s' a) = Some WNotify) -> notified s -> notified s'.
Proof. intros H [a Ha]. exists a. apply H. exact Ha. Qed.

Lemma windowed_keep s s' :
  (forall u, in_window (pc (thr s u)) = true -> in_window (pc (thr s' u)) = true) -> windowed s -> windowed s'.
Proof. intros H [a Ha]. exists a. apply H. exact Ha. Qed.

Lemma notified_upd s t x a b c d e :
  (wake (thr s t) = Some WNotify -> wake x = Some WNotify) -> notified s ->
  notified (mkRW a b c (upd (thr s) t x) d e).
Proof.
  intros H. apply notified_keep. intros u. cbn. unfold upd. destruct (Nat.eqb_spec u t) as [->|_]; auto.
Qed.

Lemma acquire_nonzero s t s' o : Inv s -> acquire s t = Some (s', o) -> conflict (md (thr s t)) (st s) = false -> st s' <> 0.
Proof.
  intros HI Ha Hc. unfold acquire in Ha. destruct (in_range (st s)) eqn:Hr; [|discriminate].
  inversion Ha; subst; clear Ha. simpl.
  destruct (excl_acq (st s) (holders s) t (md (thr s t)) (i_excl _ HI) Hr Hc) as [_ [_ H]]. exact H.
Qed.

Lemma conflict_nonzero x m : conflict m x = true -> x <> 0.
Proof. intros Hc ->. destruct m; discriminate Hc. Qed.

Lemma own_ok_idle s p : mtx_pc p = false -> own_ok s p.
Proof. destruct p; try discriminate; intros _; exact I. Qed.

Lemma not_owner s u : Inv s -> mtx s <> Some u -> mtx_pc (pc (thr s u)) = false.
Proof.
  intros HI Hm. destruct (mtx_pc (pc (thr s u))) eqn:E; [|reflexivity]. apply (i_mtx1 _ HI) in E. contradiction.
Qed.

(* own_ok only looks at the state word, who is notified and, inside the window, the queue with its marks *)
Lemma own_ok_frame s s' p :
  own_ok s p -> st s' = st s ->
  (in_window p = true -> q s' = q s /\ forall h, In h (q s) -> md (thr s' h) = md (thr s h)) ->
  (notified s -> notified s') -> own_ok s' p.
Proof.
  intros Ho Hst Hw Hn. destruct p; try exact I; cbn in *; rewrite ?Hst; try (destruct Hw as [-> Hmd]; [reflexivity|]);
    try exact Ho.
  - destruct Ho as [Ho|Ho]; auto.
  - destruct Ho as [Ho|[(h & r & E & Hh)|Ho]]; auto.
    right. left. exists h, r. split; [exact E|]. rewrite Hmd; [exact Hh|]. rewrite E. left. reflexivity.
Qed.

(* a step of t outside the code under mtx: a call, or the environment taking t out of the queue while
   no unlock() is in its window *)
Lemma NS_env s s' t :
  Inv s -> NS s -> st s' = st s -> (forall a, a <> t -> thr s' a = thr s a) ->
  (forall s0, own_ok s0 (pc (thr s' t))) -> in_window (pc (thr s t)) = false ->
  (wake (thr s t) = Some WNotify -> wake (thr s' t) = Some WNotify) ->
  q s' = q s /\ ~ In t (q s) \/ window_open s = false /\ (forall h, In h (q s') -> In h (q s)) ->
  NS s'.
Proof.
  intros HI [Nmain Nown] Hst Hoth Ht Hnw Hwk Hq.
  assert (notified s -> notified s') as Hn.
  { apply notified_keep. intros a Ha. destruct (Nat.eq_dec a t) as [->|Hne]; [auto|]. rewrite Hoth by exact Hne. exact Ha. }
  constructor.
  - intros Hz Hne. rewrite Hst in Hz. destruct Nmain as [[u Hu]|Hnf]; auto.
    + destruct Hq as [[<- _]|[_ Hsub]]; [exact Hne|]. intros E. destruct (q s') as [|h r]; [tauto|].
      rewrite E in Hsub. apply (Hsub h). left. reflexivity.
    + left. exists u. rewrite Hoth; [exact Hu|]. intros ->. congruence.
  - intros u. destruct (Nat.eq_dec u t) as [->|Hne]; [apply Ht|]. rewrite Hoth by exact Hne.
    apply (own_ok_frame s); auto. intros Hu.
    destruct Hq as [[E Hnt]|[Hc _]].
    + split; [exact E|]. intros h Hh. rewrite Hoth; [reflexivity|]. intros ->. contradiction.
    + exfalso. unfold window_open in Hc. rewrite (i_mtx1 _ HI u (in_window_mtx_pc _ Hu)), Hu in Hc. discriminate Hc.
Qed.

Lemma NS_leave s t w : Inv s -> NS s -> window_open s = false -> In t (q s) -> NS (leave s t w).
Proof.
  intros HI HN Hg Hin. destruct (i_q _ HI _ Hin) as [Hp Hw].
  apply (NS_env s _ t HI HN); cbn; rewrite ?upd_same; cbn; auto; try congruence.
  - intros a Ha. apply upd_other. exact Ha.
  - intros s0. destruct Hp as [-> | ->]; exact I.
  - destruct Hp as [-> | ->]; reflexivity.
  - right. split; [exact Hg|]. intros h. apply remove_tid_In.
Qed.

Lemma notified_notify s : q s <> [] -> notified (notify_one s).
Proof.
  destruct (q s) as [|h r] eqn:E; [tauto|]. intros _. exists h.
  rewrite (proj1 (proj2 (notify_one_head s h r E))). reflexivity.
Qed.

(* a step of t's call under the mtx protocol: t found mtx free or owns it, so nobody else is at a
   program counter that own_ok speaks about *)
Lemma NS_th s s' t :
  Inv s -> mtx s = None \/ mtx s = Some t -> (forall a, a <> t -> pc (thr s' a) = pc (thr s a)) ->
  own_ok s' (pc (thr s' t)) -> (st s' = 0 -> q s' <> [] -> windowed s' \/ notified s') -> NS s'.
Proof.
  intros HI Hm Hpc Ht Hmain. constructor; [exact Hmain|].
  intros u. destruct (Nat.eq_dec u t) as [->|Hne]; [exact Ht|]. rewrite Hpc by exact Hne.
  apply own_ok_idle, not_owner; [exact HI|]. destruct Hm as [-> | ->]; congruence.
Qed.

Lemma NS_step s l s' :
  Inv s -> NS s -> guard_label s l = true -> step s l = Some s' -> NS s'.
Proof.
  intros HI [Nmain Nown] Hg Hstep.
  assert (mtx s = None -> ~ windowed s) as Hfree.
  { intros Hm [u Hu]. apply in_window_mtx_pc, (i_mtx1 _ HI) in Hu. congruence. }
  destruct (step_inv _ _ _ Hstep); clear Hstep.
  1-2: destruct (Inv_awake s t HI) as [Hnq Hnw]; [rewrite Hp; discriminate..|];
    apply (NS_env s _ t HI (mkNS _ Nmain Nown)); cbn; rewrite ?upd_same, ?Hp; auto; try congruence;
    [intros a Ha; apply upd_other; exact Ha | intros s0; exact I].
  2-3: apply NS_leave; [exact HI | exact (mkNS _ Nmain Nown) | apply negb_true_iff; exact Hg | exact Hin].
  - assert (mtx s = None \/ mtx s = Some t) as Hown.
    { destruct Hsp; auto; right; apply (i_mtx1 _ HI); rewrite Hp; reflexivity. }
    pose proof (Nown t) as Nt.
    assert (forall a, a <> t -> pc (thr s' a) = pc (thr s a)) as Hpc.
    { intros a Ha. destruct Hsp; cbn; rewrite upd_other by exact Ha; try reflexivity;
        apply (proj2 (proj2 (proj2 (notify_one_same s)))). }
    assert (mtx s = None -> st s = 0 -> q s <> [] -> notified s) as Hnf.
    { intros Hm Hz Hne. destruct (Nmain Hz Hne) as [Hw|Hn]; [destruct (Hfree Hm Hw)|exact Hn]. }
    assert (forall a b c d e x, in_window (pc x) = true -> windowed (mkRW a b c (upd (thr s) t x) d e)) as Hwin.
    { intros a b c d e x Hx. exists t. cbn. rewrite upd_same. exact Hx. }
    clear Hth; destruct Hsp; apply (NS_th s _ t HI Hown Hpc); clear Hpc; rewrite ?Hp in Nt;
      cbn [goto set_thr set_mtx set_q set_st set_holders st q mtx thr]; rewrite ?upd_same;
      cbn [goto set_thr set_mtx set_q set_st set_holders st q mtx thr pc set_pc set_wake wake own_ok] in *; try exact I.
    + destruct (Z.eq_dec (st s) 0) as [Hz|Hz]; [right|left; exact Hz]. apply notified_upd; [auto|].
      apply Hnf; auto. apply orb_true_iff in Hc. destruct Hc as [Hc|Hc]; [|destruct (conflict_nonzero _ _ Hc Hz)].
      destruct (q s); [discriminate Hc|discriminate].
    + intros Hz Hne. right. apply notified_upd; auto.
    + intros Hz. destruct (excl_acq _ _ t _ (i_excl _ HI) Hr Hc) as (_ & _ & Ha). contradiction.
    + intros Hz _. destruct Nt as [Nt|Nt]; [contradiction|]. right. apply notified_upd; [|exact Nt].
      destruct (Inv_awake s t HI) as [_ Hw]; [rewrite Hp; discriminate..|]. intros Hw'. cbn in Hw'. congruence.
    + intros Hz Hne. destruct (Nmain Hz Hne) as [[u Hu]|Hn]; [exfalso|right; apply notified_upd; auto].
      pose proof (i_mtx1 _ HI u (in_window_mtx_pc _ Hu)) as Hu'. destruct Hown as [Ho|Ho]; [congruence|].
      assert (u = t) by congruence. subst u. rewrite Hp in Hu. discriminate Hu.
    + left. exact (conflict_nonzero _ _ Hc).
    + intros Hz. destruct (conflict_nonzero _ _ Hc Hz).
    + intros Hz Hne. right. apply notified_upd; [|auto]. intros Hw'. destruct He as [[-> _]| ->]; congruence.
    + exact Hq.
    + intros _ _. left. apply Hwin. reflexivity.
    + intros Hz' Hne. destruct Hz; contradiction.
    + rewrite Hq. discriminate.
    + intros _ _. left. apply Hwin. reflexivity.
    + destruct (q s) as [|h r] eqn:E; [left; reflexivity|right; left]. exists h, r. split; [reflexivity|].
      unfold upd. destruct (Nat.eqb_spec h t) as [Heq|_]; [rewrite <- Heq|]; apply (Hq h r eq_refl).
    + intros _ _. left. apply Hwin. reflexivity.
    + intros _ _. right. apply (notified_upd (notify_one s)); [auto|apply notified_notify; exact Nt].
    + rewrite Hq. discriminate.
    + intros _ _. left. apply Hwin. reflexivity.
    + intros Hz Hne. destruct Nt as [E|[(h & r & E & Hh)|Hn]];
        [contradiction | rewrite (Hq _ _ E) in Hh; discriminate | right; apply notified_upd; auto].
    + right. right. apply (notified_upd (notify_one s)); [auto|apply notified_notify; exact Nt].
    + intros _ _. left. exists t. cbn. rewrite upd_same. reflexivity.
  - pose proof (i_wake _ HI _ _ Hw) as Hp.
    apply (NS_env s _ t HI (mkNS _ Nmain Nown)); cbn; rewrite ?upd_same; cbn; auto; try congruence.
    + intros a Ha. apply upd_other. exact Ha.
    + intros s0. destruct Hp as [-> | ->]; exact I.
    + destruct Hp as [-> | ->]; reflexivity.
Qed.
