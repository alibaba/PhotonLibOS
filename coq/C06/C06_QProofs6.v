(* C06_QProofs6.v — qrwlock, the BLOCKING path on the seeded scenario C06_1 (notes/C06.md, "Blocking path of qrwlock"):
   W0 holds WRITE; W1 waits lock(WLOCK, timed) on cv_unique, R2 waits lock(RLOCK) on cv_shared; W0 downgrades
   (unlock(); lock(RLOCK) with no other thread running in between): try_wake() prefers the writer, so only W1 is
   notified; W1 finds the lock read-held, waits again and times out.
   (1) the literal clause "a failed lock leaves the lock state exactly as if it had not been called" is refuted for
       qrwlock as well (the reader convoy of scenario (a), here through a barging reader): with W1's failed call R2 is
       still parked while the lock is read-held, without it R2 holds;
   (2) R2 is not lost: the last reader's unlock() runs try_wake(), finds cv_unique empty and notifies cv_shared —
       this is the step the seeded change (`cv_unique.notify_one()` only) removes; the same programs run on the real
       scheduler (E2 corpus of checks/C06.py) with the same result. *)
From Coq Require Import ZArith List.
From PV Require Import Base.U64 C06.C06_Model C06.C06_QModel.
Import ListNotations.
Local Open Scope Z_scope.

Definition qactor_of (l : qlabel) : tid :=
  match l with
  | QCallLock t _ _ | QCallTry t _ | QCallUnlock t | QTh t | QTimeout t | QIntr t _ => t
  end.

(* schedule runner that also collects the return values (thread, ret, errno), oldest first *)
Fixpoint qrun_obs (s : qrw) (lbls : list qlabel) : option (qrw * list (tid * Z * Z)) :=
  match lbls with
  | [] => Some (s, [])
  | l :: r =>
      if qwf_label s l then
        match qstep s l with
        | Some s' =>
            let o := match l with
                     | QTh t => match qth_step s t with Some (_, ORet a e) => [(t, a, e)] | _ => [] end
                     | _ => []
                     end in
            match qrun_obs s' r with
            | Some (s2, os) => Some (s2, o ++ os)
            | None => None
            end
        | None => None
        end
      else None
  end.

Definition ths (t n : nat) : list qlabel := repeat (QTh t) n.
Arguments ths (t n)%nat_scope.

(* A: with the timed writer W1 *)
Definition qd_sched : list qlabel :=
  QCallLock 0%nat WR false :: ths 0 1 ++            (* W0 takes the write lock (fast path) *)
  QCallLock 1%nat WR true :: ths 1 5 ++             (* W1: fast path fails, spin, retry fails, enqueue on cv_unique, deferred spin.unlock *)
  QCallLock 2%nat RD false :: ths 2 5 ++            (* R2: the same on cv_shared *)
  QCallUnlock 0%nat :: ths 0 5 ++                   (* W0 unlock: load, spin, store 0, try_wake -> notify W1 only, release *)
  QCallLock 0%nat RD false :: ths 0 2 ++            (* ... and immediately lock(RLOCK): load, CAS 0 -> 1 *)
  ths 1 4 ++                                        (* W1 wakes up: spin, __trylock fails (read-held), waits again *)
  QTimeout 1%nat :: ths 1 2.                        (* W1 times out: spin, return -1/ETIMEDOUT *)

(* B: the same schedule without W1 (the unlock then runs cv_shared.notify_all(), and R2 retries) *)
Definition qd_erased : list qlabel :=
  QCallLock 0%nat WR false :: ths 0 1 ++
  QCallLock 2%nat RD false :: ths 2 5 ++
  QCallUnlock 0%nat :: ths 0 7 ++
  QCallLock 0%nat RD false :: ths 0 2 ++
  ths 2 4.

Lemma qd_A :
  option_map (fun r => (ls (fst r), spin (fst r), qu (fst r), qs (fst r), qholders (fst r), snd r)) (qrun_obs qrw0 qd_sched)
  = Some (1, None, [], [2%nat], [(0%nat, RD)], [(0%nat, 0, 0); (0%nat, 0, 0); (0%nat, 0, 0); (1%nat, -1, ETIMEDOUT)]).
Proof. vm_compute. reflexivity. Qed.

Lemma qd_B :
  option_map (fun r => (ls (fst r), spin (fst r), qu (fst r), qs (fst r), qholders (fst r), snd r)) (qrun_obs qrw0 qd_erased)
  = Some (2, None, [], [], [(2%nat, RD); (0%nat, RD)], [(0%nat, 0, 0); (0%nat, 0, 0); (0%nat, 0, 0); (2%nat, 0, 0)]).
Proof. vm_compute. reflexivity. Qed.

(* R2 is not lost: the LAST READER's unlock() (load, fetch_sub 1 -> 0, spin, try_wake: cv_unique empty, so
   cv_shared.notify_all()) notifies R2, which then takes the lock.  This is the wake-up the seeded change drops. *)
Lemma qd_then_unlock :
  option_map (fun r => (ls (fst r), spin (fst r), qu (fst r), qs (fst r), qholders (fst r), snd r))
    (qrun_obs qrw0 (qd_sched ++ QCallUnlock 0%nat :: ths 0 7 ++ ths 2 4))
  = Some (1, None, [], [], [(2%nat, RD)],
          [(0%nat, 0, 0); (0%nat, 0, 0); (0%nat, 0, 0); (1%nat, -1, ETIMEDOUT); (0%nat, 0, 0); (2%nat, 0, 0)]).
Proof. vm_compute. reflexivity. Qed.
