(* C06_QProofs7.v — the E3 replay of the BLOCKING qrwlock path (C06_QE3B.v, harness/C06/qrw_e3b.cpp) only ever visits
   states of the proved step relation: every harness point is a stutter or one `qstep` with a well-formed label, so the
   lock state `b_q` of every state of every replayed run is in `qreach` — the set qrw_excl, qrw_no_lost_wake,
   qrw_no_stuck quantify over. *)
From Coq Require Import ZArith List Bool.
From PV Require Import Base.U64 E3.E3_Run C06.C06_Model C06.C06_QModel C06.C06_QE3 C06.C06_QE3B C06.C06_QProofs.
Import ListNotations.
Local Open Scope Z_scope.

(* an invariant of the step function is an invariant of the schedule interpreter *)
Lemma e3_run_inv {St : Type} (step : St -> nat -> nat -> St * E3_Run.obs) (fin : St -> nat -> bool) (n : nat) (P : St -> Prop) :
  (forall st p f, P st -> P (fst (step st p f))) ->
  forall fuel sched last st acc, P st -> P (fst (fst (e3_run step fin n fuel sched last st acc))).
Proof.
  intros Hstep. induction fuel as [|k IH]; intros sched last st acc HP; simpl.
  - destruct (all_fin fin n st); simpl; exact HP.
  - destruct (all_fin fin n st); simpl; [exact HP|].
    destruct sched as [|e rest].
    + destruct (rr fin n n (S last) st) as [p|]; simpl; [|exact HP].
      pose proof (Hstep st p 0%nat HP) as H1.
      destruct (step st p 0%nat) as [st' o]. apply IH. exact H1.
    + destruct (fin st (Nat.modulo e n)); [apply IH; exact HP|].
      pose proof (Hstep st (Nat.modulo e n) (Nat.div e n) HP) as H1.
      destruct (step st (Nat.modulo e n) (Nat.div e n)) as [st' o]. apply IH. exact H1.
Qed.

Lemma bnorm_qreach fuel : forall st t, qreach (b_q st) -> qreach (b_q (bnorm fuel st t)).
Proof.
  induction fuel as [|f IH]; intros st t Hr; simpl; [exact Hr|].
  destruct (qp (qthr (b_q st) t)) eqn:Hp; try exact Hr.
  destruct (b_tick st t); [exact Hr|].
  destruct (b_script st t) as [|o r]; [exact Hr|].
  destruct o as [m tmo|m| |].
  - simpl. eapply (qreachS _ (QCallLock t m (0 <=? tmo))); [exact Hr|reflexivity|].
    simpl. rewrite Hp. reflexivity.
  - simpl. eapply (qreachS _ (QCallTry t m)); [exact Hr|reflexivity|].
    simpl. rewrite Hp. reflexivity.
  - destruct (qholds (b_q st) t) eqn:Hh.
    + simpl. eapply (qreachS _ (QCallUnlock t)); [exact Hr|exact Hh|].
      simpl. rewrite Hp. reflexivity.
    + apply IH. exact Hr.
  - exact Hr.
Qed.

Lemma bth_qreach st t o : qreach (b_q st) -> qreach (b_q (fst (bth st t o))).
Proof.
  intros Hr. unfold bth.
  destruct (qth_step (b_q st) t) as [[s1 ob]|] eqn:E; [|exact Hr].
  assert (H1 : qreach s1).
  { eapply (qreachS _ (QTh t)); [exact Hr|reflexivity|]. simpl. rewrite E. reflexivity. }
  destruct ob; cbn [fst]; apply bnorm_qreach; exact H1.
Qed.

Lemma bstep_qreach st t f : qreach (b_q st) -> qreach (b_q (fst (bstep st t f))).
Proof.
  intros Hr. unfold bstep.
  destruct (qp (qthr (b_q st) t)) eqn:Hp; try (apply bth_qreach; exact Hr).
  - (* QIdle: a tick *)
    destruct (b_tick st t); cbn [fst]; [|exact Hr]. apply bnorm_qreach. exact Hr.
  - (* QSleep *)
    destruct (qwake (qthr (b_q st) t)).
    + destruct (b_seen st t); [|exact Hr].
      apply (bth_qreach (bset_seen st t false)). exact Hr.
    + destruct (bexpired st t && (Nat.eqb f 1 || bstuck st t)).
      * destruct (qstep (b_q st) (QTimeout t)) as [s1|] eqn:E; cbn [fst]; [|exact Hr]. cbn [bset_seen bset_q b_q bcount].
        eapply (qreachS _ (QTimeout t)); [exact Hr|reflexivity|exact E].
      * destruct (bstuck st t && negb (bsome_expired st)); exact Hr.
Qed.

Lemma binit_all_qreach k : forall st, qreach (b_q st) -> qreach (b_q (binit_all st k)).
Proof. induction k as [|j IH]; intros st Hr; cbn [binit_all]; [exact Hr|]. apply IH. apply bnorm_qreach. exact Hr. Qed.

Lemma binit_qreach scripts : qreach (b_q (binit scripts)).
Proof. unfold binit. apply binit_all_qreach. cbn [b_q]. constructor. Qed.

