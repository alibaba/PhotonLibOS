(* C06_QProofs3.v — qrwlock: no lost wake-up, over EVERY schedule. *)
From Coq Require Import ZArith Lia List Bool.
From PV Require Import Base.U64 C06.C06_Model C06.C06_RWProofs C06.C06_QModel C06.C06_QProofs.
Import ListNotations.
Local Open Scope Z_scope.

(* an unlock() that has brought lock_state to 0 and has not finished try_wake() *)
Definition waker_pc (p : qpc) : bool :=
  match p with QSpinX NShared | QSpinL NShared | QWakeU | QWakeS => true | _ => false end.
(* a waiter that holds `spin` and is about to (re-)try *)
Definition retry_pc (p : qpc) : bool :=
  match p with QTry true | QCas true _ => true | _ => false end.
Definition qwaker (s : qrw) : Prop := exists u, waker_pc (qp (qthr s u)) = true.
Definition qretrier (s : qrw) : Prop :=
  exists a, qwake (qthr s a) = Some WNotify \/ retry_pc (qp (qthr s a)) = true.

Record NL (s : qrw) : Prop := mkNL {
  nl_main : qu s <> [] \/ qs s <> [] -> ls s <> 0 \/ qwaker s \/ qretrier s;
  nl_enq : forall t, qp (qthr s t) = QEnq -> ls s <> 0 \/ qwaker s;
  nl_ws : forall t, qp (qthr s t) = QWakeS -> qu s = []
}.

Lemma NL0 : NL qrw0.
Proof. constructor; simpl; try (intros; discriminate). intros [H|H]; tauto. Qed.

Definition wk (x : qthread) : Prop := waker_pc (qp x) = true.
Definition rt (x : qthread) : Prop := qwake x = Some WNotify \/ retry_pc (qp x) = true.

(* Thread t moves to x'; lock_state and the queues become l', qu', qs'.  The clauses about the other threads
   survive because whoever is at QEnq or QWakeS holds spin: either t holds it and there is no such thread, or the
   step keeps what they rely on.  The main clause holds by t itself, or because t was about to enqueue under
   lock_state <> 0 or a waker, or because the step keeps whatever made it hold before. *)
Lemma NL_upd s t x' l' sp' qu' qs' hs' nl' :
  QB s -> NL s ->
  (qp x' = QEnq -> l' <> 0) ->
  (qp x' = QWakeS -> qu' = []) ->
  spin_pc (qp (qthr s t)) = true \/
    (ls s <> 0 -> l' <> 0 \/ wk x') /\ (wk (qthr s t) -> l' <> 0 \/ wk x') /\ (qu s = [] -> qu' = []) ->
  (qu' <> [] \/ qs' <> [] ->
   l' <> 0 \/ wk x' \/ rt x' \/ qp (qthr s t) = QEnq /\ l' = ls s \/
   (qu s <> [] \/ qs s <> []) /\ (ls s <> 0 -> l' <> 0) /\ (wk (qthr s t) -> wk x') /\ (rt (qthr s t) -> rt x')) ->
  NL (mkQ l' sp' qu' qs' (upd (qthr s) t x') hs' nl').
Proof.
  intros HB [Nmain Nenq Nws] Ce Cw Co Cm.
  assert (forall P : qthread -> Prop, (exists u, P (qthr s u)) -> (P (qthr s t) -> P x') ->
          exists u, P (upd (qthr s) t x' u)) as Hex.
  { intros P [u Hu] H. destruct (Nat.eq_dec u t) as [->|Hne]; [exists t; rewrite upd_same; auto|].
    exists u. rewrite upd_other by exact Hne. exact Hu. }
  assert (forall P : qthread -> Prop, P x' -> exists u, P (upd (qthr s) t x' u)) as Hme.
  { intros P H. exists t. rewrite upd_same. exact H. }
  assert (forall u, u <> t -> spin_pc (qp (qthr s u)) = true ->
          (ls s <> 0 -> l' <> 0 \/ wk x') /\ (wk (qthr s t) -> l' <> 0 \/ wk x') /\ (qu s = [] -> qu' = [])) as Hoth.
  { intros u Hne Hu. destruct Co as [Ht|Co]; [|exact Co].
    apply (qb_s1 _ HB) in Hu. apply (qb_s1 _ HB) in Ht. congruence. }
  constructor; cbn [ls qu qs qthr]; unfold qwaker, qretrier; cbn [qthr].
  - intros Hne. destruct (Cm Hne) as [H|[H|[H|[[Hp ->]|(Hne' & Hl & Hw & Hr)]]]].
    + left. exact H.
    + right. left. apply (Hme wk). exact H.
    + right. right. apply (Hme rt). exact H.
    + destruct (Nenq t Hp) as [H|H]; [left; exact H|right; left].
      apply (Hex wk); [exact H|]. unfold wk. rewrite Hp. discriminate.
    + destruct (Nmain Hne') as [H|[H|H]]; [left; auto|right; left; apply (Hex wk); assumption
                                               |right; right; apply (Hex rt); assumption].
  - intros u. unfold upd at 1. destruct (Nat.eqb_spec u t) as [->|Hne]; [left; auto|].
    intros Hu. destruct (Hoth u Hne) as (Hl & Hw & _); [rewrite Hu; reflexivity|].
    destruct (Nenq u Hu) as [H|[v Hv]].
    + destruct (Hl H) as [H'|H']; [left; exact H'|right; apply (Hme wk); exact H'].
    + destruct (Nat.eq_dec v t) as [->|Hvt].
      * destruct (Hw Hv) as [H'|H']; [left; exact H'|right; apply (Hme wk); exact H'].
      * right. exists v. rewrite upd_other by exact Hvt. exact Hv.
  - intros u. unfold upd. destruct (Nat.eqb_spec u t) as [->|Hne]; [exact Cw|].
    intros Hu. destruct (Hoth u Hne) as (_ & _ & Hq); [rewrite Hu; reflexivity|]. apply Hq, (Nws u Hu).
Qed.

(* NL_upd for a step of t whose program counters are known: what is left is propositional *)
Ltac nl_upd HB HN t :=
  apply (NL_upd _ t _ _ _ _ _ _ _ HB HN); clear HB HN; unfold wk, rt; cbn [qp qwake qset_wake qset_pc];
  repeat match goal with E : qp (qthr _ _) = _ |- _ => rewrite E; clear E end;
  cbn; intuition congruence.

(* a waiter leaves its queue by timeout or interrupt *)
Lemma NL_deq s t w : QB s -> NL s -> q_waiting s t = true -> NL (q_dequeue s t w).
Proof.
  intros HB HN Hq. destruct (QB_waiting _ _ HB Hq) as [[Hp|Hp] Hw];
    assert (qu s = [] -> remove_tid t (qu s) = []) by (intros ->; reflexivity);
    assert (qs s = [] -> remove_tid t (qs s) = []) by (intros ->; reflexivity);
    nl_upd HB HN t.
Qed.

Lemma NL_step s l s' : QA s -> QB s -> NL s -> qstep s l = Some s' -> NL s'.
Proof.
  intros HA HB HN Hstep.
  qstep_cases Hstep; qthr_simp; try assumption.
  (* what the guards of the step say about lock_state *)
  all: try match goal with
    | Eq : qp (qthr _ _) = QCas _ ?v0 |- _ =>
        let Hok := fresh "Hok" in
        destruct (qa_C _ HA _ _ _ Eq) as [Hok _]; unfold shared_ok in Hok; apply andb_true_iff in Hok;
        destruct Hok as [Hok _]; apply Z.leb_le in Hok; assert (v0 + 1 <> 0) by lia; clear Hok
    end.
  all: try match goal with
    | Ez : shared_ok (ls ?s0) = false |- _ =>
        assert (ls s0 <> 0) by (let H0 := fresh in intros H0; rewrite H0 in Ez; discriminate Ez)
    end.
  all: try match goal with Ez : (ls _ =? _) = true |- _ => apply Z.eqb_eq in Ez end.
  all: try match goal with Ez : (ls _ =? _) = false |- _ => apply Z.eqb_neq in Ez end.
  all: try match goal with Ez : ls ?s0 <> 1 |- _ => assert (ls s0 - 1 <> 0) by lia end.
  all: clear HA.
  (* the two calls: an idle thread is not marked woken *)
  1-2: pose proof (QB_awake _ t HB) as Hw; rewrite E in Hw; specialize (Hw eq_refl); nl_upd HB HN t.
  1-40: nl_upd HB HN t.
  - (* try_wake notifies the head writer t0: it is the retrier now, and t holds spin until it returns *)
    assert (forall u, spin_pc (qp (qthr s u)) = true -> u = t) as Hsp.
    { intros u Hu. apply (qb_s1 _ HB) in Hu. rewrite (qb_s1 _ HB t) in Hu by (rewrite E; reflexivity). congruence. }
    destruct (qb_qu _ HB t0) as [Hp _]; [rewrite E0; left; reflexivity|].
    assert (t0 <> t) as Hne by (intros ->; rewrite E in Hp; destruct Hp; discriminate).
    constructor; cbn [ls qu qs qthr].
    2-3: intros u; unfold upd; destruct (Nat.eqb_spec u t) as [->|Hu]; [discriminate|];
      destruct (Nat.eqb_spec u t0) as [->|_]; cbn; intros Hq; [destruct Hp; congruence|];
      destruct Hu; apply Hsp; rewrite Hq; reflexivity.
    intros _. right. right. exists t0. left. cbn [qthr]. rewrite (upd_other _ t _ t0 Hne), upd_same. reflexivity.
  - (* notify_all ends: both queues are empty *)
    pose proof (nl_ws _ HN t E). nl_upd HB HN t.
  - (* one round of notify_all: the record that changes is the head reader's *)
    destruct (qb_qs _ HB t0) as [[Hp|Hp] _]; [rewrite E0; left; reflexivity|..]; nl_upd HB HN t0.
  - apply andb_true_iff in E. apply (NL_deq s t WTimeout HB HN), E.
  - apply (NL_deq s t (WIntr e) HB HN), E0.
  - (* Intr of a thread already woken by its timeout *)
    pose proof (qb_wk _ HB _ _ E1) as Hk. destruct (qp (qthr s t)) eqn:Hp; try discriminate Hk; nl_upd HB HN t.
Qed.

Lemma qreach_NL s : qreach s -> NL s.
Proof.
  induction 1 as [|s l s' Hr IH Hwf Hs]; [exact NL0|].
  eapply NL_step; eauto; [apply qreach_QA|apply qreach_QB]; exact Hr.
Qed.
