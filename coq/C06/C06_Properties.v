(* C06_Properties.v — property C06, rwlock part: the theorems, each an instance or a short consequence of the
   lemmas of the proof files, + Print Assumptions.
   `reach`  = states reachable by ANY interleaving of lock/unlock calls of any number of threads on any
              number of vCPUs, with timeouts and interrupts at any point (clients only unlock what they hold);
   `greach` = the same, except that no waiter leaves the queue by timeout/interrupt while an unlock() is
              between its first look at the queue and its last notify (always true on one vCPU). *)
From Coq Require Import ZArith List.
From PV Require Import Base.U64 C06.C06_Proofs.
Import ListNotations.
Local Open Scope Z_scope.

(* writers exclusive, readers shared; |state| = number of holders *)
Theorem rw_excl : forall s, reach s ->
  (forall w, In (w, WR) (holders s) -> holders s = [(w, WR)] /\ st s = -1) /\
  ((forall h, In h (holders s) -> snd h = RD) -> st s = Z.of_nat (length (holders s))) /\
  (st s = -1 \/ st s = Z.of_nat (length (holders s))) /\ -1 <= st s.
Proof. exact (fun s H => excl_cases _ _ (i_excl _ (reach_Inv s H))). Qed.
Print Assumptions rw_excl.

(* every step of a lock() call — its own steps and the environment taking it out of the queue — other
   than the one step that returns 0 leaves `state`, the ledger, the other threads and the relative order
   of the other waiters unchanged *)
Theorem rw_failed_lock_noop : forall s l s', reach s -> step s l = Some s' -> lock_label s l = true ->
  (exists t, l = Th t /\ th_step s t = Some (s', ORet 0 0) /\ holders s' = (t, md (thr s t)) :: holders s)
  \/ frame (actor l) s s'.
Proof. exact (fun s l s' H => lock_step_frame s l s' (reach_Inv s H)). Qed.
Print Assumptions rw_failed_lock_noop.

(* in particular the step that returns -1 *)
Theorem rw_failed_return_noop : forall s t s' r e, reach s ->
  lock_pc (pc (thr s t)) = true -> th_step s t = Some (s', ORet r e) -> r <> 0 -> frame t s s'.
Proof. exact (fun s t s' r e H => failed_lock_frame s t s' r e (reach_Inv s H)). Qed.
Print Assumptions rw_failed_return_noop.

(* (c) / F18: whoever is in cvar.q is inside lock() with its mark set, and `state`/ledger only change in
   steps that found mtx free *)
Theorem rw_mark_read_valid : forall s h, reach s -> In h (q s) ->
  lock_pc (pc (thr s h)) = true /\ wake (thr s h) = None.
Proof.
  intros s h Hr Hin. destruct (i_q _ (reach_Inv _ Hr) _ Hin) as [[Hp|Hp] Hw]; rewrite Hp; auto.
Qed.
Print Assumptions rw_mark_read_valid.

Theorem rw_footprint_protected : forall s l s', reach s -> step s l = Some s' ->
  (st s' <> st s \/ holders s' <> holders s) ->
  exists t, l = Th t /\ mtx s = None /\ (mtx s' = None \/ mtx s' = Some t).
Proof. exact footprint_protected. Qed.
Print Assumptions rw_footprint_protected.

(* admission: the last holder's unlock(), run with no waiter leaving the queue under it, notifies
   exactly the head writer, or exactly the leading run of readers *)
Theorem rw_admission : forall s t, reach s ->
  pc (thr s t) = UlEnter -> mtx s = None -> dec_state (st s) = 0 ->
  exists n s', run_thread n s t = Some s' /\ st s' = 0 /\ mtx s' = None /\ pc (thr s' t) = Idle /\
    match q s with
    | [] => q s' = []
    | h :: r =>
        match md (thr s h) with
        | WR => q s' = r /\ wake (thr s' h) = Some WNotify /\ (forall x, x <> h -> x <> t -> thr s' x = thr s x)
        | RD => q s' = snd (rd_split (fun x => md (thr s x)) (q s)) /\
                (forall x, In x (fst (rd_split (fun x => md (thr s x)) (q s))) -> wake (thr s' x) = Some WNotify) /\
                (forall x, ~ In x (fst (rd_split (fun x => md (thr s x)) (q s))) -> x <> t -> thr s' x = thr s x)
        end
    end.
Proof. exact (fun s t H => admission_atomic s t (reach_Inv s H)). Qed.
Print Assumptions rw_admission.

(* no-stuck: lock free and nobody inside a call => nobody queued *)
Theorem rw_no_stuck : forall s, greach s -> st s = 0 -> quiescent s -> q s = [].
Proof.
  intros s Hg Hz Hq. destruct (q s) as [|h r] eqn:E; [reflexivity|exfalso].
  destruct (ns_main _ (greach_NS _ Hg) Hz) as [[u Hu]|[a Ha]]; [rewrite E; discriminate| |].
  - destruct (Hq u) as [Hp|[Hp _]]; rewrite Hp in Hu; discriminate Hu.
  - destruct (Hq a) as [Hp|[_ Hw]]; [|congruence].
    destruct (i_wake _ (reach_Inv _ (greach_reach _ Hg)) _ _ Ha) as [H|H]; congruence.
Qed.
Print Assumptions rw_no_stuck.

Theorem rw_free_and_waiters : forall s, greach s -> st s = 0 -> q s <> [] ->
  (exists u, in_window (pc (thr s u)) = true) \/ (exists a, wake (thr s a) = Some WNotify).
Proof. exact (fun s H => ns_main s (greach_NS s H)). Qed.
Print Assumptions rw_free_and_waiters.

(* what the code does NOT guarantee (witness schedules in C06_RWProofs4.v) *)
Theorem rw_no_stuck_refuted : exists ls s, run rw0 ls = Some s /\ st s = 0 /\ quiescent s /\ q s = [2%nat] /\
  timed (thr s 2%nat) = false /\ mtx s = None.
Proof.
  exists w1_sched. eexists. split; [vm_compute; reflexivity|].
  repeat split; try reflexivity.
  intros t. destruct t as [|[|[|t]]]; vm_compute; auto.
Qed.
Print Assumptions rw_no_stuck_refuted.

(* "after the last holder unlocks ... all waiting readers are admitted" fails on schedule W2: the unlock() has
   completed, the lock is free, no writer waits, reader 2 was notified and reader 3 was not *)
Theorem rw_admission_refuted : exists ls s, run rw0 ls = Some s /\ st s = 0 /\ mtx s = None /\ pc (thr s 0%nat) = Idle /\
  q s = [3%nat] /\ md (thr s 3%nat) = RD /\ wake (thr s 3%nat) = None /\
  wake (thr s 2%nat) = Some WNotify /\ md (thr s 2%nat) = RD /\
  (forall x, In x (q s) -> md (thr s x) = RD).
Proof.
  exists w2_sched. eexists. split; [vm_compute; reflexivity|].
  repeat split; try reflexivity.
  intros x [<-|[]]. reflexivity.
Qed.
Print Assumptions rw_admission_refuted.

(* W3: run A contains T1's timed lock(), which fails; run B is A without T1's labels (and without the steps
   that are then not enabled): readers 2 and 3 wait in A and hold in B *)
Theorem rw_failed_lock_as_if_not_called_refuted : exists lsA lsB sA sB oA,
  run_obs rw0 lsA = Some (sA, oA) /\ run rw0 lsB = Some sB /\
  In (1%nat, -1, ETIMEDOUT) oA /\
  (forall l, In l lsB -> In l lsA /\ actor_of l <> 1%nat) /\
  st sA = 1 /\ q sA = [2%nat; 3%nat] /\ holds sA 2%nat = false /\ holds sA 3%nat = false /\
  st sB = 3 /\ q sB = [] /\ holds sB 2%nat = true /\ holds sB 3%nat = true.
Proof.
  exists w3_sched, w3_erased.
  destruct (run_obs rw0 w3_sched) as [[sA oA]|] eqn:EA; [|vm_compute in EA; discriminate EA].
  destruct (run rw0 w3_erased) as [sB|] eqn:EB; [|vm_compute in EB; discriminate EB].
  exists sA, sB, oA. vm_compute in EA. inversion EA; subst; clear EA.
  vm_compute in EB. inversion EB; subst; clear EB.
  repeat split; try reflexivity.
  - right. left. reflexivity.
  - simpl in H. simpl. repeat (destruct H as [<-|H]; [tauto|]). destruct H.
  - simpl in H. repeat (destruct H as [<-|H]; [simpl; discriminate|]). destruct H.
Qed.
Print Assumptions rw_failed_lock_as_if_not_called_refuted.

(* qrwlock (thread/thread.h 614-721), fine-grained: one step per atomic operation on lock_state and
   on the spinlock; `qreach` = every interleaving of lock / try_lock / unlock calls of any number
   of threads on any number of vCPUs, with timeouts and interrupts at any point. *)
Theorem qrw_excl : forall s, qreach s ->
  (forall w, In (w, WR) (qholders s) -> qholders s = [(w, WR)] /\ ls s = -1) /\
  ((forall h, In h (qholders s) -> snd h = RD) -> ls s = Z.of_nat (length (qholders s))) /\
  (ls s = -1 \/ ls s = Z.of_nat (length (qholders s))) /\ -1 <= ls s.
Proof. exact (fun s H => excl_cases _ _ (qa_excl _ (qreach_QA s H))). Qed.
Print Assumptions qrw_excl.

Theorem qrw_failed_noop : forall s l s', qstep s l = Some s' -> qlock_label s l = true ->
  (exists t, l = QTh t /\ qholders s' = (t, qmd (qthr s t)) :: qholders s /\
             (qp (qthr s' t) = QRel 0 0 \/ qth_step s t = Some (s', ORet 0 0)))
  \/ qframe (qactor l) s s'.
Proof. exact qlock_step_frame. Qed.
Print Assumptions qrw_failed_noop.

(* enabledness form: lock_state = 0, no unlock() between its decrement/store and the end of
   try_wake(), no notified waiter that has not re-tried yet  =>  nobody waits on either cv *)
Theorem qrw_no_lost_wake : forall s, qreach s -> ls s = 0 -> ~ qwaker s -> ~ qretrier s -> qu s = [] /\ qs s = [].
Proof.
  intros s Hr Hz Hw Hre.
  assert (~ (qu s <> [] \/ qs s <> [])) as Hn
    by (intros Hne; destruct (nl_main _ (qreach_NL _ Hr) Hne) as [H|[H|H]]; tauto).
  destruct (qu s), (qs s); [split; reflexivity|exfalso; apply Hn..]; [right|left|left]; discriminate.
Qed.
Print Assumptions qrw_no_lost_wake.

Theorem qrw_no_stuck : forall s, qreach s -> ls s = 0 -> qquiescent s -> qu s = [] /\ qs s = [].
Proof.
  intros s Hr Hz Hq. apply qrw_no_lost_wake; auto.
  - intros [u Hu]. destruct (Hq u) as [Hp|[Hp _]]; rewrite Hp in Hu; discriminate Hu.
  - intros [a [Ha|Ha]].
    + destruct (Hq a) as [Hp|[_ Hw]]; [|congruence].
      pose proof (qb_wk _ (qreach_QB _ Hr) _ _ Ha) as Hk. rewrite Hp in Hk. discriminate Hk.
    + destruct (Hq a) as [Hp|[Hp _]]; rewrite Hp in Ha; discriminate Ha.
Qed.
Print Assumptions qrw_no_stuck.

(* admission: try_wake() (it runs under `spin`, nobody can enqueue meanwhile) run to completion: a waiting
   writer => exactly the head writer is notified; no writer waiting => every waiting reader is notified *)
Theorem qrw_admission : forall s t,
  qp (qthr s t) = QWakeU -> ~ In t (qu s) -> ~ In t (qs s) -> NoDup (qs s) ->
  exists n s', q_run_thread n s t = Some s' /\ ls s' = ls s /\ spin s' = None /\ qp (qthr s' t) = QIdle /\
    match qu s with
    | h :: r => qu s' = r /\ qs s' = qs s /\ qwake (qthr s' h) = Some WNotify /\
                (forall x, x <> h -> x <> t -> qthr s' x = qthr s x)
    | [] => qu s' = [] /\ qs s' = [] /\ (forall x, In x (qs s) -> qwake (qthr s' x) = Some WNotify) /\
            (forall x, ~ In x (qs s) -> x <> t -> qthr s' x = qthr s x)
    end.
Proof.
  intros s t Hpc Hnu Hns Hnd. pose proof (qth_step_WakeU _ _ Hpc) as Hstep.
  destruct (qu s) as [|h r] eqn:Hq.
  - destruct (wake_all_loop (qs s) (qgoto s t QWakeS) t) as [n [s' [Hrun [Hs [Hu [Hl [Hsp [Hp [Hw Hoth]]]]]]]]];
      [reflexivity | apply qgoto_pc | exact Hns | exact Hnd |].
    exists (S n), s'. rewrite (q_run_step _ _ _ _ Hstep).
    repeat split; try assumption; [rewrite Hu; exact Hq|].
    intros x Hx Hxt. rewrite Hoth by assumption. apply qgoto_other. exact Hxt.
  - assert (h <> t) as Hht by (intros ->; apply Hnu; left; reflexivity).
    destruct (release_run (qgoto (q_notify (qset_qu s r) h) t (QRel 0 0)) t 0 0)
      as [s' [Hrun [Hu [Hs [Hl [Hsp [Hp Hoth]]]]]]]; [apply qgoto_pc|].
    exists 2%nat, s'. rewrite (q_run_step _ _ _ _ Hstep).
    repeat split; try assumption.
    + rewrite Hoth by exact Hht. cbn. rewrite upd_other by exact Hht. rewrite upd_same. reflexivity.
    + intros x Hxh Hxt. rewrite Hoth by exact Hxt. cbn. rewrite !upd_other by assumption. reflexivity.
Qed.
Print Assumptions qrw_admission.

(* the blocking path on the downgrade scenario (seeded change C06_1): with the timed writer's failed call the reader is still
   parked while the lock is read-held, without it the reader holds — "as if not called" is refuted for qrwlock too
   (the reader is woken by the last reader's unlock: qd_then_unlock in C06_QProofs6.v) *)
Theorem qrw_failed_lock_as_if_not_called_refuted : exists lsA lsB sA sB oA,
  qrun_obs qrw0 lsA = Some (sA, oA) /\ qrun qrw0 lsB = Some sB /\
  In (1%nat, -1, ETIMEDOUT) oA /\
  (forall l, In l lsB -> In l lsA /\ qactor_of l <> 1%nat) /\
  ls sA = 1 /\ qu sA = [] /\ qs sA = [2%nat] /\ qholds sA 2%nat = false /\
  ls sB = 2 /\ qu sB = [] /\ qs sB = [] /\ qholds sB 2%nat = true.
Proof.
  exists qd_sched, qd_erased.
  destruct (qrun_obs qrw0 qd_sched) as [[sA oA]|] eqn:EA; [|vm_compute in EA; discriminate EA].
  destruct (qrun qrw0 qd_erased) as [sB|] eqn:EB; [|vm_compute in EB; discriminate EB].
  exists sA, sB, oA. vm_compute in EA. inversion EA; subst; clear EA.
  vm_compute in EB. inversion EB; subst; clear EB.
  repeat split; try reflexivity.
  - right. right. right. left. reflexivity.
  - simpl in H. simpl. repeat (destruct H as [<-|H]; [tauto|]). destruct H.
  - simpl in H. repeat (destruct H as [<-|H]; [simpl; discriminate|]). destruct H.
Qed.
Print Assumptions qrw_failed_lock_as_if_not_called_refuted.

(* the E3 replay of the BLOCKING path (C06_QE3B.v <-> harness/C06/qrw_e3b.cpp: lock(mode, timeout) / try_lock / unlock between
   OS threads, every atomic operation, enqueue, notify, timer expiry a scheduled point): whatever the scripts, the schedule and
   the bound, the lock state the replay ends in (and, by the same induction, every state it passes) is reachable in the step
   relation the theorems above quantify over — each harness point is a stutter or ONE qstep with a well-formed label *)
Theorem qrw_e3b_replay_reachable : forall scripts bound sched,
  qreach (b_q (fst (fst (qb_run scripts bound sched)))).
Proof.
  intros scripts bound sched. unfold qb_run.
  apply (e3_run_inv bstep bfin (length scripts) (fun st => qreach (b_q st))).
  - intros st p f. apply bstep_qreach.
  - apply binit_qreach.
Qed.
Print Assumptions qrw_e3b_replay_reachable.
