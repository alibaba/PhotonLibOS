(* C06_QProofs4.v — qrwlock: the failed-lock frame, quiescence, and a non-trivial reachable state. *)
From Coq Require Import ZArith List.
From PV Require Import Base.U64 C06.C06_Model C06.C06_RWProofs C06.C06_QModel C06.C06_QProofs C06.C06_QProofs3.
Import ListNotations.
Local Open Scope Z_scope.

Definition others (t : tid) (l : list tid) : list tid := filter (fun x => negb (Nat.eqb x t)) l.

Lemma others_remove t l : others t (remove_tid t l) = others t l.
Proof.
  induction l as [|x r IH]; simpl; [reflexivity|].
  destruct (Nat.eqb_spec x t); simpl; [reflexivity|].
  destruct (Nat.eqb_spec x t); [contradiction|]. simpl. f_equal. exact IH.
Qed.

Lemma others_app_self t l : others t (l ++ [t]) = others t l.
Proof.
  unfold others. rewrite filter_app. simpl. rewrite Nat.eqb_refl. simpl. apply app_nil_r.
Qed.

Definition qlock_pc (p : qpc) : bool :=
  match p with
  | QTry _ | QCas _ _ | QSpinX NFast | QSpinL NFast | QSpinX NWake | QSpinL NWake
  | QRel _ _ | QEnq | QDefer | QSleep => true
  | _ => false
  end.
Definition qactor (l : qlabel) : tid :=
  match l with QCallLock t _ _ | QCallTry t _ | QCallUnlock t | QTh t | QTimeout t | QIntr t _ => t end.
Definition qlock_label (s : qrw) (l : qlabel) : bool :=
  match l with
  | QCallUnlock _ => false
  | QTh t => qlock_pc (qp (qthr s t))
  | _ => true
  end.

Definition qframe (t : tid) (s s' : qrw) : Prop :=
  ls s' = ls s /\ qholders s' = qholders s /\ qnlog s' = qnlog s /\
  others t (qu s') = others t (qu s) /\ others t (qs s') = others t (qs s) /\
  (forall u, u <> t -> qthr s' u = qthr s u).

(* every step of a lock()/try_lock() call other than the successful try leaves lock_state, the
   ledger, the other threads and the order of the other waiters alone; the successful try is
   followed only by the release of `spin` and `return 0` *)
Lemma qlock_step_frame s l s' :
  qstep s l = Some s' -> qlock_label s l = true ->
  (exists t, l = QTh t /\ qholders s' = (t, qmd (qthr s t)) :: qholders s /\
             (qp (qthr s' t) = QRel 0 0 \/ qth_step s t = Some (s', ORet 0 0)))
  \/ qframe (qactor l) s s'.
Proof.
  intros Hstep Hl.
  destruct l as [t m tm|t m|t|t|t|t e]; simpl in Hstep, Hl; try discriminate Hl.
  - right. qbreak Hstep; inv_some. unfold qframe; qthr_simp. repeat split; auto. intros u Hu. apply upd_other. exact Hu.
  - right. qbreak Hstep; inv_some. unfold qframe; qthr_simp. repeat split; auto. intros u Hu. apply upd_other. exact Hu.
  - destruct (qth_step s t) as [[s1 o]|] eqn:Hth; simpl in Hstep; [|discriminate Hstep].
    inv_some. pose proof Hth as Hth0.
    qbreak Hth; inv_some; simpl in Hl; try discriminate Hl.
    all: try solve [left; exists t; split; [reflexivity|]; split; [try (match goal with Em : qmd _ = _ |- _ => rewrite Em end); reflexivity|];
                    first [left; qthr_simp; rewrite upd_same; reflexivity | right; exact Hth0]].
    all: right; unfold qframe; qthr_simp; repeat split; auto;
         try (intros u Hu; apply upd_other; exact Hu);
         try (symmetry; apply others_app_self).
    all: try (apply others_app_self).
  - right. qbreak Hstep; inv_some. unfold qframe; qthr_simp.
    repeat split; auto; try apply others_remove. intros u Hu. apply upd_other. exact Hu.
  - right. qbreak Hstep; inv_some; unfold qframe; qthr_simp;
    repeat split; auto; try apply others_remove; intros u Hu; apply upd_other; exact Hu.
Qed.

Definition qquiescent (s : qrw) : Prop :=
  forall t, qp (qthr s t) = QIdle \/ (qp (qthr s t) = QSleep /\ qwake (qthr s t) = None).

(* a concrete non-trivial reachable state: writer 0 holds, writer 1 and reader 2 wait, both timed *)
Local Open Scope nat_scope.
Definition q_ex_sched : list qlabel :=
  [ QCallLock 0 WR false; QTh 0;
    QCallLock 1 WR true; QTh 1; QTh 1; QTh 1; QTh 1; QTh 1;
    QCallLock 2 RD true; QTh 2; QTh 2; QTh 2; QTh 2; QTh 2 ].
Local Close Scope nat_scope.

Example q_ex_reachable : exists s, qrun qrw0 q_ex_sched = Some s /\ qreach s /\ ls s = -1 /\ qu s = [1%nat] /\ qs s = [2%nat].
Proof.
  eexists. split; [vm_compute; reflexivity|].
  split; [apply (qrun_qreach q_ex_sched qrw0); [constructor|vm_compute; reflexivity]|repeat split; reflexivity].
Qed.
