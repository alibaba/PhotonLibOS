(* C14 — refinement lemmas: each view-level operation equals its effect on the flat byte string.
   The loops are specified by how they cut the string, F = T ++ R with the length of one part known;
   the firstn/skipn forms follow from that once, by [cut_front] / [cut_back]. *)
From Coq Require Import ZArith List Lia.
From PV Require Import C14.C14_Model C14.C14_Lib.
Import ListNotations.
Local Open Scope Z_scope.

Lemma firstn_whole {A} (n : Z) (l : list A) : zlen l <= n -> firstn (Z.to_nat n) l = l.
Proof. unfold zlen; intros; apply firstn_all2; lia. Qed.
Lemma skipn_whole {A} (n : Z) (l : list A) : zlen l <= n -> skipn (Z.to_nat n) l = [].
Proof. unfold zlen; intros; apply skipn_all2; lia. Qed.
Lemma cut_front {A} (t r : list A) k : zlen t = k -> firstn (Z.to_nat k) (t ++ r) = t /\ skipn (Z.to_nat k) (t ++ r) = r.
Proof.
  intros <-. unfold zlen. rewrite Nat2Z.id, firstn_app, skipn_app, Nat.sub_diag, firstn_all, skipn_all.
  split; [apply app_nil_r | reflexivity].
Qed.

Lemma cut_past {A} (t x : list A) n k : zlen t = n -> 0 <= k ->
  firstn (Z.to_nat (n + k)) (t ++ x) = t ++ firstn (Z.to_nat k) x /\ skipn (Z.to_nat (n + k)) (t ++ x) = skipn (Z.to_nat k) x.
Proof.
  intros <- Hk. unfold zlen. rewrite firstn_app, skipn_app, firstn_all2, skipn_all2 by lia.
  replace (Z.to_nat (Z.of_nat (length t) + k) - length t)%nat with (Z.to_nat k) by lia. auto.
Qed.

Lemma wf_view_cons st e v : wf_view st (e :: v) <-> wf_elem st e /\ wf_view st v.
Proof. unfold wf_view; split; [intros H; inversion H; auto | intros [? ?]; constructor; auto]. Qed.
Lemma wf_len_nonneg st e : wf_elem st e -> 0 <= iv_len e.
Proof. intros (b & _ & _ & H & _); exact H. Qed.
Lemma wf_off_nonneg st e : wf_elem st e -> 0 <= iv_off e.
Proof. intros (b & _ & H & _); exact H. Qed.

Lemma flatT_single st e : flatT st [e] = bytesT st e.
Proof. unfold flatT; simpl; apply app_nil_r. Qed.
(* a whole buffer seen as one element *)
Lemma dst_whole st d n b : get_buf st d = Some b -> zlen b = n -> flatT st [mkiov d 0 n] = b.
Proof.
  intros G L. rewrite flatT_single. unfold bytesT; simpl. rewrite G, <- L. unfold sub, zlen; simpl.
  rewrite Nat2Z.id. apply firstn_all.
Qed.
Lemma v_sum_app a b : v_sum (a ++ b) = v_sum a + v_sum b.
Proof. induction a as [|e a IH]; [unfold v_sum at 2; simpl; lia|]. simpl app. rewrite !v_sum_cons, IH. lia. Qed.
Lemma v_sum_rev v : v_sum (rev v) = v_sum v.
Proof. induction v as [|e v IH]; [reflexivity|]. simpl rev. rewrite v_sum_app, IH, !v_sum_cons. unfold v_sum at 2; simpl. lia. Qed.

(* the string of a vector cut k bytes before its end *)
Lemma cut_back st v (r t : list byte) k : wf_view st v -> flatT st v = r ++ t -> zlen t = k ->
  firstn (Z.to_nat (v_sum v - k)) (flatT st v) = r /\ skipn (Z.to_nat (v_sum v - k)) (flatT st v) = t.
Proof.
  intros W E L. rewrite <- (zlen_flatT st v W), E, zlen_app. replace (zlen r + zlen t - k) with (zlen r) by lia.
  apply cut_front; reflexivity.
Qed.

(* the end of the vector an operation works at; in [join s x y], x lies at that end and y inward of it *)
Inductive side : Set := Front | Back.
Definition join (s : side) {X} (x y : list X) : list X := match s with Front => x ++ y | Back => y ++ x end.
Lemma join_nil s {X} (x : list X) : join s [] x = x.
Proof. destruct s; [reflexivity | apply app_nil_r]. Qed.
(* of a string F of length n: the k bytes at that end, and the others *)
Definition taken (s : side) (n k : Z) (F : list byte) : list byte :=
  match s with Front => firstn (Z.to_nat k) F | Back => skipn (Z.to_nat (n - k)) F end.
Definition rest (s : side) (n k : Z) (F : list byte) : list byte :=
  match s with Front => skipn (Z.to_nat k) F | Back => firstn (Z.to_nat (n - k)) F end.
Lemma cut s st v (t r : list byte) k : wf_view st v -> flatT st v = join s t r -> zlen t = k ->
  taken s (v_sum v) k (flatT st v) = t /\ rest s (v_sum v) k (flatT st v) = r.
Proof. intros W E L. destruct s; [rewrite E; apply cut_front; exact L | destruct (cut_back st v r t k W E L); auto]. Qed.

(* an element cut in two *)
Lemma bytesT_split st e k n o : wf_elem st e -> 0 <= k -> 0 <= n -> k + n = iv_len e -> o = iv_off e + k ->
  bytesT st e = bytesT st (mkiov (iv_id e) (iv_off e) k) ++ bytesT st (mkiov (iv_id e) o n).
Proof.
  intros W Hk Hn E ->. pose proof (wf_off_nonneg _ _ W). replace n with (iv_len e - k) by lia.
  rewrite bytesT_take, bytesT_drop by lia. symmetry; apply firstn_skipn.
Qed.

Lemma shrink_loop_spec st v : wf_view st v -> forall size v' hit s', 0 < size ->
  shrink_loop v size = (v', hit, s') ->
  wf_view st v' /\ (exists post, map iv_id v = map iv_id v' ++ post) /\
  (hit = true -> zlen (flatT st v') = size /\ exists R, flatT st v = flatT st v' ++ R) /\
  (hit = false -> v' = v /\ s' = size - v_sum v /\ v_sum v < size).
Proof.
  induction 1 as [|e v He Hv IH]; intros size v' hit s' Hs E; simpl in E.
  - inversion E; subst. split; [constructor|]. split; [exists []; reflexivity|]. split; [discriminate|].
    intros _. unfold v_sum; simpl. repeat split; lia.
  - pose proof (wf_len_nonneg _ _ He) as Hl. rewrite v_sum_cons. destruct (size <=? iv_len e) eqn:C.
    + apply Z.leb_le in C. pose proof (wf_take st e size He ltac:(lia)) as Wt.
      pose proof (bytesT_split st e size (iv_len e - size) _ He ltac:(lia) ltac:(lia) ltac:(lia) eq_refl) as Sp. inversion E; subst.
      split; [constructor; [exact Wt | constructor]|]. split; [exists (map iv_id v); reflexivity|].
      split; [|discriminate]. intros _. rewrite flatT_single, flatT_cons, Sp. split; [exact (zlen_bytesT _ _ Wt)|].
      eexists. apply app_assoc_reverse.
    + apply Z.leb_gt in C. destruct (shrink_loop v (size - iv_len e)) as [[v1 h1] s1] eqn:R.
      destruct (IH (size - iv_len e) _ _ _ ltac:(lia) R) as (W & [post P] & Hh & Hn). inversion E; subst.
      split; [constructor; auto|]. split; [exists post; simpl; rewrite P; reflexivity|]. split.
      * intros T. destruct (Hh T) as (L & R1 & F). rewrite !flatT_cons, zlen_app, (zlen_bytesT _ _ He), F.
        split; [lia | exists R1; apply app_assoc].
      * intros T. destruct (Hn T) as (-> & -> & L). repeat split; lia.
Qed.

Lemma v_shrink_to_refines st v size v' r : wf_view st v -> 0 <= size ->
  v_shrink_to v size = (v', r) ->
  r = Z.min size (v_sum v) /\ flatT st v' = firstn (Z.to_nat r) (flatT st v) /\ wf_view st v' /\
  (r = size \/ v' = v) /\ exists post, map iv_id v = map iv_id v' ++ post.
Proof.
  intros W Hs E. unfold v_shrink_to in E. pose proof (v_sum_nonneg st v W) as Hsum. pose proof (zlen_flatT st v W) as LF.
  destruct (size =? 0) eqn:Z0.
  - apply Z.eqb_eq in Z0; inversion E; subst. repeat split; [lia | constructor | auto | eexists; reflexivity].
  - apply Z.eqb_neq in Z0. destruct (shrink_loop v size) as [[v1 h] s1] eqn:R.
    destruct (shrink_loop_spec st v W size _ _ _ ltac:(lia) R) as (W1 & P & Hh & Hn).
    destruct h; inversion E; subst.
    + destruct (Hh eq_refl) as (L & R1 & F). rewrite F, zlen_app in LF. pose proof (zlen_nonneg R1).
      rewrite F. rewrite (proj1 (cut_front _ R1 _ L)). repeat split; auto; lia.
    + destruct (Hn eq_refl) as (-> & -> & L). rewrite firstn_whole by lia. repeat split; auto; lia.
Qed.

(* Inv a ex: the accumulator a of the callback holds the bytes ex extracted so far; B bounds their number *)
Section XLoops.
  Context {A : Type} (cb : A -> Z -> Z -> Z -> cbres A) (st : store) (B : Z) (Inv NegI : A -> list byte -> Prop).

  (* xf_loop and xb_loop are one loop.  When only n bytes of element e are wanted, [piece e n] goes to the
     callback and [remain e n] stays; [cat x y] puts x, which the loop meets first, and y, which it meets later,
     in memory order; [dflat v] is the string of v when the loop runs over v *)
  Section Loop.
    Variables (loop : view -> Z -> A -> xres A) (piece remain : iovec -> Z -> iovec)
              (cat : list byte -> list byte -> list byte) (dflat : view -> list byte).
    Hypothesis loop_eq : forall v bytes a, loop v bytes a =
      match v with
      | [] => XDone [] bytes a
      | e :: r =>
          if bytes <=? iv_len e then
            match cb a (iv_id e) (iv_off (piece e bytes)) bytes with
            | CbOob => XOob
            | CbNeg a' => XNeg v a'
            | CbOk a' => if iv_len e - bytes =? 0 then XDone r 0 a' else XDone (remain e bytes :: r) 0 a'
            end
          else
            match cb a (iv_id e) (iv_off e) (iv_len e) with
            | CbOob => XOob
            | CbNeg a' => XNeg v a'
            | CbOk a' => loop r (bytes - iv_len e) a'
            end
      end.
    Hypothesis cat_assoc : forall x y z, cat (cat x y) z = cat x (cat y z).
    Hypothesis cat_nil_l : forall x, cat [] x = x.
    Hypothesis cat_nil_r : forall x, cat x [] = x.
    Hypothesis zlen_cat : forall x y, zlen (cat x y) = zlen x + zlen y.
    Hypothesis dflat_cons : forall e v, dflat (e :: v) = cat (bytesT st e) (dflat v).
    Hypothesis cut : forall e n, wf_elem st e -> 0 <= n <= iv_len e ->
      wf_elem st (piece e n) /\ piece e n = mkiov (iv_id e) (iv_off (piece e n)) n /\
      wf_elem st (remain e n) /\ iv_id (remain e n) = iv_id e /\ iv_len (remain e n) = iv_len e - n /\
      bytesT st e = cat (bytesT st (piece e n)) (bytesT st (remain e n)).
    Hypothesis cb_step : forall a ex id off n, wf_elem st (mkiov id off n) -> Inv a ex -> zlen ex + n <= B ->
      match cb a id off n with
      | CbOk a' => Inv a' (cat ex (bytesT st (mkiov id off n)))
      | CbNeg a' => NegI a' ex
      | CbOob => False
      end.

    (* k bytes of v went to the callback, v' denotes the others *)
    Definition x_post (P : A -> list byte -> Prop) (v : view) (ex : list byte) (v' : view) (a' : A) (k : Z) : Prop :=
      exists T, dflat v = cat T (dflat v') /\ zlen T = k /\ P a' (cat ex T) /\ wf_view st v' /\ zlen v' <= zlen v /\
                exists pre, map iv_id v = pre ++ map iv_id v'.
    Definition x_result (v : view) (bytes : Z) (ex : list byte) (x : xres A) : Prop :=
      match x with
      | XOob => False
      | XDone v' rem a' => 0 <= rem /\ bytes - rem = Z.min bytes (v_sum v) /\ x_post Inv v ex v' a' (bytes - rem)
      | XNeg v' a' => exists k, x_post NegI v ex v' a' k
      end.

    Lemma x_post_here (P : A -> list byte -> Prop) v ex a : wf_view st v -> P a ex -> x_post P v ex v a 0.
    Proof. intros W I. exists []. rewrite cat_nil_l, cat_nil_r. repeat split; auto; try lia. exists []; reflexivity. Qed.
    Lemma x_post_cons (P : A -> list byte -> Prop) e v ex v' a' k : wf_elem st e ->
      x_post P v (cat ex (bytesT st e)) v' a' k -> x_post P (e :: v) ex v' a' (iv_len e + k).
    Proof.
      intros We (T & F & L & I & W & Z & pre & Ip). rewrite cat_assoc in I. exists (cat (bytesT st e) T).
      rewrite dflat_cons, F, cat_assoc, zlen_cat, (zlen_bytesT _ _ We), zlen_cons. repeat split; auto; try lia.
      exists (iv_id e :: pre). simpl. rewrite Ip. reflexivity.
    Qed.

    Lemma x_loop_spec v : wf_view st v -> forall bytes a ex, 0 <= bytes -> zlen ex + bytes <= B -> Inv a ex ->
      x_result v bytes ex (loop v bytes a).
    Proof.
      induction 1 as [|e v He Hv IH]; intros bytes a ex Hb HB I; unfold x_result; rewrite loop_eq.
      - rewrite Z.sub_diag. split; [exact Hb|]. split; [unfold v_sum; simpl; lia|]. apply x_post_here; [constructor | exact I].
      - pose proof (wf_len_nonneg _ _ He) as Hl. pose proof (v_sum_nonneg st v Hv) as Hsum. rewrite v_sum_cons.
        assert (Wv : wf_view st (e :: v)) by (constructor; auto).
        destruct (bytes <=? iv_len e) eqn:C.
        + apply Z.leb_le in C. destruct (cut e bytes He (conj Hb C)) as (Wp & Ep & Wr & Ir & Lr & Sp).
          rewrite Ep in Wp. pose proof (cb_step a ex _ _ _ Wp I HB) as S. rewrite <- Ep in Wp, S.
          destruct (cb a (iv_id e) (iv_off (piece e bytes)) bytes) as [a'|a'|]; [|exists 0; apply x_post_here; assumption|exact S].
          assert (G : x_post Inv (e :: v) ex (if iv_len e - bytes =? 0 then v else remain e bytes :: v) a' bytes).
          { exists (bytesT st (piece e bytes)). rewrite dflat_cons, Sp, cat_assoc, (zlen_bytesT _ _ Wp), Ep. split.
            { f_equal. destruct (iv_len e - bytes =? 0) eqn:Z0; [|symmetry; apply dflat_cons].
              apply Z.eqb_eq in Z0. rewrite bytesT_zero by lia. apply cat_nil_l. }
            split; [reflexivity|]. split; [rewrite <- Ep; exact S|]. destruct (iv_len e - bytes =? 0).
            - split; [exact Hv|]. split; [rewrite zlen_cons; lia | exists [iv_id e]; reflexivity].
            - split; [constructor; auto|]. split; [rewrite !zlen_cons; lia | exists []; simpl; rewrite Ir; reflexivity]. }
          destruct (iv_len e - bytes =? 0); rewrite Z.sub_0_r; (split; [lia|]); (split; [lia|]); exact G.
        + apply Z.leb_gt in C. pose proof (cb_step a ex _ _ _ He I ltac:(lia)) as S.
          destruct (cb a (iv_id e) (iv_off e) (iv_len e)) as [a'|a'|]; [|exists 0; apply x_post_here; assumption|exact S].
          specialize (IH (bytes - iv_len e) a' (cat ex (bytesT st e)) ltac:(lia) ltac:(rewrite zlen_cat, (zlen_bytesT _ _ He); lia) S).
          destruct (loop v (bytes - iv_len e) a') as [|v' a''|v' rem a'']; [exact IH| |].
          * destruct IH as (k & P). exists (iv_len e + k). apply x_post_cons; assumption.
          * destruct IH as (Hr & Hm & P). split; [exact Hr|]. split; [lia|].
            replace (bytes - rem) with (iv_len e + (bytes - iv_len e - rem)) by lia. apply x_post_cons; assumption.
    Qed.
  End Loop.

  Definition do_x (s : side) : view -> Z -> A -> xres A :=
    match s with Front => do_extract_front cb | Back => do_extract_back cb end.
  (* k bytes at the end s of v went to the callback, v' denotes the others *)
  Definition s_post (s : side) (P : A -> list byte -> Prop) (v : view) (ex : list byte) (v' : view) (a' : A) (k : Z) : Prop :=
    exists T, flatT st v = join s T (flatT st v') /\ zlen T = k /\ P a' (join s ex T) /\ wf_view st v' /\ zlen v' <= zlen v /\
              exists p, map iv_id v = join s p (map iv_id v').
  Definition s_result (s : side) (v : view) (bytes : Z) (ex : list byte) (x : xres A) : Prop :=
    match x with
    | XOob => False
    | XDone v' rem a' => 0 <= rem /\ bytes - rem = Z.min bytes (v_sum v) /\ s_post s Inv v ex v' a' (bytes - rem)
    | XNeg v' a' => exists k, s_post s NegI v ex v' a' k
    end.

  Lemma do_x_spec s v bytes a ex :
    (forall a ex id off n, wf_elem st (mkiov id off n) -> Inv a ex -> zlen ex + n <= B ->
       match cb a id off n with
       | CbOk a' => Inv a' (join s ex (bytesT st (mkiov id off n)))
       | CbNeg a' => NegI a' ex
       | CbOob => False
       end) ->
    wf_view st v -> 0 <= bytes -> zlen ex + bytes <= B -> Inv a ex -> s_result s v bytes ex (do_x s v bytes a).
  Proof.
    intros cb_step W Hb HB I. pose proof (v_sum_nonneg st v W). destruct s; simpl in cb_step.
    - unfold do_x, do_extract_front. destruct (bytes =? 0) eqn:Z0.
      + apply Z.eqb_eq in Z0. subst. simpl.
        split; [lia|]. split; [lia|]. apply (x_post_here (@app byte) (flatT st)); auto using app_nil_r.
      + apply (x_loop_spec (xf_loop cb) (fun e n => mkiov (iv_id e) (iv_off e) n)
                 (fun e n => mkiov (iv_id e) (iv_off e + n) (iv_len e - n)) (@app byte) (flatT st)); auto using app_nil_r, zlen_app.
        * intros [|e r] ? ?; reflexivity.
        * intros; apply app_assoc_reverse.
        * intros e n We Hn. pose proof (wf_take st e n We Hn). pose proof (wf_drop st e n We Hn).
          pose proof (bytesT_split st e n (iv_len e - n) _ We ltac:(lia) ltac:(lia) ltac:(lia) eq_refl). auto 7.
    - (* the back loop runs on the reversed list and hands over the bytes from the end: ex is a suffix *)
      unfold do_x, do_extract_back. destruct (bytes =? 0) eqn:Z0.
      + apply Z.eqb_eq in Z0. subst. simpl.
        split; [lia|]. split; [lia|]. exists []. simpl. rewrite app_nil_r. repeat split; auto; try lia. exists []; apply app_nil_end.
      + assert (G : x_result (fun x y => y ++ x) (fun v => flatT st (rev v)) (rev v) bytes ex (xb_loop cb (rev v) bytes a)).
        { apply (x_loop_spec (xb_loop cb) (fun e n => mkiov (iv_id e) (iv_off e + iv_len e - n) n)
                   (fun e n => mkiov (iv_id e) (iv_off e) (iv_len e - n))); auto using app_nil_r, app_assoc.
          + intros [|e r] ? ?; reflexivity.
          + intros; rewrite zlen_app; lia.
          + intros e r. simpl. rewrite flatT_app, flatT_single. reflexivity.
          + intros e n We Hn. pose proof (wf_take st e (iv_len e - n) We ltac:(lia)).
            pose proof (bytesT_split st e (iv_len e - n) n (iv_off e + iv_len e - n) We ltac:(lia) ltac:(lia) ltac:(lia) ltac:(lia)).
            assert (wf_elem st (mkiov (iv_id e) (iv_off e + iv_len e - n) n)).
            { replace (iv_off e + iv_len e - n) with (iv_off e + (iv_len e - n)) by lia. apply wf_mid; auto; lia. }
            auto 7.
          + apply Forall_rev; exact W. }
        assert (U : forall P rv' a' k, x_post (fun x y => y ++ x) (fun v => flatT st (rev v)) P (rev v) ex rv' a' k ->
                                      s_post Back P v ex (rev rv') a' k).
        { intros P rv' a' k (T & F & L & I' & W' & Z' & pre & Ip). rewrite rev_involutive in F. exists T.
          rewrite zlen_rev in *. repeat split; auto; [apply Forall_rev; exact W'|].
          exists (rev pre). simpl. rewrite map_rev, <- rev_app_distr, <- Ip, map_rev, rev_involutive. reflexivity. }
        unfold x_result in G. rewrite v_sum_rev in G.
        destruct (xb_loop cb (rev v) bytes a) as [|rv' a'|rv' rem a']; simpl.
        * exact G.
        * destruct G as [k G]. exists k. apply U, G.
        * destruct G as (Hr & Hm & G). auto.
  Qed.
End XLoops.

Lemma x_discard_refines s st v bytes : wf_view st v -> 0 <= bytes ->
  exists v' rem, do_x cb_discard s v bytes tt = XDone v' rem tt /\
    bytes - rem = Z.min bytes (v_sum v) /\ flatT st v' = rest s (v_sum v) (bytes - rem) (flatT st v) /\
    wf_view st v' /\ zlen v' <= zlen v /\ exists p, map iv_id v = join s p (map iv_id v').
Proof.
  intros W Hb.
  pose proof (do_x_spec cb_discard st bytes (fun _ _ => True) (fun _ _ => False) s v bytes tt [] (fun _ _ _ _ _ _ _ _ => I)
                W Hb (Z.le_refl _) I) as G.
  destruct (do_x cb_discard s v bytes tt) as [|v' a'|v' rem []]; [destruct G | destruct G as (k & T & _ & _ & [] & _) |].
  destruct G as (_ & K & T & F & L & _ & G). exists v', rem. split; [reflexivity|]. split; [exact K|].
  split; [symmetry; apply (cut s st v T _ _ W F L) | exact G].
Qed.

(* the out view denotes the extracted bytes and never has more than its N slots in use *)
Definition vInv (st : store) (N : Z) (a : view) (ex : list byte) : Prop :=
  flatT st a = ex /\ wf_view st a /\ (0 <= N -> zlen a <= N).
Lemma vInv_nil st N : vInv st N [] [].
Proof. split; [reflexivity|]. split; [constructor | auto]. Qed.
Definition cb_view (s : side) : Z -> view -> Z -> Z -> Z -> cbres view :=
  match s with Front => cb_view_front | Back => cb_view_back end.
Lemma cb_view_step s st N B : forall (a : view) ex id off n, wf_elem st (mkiov id off n) -> vInv st N a ex -> zlen ex + n <= B ->
  match cb_view s N a id off n with
  | CbOk a' => vInv st N a' (join s ex (bytesT st (mkiov id off n))) | CbNeg a' => vInv st N a' ex | CbOob => False end.
Proof.
  intros a ex id off n W (F & Wa & La) _. destruct s; simpl; [unfold cb_view_front | unfold cb_view_back];
    (destruct (zlen a =? N) eqn:C; [repeat split; auto|]); apply Z.eqb_neq in C.
  - split; [rewrite flatT_app, flatT_single, F; reflexivity|].
    split; [apply Forall_app; split; auto | rewrite zlen_app; unfold zlen at 2; simpl; lia].
  - split; [rewrite flatT_cons, F; reflexivity|]. split; [constructor; auto | rewrite zlen_cons; lia].
Qed.

(* result: XDone -> out = the k bytes at that end, rest = the remaining bytes; XNeg (-1) -> out and rest make up all bytes *)
Lemma x_view_refines s st v bytes N : wf_view st v -> 0 <= bytes ->
  match do_x (cb_view s N) s v bytes [] with
  | XOob => False
  | XDone v' rem a =>
      bytes - rem = Z.min bytes (v_sum v) /\ flatT st a = taken s (v_sum v) (bytes - rem) (flatT st v) /\
      flatT st v' = rest s (v_sum v) (bytes - rem) (flatT st v) /\ wf_view st v' /\ wf_view st a /\ zlen v' <= zlen v /\
      (0 <= N -> zlen a <= N) /\ exists p, map iv_id v = join s p (map iv_id v')
  | XNeg v' a => join s (flatT st a) (flatT st v') = flatT st v /\ wf_view st v' /\ wf_view st a /\ zlen v' <= zlen v /\
      exists p, map iv_id v = join s p (map iv_id v')
  end.
Proof.
  intros W Hb.
  pose proof (do_x_spec (cb_view s N) st bytes (vInv st N) (vInv st N) s v bytes [] [] (cb_view_step s st N bytes)
                W Hb (Z.le_refl _) (vInv_nil st N)) as G.
  destruct (do_x (cb_view s N) s v bytes []) as [|v' a'|v' rem a']; [exact G| |].
  - destruct G as (k & T & F & _ & (Fa & Wa & _) & W' & G). rewrite join_nil in Fa. rewrite F, Fa. auto.
  - destruct G as (_ & K & T & F & L & (Fa & Wa & La) & W' & Z' & Ip). rewrite join_nil in Fa.
    destruct (cut s st v T _ _ W F L) as [C1 C2]. rewrite C1, C2, Fa. auto 9.
Qed.

Definition agree_except (d : Z) (st' st1 : store) : Prop :=
  zlen st' = zlen st1 /\ forall j, j <> d -> get_buf st' j = get_buf st1 j.
Lemma agree_refl d st : agree_except d st st.
Proof. split; auto. Qed.
(* a store that differs from st ++ x only in the first buffer after st keeps st *)
Lemma agree_keeps st x st' : agree_except (zlen st) st' (st ++ x) -> keeps st st'.
Proof. intros [_ Ag] id b Hb. pose proof (get_buf_Some _ _ _ Hb). rewrite Ag by lia. apply get_buf_app_l; exact Hb. Qed.

Lemma load_keeps st st' e : keeps st st' -> wf_elem st e -> load st' (iv_id e) (iv_off e) (iv_len e) = Some (bytesT st e).
Proof. intros K W. rewrite <- (bytesT_keeps _ _ _ K W). apply load_wf. eapply wf_elem_keeps; eauto. Qed.

(* a write into the destination buffer d *)
Lemma store_dst d st' st1 b p data : agree_except d st' st1 -> get_buf st' d = Some b -> 0 <= p -> p + zlen data <= zlen b ->
  exists st'', store_bytes st' d p data = Some st'' /\ agree_except d st'' st1 /\ get_buf st'' d = Some (splice b p data).
Proof.
  intros [Az Ag] Gd Hp Hl. destruct (store_bytes st' d p data) as [st''|] eqn:SB.
  - destruct (store_bytes_get _ _ _ _ _ SB) as (b0 & Hb0 & _ & _ & Hn0 & Hoth & Hz). rewrite Gd in Hb0; inversion Hb0; subst b0.
    exists st''. split; [reflexivity|]. split; [|exact Hn0]. split; [lia|]. intros j Hj. rewrite Hoth by exact Hj. apply Ag; exact Hj.
  - unfold store_bytes in SB. pose proof (zlen_nonneg data). rewrite Gd, in_range_true in SB by lia. discriminate.
Qed.

Lemma splice_append (ex r data : list byte) : splice (ex ++ r) (zlen ex) data = ex ++ data ++ skipn (length data) r.
Proof.
  unfold splice, zlen. rewrite Nat2Z.id. rewrite firstn_app_le by lia. rewrite firstn_all.
  rewrite skipn_app_ge by lia. do 3 f_equal. lia.
Qed.
Lemma splice_prepend (l ex data : list byte) (p : Z) : 0 <= p -> p + zlen data = zlen l ->
  splice (l ++ ex) p data = firstn (Z.to_nat p) l ++ data ++ ex.
Proof.
  unfold splice, zlen. intros Hp Hl. rewrite firstn_app_le by lia.
  rewrite skipn_app_ge by lia. replace (Z.to_nat p + length data - length l)%nat with O by lia. reflexivity.
Qed.

Definition cb_copy (s : side) : Z -> store * Z -> Z -> Z -> Z -> cbres (store * Z) :=
  match s with Front => cb_copy_front | Back => cb_copy_back end.
(* the accumulator (store, position) of the copying callbacks: the destination buffer, after st, holds the
   extracted bytes ex followed (front) or preceded (back) by what is left of its first content pat *)
Definition cInv (s : side) (st : store) (pat : list byte) (a : store * Z) (ex : list byte) : Prop :=
  snd a = match s with Front => zlen ex | Back => zlen pat - zlen ex end /\ agree_except (zlen st) (fst a) (st ++ [pat]) /\
  get_buf (fst a) (zlen st) = Some (join s ex (rest s (zlen pat) (zlen ex) pat)).

Lemma cb_copy_step s st pat : forall (a : store * Z) ex id off n, wf_elem st (mkiov id off n) ->
  cInv s st pat a ex -> zlen ex + n <= zlen pat ->
  match cb_copy s (zlen st) a id off n with
  | CbOk a' => cInv s st pat a' (join s ex (bytesT st (mkiov id off n))) | CbNeg a' => False | CbOob => False end.
Proof.
  intros [st' pos] ex id off n W (P & Ag & Gd) HB. simpl in P, Ag, Gd. subst pos.
  pose proof (load_keeps _ _ _ (agree_keeps _ _ _ Ag) W) as Ld. pose proof (zlen_bytesT _ _ W) as Ln. simpl in Ld, Ln.
  pose proof (wf_len_nonneg _ _ W) as Hn. simpl in Hn.
  pose proof (zlen_nonneg ex) as Hex. set (data := bytesT st (mkiov id off n)) in *. destruct s; simpl in Gd |- *.
  - unfold memcpy. rewrite Ld.
    destruct (store_dst _ _ _ _ (zlen ex) data Ag Gd Hex) as (st'' & -> & Ag' & Gd').
    { rewrite zlen_app, zlen_skipn by lia. lia. }
    split; [|split]; simpl.
    + rewrite zlen_app; lia.
    + exact Ag'.
    + rewrite zlen_app, Gd', splice_append, <- app_assoc. do 3 f_equal. rewrite skipn_skipn'. f_equal. unfold zlen in *. lia.
  - unfold memcpy. rewrite Ld. set (pos := zlen pat - zlen ex) in *.
    assert (Lf : zlen (firstn (Z.to_nat pos) pat) = pos) by (apply zlen_firstn; lia).
    destruct (store_dst _ _ _ _ (pos - n) data Ag Gd ltac:(lia)) as (st'' & -> & Ag' & Gd').
    { rewrite zlen_app. lia. }
    split; [|split]; simpl.
    + rewrite zlen_app; lia.
    + exact Ag'.
    + rewrite zlen_app, Gd', splice_prepend by lia. rewrite firstn_firstn. do 3 f_equal. lia.
Qed.

(* extract_front/back(n, buf) with buf = a fresh n-byte buffer d appended to the store: the k extracted bytes
   land at buf[0 .. k) (front), at buf[n-k .. n) (back) *)
Lemma x_copy_refines s st v n : wf_view st v -> 0 <= n ->
  let '(st1, d) := new_buf st n in let pat := pattern d n in
  exists v' rem st2 pos,
    do_x (cb_copy s d) s v n (st1, match s with Front => 0 | Back => n end) = XDone v' rem (st2, pos) /\
    n - rem = Z.min n (v_sum v) /\ flatT st2 v' = rest s (v_sum v) (n - rem) (flatT st v) /\ wf_view st2 v' /\
    get_buf st2 d = Some (join s (taken s (v_sum v) (n - rem) (flatT st v)) (rest s n (n - rem) pat)) /\
    zlen v' <= zlen v /\ agree_except d st2 st1 /\ (exists p, map iv_id v = join s p (map iv_id v')) /\
    flatT st2 [mkiov d 0 n] = join s (taken s (v_sum v) (n - rem) (flatT st v)) (rest s n (n - rem) pat).
Proof.
  intros W Hn. unfold new_buf. cbv beta iota zeta. set (d := zlen st). set (pat := pattern d n). set (st1 := (st ++ [pat] : store)).
  set (p0 := match s with Front => 0 | Back => n end).
  assert (Lp : zlen pat = n) by (apply pattern_length; exact Hn).
  assert (I0 : cInv s st pat (st1, p0) []).
  { unfold cInv, p0. change (zlen (@nil byte)) with 0. rewrite Z.sub_0_r, Lp. split; [destruct s; reflexivity | split; [apply agree_refl |]].
    destruct s; simpl; [|rewrite app_nil_r, firstn_whole by lia]; apply get_buf_new. }
  pose proof (do_x_spec (cb_copy s d) st (zlen pat) (cInv s st pat) (fun _ _ => False) s v n (st1, p0) [] (cb_copy_step s st pat)
                W Hn ltac:(rewrite Lp; apply Z.le_refl) I0) as G.
  destruct (do_x (cb_copy s d) s v n (st1, p0)) as [|v' a'|v' rem [st2 pos]];
    [destruct G | destruct G as (k & T & _ & _ & [] & _) |].
  destruct G as (_ & K & T & F & L & (P & Ag & Gd) & W' & Z' & Ip). simpl in Ag, Gd. rewrite join_nil, L, Lp in Gd.
  pose proof (agree_keeps _ _ _ Ag) as Kp. destruct (cut s st v T _ _ W F L) as [C1 C2].
  exists v', rem, st2, pos. rewrite C1, C2, (flatT_keeps _ _ _ Kp W'). pose proof (wf_view_keeps _ _ _ Kp W').
  assert (flatT st2 [mkiov d 0 n] = join s T (rest s n (n - rem) pat)).
  { apply dst_whole; [exact Gd|]. pose proof (v_sum_nonneg st v W).
    destruct s; simpl; rewrite zlen_app; [rewrite zlen_skipn | rewrite zlen_firstn]; lia. }
  auto 10.
Qed.

(* extract_front/back_continuous on a view: a pointer into the first / last element when it holds the n bytes *)
Lemma v_xc_refines s st v n v' p : wf_view st v -> 0 <= n -> match s with Front => v_xfc | Back => v_xbc end v n = (v', p) ->
  match p with
  | None => v' = v
  | Some (pid, poff) =>
      n <= v_sum v /\ wf_elem st (mkiov pid poff n) /\ bytesT st (mkiov pid poff n) = taken s (v_sum v) n (flatT st v) /\
      flatT st v' = rest s (v_sum v) n (flatT st v) /\ wf_view st v' /\ zlen v' <= zlen v /\
      exists q, map iv_id v = join s q (map iv_id v')
  end.
Proof.
  destruct s; cbn [taken rest join].
  - intros W Hn E. destruct v as [|f r]; simpl in E; [inversion E; reflexivity|].
    apply wf_view_cons in W. destruct W as [Wf Wr].
    pose proof (wf_len_nonneg _ _ Wf) as Hl. pose proof (v_sum_nonneg st r Wr) as Hs.
    destruct (iv_len f <? n) eqn:C; [inversion E; reflexivity|]. apply Z.ltb_ge in C.
    pose proof (wf_take st f n Wf ltac:(lia)) as Wp. pose proof (zlen_bytesT _ _ Wp) as L. simpl in L.
    inversion E; subst; clear E.
    rewrite v_sum_cons, flatT_cons, (bytesT_split st f n (iv_len f - n) _ Wf), <- app_assoc by (reflexivity || lia).
    destruct (cut_front _ (bytesT st (mkiov (iv_id f) (iv_off f + n) (iv_len f - n)) ++ flatT st r) _ L) as [C1 C2].
    rewrite C1, C2. split; [lia|]. split; [exact Wp|]. split; [reflexivity|].
    destruct (iv_len f - n =? 0) eqn:Z0.
    + apply Z.eqb_eq in Z0. rewrite bytesT_zero by exact Z0. repeat split; auto; [rewrite zlen_cons; lia | exists [iv_id f]; reflexivity].
    + repeat split; auto; [constructor; auto; apply wf_drop; auto; lia | rewrite !zlen_cons; lia | exists []; reflexivity].
  - intros W Hn E. unfold v_xbc in E. destruct (rev v) as [|b r] eqn:Rv; [inversion E; reflexivity|].
    assert (LL : v = rev r ++ [b]) by (rewrite <- (rev_involutive v), Rv; reflexivity).
    destruct (iv_len b <? n) eqn:C; [inversion E; reflexivity|]. apply Z.ltb_ge in C.
    subst v. pose proof W as Wv. apply Forall_app in W. destruct W as [Wr Wb]. apply Forall_inv in Wb.
    pose proof (wf_len_nonneg _ _ Wb) as Hl. pose proof (v_sum_nonneg st _ Wr) as Hs.
    pose proof (wf_mid st b (iv_len b - n) n Wb ltac:(lia) Hn ltac:(lia)) as Wp. pose proof (zlen_bytesT _ _ Wp) as L. simpl in L.
    assert (F : flatT st (rev r ++ [b]) = (flatT st (rev r) ++ bytesT st (mkiov (iv_id b) (iv_off b) (iv_len b - n))) ++
                                          bytesT st (mkiov (iv_id b) (iv_off b + (iv_len b - n)) n)).
    { rewrite flatT_app, flatT_single, <- app_assoc. f_equal. apply bytesT_split; auto; lia. }
    destruct (cut_back st _ _ _ _ Wv F L) as [C1 C2]. inversion E; subst; clear E.
    rewrite C1, C2, v_sum_app, v_sum_cons. unfold v_sum at 2; simpl sum_loop.
    split; [lia|]. split; [exact Wp|]. split; [reflexivity|]. rewrite zlen_app.
    destruct (iv_len b - n =? 0) eqn:Z0.
    + apply Z.eqb_eq in Z0. rewrite bytesT_zero, app_nil_r by exact Z0.
      repeat split; auto; [unfold zlen at 3; simpl; lia | exists [iv_id b]; apply map_app].
    + simpl rev. rewrite flatT_app, flatT_single, zlen_app. split; [reflexivity|].
      split; [apply Forall_app; split; auto; constructor; [apply wf_take; auto; lia|constructor]|].
      split; [reflexivity | exists []; rewrite app_nil_r, !map_app; reflexivity].
Qed.

Lemma NoDup_app_l {A} (a b : list A) : NoDup (a ++ b) -> NoDup a.
Proof.
  induction a as [|x a IH]; intros H; [constructor|]. inversion H as [|? ? Hn Hd]; subst. constructor; [|apply IH; exact Hd].
  intros Hi; apply Hn; apply in_or_app; left; exact Hi.
Qed.
Lemma NoDup_app_r {A} (a b : list A) : NoDup (a ++ b) -> NoDup b.
Proof. induction a as [|x a IH]; intros H; [exact H|]. inversion H; subst. apply IH; assumption. Qed.
Definition ids_ok (v : view) : Prop := NoDup (map iv_id v).
Lemma ids_ok_suffix v v' : (exists pre, map iv_id v = pre ++ map iv_id v') -> ids_ok v -> ids_ok v'.
Proof. unfold ids_ok; intros [pre E] H; rewrite E in H. eapply NoDup_app_r; eauto. Qed.
Lemma ids_ok_prefix v v' : (exists post, map iv_id v = map iv_id v' ++ post) -> ids_ok v -> ids_ok v'.
Proof. unfold ids_ok; intros [post E] H; rewrite E in H. eapply NoDup_app_l; eauto. Qed.

Lemma ids_ok_seg s v v' : (exists p, map iv_id v = join s p (map iv_id v')) -> ids_ok v -> ids_ok v'.
Proof. destruct s; [apply ids_ok_suffix | apply ids_ok_prefix]. Qed.

Lemma slt_loop_spec st v : wf_view st v -> forall size v' x, 0 < size -> slt_loop v size = Some (v', x) ->
  wf_view st v' /\ (exists post, v = v' ++ post) /\ 0 <= x /\ v_sum v' = size + x /\ v' <> [] /\
  v_sum (removelast v') < size.
Proof.
  induction 1 as [|e v He Hv IH]; intros size v' x Hs E; simpl in E; [discriminate|].
  pose proof (wf_len_nonneg _ _ He) as Hl.
  destruct (size <=? iv_len e) eqn:C.
  - apply Z.leb_le in C. inversion E; subst. split; [constructor; auto; constructor|]. split; [exists v; reflexivity|].
    rewrite v_sum_cons. unfold v_sum; simpl. repeat split; try lia. discriminate.
  - apply Z.leb_gt in C. destruct (slt_loop v (size - iv_len e)) as [[v1 x1]|] eqn:R; [|discriminate]. inversion E; subst.
    assert (P : 0 < size - iv_len e) by lia.
    destruct (IH _ _ _ P R) as (W1 & [post Pp] & Hx & S1 & NE & RL).
    split; [constructor; auto|]. split; [exists post; rewrite Pp; reflexivity|]. rewrite v_sum_cons.
    split; [lia|]. split; [lia|]. split; [discriminate|].
    destruct v1 as [|y v1]; [contradiction|]. change (removelast (e :: y :: v1)) with (e :: removelast (y :: v1)).
    rewrite v_sum_cons. lia.
Qed.
Lemma slt_loop_none st v : wf_view st v -> forall size, 0 < size -> slt_loop v size = None -> v_sum v < size.
Proof.
  induction 1 as [|e v He Hv IH]; intros size Hs E; simpl in E; [unfold v_sum; simpl; lia|].
  pose proof (wf_len_nonneg _ _ He) as Hl. rewrite v_sum_cons.
  destruct (size <=? iv_len e) eqn:C; [discriminate|]. apply Z.leb_gt in C.
  destruct (slt_loop v (size - iv_len e)) as [[v1 x1]|] eqn:R; [discriminate|].
  assert (P : 0 < size - iv_len e) by lia. pose proof (IH _ P R). lia.
Qed.
(* shrink_less_than(size): the vector is cut after the element in which byte `size` falls; the
   return value is the number of bytes of that element beyond `size` (size = 0: everything is
   dropped and the length of the first element is returned). *)
Lemma v_shrink_less_than_refines st v size v' r : wf_view st v -> 0 <= size -> v_shrink_less_than v size = (v', r) ->
  wf_view st v' /\ (exists post, v = v' ++ post) /\
  (size = 0 -> v' = [] /\ r = match v with [] => 0 | e :: _ => iv_len e end) /\
  (0 < size -> size <= v_sum v -> v_sum v' = size + r /\ 0 <= r /\ v_sum (removelast v') < size) /\
  (v_sum v < size -> v' = v /\ r = 0).
Proof.
  intros W Hs E. unfold v_shrink_less_than in E. destruct (size =? 0) eqn:Z0.
  - apply Z.eqb_eq in Z0. subst size. pose proof (v_sum_nonneg st v W).
    destruct v as [|e v0]; inversion E; subst; (split; [constructor|]); (split; [eexists; reflexivity|]);
      repeat split; auto; try lia.
  - apply Z.eqb_neq in Z0. destruct (slt_loop v size) as [[v1 x]|] eqn:R; inversion E; subst.
    + assert (P : 0 < size) by lia. destruct (slt_loop_spec st v W _ _ _ P R) as (W1 & Pp & Hx & S1 & NE & RL).
      split; [exact W1|]. split; [exact Pp|]. split; [lia|]. split; [auto|].
      intros L. destruct Pp as [post Pp]. exfalso. subst v.
      apply Forall_app in W. destruct W as [_ Wp]. pose proof (v_sum_nonneg st post Wp). rewrite v_sum_app in L. lia.
    + assert (P : 0 < size) by lia. pose proof (slt_loop_none st v' W _ P R).
      split; [exact W|]. split; [exists []; rewrite app_nil_r; reflexivity|]. split; [lia|]. split; [lia|]. auto.
Qed.

(* slice skips whole elements up to the one holding byte `offset`: S is what it skipped *)
Lemma slice_skip_spec st v : wf_view st v -> forall pos offset it pos', pos <= offset -> slice_skip v pos offset = (it, pos') ->
  exists S, flatT st v = S ++ flatT st it /\ zlen S = pos' - pos /\ pos' <= offset /\ wf_view st it /\ zlen it <= zlen v /\
            match it with [] => True | e :: _ => offset < pos' + iv_len e end.
Proof.
  induction 1 as [|e v He Hv IH]; intros pos offset it pos' Hp E; simpl in E.
  - inversion E; subst. exists []. rewrite Z.sub_diag. repeat split; auto; try lia. constructor.
  - destruct (offset <? pos + iv_len e) eqn:C.
    + apply Z.ltb_lt in C. inversion E; subst. exists []. rewrite Z.sub_diag. repeat split; auto; try lia. constructor; auto.
    + apply Z.ltb_ge in C. destruct (IH _ _ _ _ C E) as (S & F & L & P & W1 & Z1 & M). exists (bytesT st e ++ S).
      rewrite flatT_cons, F, app_assoc, zlen_app, (zlen_bytesT _ _ He), zlen_cons. repeat split; auto; lia.
Qed.

(* then it hands out elements while `count` and the slots last: R is what it left; with a slot for every
   element it stops only because `count` is reached *)
Lemma slice_rest_spec st v : wf_view st v -> forall count room o ret, 0 < count -> slice_rest v count room = (o, ret) ->
  wf_view st o /\ ret = zlen (flatT st o) /\ 0 <= ret <= count /\
  exists R, flatT st v = flatT st o ++ R /\ (zlen v <= room -> ret = count \/ R = []).
Proof.
  induction 1 as [|e v He Hv IH]; intros count room o ret Hc E; simpl in E.
  - inversion E; subst. repeat split; auto; try lia; [constructor|]. exists []. auto.
  - pose proof (wf_len_nonneg _ _ He) as Hl. pose proof (zlen_nonneg v) as Hz. rewrite zlen_cons, flatT_cons.
    destruct (room <=? 0) eqn:R0.
    + apply Z.leb_le in R0. inversion E; subst. repeat split; auto; try lia; [constructor|]. eexists. split; [reflexivity | lia].
    + destruct (count <=? iv_len e) eqn:C.
      * apply Z.leb_le in C. pose proof (wf_take st e count He ltac:(lia)) as Wt. pose proof (zlen_bytesT _ _ Wt) as Lt.
        pose proof (bytesT_split st e count (iv_len e - count) _ He ltac:(lia) ltac:(lia) ltac:(lia) eq_refl) as Sp.
        inversion E; subst. rewrite flatT_single, Sp, <- app_assoc.
        split; [constructor; [exact Wt | constructor]|]. split; [symmetry; exact Lt|]. split; [lia|]. eexists. auto.
      * apply Z.leb_gt in C. destruct (slice_rest v (count - iv_len e) (room - 1)) as [o1 r1] eqn:R. inversion E; subst.
        destruct (IH (count - iv_len e) _ _ _ ltac:(lia) R) as (W1 & Z1 & B1 & R1 & F1 & M1).
        split; [constructor; auto|]. rewrite flatT_cons, zlen_app, (zlen_bytesT _ _ He), F1.
        split; [lia|]. split; [lia|]. exists R1. split; [apply app_assoc | intros L; destruct M1; [lia|left; lia|right; assumption]].
Qed.

(* slice(count, offset, out): out denotes a prefix of bytes [offset, offset+count); all of them when out
   has a slot for every element; the vector itself is untouched (the function takes a const view) *)
Lemma v_slice_refines st v count offset N : wf_view st v -> 0 <= count -> 0 <= offset ->
  let want := firstn (Z.to_nat count) (skipn (Z.to_nat offset) (flatT st v)) in
  match v_slice v count offset N with
  | (r, None) => N = 0 /\ r = -1
  | (r, Some a) => N <> 0 /\ wf_view st a /\ r = zlen (flatT st a) /\ flatT st a = firstn (Z.to_nat r) want /\
                   (zlen v <= N -> flatT st a = want)
  end.
Proof.
  intros W Hc Ho want. unfold v_slice. destruct (N =? 0) eqn:N0; [apply Z.eqb_eq in N0; auto|]. apply Z.eqb_neq in N0.
  destruct (count =? 0) eqn:C0.
  { apply Z.eqb_eq in C0. subst count. unfold want. simpl. repeat split; auto. constructor. }
  apply Z.eqb_neq in C0.
  destruct (slice_skip v 0 offset) as [it pos] eqn:SK.
  destruct (slice_skip_spec st v W 0 offset it pos Ho SK) as (S & F & LS & P1 & W1 & L1 & M1). rewrite Z.sub_0_r in LS.
  destruct it as [|e r0].
  - simpl in F. rewrite app_nil_r in F. assert (want = []) as ->. { unfold want. rewrite F, skipn_whole by lia. apply firstn_nil. }
    repeat split; auto; constructor.
  - apply wf_view_cons in W1. destruct W1 as [We Wr]. pose proof (wf_len_nonneg _ _ We) as Hl.
    set (dlt := offset - pos) in *. assert (Hd : 0 <= dlt < iv_len e) by (unfold dlt; lia).
    (* the first piece: element e from byte dlt on; X = everything from byte `offset` on *)
    pose proof (wf_drop st e dlt We ltac:(lia)) as Wf. pose proof (zlen_bytesT _ _ Wf) as Lf. simpl in Lf.
    pose proof (zlen_bytesT _ _ (wf_take st e dlt We ltac:(lia))) as Ld. simpl in Ld.
    assert (SKP : skipn (Z.to_nat offset) (flatT st v) = bytesT st (mkiov (iv_id e) (iv_off e + dlt) (iv_len e - dlt)) ++ flatT st r0).
    { rewrite F, flatT_cons, (bytesT_split st e dlt (iv_len e - dlt) _ We), <- app_assoc, app_assoc by (reflexivity || lia).
      apply cut_front. rewrite zlen_app. unfold dlt in *. lia. }
    cbn [iv_len iv_id iv_off]. unfold want. rewrite SKP. clear SKP F want.
    destruct (count <=? iv_len e - dlt) eqn:C.
    + apply Z.leb_le in C. pose proof (wf_take st _ count Wf ltac:(simpl; lia)) as Wt. pose proof (zlen_bytesT _ _ Wt) as Lt. simpl in Wt, Lt.
      rewrite (bytesT_split st _ count (iv_len e - dlt - count) _ Wf), <- app_assoc by (reflexivity || simpl; lia). simpl iv_id; simpl iv_off.
      rewrite flatT_single, (proj1 (cut_front _ _ _ Lt)), Lt, firstn_whole by lia. repeat split; auto. constructor; [exact Wt | constructor].
    + apply Z.leb_gt in C. destruct (slice_rest r0 (count - (iv_len e - dlt)) (N - 1)) as [o ret] eqn:R.
      destruct (slice_rest_spec st r0 Wr (count - (iv_len e - dlt)) _ _ _ ltac:(lia) R) as (Wo & Zo & Bo & R1 & Fo & Mo).
      rewrite flatT_cons, Fo, app_assoc. set (A := bytesT st _ ++ flatT st o) in *.
      assert (LA : zlen A = iv_len e - dlt + ret) by (unfold A; rewrite zlen_app; lia).
      split; [exact N0|]. split; [constructor; auto|]. split; [symmetry; exact LA|]. split.
      * rewrite firstn_firstn, Nat.min_l, <- LA by lia. symmetry. apply cut_front. reflexivity.
      * intros LN. rewrite zlen_cons in L1. destruct (Mo ltac:(lia)) as [Q| ->].
        -- replace count with (zlen A) by lia. symmetry. apply cut_front. reflexivity.
        -- rewrite app_nil_r, firstn_whole by lia. reflexivity.
Qed.

(* an out view with a slot for every element: extract_*(bytes, view ptr) never returns -1 *)
Lemma x_view_enough s N v : forall bytes a, zlen a + zlen v <= N ->
  match match s with Front => xf_loop | Back => xb_loop end (cb_view s N) v bytes a with XNeg _ _ => False | _ => True end.
Proof.
  induction v as [|e v IH]; intros bytes a H; [destruct s; exact I|]. rewrite zlen_cons in H. pose proof (zlen_nonneg v).
  assert (C : (zlen a =? N) = false) by (apply Z.eqb_neq; lia).
  destruct s; simpl; [unfold cb_view_front | unfold cb_view_back]; rewrite C;
    (destruct (bytes <=? iv_len e); [destruct (iv_len e - bytes =? 0); exact I | apply IH]).
  - rewrite zlen_app. unfold zlen at 2; simpl. lia.
  - rewrite zlen_cons. lia.
Qed.
Lemma extract_view_enough_slots N v bytes : zlen v <= N ->
  (match do_extract_front (cb_view_front N) v bytes [] with XNeg _ _ => False | _ => True end) /\
  (match do_extract_back (cb_view_back N) v bytes [] with XNeg _ _ => False | _ => True end).
Proof.
  intros H. split.
  - unfold do_extract_front. destruct (bytes =? 0); [exact I|]. apply (x_view_enough Front). unfold zlen at 1; simpl; lia.
  - unfold do_extract_back. destruct (bytes =? 0); [exact I|].
    pose proof (x_view_enough Back N (rev v) bytes []) as G. cbn [cb_view] in G. rewrite zlen_rev in G. specialize (G ltac:(unfold zlen at 1; simpl; lia)).
    destruct (xb_loop (cb_view_back N) (rev v) bytes []); simpl; auto.
Qed.

