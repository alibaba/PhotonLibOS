(* C14 — iovector / iovector_view (common/iovector.h, common/iovector.cpp).
   Executable model ONLY (no proofs here).

   Memory (DESIGN.md §4.2): a store is a list of byte buffers indexed by buffer id; an iovec
   is (buffer id, offset, length); every byte access goes through [load]/[store_bytes], which
   return None outside the buffer.  "No out-of-bounds" = the run is not None.  Reads of an
   iovec ARRAY outside its element count are modelled the same way where the C++ can do them
   (the old iov_iterator constructor, kept as [it_ctor_old]).

   Conventions: sizes/offsets are Z (size_t values; the 2^64 wrap of `sum` is unreachable for
   elements that describe real memory — the theorems carry the guard "elements lie inside
   their buffers", which bounds every sum by the total memory).  Asserts are OFF (-DNDEBUG).
   The model follows the FIXED iov_iterator constructor (repo_patches/C14-fix-iov-iterator-empty.diff) and the FIXED
   extract_front/back(bytes, iovector ptr) (repo_patches/C14-fix-extract-into-iovector-capacity.diff). *)
From Coq Require Import ZArith List Bool.
Import ListNotations.
Local Open Scope Z_scope.

(* ------------------------------------------------------------------ memory *)
Definition byte := Z.
Definition store := list (list byte).
Definition zlen {A} (l : list A) : Z := Z.of_nat (length l).

Definition get_buf (st : store) (id : Z) : option (list byte) :=
  if id <? 0 then None else nth_error st (Z.to_nat id).
Definition sub (b : list byte) (off n : Z) : list byte :=
  firstn (Z.to_nat n) (skipn (Z.to_nat off) b).
Definition in_range (b : list byte) (off n : Z) : bool :=
  (0 <=? off) && (0 <=? n) && (off + n <=? zlen b).
Definition load (st : store) (id off n : Z) : option (list byte) :=
  match get_buf st id with
  | None => None
  | Some b => if in_range b off n then Some (sub b off n) else None
  end.
Definition splice (b : list byte) (off : Z) (data : list byte) : list byte :=
  firstn (Z.to_nat off) b ++ data ++ skipn (Z.to_nat off + length data) b.
Fixpoint set_nth {A} (l : list A) (k : nat) (x : A) : list A :=
  match l, k with
  | [], _ => []
  | _ :: r, O => x :: r
  | y :: r, S k' => y :: set_nth r k' x
  end.
Definition store_bytes (st : store) (id off : Z) (data : list byte) : option store :=
  match get_buf st id with
  | None => None
  | Some b => if in_range b off (zlen data)
              then Some (set_nth st (Z.to_nat id) (splice b off data)) else None
  end.
(* memcpy(dst, src, n): read n bytes, then write them *)
Definition memcpy (st : store) (did doff sid soff n : Z) : option store :=
  match load st sid soff n with
  | None => None
  | Some d => store_bytes st did doff d
  end.

(* deterministic content of a freshly created buffer: a function of (id, index) — what the
   harness writes into every buffer it mallocs (sources, destinations, allocator results) *)
Definition pattern (id n : Z) : list byte :=
  map (fun i => (id * 37 + Z.of_nat i * 11 + 5) mod 251) (seq 0 (Z.to_nat n)).
Definition new_buf (st : store) (n : Z) : store * Z := (st ++ [pattern (zlen st) n], zlen st).

(* ------------------------------------------------------------------ iovec, view *)
Record iovec := mkiov { iv_id : Z; iv_off : Z; iv_len : Z }.
Definition null_iov : iovec := mkiov (-1) 0 0.          (* iovec{} : {nullptr, 0} *)
Definition view := list iovec.                         (* iov[0..iovcnt) *)

Fixpoint new_bufs (st : store) (shape : list Z) : store * view :=
  match shape with
  | [] => (st, [])
  | n :: r => let '(st1, id) := new_buf st n in
              let '(st2, v) := new_bufs st1 r in (st2, mkiov id 0 n :: v)
  end.

(* bytes an element / a vector denotes (None if an element leaves its buffer) *)
Definition bytes_of (st : store) (e : iovec) : option (list byte) :=
  load st (iv_id e) (iv_off e) (iv_len e).
Fixpoint flat (st : store) (v : view) : option (list byte) :=
  match v with
  | [] => Some []
  | e :: r => match bytes_of st e, flat st r with
              | Some a, Some b => Some (a ++ b)
              | _, _ => None
              end
  end.

(* iovector.cpp:23-29  sum *)
Fixpoint sum_loop (v : view) (s : Z) : Z :=
  match v with [] => s | e :: r => sum_loop r (s + iv_len e) end.
Definition v_sum (v : view) : Z := sum_loop v 0.

(* iovector.cpp:31-48  shrink_to.  Result: (elements [0..iovcnt'), hit?, remaining size) *)
Fixpoint shrink_loop (v : view) (size : Z) : view * bool * Z :=
  match v with
  | [] => ([], false, size)
  | e :: r =>
      if size <=? iv_len e
      then ([mkiov (iv_id e) (iv_off e) size], true, size)          (* iov[i].iov_len = size; iovcnt = i+1 *)
      else let '(v', hit, s') := shrink_loop r (size - iv_len e) in (e :: v', hit, s')
  end.
Definition v_shrink_to (v : view) (size : Z) : view * Z :=
  if size =? 0 then ([], 0)                                       (* return iovcnt = 0 *)
  else let '(v', hit, s') := shrink_loop v size in
       if hit then (v', size) else (v', size - s').               (* size0 - size *)

(* iovector.cpp:50-72  shrink_less_than *)
Fixpoint slt_loop (v : view) (size : Z) : option (view * Z) :=
  match v with
  | [] => None
  | e :: r =>
      if size <=? iv_len e then Some ([e], iv_len e - size)
      else match slt_loop r (size - iv_len e) with
           | Some (v', x) => Some (e :: v', x)
           | None => None
           end
  end.
Definition v_shrink_less_than (v : view) (size : Z) : view * Z :=
  if size =? 0 then
    match v with
    | [] => ([], 0)
    | e :: _ => ([], iv_len e)                                    (* iovcnt = 0; return iov[0].iov_len *)
    end
  else match slt_loop v size with
       | Some r => r
       | None => (v, 0)
       end.

(* iovector.cpp:74-127  slice(count, offset, out) ; N = out->iovcnt on entry.
   Result: (ret, Some out-elements) or (ret, None) when *out is left untouched. *)
Fixpoint slice_skip (v : view) (pos offset : Z) : view * Z :=
  match v with
  | [] => ([], pos)
  | e :: r => if offset <? pos + iv_len e then (v, pos)            (* pos + len > offset: break *)
              else slice_skip r (pos + iv_len e) offset
  end.
Fixpoint slice_rest (v : view) (count room : Z) : view * Z :=
  match v with
  | [] => ([], 0)
  | e :: r =>
      if room <=? 0 then ([], 0)                                   (* cnt < iov->iovcnt fails *)
      else if count <=? iv_len e then ([mkiov (iv_id e) (iv_off e) count], count)
      else let '(o, ret) := slice_rest r (count - iv_len e) (room - 1) in (e :: o, iv_len e + ret)
  end.
Definition v_slice (v : view) (count offset N : Z) : Z * option view :=
  if N =? 0 then (-1, None)
  else if count =? 0 then (0, Some [])
  else let '(it, pos) := slice_skip v 0 offset in
       match it with
       | [] => (0, Some [])
       | e :: r =>
           let first := mkiov (iv_id e) (iv_off e + (offset - pos)) (iv_len e - (offset - pos)) in
           if count <=? iv_len first
           then (count, Some [mkiov (iv_id first) (iv_off first) count])
           else let '(o, ret) := slice_rest r (count - iv_len first) (N - 1) in
                (iv_len first + ret, Some (first :: o))
       end.

(* iovector.cpp:129-197  do_extract_front / do_extract_back with a per-piece callback.
   The callback works on an accumulator A: CbOk = returned 0, CbNeg = returned <0,
   CbOob = touched memory outside a buffer. *)
Inductive cbres (A : Type) : Type :=
| CbOk (a : A) | CbNeg (a : A) | CbOob.
Arguments CbOk {A} a. Arguments CbNeg {A} a. Arguments CbOob {A}.
Inductive xres (A : Type) : Type :=
| XOob                                   (* out-of-bounds access in the callback *)
| XNeg (v : view) (a : A)                (* callback < 0: return -1, view as it is at that point *)
| XDone (v : view) (rem : Z) (a : A).    (* loop left with `bytes` = rem: return bytes0 - rem *)
Arguments XOob {A}. Arguments XNeg {A} v a. Arguments XDone {A} v rem a.

Section Extract.
  Context {A : Type} (cb : A -> Z -> Z -> Z -> cbres A).      (* acc, id, off, size *)
  (* while(!empty()) { auto& v = front(); ... } *)
  Fixpoint xf_loop (v : view) (bytes : Z) (a : A) : xres A :=
    match v with
    | [] => XDone [] bytes a
    | e :: r =>
        if bytes <=? iv_len e then
          match cb a (iv_id e) (iv_off e) bytes with
          | CbOob => XOob
          | CbNeg a' => XNeg v a'
          | CbOk a' =>
              let l := iv_len e - bytes in
              if l =? 0 then XDone r 0 a'                                    (* pop_front *)
              else XDone (mkiov (iv_id e) (iv_off e + bytes) l :: r) 0 a'      (* iov_base += bytes *)
          end
        else
          match cb a (iv_id e) (iv_off e) (iv_len e) with
          | CbOob => XOob
          | CbNeg a' => XNeg v a'
          | CbOk a' => xf_loop r (bytes - iv_len e) a'
          end
    end.
  Definition do_extract_front (v : view) (bytes : Z) (a : A) : xres A :=
    if bytes =? 0 then XDone v 0 a else xf_loop v bytes a.
  (* the back loop runs over the REVERSED element list: rv = rev v *)
  Fixpoint xb_loop (rv : view) (bytes : Z) (a : A) : xres A :=
    match rv with
    | [] => XDone [] bytes a
    | e :: r =>
        if bytes <=? iv_len e then
          match cb a (iv_id e) (iv_off e + iv_len e - bytes) bytes with
          | CbOob => XOob
          | CbNeg a' => XNeg rv a'
          | CbOk a' =>
              let l := iv_len e - bytes in
              if l =? 0 then XDone r 0 a'                                    (* pop_back *)
              else XDone (mkiov (iv_id e) (iv_off e) l :: r) 0 a'
          end
        else
          match cb a (iv_id e) (iv_off e) (iv_len e) with
          | CbOob => XOob
          | CbNeg a' => XNeg rv a'
          | CbOk a' => xb_loop r (bytes - iv_len e) a'
          end
    end.
  Definition unrev (x : xres A) : xres A :=
    match x with
    | XOob => XOob
    | XNeg rv a => XNeg (rev rv) a
    | XDone rv rem a => XDone (rev rv) rem a
    end.
  Definition do_extract_back (v : view) (bytes : Z) (a : A) : xres A :=
    if bytes =? 0 then XDone v 0 a else unrev (xb_loop (rev v) bytes a).
End Extract.

(* the callbacks of iovector.cpp:200-262 *)
Definition cb_discard (a : unit) (id off n : Z) : cbres unit := CbOk a.
(* extract_front(bytes, buf): memcpy(buf, ptr, size); buf += size.   acc = (store, position in buf) *)
Definition cb_copy_front (bufid : Z) (a : store * Z) (id off n : Z) : cbres (store * Z) :=
  let '(st, pos) := a in
  match memcpy st bufid pos id off n with
  | None => CbOob
  | Some st' => CbOk (st', pos + n)
  end.
(* extract_back(bytes, buf): buf -= size; memcpy(buf, ptr, size) *)
Definition cb_copy_back (bufid : Z) (a : store * Z) (id off n : Z) : cbres (store * Z) :=
  let '(st, pos) := a in
  match memcpy st bufid (pos - n) id off n with
  | None => CbOob
  | Some st' => CbOk (st', pos - n)
  end.
(* extract_front(bytes, iovector_view ptr): if (iov->iovcnt == N) return -1; iov->iov[iovcnt++] = {ptr,size} *)
Definition cb_view_front (N : Z) (a : view) (id off n : Z) : cbres view :=
  if zlen a =? N then CbNeg a else CbOk (a ++ [mkiov id off n]).
(* extract_back(bytes, iovector_view ptr): if (begin == iov->iov) return -1; *--begin = {ptr,size} *)
Definition cb_view_back (N : Z) (a : view) (id off n : Z) : cbres view :=
  if zlen a =? N then CbNeg a else CbOk (mkiov id off n :: a).

(* result of an extraction as the C++ returns it *)
Definition xret {A} (bytes : Z) (x : xres A) : Z :=
  match x with XOob => 0 | XNeg _ _ => -1 | XDone _ rem _ => bytes - rem end.

(* iovector.h:120-132  iovector_view::extract_front_continuous *)
Definition v_xfc (v : view) (bytes : Z) : view * option (Z * Z) :=
  match v with
  | [] => (v, None)                                               (* empty() *)
  | f :: r =>
      if iv_len f <? bytes then (v, None)
      else let l := iv_len f - bytes in
           (if l =? 0 then r else mkiov (iv_id f) (iv_off f + bytes) l :: r,
            Some (iv_id f, iv_off f))
  end.
(* iovector.h:149-160  iovector_view::extract_back_continuous (on the reversed list) *)
Definition v_xbc (v : view) (bytes : Z) : view * option (Z * Z) :=
  match rev v with
  | [] => (v, None)
  | b :: r =>
      if iv_len b <? bytes then (v, None)
      else let l := iv_len b - bytes in
           (if l =? 0 then rev r else rev (mkiov (iv_id b) (iv_off b) l :: r),
            Some (iv_id b, iv_off b + l))
  end.

(* iovector.cpp:265-295  iov_iterator.  None = empty (_iovcnt == 0); Some (_v, elements after _iov) *)
Definition iter := option (iovec * view).
(* fixed constructor: _v(v.iovcnt > 0 ? v.iov[0] : iovec{}) *)
Definition it_ctor (v : view) : iter :=
  match v with [] => None | x :: r => Some (x, r) end.
(* constructor of the unfixed tree: _v(v.iov[0]) — reads element 0 of a 0-element array *)
Definition it_ctor_old (v : view) : option iter :=
  match v with [] => None (* out-of-bounds read of iov[0] *) | x :: r => Some (Some (x, r)) end.
Definition iov_advance (e : iovec) (n : Z) : iovec := mkiov (iv_id e) (iv_off e + n) (iv_len e - n).
Definition it_front (i : iter) : option iovec := match i with None => None | Some (x, _) => Some x end.
Definition it_adv (i : iter) (n : Z) : iter :=
  match i with
  | None => None
  | Some (x, r) =>
      if n <? iv_len x then Some (iov_advance x n, r)
      else match r with [] => None | y :: r' => Some (y, r') end     (* --_iovcnt > 0 ? *++_iov : {} *)
  end.
(* iovector.cpp:320-329  src_extractor<T>: the source vector itself, popped as it is consumed *)
Definition ex_front (v : view) : option iovec := match v with [] => None | x :: _ => Some x end.
Definition ex_adv (v : view) (n : Z) : view :=
  match v with
  | [] => []
  | x :: r => if n <? iv_len x then iov_advance x n :: r else r
  end.

(* iovector.cpp:301-314  _copy_pipe_iov.  Fuel: every iteration finishes an element of dest, an
   element of src, or sets size to 0, so |dest| + |src| + 1 iterations suffice. *)
Section CopyPipe.
  Context {Src : Type} (s_front : Src -> option iovec) (s_adv : Src -> Z -> Src).
  Fixpoint copy_loop (fuel : nat) (st : store) (d : iter) (s : Src) (size : Z)
    : option (store * iter * Src * Z) :=
    match fuel with
    | O => None
    | S f =>
        if size =? 0 then Some (st, d, s, size) else
        match it_front d with
        | None => Some (st, d, s, size)
        | Some df =>
            match s_front s with
            | None => Some (st, d, s, size)
            | Some sf =>
                let step := Z.min size (Z.min (iv_len df) (iv_len sf)) in
                match memcpy st (iv_id df) (iv_off df) (iv_id sf) (iv_off sf) step with
                | None => None
                | Some st' => copy_loop f st' (it_adv d step) (s_adv s step) (size - step)
                end
            end
        end
    end.
End CopyPipe.
Definition copy_fuel (d s : view) : nat := S (length d + length s).

(* memcpy_iov(dest, src, size): returns (store, bytes copied) *)
Definition v_memcpy_iov (st : store) (d s : view) (size : Z) : option (store * Z) :=
  match copy_loop it_front it_adv (copy_fuel d s) st (it_ctor d) (it_ctor s) size with
  | None => None
  | Some (st', _, _, rem) => Some (st', size - rem)
  end.
(* the same with the unfixed constructor (kept for c14_no_oob_prefix_refuted) *)
Definition v_memcpy_iov_old (st : store) (d s : view) (size : Z) : option (store * Z) :=
  match it_ctor_old d, it_ctor_old s with
  | Some di, Some si =>
      match copy_loop it_front it_adv (copy_fuel d s) st di si size with
      | None => None
      | Some (st', _, _, rem) => Some (st', size - rem)
      end
  | _, _ => None
  end.
(* pipe_iov(dest, src&, size): returns (store, src', bytes copied) *)
Definition v_pipe_iov (st : store) (d s : view) (size : Z) : option (store * view * Z) :=
  match copy_loop ex_front ex_adv (copy_fuel d s) st (it_ctor d) s size with
  | None => None
  | Some (st', _, s', rem) => Some (st', s', size - rem)
  end.
Definition v_pipe_iov_old (st : store) (d s : view) (size : Z) : option (store * view * Z) :=
  match it_ctor_old d with
  | Some di =>
      match copy_loop ex_front ex_adv (copy_fuel d s) st di s size with
      | None => None
      | Some (st', _, s', rem) => Some (st', s', size - rem)
      end
  | None => None
  end.

(* ------------------------------------------------------------------ the owning iovector *)
(* iovector.h:244-883.  iovs[capacity] with the live window [iov_begin, iov_end); the model
   keeps iov_begin and the live elements (iov_end = iov_begin + |live|); slots outside the
   window are never read by any operation.  nbases counts allocator results. *)
Record iovector := mkIV { cap : Z; ibeg : Z; live : view; nbases : Z }.
Definition iend (iv : iovector) : Z := ibeg iv + zlen (live iv).
Definition INT_MAX : Z := 2147483647.
Definition IOVEC_SIZE : Z := 16.                                  (* sizeof(struct iovec) *)

(* wrappers that run a view operation on view() and re-derive the window *)
(* iov_begin = iov_end - va.iovcnt *)
Definition upd_front (iv : iovector) (v' : view) : iovector :=
  mkIV (cap iv) (iend iv - zlen v') v' (nbases iv).
(* iov_end = iov_begin + va.iovcnt *)
Definition upd_back (iv : iovector) (v' : view) : iovector :=
  mkIV (cap iv) (ibeg iv) v' (nbases iv).

(* iovector.h:815-836  IOVAllocation_::do_allocate with the harness allocator: it hands out
   min(size.max, chunk) bytes, or fails (ret < 0, ptr = nullptr) if that is < size.min *)
Definition do_allocate (chunk : Z) (st : store) (iv : iovector) (smin smax : Z)
  : store * iovector * option (Z * Z) :=
  if cap iv <=? nbases iv then (st, iv, None)                       (* ENOBUFS *)
  else let r := Z.min smax chunk in
       if r <? smin then (st, iv, None)
       else let '(st', id) := new_buf st r in
            (st', mkIV (cap iv) (ibeg iv) (live iv) (nbases iv + 1), Some (id, r)).
(* iovector.h:863-869 do_malloc ((int) cast unreachable for the sizes used: <= sum or 16*iovcnt) *)
Definition do_malloc (chunk : Z) (st : store) (iv : iovector) (size : Z) :=
  do_allocate chunk st iv size size.
(* iovector.h:870-882 new_iovec *)
Definition new_iovec (chunk : Z) (st : store) (iv : iovector) (size_ : Z) : store * iovector * iovec :=
  let size := if size_ <=? INT_MAX then size_ else INT_MAX in
  match do_allocate chunk st iv 1 size with
  | (st', iv', Some (id, r)) => (st', iv', mkiov id 0 r)
  | (st', iv', None) => (st', iv', null_iov)
  end.

(* iovector.h:350-356, 376-382 push_front / push_back (struct iovec) *)
Definition o_push_back (iv : iovector) (e : iovec) : iovector * Z :=
  if iend iv <? cap iv then (mkIV (cap iv) (ibeg iv) (live iv ++ [e]) (nbases iv), iv_len e) else (iv, 0).
Definition o_push_front (iv : iovector) (e : iovec) : iovector * Z :=
  if 0 <? ibeg iv then (mkIV (cap iv) (ibeg iv - 1) (e :: live iv) (nbases iv), iv_len e) else (iv, 0).
(* iovector.cpp:357-374 push_back_more / 339-355 push_front_more *)
Fixpoint push_back_more (fuel : nat) (chunk : Z) (st : store) (iv : iovector) (bytes0 bytes : Z)
  : option (store * iovector * Z) :=
  match fuel with
  | O => None
  | S f =>
      if bytes =? 0 then Some (st, iv, bytes0 - bytes) else
      if cap iv <=? iend iv then Some (st, iv, bytes0 - bytes) else      (* LOG_ERROR_RETURN(ENOBUFS, ..) *)
      let '(st1, iv1, v) := new_iovec chunk st iv bytes in
      if iv_len v =? 0 then Some (st1, iv1, bytes0 - bytes) else
      let '(iv2, _) := o_push_back iv1 v in
      push_back_more f chunk st1 iv2 bytes0 (bytes - iv_len v)
  end.
Fixpoint push_front_more (fuel : nat) (chunk : Z) (st : store) (iv : iovector) (bytes0 bytes : Z)
  : option (store * iovector * Z) :=
  match fuel with
  | O => None
  | S f =>
      if bytes =? 0 then Some (st, iv, bytes0 - bytes) else
      if ibeg iv <=? 0 then Some (st, iv, bytes0 - bytes) else          (* iov_begin == 0 (uint16_t) *)
      let '(st1, iv1, v) := new_iovec chunk st iv bytes in
      if iv_len v =? 0 then Some (st1, iv1, bytes0 - bytes) else
      let '(iv2, _) := o_push_front iv1 v in
      push_front_more f chunk st1 iv2 bytes0 (bytes - iv_len v)
  end.
(* fuel: every iteration of push_back_more fills a slot (iov_end grows towards capacity), every
   iteration of push_front_more uses a reserved front slot (iov_begin shrinks towards 0) *)
Definition back_fuel (iv : iovector) : nat := S (Z.to_nat (cap iv - iend iv)).
Definition front_fuel (iv : iovector) : nat := S (Z.to_nat (ibeg iv)).
(* iovector.h:389-397 push_back(size_t bytes) *)
Definition o_push_back_alloc (chunk : Z) (st : store) (iv : iovector) (bytes : Z)
  : option (store * iovector * Z) :=
  if cap iv <=? iend iv then Some (st, iv, 0) else
  let '(st1, iv1, v) := new_iovec chunk st iv bytes in
  if iv_len v =? 0 then Some (st1, iv1, 0) else
  let '(iv2, r) := o_push_back iv1 v in
  if r =? bytes then Some (st1, iv2, bytes) else
  match push_back_more (back_fuel iv2) chunk st1 iv2 (bytes - iv_len v) (bytes - iv_len v) with
  | None => None
  | Some (st3, iv3, r3) => Some (st3, iv3, iv_len v + r3)
  end.
(* iovector.h:363-371 push_front(size_t bytes) *)
Definition o_push_front_alloc (chunk : Z) (st : store) (iv : iovector) (bytes : Z)
  : option (store * iovector * Z) :=
  if ibeg iv <=? 0 then Some (st, iv, 0) else                         (* iov_begin == 0 (uint16_t) *)
  let '(st1, iv1, v) := new_iovec chunk st iv bytes in
  if iv_len v =? 0 then Some (st1, iv1, 0) else
  let '(iv2, r) := o_push_front iv1 v in
  if r =? bytes then Some (st1, iv2, bytes) else
  match push_front_more (front_fuel iv2) chunk st1 iv2 (bytes - iv_len v) (bytes - iv_len v) with
  | None => None
  | Some (st3, iv3, r3) => Some (st3, iv3, iv_len v + r3)
  end.
(* iovector.h:409-420 pop_front / pop_back ; 422-426 clear *)
Definition o_pop_front (iv : iovector) : iovector * Z :=
  match live iv with
  | [] => (iv, 0)
  | e :: r => (mkIV (cap iv) (ibeg iv + 1) r (nbases iv), iv_len e)
  end.
Definition o_pop_back (iv : iovector) : iovector * Z :=
  match rev (live iv) with
  | [] => (iv, 0)
  | e :: r => (mkIV (cap iv) (ibeg iv) (rev r) (nbases iv), iv_len e)
  end.
Definition o_clear (iv : iovector) : iovector := mkIV (cap iv) (ibeg iv) [] (nbases iv).

(* iovector.h:434-443 shrink_to: the view op edits iovs[] in place; the count is taken over only
   if ret == size *)
Definition o_shrink_to (iv : iovector) (size : Z) : iovector * Z :=
  let '(v', ret) := v_shrink_to (live iv) size in
  if ret =? size then (upd_back iv v', ret)
  else (upd_back iv (v' ++ skipn (length v') (live iv)), ret).
(* iovector.h:446-455 truncate *)
Definition o_truncate (chunk : Z) (st : store) (iv : iovector) (size : Z) : option (store * iovector * Z) :=
  if size =? v_sum (live iv) then Some (st, iv, size) else
  let '(iv1, ret) := o_shrink_to iv size in
  if ret =? size then Some (st, iv1, size) else
  match o_push_back_alloc chunk st iv1 (size - ret) with
  | None => None
  | Some (st2, iv2, r2) => Some (st2, iv2, ret + r2)
  end.

(* iovector.h:508-516 / 602-610: iov->resize(iovcnt()) (unchecked: the assert is off), vi = iov->view(),
   va.extract_front/back(bytes, &vi), re-derive the window, if (ret >= 0) iov->update(vi).
   dst = new_iovector(cap2, rf2): its out slots are iovs[rf2 .. rf2+iovcnt()); the front variant fills them upwards
   from rf2, the back variant downwards from rf2+iovcnt()-1; writing a slot >= cap2 is out of bounds (None).
   Result: (source view afterwards, elements of dst, return value). *)
Definition xfo_body (v : view) (n cap2 rf2 : Z) : option (view * view * Z) :=
  let nn := zlen v in
  match do_extract_front (cb_view_front nn) v n [] with
  | XOob => None
  | XNeg v' a => if cap2 <? rf2 + zlen a then None else Some (v', repeat null_iov (Z.to_nat nn), -1)
  | XDone v' rem a => if cap2 <? rf2 + zlen a then None else Some (v', a, n - rem)
  end.
Definition xbo_body (v : view) (n cap2 rf2 : Z) : option (view * view * Z) :=
  let nn := zlen v in
  match do_extract_back (cb_view_back nn) v n [] with
  | XOob => None
  | XNeg v' a => if (cap2 <? rf2 + nn) && (0 <? zlen a) then None else Some (v', repeat null_iov (Z.to_nat nn), -1)
  | XDone v' rem a => if (cap2 <? rf2 + nn) && (0 <? zlen a) then None else Some (v', a, n - rem)
  end.
(* the unfixed wrappers (no capacity guard), kept for c14_no_oob_extract_into_refuted *)
Definition old_extract_front_into (v : view) (n cap2 rf2 : Z) : option (view * view * Z) :=
  if n =? 0 then Some (v, [], 0) else xfo_body v n cap2 rf2.
Definition old_extract_back_into (v : view) (n cap2 rf2 : Z) : option (view * view * Z) :=
  if n =? 0 then Some (v, [], 0) else xbo_body v n cap2 rf2.

(* ------------------------------------------------------------------ the test machine *)
(* One vector under test (a plain iovector_view over an exact-size iovec array, or an owning
   iovector created by new_iovector(cap, reserve_front) with the harness allocator), the
   out-view written by the last extract-to-view / slice / pipe_from, and the store. *)
Record machine := mkM { m_st : store; m_own : bool; m_iv : iovector; m_aux : view; m_chunk : Z }.

Inductive op :=
| OSum
| OShrink (n : Z)                      (* shrink_to *)
| OShrinkLT (n : Z)                    (* iovector_view::shrink_less_than (view only) *)
| OTrunc (n : Z)                       (* iovector::truncate (owning only) *)
| OXF (n : Z)                          (* extract_front(n) *)
| OXFB (n : Z)                         (* extract_front(n, buf)   buf = fresh n-byte buffer *)
| OXFV (n N : Z)                       (* extract_front(n, &out)  out has N slots *)
| OXFC (n : Z)                         (* extract_front_continuous(n) *)
| OXB (n : Z) | OXBB (n : Z) | OXBV (n N : Z) | OXBC (n : Z)
| OSlice (count offset N : Z)
| OMTo (n : Z)                         (* memcpy_to(buf, n)       buf = fresh n-byte buffer *)
| OMFrom (n : Z)                       (* memcpy_from(buf, n) *)
| OMToV (shape : list Z) (n : Z)       (* memcpy_to(&view(shape), n) *)
| OMFromV (shape : list Z) (n : Z)
| OPTo (n : Z)                         (* pipe_to(buf, n) *)
| OPToV (shape : list Z) (n : Z)       (* pipe_to(&view(shape), n) *)
| OPFromV (shape : list Z) (n : Z)     (* pipe_from(&view(shape), n): the argument view is consumed *)
| OPushB (size : Z) | OPushF (size : Z)         (* push_back/front(buf, size), fresh buffer (owning only) *)
| OPushBA (bytes : Z) | OPushFA (bytes : Z)     (* push_back/front(bytes): allocating (owning only) *)
| OPopF | OPopB | OClear                        (* owning only *)
| OXFO (n cap2 rf2 : Z)                (* extract_front(n, iovector* dst): dst = fresh new_iovector(cap2, rf2) (owning only) *)
| OXBO (n cap2 rf2 : Z).              (* extract_back(n, iovector* dst) *)

(* what an operation returns: value, pointer (continuous extraction), memory regions whose
   content is part of the observable result (destination buffers / the returned pointer) *)
Record obs := mkObs { o_ret : Z; o_ptr : option (Z * Z); o_dst : view }.
Definition NA : Z := -2.                (* operation does not exist for this kind of vector *)

Definition set_main (m : machine) (st : store) (iv : iovector) : machine :=
  mkM st (m_own m) iv (m_aux m) (m_chunk m).
Definition set_all (m : machine) (st : store) (iv : iovector) (aux : view) : machine :=
  mkM st (m_own m) iv aux (m_chunk m).
Definition wfront (m : machine) (v' : view) : iovector :=
  if m_own m then upd_front (m_iv m) v' else mkIV (cap (m_iv m)) (ibeg (m_iv m)) v' (nbases (m_iv m)).
Definition wback (m : machine) (v' : view) : iovector :=
  if m_own m then upd_back (m_iv m) v' else mkIV (cap (m_iv m)) (ibeg (m_iv m)) v' (nbases (m_iv m)).
Definition nulls (N : Z) : view := repeat null_iov (Z.to_nat N).
Definition ret_only (m : machine) (r : Z) : option (machine * obs) := Some (m, mkObs r None []).

(* the out-view for the owning extract_*(bytes, iovector_view ptr) / slice: iovector.h:486-492.
   Returns the new state and Some N' (slots to use) or None (allocation failed) *)
Definition own_out_slots (m : machine) (st : store) (iv : iovector) (N : Z)
  : store * iovector * option Z :=
  if N =? 0 then
    match do_malloc (m_chunk m) st iv (zlen (live iv) * IOVEC_SIZE) with
    | (st', iv', Some _) => (st', iv', Some (zlen (live iv)))
    | (st', iv', None) => (st', iv', None)
    end
  else (st, iv, Some N).

Definition step (m : machine) (o : op) : option (machine * obs) :=
  let st := m_st m in
  let iv := m_iv m in
  let v := live iv in
  match o with
  | OSum => ret_only m (v_sum v)
  | OShrink n =>
      if m_own m then let '(iv', r) := o_shrink_to iv n in Some (set_main m st iv', mkObs r None [])
      else let '(v', r) := v_shrink_to v n in Some (set_main m st (wback m v'), mkObs r None [])
  | OShrinkLT n =>
      if m_own m then ret_only m NA
      else let '(v', r) := v_shrink_less_than v n in Some (set_main m st (wback m v'), mkObs r None [])
  | OTrunc n =>
      if m_own m then
        match o_truncate (m_chunk m) st iv n with
        | None => None
        | Some (st', iv', r) => Some (set_main m st' iv', mkObs r None [])
        end
      else ret_only m NA
  | OXF n =>
      match do_extract_front cb_discard v n tt with
      | XDone v' rem _ => Some (set_main m st (wfront m v'), mkObs (n - rem) None [])
      | _ => None
      end
  | OXFB n =>
      let '(st1, d) := new_buf st n in
      match do_extract_front (cb_copy_front d) v n (st1, 0) with
      | XDone v' rem (st2, _) => Some (set_main m st2 (wfront m v'), mkObs (n - rem) None [mkiov d 0 n])
      | _ => None
      end
  | OXFV n N =>
      if m_own m && (n =? 0) then Some (set_all m st iv (nulls N), mkObs 0 None [])     (* if (!bytes) return 0 *)
      else
        let '(st1, iv1, slots) := if m_own m then own_out_slots m st iv N else (st, iv, Some N) in
        match slots with
        | None => Some (set_all m st1 iv1 [], mkObs (-1) None [])
        | Some N' =>
            match do_extract_front (cb_view_front N') v n [] with
            | XOob => None
            | XNeg v' a => Some (set_all m st1 (wfront (set_main m st1 iv1) v') a, mkObs (-1) None [])
            | XDone v' rem a => Some (set_all m st1 (wfront (set_main m st1 iv1) v') a, mkObs (n - rem) None [])
            end
        end
  | OXFC n =>
      match v_xfc v n with
      | (v', Some (pid, poff)) => Some (set_main m st (wfront m v'), mkObs 1 (Some (pid, poff)) [mkiov pid poff n])
      | (_, None) =>
          if m_own m then
            if v_sum v <? n then ret_only m 0
            else match do_malloc (m_chunk m) st iv n with
                 | (st1, iv1, None) => Some (set_main m st1 iv1, mkObs 0 None [])
                 | (st1, iv1, Some (d, _)) =>
                     match do_extract_front (cb_copy_front d) v n (st1, 0) with
                     | XDone v' _ (st2, _) =>
                         Some (set_main m st2 (upd_front iv1 v'), mkObs 1 (Some (d, 0)) [mkiov d 0 n])
                     | _ => None
                     end
                 end
          else ret_only m 0
      end
  | OXB n =>
      match do_extract_back cb_discard v n tt with
      | XDone v' rem _ => Some (set_main m st (wback m v'), mkObs (n - rem) None [])
      | _ => None
      end
  | OXBB n =>
      let '(st1, d) := new_buf st n in
      match do_extract_back (cb_copy_back d) v n (st1, n) with
      | XDone v' rem (st2, _) => Some (set_main m st2 (wback m v'), mkObs (n - rem) None [mkiov d 0 n])
      | _ => None
      end
  | OXBV n N =>
      if m_own m && (n =? 0) then Some (set_all m st iv (nulls N), mkObs 0 None [])
      else
        let '(st1, iv1, slots) := if m_own m then own_out_slots m st iv N else (st, iv, Some N) in
        match slots with
        | None => Some (set_all m st1 iv1 [], mkObs (-1) None [])
        | Some N' =>
            match do_extract_back (cb_view_back N') v n [] with
            | XOob => None
            | XNeg v' a => Some (set_all m st1 (wback (set_main m st1 iv1) v') a, mkObs (-1) None [])
            | XDone v' rem a => Some (set_all m st1 (wback (set_main m st1 iv1) v') a, mkObs (n - rem) None [])
            end
        end
  | OXBC n =>
      match v_xbc v n with
      | (v', Some (pid, poff)) => Some (set_main m st (wback m v'), mkObs 1 (Some (pid, poff)) [mkiov pid poff n])
      | (_, None) =>
          if m_own m then
            if v_sum v <? n then ret_only m 0
            else match do_malloc (m_chunk m) st iv n with
                 | (st1, iv1, None) => Some (set_main m st1 iv1, mkObs 0 None [])
                 | (st1, iv1, Some (d, _)) =>
                     match do_extract_back (cb_copy_back d) v n (st1, n) with
                     | XDone v' _ (st2, _) =>
                         Some (set_main m st2 (upd_back iv1 v'), mkObs 1 (Some (d, 0)) [mkiov d 0 n])
                     | _ => None
                     end
                 end
          else ret_only m 0
      end
  | OSlice count offset N =>
      if m_own m && (count =? 0) then Some (set_all m st iv (nulls N), mkObs 0 None [])
      else
        let '(st1, iv1, slots) := if m_own m then own_out_slots m st iv N else (st, iv, Some N) in
        match slots with
        | None => Some (set_all m st1 iv1 [], mkObs 0 None [])         (* failed to allocate: return 0 *)
        | Some N' =>
            match v_slice v count offset N' with
            | (r, Some a) => Some (set_all m st1 iv1 a, mkObs r None [])
            | (r, None) => Some (set_all m st1 iv1 (nulls N'), mkObs r None [])
            end
        end
  | OMTo n =>
      let '(st1, d) := new_buf st n in
      match v_memcpy_iov st1 [mkiov d 0 n] v n with
      | None => None
      | Some (st2, r) => Some (set_main m st2 iv, mkObs r None [mkiov d 0 n])
      end
  | OMFrom n =>
      let '(st1, d) := new_buf st n in
      match v_memcpy_iov st1 v [mkiov d 0 n] n with
      | None => None
      | Some (st2, r) => Some (set_main m st2 iv, mkObs r None [mkiov d 0 n])
      end
  | OMToV shape n =>
      let '(st1, dv) := new_bufs st shape in
      match v_memcpy_iov st1 dv v n with
      | None => None
      | Some (st2, r) => Some (set_main m st2 iv, mkObs r None dv)
      end
  | OMFromV shape n =>
      let '(st1, sv) := new_bufs st shape in
      match v_memcpy_iov st1 v sv n with
      | None => None
      | Some (st2, r) => Some (set_main m st2 iv, mkObs r None sv)
      end
  | OPTo n =>
      let '(st1, d) := new_buf st n in
      match v_pipe_iov st1 [mkiov d 0 n] v n with
      | None => None
      | Some (st2, v', r) => Some (set_main m st2 (wfront m v'), mkObs r None [mkiov d 0 n])
      end
  | OPToV shape n =>
      let '(st1, dv) := new_bufs st shape in
      match v_pipe_iov st1 dv v n with
      | None => None
      | Some (st2, v', r) => Some (set_main m st2 (wfront m v'), mkObs r None dv)
      end
  | OPFromV shape n =>
      let '(st1, sv) := new_bufs st shape in
      match v_pipe_iov st1 v sv n with
      | None => None
      | Some (st2, sv', r) => Some (set_all m st2 iv sv', mkObs r None sv)
      end
  | OPushB size =>
      if m_own m then
        let '(st1, d) := new_buf st size in
        let '(iv', r) := o_push_back iv (mkiov d 0 size) in Some (set_main m st1 iv', mkObs r None [])
      else ret_only m NA
  | OPushF size =>
      if m_own m then
        let '(st1, d) := new_buf st size in
        let '(iv', r) := o_push_front iv (mkiov d 0 size) in Some (set_main m st1 iv', mkObs r None [])
      else ret_only m NA
  | OPushBA bytes =>
      if m_own m then
        match o_push_back_alloc (m_chunk m) st iv bytes with
        | None => None
        | Some (st', iv', r) => Some (set_main m st' iv', mkObs r None [])
        end
      else ret_only m NA
  | OPushFA bytes =>
      if m_own m then
        match o_push_front_alloc (m_chunk m) st iv bytes with
        | None => None
        | Some (st', iv', r) => Some (set_main m st' iv', mkObs r None [])
        end
      else ret_only m NA
  | OPopF => if m_own m then let '(iv', r) := o_pop_front iv in Some (set_main m st iv', mkObs r None []) else ret_only m NA
  | OPopB => if m_own m then let '(iv', r) := o_pop_back iv in Some (set_main m st iv', mkObs r None []) else ret_only m NA
  | OClear => if m_own m then Some (set_main m st (o_clear iv), mkObs 0 None []) else ret_only m NA
  (* iovector.h:503-519 (FIXED: repo_patches/C14-fix-extract-into-iovector-capacity.diff):
     if (!bytes) return 0; if (iovcnt() > iov->capacity - iov->iov_begin) return -1; then [xfo_body] *)
  | OXFO n cap2 rf2 =>
      if m_own m then
        if n =? 0 then Some (set_all m st iv [], mkObs 0 None [])
        else if cap2 - rf2 <? zlen v then Some (set_all m st iv [], mkObs (-1) None [])
        else match xfo_body v n cap2 rf2 with
             | None => None
             | Some (v', a, r) => Some (set_all m st (upd_front iv v') a, mkObs r None [])
             end
      else ret_only m NA
  (* iovector.h:597-613: the same with extract_back *)
  | OXBO n cap2 rf2 =>
      if m_own m then
        if n =? 0 then Some (set_all m st iv [], mkObs 0 None [])
        else if cap2 - rf2 <? zlen v then Some (set_all m st iv [], mkObs (-1) None [])
        else match xbo_body v n cap2 rf2 with
             | None => None
             | Some (v', a, r) => Some (set_all m st (upd_back iv v') a, mkObs r None [])
             end
      else ret_only m NA
  end.

(* run a whole operation list; observations in order *)
Fixpoint run (m : machine) (ops : list op) : option (machine * list obs) :=
  match ops with
  | [] => Some (m, [])
  | o :: r =>
      match step m o with
      | None => None
      | Some (m1, ob) =>
          match run m1 r with
          | None => None
          | Some (m2, obs) => Some (m2, ob :: obs)
          end
      end
  end.

(* initial machine: one fresh buffer per element (content = pattern), pushed in order *)
Fixpoint push_all (iv : iovector) (v : view) : iovector :=
  match v with [] => iv | e :: r => push_all (fst (o_push_back iv e)) r end.
Definition init_machine (own : bool) (capacity rf chunk : Z) (shape : list Z) : machine :=
  let '(st, v) := new_bufs [] shape in
  if own then mkM st true (push_all (mkIV capacity rf [] 0) v) [] chunk
  else mkM st false (mkIV 0 0 v 0) [] chunk.

(* the unfixed memcpy_to(buf, n) / pipe_to(&view, n) on a view, for the F2 witness *)
Definition old_memcpy_to (st : store) (v : view) (n : Z) : option (store * Z) :=
  let '(st1, d) := new_buf st n in v_memcpy_iov_old st1 [mkiov d 0 n] v n.
Definition old_pipe_to_view (st : store) (v : view) (shape : list Z) (n : Z) : option (store * view * Z) :=
  let '(st1, dv) := new_bufs st shape in v_pipe_iov_old st1 dv v n.
