(* C14 — memory lemmas: sub / load / store_bytes / new_buf, well-formed elements, the total
   flat-bytes functions bytesT / flatT and their take/drop algebra. *)
From Coq Require Import ZArith List Bool Lia.
From PV Require Import C14.C14_Model.
Import ListNotations.
Local Open Scope Z_scope.

Lemma skipn_skipn' {A} (x y : nat) (l : list A) : skipn x (skipn y l) = skipn (y + x) l.
Proof.
  revert l; induction y as [|y IH]; intros l; simpl; [reflexivity|].
  destruct l as [|a l]; simpl; [destruct x; reflexivity | apply IH].
Qed.

Lemma zlen_nonneg {A} (l : list A) : 0 <= zlen l.
Proof. unfold zlen; lia. Qed.
Lemma zlen_app {A} (a b : list A) : zlen (a ++ b) = zlen a + zlen b.
Proof. unfold zlen; rewrite app_length; lia. Qed.
Lemma zlen_nil {A} : zlen (@nil A) = 0.
Proof. reflexivity. Qed.
Lemma zlen_cons {A} (x : A) l : zlen (x :: l) = 1 + zlen l.
Proof. unfold zlen; simpl length; lia. Qed.
Lemma zlen_firstn {A} (n : Z) (l : list A) : 0 <= n <= zlen l -> zlen (firstn (Z.to_nat n) l) = n.
Proof. unfold zlen; intros; rewrite firstn_length; lia. Qed.
Lemma zlen_skipn {A} (n : Z) (l : list A) : 0 <= n <= zlen l -> zlen (skipn (Z.to_nat n) l) = zlen l - n.
Proof. unfold zlen; intros; rewrite skipn_length; lia. Qed.
Lemma zlen_rev {A} (l : list A) : zlen (rev l) = zlen l.
Proof. unfold zlen; rewrite rev_length; reflexivity. Qed.

Lemma firstn_app_le {A} (n : nat) (a b : list A) : (n <= length a)%nat -> firstn n (a ++ b) = firstn n a.
Proof. intros H; rewrite firstn_app. replace (n - length a)%nat with O by lia. rewrite firstn_O, app_nil_r; reflexivity. Qed.
Lemma skipn_app_le {A} (n : nat) (a b : list A) : (n <= length a)%nat -> skipn n (a ++ b) = skipn n a ++ b.
Proof. intros H; rewrite skipn_app. replace (n - length a)%nat with O by lia. reflexivity. Qed.
Lemma skipn_app_ge {A} (n : nat) (a b : list A) : (length a <= n)%nat -> skipn n (a ++ b) = skipn (n - length a) b.
Proof. intros H; rewrite skipn_app. rewrite skipn_all2 by lia; reflexivity. Qed.

Lemma sub_length b off n : 0 <= off -> 0 <= n -> off + n <= zlen b -> zlen (sub b off n) = n.
Proof. unfold sub, zlen; intros; rewrite firstn_length, skipn_length; lia. Qed.
Lemma sub_take b off n k : 0 <= k <= n -> sub b off k = firstn (Z.to_nat k) (sub b off n).
Proof. intros; unfold sub; rewrite firstn_firstn; f_equal; lia. Qed.
Lemma sub_drop b off n k : 0 <= off -> 0 <= k <= n -> sub b (off + k) (n - k) = skipn (Z.to_nat k) (sub b off n).
Proof.
  intros; unfold sub; rewrite skipn_firstn_comm, skipn_skipn'.
  f_equal; [lia | f_equal; lia].
Qed.
Lemma sub_zero b off : sub b off 0 = [].
Proof. reflexivity. Qed.

Lemma in_range_true b off n : 0 <= off -> 0 <= n -> off + n <= zlen b -> in_range b off n = true.
Proof. intros; unfold in_range; rewrite !andb_true_iff, !Z.leb_le; lia. Qed.
Lemma in_range_spec b off n : in_range b off n = true -> 0 <= off /\ 0 <= n /\ off + n <= zlen b.
Proof. unfold in_range; rewrite !andb_true_iff, !Z.leb_le; lia. Qed.

Lemma splice_length b off data : 0 <= off -> off + zlen data <= zlen b -> zlen (splice b off data) = zlen b.
Proof.
  unfold splice, zlen; intros. rewrite !app_length, firstn_length, skipn_length. lia.
Qed.
(* the written range reads back the data *)
Lemma sub_splice_same b off data : 0 <= off -> off + zlen data <= zlen b -> sub (splice b off data) off (zlen data) = data.
Proof.
  unfold sub, splice, zlen; intros.
  rewrite skipn_app_ge by (rewrite firstn_length; lia).
  rewrite firstn_length. replace (Z.to_nat off - Nat.min (Z.to_nat off) (length b))%nat with O by lia.
  simpl skipn. rewrite firstn_app_le by lia. rewrite firstn_all2 by lia. reflexivity.
Qed.
(* a range entirely before or after the written one is unchanged *)
Lemma sub_splice_other b off data o n :
  0 <= off -> off + zlen data <= zlen b -> 0 <= o -> 0 <= n -> o + n <= zlen b ->
  o + n <= off \/ off + zlen data <= o ->
  sub (splice b off data) o n = sub b o n.
Proof.
  unfold sub, splice, zlen; intros Ho Hd Hoo Hn Hb [H|H].
  - rewrite skipn_app_le by (rewrite firstn_length; lia).
    rewrite firstn_app_le by (rewrite skipn_length, firstn_length; lia).
    rewrite skipn_firstn_comm, firstn_firstn. f_equal. lia.
  - rewrite skipn_app_ge by (rewrite firstn_length; lia).
    rewrite firstn_length.
    rewrite skipn_app_ge by lia.
    rewrite skipn_skipn'. do 2 f_equal. lia.
Qed.

Lemma splice_nil b off : splice b off [] = b.
Proof. unfold splice; simpl. rewrite Nat.add_0_r. apply firstn_skipn. Qed.

Lemma set_nth_length {A} (l : list A) k x : length (set_nth l k x) = length l.
Proof. revert k; induction l as [|a l IH]; intros [|k]; simpl; auto. Qed.
Lemma nth_error_set_nth_same {A} (l : list A) k x : (k < length l)%nat -> nth_error (set_nth l k x) k = Some x.
Proof. revert k; induction l as [|a l IH]; intros [|k] H; simpl in *; try lia; auto. apply IH; lia. Qed.
Lemma nth_error_set_nth_other {A} (l : list A) k j x : j <> k -> nth_error (set_nth l k x) j = nth_error l j.
Proof. revert k j; induction l as [|a l IH]; intros [|k] [|j] H; simpl; auto; try congruence. Qed.

Lemma get_buf_Some st id b : get_buf st id = Some b -> 0 <= id < zlen st.
Proof.
  unfold get_buf, zlen. destruct (id <? 0) eqn:E; [discriminate|]. intros H.
  apply Z.ltb_ge in E. assert (nth_error st (Z.to_nat id) <> None) by congruence.
  apply nth_error_Some in H0. lia.
Qed.
Lemma get_buf_app_l st x id b : get_buf st id = Some b -> get_buf (st ++ x) id = Some b.
Proof.
  intros H. pose proof (get_buf_Some _ _ _ H) as R. unfold get_buf, zlen in *.
  destruct (id <? 0); [discriminate|]. rewrite nth_error_app1 by lia. exact H.
Qed.
Lemma get_buf_new st b : get_buf (st ++ [b]) (zlen st) = Some b.
Proof.
  unfold get_buf. pose proof (zlen_nonneg st). destruct (zlen st <? 0) eqn:E; [apply Z.ltb_lt in E; lia|].
  unfold zlen. rewrite Nat2Z.id, nth_error_app2 by lia. rewrite Nat.sub_diag. reflexivity.
Qed.

Definition wf_elem (st : store) (e : iovec) : Prop :=
  exists b, get_buf st (iv_id e) = Some b /\ 0 <= iv_off e /\ 0 <= iv_len e /\ iv_off e + iv_len e <= zlen b.
Definition wf_view (st : store) (v : view) : Prop := Forall (wf_elem st) v.
Definition bytesT (st : store) (e : iovec) : list byte :=
  match get_buf st (iv_id e) with Some b => sub b (iv_off e) (iv_len e) | None => [] end.
Definition flatT (st : store) (v : view) : list byte := concat (map (bytesT st) v).

Lemma flatT_nil st : flatT st [] = [].
Proof. reflexivity. Qed.
Lemma flatT_cons st e v : flatT st (e :: v) = bytesT st e ++ flatT st v.
Proof. reflexivity. Qed.
Lemma flatT_app st a b : flatT st (a ++ b) = flatT st a ++ flatT st b.
Proof. unfold flatT; rewrite map_app, concat_app; reflexivity. Qed.

Lemma bytes_of_wf st e : wf_elem st e -> bytes_of st e = Some (bytesT st e).
Proof.
  intros (b & Hb & H1 & H2 & H3). unfold bytes_of, load, bytesT. rewrite Hb.
  rewrite in_range_true by lia. reflexivity.
Qed.
Lemma flat_wf st v : wf_view st v -> flat st v = Some (flatT st v).
Proof.
  induction 1 as [|e v He Hv IH]; simpl; [reflexivity|].
  rewrite (bytes_of_wf _ _ He), IH. reflexivity.
Qed.
Lemma zlen_bytesT st e : wf_elem st e -> zlen (bytesT st e) = iv_len e.
Proof. intros (b & Hb & H1 & H2 & H3). unfold bytesT; rewrite Hb. apply sub_length; lia. Qed.
Lemma load_wf st e : wf_elem st e -> load st (iv_id e) (iv_off e) (iv_len e) = Some (bytesT st e).
Proof. apply bytes_of_wf. Qed.

Lemma wf_take st e k : wf_elem st e -> 0 <= k <= iv_len e -> wf_elem st (mkiov (iv_id e) (iv_off e) k).
Proof. intros (b & Hb & H1 & H2 & H3) Hk. exists b; simpl; repeat split; auto; lia. Qed.
Lemma wf_drop st e k : wf_elem st e -> 0 <= k <= iv_len e -> wf_elem st (mkiov (iv_id e) (iv_off e + k) (iv_len e - k)).
Proof. intros (b & Hb & H1 & H2 & H3) Hk. exists b; simpl; repeat split; auto; lia. Qed.
Lemma wf_mid st e k n : wf_elem st e -> 0 <= k -> 0 <= n -> k + n <= iv_len e -> wf_elem st (mkiov (iv_id e) (iv_off e + k) n).
Proof. intros (b & Hb & H1 & H2 & H3) Hk Hn Hkn. exists b; simpl; repeat split; auto; lia. Qed.
Lemma bytesT_take st e k : 0 <= k <= iv_len e ->
  bytesT st (mkiov (iv_id e) (iv_off e) k) = firstn (Z.to_nat k) (bytesT st e).
Proof. intros Hk. unfold bytesT; simpl. destruct (get_buf st (iv_id e)); [apply sub_take; lia | rewrite firstn_nil; reflexivity]. Qed.
Lemma bytesT_drop st e k : 0 <= iv_off e -> 0 <= k <= iv_len e ->
  bytesT st (mkiov (iv_id e) (iv_off e + k) (iv_len e - k)) = skipn (Z.to_nat k) (bytesT st e).
Proof. intros Ho Hk. unfold bytesT; simpl. destruct (get_buf st (iv_id e)); [apply sub_drop; lia | rewrite skipn_nil; reflexivity]. Qed.
Lemma bytesT_zero st e : iv_len e = 0 -> bytesT st e = [].
Proof. intros H; unfold bytesT; rewrite H. destruct (get_buf st (iv_id e)); reflexivity. Qed.

Lemma zlen_flatT st v : wf_view st v -> zlen (flatT st v) = v_sum v.
Proof.
  unfold v_sum. intros H.
  assert (G : forall s, sum_loop v s = s + zlen (flatT st v)).
  { induction H as [|e v He Hv IH]; intros s; simpl; [unfold zlen; simpl; lia|].
    rewrite IH, flatT_cons, zlen_app, (zlen_bytesT _ _ He). lia. }
  rewrite G; lia.
Qed.
Lemma sum_loop_acc v s : sum_loop v s = s + sum_loop v 0.
Proof. revert s; induction v as [|e v IH]; intros s; simpl; [lia|]. rewrite IH, (IH (iv_len e)). lia. Qed.
Lemma v_sum_cons e v : v_sum (e :: v) = iv_len e + v_sum v.
Proof. unfold v_sum; simpl. rewrite sum_loop_acc. lia. Qed.
Lemma v_sum_nonneg st v : wf_view st v -> 0 <= v_sum v.
Proof. intros H; rewrite <- (zlen_flatT st v H); apply zlen_nonneg. Qed.

(* st' has every buffer of st, with the same content: what was well formed stays so and denotes the same bytes *)
Definition keeps (st st' : store) : Prop := forall id b, get_buf st id = Some b -> get_buf st' id = Some b.
Lemma wf_elem_keeps st st' e : keeps st st' -> wf_elem st e -> wf_elem st' e.
Proof. intros K (b & Hb & H); exists b; split; [apply K; exact Hb | exact H]. Qed.
Lemma bytesT_keeps st st' e : keeps st st' -> wf_elem st e -> bytesT st' e = bytesT st e.
Proof. intros K (b & Hb & H). unfold bytesT. rewrite (K _ _ Hb), Hb. reflexivity. Qed.
Lemma wf_view_keeps st st' v : keeps st st' -> wf_view st v -> wf_view st' v.
Proof. intros K H; eapply Forall_impl; [|exact H]. intros; eapply wf_elem_keeps; eauto. Qed.
Lemma flatT_keeps st st' v : keeps st st' -> wf_view st v -> flatT st' v = flatT st v.
Proof.
  intros K. induction 1 as [|e v He Hv IH]; [reflexivity|].
  rewrite !flatT_cons, IH, (bytesT_keeps _ _ _ K He). reflexivity.
Qed.
Lemma keeps_app st x : keeps st (st ++ x).
Proof. intros id b; apply get_buf_app_l. Qed.
Lemma wf_view_app st x v : wf_view st v -> wf_view (st ++ x) v.
Proof. apply wf_view_keeps, keeps_app. Qed.
Lemma flatT_app_store st x v : wf_view st v -> flatT (st ++ x) v = flatT st v.
Proof. apply flatT_keeps, keeps_app. Qed.
Lemma wf_elem_id_lt st e : wf_elem st e -> 0 <= iv_id e < zlen st.
Proof. intros (b & Hb & _); eapply get_buf_Some; eauto. Qed.

Lemma pattern_length id n : 0 <= n -> zlen (pattern id n) = n.
Proof. intros; unfold pattern, zlen; rewrite map_length, seq_length; lia. Qed.
Lemma wf_new_elem st n : 0 <= n -> wf_elem (st ++ [pattern (zlen st) n]) (mkiov (zlen st) 0 n).
Proof. intros H; eexists; simpl; split; [apply get_buf_new|]. rewrite pattern_length by lia. lia. Qed.

Lemma store_bytes_get st id off data st' :
  store_bytes st id off data = Some st' ->
  exists b, get_buf st id = Some b /\ 0 <= off /\ off + zlen data <= zlen b /\
            get_buf st' id = Some (splice b off data) /\
            (forall j, j <> id -> get_buf st' j = get_buf st j) /\ zlen st' = zlen st.
Proof.
  unfold store_bytes. destruct (get_buf st id) as [b|] eqn:Hb; [|discriminate].
  destruct (in_range b off (zlen data)) eqn:Hr; [|discriminate]. intros H; inversion H; subst st'; clear H.
  apply in_range_spec in Hr. pose proof (get_buf_Some _ _ _ Hb) as Hid.
  exists b. repeat split; try lia.
  - unfold get_buf in *. destruct (id <? 0); [discriminate|]. apply nth_error_set_nth_same. unfold zlen in Hid; lia.
  - intros j Hj. unfold get_buf. destruct (j <? 0) eqn:Ej; [reflexivity|]. apply nth_error_set_nth_other.
    apply Z.ltb_ge in Ej. lia.
  - unfold zlen; rewrite set_nth_length; reflexivity.
Qed.

Lemma store_bytes_wf_elem st id off data st' e :
  store_bytes st id off data = Some st' -> wf_elem st e -> wf_elem st' e.
Proof.
  intros H (b & Hb & H1 & H2 & H3). destruct (store_bytes_get _ _ _ _ _ H) as (b0 & Hb0 & Ho & Hd & Hn & Hoth & _).
  destruct (Z.eq_dec (iv_id e) id) as [E|E].
  - exists (splice b0 off data). rewrite E in *. rewrite Hb0 in Hb; inversion Hb; subst b0.
    split; [exact Hn|]. rewrite splice_length by lia. lia.
  - exists b. rewrite Hoth by exact E. auto.
Qed.
Lemma store_bytes_wf_view st id off data st' v :
  store_bytes st id off data = Some st' -> wf_view st v -> wf_view st' v.
Proof. intros H Hv; eapply Forall_impl; [|exact Hv]. intros; eapply store_bytes_wf_elem; eauto. Qed.

(* two elements do not share a byte (zero-length elements share nothing) *)
Definition disj (a b : iovec) : Prop :=
  iv_len a = 0 \/ iv_len b = 0 \/ iv_id a <> iv_id b \/ iv_off a + iv_len a <= iv_off b \/ iv_off b + iv_len b <= iv_off a.

(* frame: a write into region w leaves every element disjoint from w unchanged *)
Lemma store_bytes_frame st w data st' e :
  store_bytes st (iv_id w) (iv_off w) data = Some st' -> zlen data = iv_len w ->
  wf_elem st e -> disj e w -> bytesT st' e = bytesT st e.
Proof.
  intros H Hl (b & Hb & H1 & H2 & H3) D.
  destruct (store_bytes_get _ _ _ _ _ H) as (b0 & Hb0 & Ho & Hd & Hn & Hoth & _).
  unfold bytesT. destruct (Z.eq_dec (iv_id e) (iv_id w)) as [E|E].
  - rewrite E in *. rewrite Hb0 in Hb; inversion Hb; subst b0. rewrite Hn, Hb0.
    destruct D as [D|[D|[D|D]]]; try congruence.
    + rewrite D; reflexivity.
    + assert (data = []) by (destruct data; [reflexivity| unfold zlen in Hl; simpl in Hl; lia]). subst data.
      rewrite splice_nil; reflexivity.
    + apply sub_splice_other; lia.
  - rewrite Hoth by exact E. reflexivity.
Qed.
