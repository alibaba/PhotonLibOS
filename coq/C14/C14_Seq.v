(* C14 — the test machine: every step refines the flat-byte-string operation, keeps the machine
   well formed and never leaves a buffer (step <> None); sequences by induction. *)
From Coq Require Import ZArith List Bool Lia.
From PV Require Import C14.C14_Model C14.C14_Lib C14.C14_Proofs C14.C14_Copy C14.C14_Alloc.
Import ListNotations.
Local Open Scope Z_scope.

(* machine invariant: every element lies inside its buffer, and no two elements share a buffer
   (each element is a piece of its own allocation — what the harness builds and what push/extract
   preserve; zero-length elements included, no side condition on lengths) *)
Definition wf_machine (m : machine) : Prop := wf_view (m_st m) (live (m_iv m)) /\ ids_ok (live (m_iv m)).
Definition mflat (m : machine) : list byte := flatT (m_st m) (live (m_iv m)).
Definition auxflat (m : machine) : list byte := flatT (m_st m) (m_aux m).
Definition dstflat (m : machine) (ob : obs) : list byte := flatT (m_st m) (o_dst ob).

Definition shape_ok (sh : list Z) : Prop := Forall (fun n => 0 <= n) sh.
Fixpoint shape_sum (sh : list Z) : Z := match sh with [] => 0 | n :: r => n + shape_sum r end.
(* size_t arguments are non-negative; slice's off_t offset is required to be >= 0 *)
Definition args_ok (o : op) : Prop :=
  match o with
  | OShrink n | OShrinkLT n | OXF n | OXB n | OXFB n | OXBB n | OXFC n | OXBC n
  | OPushB n | OPushF n | OMTo n | OMFrom n | OPTo n | OTrunc n | OPushBA n | OPushFA n => 0 <= n
  | OXFV n N | OXBV n N => 0 <= n /\ 0 <= N
  | OXFO n cap2 rf2 | OXBO n cap2 rf2 => 0 <= n /\ 0 <= rf2 <= cap2
  | OSlice c o N => 0 <= c /\ 0 <= o /\ 0 <= N
  | OMToV sh n | OMFromV sh n | OPToV sh n | OPFromV sh n => shape_ok sh /\ 0 <= n
  | _ => True
  end.
(* the operation on the flat byte string F of the vector: F' = flat string afterwards, G' = flat string
   of the out view afterwards, D = content of the destination buffers / of the returned pointer,
   ob = what the call returned *)
Definition flat_spec (o : op) (own : bool) (F F' G' D : list byte) (ob : obs) : Prop :=
  let r := o_ret ob in
  match o with
  | OSum => r = zlen F /\ F' = F
  | OShrink n => r = Z.min n (zlen F) /\ F' = firstn (Z.to_nat r) F
  | OShrinkLT n =>
      if own then r = NA /\ F' = F
      else exists post, F = F' ++ post /\ (n = 0 -> F' = []) /\ (0 < n -> n <= zlen F -> zlen F' = n + r /\ 0 <= r) /\
                        (zlen F < n -> F' = F /\ r = 0)
  | OXF n => r = Z.min n (zlen F) /\ F' = skipn (Z.to_nat r) F
  | OXB n => r = Z.min n (zlen F) /\ F' = firstn (Z.to_nat (zlen F - r)) F
  | OXFB n => r = Z.min n (zlen F) /\ F' = skipn (Z.to_nat r) F /\
              exists pat, zlen pat = n /\ D = firstn (Z.to_nat r) F ++ skipn (Z.to_nat r) pat
  | OXBB n => r = Z.min n (zlen F) /\ F' = firstn (Z.to_nat (zlen F - r)) F /\
              exists pat, zlen pat = n /\ D = firstn (Z.to_nat (n - r)) pat ++ skipn (Z.to_nat (zlen F - r)) F
  | OXFV n N => (r = -1 /\ G' ++ F' = F) \/
                (r = Z.min n (zlen F) /\ G' = firstn (Z.to_nat r) F /\ F' = skipn (Z.to_nat r) F)
  | OXBV n N => (r = -1 /\ F' ++ G' = F) \/
                (r = Z.min n (zlen F) /\ G' = skipn (Z.to_nat (zlen F - r)) F /\ F' = firstn (Z.to_nat (zlen F - r)) F)
  | OXFC n => (r = 0 /\ o_ptr ob = None /\ F' = F) \/
              (r = 1 /\ o_ptr ob <> None /\ n <= zlen F /\ D = firstn (Z.to_nat n) F /\ F' = skipn (Z.to_nat n) F)
  | OXBC n => (r = 0 /\ o_ptr ob = None /\ F' = F) \/
              (r = 1 /\ o_ptr ob <> None /\ n <= zlen F /\ D = skipn (Z.to_nat (zlen F - n)) F /\ F' = firstn (Z.to_nat (zlen F - n)) F)
  | OSlice c o N =>
      F' = F /\ (r = -1 \/ r = 0 \/
                 (r = zlen G' /\ G' = firstn (Z.to_nat r) (firstn (Z.to_nat c) (skipn (Z.to_nat o) F))))
  | OMTo n | OMToV _ n =>
      F' = F /\ exists pat, r = Z.min n (Z.min (zlen pat) (zlen F)) /\ D = firstn (Z.to_nat r) F ++ skipn (Z.to_nat r) pat
  | OPTo n | OPToV _ n =>
      exists pat, r = Z.min n (Z.min (zlen pat) (zlen F)) /\ D = firstn (Z.to_nat r) F ++ skipn (Z.to_nat r) pat /\
                  F' = skipn (Z.to_nat r) F
  | OMFrom n | OMFromV _ n =>
      r = Z.min n (Z.min (zlen F) (zlen D)) /\ F' = firstn (Z.to_nat r) D ++ skipn (Z.to_nat r) F
  | OPFromV _ n =>
      r = Z.min n (Z.min (zlen F) (zlen D)) /\ F' = firstn (Z.to_nat r) D ++ skipn (Z.to_nat r) F /\ G' = skipn (Z.to_nat r) D
  | OPopF => if own then 0 <= r <= zlen F /\ F' = skipn (Z.to_nat r) F else r = NA /\ F' = F
  | OPopB => if own then 0 <= r <= zlen F /\ F' = firstn (Z.to_nat (zlen F - r)) F else r = NA /\ F' = F
  | OClear => if own then F' = [] else r = NA /\ F' = F
  | OPushB s => if own then (r = 0 /\ F' = F) \/ (r = s /\ exists X, zlen X = s /\ F' = F ++ X) else r = NA /\ F' = F
  | OPushF s => if own then (r = 0 /\ F' = F) \/ (r = s /\ exists X, zlen X = s /\ F' = X ++ F) else r = NA /\ F' = F
  | OXFO n _ _ => if own then (r = -1 /\ G' = [] /\ F' = F) \/ (r = Z.min n (zlen F) /\ G' = firstn (Z.to_nat r) F /\ F' = skipn (Z.to_nat r) F)
                  else r = NA /\ F' = F
  | OXBO n _ _ => if own then (r = -1 /\ G' = [] /\ F' = F) \/
                              (r = Z.min n (zlen F) /\ G' = skipn (Z.to_nat (zlen F - r)) F /\ F' = firstn (Z.to_nat (zlen F - r)) F)
                  else r = NA /\ F' = F
  | OTrunc n =>
      if own then r = zlen F' /\ r <= n /\ (n <= zlen F -> F' = firstn (Z.to_nat n) F) /\ (zlen F <= n -> exists X, F' = F ++ X)
      else r = NA /\ F' = F
  | OPushBA n => if own then 0 <= r <= n /\ exists X, zlen X = r /\ F' = F ++ X else r = NA /\ F' = F
  | OPushFA n => if own then 0 <= r <= n /\ exists X, zlen X = r /\ F' = X ++ F else r = NA /\ F' = F
  end.

(* the operations that WRITE bytes into the vector under test; only they need its elements not to overlap *)
Definition writes_vector (o : op) : Prop :=
  match o with OMFrom _ | OMFromV _ _ | OPFromV _ _ => True | _ => False end.

Inductive refines : machine -> list op -> list obs -> machine -> Prop :=
| R_nil m : refines m [] [] m
| R_cons m o ob m1 ops obs m2 :
    step m o = Some (m1, ob) -> wf_view (m_st m1) (live (m_iv m1)) -> m_own m1 = m_own m ->
    flat_spec o (m_own m) (mflat m) (mflat m1) (auxflat m1) (dstflat m1 ob) ob ->
    refines m1 ops obs m2 -> refines m (o :: ops) (ob :: obs) m2.

Lemma live_wfront m v' : live (wfront m v') = v'.
Proof. unfold wfront; destruct (m_own m); reflexivity. Qed.
Lemma live_wback m v' : live (wback m v') = v'.
Proof. unfold wback; destruct (m_own m); reflexivity. Qed.

Lemma flatT_nulls st N : flatT st (nulls N) = [].
Proof.
  unfold nulls. induction (Z.to_nat N) as [|k IH]; [reflexivity|]. simpl repeat. rewrite flatT_cons, IH.
  unfold bytesT, null_iov; simpl. reflexivity.
Qed.

(* elements that lie in different buffers do not overlap *)
Lemma ids_ok_pairwise v : ids_ok v -> ForallOrdPairs disj v.
Proof.
  unfold ids_ok. induction v as [|e v IH]; intros I; [constructor|]. simpl in I. inversion I as [|? ? Hn Hd]; subst.
  constructor; [|apply IH; auto].
  apply Forall_forall. intros x Hx. right; right; left. intros E. apply Hn. rewrite E. apply in_map; exact Hx.
Qed.
Lemma ids_apart z a b : Forall (fun e => iv_id e < z) a -> Forall (fun e => z <= iv_id e) b -> all_disj a b /\ all_disj b a.
Proof.
  intros A B. split.
  - eapply Forall_impl; [|exact A]. intros x Hx. eapply Forall_impl; [|exact B]. intros y Hy. right; right; left. simpl in *; lia.
  - eapply Forall_impl; [|exact B]. intros y Hy. eapply Forall_impl; [|exact A]. intros x Hx. right; right; left. simpl in *; lia.
Qed.

Lemma new_bufs_spec : forall shape st st1 dv, shape_ok shape -> new_bufs st shape = (st1, dv) ->
  exists x, st1 = st ++ x /\ wf_view st1 dv /\ Forall (fun e => zlen st <= iv_id e) dv /\ ids_ok dv.
Proof.
  induction shape as [|n sh IH]; intros st st1 dv S E; simpl in E.
  - inversion E; subst. exists []. rewrite app_nil_r. repeat split; constructor.
  - inversion S as [|? ? Hn Hs]; subst. unfold new_buf in E.
    destruct (new_bufs (st ++ [pattern (zlen st) n]) sh) as [st2 v] eqn:R. inversion E; subst.
    destruct (IH _ _ _ Hs R) as (x & -> & W & I & O).
    exists ([pattern (zlen st) n] ++ x). rewrite app_assoc. split; [reflexivity|].
    rewrite zlen_app in I. assert (zlen [pattern (zlen st) n] = 1) by reflexivity.
    split; [constructor; auto; apply (wf_elem_keeps _ _ _ (keeps_app _ x)), wf_new_elem; exact Hn|].
    split; [constructor; [simpl; lia | eapply Forall_impl; [|exact I]; simpl; intros; lia]|].
    unfold ids_ok in *. simpl. constructor; [|exact O]. intros HI. apply in_map_iff in HI. destruct HI as (y & Ey & Hy).
    eapply Forall_forall in I; [|exact Hy]. simpl in I. lia.
Qed.

(* fresh views next to a vector v of the old store: nothing overlaps, v is untouched *)
Lemma fresh_views st v shape st1 dv : wf_view st v -> shape_ok shape -> new_bufs st shape = (st1, dv) ->
  wf_view st1 dv /\ ForallOrdPairs disj dv /\ all_disj v dv /\ all_disj dv v /\ wf_view st1 v /\ flatT st1 v = flatT st v.
Proof.
  intros W S E. destruct (new_bufs_spec _ _ _ _ S E) as (x & -> & Wd & FD & Od).
  assert (BEL : Forall (fun e => iv_id e < zlen st) v).
  { eapply Forall_impl; [|exact W]. intros e We. pose proof (wf_elem_id_lt _ _ We); lia. }
  destruct (ids_apart _ _ _ BEL FD). auto 8 using ids_ok_pairwise, wf_view_app, flatT_app_store.
Qed.

(* iovector.h:434-443 shrink_to of the owning vector *)
Lemma o_shrink_to_refines st iv size iv' r : wf_view st (live iv) -> 0 <= size -> o_shrink_to iv size = (iv', r) ->
  r = Z.min size (v_sum (live iv)) /\ flatT st (live iv') = firstn (Z.to_nat r) (flatT st (live iv)) /\
  wf_view st (live iv') /\ (r = size \/ live iv' = live iv) /\ exists post, map iv_id (live iv) = map iv_id (live iv') ++ post.
Proof.
  intros W A. unfold o_shrink_to. destruct (v_shrink_to (live iv) size) as [v' r0] eqn:E.
  destruct (v_shrink_to_refines st _ _ _ _ W A E) as (R & F & W' & D & P).
  destruct (r0 =? size) eqn:C; intros H; inversion H; subst; simpl; [auto 7|].
  apply Z.eqb_neq in C. destruct D as [D| ->]; [contradiction|]. rewrite skipn_all, app_nil_r. auto 7.
Qed.

(* one operation: the step exists, keeps the vector well formed (and its elements in different buffers if they were),
   refines flat_spec, and does not change the kind of vector *)
Definition step_ok (m : machine) (o : op) : Prop :=
  exists m1 ob, step m o = Some (m1, ob) /\ m_own m1 = m_own m /\
                (wf_view (m_st m1) (live (m_iv m1)) /\ (ids_ok (live (m_iv m)) -> ids_ok (live (m_iv m1)))) /\
                flat_spec o (m_own m) (flatT (m_st m) (live (m_iv m))) (flatT (m_st m1) (live (m_iv m1)))
                          (flatT (m_st m1) (m_aux m1)) (flatT (m_st m1) (o_dst ob)) ob.

(* the operations of the owning iovector answer NA on a plain view *)
Lemma step_NA st iv aux chunk o : wf_view st (live iv) ->
  match o with
  | OTrunc _ | OPushB _ | OPushF _ | OPushBA _ | OPushFA _ | OPopF | OPopB | OClear | OXFO _ _ _ | OXBO _ _ _ => True
  | _ => False
  end -> step_ok (mkM st false iv aux chunk) o.
Proof. intros W H. destruct o; try contradiction; (eexists _, _; split; [reflexivity|]; simpl; auto). Qed.

Section Step.
  Variables (st : store) (own : bool) (iv : iovector) (aux : view) (chunk : Z).
  Hypothesis W : wf_view st (live iv).
  Local Notation M := (mkM st own iv aux chunk).
  Local Notation F := (flatT st (live iv)).

  Let SUM : v_sum (live iv) = zlen F := eq_sym (zlen_flatT st _ W).
  Let FN : 0 <= zlen F := zlen_nonneg _.

  Lemma step_sum : step_ok M OSum.
  Proof. eexists _, _; split; [reflexivity|]. simpl. auto. Qed.

  Lemma step_shrink n : 0 <= n -> step_ok M (OShrink n).
  Proof.
    intros A. unfold step_ok, step; simpl. destruct own.
    - destruct (o_shrink_to iv n) as [iv' r] eqn:E.
      destruct (o_shrink_to_refines st _ _ _ _ W A E) as (R & Fv & W' & _ & P).
      eexists _, _; split; [reflexivity|]. simpl. rewrite <- SUM. split; [reflexivity|]. split; [split; [exact W' | exact (ids_ok_prefix _ _ P)]|]. auto.
    - destruct (v_shrink_to (live iv) n) as [v' r] eqn:E.
      destruct (v_shrink_to_refines st _ _ _ _ W A E) as (R & Fv & W' & _ & P).
      eexists _, _; split; [reflexivity|]. simpl. rewrite <- SUM. split; [reflexivity|]. split; [split; [exact W' | exact (ids_ok_prefix _ _ P)]|]. auto.
  Qed.

  Lemma step_shrinklt n : 0 <= n -> step_ok M (OShrinkLT n).
  Proof.
    intros A. unfold step_ok, step; simpl. destruct own; [eexists _, _; split; [reflexivity|]; simpl; auto|].
    destruct (v_shrink_less_than (live iv) n) as [v' r] eqn:E.
    destruct (v_shrink_less_than_refines st _ _ _ _ W A E) as (W' & [post P] & H0 & H1 & H2).
    eexists _, _; split; [reflexivity|]. simpl. split; [reflexivity|].
    split; [split; [exact W'|]; apply ids_ok_prefix; exists (map iv_id post); rewrite P; apply map_app|].
    exists (flatT st post). split; [rewrite P, flatT_app; reflexivity|].
    split; [intros Z0; destruct (H0 Z0) as [-> _]; reflexivity|]. rewrite <- SUM, (zlen_flatT st v' W').
    split; [intros Hp Hle; destruct (H1 Hp Hle) as (S1 & R1 & _); auto | intros Hlt; destruct (H2 Hlt) as [-> ->]; auto].
  Qed.

  (* iovector.h:446-455 truncate: shrink_to, then push_back(size - ret) for what is missing *)
  Lemma step_trunc n : 0 <= n -> step_ok M (OTrunc n).
  Proof.
    intros A. destruct own; [|apply step_NA; [exact W | exact I]].
    unfold step_ok, step, o_truncate; simpl. destruct (n =? v_sum (live iv)) eqn:C0.
    { apply Z.eqb_eq in C0. eexists _, _; split; [reflexivity|]. simpl. split; [reflexivity|]. split; [auto|].
      split; [lia|]. split; [lia|].
      split; [intros _; rewrite firstn_whole by lia; reflexivity | intros _; exists []; rewrite app_nil_r; reflexivity]. }
    apply Z.eqb_neq in C0. destruct (o_shrink_to iv n) as [iv1 r0] eqn:E.
    destruct (o_shrink_to_refines st _ _ _ _ W A E) as (R & Fv & W' & D & P).
    destruct (r0 =? n) eqn:C.
    - apply Z.eqb_eq in C. eexists _, _; split; [reflexivity|]. simpl. split; [reflexivity|].
      split; [split; [exact W' | exact (ids_ok_prefix _ _ P)]|]. rewrite Fv, C.
      split; [rewrite zlen_firstn; lia|]. split; [lia|]. split; [auto|]. intros Hle. exists []. rewrite app_nil_r. apply firstn_whole. lia.
    - apply Z.eqb_neq in C. destruct D as [D|D]; [contradiction|].
      destruct (o_push_alloc_spec Back chunk st iv1 (n - r0) W' ltac:(lia)) as (st' & iv' & k & EA & Hk & (W2 & I2 & XX & LX & FX)).
      rewrite EA. eexists _, _; split; [reflexivity|]. simpl. split; [reflexivity|]. rewrite D in *.
      split; [auto|]. rewrite FX, zlen_app.
      split; [lia|]. split; [lia|]. split; [intros; lia|]. intros _. exists XX. reflexivity.
  Qed.

  Lemma step_x s n : 0 <= n -> step_ok M (match s with Front => OXF n | Back => OXB n end).
  Proof.
    intros A. destruct (x_discard_refines s st (live iv) n W A) as (v' & rem & E & K & Fv & W' & _ & P).
    pose proof (ids_ok_seg s _ _ P) as I'. unfold step_ok, step.
    destruct s; simpl in E |- *; rewrite E; eexists _, _; (split; [reflexivity|]); simpl.
    - rewrite live_wfront, <- SUM. auto.
    - rewrite live_wback, <- SUM. auto.
  Qed.

  Lemma step_xbuf s n : 0 <= n -> step_ok M (match s with Front => OXFB n | Back => OXBB n end).
  Proof.
    intros A. pose proof (x_copy_refines s st (live iv) n W A) as G. unfold new_buf in G.
    destruct G as (v' & rem & st2 & pos & E & K & Fv & W' & _ & _ & _ & P & Fd). pose proof (ids_ok_seg s _ _ P) as I'.
    pose proof (pattern_length (zlen st) n A) as Lp. unfold step_ok, step, new_buf.
    destruct s; simpl in E |- *; rewrite E; eexists _, _; (split; [reflexivity|]); simpl.
    - rewrite live_wfront, <- SUM. eauto 8.
    - rewrite live_wback, <- SUM. eauto 8.
  Qed.

  (* the out view of the owning extract_*(bytes, iovector_view ptr) / slice: possibly one allocation, the vector as it was *)
  Lemma out_slots_spec N st1 iv1 slots :
    (if own then own_out_slots M st iv N else (st, iv, Some N)) = (st1, iv1, slots) ->
    live iv1 = live iv /\ wf_view st1 (live iv) /\ flatT st1 (live iv) = F.
  Proof.
    assert (G : forall x, st1 = st ++ x -> live iv1 = live iv -> live iv1 = live iv /\ wf_view st1 (live iv) /\ flatT st1 (live iv) = F).
    { intros x -> L. auto using wf_view_app, flatT_app_store. }
    assert (G0 : (st, iv, Some N) = (st1, iv1, slots) -> live iv1 = live iv /\ wf_view st1 (live iv) /\ flatT st1 (live iv) = F).
    { intros H; inversion H; subst. apply (G []); [symmetry; apply app_nil_r | reflexivity]. }
    destruct own; [|exact G0]. unfold own_out_slots, do_malloc. simpl m_chunk. destruct (N =? 0); [|exact G0].
    destruct (do_allocate chunk st iv (zlen (live iv) * IOVEC_SIZE) (zlen (live iv) * IOVEC_SIZE)) as [[st' iv'] res] eqn:DA.
    destruct (do_allocate_spec _ _ _ _ _ _ _ _ DA) as (_ & _ & C3 & R).
    destruct res as [[id r]|]; intros H; inversion H; subst.
    - destruct R as (_ & -> & _). eapply G; eauto.
    - apply (G []); [symmetry; apply app_nil_r | exact C3].
  Qed.

  Lemma step_xfv n N : 0 <= n -> step_ok M (OXFV n N).
  Proof.
    intros A. unfold step_ok, step; simpl. destruct (own && (n =? 0)) eqn:C.
    - apply andb_true_iff in C. destruct C as [_ C]. apply Z.eqb_eq in C. subst n.
      eexists _, _; split; [reflexivity|]. simpl. rewrite flatT_nulls. split; [reflexivity|]. split; [auto|].
      right. repeat split; auto. lia.
    - destruct (if own then own_out_slots M st iv N else (st, iv, Some N)) as [[st1 iv1] slots] eqn:OS.
      destruct (out_slots_spec _ _ _ _ OS) as (Lv & W1 & F1). destruct slots as [N'|].
      + pose proof (x_view_refines Front st1 (live iv) n N' W1 A) as G. simpl in G.
        destruct (do_extract_front (cb_view_front N') (live iv) n []) as [|v' a'|v' rem a']; [contradiction| |].
        * destruct G as (P & W' & Wa & _ & I'). eexists _, _; split; [reflexivity|]. simpl. rewrite live_wfront, P, F1.
          split; [reflexivity|]. split; [split; [exact W' | exact (ids_ok_suffix _ _ I')]|]. auto.
        * destruct G as (K & Fa & Fv & W' & Wa & _ & _ & I'). eexists _, _; split; [reflexivity|]. simpl.
          rewrite live_wfront, Fa, Fv, F1, <- SUM. split; [reflexivity|]. split; [split; [exact W' | exact (ids_ok_suffix _ _ I')]|]. right. auto.
      + eexists _, _; split; [reflexivity|]. simpl. rewrite Lv, F1. auto.
  Qed.
  Lemma step_xbv n N : 0 <= n -> step_ok M (OXBV n N).
  Proof.
    intros A. unfold step_ok, step; simpl. destruct (own && (n =? 0)) eqn:C.
    - apply andb_true_iff in C. destruct C as [_ C]. apply Z.eqb_eq in C. subst n.
      eexists _, _; split; [reflexivity|]. simpl. rewrite flatT_nulls. split; [reflexivity|]. split; [auto|].
      right. replace (Z.min 0 (zlen F)) with 0 by lia. rewrite Z.sub_0_r, skipn_whole, firstn_whole by lia. auto.
    - destruct (if own then own_out_slots M st iv N else (st, iv, Some N)) as [[st1 iv1] slots] eqn:OS.
      destruct (out_slots_spec _ _ _ _ OS) as (Lv & W1 & F1). destruct slots as [N'|].
      + pose proof (x_view_refines Back st1 (live iv) n N' W1 A) as G. simpl in G.
        destruct (do_extract_back (cb_view_back N') (live iv) n []) as [|v' a'|v' rem a']; [contradiction| |].
        * destruct G as (P & W' & Wa & _ & I'). eexists _, _; split; [reflexivity|]. simpl. rewrite live_wback, P, F1.
          split; [reflexivity|]. split; [split; [exact W' | exact (ids_ok_prefix _ _ I')]|]. auto.
        * destruct G as (K & Fa & Fv & W' & Wa & _ & _ & I'). eexists _, _; split; [reflexivity|]. simpl.
          rewrite live_wback, Fa, Fv, F1, <- SUM. split; [reflexivity|]. split; [split; [exact W' | exact (ids_ok_prefix _ _ I')]|]. right. auto.
      + eexists _, _; split; [reflexivity|]. simpl. rewrite Lv, F1, app_nil_r. auto.
  Qed.

  Lemma step_slice count offset N : 0 <= count -> 0 <= offset -> step_ok M (OSlice count offset N).
  Proof.
    intros Ac Ao. unfold step_ok, step; simpl. destruct (own && (count =? 0)) eqn:C.
    - eexists _, _; split; [reflexivity|]. simpl. auto 6.
    - destruct (if own then own_out_slots M st iv N else (st, iv, Some N)) as [[st1 iv1] slots] eqn:OS.
      destruct (out_slots_spec _ _ _ _ OS) as (Lv & W1 & F1). destruct slots as [N'|].
      + pose proof (v_slice_refines st1 (live iv) count offset N' W1 Ac Ao) as G. cbv zeta in G. rewrite F1 in G.
        destruct (v_slice (live iv) count offset N') as [r [a|]].
        * destruct G as (_ & Wa & Ra & Fa & _). eexists _, _; split; [reflexivity|]. simpl. rewrite Lv, F1. auto 8.
        * destruct G as [_ ->]. eexists _, _; split; [reflexivity|]. simpl. rewrite Lv, F1. auto 6.
      + eexists _, _; split; [reflexivity|]. simpl. rewrite Lv, F1. auto 6.
  Qed.

  (* extract_*_continuous: a pointer into the first / last element, or (owning vector) a fresh buffer the bytes are copied to *)
  Lemma step_xfc n : 0 <= n -> step_ok M (OXFC n).
  Proof.
    intros A. unfold step_ok, step; simpl. destruct (v_xfc (live iv) n) as [v' p] eqn:E.
    pose proof (v_xc_refines Front st _ _ _ _ W A E) as G. destruct p as [[pid poff]|].
    - destruct G as (Ln & Wp & Bp & Fv & W' & _ & P). eexists _, _; split; [reflexivity|]. simpl.
      rewrite live_wfront, flatT_single, Bp, <- SUM. split; [reflexivity|]. split; [split; [exact W' | exact (ids_ok_suffix _ _ P)]|].
      right. repeat split; auto. discriminate.
    - destruct own; [|eexists _, _; split; [reflexivity|]; simpl; auto 6].
      destruct (v_sum (live iv) <? n) eqn:C; [eexists _, _; split; [reflexivity|]; simpl; auto 6|].
      apply Z.ltb_ge in C. unfold do_malloc. destruct (do_allocate chunk st iv n n) as [[st1 iv1] res] eqn:DA.
      destruct (do_allocate_spec _ _ _ _ _ _ _ _ DA) as (_ & _ & C3 & R). destruct res as [[d r]|].
      + destruct R as (-> & -> & Hr). replace r with n by lia.
        pose proof (x_copy_refines Front st (live iv) n W A) as G2. unfold new_buf in G2. simpl in G2.
        destruct G2 as (v2 & rem & st2 & pos & EX & K & Fv & W' & _ & _ & _ & P & Fd). rewrite EX. pose proof (ids_ok_suffix _ _ P) as I'.
        eexists _, _; split; [reflexivity|]. simpl. replace (n - rem) with n in * by lia.
        rewrite skipn_whole, app_nil_r in Fd by (rewrite pattern_length; lia). split; [reflexivity|]. split; [auto|].
        right. rewrite Fd, Fv. repeat split; auto; [discriminate | lia].
      + subst st1. eexists _, _; split; [reflexivity|]. simpl. rewrite C3. auto 6.
  Qed.
  Lemma step_xbc n : 0 <= n -> step_ok M (OXBC n).
  Proof.
    intros A. unfold step_ok, step; simpl. destruct (v_xbc (live iv) n) as [v' p] eqn:E.
    pose proof (v_xc_refines Back st _ _ _ _ W A E) as G. destruct p as [[pid poff]|].
    - destruct G as (Ln & Wp & Bp & Fv & W' & _ & P). eexists _, _; split; [reflexivity|]. simpl.
      rewrite live_wback, flatT_single, Bp, <- SUM. split; [reflexivity|]. split; [split; [exact W' | exact (ids_ok_prefix _ _ P)]|].
      right. repeat split; auto. discriminate.
    - destruct own; [|eexists _, _; split; [reflexivity|]; simpl; auto 6].
      destruct (v_sum (live iv) <? n) eqn:C; [eexists _, _; split; [reflexivity|]; simpl; auto 6|].
      apply Z.ltb_ge in C. unfold do_malloc. destruct (do_allocate chunk st iv n n) as [[st1 iv1] res] eqn:DA.
      destruct (do_allocate_spec _ _ _ _ _ _ _ _ DA) as (_ & _ & C3 & R). destruct res as [[d r]|].
      + destruct R as (-> & -> & Hr). replace r with n by lia.
        pose proof (x_copy_refines Back st (live iv) n W A) as G2. unfold new_buf in G2. simpl in G2.
        destruct G2 as (v2 & rem & st2 & pos & EX & K & Fv & W' & _ & _ & _ & P & Fd). rewrite EX. pose proof (ids_ok_prefix _ _ P) as I'.
        eexists _, _; split; [reflexivity|]. simpl. rewrite <- SUM. replace rem with 0 in * by lia. rewrite Z.sub_0_r in *. rewrite Z.sub_diag in Fd.
        split; [reflexivity|]. split; [auto|]. right. rewrite Fd, Fv. repeat split; auto. discriminate.
      + subst st1. eexists _, _; split; [reflexivity|]. simpl. rewrite C3. auto 6.
  Qed.

  (* memcpy / pipe between the vector and fresh views *)
  Lemma step_mtov shape n : shape_ok shape -> 0 <= n -> step_ok M (OMToV shape n).
  Proof.
    intros S A. unfold step_ok, step; simpl. destruct (new_bufs st shape) as [st1 dv] eqn:NB.
    destruct (fresh_views _ _ _ _ _ W S NB) as (Wd & PD & AD & AD' & W1 & F1).
    destruct (v_memcpy_iov_copied st1 dv (live iv) n Wd W1 PD AD' A) as (st2 & s' & n' & E & K & FD & FR & WF & _).
    rewrite E. eexists _, _; split; [reflexivity|]. simpl. rewrite (frame_view st1 st2 dv _ FR W1 AD), F1.
    rewrite <- (zlen_flatT st1 _ Wd), <- (zlen_flatT st1 _ W1), F1 in K. rewrite F1 in FD.
    split; [reflexivity|]. split; [split; [eapply Forall_impl; [|exact W1]; auto | auto]|]. eauto.
  Qed.
  Lemma step_ptov shape n : shape_ok shape -> 0 <= n -> step_ok M (OPToV shape n).
  Proof.
    intros S A. unfold step_ok, step; simpl. destruct (new_bufs st shape) as [st1 dv] eqn:NB.
    destruct (fresh_views _ _ _ _ _ W S NB) as (Wd & PD & AD & AD' & W1 & F1).
    destruct (v_pipe_iov_copied st1 dv (live iv) n Wd W1 PD AD' A) as (st2 & v' & n' & E & K & FD & _ & _ & _ & FS & WS & _ & IP).
    pose proof (ids_ok_suffix _ _ IP) as I'.
    rewrite E. eexists _, _; split; [reflexivity|]. simpl. rewrite live_wfront, FS.
    rewrite <- (zlen_flatT st1 _ Wd), <- (zlen_flatT st1 _ W1), F1 in K. rewrite F1 in *.
    split; [reflexivity|]. split; [auto|]. eauto.
  Qed.
  Lemma step_mfromv shape n : ids_ok (live iv) -> shape_ok shape -> 0 <= n -> step_ok M (OMFromV shape n).
  Proof.
    intros I S A. unfold step_ok, step; simpl. destruct (new_bufs st shape) as [st1 sv] eqn:NB.
    destruct (fresh_views _ _ _ _ _ W S NB) as (Ws & _ & AD & AD' & W1 & F1).
    destruct (v_memcpy_iov_copied st1 (live iv) sv n W1 Ws (ids_ok_pairwise _ I) AD A) as (st2 & s' & n' & E & K & FD & FR & WF & _).
    rewrite E. eexists _, _; split; [reflexivity|]. simpl. rewrite (frame_view st1 st2 _ sv FR Ws AD'), FD, F1.
    rewrite <- (zlen_flatT st1 _ Ws), <- (zlen_flatT st1 _ W1), F1 in K.
    split; [reflexivity|]. split; [split; [eapply Forall_impl; [|exact W1]; auto | auto]|]. auto.
  Qed.
  Lemma step_pfromv shape n : ids_ok (live iv) -> shape_ok shape -> 0 <= n -> step_ok M (OPFromV shape n).
  Proof.
    intros I S A. unfold step_ok, step; simpl. destruct (new_bufs st shape) as [st1 sv] eqn:NB.
    destruct (fresh_views _ _ _ _ _ W S NB) as (Ws & _ & AD & AD' & W1 & F1).
    destruct (v_pipe_iov_copied st1 (live iv) sv n W1 Ws (ids_ok_pairwise _ I) AD A) as (st2 & v' & n' & E & K & FD & FR & WF & _ & FS & _).
    rewrite E. eexists _, _; split; [reflexivity|]. simpl. rewrite (frame_view st1 st2 _ sv FR Ws AD'), FD, FS, F1.
    rewrite <- (zlen_flatT st1 _ Ws), <- (zlen_flatT st1 _ W1), F1 in K.
    split; [reflexivity|]. split; [split; [eapply Forall_impl; [|exact W1]; auto | auto]|]. auto.
  Qed.

  (* push_back / push_front (buf, size) with a fresh buffer *)
  Lemma step_pushb size : 0 <= size -> step_ok M (OPushB size).
  Proof.
    intros A. destruct own; [|apply step_NA; [exact W | exact I]].
    unfold step_ok, step, new_buf, o_push_back; simpl. destruct (iend iv <? cap iv).
    - destruct (fresh_back st (live iv) size W A) as (W1 & I1 & X). eexists _, _; split; [reflexivity|]. simpl. auto 6.
    - eexists _, _; split; [reflexivity|]. simpl. rewrite (flatT_app_store st _ _ W). auto using wf_view_app.
  Qed.
  Lemma step_pushf size : 0 <= size -> step_ok M (OPushF size).
  Proof.
    intros A. destruct own; [|apply step_NA; [exact W | exact I]].
    unfold step_ok, step, new_buf, o_push_front; simpl. destruct (0 <? ibeg iv).
    - destruct (fresh_front st (live iv) size W A) as (W1 & I1 & X). eexists _, _; split; [reflexivity|]. simpl. auto 6.
    - eexists _, _; split; [reflexivity|]. simpl. rewrite (flatT_app_store st _ _ W). auto using wf_view_app.
  Qed.
  Lemma step_pusha s bytes : 0 <= bytes -> step_ok M (match s with Front => OPushFA bytes | Back => OPushBA bytes end).
  Proof.
    intros A. destruct own; [|apply step_NA; [exact W | destruct s; exact I]].
    destruct (o_push_alloc_spec s chunk st iv bytes W A) as (st' & iv' & k & EA & Hk & G). unfold step_ok, step.
    destruct s; simpl in EA |- *; rewrite EA; destruct G as (W2 & I2 & XX & LX & FX); eexists _, _; (split; [reflexivity|]); simpl; eauto 7.
  Qed.

  Lemma step_popf : step_ok M OPopF.
  Proof.
    destruct own; [|apply step_NA; [exact W | exact I]].
    unfold step_ok, step, o_pop_front; simpl. destruct (live iv) as [|e r] eqn:Lv.
    - eexists _, _; split; [reflexivity|]. simpl. rewrite Lv. auto 6 using Z.le_refl.
    - destruct (proj1 (wf_view_cons _ _ _) W) as [We Wr]. eexists _, _; split; [reflexivity|]. simpl.
      pose proof (wf_len_nonneg _ _ We). pose proof (zlen_nonneg (flatT st r)). pose proof (zlen_bytesT _ _ We) as Lb.
      rewrite flatT_cons, zlen_app, <- Lb, (proj2 (cut_front _ _ _ eq_refl)).
      split; [reflexivity|]. split; [split; [exact Wr | apply ids_ok_suffix; exists [iv_id e]; reflexivity]|]. split; [lia | reflexivity].
  Qed.
  Lemma step_popb : step_ok M OPopB.
  Proof.
    destruct own; [|apply step_NA; [exact W | exact I]].
    unfold step_ok, step, o_pop_back; simpl. destruct (rev (live iv)) as [|e r] eqn:Lv.
    - eexists _, _; split; [reflexivity|]. simpl. rewrite Z.sub_0_r, firstn_whole by lia. auto 6 using Z.le_refl.
    - assert (LL : live iv = rev r ++ [e]) by (rewrite <- (rev_involutive (live iv)), Lv; reflexivity).
      pose proof W as Wv. rewrite LL in Wv. destruct (proj1 (Forall_app _ _ _) Wv) as [Wr We]. apply Forall_inv in We.
      eexists _, _; split; [reflexivity|]. simpl. pose proof (wf_len_nonneg _ _ We). pose proof (zlen_bytesT _ _ We) as Lb.
      assert (Fl : F = flatT st (rev r) ++ bytesT st e) by (rewrite LL, flatT_app, flatT_single; reflexivity).
      destruct (cut_back st _ _ _ _ W Fl Lb) as [C1 _]. rewrite SUM in C1. rewrite C1. rewrite Fl, zlen_app, Lb.
      pose proof (zlen_nonneg (flatT st (rev r))).
      split; [reflexivity|]. split; [split; [exact Wr | apply ids_ok_prefix; exists [iv_id e]; rewrite LL; apply map_app]|].
      split; [lia | reflexivity].
  Qed.
  Lemma step_clear : step_ok M OClear.
  Proof.
    destruct own; [|apply step_NA; [exact W | exact I]].
    eexists _, _; split; [reflexivity|]. simpl. split; [reflexivity|]. split; [split; constructor | reflexivity].
  Qed.

  (* iovector.h:503-519 / 597-613 with the capacity guard: a destination with a slot for every element never yields -1 *)
  Lemma step_xfo n cap2 rf2 : 0 <= n -> 0 <= rf2 <= cap2 -> step_ok M (OXFO n cap2 rf2).
  Proof.
    intros A Arf. destruct own; [|apply step_NA; [exact W | exact I]].
    unfold step_ok, step; simpl. destruct (n =? 0) eqn:C.
    - apply Z.eqb_eq in C. subst n. eexists _, _; split; [reflexivity|]. simpl. split; [reflexivity|]. split; [auto|].
      right. replace (Z.min 0 (zlen F)) with 0 by lia. auto.
    - destruct (cap2 - rf2 <? zlen (live iv)) eqn:GD; [eexists _, _; split; [reflexivity|]; simpl; auto 6|].
      apply Z.ltb_ge in GD. unfold xfo_body. pose proof (zlen_nonneg (live iv)) as Lnn.
      pose proof (x_view_refines Front st (live iv) n (zlen (live iv)) W A) as G. simpl in G.
      pose proof (proj1 (extract_view_enough_slots (zlen (live iv)) (live iv) n (Z.le_refl _))) as EN.
      destruct (do_extract_front (cb_view_front (zlen (live iv))) (live iv) n []) as [|v' a'|v' rem a']; [contradiction|contradiction|].
      destruct G as (K & Fa & Fv & W' & Wa & _ & LA & I'). specialize (LA Lnn).
      destruct (cap2 <? rf2 + zlen a') eqn:C2; [apply Z.ltb_lt in C2; lia|].
      eexists _, _; split; [reflexivity|]. simpl. rewrite Fa, Fv, <- SUM. split; [reflexivity|]. split; [split; [exact W' | exact (ids_ok_suffix _ _ I')]|]. auto.
  Qed.
  Lemma step_xbo n cap2 rf2 : 0 <= n -> 0 <= rf2 <= cap2 -> step_ok M (OXBO n cap2 rf2).
  Proof.
    intros A Arf. destruct own; [|apply step_NA; [exact W | exact I]].
    unfold step_ok, step; simpl. destruct (n =? 0) eqn:C.
    - apply Z.eqb_eq in C. subst n. eexists _, _; split; [reflexivity|]. simpl. split; [reflexivity|]. split; [auto|].
      right. replace (Z.min 0 (zlen F)) with 0 by lia. rewrite Z.sub_0_r, skipn_whole, firstn_whole by lia. auto.
    - destruct (cap2 - rf2 <? zlen (live iv)) eqn:GD; [eexists _, _; split; [reflexivity|]; simpl; auto 6|].
      apply Z.ltb_ge in GD. unfold xbo_body.
      pose proof (x_view_refines Back st (live iv) n (zlen (live iv)) W A) as G. simpl in G.
      pose proof (proj2 (extract_view_enough_slots (zlen (live iv)) (live iv) n (Z.le_refl _))) as EN.
      destruct (do_extract_back (cb_view_back (zlen (live iv))) (live iv) n []) as [|v' a'|v' rem a']; [contradiction|contradiction|].
      destruct G as (K & Fa & Fv & W' & Wa & _ & _ & I').
      destruct (cap2 <? rf2 + zlen (live iv)) eqn:C2; [apply Z.ltb_lt in C2; lia|]. simpl andb.
      eexists _, _; split; [reflexivity|]. simpl. rewrite Fa, Fv, <- SUM. split; [reflexivity|]. split; [split; [exact W' | exact (ids_ok_prefix _ _ I')]|]. auto.
  Qed.
End Step.

Lemma step_ok_gen m o :
  wf_view (m_st m) (live (m_iv m)) -> (writes_vector o -> ids_ok (live (m_iv m))) -> args_ok o -> step_ok m o.
Proof.
  destruct m as [st own iv aux chunk]. simpl. intros W HI A. destruct o; simpl in A, HI.
  - apply step_sum; assumption.
  - apply step_shrink; assumption.
  - apply step_shrinklt; assumption.
  - apply step_trunc; assumption.
  - apply (step_x st own iv aux chunk W Front); assumption.
  - apply (step_xbuf st own iv aux chunk W Front); assumption.
  - apply step_xfv; tauto.
  - apply step_xfc; assumption.
  - apply (step_x st own iv aux chunk W Back); assumption.
  - apply (step_xbuf st own iv aux chunk W Back); assumption.
  - apply step_xbv; tauto.
  - apply step_xbc; assumption.
  - apply step_slice; tauto.
  - (* memcpy_to(buf, n) is memcpy_to(&view, n) for the one-element view {buf, n}; likewise memcpy_from and pipe_to *)
    apply (step_mtov st own iv aux chunk W [n] n); [repeat constructor|]; assumption.
  - apply (step_mfromv st own iv aux chunk W [n] n); [apply HI; exact I | repeat constructor|]; assumption.
  - apply step_mtov; tauto.
  - apply step_mfromv; tauto.
  - apply (step_ptov st own iv aux chunk W [n] n); [repeat constructor|]; assumption.
  - apply step_ptov; tauto.
  - apply step_pfromv; tauto.
  - apply step_pushb; assumption.
  - apply step_pushf; assumption.
  - apply (step_pusha st own iv aux chunk W Back); assumption.
  - apply (step_pusha st own iv aux chunk W Front); assumption.
  - apply step_popf; assumption.
  - apply step_popb; assumption.
  - apply step_clear; assumption.
  - apply step_xfo; tauto.
  - apply step_xbo; tauto.
Qed.

(* every operation list, all 29 operations *)
Theorem ops_refine_flat : forall ops m, wf_machine m -> Forall args_ok ops ->
  exists m' obs, run m ops = Some (m', obs) /\ wf_machine m' /\ refines m ops obs m'.
Proof.
  induction ops as [|o ops IH]; intros m W A.
  - exists m, []. repeat split; auto; try apply W. constructor.
  - inversion A as [|? ? Ao Ar]; subst.
    destruct (step_ok_gen m o (proj1 W) (fun _ => proj2 W) Ao) as (m1 & ob & E & OW & [W1 I1] & FS).
    destruct (IH m1 (conj W1 (I1 (proj2 W))) Ar) as (m2 & obs & R & W2 & RF).
    exists m2, (ob :: obs). simpl. rewrite E, R. split; [reflexivity|]. split; [exact W2|]. econstructor; eauto.
Qed.
(* every list of operations that do not write into the vector (everything except memcpy_from / pipe_from):
   no side condition on how the elements are laid out in memory *)
Theorem ops_refine_flat_reads : forall ops m, wf_view (m_st m) (live (m_iv m)) -> Forall args_ok ops ->
  Forall (fun o => ~ writes_vector o) ops ->
  exists m' obs, run m ops = Some (m', obs) /\ wf_view (m_st m') (live (m_iv m')) /\ refines m ops obs m'.
Proof.
  induction ops as [|o ops IH]; intros m W A NW.
  - exists m, []. repeat split; auto. constructor.
  - inversion A as [|? ? Ao Ar]; inversion NW as [|? ? No Nr]; subst.
    destruct (step_ok_gen m o W (fun w => False_ind _ (No w)) Ao) as (m1 & ob & E & OW & [W1 _] & FS).
    destruct (IH m1 W1 Ar Nr) as (m2 & obs & R & W2 & RF).
    exists m2, (ob :: obs). simpl. rewrite E, R. split; [reflexivity|]. split; [exact W2|]. econstructor; eauto.
Qed.

(* F2: with the fixed iov_iterator constructor, memcpy_to(buf, n) / pipe_to(&view, n) on a vector with no elements
   return 0 and touch nothing *)
Example fixed_ctor_empty :
  step (init_machine false 0 0 1 []) (OMTo 3) <> None /\ step (init_machine false 0 0 1 []) (OPToV [] 3) <> None /\
  step (init_machine true 8 2 64 []) (OMFromV [] 3) <> None.
Proof. repeat split; vm_compute; discriminate. Qed.

(* F36: extract_front/back(bytes, iovector ptr) into a destination with fewer free slots than the source has elements:
   with the capacity guard the wrappers return -1 and touch nothing *)
Example fixed_extract_into :
  (match step (init_machine true 8 0 64 [2; 2; 2]) (OXFO 6 2 0) with Some (m1, ob) => o_ret ob = -1 /\ live (m_iv m1) = live (m_iv (init_machine true 8 0 64 [2; 2; 2])) | None => False end) /\
  (match step (init_machine true 8 0 64 [2; 2; 2]) (OXBO 6 2 0) with Some (m1, ob) => o_ret ob = -1 | None => False end).
Proof. split; vm_compute; auto. Qed.

(* a non-trivial machine meeting the hypotheses of the theorems: 3 elements, one of length 0 *)
Example wf_machine_example : wf_machine (init_machine true 8 2 64 [2; 0; 3]) /\ wf_machine (init_machine false 0 0 1 [2; 0; 3]).
Proof.
  split.
  - set (m := init_machine true 8 2 64 [2; 0; 3]). vm_compute in m. subst m. unfold wf_machine; simpl m_st; simpl live. split.
    + repeat constructor; (eexists; split; [reflexivity|]; unfold zlen; simpl; lia).
    + unfold ids_ok; simpl. repeat constructor; simpl; intuition discriminate.
  - set (m := init_machine false 0 0 1 [2; 0; 3]). vm_compute in m. subst m. unfold wf_machine; simpl m_st; simpl live. split.
    + repeat constructor; (eexists; split; [reflexivity|]; unfold zlen; simpl; lia).
    + unfold ids_ok; simpl. repeat constructor; simpl; intuition discriminate.
Qed.
Example ops_example :
  Forall args_ok [OTrunc 9; OXFC 4; OPushFA 3; OXFO 2 8 1; OXF 1; OXFV 3 4; OPushB 2; OXBV 2 0; OMFromV [1; 0; 2] 3; OSlice 2 1 0; OPToV [2; 2] 9; OShrink 1; OPopF; OSum].
Proof. repeat constructor; simpl; lia. Qed.
(* hypotheses of ops_refine_flat_reads: elements that overlap, repeat and share one buffer are fine *)
Example reads_example :
  wf_view [[1; 2; 3]] [mkiov 0 0 2; mkiov 0 1 2; mkiov 0 0 0; mkiov 0 0 3; mkiov 0 1 2] /\
  Forall (fun o => ~ writes_vector o) [OXF 1; OMToV [2; 1] 4; OSlice 2 1 3; OXBB 5; OPToV [0; 9] 7; OTrunc 20].
Proof.
  split; [repeat constructor; (eexists; split; [reflexivity|]; unfold zlen; simpl; lia)|].
  repeat constructor; simpl; auto.
Qed.
