From Coq Require Import ZArith List.
From PV Require Import C14.C14_Model C14.C14_Lib C14.C14_Proofs C14.C14_Copy C14.C14_Alloc C14.C14_Seq.
Theorem c14_ops_refine_flat : forall ops m, wf_machine m -> Forall args_ok ops -> exists m' obs, run m ops = Some (m', obs) /\ wf_machine m' /\ refines m ops obs m'. Proof. exact ops_refine_flat. Qed.
Print Assumptions c14_ops_refine_flat.
Theorem c14_ops_refine_flat_reads : forall ops m, wf_view (m_st m) (live (m_iv m)) -> Forall args_ok ops -> Forall (fun o => ~ writes_vector o) ops -> exists m' obs, run m ops = Some (m', obs) /\ wf_view (m_st m') (live (m_iv m')) /\ refines m ops obs m'. Proof. exact ops_refine_flat_reads. Qed.
Print Assumptions c14_ops_refine_flat_reads.
Theorem c14_step_refines_gen : forall m o, wf_view (m_st m) (live (m_iv m)) -> (writes_vector o -> ids_ok (live (m_iv m))) -> args_ok o -> exists m1 ob, step m o = Some (m1, ob) /\ (wf_view (m_st m1) (live (m_iv m1)) /\ (ids_ok (live (m_iv m)) -> ids_ok (live (m_iv m1)))) /\ flat_spec o (m_own m) (mflat m) (mflat m1) (auxflat m1) (dstflat m1 ob) ob. Proof. intros m o W HI A. destruct (step_ok_gen m o W HI A) as (m1 & ob & E & _ & G). exists m1, ob. split; [exact E | exact G]. Qed.
Print Assumptions c14_step_refines_gen.
Theorem c14_step_refines : forall m o, wf_machine m -> args_ok o -> exists m1 ob, step m o = Some (m1, ob) /\ wf_machine m1 /\ flat_spec o (m_own m) (mflat m) (mflat m1) (auxflat m1) (dstflat m1 ob) ob. Proof. intros m o [W I] A. destruct (c14_step_refines_gen m o W (fun _ => I) A) as (m1 & ob & E & [W1 I1] & FS). exists m1, ob. split; [exact E|]. split; [split; auto | exact FS]. Qed.
Print Assumptions c14_step_refines.
Theorem c14_sum_refines : forall st v, wf_view st v -> v_sum v = zlen (flatT st v). Proof. intros st v W. symmetry. apply zlen_flatT. exact W. Qed.
Print Assumptions c14_sum_refines.
Theorem c14_shrink_to_refines : forall st v size v' r, wf_view st v -> (0 <= size)%Z -> v_shrink_to v size = (v', r) -> r = Z.min size (v_sum v) /\ flatT st v' = firstn (Z.to_nat r) (flatT st v) /\ wf_view st v' /\ (r = size \/ v' = v). Proof. intros st v size v' r W A E. destruct (v_shrink_to_refines st v size v' r W A E) as (? & ? & ? & ? & _). auto. Qed.
Print Assumptions c14_shrink_to_refines.
Theorem c14_extract_front_refines : forall st v bytes, wf_view st v -> (0 <= bytes)%Z -> exists v' rem, do_extract_front cb_discard v bytes tt = XDone v' rem tt /\ (bytes - rem = Z.min bytes (v_sum v))%Z /\ flatT st v' = skipn (Z.to_nat (bytes - rem)) (flatT st v) /\ wf_view st v' /\ (zlen v' <= zlen v)%Z. Proof. intros st v bytes W A. destruct (x_discard_refines Front st v bytes W A) as (v' & rem & ? & ? & ? & ? & ? & _). exists v', rem. auto. Qed.
Print Assumptions c14_extract_front_refines.
Theorem c14_extract_back_refines : forall st v bytes, wf_view st v -> (0 <= bytes)%Z -> exists v' rem, do_extract_back cb_discard v bytes tt = XDone v' rem tt /\ (bytes - rem = Z.min bytes (v_sum v))%Z /\ flatT st v' = firstn (Z.to_nat (v_sum v - (bytes - rem))) (flatT st v) /\ wf_view st v' /\ (zlen v' <= zlen v)%Z. Proof. intros st v bytes W A. destruct (x_discard_refines Back st v bytes W A) as (v' & rem & ? & ? & ? & ? & ? & _). exists v', rem. auto. Qed.
Print Assumptions c14_extract_back_refines.
Theorem c14_extract_front_view_refines : forall st v bytes N, wf_view st v -> (0 <= bytes)%Z -> match do_extract_front (cb_view_front N) v bytes nil with | XOob => False | XDone v' rem a => (bytes - rem = Z.min bytes (v_sum v))%Z /\ flatT st a = firstn (Z.to_nat (bytes - rem)) (flatT st v) /\ flatT st v' = skipn (Z.to_nat (bytes - rem)) (flatT st v) /\ wf_view st v' /\ wf_view st a /\ (zlen v' <= zlen v)%Z | XNeg v' a => flatT st a ++ flatT st v' = flatT st v /\ wf_view st v' /\ wf_view st a /\ (zlen v' <= zlen v)%Z end. Proof. intros st v bytes N W A. pose proof (x_view_refines Front st v bytes N W A) as G. simpl in G. destruct (do_extract_front (cb_view_front N) v bytes nil); [exact G | destruct G as (? & ? & ? & ? & _); auto | destruct G as (? & ? & ? & ? & ? & ? & _); auto 7]. Qed.
Print Assumptions c14_extract_front_view_refines.
Theorem c14_extract_back_view_refines : forall st v bytes N, wf_view st v -> (0 <= bytes)%Z -> match do_extract_back (cb_view_back N) v bytes nil with | XOob => False | XDone v' rem a => (bytes - rem = Z.min bytes (v_sum v))%Z /\ flatT st a = skipn (Z.to_nat (v_sum v - (bytes - rem))) (flatT st v) /\ flatT st v' = firstn (Z.to_nat (v_sum v - (bytes - rem))) (flatT st v) /\ wf_view st v' /\ wf_view st a /\ (zlen v' <= zlen v)%Z | XNeg v' a => flatT st v' ++ flatT st a = flatT st v /\ wf_view st v' /\ wf_view st a /\ (zlen v' <= zlen v)%Z end. Proof. intros st v bytes N W A. pose proof (x_view_refines Back st v bytes N W A) as G. simpl in G. destruct (do_extract_back (cb_view_back N) v bytes nil); [exact G | destruct G as (? & ? & ? & ? & _); auto | destruct G as (? & ? & ? & ? & ? & ? & _); auto 7]. Qed.
Print Assumptions c14_extract_back_view_refines.
Theorem c14_extract_front_copy_refines : forall st v n, wf_view st v -> (0 <= n)%Z -> let d := zlen st in let pat := pattern d n in let st1 := st ++ (pat :: nil) in exists v' rem st2 pos, do_extract_front (cb_copy_front d) v n (st1, 0%Z) = XDone v' rem (st2, pos) /\ (n - rem = Z.min n (v_sum v))%Z /\ flatT st2 v' = skipn (Z.to_nat (n - rem)) (flatT st v) /\ wf_view st2 v' /\ get_buf st2 d = Some (firstn (Z.to_nat (n - rem)) (flatT st v) ++ skipn (Z.to_nat (n - rem)) pat) /\ (zlen v' <= zlen v)%Z /\ agree_except d st2 st1. Proof. intros st v n W A d pat st1. destruct (x_copy_refines Front st v n W A) as (v' & rem & st2 & pos & ? & ? & ? & ? & ? & ? & ? & _). exists v', rem, st2, pos. auto 8. Qed.
Print Assumptions c14_extract_front_copy_refines.
Theorem c14_extract_back_copy_refines : forall st v n, wf_view st v -> (0 <= n)%Z -> let d := zlen st in let pat := pattern d n in let st1 := st ++ (pat :: nil) in exists v' rem st2 pos, do_extract_back (cb_copy_back d) v n (st1, n) = XDone v' rem (st2, pos) /\ (n - rem = Z.min n (v_sum v))%Z /\ flatT st2 v' = firstn (Z.to_nat (v_sum v - (n - rem))) (flatT st v) /\ wf_view st2 v' /\ get_buf st2 d = Some (firstn (Z.to_nat rem) pat ++ skipn (Z.to_nat (v_sum v - (n - rem))) (flatT st v)) /\ (zlen v' <= zlen v)%Z /\ agree_except d st2 st1. Proof. intros st v n W A d pat st1. destruct (x_copy_refines Back st v n W A) as (v' & rem & st2 & pos & ? & ? & ? & ? & G & ? & ? & _). simpl in G. rewrite Z.sub_sub_distr, Z.sub_diag in G. exists v', rem, st2, pos. auto 8. Qed.
Print Assumptions c14_extract_back_copy_refines.
Theorem c14_slice_refines : forall st v count offset N, wf_view st v -> (0 <= count)%Z -> (0 <= offset)%Z -> let want := firstn (Z.to_nat count) (skipn (Z.to_nat offset) (flatT st v)) in match v_slice v count offset N with | (r, None) => N = 0%Z /\ r = (-1)%Z | (r, Some a) => N <> 0%Z /\ wf_view st a /\ r = zlen (flatT st a) /\ flatT st a = firstn (Z.to_nat r) want /\ ((zlen v <= N)%Z -> flatT st a = want) end. Proof. exact v_slice_refines. Qed.
Print Assumptions c14_slice_refines.
Theorem c14_memcpy_iov_refines : forall st d s size, wf_view st d -> wf_view st s -> ForallOrdPairs disj d -> all_disj d s -> (0 <= size)%Z -> exists st' k, v_memcpy_iov st d s size = Some (st', k) /\ k = Z.min size (Z.min (v_sum d) (v_sum s)) /\ flatT st' d = firstn (Z.to_nat k) (flatT st s) ++ skipn (Z.to_nat k) (flatT st d) /\ (forall e, wf_elem st e -> Forall (disj e) d -> bytesT st' e = bytesT st e) /\ (forall e, wf_elem st e -> wf_elem st' e) /\ zlen st' = zlen st. Proof. intros st d s size Wd Ws PD AD A. destruct (v_memcpy_iov_copied st d s size Wd Ws PD AD A) as (st' & s' & size' & ? & ? & ? & ? & ? & ? & _). exists st', (size - size')%Z. auto 6. Qed.
Print Assumptions c14_memcpy_iov_refines.
Theorem c14_pipe_iov_refines : forall st d s size, wf_view st d -> wf_view st s -> ForallOrdPairs disj d -> all_disj d s -> (0 <= size)%Z -> exists st' s' k, v_pipe_iov st d s size = Some (st', s', k) /\ k = Z.min size (Z.min (v_sum d) (v_sum s)) /\ flatT st' d = firstn (Z.to_nat k) (flatT st s) ++ skipn (Z.to_nat k) (flatT st d) /\ (forall e, wf_elem st e -> Forall (disj e) d -> bytesT st' e = bytesT st e) /\ (forall e, wf_elem st e -> wf_elem st' e) /\ zlen st' = zlen st /\ flatT st' s' = skipn (Z.to_nat k) (flatT st s) /\ wf_view st' s' /\ Forall (fun x => exists y, In y s /\ within x y) s'. Proof. intros st d s size Wd Ws PD AD A. destruct (v_pipe_iov_copied st d s size Wd Ws PD AD A) as (st' & s' & size' & ? & ? & ? & ? & ? & ? & ? & ? & ? & _). exists st', s', (size - size')%Z. auto 10. Qed.
Print Assumptions c14_pipe_iov_refines.
Theorem c14_push_back_alloc_refines : forall chunk st iv bytes, wf_view st (live iv) -> (0 <= bytes)%Z -> exists st' iv' k, o_push_back_alloc chunk st iv bytes = Some (st', iv', k) /\ (0 <= k <= bytes)%Z /\ ext_back st (live iv) st' (live iv') k. Proof. exact (o_push_alloc_spec Back). Qed.
Print Assumptions c14_push_back_alloc_refines.
Theorem c14_push_front_alloc_refines : forall chunk st iv bytes, wf_view st (live iv) -> (0 <= bytes)%Z -> exists st' iv' k, o_push_front_alloc chunk st iv bytes = Some (st', iv', k) /\ (0 <= k <= bytes)%Z /\ ext_front st (live iv) st' (live iv') k. Proof. exact (o_push_alloc_spec Front). Qed.
Print Assumptions c14_push_front_alloc_refines.
Theorem c14_shrink_less_than_refines : forall st v size v' r, wf_view st v -> (0 <= size)%Z -> v_shrink_less_than v size = (v', r) -> wf_view st v' /\ (exists post, v = v' ++ post) /\ (size = 0%Z -> v' = nil /\ r = match v with nil => 0%Z | e :: _ => iv_len e end) /\ ((0 < size)%Z -> (size <= v_sum v)%Z -> v_sum v' = (size + r)%Z /\ (0 <= r)%Z /\ (v_sum (removelast v') < size)%Z) /\ ((v_sum v < size)%Z -> v' = v /\ r = 0%Z). Proof. exact v_shrink_less_than_refines. Qed.
Print Assumptions c14_shrink_less_than_refines.
Theorem c14_extract_front_continuous_refines : forall st v n v' p, wf_view st v -> (0 <= n)%Z -> v_xfc v n = (v', p) -> match p with | None => v' = v | Some (pid, poff) => (n <= v_sum v)%Z /\ wf_elem st (mkiov pid poff n) /\ bytesT st (mkiov pid poff n) = firstn (Z.to_nat n) (flatT st v) /\ flatT st v' = skipn (Z.to_nat n) (flatT st v) /\ wf_view st v' /\ (zlen v' <= zlen v)%Z /\ exists pre, map iv_id v = pre ++ map iv_id v' end. Proof. exact (v_xc_refines Front). Qed.
Print Assumptions c14_extract_front_continuous_refines.
Theorem c14_extract_back_continuous_refines : forall st v n v' p, wf_view st v -> (0 <= n)%Z -> v_xbc v n = (v', p) -> match p with | None => v' = v | Some (pid, poff) => (n <= v_sum v)%Z /\ wf_elem st (mkiov pid poff n) /\ bytesT st (mkiov pid poff n) = skipn (Z.to_nat (v_sum v - n)) (flatT st v) /\ flatT st v' = firstn (Z.to_nat (v_sum v - n)) (flatT st v) /\ wf_view st v' /\ (zlen v' <= zlen v)%Z /\ exists post, map iv_id v = map iv_id v' ++ post end. Proof. exact (v_xc_refines Back). Qed.
Print Assumptions c14_extract_back_continuous_refines.
Theorem c14_extract_view_enough_slots : forall N v bytes, (zlen v <= N)%Z -> (match do_extract_front (cb_view_front N) v bytes nil with XNeg _ _ => False | _ => True end) /\ (match do_extract_back (cb_view_back N) v bytes nil with XNeg _ _ => False | _ => True end). Proof. exact extract_view_enough_slots. Qed.
Print Assumptions c14_extract_view_enough_slots.
(* F2: with the unfixed iov_iterator constructor, memcpy_to(buf, n) / pipe_to(&view, n) on a vector with no elements
   reads iov[0] out of bounds *)
Theorem c14_no_oob_prefix_refuted : exists (st : store) (v : view) (n : Z), wf_view st v /\ (0 <= n)%Z /\ old_memcpy_to st v n = None /\ old_pipe_to_view st v nil n = None. Proof. exists nil, nil, 1%Z. repeat split; try constructor; discriminate. Qed.
Print Assumptions c14_no_oob_prefix_refuted.
(* F36: extract_front/back(bytes, iovector ptr) without the capacity guard, into a destination vector with fewer free
   slots than the source has elements: the out slots leave iovs[capacity] *)
Theorem c14_no_oob_extract_into_refuted : exists (st : store) (v : view) (n cap2 rf2 : Z), wf_view st v /\ (0 <= n)%Z /\ (0 <= rf2 <= cap2)%Z /\ old_extract_front_into v n cap2 rf2 = None /\ old_extract_back_into v n cap2 rf2 = None. Proof.
  exists ((1 :: 2 :: nil) :: (3 :: 4 :: nil) :: (5 :: 6 :: nil) :: nil)%Z, (mkiov 0 0 2 :: mkiov 1 0 2 :: mkiov 2 0 2 :: nil), 6%Z, 2%Z, 0%Z.
  split; [repeat constructor; (eexists; split; [reflexivity|]; split; [discriminate|]; split; [discriminate|]; discriminate)|].
  repeat split; try discriminate; vm_compute; reflexivity.
Qed.
Print Assumptions c14_no_oob_extract_into_refuted.
