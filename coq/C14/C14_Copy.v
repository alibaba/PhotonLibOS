(* C14 — _copy_pipe_iov (memcpy_iov / pipe_iov): the copy loop equals the flat-string copy. *)
From Coq Require Import ZArith List Lia.
From PV Require Import C14.C14_Model C14.C14_Lib C14.C14_Proofs.
Import ListNotations.
Local Open Scope Z_scope.

Definition within (e' e : iovec) : Prop :=
  iv_id e' = iv_id e /\ iv_off e <= iv_off e' /\ iv_off e' + iv_len e' <= iv_off e + iv_len e /\ 0 <= iv_len e'.
Definition all_disj (dv sv : view) : Prop := Forall (fun d => Forall (disj d) sv) dv.

Lemma disj_sym a b : disj a b -> disj b a.
Proof. unfold disj; lia. Qed.
Lemma disj_within a a' b : disj a b -> within a' a -> disj a' b.
Proof. unfold disj, within; lia. Qed.

(* v' is made of pieces of elements of v; what is disjoint from v is disjoint from v' *)
Definition subv (v' v : view) : Prop := Forall (fun x => exists y, In y v /\ within x y) v'.
Lemma subv_refl st v : wf_view st v -> subv v v.
Proof.
  intros W. apply Forall_forall. intros x Hx. exists x. split; [exact Hx|].
  pose proof (wf_len_nonneg st x (proj1 (Forall_forall _ _) W x Hx)). unfold within; lia.
Qed.
Lemma subv_trans a b c : subv a b -> subv b c -> subv a c.
Proof.
  intros Sa Sb. eapply Forall_impl; [|exact Sa]. intros x (y & Hy & Wx).
  destruct (proj1 (Forall_forall _ _) Sb y Hy) as (z & Hz & Wy). exists z. split; [exact Hz|]. unfold within in *; lia.
Qed.
Lemma subv_disj x v v' : Forall (disj x) v -> subv v' v -> Forall (disj x) v'.
Proof.
  intros D S. eapply Forall_impl; [|exact S]. intros a (y & Hy & Wa).
  apply disj_sym. eapply disj_within; [|exact Wa]. apply disj_sym. exact (proj1 (Forall_forall _ _) D y Hy).
Qed.
Lemma all_disj_subv a a' b b' : all_disj a b -> subv a' a -> subv b' b -> all_disj a' b'.
Proof.
  intros D Sa Sb. eapply Forall_impl; [|exact Sa]. intros x (y & Hy & Wx).
  eapply Forall_impl; [|exact (subv_disj y b b' (proj1 (Forall_forall _ _) D y Hy) Sb)].
  intros z Dz. eapply disj_within; eauto.
Qed.

Lemma frame_view st st' (dv v : view) :
  (forall e, wf_elem st e -> Forall (disj e) dv -> bytesT st' e = bytesT st e) ->
  wf_view st v -> all_disj v dv -> flatT st' v = flatT st v.
Proof.
  intros FR W AD. induction W as [|e v He Hv IH]; [reflexivity|]. inversion AD; subst.
  rewrite !flatT_cons, IH by assumption. f_equal. apply FR; assumption.
Qed.

(* ex_adv takes the first n bytes of the first element off the flat string *)
Lemma ex_adv_spec st e r n : wf_view st (e :: r) -> 0 <= n <= iv_len e ->
  wf_view st (ex_adv (e :: r) n) /\
  flatT st (e :: r) = bytesT st (mkiov (iv_id e) (iv_off e) n) ++ flatT st (ex_adv (e :: r) n) /\
  v_sum (ex_adv (e :: r) n) = v_sum (e :: r) - n /\ subv (ex_adv (e :: r) n) (e :: r).
Proof.
  intros W Hn. pose proof (subv_refl st _ W) as SR. apply wf_view_cons in W. destruct W as [We Wr].
  inversion SR as [|? ? _ SRr]; subst.
  pose proof (bytesT_split st e n (iv_len e - n) _ We ltac:(lia) ltac:(lia) ltac:(lia) eq_refl) as Sp.
  simpl ex_adv. rewrite flatT_cons, v_sum_cons, Sp, <- app_assoc. destruct (n <? iv_len e) eqn:C.
  - split; [constructor; [apply wf_drop|]; auto|]. split; [reflexivity|]. split; [rewrite v_sum_cons; simpl; lia|].
    constructor; [exists e; split; [left; reflexivity|unfold within; simpl; lia] | exact SRr].
  - apply Z.ltb_ge in C. rewrite (bytesT_zero st (mkiov (iv_id e) (iv_off e + n) (iv_len e - n))) by (simpl; lia). split; [exact Wr|]. split; [reflexivity|]. split; [lia | exact SRr].
Qed.

(* a write of `data` over a well-formed region w *)
Lemma store_region st w data : wf_elem st w -> zlen data = iv_len w ->
  exists st1, store_bytes st (iv_id w) (iv_off w) data = Some st1 /\ bytesT st1 w = data /\
    (forall e, wf_elem st e -> wf_elem st1 e) /\ zlen st1 = zlen st /\
    (forall e, wf_elem st e -> Forall (disj e) [w] -> bytesT st1 e = bytesT st e).
Proof.
  intros (b & Hb & H1 & H2 & H3) Hl.
  destruct (store_bytes st (iv_id w) (iv_off w) data) as [st1|] eqn:SB.
  - exists st1. split; [reflexivity|]. destruct (store_bytes_get _ _ _ _ _ SB) as (b0 & Hb0 & Ho & Hd & Hn & Hoth & Hz).
    rewrite Hb in Hb0; inversion Hb0; subst b0. split.
    + unfold bytesT. rewrite Hn, <- Hl. apply sub_splice_same; lia.
    + split; [intros e We; eapply store_bytes_wf_elem; eauto|]. split; [exact Hz|].
      intros e We D. eapply store_bytes_frame; eauto. exact (Forall_inv D).
  - unfold store_bytes in SB. rewrite Hb, in_range_true in SB by lia. discriminate.
Qed.

(* the destination iterator seen as the view of what it still has to fill *)
Definition absD (d : iter) : view := match d with None => [] | Some (x, r) => x :: r end.
Lemma it_front_abs d : it_front d = ex_front (absD d).
Proof. destruct d as [[x r]|]; reflexivity. Qed.
Lemma it_adv_abs d n : absD (it_adv d n) = ex_adv (absD d) n.
Proof. destruct d as [[x r]|]; simpl; [|reflexivity]. destruct (n <? iv_len x); [reflexivity|]. destruct r; reflexivity. Qed.
Lemma absD_ctor v : absD (it_ctor v) = v.
Proof. destruct v; reflexivity. Qed.

Lemma ex_adv_ids v n : exists pre, map iv_id v = pre ++ map iv_id (ex_adv v n).
Proof. destruct v as [|x r]; [exists []; reflexivity|]. simpl. destruct (n <? iv_len x); [exists []; reflexivity | exists [iv_id x]; reflexivity]. Qed.

(* what a copy of at most `size` bytes from S into D has done when it ends in store st' with S' left of
   the source and size' of the count *)
Definition copied (st : store) (D S : view) (size : Z) (st' : store) (S' : view) (size' : Z) : Prop :=
  size - size' = Z.min size (Z.min (v_sum D) (v_sum S)) /\
  flatT st' D = firstn (Z.to_nat (size - size')) (flatT st S) ++ skipn (Z.to_nat (size - size')) (flatT st D) /\
  (forall e, wf_elem st e -> Forall (disj e) D -> bytesT st' e = bytesT st e) /\
  (forall e, wf_elem st e -> wf_elem st' e) /\ zlen st' = zlen st /\
  flatT st' S' = skipn (Z.to_nat (size - size')) (flatT st S) /\ wf_view st' S' /\ subv S' S /\
  exists pre, map iv_id S = pre ++ map iv_id S'.

Lemma copied_none st D S size : wf_view st S -> 0 = Z.min size (Z.min (v_sum D) (v_sum S)) -> copied st D S size st S size.
Proof. intros W M. unfold copied. rewrite Z.sub_diag. repeat split; auto; [eapply subv_refl; eauto | exists []; reflexivity]. Qed.

(* one iteration: n bytes go from the front of the source to the front of the destination; the written
   region w is a piece of the first destination element, so whatever is still to be read or written lies
   apart from it, and a copy that goes on from there completes the whole *)
Lemma copied_step st df dr sf sr size :
  wf_view st (df :: dr) -> wf_view st (sf :: sr) -> ForallOrdPairs disj (df :: dr) -> all_disj (df :: dr) (sf :: sr) ->
  0 <= size -> let n := Z.min size (Z.min (iv_len df) (iv_len sf)) in
  let D1 := ex_adv (df :: dr) n in let S1 := ex_adv (sf :: sr) n in
  exists st1, memcpy st (iv_id df) (iv_off df) (iv_id sf) (iv_off sf) n = Some st1 /\
    wf_view st1 D1 /\ wf_view st1 S1 /\ ForallOrdPairs disj D1 /\ all_disj D1 S1 /\
    forall st' S' size', copied st1 D1 S1 (size - n) st' S' size' -> copied st (df :: dr) (sf :: sr) size st' S' size'.
Proof.
  intros Wd Ws PD AD Hs n D1 S1.
  destruct (proj1 (wf_view_cons _ _ _) Wd) as [Wdf Wdr]. destruct (proj1 (wf_view_cons _ _ _) Ws) as [Wsf Wsr].
  pose proof (wf_len_nonneg _ _ Wdf) as Ldf. pose proof (wf_len_nonneg _ _ Wsf) as Lsf.
  pose proof (v_sum_nonneg st _ Wdr) as Hsdr. pose proof (v_sum_nonneg st _ Wsr) as Hssr.
  assert (Hn : 0 <= n <= iv_len df /\ n <= iv_len sf /\ n <= size) by (unfold n; lia).
  destruct (ex_adv_spec st df dr n Wd ltac:(lia)) as (Wd1 & Fd1 & Sd1 & SD).
  destruct (ex_adv_spec st sf sr n Ws ltac:(lia)) as (Ws1 & Fs1 & Ss1 & SS). fold D1 in Wd1, Fd1, Sd1, SD. fold S1 in Ws1, Fs1, Ss1, SS.
  inversion PD as [|? ? PDf PDr]; subst. inversion AD as [|? ? ADf ADr]; subst.
  set (w := mkiov (iv_id df) (iv_off df) n).
  assert (Ww : wf_elem st w) by (apply wf_take; auto; lia).
  assert (Win : within w df) by (unfold within, w; simpl; lia).
  pose proof (load_wf st (mkiov (iv_id sf) (iv_off sf) n) (wf_take st sf n Wsf ltac:(lia))) as Ld. simpl in Ld.
  pose proof (zlen_bytesT st _ (wf_take st sf n Wsf ltac:(lia))) as Ldata. simpl in Ldata.
  destruct (store_region st w _ Ww Ldata) as (st1 & SB & Bw & WF1 & Z1 & FR1). simpl in SB.
  exists st1. split; [unfold memcpy; rewrite Ld; exact SB|].
  (* what is left of both views lies apart from w *)
  assert (DW1 : all_disj D1 [w]).
  { assert (Tl : all_disj dr [w]).
    { eapply Forall_impl; [|exact PDf]. intros x Dx. constructor; [|constructor].
      apply disj_sym. eapply disj_within; eauto. }
    unfold D1; simpl. destruct (n <? iv_len df) eqn:C; [|exact Tl].
    constructor; [|exact Tl]. constructor; [|constructor]. unfold disj, w; simpl. apply Z.ltb_lt in C. lia. }
  assert (DW2 : all_disj S1 [w]).
  { eapply Forall_impl; [|exact SS]. intros x (y & Hy & Wx). constructor; [|constructor].
    eapply disj_within; [|exact Wx]. apply disj_sym. eapply disj_within; [|exact Win].
    exact (proj1 (Forall_forall _ _) ADf y Hy). }
  pose proof (frame_view st st1 [w] D1 FR1 Wd1 DW1) as FLd. pose proof (frame_view st st1 [w] S1 FR1 Ws1 DW2) as FLs.
  split; [eapply Forall_impl; [|exact Wd1]; auto|]. split; [eapply Forall_impl; [|exact Ws1]; auto|].
  split.
  { unfold D1; simpl. destruct (n <? iv_len df); [|exact PDr]. constructor; [|exact PDr].
    eapply Forall_impl; [|exact PDf]. intros a Da. eapply disj_within; [exact Da|]. unfold within; simpl; lia. }
  split; [exact (all_disj_subv _ _ _ _ AD SD SS)|].
  intros st' S' size' (K & FD & FR & WF & ZL & FS & WS & SV & pre & IP).
  set (k1 := size - n - size') in *.
  assert (KK : size - size' = n + k1 /\ 0 <= k1 /\ n + k1 = Z.min size (Z.min (v_sum (df :: dr)) (v_sum (sf :: sr)))).
  { rewrite Sd1, Ss1 in K. rewrite !v_sum_cons in *. clearbody n. clear - K Hn Hsdr Hssr Ldf Lsf. unfold k1 in *. lia. }
  destruct KK as (KK & Hk1 & KM). unfold copied. rewrite KK.
  rewrite FLs in FD, FS. rewrite FLd in FD. rewrite Fs1, Fd1.
  destruct (cut_past _ (flatT st S1) n k1 Ldata Hk1) as [CF CS]. rewrite CF, CS.
  split; [exact KM|]. split.
  { assert (Wd' : wf_view st' (df :: dr)) by (eapply Forall_impl; [|exact Wd]; auto).
    destruct (ex_adv_spec st' df dr n Wd' ltac:(lia)) as (_ & SPL & _). fold D1 w in SPL.
    rewrite SPL, FD, FR, Bw, <- app_assoc; [|apply WF1; exact Ww|].
    - do 2 f_equal. symmetry. apply (cut_past _ _ n k1 (zlen_bytesT _ _ Ww) Hk1).
    - eapply Forall_impl; [|exact DW1]. intros a Da. apply disj_sym. exact (Forall_inv Da). }
  split.
  { intros e We De. rewrite FR; [apply FR1; [exact We|]|apply WF1; exact We|exact (subv_disj _ _ _ De SD)].
    constructor; [|constructor]. apply disj_sym. eapply disj_within; [|exact Win]. apply disj_sym. exact (Forall_inv De). }
  split; [intros e We; apply WF, WF1, We|]. split; [lia|].
  split; [exact FS|]. split; [exact WS|]. split; [exact (subv_trans _ _ _ SV SS)|].
  destruct (ex_adv_ids (sf :: sr) n) as [pre0 P0]. exists (pre0 ++ pre). rewrite P0, <- app_assoc. f_equal. exact IP.
Qed.

Section CopySpec.
  Context {Src : Type} (s_front : Src -> option iovec) (s_adv : Src -> Z -> Src) (absS : Src -> view).
  Hypothesis front_abs : forall s, s_front s = ex_front (absS s).
  Hypothesis adv_abs : forall s n, absS (s_adv s n) = ex_adv (absS s) n.

  (* every iteration that does not end the loop finishes an element of the destination or of the source *)
  Lemma copy_loop_spec : forall fuel st d s size,
    wf_view st (absD d) -> wf_view st (absS s) -> ForallOrdPairs disj (absD d) -> all_disj (absD d) (absS s) -> 0 <= size ->
    (1 + (if (size =? 0)%Z then 0 else length (absD d) + length (absS s)) <= fuel)%nat ->
    exists st' d' s' size', copy_loop s_front s_adv fuel st d s size = Some (st', d', s', size') /\
      copied st (absD d) (absS s) size st' (absS s') size'.
  Proof.
    induction fuel as [|f IH]; intros st d s size Wd Ws PD AD Hs Hf; [simpl in Hf; lia|].
    pose proof (v_sum_nonneg st _ Wd) as Hsd. pose proof (v_sum_nonneg st _ Ws) as Hss.
    simpl. rewrite it_front_abs, front_abs.
    destruct (size =? 0) eqn:Z0.
    { exists st, d, s, size. split; [reflexivity|]. apply copied_none; [exact Ws|]. apply Z.eqb_eq in Z0. lia. }
    destruct (absD d) as [|df dr] eqn:ED; simpl ex_front.
    { exists st, d, s, size. split; [reflexivity|]. apply copied_none; [exact Ws|]. unfold v_sum at 1; simpl. lia. }
    destruct (absS s) as [|sf sr] eqn:ES; simpl ex_front.
    { exists st, d, s, size. split; [reflexivity|]. rewrite ES. apply copied_none; [exact Ws|]. unfold v_sum at 2; simpl. lia. }
    destruct (copied_step st df dr sf sr size Wd Ws PD AD Hs) as (st1 & M & Wd1 & Ws1 & PD1 & AD1 & Fin).
    rewrite M. set (n := Z.min size (Z.min (iv_len df) (iv_len sf))) in *.
    specialize (IH st1 (it_adv d n) (s_adv s n) (size - n)). rewrite it_adv_abs, adv_abs, ED, ES in IH.
    destruct (IH Wd1 Ws1 PD1 AD1 ltac:(lia)) as (st' & d' & s' & size' & E & C).
    { apply Z.eqb_neq in Z0. destruct (size - n =? 0) eqn:Z2; [simpl in Hf; lia|]. apply Z.eqb_neq in Z2.
      simpl in Hf |- *. destruct (n <? iv_len df) eqn:C1; destruct (n <? iv_len sf) eqn:C2; simpl; lia. }
    exists st', d', s', size'. split; [exact E | apply Fin; exact C].
  Qed.
End CopySpec.

Lemma v_memcpy_iov_copied st d s size :
  wf_view st d -> wf_view st s -> ForallOrdPairs disj d -> all_disj d s -> 0 <= size ->
  exists st' s' size', v_memcpy_iov st d s size = Some (st', size - size') /\ copied st d s size st' s' size'.
Proof.
  intros Wd Ws PD AD Hs. unfold v_memcpy_iov.
  pose proof (copy_loop_spec it_front it_adv absD it_front_abs it_adv_abs (copy_fuel d s) st (it_ctor d) (it_ctor s) size) as G.
  rewrite !absD_ctor in G. destruct (G Wd Ws PD AD Hs) as (st' & d' & s' & size' & E & C).
  { unfold copy_fuel. destruct (size =? 0); lia. }
  rewrite E. exists st', (absD s'), size'. split; [reflexivity | exact C].
Qed.

Lemma v_pipe_iov_copied st d s size :
  wf_view st d -> wf_view st s -> ForallOrdPairs disj d -> all_disj d s -> 0 <= size ->
  exists st' s' size', v_pipe_iov st d s size = Some (st', s', size - size') /\ copied st d s size st' s' size'.
Proof.
  intros Wd Ws PD AD Hs. unfold v_pipe_iov.
  pose proof (copy_loop_spec ex_front ex_adv (fun v : view => v) (fun _ => eq_refl) (fun _ _ => eq_refl) (copy_fuel d s) st (it_ctor d) s size) as G.
  rewrite !absD_ctor in G. destruct (G Wd Ws PD AD Hs) as (st' & d' & s' & size' & E & C).
  { unfold copy_fuel. destruct (size =? 0); lia. }
  rewrite E. exists st', s', size'. split; [reflexivity | exact C].
Qed.
