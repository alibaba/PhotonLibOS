(* C14 — allocation in the owning iovector: do_allocate / new_iovec, and push_back/push_front(bytes) with
   their push_*_more loops.  (truncate and the copying fallback of extract_*_continuous, which call
   them, are cases of the step in C14_Seq.) *)
From Coq Require Import ZArith List Lia.
From PV Require Import C14.C14_Model C14.C14_Lib C14.C14_Proofs.
Import ListNotations.
Local Open Scope Z_scope.

Lemma do_allocate_spec chunk st iv smin smax st' iv' res :
  do_allocate chunk st iv smin smax = (st', iv', res) ->
  cap iv' = cap iv /\ ibeg iv' = ibeg iv /\ live iv' = live iv /\
  match res with
  | None => st' = st
  | Some (id, r) => id = zlen st /\ st' = st ++ [pattern (zlen st) r] /\ smin <= r <= smax
  end.
Proof.
  unfold do_allocate, new_buf. intros H. destruct (cap iv <=? nbases iv); [inversion H; subst; auto|].
  destruct (Z.min smax chunk <? smin) eqn:C; inversion H; subst; simpl; auto.
  apply Z.ltb_ge in C. repeat split; auto; lia.
Qed.

Lemma new_iovec_spec chunk st iv sz st' iv' v : new_iovec chunk st iv sz = (st', iv', v) -> 0 <= sz ->
  cap iv' = cap iv /\ ibeg iv' = ibeg iv /\ live iv' = live iv /\
  ((st' = st /\ iv_len v = 0) \/
   (exists r, 1 <= r <= sz /\ st' = st ++ [pattern (zlen st) r] /\ v = mkiov (zlen st) 0 r)).
Proof.
  unfold new_iovec. intros H Hs.
  destruct (do_allocate chunk st iv 1 (if sz <=? INT_MAX then sz else INT_MAX)) as [[st1 iv1] res] eqn:D.
  destruct (do_allocate_spec _ _ _ _ _ _ _ _ D) as (C1 & C2 & C3 & R).
  destruct res as [[id r]|]; inversion H; subst.
  - destruct R as (-> & -> & Hr). repeat split; auto. right. exists r. repeat split; auto; try lia.
    destruct (sz <=? INT_MAX) eqn:Q; [lia|]. apply Z.leb_gt in Q. lia.
  - repeat split; auto.
Qed.

(* the vector grew at the back / at the front by k fresh bytes *)
Definition ext_back (st : store) (v : view) (st' : store) (v' : view) (k : Z) : Prop :=
  wf_view st' v' /\ (ids_ok v -> ids_ok v') /\ exists X, zlen X = k /\ flatT st' v' = flatT st v ++ X.
Definition ext_front (st : store) (v : view) (st' : store) (v' : view) (k : Z) : Prop :=
  wf_view st' v' /\ (ids_ok v -> ids_ok v') /\ exists X, zlen X = k /\ flatT st' v' = X ++ flatT st v.

Lemma fresh_id_new st v : wf_view st v -> ~ In (zlen st) (map iv_id v).
Proof.
  intros W HI. apply in_map_iff in HI. destruct HI as (y & Ey & Hy).
  pose proof (wf_elem_id_lt _ _ (proj1 (Forall_forall _ _) W y Hy)). lia.
Qed.
Lemma NoDup_snoc {A} (l : list A) x : NoDup l -> ~ In x l -> NoDup (l ++ [x]).
Proof.
  induction 1 as [|y l Hy Hl IH]; intros Hx; simpl; [repeat constructor; auto|].
  constructor; [|apply IH; intros Hi; apply Hx; right; exact Hi].
  intros Hi. apply in_app_or in Hi. destruct Hi as [Hi|[->|[]]]; [exact (Hy Hi) | apply Hx; left; reflexivity].
Qed.

Lemma fresh_back st v r : wf_view st v -> 0 <= r ->
  ext_back st v (st ++ [pattern (zlen st) r]) (v ++ [mkiov (zlen st) 0 r]) r.
Proof.
  intros W Hr. pose proof (wf_new_elem st r Hr) as Wn. split; [|split].
  - apply Forall_app; split; [apply wf_view_app; exact W | constructor; [exact Wn|constructor]].
  - intros I. unfold ids_ok in *. rewrite map_app. apply NoDup_snoc; [exact I | apply fresh_id_new; exact W].
  - eexists; split; [|rewrite flatT_app, (flatT_app_store st _ _ W), flatT_single; reflexivity]. apply (zlen_bytesT _ _ Wn).
Qed.
Lemma fresh_front st v r : wf_view st v -> 0 <= r ->
  ext_front st v (st ++ [pattern (zlen st) r]) (mkiov (zlen st) 0 r :: v) r.
Proof.
  intros W Hr. pose proof (wf_new_elem st r Hr) as Wn. split; [|split].
  - constructor; [exact Wn | apply wf_view_app; exact W].
  - intros I. constructor; [apply fresh_id_new; exact W | exact I].
  - eexists; split; [|rewrite flatT_cons, (flatT_app_store st _ _ W); reflexivity]. apply (zlen_bytesT _ _ Wn).
Qed.
Lemma ext_back_refl st v : wf_view st v -> ext_back st v st v 0.
Proof. intros; split; [|split]; auto. exists []. rewrite app_nil_r. auto. Qed.
Lemma ext_front_refl st v : wf_view st v -> ext_front st v st v 0.
Proof. intros; split; [|split]; auto. exists []. auto. Qed.
Lemma ext_back_trans st v st1 v1 st2 v2 a b : ext_back st v st1 v1 a -> ext_back st1 v1 st2 v2 b -> ext_back st v st2 v2 (a + b).
Proof.
  intros (_ & I1 & X & LX & FX) (W & I & Y & LY & FY). split; [|split]; auto.
  exists (X ++ Y). rewrite zlen_app, FY, FX, app_assoc. split; [lia|reflexivity].
Qed.
Lemma ext_front_trans st v st1 v1 st2 v2 a b : ext_front st v st1 v1 a -> ext_front st1 v1 st2 v2 b -> ext_front st v st2 v2 (a + b).
Proof.
  intros (_ & I1 & X & LX & FX) (W & I & Y & LY & FY). split; [|split]; auto.
  exists (Y ++ X). rewrite zlen_app, FY, FX, app_assoc. split; [lia|reflexivity].
Qed.

(* push_back(bytes) / push_front(bytes) and their push_*_more loops (iovector.h:363-397, iovector.cpp:339-374) are one
   algorithm up to the end of the window that moves: [full] says that end has no slot left, [room] counts the
   slots it has (the fuel), [push] adds one element there, [ext] is the growth of the byte string at that end *)
Section PushLoop.
  Variables (chunk : Z) (full : iovector -> bool) (room : iovector -> nat) (push : iovector -> iovec -> iovector * Z)
            (ext : store -> view -> store -> view -> Z -> Prop)
            (more : nat -> Z -> store -> iovector -> Z -> Z -> option (store * iovector * Z))
            (alloc : Z -> store -> iovector -> Z -> option (store * iovector * Z)).
  Hypothesis more_eq : forall f st iv bytes0 bytes, more (S f) chunk st iv bytes0 bytes =
    if bytes =? 0 then Some (st, iv, bytes0 - bytes) else
    if full iv then Some (st, iv, bytes0 - bytes) else
    let '(st1, iv1, v) := new_iovec chunk st iv bytes in
    if iv_len v =? 0 then Some (st1, iv1, bytes0 - bytes) else
    let '(iv2, _) := push iv1 v in more f chunk st1 iv2 bytes0 (bytes - iv_len v).
  Hypothesis alloc_eq : forall st iv bytes, alloc chunk st iv bytes =
    if full iv then Some (st, iv, 0) else
    let '(st1, iv1, v) := new_iovec chunk st iv bytes in
    if iv_len v =? 0 then Some (st1, iv1, 0) else
    let '(iv2, r) := push iv1 v in
    if r =? bytes then Some (st1, iv2, bytes) else
    match more (S (room iv2)) chunk st1 iv2 (bytes - iv_len v) (bytes - iv_len v) with
    | None => None
    | Some (st3, iv3, r3) => Some (st3, iv3, iv_len v + r3)
    end.
  Hypothesis ext_refl : forall st v, wf_view st v -> ext st v st v 0.
  Hypothesis ext_trans : forall st v st1 v1 st2 v2 a b, ext st v st1 v1 a -> ext st1 v1 st2 v2 b -> ext st v st2 v2 (a + b).
  Hypothesis push_fresh : forall st iv iv1 r, wf_view st (live iv) -> 0 <= r -> full iv = false ->
    cap iv1 = cap iv -> ibeg iv1 = ibeg iv -> live iv1 = live iv ->
    exists iv2, push iv1 (mkiov (zlen st) 0 r) = (iv2, r) /\ (room iv2 < room iv)%nat /\
                wf_view (st ++ [pattern (zlen st) r]) (live iv2) /\ ext st (live iv) (st ++ [pattern (zlen st) r]) (live iv2) r.

  (* new_iovec, then push: nothing was allocated, or one element of 1..bytes fresh bytes was added *)
  Lemma push_new st iv bytes : wf_view st (live iv) -> 0 <= bytes -> full iv = false ->
    let '(st1, iv1, v) := new_iovec chunk st iv bytes in
    (iv_len v = 0 /\ st1 = st /\ live iv1 = live iv) \/
    (exists iv2, 1 <= iv_len v <= bytes /\ push iv1 v = (iv2, iv_len v) /\ (room iv2 < room iv)%nat /\
                 wf_view st1 (live iv2) /\ ext st (live iv) st1 (live iv2) (iv_len v)).
  Proof.
    intros W Hb Fu. destruct (new_iovec chunk st iv bytes) as [[st1 iv1] v] eqn:NI.
    destruct (new_iovec_spec _ _ _ _ _ _ _ NI Hb) as (C1 & C2 & C3 & [[-> Lv]|(r & Hr & -> & ->)]); [left; auto|right].
    destruct (push_fresh st iv iv1 r W ltac:(lia) Fu C1 C2 C3) as (iv2 & G). exists iv2. simpl. auto.
  Qed.

  Lemma more_spec : forall fuel st iv bytes0 bytes, wf_view st (live iv) -> 0 <= bytes -> (room iv < fuel)%nat ->
    exists st' iv' k, more fuel chunk st iv bytes0 bytes = Some (st', iv', bytes0 - bytes + k) /\
      0 <= k <= bytes /\ ext st (live iv) st' (live iv') k.
  Proof.
    induction fuel as [|f IH]; intros st iv bytes0 bytes W Hb Hf; [lia|]. rewrite more_eq.
    destruct (bytes =? 0) eqn:Z0.
    { exists st, iv, 0. rewrite Z.add_0_r. auto using Z.le_refl. }
    destruct (full iv) eqn:Fu.
    { exists st, iv, 0. rewrite Z.add_0_r. auto using Z.le_refl. }
    pose proof (push_new st iv bytes W Hb Fu) as G. destruct (new_iovec chunk st iv bytes) as [[st1 iv1] v].
    destruct G as [(Lv & -> & L)|(iv2 & Hr & P & Rm & W2 & E)].
    - rewrite Lv. simpl. exists st, iv1, 0. rewrite Z.add_0_r, L. auto using Z.le_refl.
    - destruct (iv_len v =? 0) eqn:R0; [apply Z.eqb_eq in R0; lia|]. rewrite P.
      destruct (IH st1 iv2 bytes0 (bytes - iv_len v) W2 ltac:(lia) ltac:(lia)) as (st' & iv' & k & E' & Hk & EB).
      exists st', iv', (iv_len v + k). rewrite E'. split; [do 2 f_equal; lia|]. split; [lia | eapply ext_trans; eauto].
  Qed.

  Lemma alloc_spec st iv bytes : wf_view st (live iv) -> 0 <= bytes ->
    exists st' iv' k, alloc chunk st iv bytes = Some (st', iv', k) /\ 0 <= k <= bytes /\ ext st (live iv) st' (live iv') k.
  Proof.
    intros W Hb. rewrite alloc_eq. destruct (full iv) eqn:Fu.
    { exists st, iv, 0. auto using Z.le_refl. }
    pose proof (push_new st iv bytes W Hb Fu) as G. destruct (new_iovec chunk st iv bytes) as [[st1 iv1] v].
    destruct G as [(Lv & -> & L)|(iv2 & Hr & P & Rm & W2 & E)].
    - rewrite Lv. simpl. exists st, iv1, 0. rewrite L. auto using Z.le_refl.
    - destruct (iv_len v =? 0) eqn:R0; [apply Z.eqb_eq in R0; lia|]. rewrite P. destruct (iv_len v =? bytes) eqn:RB.
      + apply Z.eqb_eq in RB. rewrite RB in E. exists st1, iv2, bytes. auto using Z.le_refl.
      + destruct (more_spec (S (room iv2)) st1 iv2 (bytes - iv_len v) (bytes - iv_len v) W2 ltac:(lia) ltac:(lia))
          as (st' & iv' & k & E' & Hk & EB).
        rewrite E'. exists st', iv', (iv_len v + k). split; [do 2 f_equal; lia|]. split; [lia | eapply ext_trans; eauto].
  Qed.
End PushLoop.

(* iovector.h:363-371 push_front(size_t bytes), 389-397 push_back(size_t bytes) *)
Lemma o_push_alloc_spec s chunk st iv bytes : wf_view st (live iv) -> 0 <= bytes ->
  exists st' iv' k, match s with Front => o_push_front_alloc | Back => o_push_back_alloc end chunk st iv bytes = Some (st', iv', k) /\
    0 <= k <= bytes /\ match s with Front => ext_front | Back => ext_back end st (live iv) st' (live iv') k.
Proof.
  destruct s.
  - apply (alloc_spec chunk (fun iv => ibeg iv <=? 0) (fun iv => Z.to_nat (ibeg iv)) o_push_front ext_front
             push_front_more o_push_front_alloc (fun _ _ _ _ _ => eq_refl) (fun _ _ _ => eq_refl) ext_front_refl ext_front_trans).
    intros st0 iv0 iv1 r W Hr Fu C1 C2 C3. apply Z.leb_gt in Fu. unfold o_push_front. rewrite C2, C3.
    destruct (0 <? ibeg iv0) eqn:C; [|apply Z.ltb_ge in C; lia].
    pose proof (fresh_front st0 (live iv0) r W Hr) as EB. eexists; split; [reflexivity|]. simpl.
    split; [lia|]. split; [exact (proj1 EB) | exact EB].
  - apply (alloc_spec chunk (fun iv => cap iv <=? iend iv) (fun iv => Z.to_nat (cap iv - iend iv)) o_push_back ext_back
             push_back_more o_push_back_alloc (fun _ _ _ _ _ => eq_refl) (fun _ _ _ => eq_refl) ext_back_refl ext_back_trans).
    intros st0 iv0 iv1 r W Hr Fu C1 C2 C3. apply Z.leb_gt in Fu. unfold o_push_back, iend in *. rewrite C1, C2, C3.
    destruct (ibeg iv0 + zlen (live iv0) <? cap iv0) eqn:C; [|apply Z.ltb_ge in C; lia].
    pose proof (fresh_back st0 (live iv0) r W Hr) as EB. eexists; split; [reflexivity|]. simpl.
    split; [rewrite zlen_app; unfold zlen at 2; simpl; lia|]. split; [exact (proj1 EB) | exact EB].
Qed.
