(* C03_Locked.v — cv_wait_returns_locked, strong form: the step that completes a wait() (the re-lock loop of
   cvar_do_wait delivers its result to the caller) leaves the lock owned by the waiter, in every interleaving. *)
From Coq Require Import ZArith List Bool Arith Lia.
From PV Require Import Base.U64 C04.C04_Heap C03.C03_Model C03.C03_Step C03.C03_WF C03.C03_Proofs.
Import ListNotations.
Local Open Scope Z_scope.

Lemma held_after_lock S t l a b : held (th (finish_op (set_held S t l true) t a b) t) l = true.
Proof. unfold finish_op, set_held. simpl. unfold updf. rewrite !Nat.eqb_refl. simpl. now rewrite Nat.eqb_refl. Qed.

Lemma lock_done_idle0 S t l ret en :
  held (th (let '(a, b) := translate ret en in finish_op (set_held S t l true) t a b) t) l = true.
Proof. destruct (translate ret en). apply held_after_lock. Qed.

Lemma lock_done_idle s t l c ret en r e :
  tpc (th (lock_done s t l (KWait c ret en) r e) t) = PIdle ->
  held (th (lock_done s t l (KWait c ret en) r e) t) l = true.
Proof.
  unfold lock_done. destruct (r =? 0); [intros _; apply lock_done_idle0|].
  unfold set_pc. rewrite th_updT_same. simpl. discriminate.
Qed.

Theorem cv_wait_returns_locked_strong nv kinds home progs s v t r l c ret en s' :
  Reach nv kinds home progs s -> runq (vc s v) = Th t :: r -> pend (vc s v) = None ->
  (tpc (th s t) = PLockTry l (KWait c ret en) \/ tpc (th s t) = PLockSlept l (KWait c ret en)) ->
  vstep s v = Some s' -> tpc (th s' t) = PIdle ->
  held (th s' t) l = true /\ lown s' l = Some t.
Proof.
  intros R E Pn P H Hi.
  assert (R' : Reach nv kinds home progs s') by (eapply reach_step; [exact R|]; exact (H : step s (LV v) = Some s')).
  assert (Hh : held (th s' t) l = true).
  { unfold vstep in H. rewrite Pn, E in H. unfold thread_step in H. destruct P as [P|P]; rewrite P in H.
    - unfold lock_try in H. destruct (lown s l).
      + destruct (lkd s l); [|discriminate]. destruct (lk (th s t)); [discriminate|]. inversion H; subst.
        unfold set_pc in Hi. rewrite th_updT_same in Hi. simpl in Hi. discriminate.
      + inversion H; subst. apply lock_done_idle0.
    - destruct (take_err s t) as [[a b] s1]. destruct ((a <? 0) && (b =? -1)).
      + destruct (lown s1 l) as [o|]; [destruct (Nat.eqb o t)|]; inversion H; subst;
          try apply lock_done_idle0; unfold set_pc in Hi; rewrite th_updT_same in Hi; simpl in Hi; discriminate.
      + destruct (translate a b) as [x y]. inversion H; subst. apply (lock_done_idle s1 t l c ret en x y). exact Hi. }
  split; auto. eapply li_ho; eauto. eapply LI_reachable; eauto.
Qed.
