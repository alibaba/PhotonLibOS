(* C03_NoIntr.v — "notified => wait returns 0" for interrupt-free programs (the property's own quantifier
   domain): a waiter picked by notify keeps error_number = -1 until it resumes, in every interleaving.
   (With thread_interrupt in the picture this is refuted: C03_IntrRace.v.) *)
From Coq Require Import ZArith List Bool Arith Lia.
From PV Require Import Base.U64 C04.C04_Heap C03.C03_Model C03.C03_Step C03.C03_WF C03.C03_Proofs C03.C03_Queue C03.C03_Notify C03.C03_Result.
Import ListNotations.
Local Open Scope Z_scope.

Definition intr_pc (p : pc) : Prop :=
  match p with
  | PInLock _ _ | PInLocked _ _ | PInUnlock _ _ _ | PInOut _ _ _ | PInWrite _ _ => True
  | _ => False
  end.
Definition intr_op (o : op) : Prop := match o with OInterrupt _ _ => True | _ => False end.

Record NE (s : state) : Prop := mkNE {
  ne_prog : forall t o, In o (prog (th s t)) -> ~ intr_op o;
  ne_pc : forall t, ~ intr_pc (tpc (th s t));
  ne_err : forall t c l n, tpc (th s t) = PWaitSlept c l -> wk (th s t) = WNotified n -> err (th s t) = -1
}.

Definition ne_mono (s s' : state) : Prop :=
  forall y, prog (th s' y) = prog (th s y) /\ tpc (th s' y) = tpc (th s y) /\ err (th s' y) = err (th s y) /\
            (forall n, wk (th s' y) = WNotified n -> wk (th s y) = WNotified n).
Lemma nm_refl s : ne_mono s s. Proof. intros y. repeat split; auto. Qed.
Lemma nm_trans a b c : ne_mono a b -> ne_mono b c -> ne_mono a c.
Proof.
  intros A B y. destruct (A y) as (a1 & a2 & a3 & a4), (B y) as (b1 & b2 & b3 & b4).
  repeat split; try congruence. intros n H. eauto.
Qed.
Lemma NE_frame s s' : ne_mono s s' -> NE s -> NE s'.
Proof.
  intros M N. constructor.
  - intros t o H. destruct (M t) as (E & _). rewrite E in H. eapply (ne_prog s N); eauto.
  - intros t. destruct (M t) as (_ & E & _). rewrite E. apply (ne_pc s N).
  - intros t c l n H1 H2. destruct (M t) as (_ & E1 & E2 & E3). rewrite E1 in H1. rewrite E2. eapply (ne_err s N); eauto.
Qed.
Lemma nm_quiet a b c : quiet b c -> ne_mono a b -> ne_mono a c.
Proof.
  intros Q H. apply (nm_trans a b c H). intros y.
  rewrite (quiet_proj prog b c y Q), (quiet_proj tpc b c y Q), (quiet_proj err b c y Q), (quiet_proj wk b c y Q) by reflexivity.
  auto.
Qed.
Lemma nm_view a s s' : th s' = th s -> ne_mono a s -> ne_mono a s'.
Proof. intros E H. apply (nm_trans a s _ H). unfold ne_mono. rewrite E. auto. Qed.
Definition nekeeps (f : thr -> thr) : Prop :=
  forall r, prog (f r) = prog r /\ tpc (f r) = tpc r /\ err (f r) = err r /\ (forall n, wk (f r) = WNotified n -> wk r = WNotified n).
Lemma nm_updT a s t f : nekeeps f -> ne_mono a s -> ne_mono a (updT s t f).
Proof.
  intros K H. apply (nm_trans a s _ H). intros y. rewrite th_updT.
  destruct (Nat.eqb y t) eqn:E; [apply Nat.eqb_eq in E; subst; apply K|repeat split; auto].
Qed.
Lemma nk_st v : nekeeps (fun r => t_st r v). Proof. intros r. repeat split; auto. Qed.
Lemma nk_lk v : nekeeps (fun r => t_lk r v). Proof. intros r. repeat split; auto. Qed.
Lemma nk_held v : nekeeps (fun r => t_held r v). Proof. intros r. repeat split; auto. Qed.
Lemma nk_wqo v : nekeeps (fun r => t_wqo r v). Proof. intros r. repeat split; auto. Qed.
Lemma nm_prepare a s v t q e : ne_mono a s -> ne_mono a (prepare_usleep s v t q e).
Proof.
  intros H. eapply nm_quiet; [apply quiet_prepare|]. apply (nm_trans a s _ H). intros y.
  destruct (Nat.eq_dec y t) as [->|n]; [|rewrite slept_other by auto; repeat split; auto].
  rewrite slept_self. destruct q; repeat split; auto; discriminate.
Qed.
Lemma nm_dequeue a s x ns : ne_mono a s -> ne_mono a (dequeue s x ns).
Proof.
  intros H. unfold dequeue. apply nm_updT; [apply nk_st|]. destruct (wqo (th s x)); auto.
  apply nm_updT; [apply nk_wqo|]. now apply (nm_view a s).
Qed.
Lemma nm_wake_by a s va x : ne_mono a s -> ne_mono a (wake_by s va x).
Proof. intros H. destruct (quiet_wake_by s va x) as (ns & _ & Q). eapply nm_quiet; [exact Q|]. now apply nm_dequeue. Qed.

Ltac nm_peel :=
  repeat match goal with
  | |- ne_mono ?a ?a => apply nm_refl
  | |- ne_mono _ (prepare_usleep _ _ _ _ _) => apply nm_prepare
  | |- ne_mono _ (wake_by _ _ _) => apply nm_wake_by
  | |- ne_mono _ (dequeue _ _ _) => apply nm_dequeue
  | |- ne_mono _ (fst (eject _ _ _ _)) => eapply nm_quiet; [apply quiet_eject, quiet_refl|]
  | |- ne_mono _ (s_bad ?s) => apply (nm_view _ s); [reflexivity|]
  | |- ne_mono _ (s_lown ?s _) => apply (nm_view _ s); [reflexivity|]
  | |- ne_mono _ (tick ?s _) => apply (nm_view _ s); [reflexivity|]
  | |- ne_mono _ (updV ?s _ _) => apply (nm_view _ s); [reflexivity|]
  | |- ne_mono _ (set_held _ _ _ _) => apply nm_updT; [intros ?; repeat split; auto|]
  | |- ne_mono _ (timed_out _ _) => apply nm_updT; [intros ?; repeat split; auto; discriminate|]
  | |- ne_mono _ (updT _ _ (fun y => t_lk y _)) => apply nm_updT; [apply nk_lk|]
  | |- ne_mono _ _ => eapply nm_quiet; [shuffle|]
  end.
Ltac ne_frame N := eapply NE_frame; [|exact N]; nm_peel.

(* pc / prog / err updates of the stepping thread t: NEx = NE without the error-number clause for t *)
Definition NEx (s : state) (t : tid) : Prop :=
  (forall y o, In o (prog (th s y)) -> ~ intr_op o) /\ (forall y, ~ intr_pc (tpc (th s y))) /\
  (forall y c l n, y <> t -> tpc (th s y) = PWaitSlept c l -> wk (th s y) = WNotified n -> err (th s y) = -1).
Lemma NE_NEx s t : NE s -> NEx s t.
Proof. intros N. split; [apply (ne_prog s N)|split; [apply (ne_pc s N)|]]. intros y c l n _. apply (ne_err s N). Qed.
Lemma NEx_frame s s' t : ne_mono s s' -> NEx s t -> NEx s' t.
Proof.
  intros M (A & B & C). split; [|split].
  - intros y o H. destruct (M y) as (E & _). rewrite E in H. eauto.
  - intros y. destruct (M y) as (_ & E & _). rewrite E. auto.
  - intros y c l n Hy H1 H2. destruct (M y) as (_ & E1 & E2 & E3). rewrite E1 in H1. rewrite E2. eauto.
Qed.
Lemma NEx_set_err s t e : NEx s t -> NEx (updT s t (fun x => t_err x e)) t.
Proof.
  intros (A & B & C). split; [|split].
  - intros y o H. rewrite th_updT in H. destruct (Nat.eqb_spec y t); subst; simpl in H; eauto.
  - intros y. rewrite th_updT. destruct (Nat.eqb_spec y t); subst; simpl; auto.
  - intros y c l n Hy H1 H2. rewrite th_updT in *. destruct (Nat.eqb_spec y t); subst; [congruence|]. eauto.
Qed.
Lemma NEx_set_pc s t p : NEx s t -> ~ intr_pc p -> (forall c l, p <> PWaitSlept c l) -> NE (set_pc s t p).
Proof.
  intros (A & B & C) Hp Hw. unfold set_pc. constructor.
  - intros y o H. rewrite th_updT in H. destruct (Nat.eqb_spec y t); subst; simpl in H; eauto.
  - intros y. rewrite th_updT. destruct (Nat.eqb_spec y t); subst; simpl; auto.
  - intros y c l n H1 H2. rewrite th_updT in *. destruct (Nat.eqb_spec y t); subst; simpl in *.
    + exfalso. eapply Hw; eauto.
    + eauto.
Qed.
Lemma NEx_finish s t a b : NEx s t -> NE (finish_op s t a b).
Proof.
  intros (A & B & C). unfold finish_op. constructor.
  - intros y o H. rewrite th_updT in H. destruct (Nat.eqb_spec y t); subst; simpl in H.
    + apply (A t). destruct (prog (th s t)); simpl in *; auto.
    + eauto.
  - intros y. rewrite th_updT. destruct (Nat.eqb_spec y t); subst; simpl; auto.
  - intros y c l n H1 H2. rewrite th_updT in *. destruct (Nat.eqb_spec y t); subst; simpl in *; [discriminate|]. eauto.
Qed.
Lemma NEx_take_err s t a b s1 : NE s -> take_err s t = (a, b, s1) -> NEx s1 t.
Proof.
  intros N T. destruct (take_err_cases _ _ _ _ _ T) as [(_ & _ & -> & _)|(_ & _ & _ & ->)]; [|apply NEx_set_err]; now apply NE_NEx.
Qed.
Lemma plain_not_intr p : plain p -> ~ intr_pc p.
Proof. destruct p; simpl; auto. Qed.

Lemma NE_set_woken s x w : NE s -> NE (updT s x (fun y => t_wk (t_err y (-1)) w)).
Proof.
  intros N. constructor.
  - intros y o H. rewrite th_updT in H. destruct (Nat.eqb_spec y x); subst; simpl in H; eapply (ne_prog s N); eauto.
  - intros y. rewrite th_updT. destruct (Nat.eqb_spec y x); subst; simpl; apply (ne_pc s N).
  - intros y c l n H1 H2. rewrite th_updT in *. destruct (Nat.eqb_spec y x); subst; simpl in *; auto.
    eapply (ne_err s N); eauto.
Qed.

Lemma NE_do_unlock s va l s' : NE s -> do_unlock s va l = Some s' -> NE s'.
Proof.
  intros N H. destruct (hand_off _ _ _ _ H) as [->|(h & _ & _ & ->)]; [ne_frame N|].
  eapply NE_frame; [apply nm_wake_by, nm_refl|]. apply NE_set_woken. ne_frame N.
Qed.

Lemma NE_tstep s v t s' : NE s -> tstep s v t s' -> NE s'.
Proof.
  intros N H. pose proof (ne_pc s N t) as Np. pose proof (NE_NEx s t N) as Nx.
  assert (No : forall k e, ~ at_op s t (OInterrupt k e)).
  { intros k e (_ & os & Pr). eapply (ne_prog s N t (OInterrupt k e)); [rewrite Pr; now left|exact I]. }
  destruct H as [|p Hg| |p _ Hp|s1 q e p Hr _ Hf|c l d _ _ _| |a b s1 a' b' T|a b s1 p T Hp| |a b s1 l k a' b' _ T _|l S _ _ U
                | | |c x all n _ _| | | |k e P _|k e P _ _|k e P|k e stk P|k e P _];
    try (exfalso; rewrite P in Np; exact (Np I));
    try solve [match goal with |- NE (finish_op _ _ _ _) => apply NEx_finish | |- NE (set_pc _ _ _) => apply NEx_set_pc; [|exact (fun H => H)|discriminate] | _ => idtac end;
               first [eapply NEx_frame; [|exact Nx]; nm_peel|ne_frame N]].
  (* left: t_goto, t_yield, t_sleep, t_wait, t_woke_ret, t_woke_goto, t_handoff, t_unlock, t_nf_go *)
  - destruct Hg as [k e O|k e stk O| | | |k e stk P|k e stk P]; try (destruct (No _ _ O));
      try (exfalso; rewrite P in Np; exact (Np I)); (apply NEx_set_pc; [exact Nx|exact (fun H => H)|discriminate]).
  - apply NEx_set_pc; [|now apply plain_not_intr|intros c l; now apply plain_not_wait].
    eapply NEx_frame; [|apply (NEx_set_err s t 0), Nx]. nm_peel.
  - apply NEx_set_pc; [|destruct q as [[|]|]; simpl in Hf; [tauto|destruct Hf as [k ->]; auto|now apply plain_not_intr]
                       |intros c l; eapply fits_not_wait; eauto].
    eapply NEx_frame; [apply nm_prepare, nm_refl|]. destruct Hr; [exact Nx|eapply NEx_take_err; eauto].
  - (* the new pc is PWaitSlept, with wk = WNone set by prepare_usleep *)
    assert (M : ne_mono s (prepare_usleep s v t (Some (WCv c)) (expiration_of s d))) by nm_peel.
    unfold set_pc. constructor.
    + intros y o Hy. rewrite th_updT, th_updV in Hy. destruct (M y) as (E1 & _).
      destruct (Nat.eqb_spec y t); subst; simpl in Hy; rewrite E1 in Hy; eapply (ne_prog s N); eauto.
    + intros y. rewrite th_updT, th_updV. destruct (M y) as (_ & E2 & _).
      destruct (Nat.eqb_spec y t); subst; simpl; auto. rewrite E2. apply (ne_pc s N).
    + intros y c0 l0 n H1 H2. rewrite th_updT, th_updV in *.
      destruct (Nat.eqb_spec y t); subst; simpl in *.
      * exfalso. rewrite (quiet_proj wk _ _ t (quiet_prepare s v t (Some (WCv c)) (expiration_of s d))), slept_self in H2 by reflexivity.
        discriminate.
      * destruct (M y) as (_ & E2 & E3 & E4). rewrite E2 in H1. rewrite E3. eapply (ne_err s N); eauto.
  - apply NEx_finish. eapply NEx_take_err; eauto.
  - apply NEx_set_pc; [eapply NEx_take_err; eauto|now apply plain_not_intr|intros c l; now apply plain_not_wait].
  - apply NEx_finish. eapply NEx_frame; [|eapply NEx_take_err; eauto]. nm_peel.
  - apply NEx_finish, NE_NEx. eapply NE_frame; [|eapply NE_do_unlock; eauto]. nm_peel.
  - apply NEx_set_pc; [|exact (fun H => H)|discriminate]. apply NE_NEx.
    eapply NE_frame; [apply nm_wake_by, nm_refl|]. now apply NE_set_woken.
Qed.

Lemma NE_sstep s s' : NE s -> sstep s s' -> NE s'.
Proof.
  intros N H. destruct H as [d|v w l S _ U|v t r s' _ _ H|v r s' _ _ H].
  - ne_frame N.
  - eapply NE_frame; [|eapply NE_do_unlock; eauto]. nm_peel.
  - eapply NE_tstep; eauto.
  - destruct H as [s1 cnt Ej| | | |]; try solve [ne_frame N].
    change s1 with (fst (s1, cnt)). rewrite <- Ej. ne_frame N.
Qed.

Definition interrupt_free (progs : tid -> list op) : Prop := forall k o, In o (progs k) -> ~ intr_op o.

Theorem NE_reachable nv kinds home progs s : interrupt_free progs -> Reach nv kinds home progs s -> NE s.
Proof.
  intros Hf. apply Reach_ind.
  - constructor; simpl.
    + intros t o H. destruct (Nat.ltb t nv); simpl in H; eapply Hf; eauto.
    + intros t. destruct (Nat.ltb t nv); simpl; auto.
    + intros t c l n H. destruct (Nat.ltb t nv); simpl in H; discriminate.
  - intros s0 s' _. apply NE_sstep.
Qed.
