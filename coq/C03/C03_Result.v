(* C03_Result.v — what wait() returns is decided by the wake-up: error_number = -1 only after a
   notification picked this waiter (or, in the mutex queue, a hand-off); a timer wake-up only at or after
   the deadline; error_number = 0 at the resumption only for a timer wake-up.  Inductive invariant RS over
   every interleaving (with interrupts: their error numbers are > 0). *)
From Coq Require Import ZArith List Bool Arith Lia.
From PV Require Import Base.U64 C04.C04_Heap C03.C03_Model C03.C03_Step C03.C03_WF C03.C03_Proofs C03.C03_Queue C03.C03_Notify.
Import ListNotations.
Local Open Scope Z_scope.

Definition blocked_pc (p : pc) : Prop :=
  (exists c l, p = PWaitSlept c l) \/ (exists l k, p = PLockSlept l k).

Record RSo (s : state) (o : option tid) : Prop := mkRS {
  rs_cv : forall t c, In t (wqs s (WCv c)) -> exists l, tpc (th s t) = PWaitSlept c l;
  rs_mx : forall t l, In t (wqs s (WMx l)) -> exists k, tpc (th s t) = PLockSlept l k;
  rs_sl : forall t, st (th s t) = SLEEPING -> wk (th s t) = WNone;
  rs_err : forall t, Some t <> o -> err (th s t) = -1 ->
             (exists c l n, tpc (th s t) = PWaitSlept c l /\ wk (th s t) = WNotified n) \/
             (exists l k, tpc (th s t) = PLockSlept l k /\ wk (th s t) = WHandoff);
  rs_to : forall t c l, Some t <> o -> tpc (th s t) = PWaitSlept c l -> wk (th s t) = WTimeout -> ts (th s t) <= now s;
  rs_e0 : forall t c l, Some t <> o -> tpc (th s t) = PWaitSlept c l -> err (th s t) = 0 ->
             wk (th s t) = WNone \/ wk (th s t) = WTimeout;
  rs_now : now s <= MAX64
}.
Definition RS (s : state) : Prop := RSo s None.
Lemma RS_weaken s o : RS s -> RSo s o.
Proof.
  intros R. constructor; try (apply R).
  - intros t _. apply (rs_err s None R). discriminate.
  - intros t c l _. apply (rs_to s None R). discriminate.
  - intros t c l _. apply (rs_e0 s None R). discriminate.
Qed.

(* frame: control/ghost fields unchanged, threads only stop SLEEPING, queues only shrink *)
Definition rs_mono (s s' : state) : Prop :=
  (forall y, tpc (th s' y) = tpc (th s y) /\ wk (th s' y) = wk (th s y) /\ err (th s' y) = err (th s y) /\
             ts (th s' y) = ts (th s y) /\ (st (th s' y) = SLEEPING -> st (th s y) = SLEEPING)) /\
  (forall q y, In y (wqs s' q) -> In y (wqs s q)) /\ now s' = now s.
Lemma rm_refl s : rs_mono s s. Proof. repeat split; auto. Qed.
Lemma rm_trans a b c : rs_mono a b -> rs_mono b c -> rs_mono a c.
Proof.
  intros (A1 & A2 & A3) (B1 & B2 & B3). split; [|split]; [|auto|congruence].
  intros y. destruct (A1 y) as (a1 & a2 & a3 & a4 & a5), (B1 y) as (b1 & b2 & b3 & b4 & b5).
  repeat split; try congruence. auto.
Qed.

(* RSo speaks of one thread at a time: its clauses for thread t, whose record is r *)
Definition rs1 (s : state) (o : option tid) (t : tid) (r : thr) : Prop :=
  (forall c, In t (wqs s (WCv c)) -> exists l, tpc r = PWaitSlept c l) /\
  (forall l, In t (wqs s (WMx l)) -> exists k, tpc r = PLockSlept l k) /\
  (st r = SLEEPING -> wk r = WNone) /\
  (Some t <> o -> err r = -1 ->
     (exists c l n, tpc r = PWaitSlept c l /\ wk r = WNotified n) \/
     (exists l k, tpc r = PLockSlept l k /\ wk r = WHandoff)) /\
  (forall c l, Some t <> o -> tpc r = PWaitSlept c l -> wk r = WTimeout -> ts r <= now s) /\
  (forall c l, Some t <> o -> tpc r = PWaitSlept c l -> err r = 0 -> wk r = WNone \/ wk r = WTimeout).
Lemma RSo_rs1 s o : RSo s o <-> (forall t, rs1 s o t (th s t)) /\ now s <= MAX64.
Proof.
  split.
  - intros [R1 R2 R3 R4 R5 R6 R7]. split; auto. intros t. repeat split; eauto.
  - intros [H Hn]. constructor; auto; intros t; destruct (H t) as (A1 & A2 & A3 & A4 & A5 & A6); eauto.
Qed.
Lemma rs1_mono s s' o o' y r r' : rs1 s o y r ->
  tpc r' = tpc r -> wk r' = wk r -> err r' = err r -> ts r' = ts r -> (st r' = SLEEPING -> st r = SLEEPING) ->
  (forall q, In y (wqs s' q) -> In y (wqs s q)) -> now s' = now s -> (Some y <> o' -> Some y <> o) ->
  rs1 s' o' y r'.
Proof.
  unfold rs1. intros (A1 & A2 & A3 & A4 & A5 & A6) -> -> -> -> Es Eq -> Eo. repeat split; eauto.
Qed.

(* every thread but x keeps what RSo reads and is on no new queue: RSo carries over when x's own clauses hold *)
Lemma RSo_but s S' o o' x : RSo s o ->
  (forall y, y <> x -> tpc (th S' y) = tpc (th s y) /\ wk (th S' y) = wk (th s y) /\ err (th S' y) = err (th s y) /\
                       ts (th S' y) = ts (th s y) /\ (st (th S' y) = SLEEPING -> st (th s y) = SLEEPING)) ->
  (forall q y, In y (wqs S' q) -> y <> x -> In y (wqs s q)) -> now S' = now s ->
  (forall y, y <> x -> Some y <> o' -> Some y <> o) ->
  rs1 S' o' x (th S' x) -> RSo S' o'.
Proof.
  intros R Fy Fq Fn Fo Hx. apply RSo_rs1 in R. destruct R as [R Hn]. apply RSo_rs1. split; [|now rewrite Fn].
  intros y. destruct (Nat.eq_dec y x) as [->|n]; auto.
  destruct (Fy y n) as (a & b & c & d & e). apply (rs1_mono s S' o o' y (th s y)); auto.
Qed.

Lemma RS_frame s s' o : rs_mono s s' -> RSo s o -> RSo s' o.
Proof.
  intros (A1 & A2 & A3) R. apply RSo_rs1 in R. destruct R as [R Hn]. apply RSo_rs1. split; [|now rewrite A3].
  intros t. destruct (A1 t) as (a & b & c & d & e). apply (rs1_mono s s' o o t (th s t)); auto.
Qed.
Lemma rm_quiet a b c : quiet b c -> rs_mono a b -> rs_mono a c.
Proof.
  intros Q H. apply (rm_trans a b c H). split; [|split]; [|rewrite (q_wqs b c Q); auto|apply (q_now b c Q)].
  intros y. rewrite (quiet_proj tpc b c y Q), (quiet_proj wk b c y Q), (quiet_proj err b c y Q), (quiet_proj ts b c y Q)
    by reflexivity. repeat split; auto. apply (quiet_sleeping b c y Q).
Qed.
Lemma rm_view a s s' : th s' = th s -> wqs s' = wqs s -> now s' = now s -> rs_mono a s -> rs_mono a s'.
Proof. intros E1 E2 E3 H. apply (rm_trans a s _ H). unfold rs_mono. rewrite E1, E2, E3. repeat split; auto. Qed.
Definition rkeeps (f : thr -> thr) : Prop :=
  forall r, tpc (f r) = tpc r /\ wk (f r) = wk r /\ err (f r) = err r /\ ts (f r) = ts r /\ (st (f r) = SLEEPING -> st r = SLEEPING).
Lemma rm_updT a s t f : rkeeps f -> rs_mono a s -> rs_mono a (updT s t f).
Proof.
  intros K H. apply (rm_trans a s _ H). split; [|split]; [|auto|reflexivity]. intros y. rewrite th_updT.
  destruct (Nat.eqb y t) eqn:E; [apply Nat.eqb_eq in E; subst; apply K|repeat split; auto].
Qed.
Lemma rm_dequeue a s x ns : ns <> SLEEPING -> rs_mono a s -> rs_mono a (dequeue s x ns).
Proof.
  intros Hns H. apply (rm_trans a s _ H). split; [|split].
  - intros y. destruct (Nat.eq_dec y x); subst.
    + rewrite dequeue_self. repeat split; auto. simpl. congruence.
    + rewrite dequeue_th_other by auto. repeat split; auto.
  - intros q y Hy. unfold dequeue in Hy. destruct (wqo (th s x)) as [w|]; simpl in Hy; auto.
    unfold updq in Hy. destruct (wq_eqb_spec q w); subst; auto. apply in_remove in Hy. tauto.
  - destruct (dequeue_misc s x ns) as (_ & Hn & _). exact Hn.
Qed.
Lemma rm_wake_by a s va x : rs_mono a s -> rs_mono a (wake_by s va x).
Proof. intros H. destruct (quiet_wake_by s va x) as (ns & Hns & Q). eapply rm_quiet; [exact Q|]. now apply rm_dequeue. Qed.
Lemma rm_now_eq s x : now (s_lown s x) = now s. Proof. reflexivity. Qed.

Ltac rm_peel :=
  repeat match goal with
  | |- rs_mono ?a ?a => apply rm_refl
  | |- rs_mono _ (wake_by _ _ _) => apply rm_wake_by
  | |- rs_mono _ (fst (eject _ _ _ _)) => eapply rm_quiet; [apply quiet_eject, quiet_refl|]
  | |- rs_mono _ (s_bad ?s) => apply (rm_view _ s); [reflexivity..|]
  | |- rs_mono _ (s_lown ?s _) => apply (rm_view _ s); [reflexivity..|]
  | |- rs_mono _ (updV ?s _ _) => apply (rm_view _ s); [reflexivity..|]
  | |- rs_mono _ (set_held _ _ _ _) => apply rm_updT; [intros ?; repeat split; auto|]
  | |- rs_mono _ (updT _ _ (fun y => t_lk y _)) => apply rm_updT; [intros ?; repeat split; auto|]
  | |- rs_mono _ _ => eapply rm_quiet; [shuffle|]
  end.

Lemma RS_tick s d : RS s -> RS (tick s d).
Proof.
  intros R. pose proof (rs_now s None R) as Hn.
  assert (Hm : now s <= now (tick s d) <= MAX64).
  { unfold tick. simpl. unfold sat_add. destruct (MAX64 <? now s + Z.max 0 d) eqn:E; [lia|]. apply Z.ltb_ge in E. lia. }
  destruct R. constructor; auto; [|lia].
  intros t c l Ho H1 H2. pose proof (rs_to0 _ _ _ Ho H1 H2). change (ts (th (tick s d) t)) with (ts (th s t)). lia.
Qed.

Lemma plain_not_blocked p : plain p -> ~ blocked_pc p.
Proof. intros H [(c & l & ->)|(l & k & ->)]; exact H. Qed.
Lemma nb_retry l k : ~ blocked_pc (PRetry l k). Proof. now apply plain_not_blocked. Qed.

(* the invariant with t's own clauses suspended, and what is known of t meanwhile: it runs, is on no
   queue, and its error number is not a notification's *)
Definition RSx (s : state) (t : tid) : Prop :=
  RSo s (Some t) /\ st (th s t) <> SLEEPING /\ err (th s t) <> -1 /\ forall q, ~ In t (wqs s q).
Lemma RSx_mono s s' t : rs_mono s s' -> RSx s t -> RSx s' t.
Proof.
  intros M (R & Hs & He & Nq). split; [eapply RS_frame; eauto|]. destruct M as (A1 & A2 & _).
  destruct (A1 t) as (_ & _ & Ee & _ & Es). rewrite Ee. repeat split; auto. intros q H. eapply Nq; eauto.
Qed.
Ltac rx_frame R := eapply RSx_mono; [|exact R]; rm_peel.

(* a thread's error number is overwritten by e: not a notification's; 0 only for the stepping thread *)
Lemma RSo_set_err s o k e : RSo s o -> e <> -1 -> (e = 0 -> o = Some k) -> RSo (updT s k (fun y => t_err y e)) o.
Proof.
  intros R He H0. pose proof (proj1 (proj1 (RSo_rs1 s o) R) k) as (A1 & A2 & A3 & A4 & A5 & A6).
  apply (RSo_but s _ o o k R); auto.
  - intros y n. rewrite th_updT_other by auto. repeat split; auto.
  - rewrite th_updT_same. repeat split; simpl; auto; [congruence|].
    intros c l Ho _ H2. rewrite (H0 H2) in Ho. congruence.
Qed.
Lemma RSx_set_err s t k e : RSx s t -> e <> -1 -> (e = 0 -> k = t) -> RSx (updT s k (fun y => t_err y e)) t.
Proof.
  intros (R & Hs & He & Nq) H1 H0. split; [apply RSo_set_err; auto; intros E; now rewrite (H0 E)|].
  rewrite th_updT. destruct (Nat.eqb_spec t k); subst; simpl; repeat split; auto.
Qed.

Lemma RSx_run s v t r : WF s -> RS s -> runq (vc s v) = Th t :: r -> awake (tpc (th s t)) -> RSx s t.
Proof.
  intros W R E A. assert (Hs : st (th s t) <> SLEEPING) by (apply (runq_state s t v W); rewrite E; now left).
  split; [now apply RS_weaken|]. repeat split; auto.
  - intros He. destruct (rs_err s None R t) as [(c & l & n & H & _)|(l & k & H & _)]; auto; try discriminate;
      rewrite H in A; exact A.
  - intros q H. apply (wf_wq s W) in H. tauto.
Qed.
Lemma RSx_take s v t r a b s1 : WF s -> RS s -> runq (vc s v) = Th t :: r -> take_err s t = (a, b, s1) -> RSx s1 t.
Proof.
  intros W R E T. assert (Hs : st (th s t) <> SLEEPING) by (apply (runq_state s t v W); rewrite E; now left).
  assert (Nq : forall q, ~ In t (wqs s q)) by (intros q H; apply (wf_wq s W) in H; tauto).
  destruct (take_err_cases _ _ _ _ _ T) as [(_ & _ & -> & He)|(_ & _ & _ & ->)].
  - split; [now apply RS_weaken|]. repeat split; auto. lia.
  - split; [apply RSo_set_err; auto; [now apply RS_weaken|lia]|]. rewrite th_updT_same. repeat split; auto. simpl. lia.
Qed.

Lemma RS_set_pc s t p : RSx s t -> ~ blocked_pc p -> RS (set_pc s t p).
Proof.
  intros (R & Hs & He & Nq) Hp. apply (RSo_but s _ (Some t) None t R); auto.
  - intros y n. unfold set_pc. rewrite th_updT_other by auto. repeat split; auto.
  - intros y n _ H. congruence.
  - unfold set_pc. rewrite th_updT_same. repeat split; simpl.
    + intros c H. destruct (Nq _ H).
    + intros l H. destruct (Nq _ H).
    + intros H. destruct (Hs H).
    + intros _ H. destruct (He H).
    + intros c l _ H. destruct Hp. left. eauto.
    + intros c l _ H. destruct Hp. left. eauto.
Qed.
Lemma RS_finish s t a b : RSx s t -> RS (finish_op s t a b).
Proof.
  intros X. eapply RS_frame; [|apply (RS_set_pc s t PIdle X), (plain_not_blocked PIdle I)].
  split; [|split]; [|auto|reflexivity].
  intros y. unfold finish_op, set_pc. rewrite !th_updT. destruct (Nat.eqb y t); simpl; repeat split; auto.
Qed.

Definition pc_fits (q : option wq) (p : pc) : Prop :=
  match q with
  | Some (WCv c) => exists l, p = PWaitSlept c l
  | Some (WMx l) => exists k, p = PLockSlept l k
  | None => ~ blocked_pc p
  end.
Lemma fits_pc_fits q p : fits q p -> pc_fits q p.
Proof. destruct q as [[|]|]; simpl; [tauto|auto|apply plain_not_blocked]. Qed.

(* the current thread t goes to sleep (optionally on queue q) and its pc becomes p *)
Lemma RS_sleep s v t q e p : RSx s t -> pc_fits q p -> RS (set_pc (prepare_usleep s v t q e) t p).
Proof.
  intros (R & Hs & He & Nq) Hp.
  assert (X : RS (set_pc (slept s t q e) t p)).
  { unfold set_pc. apply (RSo_but s _ (Some t) None t R).
    - intros y n. rewrite th_updT_other, slept_other by auto. repeat split; auto.
    - intros w y H n. rewrite wqs_updT in H. apply slept_wqs in H. destruct H as [H|[-> _]]; [auto|congruence].
    - unfold slept. destruct q; reflexivity.
    - intros y n _ H. congruence.
    - rewrite th_updT_same, slept_self. repeat split.
      + intros c H. rewrite wqs_updT in H. apply slept_wqs in H. destruct H as [H|[_ ->]]; [destruct (Nq _ H)|exact Hp].
      + intros l H. rewrite wqs_updT in H. apply slept_wqs in H. destruct H as [H|[_ ->]]; [destruct (Nq _ H)|exact Hp].
      + intros _. destruct q; reflexivity.
      + intros _ H. destruct He. destruct q; exact H.
      + intros c l _ _ H. destruct q; discriminate.
      + intros c l _ _ _. left. destruct q; reflexivity. }
  eapply RS_frame; [|exact X]. eapply rm_quiet; [|apply rm_refl].
  exact (quiet_updT _ _ t (fun r => t_pc r p) (quiet_prepare s v t q e) (fun _ _ => eq_refl)).
Qed.

(* a SLEEPING thread x is woken with error number e and reason w *)
Definition wake_ok (s : state) (x : tid) (e : Z) (w : wake) : Prop :=
  (0 < e /\ w = WInterrupted) \/
  (e = -1 /\ ((exists c n, In x (wqs s (WCv c)) /\ w = WNotified n) \/ (exists l, In x (wqs s (WMx l)) /\ w = WHandoff))).

(* x stops sleeping and leaves its queue, everybody else is as before: what must be known of x afterwards *)
Lemma RSo_leave s S' o x : RSo s o ->
  (forall y, y <> x -> tpc (th S' y) = tpc (th s y) /\ wk (th S' y) = wk (th s y) /\ err (th S' y) = err (th s y) /\
                       ts (th S' y) = ts (th s y) /\ (st (th S' y) = SLEEPING -> st (th s y) = SLEEPING)) ->
  (forall q y, In y (wqs S' q) -> In y (wqs s q) /\ y <> x) -> now S' = now s ->
  tpc (th S' x) = tpc (th s x) -> st (th S' x) <> SLEEPING ->
  (err (th S' x) = -1 -> Some x <> o ->
     (exists c l n, tpc (th s x) = PWaitSlept c l /\ wk (th S' x) = WNotified n) \/
     (exists l k, tpc (th s x) = PLockSlept l k /\ wk (th S' x) = WHandoff)) ->
  (wk (th S' x) = WTimeout -> ts (th S' x) <= now s) ->
  (err (th S' x) = 0 -> wk (th S' x) = WNone \/ wk (th S' x) = WTimeout) ->
  RSo S' o.
Proof.
  intros R Fy Fq Fn Xp Xs Xe Xt X0. apply (RSo_but s S' o o x R); auto.
  - intros q y H _. now apply Fq in H.
  - repeat split; auto.
    + intros c H. apply Fq in H. tauto.
    + intros l H. apply Fq in H. tauto.
    + intros H. destruct (Xs H).
    + intros Ho H. rewrite Xp. auto.
    + intros c l _ _ H. rewrite Fn. auto.
Qed.

Lemma RSo_wake s o va x e w : WF s -> RSo s o -> wake_ok s x e w ->
  RSo (wake_by (updT s x (fun y => t_wk (t_err y e) w)) va x) o.
Proof.
  intros W R Hok.
  set (s1 := updT s x (fun y => t_wk (t_err y e) w)).
  assert (W1 : WF s1) by (apply WF_updT; auto; apply keeps_wkerr).
  destruct (rm_wake_by s1 s1 va x (rm_refl s1)) as (A1 & A2 & A3).
  destruct (A1 x) as (Xp & Xw & Xe & _). subst s1. rewrite th_updT_same in Xp, Xw, Xe. simpl in Xp, Xw, Xe.
  apply (RSo_leave s _ o x R); auto.
  - intros y Hy. destruct (A1 y) as (a & b & c & d & f). rewrite th_updT_other in *; auto.
  - intros q y H. apply wb_wqs in H; auto.
  - destruct (quiet_wake_by (updT s x (fun y => t_wk (t_err y e) w)) va x) as (ns & Hns & Q). intros H.
    apply (quiet_sleeping _ _ x Q) in H. rewrite dequeue_self in H. simpl in H. congruence.
  - rewrite Xe, Xw. intros He _. destruct Hok as [[H _]|[_ [(c & n & Hi & ->)|(l & Hi & ->)]]]; [lia| |].
    + left. destruct (rs_cv s _ R _ _ Hi) as [l Hl]. eauto.
    + right. destruct (rs_mx s _ R _ _ Hi) as [k Hk]. eauto.
  - rewrite Xw. destruct Hok as [[_ ->]|[_ [(c0 & n & _ & ->)|(l0 & _ & ->)]]]; discriminate.
  - rewrite Xe. destruct Hok as [[He _]|[He _]]; lia.
Qed.
(* the stepping thread is not the one woken *)
Lemma RSx_wake s t va x e w : WF s -> RSx s t -> st (th s x) = SLEEPING -> wake_ok s x e w ->
  RSx (wake_by (updT s x (fun y => t_wk (t_err y e) w)) va x) t.
Proof.
  intros W (R & Hs & He & Nq) Hx Hok. split; [now apply RSo_wake|].
  assert (Hn : x <> t) by congruence.
  destruct (rm_wake_by _ _ va x (rm_refl (updT s x (fun y => t_wk (t_err y e) w)))) as (A1 & A2 & _).
  destruct (A1 t) as (_ & _ & Ee & _ & Es). rewrite th_updT_other in Ee, Es by auto. rewrite Ee.
  repeat split; auto. intros q H. apply A2 in H. eapply Nq; eauto.
Qed.

Lemma RSo_do_unlock s o va l s' : WF s -> RSo s o -> do_unlock s va l = Some s' -> RSo s' o.
Proof.
  intros W R H. destruct (hand_off _ _ _ _ H) as [->|(h & Hi & _ & ->)].
  - eapply RS_frame; [|exact R]. rm_peel.
  - apply RSo_wake; [now apply WF_lown|eapply RS_frame; [|exact R]; rm_peel|].
    right. split; auto. right. exists l. split; auto.
Qed.
Lemma RSx_do_unlock s t va l s' : WF s -> RSx s t -> do_unlock s va l = Some s' -> RSx s' t.
Proof.
  intros W R H. destruct (hand_off _ _ _ _ H) as [->|(h & Hi & _ & ->)].
  - rx_frame R.
  - apply RSx_wake; [now apply WF_lown|rx_frame R|apply (wf_wq s W h (WMx l) Hi)|].
    right. split; auto. right. exists l. split; auto.
Qed.

Ltac nb := let H := fresh in intros [(? & ? & H)|(? & ? & H)]; discriminate.

Lemma RS_tstep s v t r s' : WF s -> NG s -> RS s -> runq (vc s v) = Th t :: r -> tstep s v t s' -> RS s'.
Proof.
  intros W G R0 E H.
  pose proof (RSx_run s v t r W R0 E) as Rr. pose proof (fun a b s1 => RSx_take s v t r a b s1 W R0 E) as Rt.
  destruct H as [a b A|p Hg|k P _ _|p A Hp|s1 q e p Hr _ Hf|c l d [P _]|P|a b s1 a' b' T|a b s1 p T Hp|l a b A _
                |a b s1 l k a' b' _ T _|l S [P _] _ U|c x all n P _|c x all n P|c x all n P Hs|c x all n P _|c x n P|c x n P
                |k e P _|k e P Hs He|k e P|k e stk P|k e P He];
    try (assert (A : awake (tpc (th s t))) by (rewrite P; exact I));
    try solve [match goal with |- RS (finish_op _ _ _ _) => apply RS_finish | |- RS (set_pc _ _ _) => apply RS_set_pc; [|nb] end; first [rx_frame (Rr A)|eapply RSx_mono; [|eapply Rt; eauto]; rm_peel]].
  (* left: t_goto, t_yield, t_sleep, t_wait, t_die, t_woke_goto, t_unlock, t_nf_go, t_in_go, t_in_write *)
  - apply RS_set_pc; [|destruct Hg; nb].
    destruct Hg as [? ? [P _]|? ? ? [P _]|? ? ? ? ? A _|? ? ? ? P _|? ? ? ? P|? ? ? P|? ? ? P]; apply Rr; first [exact A|rewrite P; exact I].
  - apply RS_set_pc; [|now apply plain_not_blocked]. eapply RSx_mono; [|apply (RSx_set_err s t t 0 (Rr A)); auto; lia]. rm_peel.
  - apply RS_sleep; [|now apply fits_pc_fits]. destruct Hr; eauto.
  - match goal with |- RS (set_pc (updV ?S _ _) _ ?p) =>
      apply (RS_frame (set_pc S t p)); [apply (rm_view _ (set_pc S t p)); [reflexivity..|apply rm_refl]|] end.
    apply RS_sleep; simpl; eauto.
  - eapply RS_frame; [|exact R0]. rm_peel.
  - apply RS_set_pc; [eauto|now apply plain_not_blocked].
  - apply RS_finish. eapply RSx_mono; [|eapply RSx_do_unlock; eauto]. rm_peel.
  - (* notify: x is the head of c's queue *)
    destruct G as [_ GG]. assert (Hh : hd_error (wqs s (WCv c)) = Some x) by (eapply GG; eauto; discriminate).
    assert (Hi : In x (wqs s (WCv c))) by (destruct (wqs s (WCv c)); inversion Hh; now left).
    apply RS_set_pc; [|nb]. apply RSx_wake; auto. right. split; auto. left. eauto.
  - apply RS_set_pc; [|nb]. apply RSx_wake; auto. now left.
  - apply RS_finish. apply RSx_set_err; auto; lia.
Qed.

Lemma RS_timed_out s x : WF s -> RS s -> st (th s x) = SLEEPING -> ts (th s x) <= now s -> RS (timed_out s x).
Proof.
  intros W R Hs Ht. unfold timed_out.
  apply (RSo_leave s _ None x R); rewrite ?th_updT_same, ?dequeue_self; cbn [tpc err ts wk st t_wk t_st t_wqo]; auto.
  - intros y Hy. rewrite th_updT_other, dequeue_th_other by auto. repeat split; auto.
  - intros q y H. apply (dequeue_wqs s x READY W) in H. exact H.
  - destruct (dequeue_misc s x READY) as (_ & Hn & _). exact Hn.
  - discriminate.
  - intros H Ho. pose proof (rs_sl s _ R x Hs) as Hk.
    destruct (rs_err s _ R x Ho H) as [(c0 & l & n & _ & Hw)|(l & k & _ & Hw)]; congruence.
Qed.

Lemma RS_sstep s s' : WF s -> NG s -> RS s -> sstep s s' -> RS s'.
Proof.
  intros W G R H. destruct H as [d|v w l S _ U|v t r s' E _ H|v r s' _ _ H].
  - now apply RS_tick.
  - eapply RS_frame; [|eapply RSo_do_unlock; eauto]. rm_peel.
  - eapply RS_tstep; eauto.
  - destruct H as [s1 cnt Ej| |x cnt F Ht _ Hs| |]; try solve [eapply RS_frame; [|exact R]; rm_peel].
    + change s1 with (fst (s1, cnt)). rewrite <- Ej. eapply RS_frame; [|exact R]. rm_peel.
    + match goal with |- RS (updV (rq_append ?S _ _) _ _) => apply (RS_frame S); [rm_peel|] end.
      apply RS_timed_out; auto; [|eapply RS_frame; [|exact R]; rm_peel].
      now apply WF_pop_front.
Qed.

Theorem RS_reachable nv kinds home progs s : Reach nv kinds home progs s -> RS s.
Proof.
  apply Reach_ind.
  - constructor; simpl; try (intros; contradiction).
    + intros t H. destruct (Nat.ltb t nv); simpl in *; auto; discriminate.
    + intros t _ H. destruct (Nat.ltb t nv); simpl in H; discriminate.
    + intros t c l _ H. destruct (Nat.ltb t nv); simpl in H; discriminate.
    + intros t c l _ H. destruct (Nat.ltb t nv); simpl in H; discriminate.
    + unfold VSTART, MAX64. lia.
  - intros s0 s' Rc. apply RS_sstep; [eapply WF_reachable|eapply NG_reachable]; eauto.
Qed.

(* The value wait() returns is `translate ret en`, where (ret, en) is what set_error_number delivers at
   the resumption (the step from PWaitSlept); the re-lock loop only delays it.  At that step:
     * the result is 0 only if a notify_one/notify_all picked this very waiter;
     * the result is -1/ETIMEDOUT only if the waiter was woken by its vCPU's timer, and then its deadline
       has passed (ts_wakeup <= now, and now never decreases). *)
Theorem cv_wait_result nv kinds home progs s v t r c l :
  Reach nv kinds home progs s -> runq (vc s v) = Th t :: r -> tpc (th s t) = PWaitSlept c l ->
  let '(ret, en, _) := take_err s t in
  (translate ret en = (0, 0) -> exists n, wk (th s t) = WNotified n) /\
  (translate ret en = (-1, ETIMEDOUT) -> ret = 0 -> wk (th s t) = WTimeout /\ ts (th s t) <= now s).
Proof.
  intros Rc E P. pose proof (RS_reachable _ _ _ _ _ Rc) as R. pose proof (WF_reachable _ _ _ _ _ Rc) as W.
  pose proof (WK_reachable _ _ _ _ _ Rc) as K.
  assert (Hs : st (th s t) <> SLEEPING) by (apply (runq_state s t v W); rewrite E; now left).
  assert (Hk : wk (th s t) <> WNone).
  { intros Hk. apply Hs. apply (wf_wq s W t (WCv c)). eapply K; eauto. }
  unfold take_err. destruct (Z.eqb_spec (err (th s t)) 0) as [He|He].
  - split.
    + unfold translate. simpl. intros X; inversion X.
    + intros _ _. destruct (rs_e0 s _ R t c l) as [X|X]; auto; try discriminate; [congruence|].
      split; auto. eapply (rs_to s _ R); eauto. discriminate.
  - split.
    + unfold translate. simpl. destruct (Z.eqb_spec (err (th s t)) (-1)) as [Hm|Hm]; [|intros X; inversion X; lia].
      intros _. destruct (rs_err s _ R t) as [(c0 & l0 & n & _ & Hw)|(l0 & k & Hp & _)]; auto; try discriminate; eauto.
      congruence.
    + intros _ X. lia.
Qed.
