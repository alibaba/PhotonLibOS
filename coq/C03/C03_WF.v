(* C03_WF.v — scheduler well-formedness of the C03 model, an inductive invariant of `step`:
   wait queues hold exactly SLEEPING threads that point back at them, run queues hold
   READY/RUNNING threads of that vCPU without duplicates, stand-by queues hold STANDBY threads
   of that vCPU, sleep-queue members belong to that vCPU. *)
From Coq Require Import ZArith List Bool Arith Lia.
From PV Require Import Base.U64 C04.C04_Heap C03.C03_Model C03.C03_Step.
Import ListNotations.
Local Open Scope Z_scope.

Inductive reachable (s0 : state) : state -> Prop :=
| reach_init : reachable s0 s0
| reach_step : forall s a s', reachable s0 s -> step s a = Some s' -> reachable s0 s'.

Definition Reach (nv : nat) (kinds : lid -> lkind) (home : tid -> vid) (progs : tid -> list op) (s : state) : Prop :=
  reachable (init nv kinds home progs) s.

Lemma updf_same {A} (f : tid -> A) k v : updf f k v k = v.
Proof. unfold updf. now rewrite Nat.eqb_refl. Qed.
Lemma updf_other {A} (f : tid -> A) k v x : x <> k -> updf f k v x = f x.
Proof. unfold updf. intros H. apply Nat.eqb_neq in H. now rewrite H. Qed.

Lemma updq_same {A} (f : wq -> A) k v : updq f k v k = v.
Proof. unfold updq. destruct (wq_eqb_spec k k); congruence. Qed.
Lemma updq_other {A} (f : wq -> A) k v x : x <> k -> updq f k v x = f x.
Proof. unfold updq. destruct (wq_eqb_spec x k); congruence. Qed.

Lemma vc_updV s v f x : vc (updV s v f) x = if Nat.eqb x v then f (vc s v) else vc s x.
Proof. reflexivity. Qed.
Lemma vc_updV_same s v f : vc (updV s v f) v = f (vc s v).
Proof. rewrite vc_updV. now rewrite Nat.eqb_refl. Qed.
Lemma vc_updV_other s v f x : x <> v -> vc (updV s v f) x = vc s x.
Proof. intros H. rewrite vc_updV. apply Nat.eqb_neq in H. now rewrite H. Qed.

Lemma in_remove_iff (x y : tid) l : In y (remove Nat.eq_dec x l) <-> In y l /\ y <> x.
Proof.
  split.
  - intros H. apply in_remove in H. exact H.
  - intros [H1 H2]. apply in_in_remove; auto.
Qed.

Lemma NoDup_snoc {A} (l : list A) (e : A) : NoDup l -> ~ In e l -> NoDup (l ++ [e]).
Proof.
  induction l as [|a l IH]; simpl; intros Hn Hi.
  - constructor; [intros []|constructor].
  - apply NoDup_cons_iff in Hn. destruct Hn as [Ha Hl]. constructor.
    + rewrite in_app_iff. simpl. intros [H|[H|[]]]; [auto|]. subst. apply Hi. now left.
    + apply IH; auto.
Qed.

(* heap: the elements after an operation come from the heap before (or the pushed one) *)
Lemma in_setq x q i v : In x (setq q i v) -> x = v \/ In x q.
Proof.
  revert i. induction q as [|a q IH]; intros i; simpl.
  - intros [].
  - destruct i; simpl.
    + intros [H|H]; auto.
    + intros [H|H]; auto. destruct (IH _ H); auto.
Qed.
Lemma length_setq q i v : length (setq q i v) = length q.
Proof. revert i. induction q; intros [|i]; simpl; auto. Qed.
Lemma in_removelast {A} (x : A) l : In x (removelast l) -> In x l.
Proof.
  induction l as [|a l IH]; simpl; auto. destruct l; [intros []|].
  intros [H|H]; auto.
Qed.

Definition hsub (h' h : heap) (extra : tid -> Prop) : Prop :=
  forall x, In x (hq h') -> In x (hq h) \/ extra x.

Lemma update_node_sub h i t : forall x, In x (hq (update_node h i t)) -> x = t \/ In x (hq h).
Proof.
  intros x. unfold update_node. destruct (Nat.ltb i (length (hq h))); simpl; auto.
  apply in_setq.
Qed.
Lemma update_node_len h i t : length (hq (update_node h i t)) = length (hq h).
Proof. unfold update_node. destruct (Nat.ltb i (length (hq h))); simpl; auto. apply length_setq. Qed.

Lemma getq_in q i : (i < length q)%nat -> In (getq q i) q.
Proof. intros. unfold getq. now apply nth_In. Qed.

Lemma div2_lt i : i <> O -> (Nat.div2 (i - 1) < i)%nat.
Proof. intros. pose proof (Nat.div2_decr (i - 1) (i - 1) (Nat.le_succ_diag_r _)). lia. Qed.

(* h' holds elements of h only, and as many *)
Definition hle (h' h : heap) : Prop :=
  (forall x, In x (hq h') -> In x (hq h)) /\ length (hq h') = length (hq h).

Lemma hle_refl h : hle h h.
Proof. split; auto. Qed.
Lemma hle_put h' h j t : hle h' h -> In t (hq h) -> hle (update_node h' j t) h.
Proof.
  intros [Ha Hb] Ht. split; [|now rewrite update_node_len].
  intros x Hx. apply update_node_sub in Hx. destruct Hx as [->|]; auto.
Qed.

Lemma up_loop_sub tsf0 h0 fuel : forall h tmp i m h' j m',
  hle h h0 -> (i < length (hq h))%nat -> up_loop fuel tsf0 h tmp i m = (h', j, m') -> hle h' h0.
Proof.
  induction fuel as [|f IH]; intros h tmp i m h' j m' Hh Hi H; simpl in H.
  - inversion H; subst. exact Hh.
  - destruct (Nat.eqb i 0) eqn:E0; [inversion H; subst; auto|]. apply Nat.eqb_neq in E0.
    pose proof (div2_lt i E0) as Hd.
    destruct (tsf0 tmp <? tsf0 (getq (hq h) (Nat.div2 (i - 1)))); [|inversion H; subst; auto].
    apply IH in H; auto.
    + apply hle_put; auto. apply (proj1 Hh), getq_in. lia.
    + rewrite update_node_len. lia.
Qed.

Lemma up_sub tsf0 h i : (i < length (hq h))%nat -> hle (fst (up tsf0 h i)) h.
Proof.
  intros Hi. unfold up.
  destruct (up_loop (S (length (hq h))) tsf0 h (getq (hq h) i) i false) as [[h' j] m] eqn:E.
  apply (up_loop_sub tsf0 h) in E; auto using hle_refl.
  destruct m; simpl; auto. apply hle_put; auto. now apply getq_in.
Qed.

Lemma down_loop_S f tsf0 h tmp i m :
  down_loop (S f) tsf0 h tmp i m =
    if Nat.ltb (2 * i + 1) (length (hq h)) then
      let c' := if Nat.ltb (2 * i + 1 + 1) (length (hq h)) && (tsf0 (getq (hq h) (2 * i + 1 + 1)) <? tsf0 (getq (hq h) (2 * i + 1)))
                then (2 * i + 1 + 1)%nat else (2 * i + 1)%nat in
      if tsf0 (getq (hq h) c') <? tsf0 tmp
      then down_loop f tsf0 (update_node h i (getq (hq h) c')) tmp c' true
      else (h, i, m)
    else (h, i, m).
Proof. reflexivity. Qed.

Lemma down_loop_sub tsf0 h0 fuel : forall h tmp i m h' j m',
  hle h h0 -> down_loop fuel tsf0 h tmp i m = (h', j, m') -> hle h' h0.
Proof.
  induction fuel as [|f IH]; intros h tmp i m h' j m' Hh H.
  - simpl in H. inversion H; subst. exact Hh.
  - rewrite down_loop_S in H.
    destruct (Nat.ltb (2 * i + 1) (length (hq h))) eqn:E1; [|inversion H; subst; auto].
    apply Nat.ltb_lt in E1. cbv zeta in H.
    remember (if Nat.ltb (2 * i + 1 + 1) (length (hq h)) && (tsf0 (getq (hq h) (2 * i + 1 + 1)) <? tsf0 (getq (hq h) (2 * i + 1)))
               then (2 * i + 1 + 1)%nat else (2 * i + 1)%nat) as c' eqn:Ec.
    assert (Hc : (c' < length (hq h))%nat).
    { subst c'. destruct (Nat.ltb (2 * i + 1 + 1) (length (hq h))) eqn:E2; cbn [andb]; [|exact E1].
      apply Nat.ltb_lt in E2. destruct (tsf0 (getq (hq h) (2 * i + 1 + 1)) <? tsf0 (getq (hq h) (2 * i + 1))); [exact E2 | exact E1]. }
    destruct (tsf0 (getq (hq h) c') <? tsf0 tmp); [|inversion H; subst; auto].
    apply IH in H; auto. apply hle_put; auto. now apply (proj1 Hh), getq_in.
Qed.

Lemma down_sub tsf0 h i : (i < length (hq h))%nat -> hle (fst (down tsf0 h i)) h.
Proof.
  intros Hi. unfold down.
  destruct (down_loop (S (length (hq h))) tsf0 h (getq (hq h) i) i false) as [[h' j] m] eqn:E.
  apply (down_loop_sub tsf0 h) in E; auto using hle_refl.
  destruct m; simpl; auto. apply hle_put; auto. now apply getq_in.
Qed.

Lemma push_sub tsf0 h t : forall x, In x (hq (push tsf0 h t)) -> x = t \/ In x (hq h).
Proof.
  intros x Hx. unfold push in Hx. apply up_sub in Hx; simpl; [|rewrite app_length; simpl; lia].
  apply in_app_iff in Hx. destruct Hx as [|[->|[]]]; auto.
Qed.

Lemma last_in {A} (l : list A) d : l <> [] -> In (last l d) l.
Proof.
  induction l as [|a l IH]; [congruence|]. intros _. destruct l as [|b l]; [now left|].
  right. apply IH. discriminate.
Qed.

Lemma pop_back_sub h x : In x (hq (pop_back h)) -> In x (hq h).
Proof. unfold pop_back. simpl. apply in_removelast. Qed.
Lemma pop_back_len h : length (hq (pop_back h)) = (length (hq h) - 1)%nat.
Proof. unfold pop_back. simpl. rewrite removelast_firstn_len, firstn_length. lia. Qed.

(* the last element moved into slot i, the last slot dropped *)
Lemma replace_sub h i : hq h <> [] ->
  let h2 := pop_back (update_node h i (last (hq h) 0%nat)) in
  (forall x, In x (hq h2) -> In x (hq h)) /\ length (hq h2) = (length (hq h) - 1)%nat.
Proof.
  intros Hne h2. split.
  - intros x Hx. apply pop_back_sub, update_node_sub in Hx. destruct Hx as [->|]; auto. now apply last_in.
  - unfold h2. now rewrite pop_back_len, update_node_len.
Qed.

Lemma pop_front_sub tsf0 h : forall x, In x (hq (fst (pop_front tsf0 h))) -> In x (hq h).
Proof.
  intros x. unfold pop_front. destruct (hq h) as [|ret q] eqn:E; [simpl; rewrite E; auto|].
  rewrite <- E. destruct (Nat.eqb (length (hq h)) 1) eqn:E1; cbn [fst set_idx hq]; [apply pop_back_sub|].
  destruct (replace_sub h 0) as [Hs Hl]; [rewrite E; discriminate|].
  intros Hx. apply Hs. refine (proj1 (down_sub tsf0 _ 0 _) x Hx).
  rewrite Hl. apply Nat.eqb_neq in E1. rewrite E in *. simpl in *. lia.
Qed.

Lemma pop_sub tsf0 h t : forall x, In x (hq (fst (pop tsf0 h t))) -> In x (hq h).
Proof.
  intros x. unfold pop.
  destruct (hidx h t =? -1); [simpl; auto|].
  destruct ((hidx h t <? 0) || (Z.of_nat (length (hq h)) <=? hidx h t)) eqn:Eb; [simpl; auto|].
  apply orb_false_iff in Eb. destruct Eb as [Eb1 Eb2].
  apply Z.ltb_ge in Eb1. apply Z.leb_gt in Eb2.
  set (i := Z.to_nat (hidx h t)).
  assert (Hi : (i < length (hq h))%nat) by (subst i; lia).
  destruct (Nat.eqb i (length (hq h) - 1)) eqn:Ei; [cbn [fst set_idx hq]; apply pop_back_sub|].
  destruct (Nat.eqb (length (hq h)) 1) eqn:E1; [cbn [fst set_idx hq]; apply pop_back_sub|].
  apply Nat.eqb_neq in Ei.
  destruct (replace_sub h i) as [Hs Hl]; [intros Hn; rewrite Hn in Hi; simpl in Hi; lia|].
  set (h2 := pop_back (update_node h i (last (hq h) 0%nat))) in *.
  assert (Ei2 : (i < length (hq h2))%nat) by lia.
  destruct (up_sub tsf0 h2 i Ei2) as [Hu1 Hu2].
  destruct (up tsf0 h2 i) as [h3 m] eqn:Eu. cbn [fst] in Hu1, Hu2.
  destruct m; cbn [fst set_idx hq]; [auto|].
  assert (Ei3 : (i < length (hq h3))%nat) by lia.
  destruct (down_sub tsf0 h3 i Ei3) as [Hd1 _]. auto.
Qed.

Lemma front_in h x : front h = Some x -> In x (hq h).
Proof. unfold front. destruct (hq h); [discriminate|]. intros H. inversion H. now left. Qed.

Record WF (s : state) : Prop := mkWF {
  wf_wq : forall t q, In t (wqs s q) -> wqo (th s t) = Some q /\ st (th s t) = SLEEPING;
  wf_rq : forall t v, In (Th t) (runq (vc s v)) ->
            (st (th s t) = READY \/ st (th s t) = RUNNING) /\ vcp (th s t) = v;
  wf_rqnd : forall v, NoDup (runq (vc s v));
  wf_sb : forall x v, In x (sbq (vc s v)) -> st (th s x) = STANDBY /\ vcp (th s x) = v;
  wf_sbnd : forall v, NoDup (sbq (vc s v));
  wf_sl : forall x v, In x (hq (slq (vc s v))) -> vcp (th s x) = v /\ st (th s x) <> NEW
}.

(* the view of a state WF depends on *)
Definition same_view (s s' : state) : Prop :=
  (forall t, st (th s' t) = st (th s t) /\ vcp (th s' t) = vcp (th s t) /\ wqo (th s' t) = wqo (th s t)) /\
  (forall v, runq (vc s' v) = runq (vc s v) /\ sbq (vc s' v) = sbq (vc s v) /\
             (forall x, In x (hq (slq (vc s' v))) -> In x (hq (slq (vc s v))))) /\
  (forall q, wqs s' q = wqs s q).

Lemma WF_view s s' : same_view s s' -> WF s -> WF s'.
Proof.
  intros (Ht & Hv & Hq) W. constructor.
  - intros t q H. rewrite Hq in H. destruct (Ht t) as (-> & _ & ->). now apply (wf_wq s W).
  - intros t v H. destruct (Hv v) as (E & _ & _). rewrite E in H. destruct (Ht t) as (-> & -> & _). now apply (wf_rq s W).
  - intros v. destruct (Hv v) as (-> & _ & _). apply (wf_rqnd s W).
  - intros x v H. destruct (Hv v) as (_ & E & _). rewrite E in H. destruct (Ht x) as (-> & -> & _). now apply (wf_sb s W).
  - intros v. destruct (Hv v) as (_ & -> & _). apply (wf_sbnd s W).
  - intros x v H. destruct (Hv v) as (_ & _ & E). apply E in H. destruct (Ht x) as (-> & -> & _). now apply (wf_sl s W).
Qed.

Lemma same_view_refl s : same_view s s.
Proof. repeat split; auto. Qed.

(* thread-field updates that do not touch st / vcp / wqo *)
Definition keeps (f : thr -> thr) : Prop :=
  forall r, st (f r) = st r /\ vcp (f r) = vcp r /\ wqo (f r) = wqo r.
Lemma view_updT s t f : keeps f -> same_view s (updT s t f).
Proof.
  intros K. split; [|split]; [|simpl; auto|simpl; auto].
  intros x. rewrite th_updT. destruct (Nat.eqb_spec x t); [subst; apply K|auto].
Qed.
Definition vkeeps (g : vcpu -> vcpu) : Prop :=
  forall r, runq (g r) = runq r /\ sbq (g r) = sbq r /\ (forall x, In x (hq (slq (g r))) -> In x (hq (slq r))).
Lemma view_updV s v g : vkeeps g -> same_view s (updV s v g).
Proof.
  intros K. split; [|split]; [simpl; auto| |simpl; auto].
  intros x. rewrite vc_updV. destruct (Nat.eqb_spec x v); [subst; apply K|auto].
Qed.

Lemma keeps_err v : keeps (fun r => t_err r v). Proof. intros r; auto. Qed.
Lemma keeps_ts v : keeps (fun r => t_ts r v). Proof. intros r; auto. Qed.
Lemma keeps_lk v : keeps (fun r => t_lk r v). Proof. intros r; auto. Qed.
Lemma keeps_pc v : keeps (fun r => t_pc r v). Proof. intros r; auto. Qed.
Lemma keeps_held v : keeps (fun r => t_held r v). Proof. intros r; auto. Qed.
Lemma keeps_wk v : keeps (fun r => t_wk r v). Proof. intros r; auto. Qed.
Lemma keeps_wkerr e w : keeps (fun r => t_wk (t_err r e) w). Proof. intros r; auto. Qed.
Lemma keeps_fin : keeps (fun r => t_pc (t_opi (t_prog r (tl (prog r))) (S (opi r))) PIdle). Proof. intros r; auto. Qed.
Lemma vkeeps_pend p : vkeeps (fun r => v_pend r p). Proof. intros r; auto. Qed.
Lemma vkeeps_ipc p : vkeeps (fun r => v_ipc r p). Proof. intros r; auto. Qed.

Lemma view_now s f : same_view s (s_now s f).
Proof. repeat split; auto. Qed.

Lemma WF_updT s t f : keeps f -> WF s -> WF (updT s t f).
Proof. intros K. apply WF_view, view_updT, K. Qed.
Lemma WF_updV s v g : vkeeps g -> WF s -> WF (updV s v g).
Proof. intros K. apply WF_view, view_updV, K. Qed.
Lemma WF_set_pc s t p : WF s -> WF (set_pc s t p).
Proof. apply WF_updT, keeps_pc. Qed.
Lemma WF_set_held s t l b : WF s -> WF (set_held s t l b).
Proof. apply WF_updT. intros r; auto. Qed.
Lemma WF_lown s f : WF s -> WF (s_lown s f).
Proof. apply WF_view. repeat split; auto. Qed.
Lemma WF_finish s t a b : WF s -> WF (finish_op s t a b).
Proof. intros W. apply WF_updT; [apply keeps_fin|]. eapply WF_view; [|exact W]. repeat split; auto. Qed.

(* WF says of each queue what the records of its members look like (and that run and stand-by queues have no
   duplicates).  So it survives a change of one thread record, of one vCPU record or of one wait queue as
   long as the members concerned still look right. *)
Lemma WF_thr s x f : WF s ->
  (forall q, In x (wqs s q) -> wqo (f (th s x)) = Some q /\ st (f (th s x)) = SLEEPING) ->
  (forall v, In (Th x) (runq (vc s v)) ->
     (st (f (th s x)) = READY \/ st (f (th s x)) = RUNNING) /\ vcp (f (th s x)) = v) ->
  (forall v, In x (sbq (vc s v)) -> st (f (th s x)) = STANDBY /\ vcp (f (th s x)) = v) ->
  (forall v, In x (hq (slq (vc s v))) -> vcp (f (th s x)) = v /\ st (f (th s x)) <> NEW) ->
  WF (updT s x f).
Proof.
  intros [Wq Wr Wrn Wb Wbn Wl] Hq Hr Hb Hl.
  constructor; simpl; auto; intros y k H; unfold updf; destruct (Nat.eqb_spec y x); subst; auto.
Qed.

Lemma WF_vc s v g : WF s ->
  (forall t, In (Th t) (runq (g (vc s v))) -> (st (th s t) = READY \/ st (th s t) = RUNNING) /\ vcp (th s t) = v) ->
  NoDup (runq (g (vc s v))) ->
  (forall x, In x (sbq (g (vc s v))) -> st (th s x) = STANDBY /\ vcp (th s x) = v) ->
  NoDup (sbq (g (vc s v))) ->
  (forall x, In x (hq (slq (g (vc s v)))) -> vcp (th s x) = v /\ st (th s x) <> NEW) ->
  WF (updV s v g).
Proof.
  intros [Wq Wr Wrn Wb Wbn Wl] Hr Hrn Hb Hbn Hl. constructor; simpl; auto.
  1,3,5: intros y k H; unfold updf in H; destruct (Nat.eqb_spec k v); subst; auto.
  all: intros k; unfold updf; destruct (Nat.eqb_spec k v); subst; auto.
Qed.

Lemma WF_wq s q l : WF s -> (forall t, In t l -> wqo (th s t) = Some q /\ st (th s t) = SLEEPING) ->
  WF (s_wqs s (updq (wqs s) q l)).
Proof.
  intros [Wq Wr Wrn Wb Wbn Wl] H. constructor; simpl; auto.
  intros t k Hi. unfold updq in Hi. destruct (wq_eqb_spec k q); subst; auto.
Qed.

(* the record of a thread that is in no wait, run or stand-by queue may change freely, except for its vCPU,
   and not to NEW *)
Lemma WF_free s x f : WF s -> st (f (th s x)) <> NEW -> vcp (f (th s x)) = vcp (th s x) ->
  (forall q, ~ In x (wqs s q)) -> (forall v, ~ In (Th x) (runq (vc s v))) -> (forall v, ~ In x (sbq (vc s v))) ->
  WF (updT s x f).
Proof.
  intros W Hn Hv Nq Nr Nb.
  apply WF_thr; auto; intros k H; [destruct (Nq k H)|destruct (Nr k H)|destruct (Nb k H)|].
  rewrite Hv. split; [now apply (wf_sl s W)|exact Hn].
Qed.

Lemma runq_state s t v : WF s -> In (Th t) (runq (vc s v)) -> st (th s t) <> SLEEPING /\ st (th s t) <> STANDBY /\ st (th s t) <> NEW /\ st (th s t) <> DONE.
Proof. intros W H. apply (wf_rq s W) in H. destruct H as [[H|H] _]; rewrite H; repeat split; discriminate. Qed.

Lemma WF_set_rr s t v ns : WF s -> In (Th t) (runq (vc s v)) -> ns = READY \/ ns = RUNNING ->
  WF (updT s t (fun r => t_st r ns)).
Proof.
  intros W Hin Hns. pose proof W as [Wq Wr _ Wb _ Wl]. destruct (Wr t v Hin) as [Hst _].
  apply WF_thr; auto; simpl; intros k H.
  - apply Wq in H. destruct H, Hst; congruence.
  - split; [exact Hns|now apply Wr].
  - apply Wb in H. destruct H, Hst; congruence.
  - split; [now apply Wl|destruct Hns; congruence].
Qed.

Lemma WF_set_running s v : WF s -> WF (set_running s v).
Proof.
  intros W. unfold set_running. destruct (runq (vc s v)) as [|[t'|] r] eqn:E; auto.
  eapply WF_set_rr; eauto. rewrite E. now left.
Qed.

Lemma in_snoc {A} (x e : A) l : In x (l ++ [e]) <-> In x l \/ x = e.
Proof. rewrite in_app_iff. simpl. intuition. Qed.

Lemma WF_rotate s v : WF s -> WF (rotate s v).
Proof.
  intros W. unfold rotate. destruct (runq (vc s v)) as [|e r] eqn:E; auto.
  apply WF_set_running.
  set (s1 := match e with Th t => updT s t (fun x => t_st x READY) | Idl => s end).
  assert (W1 : WF s1).
  { subst s1. destruct e; auto. eapply WF_set_rr; eauto. rewrite E. now left. }
  assert (E1 : runq (vc s1 v) = e :: r) by (subst s1; destruct e; exact E).
  pose proof W1 as [Wq Wr Wrn Wb Wbn Wl]. pose proof (Wrn v) as ND. rewrite E1 in ND. apply NoDup_cons_iff in ND.
  apply WF_vc; simpl; auto.
  - intros t H. apply Wr. rewrite E1. apply in_snoc in H. destruct H; [now right|subst; now left].
  - apply NoDup_snoc; tauto.
Qed.

(* sleep-queue replacement by a heap whose members come from the old one or belong to v *)
Lemma WF_slq s v h' : WF s ->
  hsub h' (slq (vc s v)) (fun x => vcp (th s x) = v /\ st (th s x) <> NEW) ->
  WF (updV s v (fun r => v_slq r h')).
Proof.
  intros W Hs. pose proof W as [Wq Wr Wrn Wb Wbn Wl]. apply WF_vc; simpl; auto.
  intros x Hx. destruct (Hs x Hx); auto.
Qed.

Lemma WF_pop_front s v : WF s -> WF (updV s v (fun y => v_slq y (fst (pop_front (tsf s) (slq y))))).
Proof. intros W. apply WF_slq; auto. intros y Hy. left. now apply pop_front_sub in Hy. Qed.

Lemma WF_rq_append s v x : WF s -> st (th s x) = READY -> vcp (th s x) = v -> ~ In (Th x) (runq (vc s v)) ->
  WF (rq_append s v x).
Proof.
  intros W Hs Hv Hn. pose proof W as [Wq Wr Wrn Wb Wbn Wl]. apply WF_vc; simpl; auto.
  - intros t H. apply in_snoc in H. destruct H as [H|H]; [auto|]. inversion H; subst. auto.
  - now apply NoDup_snoc.
Qed.

(* the current thread t of v taken off the ring is in no wait, run or stand-by queue *)
Lemma WF_unrun s v t r : WF s -> runq (vc s v) = Th t :: r ->
  let s1 := updV s v (fun x => v_runq x (tl (runq x))) in
  WF s1 /\ (forall q, ~ In t (wqs s1 q)) /\ (forall v', ~ In (Th t) (runq (vc s1 v'))) /\
  (forall v', ~ In t (sbq (vc s1 v'))).
Proof.
  intros W E s1. pose proof W as [Wq Wr Wrn Wb Wbn Wl].
  assert (Hin : In (Th t) (runq (vc s v))) by (rewrite E; now left).
  destruct (Wr t v Hin) as [Hst Hvc]. pose proof (Wrn v) as ND. rewrite E in ND. apply NoDup_cons_iff in ND.
  split; [|split; [|split]].
  - apply WF_vc; simpl; auto; rewrite E; simpl; [|tauto]. intros y H. apply Wr. rewrite E. now right.
  - intros q H. apply Wq in H. destruct H, Hst; congruence.
  - intros v' H. subst s1. rewrite vc_updV in H. destruct (Nat.eqb_spec v' v); subst; simpl in H.
    + rewrite E in H. tauto.
    + apply Wr in H. destruct H. congruence.
  - intros v' H. subst s1. rewrite vc_updV in H. destruct (Nat.eqb v' v); simpl in H;
      apply Wb in H; destruct H, Hst; congruence.
Qed.

Lemma WF_enqueue s t w : WF s -> st (th s t) = SLEEPING ->
  (forall q, ~ In t (wqs s q)) -> (forall v, ~ In (Th t) (runq (vc s v))) -> (forall v, ~ In t (sbq (vc s v))) ->
  WF (updT (s_wqs s (updq (wqs s) w (wqs s w ++ [t]))) t (fun r => t_wqo r (Some w))).
Proof.
  intros W Hs Nq Nr Nb.
  change (WF (s_wqs (updT s t (fun r => t_wqo r (Some w))) (updq (wqs s) w (wqs s w ++ [t])))).
  assert (W1 : WF (updT s t (fun r => t_wqo r (Some w)))) by (apply WF_free; auto; simpl; congruence).
  apply (WF_wq _ w _ W1). intros y H. apply in_snoc in H. destruct H as [H|H].
  - now apply (wf_wq _ W1).
  - subst. rewrite th_updT_same. simpl. auto.
Qed.

Lemma WF_slept s t q e : WF s ->
  (forall w, ~ In t (wqs s w)) -> (forall v, ~ In (Th t) (runq (vc s v))) -> (forall v, ~ In t (sbq (vc s v))) ->
  WF (slept s t q e).
Proof.
  intros W Nq Nr Nb. unfold slept.
  assert (W2 : WF (updT s t (fun r => t_wk (t_ts (t_st r SLEEPING) e) WNone))) by (apply WF_free; auto; discriminate).
  destruct q as [w|]; auto. apply WF_enqueue; auto. now rewrite th_updT_same.
Qed.

(* prepare_usleep = the current thread leaves the ring, `slept`, the push on the sleep queue, set_running *)
Lemma WF_prepare_usleep s v t r q e : WF s -> runq (vc s v) = Th t :: r ->
  WF (prepare_usleep s v t q e).
Proof.
  intros W E. destruct (WF_unrun s v t r W E) as (W1 & Nq & Nr & Nb).
  destruct (wf_rq s W t v) as [_ Hvc]; [rewrite E; now left|].
  set (s1 := updV s v (fun x => v_runq x (tl (runq x)))) in *.
  change (WF (set_running (updV (slept s1 t q e) v (fun x => v_slq x (push (tsf (slept s1 t q e)) (slq x) t))) v)).
  apply WF_set_running, WF_slq; [now apply WF_slept|].
  intros x Hx. apply push_sub in Hx. destruct Hx as [->|Hx]; [right|now left].
  rewrite slept_self. destruct q; simpl; split; auto; discriminate.
Qed.

Lemma dequeue_th_other s x ns y : y <> x -> th (dequeue s x ns) y = th s y.
Proof.
  intros H. unfold dequeue. destruct (wqo (th s x)); simpl; unfold updf; apply Nat.eqb_neq in H; now rewrite ?H.
Qed.
Lemma dequeue_th_x s x ns :
  st (th (dequeue s x ns) x) = ns /\ vcp (th (dequeue s x ns) x) = vcp (th s x) /\
  wqo (th (dequeue s x ns) x) = None \/ wqo (th (dequeue s x ns) x) = wqo (th s x) /\ wqo (th s x) = None.
Proof.
  unfold dequeue. destruct (wqo (th s x)) eqn:E; simpl; unfold updf; rewrite ?Nat.eqb_refl; simpl; auto.
Qed.
Lemma dequeue_self s x ns : th (dequeue s x ns) x = t_st (t_wqo (th s x) None) ns.
Proof.
  unfold dequeue. destruct (wqo (th s x)) eqn:E; simpl; unfold updf; rewrite ?Nat.eqb_refl; simpl.
  - reflexivity.
  - destruct (th s x). simpl in E. now subst.
Qed.
Lemma dequeue_vc s x ns : vc (dequeue s x ns) = vc s.
Proof. unfold dequeue. destruct (wqo (th s x)); reflexivity. Qed.
Lemma dequeue_wqs s x ns : WF s -> forall q y, In y (wqs (dequeue s x ns) q) <-> In y (wqs s q) /\ y <> x.
Proof.
  intros W q y. unfold dequeue. destruct (wqo (th s x)) as [w|] eqn:E; simpl.
  - unfold updq. destruct (wq_eqb_spec q w); subst.
    + apply in_remove_iff.
    + split; [|tauto]. intros H. split; auto. intros ->. apply (wf_wq s W) in H. destruct H. congruence.
  - split; [|tauto]. intros H. split; auto. intros ->. apply (wf_wq s W) in H. destruct H. congruence.
Qed.
Lemma dequeue_misc s x ns : lown (dequeue s x ns) = lown s /\ now (dequeue s x ns) = now s /\
  trace (dequeue s x ns) = trace s /\ lkd (dequeue s x ns) = lkd s /\ nvc (dequeue s x ns) = nvc s.
Proof. unfold dequeue. destruct (wqo (th s x)); simpl; auto. Qed.

Lemma th_rq_append s v x : th (rq_append s v x) = th s. Proof. reflexivity. Qed.
Lemma th_updV s v f : th (updV s v f) = th s. Proof. reflexivity. Qed.
Lemma wqs_rq_append s v x : wqs (rq_append s v x) = wqs s. Proof. reflexivity. Qed.
Lemma wqs_updV s v f : wqs (updV s v f) = wqs s. Proof. reflexivity. Qed.
Lemma wqs_updT s t f : wqs (updT s t f) = wqs s. Proof. reflexivity. Qed.
Lemma vc_updT s t f : vc (updT s t f) = vc s. Proof. reflexivity. Qed.
Lemma vc_rq_append s v x v' : vc (rq_append s v x) v' =
  if Nat.eqb v' v then v_runq (vc s v) (runq (vc s v) ++ [Th x]) else vc s v'.
Proof. reflexivity. Qed.

Ltac proj := rewrite ?th_rq_append, ?th_updV, ?wqs_rq_append, ?wqs_updV, ?wqs_updT, ?vc_rq_append, ?vc_updV, ?vc_updT, ?dequeue_vc.

Local Arguments dequeue : simpl never.

Lemma WF_dequeue s x ns : WF s -> st (th s x) = SLEEPING -> ns <> NEW -> WF (dequeue s x ns).
Proof.
  intros W Hs Hn. pose proof W as [Wq Wr _ Wb _ _].
  assert (Nr : forall v, ~ In (Th x) (runq (vc s v))) by (intros v H; apply (runq_state s x v W) in H; tauto).
  assert (Nb : forall v, ~ In x (sbq (vc s v))) by (intros v H; apply Wb in H; destruct H; congruence).
  assert (Nq : forall q, ~ In x (wqs (dequeue s x ns) q)) by (intros q H; apply (dequeue_wqs s x ns W) in H; tauto).
  unfold dequeue in *. revert Nq. destruct (wqo (th s x)) as [w|]; simpl; intros Nq.
  - apply WF_free; auto. apply WF_free; auto; [|simpl; congruence].
    apply WF_wq; auto. intros y H. apply in_remove in H. now apply Wq.
  - apply WF_free; auto.
Qed.

Lemma WF_wake_by s va x : WF s -> st (th s x) = SLEEPING -> WF (wake_by s va x).
Proof.
  intros W Hs. unfold wake_by. destruct (Nat.eqb (vcp (th s x)) va).
  - apply WF_rq_append; [|now rewrite th_updV, dequeue_self..|].
    + apply WF_slq; [apply WF_dequeue; auto; discriminate|]. intros y Hy. left. now apply pop_sub in Hy.
    + rewrite vc_updV_same, dequeue_vc. simpl. intros H. apply (runq_state s x _ W) in H. tauto.
  - assert (W1 : WF (dequeue s x STANDBY)) by (apply WF_dequeue; auto; discriminate).
    pose proof W1 as [Wq Wr Wrn Wb Wbn Wl]. apply WF_vc; cbn; auto.
    + intros y H. apply in_snoc in H. destruct H as [H|H]; [auto|]. subst. now rewrite dequeue_self.
    + apply NoDup_snoc; auto. rewrite dequeue_vc. intros H. apply (wf_sb s W) in H. destruct H. congruence.
Qed.

(* the idler's time-out wake-up of the sleep-queue front *)
Lemma WF_timeout s v x c : WF s -> front (slq (vc s v)) = Some x -> st (th s x) = SLEEPING ->
  let s1 := updV s v (fun y => v_slq y (fst (pop_front (tsf s) (slq y)))) in
  WF (updV (rq_append (updT (dequeue s1 x READY) x (fun y => t_wk y WTimeout)) v x) v (fun y => v_ipc y c)).
Proof.
  intros W Hf Hs s1.
  assert (Hv : vcp (th s x) = v) by (apply (wf_sl s W), front_in; auto).
  apply WF_updV; [apply vkeeps_ipc|]. apply WF_rq_append.
  - apply WF_updT; [apply keeps_wk|]. apply WF_dequeue; [now apply WF_pop_front|exact Hs|discriminate].
  - now rewrite th_updT_same, dequeue_self.
  - rewrite th_updT_same, dequeue_self. exact Hv.
  - rewrite vc_updT, dequeue_vc. subst s1. rewrite vc_updV_same. simpl.
    intros H. apply (runq_state s x _ W) in H. tauto.
Qed.

(* one element of the stand-by batch *)
Lemma WF_eject1 s v x : WF s -> st (th s x) = STANDBY -> vcp (th s x) = v -> (forall v', ~ In x (sbq (vc s v'))) ->
  let s1 := updT s x (fun y => t_st y READY) in
  let s2 := updV s1 v (fun y => v_slq y (fst (pop (tsf s1) (slq y) x))) in
  WF (rq_append s2 v x).
Proof.
  intros W Hs Hv Nb s1 s2.
  assert (Nr : forall v', ~ In (Th x) (runq (vc s v'))) by (intros v' H; apply (runq_state s x v' W) in H; tauto).
  apply WF_rq_append.
  - apply WF_slq; [|intros y Hy; left; now apply pop_sub in Hy].
    apply WF_free; auto; [discriminate|]. intros q H. apply (wf_wq s W) in H. destruct H. congruence.
  - subst s2 s1. simpl. now rewrite updf_same.
  - subst s2 s1. simpl. now rewrite updf_same.
  - subst s2. rewrite vc_updV_same. apply Nr.
Qed.

Lemma WF_eject v : forall l s cnt, WF s ->
  (forall x, In x l -> st (th s x) = STANDBY /\ vcp (th s x) = v) -> NoDup l ->
  (forall x, In x l -> forall v', ~ In x (sbq (vc s v'))) ->
  WF (fst (eject s v l cnt)).
Proof.
  induction l as [|x r IH]; intros s cnt W Hl ND Hn; simpl; auto.
  apply NoDup_cons_iff in ND. destruct ND as [ND1 ND2].
  destruct (Hl x (or_introl eq_refl)) as [Hs Hv].
  apply IH; auto.
  - apply WF_eject1; auto. apply Hn. now left.
  - intros y Hy. assert (y <> x) by (intros ->; auto).
    proj. rewrite th_updT_other; auto. apply Hl. now right.
  - intros y Hy v'. assert (y <> x) by (intros ->; auto).
    proj. intros H'. apply (Hn y (or_intror Hy) v').
    destruct (Nat.eqb_spec v' v); subst; simpl in H'; proj; rewrite ?Nat.eqb_refl in H'; simpl in H'; auto.
Qed.

Lemma eject_same s v l cnt : forall q, wqs (fst (eject s v l cnt)) q = wqs s q.
Proof. revert s cnt. induction l as [|x r IH]; intros s cnt q; simpl; auto. rewrite IH. reflexivity. Qed.

Lemma WF_sbq_nil s v : WF s -> WF (updV s v (fun y => v_sbq y [])).
Proof.
  intros W. pose proof W as [Wq Wr Wrn Wb Wbn Wl]. apply WF_vc; simpl; auto; [intros x []|constructor].
Qed.

(* thread_create of a NEW thread k on vCPU v *)
Lemma WF_create s v k : WF s -> st (th s k) = NEW -> vcp (th s k) = v ->
  WF (rq_append (updT s k (fun x => t_st x READY)) v k).
Proof.
  intros W Hs Hv. pose proof W as [Wq Wr _ Wb _ _].
  assert (Nr : forall v', ~ In (Th k) (runq (vc s v'))) by (intros v' H; apply (runq_state s k v' W) in H; tauto).
  apply WF_rq_append; [|now rewrite th_updT_same..|apply Nr].
  apply WF_free; auto; [discriminate| |]; intros q H; [apply Wq in H|apply Wb in H]; destruct H; congruence.
Qed.

(* thread::die of the current thread t of v *)
Lemma WF_die s v t r : WF s -> runq (vc s v) = Th t :: r ->
  WF (set_running (updT (updV s v (fun x => v_runq x (tl (runq x)))) t (fun x => t_st x DONE)) v).
Proof.
  intros W E. destruct (WF_unrun s v t r W E) as (W1 & Nq & Nr & Nb).
  apply WF_set_running, WF_free; auto. discriminate.
Qed.

Lemma WF_take_err s t a b s1 : WF s -> take_err s t = (a, b, s1) -> WF s1.
Proof.
  intros W H. unfold take_err in H. destruct (err (th s t) =? 0); inversion H; subst; auto.
  apply WF_updT; auto. apply keeps_err.
Qed.
Lemma take_err_vc s t a b s1 : take_err s t = (a, b, s1) -> vc s1 = vc s.
Proof. unfold take_err. destruct (err (th s t) =? 0); intros H; inversion H; subst; reflexivity. Qed.

Lemma WF_do_unlock s va l s' : WF s -> do_unlock s va l = Some s' -> WF s'.
Proof.
  intros W H. destruct (hand_off _ _ _ _ H) as [->|(h & Hi & _ & ->)]; [now apply WF_lown|].
  apply WF_wake_by; [apply WF_updT; [apply keeps_wkerr|now apply WF_lown]|].
  rewrite th_updT_same. exact (proj2 (wf_wq s W h _ Hi)).
Qed.

Lemma WF_tstep s v t r s' : WF s -> runq (vc s v) = Th t :: r -> tstep s v t s' -> WF s'.
Proof.
  intros W E H.
  assert (Lk : forall x o, WF (updT s x (fun y => t_lk y o))) by (intros; apply WF_updT; auto; apply keeps_lk).
  assert (Wk : forall x e w, WF (updT s x (fun y => t_wk (t_err y e) w))) by (intros; apply WF_updT; auto; apply keeps_wkerr).
  destruct H as [| | | |s1 q e p Hr| | |a b s1 a' b' T|a b s1 p T| |a b s1 l k a' b' _ T|l S _ _ U| | | | | | | | | | |];
    try (match goal with |- WF (finish_op _ _ _ _) => apply WF_finish | |- WF (set_pc _ _ _) => apply WF_set_pc end; auto).
  (* left after the seal: t_create, t_yield, t_sleep, t_wait, t_die, the two resumptions, t_acquire, t_handoff, t_unlock,
     t_nf_go, t_nf_bad, t_in_go, t_in_write *)
  - now apply WF_create.
  - apply WF_rotate, WF_updT; auto. apply keeps_err.
  - destruct Hr as [|a b s1 T]; [eapply WF_prepare_usleep; eauto|].
    eapply WF_prepare_usleep; [eapply WF_take_err; eauto|]. erewrite take_err_vc; eauto.
  - apply WF_updV; [apply vkeeps_pend|]. eapply WF_prepare_usleep; eauto.
  - eapply WF_die; eauto.
  - eapply WF_take_err; eauto.
  - eapply WF_take_err; eauto.
  - now apply WF_set_held, WF_lown.
  - apply WF_set_held. eapply WF_take_err; eauto.
  - apply WF_set_held. eapply WF_do_unlock; eauto.
  - apply WF_wake_by; auto. now rewrite th_updT_same.
  - eapply WF_view; [|exact W]. repeat split; auto.
  - apply WF_wake_by; auto. now rewrite th_updT_same.
  - apply WF_updT; auto. apply keeps_err.
Qed.

Lemma WF_istep s v s' : WF s -> istep s v s' -> WF s'.
Proof.
  intros W H. destruct H as [s1 cnt Ej|cnt|x cnt F _ _ Hs| |].
  - apply WF_updV; [apply vkeeps_ipc|]. change s1 with (fst (s1, cnt)). rewrite <- Ej.
    apply WF_eject.
    + now apply WF_sbq_nil.
    + intros x Hx. proj. now apply (wf_sb s W).
    + apply (wf_sbnd s W).
    + intros x Hx v' Hi. rewrite vc_updV in Hi. destruct (Nat.eqb_spec v' v); subst; simpl in Hi; auto.
      apply (wf_sb s W) in Hi. apply (wf_sb s W) in Hx. destruct Hi, Hx. congruence.
  - unfold idle_decide. destruct (_ || _); (apply WF_updV; [apply vkeeps_ipc|]); auto. now apply WF_rotate.
  - now apply WF_timeout.
  - now apply WF_pop_front.
  - apply WF_updV; auto. apply vkeeps_ipc.
Qed.

Lemma WF_sstep s s' : WF s -> sstep s s' -> WF s'.
Proof.
  intros W H. destruct H as [d|v w l S _ U|v t r s' E _ H|v r s' _ _ H].
  - eapply WF_view; [|exact W]. repeat split; auto.
  - apply WF_updV; [apply vkeeps_pend|]. apply WF_set_held. eapply WF_do_unlock; eauto.
  - eapply WF_tstep; eauto.
  - eapply WF_istep; eauto.
Qed.

Lemma WF_init nv kinds home progs : WF (init nv kinds home progs).
Proof.
  constructor; simpl.
  - intros t q [].
  - intros t v H. destruct (Nat.ltb_spec v nv); [|destruct H].
    destruct H as [H|[H|[]]]; [|discriminate]. inversion H; subst.
    destruct (Nat.ltb_spec t nv); [simpl; auto|lia].
  - intros v. destruct (Nat.ltb v nv); [|constructor].
    constructor; [intros [H|[]]; discriminate|]. constructor; [intros []|constructor].
  - intros x v [].
  - intros v. constructor.
  - intros x v [].
Qed.

(* induction over the reachable states, by the effect of the last transition *)
Lemma Reach_ind nv kinds home progs (P : state -> Prop) :
  P (init nv kinds home progs) ->
  (forall s s', Reach nv kinds home progs s -> P s -> sstep s s' -> P s') ->
  forall s, Reach nv kinds home progs s -> P s.
Proof. intros H0 Hs s R. induction R; eauto using step_spec. Qed.

Theorem WF_reachable nv kinds home progs s : Reach nv kinds home progs s -> WF s.
Proof. apply Reach_ind; [apply WF_init|]. intros s0 s' _. apply WF_sstep. Qed.
