(* C03_Step.v — what one transition of the C03 model does, read off the step function once.

   `sstep s s'` lists the transitions by their effect (a pure return, a pure move of the program counter,
   create, yield, sleep, wait, resume, acquire, hand-off, unlock, taking / dropping a thread.lock, the two
   prelocked_thread_interrupt calls, the racy error_number write; the idler's four blocks; the deferred unlock;
   time), with the guards of the step function as premises.  Every invariant proof goes through it.

   `quiet s s'` is the frame the scheduler's queue shuffles satisfy: nothing that the protocol invariants
   read changes (a thread's `st` may, but not to SLEEPING). *)
From Coq Require Import ZArith List Bool Arith Lia.
From PV Require Import Base.U64 C04.C04_Heap C03.C03_Model.
Import ListNotations.
Local Open Scope Z_scope.

Lemma tstate_eqb_spec a b : reflect (a = b) (tstate_eqb a b).
Proof. destruct a, b; simpl; constructor; congruence. Qed.

Lemma wq_eqb_spec a b : reflect (a = b) (wq_eqb a b).
Proof.
  destruct a as [x|x], b as [y|y]; simpl; try (constructor; congruence);
  destruct (Nat.eqb_spec x y); constructor; congruence.
Qed.

Lemma th_updT s t f x : th (updT s t f) x = if Nat.eqb x t then f (th s t) else th s x.
Proof. reflexivity. Qed.
Lemma th_updT_same s t f : th (updT s t f) t = f (th s t).
Proof. rewrite th_updT. now rewrite Nat.eqb_refl. Qed.
Lemma th_updT_other s t f x : x <> t -> th (updT s t f) x = th s x.
Proof. intros H. rewrite th_updT. apply Nat.eqb_neq in H. now rewrite H. Qed.

Lemma take_err_cases s t a b s1 : take_err s t = (a, b, s1) ->
  (a = 0 /\ b = 0 /\ s1 = s /\ err (th s t) = 0) \/
  (a = -1 /\ b = err (th s t) /\ b <> 0 /\ s1 = updT s t (fun r => t_err r 0)).
Proof.
  unfold take_err. destruct (Z.eqb_spec (err (th s t)) 0); intros H; inversion H; subst; auto.
Qed.

(* not one of the two pcs at which a thread sleeps on a wait queue *)
Definition awake (p : pc) : Prop :=
  match p with PWaitSlept _ _ | PLockSlept _ _ => False | _ => True end.
(* awake, holding no thread.lock, outside notify's and thread_interrupt's critical path *)
Definition plain (p : pc) : Prop :=
  match p with
  | PIdle | PYielded _ | PSleepSlept | PParked | PLockTry _ _ | PRetry _ _ | PRetrySlept _ _
  | PNfRead _ _ _ | PNfLocking _ _ _ _ => True
  | _ => False
  end.
(* the pc a thread may sleep at on queue q; condition variables are entered by OWait only *)
Definition fits (q : option wq) (p : pc) : Prop :=
  match q with
  | Some (WMx l) => exists k, p = PLockSlept l k
  | Some (WCv _) => False
  | None => plain p
  end.

Lemma plain_not_wait p c l : plain p -> p <> PWaitSlept c l.
Proof. intros H ->. exact H. Qed.
Lemma fits_not_wait q p c l : fits q p -> p <> PWaitSlept c l.
Proof. intros H ->. destruct q as [[|]|]; simpl in H; auto. destruct H; discriminate. Qed.

Definition tquiet (r r' : thr) : Prop := r' = t_st r (st r') /\ (st r' = SLEEPING -> st r = SLEEPING).
Record quiet (s s' : state) : Prop := mkQuiet {
  q_th : forall y, tquiet (th s y) (th s' y);
  q_wqs : wqs s' = wqs s;
  q_lown : lown s' = lown s;
  q_pend : forall v, pend (vc s' v) = pend (vc s v);
  q_now : now s' = now s;
  q_bad : bad s' = bad s;
  q_trace : trace s' = trace s;
  q_lkd : lkd s' = lkd s;
  q_nvc : nvc s' = nvc s
}.

(* any field but `st` *)
Lemma quiet_proj {A} (f : thr -> A) s s' y :
  quiet s s' -> (forall r x, f (t_st r x) = f r) -> f (th s' y) = f (th s y).
Proof. intros Q Hf. destruct (q_th s s' Q y) as [E _]. rewrite E. apply Hf. Qed.
Lemma quiet_sleeping s s' y : quiet s s' -> st (th s' y) = SLEEPING -> st (th s y) = SLEEPING.
Proof. intros Q. apply (q_th s s' Q y). Qed.

Lemma tquiet_refl r : tquiet r r.
Proof. split; auto. now destruct r. Qed.
Lemma quiet_refl s : quiet s s.
Proof. constructor; auto. intros y. apply tquiet_refl. Qed.
Lemma quiet_trans a b c : quiet a b -> quiet b c -> quiet a c.
Proof.
  intros A B. constructor; try (etransitivity; [apply B|apply A]).
  - intros y. destruct (q_th a b A y) as [E1 S1], (q_th b c B y) as [E2 S2]. split; auto.
    rewrite E2, E1. reflexivity.
Qed.

(* the shuffles, each applied on top of a quiet change *)
Lemma quiet_st a s t x : x <> SLEEPING -> quiet a s -> quiet a (updT s t (fun r => t_st r x)).
Proof.
  intros Hx Q. apply (quiet_trans a s _ Q). constructor; auto. intros y. rewrite th_updT.
  destruct (Nat.eqb_spec y t); subst; [|apply tquiet_refl]. split; [reflexivity|simpl; congruence].
Qed.
Lemma quiet_updV a s v g : (forall r, pend (g r) = pend r) -> quiet a s -> quiet a (updV s v g).
Proof.
  intros K Q. apply (quiet_trans a s _ Q). constructor; auto; [intros y; apply tquiet_refl|].
  intros v'. simpl. unfold updf. destruct (Nat.eqb_spec v' v); subst; auto.
Qed.
Lemma quiet_rq_append a s v x : quiet a s -> quiet a (rq_append s v x).
Proof. apply quiet_updV. reflexivity. Qed.
Lemma quiet_set_running a s v : quiet a s -> quiet a (set_running s v).
Proof.
  intros Q. unfold set_running. destruct (runq (vc s v)) as [|[t|] r]; auto. apply quiet_st; [discriminate|auto].
Qed.
Lemma quiet_rotate a s v : quiet a s -> quiet a (rotate s v).
Proof.
  intros Q. unfold rotate. destruct (runq (vc s v)) as [|e r]; auto.
  apply quiet_set_running, quiet_updV; [reflexivity|]. destruct e; auto. apply quiet_st; [discriminate|auto].
Qed.
Lemma quiet_eject v : forall l a s cnt, quiet a s -> quiet a (fst (eject s v l cnt)).
Proof.
  induction l as [|x r IH]; intros a s cnt Q; simpl; auto.
  apply IH, quiet_rq_append, quiet_updV; [reflexivity|]. apply quiet_st; [discriminate|auto].
Qed.
Lemma quiet_idle_decide a s v cnt : quiet a s -> quiet a (idle_decide s v cnt).
Proof.
  intros Q. unfold idle_decide. destruct (_ || _); apply quiet_updV; try reflexivity; auto. now apply quiet_rotate.
Qed.
(* the outermost block of the goal's state is a shuffle *)
Ltac shuffle :=
  match goal with
  | |- quiet _ (rotate _ _) => apply quiet_rotate
  | |- quiet _ (set_running _ _) => apply quiet_set_running
  | |- quiet _ (rq_append _ _ _) => apply quiet_rq_append
  | |- quiet _ (idle_decide _ _ _) => apply quiet_idle_decide
  | |- quiet _ (updV _ _ _) => apply quiet_updV; [reflexivity|]
  | |- quiet _ (updT _ _ (fun r => t_st r _)) => apply quiet_st; [discriminate|]
  end; apply quiet_refl.

(* a quiet change commutes with what the stepping thread does to its own record afterwards *)
Lemma quiet_updT s s' t f : quiet s s' -> (forall r x, f (t_st r x) = t_st (f r) x) ->
  quiet (updT s t f) (updT s' t f).
Proof.
  intros Q Hf. destruct Q. constructor; auto. intros y. rewrite !th_updT. destruct (Nat.eqb y t); auto.
  destruct (q_th0 t) as [E S]. split.
  - rewrite E at 1. rewrite Hf. f_equal. rewrite E at 2. rewrite Hf. reflexivity.
  - assert (F : forall r, st (f r) = st r) .
    { intros r. assert (Er : r = t_st r (st r)) by now destruct r. rewrite Er at 1. now rewrite Hf. }
    rewrite !F. exact S.
Qed.

(* prepare_usleep = its thread / wait-queue part, then shuffles *)
Definition slept (s : state) (t : tid) (q : option wq) (e : Z) : state :=
  let s2 := updT s t (fun r => t_wk (t_ts (t_st r SLEEPING) e) WNone) in
  match q with
  | Some w => updT (s_wqs s2 (updq (wqs s2) w (wqs s2 w ++ [t]))) t (fun r => t_wqo r (Some w))
  | None => s2
  end.
Lemma slept_other s t q e y : y <> t -> th (slept s t q e) y = th s y.
Proof. intros H. unfold slept. destruct q; simpl; unfold updf; apply Nat.eqb_neq in H; now rewrite ?H. Qed.
Lemma slept_self s t q e :
  th (slept s t q e) t =
  let r := t_wk (t_ts (t_st (th s t) SLEEPING) e) WNone in match q with Some w => t_wqo r (Some w) | None => r end.
Proof. unfold slept. destruct q; simpl; unfold updf; now rewrite ?Nat.eqb_refl. Qed.
Lemma slept_wqs s t q e w y : In y (wqs (slept s t q e) w) <-> In y (wqs s w) \/ (y = t /\ q = Some w).
Proof.
  unfold slept. destruct q as [w0|]; simpl; [|intuition congruence]. unfold updq.
  destruct (wq_eqb_spec w w0); subst; rewrite ?in_app_iff; simpl; intuition congruence.
Qed.
Lemma quiet_prepare s v t q e : quiet (slept s t q e) (prepare_usleep s v t q e).
Proof.
  unfold prepare_usleep. apply quiet_set_running, quiet_updV; [reflexivity|].
  destruct q; exact (quiet_updV _ _ v (fun x => v_runq x (tl (runq x))) (fun _ => eq_refl) (quiet_refl _)).
Qed.
(* wake_by = dequeue, then shuffles *)
Lemma quiet_wake_by s va x : exists ns, ns <> SLEEPING /\ quiet (dequeue s x ns) (wake_by s va x).
Proof.
  unfold wake_by. destruct (Nat.eqb _ va); [exists READY|exists STANDBY]; (split; [discriminate|]).
  - apply quiet_rq_append, quiet_updV; [reflexivity|apply quiet_refl].
  - apply quiet_updV; [reflexivity|apply quiet_refl].
Qed.

(* unlock: the owner field is cleared, or handed to the head of the mutex's queue, which is woken *)
Lemma hand_off s va l s' :
  do_unlock s va l = Some s' ->
  s' = s_lown s (updf (lown s) l None) \/
  exists h, In h (wqs s (WMx l)) /\ lk (th s h) = None /\
    s' = wake_by (updT (s_lown s (updf (lown s) l (Some h))) h (fun r => t_wk (t_err r (-1)) WHandoff)) va h.
Proof.
  unfold do_unlock, mutex_unlock. destruct (lkd s l); [|intros H; inversion H; auto].
  destruct (wqs s (WMx l)) as [|h q]; [intros H; inversion H; auto|].
  destruct (lk (th s h)) eqn:El; [discriminate|]. intros H; inversion H. right. exists h. split; [now left|auto].
Qed.

Section ThreadStep.
Variables (s : state) (v : vid) (t : tid).

Definition at_op (o : op) : Prop := tpc (th s t) = PIdle /\ exists os, prog (th s t) = o :: os.

(* t's error number cannot be a leftover -1: either t was not asleep on a wait queue, or
   set_error_number has just consumed it *)
Inductive resumed : state -> Prop :=
| r_run : awake (tpc (th s t)) -> resumed s
| r_take a b s1 : take_err s t = (a, b, s1) -> resumed s1.

(* moves of the program counter that change nothing else *)
Inductive goto : pc -> Prop :=
| g_in_lock k e : at_op (OInterrupt k e) -> goto (PInLock k e)
| g_in_out k e stk : at_op (OInterrupt k e) -> goto (PInOut k e stk)
| g_nf_locking c x q all n : awake (tpc (th s t)) -> wqs s (WCv c) = x :: q -> goto (PNfLocking c x all n)
| g_nf_go c x all n : tpc (th s t) = PNfLocked c x all n -> hd_error (wqs s (WCv c)) = Some x -> goto (PNfGo c x all n)
| g_nf_backoff c x all n : tpc (th s t) = PNfLocked c x all n -> goto (PNfBackoff c x all n)
| g_in_skip k e stk : tpc (th s t) = PInLocked k e -> goto (PInUnlock k e (Some stk))
| g_in_write k e stk : tpc (th s t) = PInOut k e stk -> goto (PInWrite k e).

Lemma goto_not_wait p c l : goto p -> p <> PWaitSlept c l.
Proof. destruct 1; discriminate. Qed.

Inductive tstep : state -> Prop :=
| t_ret a b : awake (tpc (th s t)) -> tstep (finish_op s t a b)
| t_goto p : goto p -> tstep (set_pc s t p)
| t_create k : tpc (th s t) = PIdle -> st (th s k) = NEW -> vcp (th s k) = v ->
    tstep (finish_op (rq_append (updT s k (fun x => t_st x READY)) v k) t 0 0)
| t_yield p : awake (tpc (th s t)) -> plain p ->
    tstep (set_pc (rotate (updT s t (fun x => t_err x 0)) v) t p)
| t_sleep s1 q e p : resumed s1 -> lk (th s t) = None -> fits q p ->
    tstep (set_pc (prepare_usleep s1 v t q e) t p)
| t_wait c l d : at_op (OWait c l d) -> held (th s t) l = true -> lk (th s t) = None ->
    tstep (set_pc (updV (prepare_usleep s v t (Some (WCv c)) (expiration_of s d)) v
                        (fun x => v_pend x (Some (t, l)))) t (PWaitSlept c l))
| t_die : tpc (th s t) = PIdle ->
    tstep (set_running (updT (updV s v (fun x => v_runq x (tl (runq x)))) t (fun x => t_st x DONE)) v)
| t_woke_ret a b s1 a' b' : take_err s t = (a, b, s1) -> tstep (finish_op s1 t a' b')
| t_woke_goto a b s1 p : take_err s t = (a, b, s1) -> plain p -> tstep (set_pc s1 t p)
| t_acquire l a b : awake (tpc (th s t)) -> lown s l = None ->
    tstep (finish_op (set_held (s_lown s (updf (lown s) l (Some t))) t l true) t a b)
| t_handoff a b s1 l k a' b' : tpc (th s t) = PLockSlept l k -> take_err s t = (a, b, s1) -> lown s1 l = Some t ->
    tstep (finish_op (set_held s1 t l true) t a' b')
| t_unlock l S : at_op (OUnlock l) -> held (th s t) l = true -> do_unlock s v l = Some S ->
    tstep (finish_op (set_held S t l false) t 0 0)
| t_nf_lock c x all n : tpc (th s t) = PNfLocking c x all n -> lk (th s x) = None ->
    tstep (set_pc (updT s x (fun y => t_lk y (Some t))) t (PNfLocked c x all n))
| t_nf_backoff c x all n : tpc (th s t) = PNfBackoff c x all n ->
    tstep (set_pc (updT s x (fun y => t_lk y None)) t (PNfRead c all n))
| t_nf_go c x all n : tpc (th s t) = PNfGo c x all n -> st (th s x) = SLEEPING ->
    tstep (set_pc (wake_by (updT s x (fun y => t_wk (t_err y (-1)) (WNotified t))) v x) t (PNfUnlock c x all n))
| t_nf_bad c x all n : tpc (th s t) = PNfGo c x all n -> st (th s x) <> SLEEPING ->
    tstep (set_pc (s_bad s) t (PNfUnlock c x all n))
| t_nf_next c x n : tpc (th s t) = PNfUnlock c x true n ->
    tstep (set_pc (updT s x (fun y => t_lk y None)) t (PNfRead c true (S n)))
| t_nf_done c x n : tpc (th s t) = PNfUnlock c x false n ->
    tstep (finish_op (updT s x (fun y => t_lk y None)) t (Z.of_nat x) 0)
| t_in_lock k e : tpc (th s t) = PInLock k e -> lk (th s k) = None ->
    tstep (set_pc (updT s k (fun y => t_lk y (Some t))) t (PInLocked k e))
| t_in_go k e : tpc (th s t) = PInLocked k e -> st (th s k) = SLEEPING -> 0 < e ->
    tstep (set_pc (wake_by (updT s k (fun y => t_wk (t_err y e) WInterrupted)) v k) t (PInUnlock k e None))
| t_in_done k e : tpc (th s t) = PInUnlock k e None ->
    tstep (finish_op (updT s k (fun y => t_lk y None)) t 0 0)
| t_in_out k e stk : tpc (th s t) = PInUnlock k e (Some stk) ->
    tstep (set_pc (updT s k (fun y => t_lk y None)) t (PInOut k e stk))
| t_in_write k e : tpc (th s t) = PInWrite k e -> 0 < e ->
    tstep (finish_op (updT s k (fun y => t_err y e)) t 0 0).

Lemma notify_read_spec c all n : awake (tpc (th s t)) -> tstep (notify_read s t c all n).
Proof.
  intros A. unfold notify_read. destruct (wqs s (WCv c)) as [|x q] eqn:E.
  - destruct all; now apply t_ret.
  - apply t_goto. eapply g_nf_locking; eauto.
Qed.

Lemma lock_try_spec l k s' : awake (tpc (th s t)) -> lock_try s v t l k = Some s' -> tstep s'.
Proof.
  intros A H. unfold lock_try in H. destruct (lown s l) eqn:Eo.
  - destruct (lkd s l); [|discriminate]. destruct (lk (th s t)) eqn:El; [discriminate|]. inversion H; subst.
    apply t_sleep; [now apply r_run|exact El|simpl; eauto].
  - inversion H; subst. unfold lock_done. destruct k; simpl; [|destruct (translate ret en)]; now apply t_acquire.
Qed.

Lemma op_step_spec o os s' :
  tpc (th s t) = PIdle -> prog (th s t) = o :: os -> op_step s v t o = Some s' -> tstep s'.
Proof.
  intros P Pr H.
  assert (A : awake (tpc (th s t))) by (rewrite P; exact I).
  assert (O : at_op o) by (split; eauto).
  destruct o; simpl in H.
  - destruct (_ && _ && _) eqn:C; inversion H; subst; [|now apply t_ret].
    apply andb_true_iff in C. destruct C as [C C2]. apply andb_true_iff in C. destruct C as [C _].
    destruct (tstate_eqb_spec (st (th s k)) NEW); [|discriminate]. apply Nat.eqb_eq in C2. now apply t_create.
  - inversion H; subst. now apply t_yield.
  - destruct (_ || _).
    + inversion H; subst. now apply t_yield.
    + destruct (lk (th s t)) eqn:El; [discriminate|]. inversion H; subst.
      apply t_sleep; [now apply r_run|exact El|exact I].
  - destruct (alive s k && (0 <? e)).
    + destruct (tstate_eqb (st (th s k)) SLEEPING); inversion H; subst; apply t_goto; now constructor.
    + inversion H; subst. now apply t_ret.
  - destruct (held (th s t) l); [inversion H; subst; now apply t_ret|]. eapply lock_try_spec; eauto.
  - destruct (held (th s t) l) eqn:Hh; [|inversion H; subst; now apply t_ret].
    destruct (do_unlock s v l) eqn:U; [|discriminate]. inversion H; subst. now apply t_unlock.
  - destruct (held (th s t) l) eqn:Hh; [|inversion H; subst; now apply t_ret].
    destruct (lk (th s t)) eqn:El; [discriminate|]. inversion H; subst. now apply t_wait.
  - inversion H; subst. now apply notify_read_spec.
  - inversion H; subst. now apply notify_read_spec.
  - inversion H; subst. now apply t_ret.
Qed.

Lemma thread_step_spec s' : thread_step s v t = Some s' -> tstep s'.
Proof.
  intros H. unfold thread_step in H. destruct (tpc (th s t)) eqn:P.
  - destruct (prog (th s t)) as [|o os] eqn:Pr; [|eapply op_step_spec; eauto].
    destruct (lk (th s t)) eqn:El; [discriminate|]. destruct (Nat.ltb t (nvc s)); inversion H; subst.
    + apply t_sleep; [apply r_run; rewrite P; exact I|exact El|exact I].
    + now apply t_die.
  - destruct as_sleep; [destruct (err (th s t) =? 0)|]; inversion H; subst; apply t_ret; rewrite P; exact I.
  - destruct (take_err s t) as [[a b] s1] eqn:T. inversion H; subst. eapply t_woke_ret; eauto.
  - destruct (lk (th s t)) eqn:El; [discriminate|]. destruct (take_err s t) as [[a b] s1] eqn:T. inversion H; subst.
    apply t_sleep; [eapply r_take; eauto|exact El|exact I].
  - destruct (take_err s t) as [[a b] s1] eqn:T. inversion H; subst. eapply t_woke_goto; eauto. exact I.
  - eapply lock_try_spec; eauto. rewrite P. exact I.
  - destruct (take_err s t) as [[a b] s1] eqn:T.
    assert (F : forall r en, r <> 0 -> tstep (lock_done s1 t l k r en)).
    { intros r en Hr. apply Z.eqb_neq in Hr. unfold lock_done. destruct k; rewrite Hr.
      - eapply t_woke_ret; eauto.
      - eapply t_woke_goto; eauto. exact I. }
    destruct ((a <? 0) && (b =? -1)) eqn:Cnd.
    + destruct (lown s1 l) as [o|] eqn:Eo; [destruct (Nat.eqb_spec o t)|]; inversion H; subst.
      * unfold lock_done. destruct k; simpl; [|destruct (translate ret en)]; eapply t_handoff; eauto.
      * eapply t_woke_goto; eauto. exact I.
      * eapply t_woke_goto; eauto. exact I.
    + destruct (translate a b) as [x y] eqn:Tr. inversion H; subst. apply F.
      (* the hand-off result -1/-1 was excluded by the test above, so translate does not yield 0 *)
      intros ->. unfold translate in Tr.
      destruct (take_err_cases _ _ _ _ _ T) as [(-> & -> & _)|(-> & _ & _ & _)]; simpl in Tr; [inversion Tr|].
      destruct (Z.eqb_spec b (-1)); [subst; simpl in Cnd; discriminate|inversion Tr].
  - destruct (sat_add (now s) 1000 <=? now s).
    + inversion H; subst. apply t_yield; [rewrite P|]; exact I.
    + destruct (lk (th s t)) eqn:El; [discriminate|]. inversion H; subst.
      apply t_sleep; [apply r_run; rewrite P; exact I|exact El|exact I].
  - destruct (take_err s t) as [[a b] s1] eqn:T. inversion H; subst. eapply t_woke_goto; eauto. exact I.
  - inversion H; subst. apply notify_read_spec. rewrite P. exact I.
  - destruct (lk (th s x)) eqn:El; [discriminate|]. inversion H; subst. now apply t_nf_lock.
  - destruct (wqs s (WCv c)) as [|h q] eqn:Eq; [|destruct (Nat.eqb_spec h x)]; inversion H; subst; apply t_goto.
    + now apply g_nf_backoff.
    + apply g_nf_go; auto. now rewrite Eq.
    + now apply g_nf_backoff.
  - inversion H; subst. now apply t_nf_backoff.
  - destruct (tstate_eqb_spec (st (th s x)) SLEEPING); inversion H; subst; [now apply t_nf_go|now apply t_nf_bad].
  - destruct all; inversion H; subst; [now apply t_nf_next|eapply t_nf_done; eauto].
  - destruct (lk (th s k)) eqn:El; [discriminate|]. inversion H; subst. now apply t_in_lock.
  - destruct (tstate_eqb_spec (st (th s k)) SLEEPING); [destruct (Z.ltb_spec 0 e)|]; simpl in H; inversion H; subst;
      [now apply t_in_go|apply t_goto; now apply g_in_skip..].
  - destruct o; inversion H; subst; [now apply t_in_out|eapply t_in_done; eauto].
  - destruct (tstate_eqb _ READY && (err (th s k) =? 0)); inversion H; subst.
    + apply t_goto. eapply g_in_write; eauto.
    + apply t_ret. rewrite P. exact I.
  - destruct (Z.ltb_spec 0 e); inversion H; subst; [now apply t_in_write|apply t_ret; rewrite P; exact I].
Qed.

End ThreadStep.

(* the idler's time-out wake-up of x: dequeue_ready_atomic, reason "timer" *)
Definition timed_out (s : state) (x : tid) : state := updT (dequeue s x READY) x (fun y => t_wk y WTimeout).

Inductive istep (s : state) (v : vid) : state -> Prop :=
| i_batch s1 cnt : eject (updV s v (fun y => v_sbq y [])) v (sbq (vc s v)) 0 = (s1, cnt) ->
    istep s v (updV s1 v (fun y => v_ipc y (IExpire cnt)))
| i_decide cnt : istep s v (idle_decide s v cnt)
| i_timeout x cnt : front (slq (vc s v)) = Some x -> ts (th s x) <= now s -> lk (th s x) = None ->
    st (th s x) = SLEEPING ->
    istep s v (updV (rq_append (timed_out (updV s v (fun y => v_slq y (fst (pop_front (tsf s) (slq y))))) x) v x) v
                    (fun y => v_ipc y (IExpire (S cnt))))
| i_stale : istep s v (updV s v (fun y => v_slq y (fst (pop_front (tsf s) (slq y)))))
| i_wake : istep s v (updV s v (fun y => v_ipc y IStart)).

Lemma idler_step_spec s v s' : idler_step s v = Some s' -> istep s v s'.
Proof.
  intros H. unfold idler_step in H. destruct (vipc (vc s v)).
  - destruct (eject _ v _ 0) as [s1 cnt] eqn:Ej. inversion H; subst. now apply i_batch.
  - destruct (front (slq (vc s v))) as [x|] eqn:F; [|inversion H; subst; apply i_decide].
    destruct (Z.ltb_spec (now s) (ts (th s x))); [inversion H; subst; apply i_decide|].
    destruct (lk (th s x)) eqn:El; [discriminate|].
    match type of H with context [tstate_eqb ?a SLEEPING] => destruct (tstate_eqb_spec a SLEEPING) as [Hs|Hs] end;
      inversion H; subst; [now apply i_timeout|apply i_stale].
  - inversion H; subst. apply i_wake.
Qed.

Inductive sstep (s : state) : state -> Prop :=
| s_tick d : sstep s (tick s d)
| s_defer v w l S : pend (vc s v) = Some (w, l) -> do_unlock s v l = Some S ->
    sstep s (updV (set_held S w l false) v (fun y => v_pend y None))
| s_thread v t r s' : runq (vc s v) = Th t :: r -> pend (vc s v) = None -> tstep s v t s' -> sstep s s'
| s_idler v r s' : runq (vc s v) = Idl :: r -> pend (vc s v) = None -> istep s v s' -> sstep s s'.

Lemma step_spec s a s' : step s a = Some s' -> sstep s s'.
Proof.
  destruct a as [v|d]; simpl; [|intros H; inversion H; apply s_tick].
  unfold vstep. destruct (pend (vc s v)) as [[w l]|] eqn:Pn.
  - destruct (do_unlock s v l) eqn:U; [|discriminate]. intros H; inversion H; subst. now apply s_defer.
  - destruct (runq (vc s v)) as [|[t|] r] eqn:E; [discriminate| |]; intros H.
    + eapply s_thread; eauto. now apply thread_step_spec.
    + eapply s_idler; eauto. now apply idler_step_spec.
Qed.
