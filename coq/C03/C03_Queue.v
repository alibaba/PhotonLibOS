(* C03_Queue.v — the queue side of "no lost notification": a thread that has executed the enqueue
   block of wait(c,l) and that nobody has woken (ghost wk = WNone) is a member of c's wait queue,
   in every reachable state. *)
From Coq Require Import ZArith List Bool Arith Lia.
From PV Require Import Base.U64 C04.C04_Heap C03.C03_Model C03.C03_Step C03.C03_WF C03.C03_Proofs.
Import ListNotations.
Local Open Scope Z_scope.

Definition WK (s : state) : Prop :=
  forall t c l, tpc (th s t) = PWaitSlept c l -> wk (th s t) = WNone -> In t (wqs s (WCv c)).

(* frame: pcs and wake ghosts unchanged, queues only grow *)
Definition wk_mono (s s' : state) : Prop :=
  (forall y, tpc (th s' y) = tpc (th s y) /\ wk (th s' y) = wk (th s y)) /\
  (forall q y, In y (wqs s q) -> In y (wqs s' q)).
Lemma WK_frame s s' : wk_mono s s' -> WK s -> WK s'.
Proof.
  intros (A1 & A2) K t c l Hp Hw. destruct (A1 t) as [E1 E2]. rewrite E1 in Hp. rewrite E2 in Hw. eauto.
Qed.
Lemma wm_refl s : wk_mono s s. Proof. split; auto. Qed.
Lemma wm_trans a b c : wk_mono a b -> wk_mono b c -> wk_mono a c.
Proof.
  intros (A1 & A2) (B1 & B2). split; auto.
  intros y. destruct (A1 y), (B1 y). split; congruence.
Qed.
Lemma wm_quiet a b c : quiet b c -> wk_mono a b -> wk_mono a c.
Proof.
  intros Q H. apply (wm_trans a b c H). split; [|rewrite (q_wqs b c Q); auto].
  intros y. now rewrite (quiet_proj tpc b c y Q), (quiet_proj wk b c y Q).
Qed.
Lemma wm_view a s s' : th s' = th s -> wqs s' = wqs s -> wk_mono a s -> wk_mono a s'.
Proof. intros E1 E2 H. apply (wm_trans a s _ H). unfold wk_mono. rewrite E1, E2. auto. Qed.
Definition wkeeps (f : thr -> thr) : Prop := forall r, tpc (f r) = tpc r /\ wk (f r) = wk r.
Lemma wm_updT a s t f : wkeeps f -> wk_mono a s -> wk_mono a (updT s t f).
Proof.
  intros K H. apply (wm_trans a s _ H). split; auto. intros y. rewrite th_updT. destruct (Nat.eqb y t) eqn:E; auto.
  apply Nat.eqb_eq in E. subst. apply K.
Qed.
Lemma wm_take_err a s t x y s1 : take_err s t = (x, y, s1) -> wk_mono a s -> wk_mono a s1.
Proof.
  intros T. destruct (take_err_cases _ _ _ _ _ T) as [(_ & _ & -> & _)|(_ & _ & _ & ->)]; auto.
  apply wm_updT. intros r; auto.
Qed.

Ltac wm_peel :=
  repeat match goal with
  | |- wk_mono ?a ?a => apply wm_refl
  | T : take_err _ _ = (_, _, ?s1) |- wk_mono _ ?s1 => apply (wm_take_err _ _ _ _ _ _ T)
  | |- wk_mono _ (fst (eject _ _ _ _)) => eapply wm_quiet; [apply quiet_eject, quiet_refl|]
  | |- wk_mono _ (s_bad ?s) => apply (wm_view _ s); [reflexivity..|]
  | |- wk_mono _ (s_lown ?s _) => apply (wm_view _ s); [reflexivity..|]
  | |- wk_mono _ (tick ?s _) => apply (wm_view _ s); [reflexivity..|]
  | |- wk_mono _ (updV ?s _ _) => apply (wm_view _ s); [reflexivity..|]
  | |- wk_mono _ (set_held _ _ _ _) => apply wm_updT; [intros ?; split; reflexivity|]
  | |- wk_mono _ _ => eapply wm_quiet; [shuffle|]
  | |- wk_mono _ (updT _ _ _) => apply wm_updT; [intros ?; split; reflexivity|]
  end.
Ltac wk_frame K := eapply WK_frame; [|exact K]; wm_peel.

(* pc changes of the stepping thread *)
Lemma WK_set_pc s t p : (forall c l, p <> PWaitSlept c l) -> WK s -> WK (set_pc s t p).
Proof.
  intros Hp K y c l H1 H2. unfold set_pc in *. rewrite th_updT in H1, H2. rewrite wqs_updT.
  destruct (Nat.eqb y t) eqn:E; [simpl in H1; exfalso; eapply Hp; eauto|]. eauto.
Qed.
Lemma WK_finish s t a b : WK s -> WK (finish_op s t a b).
Proof.
  intros K y c l H1 H2. unfold finish_op in *. rewrite th_updT in H1, H2. rewrite wqs_updT.
  destruct (Nat.eqb y t) eqn:E; [simpl in H1; discriminate|]. simpl. eauto.
Qed.

(* the current thread goes to sleep; at PWaitSlept c only on c's queue *)
Lemma WK_sleep s v t q e p : (forall c l, p = PWaitSlept c l -> q = Some (WCv c)) -> WK s ->
  WK (set_pc (prepare_usleep s v t q e) t p).
Proof.
  intros Hp K. assert (X : WK (set_pc (slept s t q e) t p)).
  { intros y c l H1 H2. unfold set_pc in *. rewrite th_updT in H1, H2. rewrite wqs_updT. apply slept_wqs.
    destruct (Nat.eqb_spec y t); subst; simpl in H1; [right; split; eauto|left].
    rewrite slept_other in H1, H2 by auto. eauto. }
  eapply WK_frame; [|exact X]. eapply wm_quiet; [|apply wm_refl].
  exact (quiet_updT _ _ t (fun r => t_pc r p) (quiet_prepare s v t q e) (fun _ _ => eq_refl)).
Qed.

(* waking x: its ghost says "woken", and it leaves its queue *)
Lemma wb_wqs s va x q y : WF s -> (In y (wqs (wake_by s va x) q) <-> In y (wqs s q) /\ y <> x).
Proof. intros W. unfold wake_by. destruct (Nat.eqb _ va); proj; apply dequeue_wqs; auto. Qed.
Lemma WK_wake s va x e w : WF s -> w <> WNone -> WK s ->
  WK (wake_by (updT s x (fun y => t_wk (t_err y e) w)) va x).
Proof.
  intros W Hw K y c l H1 H2.
  assert (W1 : WF (updT s x (fun y => t_wk (t_err y e) w))) by (apply WF_updT; auto; apply keeps_wkerr).
  apply wb_wqs; auto. destruct (quiet_wake_by (updT s x (fun y => t_wk (t_err y e) w)) va x) as (ns & _ & Q).
  rewrite (quiet_proj tpc _ _ y Q) in H1 by reflexivity. rewrite (quiet_proj wk _ _ y Q) in H2 by reflexivity.
  destruct (Nat.eq_dec y x) as [->|n].
  - rewrite dequeue_self, th_updT_same in H2. simpl in H2. congruence.
  - rewrite dequeue_th_other, th_updT_other in H1, H2 by auto. rewrite wqs_updT. split; eauto.
Qed.

Lemma WK_do_unlock s va l s' : WF s -> WK s -> do_unlock s va l = Some s' -> WK s'.
Proof.
  intros W K H. destruct (hand_off _ _ _ _ H) as [->|(h & _ & _ & ->)]; [wk_frame K|].
  apply WK_wake; [now apply WF_lown|discriminate|wk_frame K].
Qed.

Lemma WK_tstep s v t s' : WF s -> WK s -> tstep s v t s' -> WK s'.
Proof.
  intros W K H.
  destruct H as [|p Hg| |p _ Hp|s1 q e p Hr _ Hf| | | |a b s1 p T Hp| | |l S _ _ U| | |c x all n _ Hs| | | | |k e _ Hs| | |];
    try solve [match goal with |- WK (finish_op _ _ _ _) => apply WK_finish | |- WK (set_pc _ _ _) => apply WK_set_pc; [discriminate|] | _ => idtac end; wk_frame K].
  (* left: t_goto, t_yield, t_sleep, t_wait, t_woke_goto, t_unlock, t_nf_go, t_in_go *)
  - apply WK_set_pc; auto. intros c l. exact (goto_not_wait _ _ _ c l Hg).
  - apply WK_set_pc; [auto using plain_not_wait|wk_frame K].
  - apply WK_sleep; [intros c l ->; destruct (fits_not_wait _ _ c l Hf eq_refl)|]. destruct Hr; wk_frame K.
  - eapply WK_frame; [apply (wm_view _ _ _ eq_refl eq_refl), wm_refl|]. apply WK_sleep; auto. intros c0 l0 E; now inversion E.
  - apply WK_set_pc; [auto using plain_not_wait|wk_frame K].
  - apply WK_finish. eapply WK_frame; [apply wm_updT, wm_refl; intros ?; split; reflexivity|]. eapply WK_do_unlock; eauto.
  - apply WK_set_pc; [discriminate|]. apply WK_wake; auto. discriminate.
  - apply WK_set_pc; [discriminate|]. apply WK_wake; auto. discriminate.
Qed.

(* the time-out wake-up: dequeue, then wk := WTimeout *)
Lemma WK_timed_out s x : WF s -> WK s -> WK (timed_out s x).
Proof.
  intros W K y c0 l H1 H2. unfold timed_out in *. rewrite wqs_updT.
  rewrite th_updT in H1, H2. destruct (Nat.eqb_spec y x); subst; [simpl in H2; discriminate|].
  rewrite dequeue_th_other in H1, H2; auto. apply dequeue_wqs; [exact W|]. split; [eapply K; eauto|auto].
Qed.

Lemma WK_sstep s s' : WF s -> WK s -> sstep s s' -> WK s'.
Proof.
  intros W K H. destruct H as [d|v w l S _ U|v t r s' _ _ H|v r s' _ _ H].
  - wk_frame K.
  - eapply WK_frame; [|eapply WK_do_unlock; eauto]. wm_peel.
  - eapply WK_tstep; eauto.
  - destruct H as [s1 cnt Ej| | | |]; try solve [wk_frame K].
    + change s1 with (fst (s1, cnt)). rewrite <- Ej. wk_frame K.
    + match goal with |- WK (updV (rq_append ?S _ _) _ _) => apply (WK_frame S); [wm_peel|] end.
      apply WK_timed_out; [|wk_frame K]. now apply WF_pop_front.
Qed.

Theorem WK_reachable nv kinds home progs s : Reach nv kinds home progs s -> WK s.
Proof.
  apply Reach_ind.
  - intros t c l H. simpl in H. destruct (Nat.ltb t nv); discriminate.
  - intros s0 s' R. apply WK_sstep. eapply WF_reachable; eauto.
Qed.

(* cv_no_lost_notify: N owns the lock l; every other thread W that has called wait(c,l) and has not been
   woken (by a notification, its timer or an interrupt) IS on c's queue — so N's notify_one, which reads
   the queue head, cannot find the queue empty because of W *)
Theorem cv_no_lost_notify nv kinds home progs s N W c l :
  Reach nv kinds home progs s -> lown s l = Some N -> N <> W ->
  (wait_called s W c l \/ wait_enqueued s W c l) -> wk (th s W) = WNone \/ wait_called s W c l ->
  wait_enqueued s W c l /\ (wk (th s W) = WNone -> In W (wqs s (WCv c))).
Proof.
  intros R Ho Hne Hw _.
  assert (Hq : wait_enqueued s W c l).
  { destruct Hw as [Hc|]; auto. exfalso. eapply cv_notifier_excludes_unqueued_waiter; eauto. }
  split; auto. intros Hk. eapply WK_reachable; eauto.
Qed.

(* cv_atomic_release: there is no reachable state in which a waiter of wait(c,l) has given up the lock
   (lown l <> Some t) and is neither on the queue nor already woken *)
Theorem cv_atomic_release nv kinds home progs s t c l :
  Reach nv kinds home progs s -> (wait_called s t c l \/ wait_enqueued s t c l) ->
  lown s l <> Some t -> wait_enqueued s t c l /\ (In t (wqs s (WCv c)) \/ wk (th s t) <> WNone).
Proof.
  intros R Hw Hn.
  assert (Hq : wait_enqueued s t c l).
  { destruct Hw as [Hc|]; auto. exfalso. apply Hn. eapply cv_lock_kept_until_enqueued; eauto. }
  split; auto. destruct (wk (th s t)) eqn:E; try (right; discriminate). left. eapply WK_reachable; eauto.
Qed.
