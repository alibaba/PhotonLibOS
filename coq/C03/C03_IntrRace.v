(* C03_IntrRace.v — a finding of the faithful fine-grained model (3 vCPUs; not a single-vCPU behaviour):
   thread_interrupt (thread.cpp 1476-1492) reads `th->state` without the lock and, on its `out:` path,
   tests `th->error_number == 0` and then writes it — three unlocked accesses.  Between the test and the
   write the target can run, call cv.wait, fall asleep and be picked by notify_one (error_number := -1);
   the late write replaces the -1 by the interrupter's errno: wait() returns -1/EINTR although
   notify_one() returned this very thread — the notification is consumed and lost.
   (Outside C03's quantifier domain — the property text has no interrupts — and the same overwrite after a
   mutex hand-off concerns C01/C04; recorded here because the model exhibits it.) *)
From Coq Require Import ZArith List Bool Arith Lia.
From PV Require Import Base.U64 C04.C04_Heap C03.C03_Model C03.C03_Step C03.C03_WF C03.C03_Proofs.
Import ListNotations.
Local Open Scope Z_scope.

(* vCPU 0: main T0 creates the waiter W = T3.  vCPU 1: main T1 = interrupter.  vCPU 2: main T2 = notifier. *)
Definition race_progs (t : tid) : list op :=
  match t with
  | 0%nat => [OCreate 3%nat]
  | 1%nat => [OInterrupt 3%nat 4]
  | 2%nat => [ONotifyOne 1%nat]
  | 3%nat => [OLock 0%nat; OWait 1%nat 0%nat 1000; OUnlock 0%nat]
  | _ => []
  end.
Definition race_init := init 3 (fun _ => KSpin) (fun _ => O) race_progs.
Definition race_sched : list label :=
  let v0 := LV 0%nat in let v1 := LV 1%nat in let v2 := LV 2%nat in
  [v0;                    (* T0: create W (READY, error_number = 0) *)
   v1; v1;                (* I: reads W.state = READY; reads W.error_number == 0 *)
   v0;                    (* T0 parks *)
   v0; v0;                (* idler of vCPU 0: stand-by batch, nothing expired -> yields to W *)
   v0; v0; v0;            (* W: lock; wait = enqueue + sleep; deferred unlock *)
   v2; v2; v2; v2; v2;    (* N: read head = W, lock W, re-check, interrupt(W, -1) -> STANDBY, unlock: returns W *)
   v1;                    (* I: writes W.error_number := 4 over the -1 *)
   v0; v0; v0;            (* idler of vCPU 0 resumes W *)
   v0; v0; v0; v0; v0; v0 (* W: resumes with errno 4, re-locks, wait returns -1/4, unlock *)].
Definition race_final := after race_init race_sched.

Theorem notified_returns_0_refuted_with_interrupts :
  exists s, Reach 3 (fun _ => KSpin) (fun _ => O) race_progs s /\
    (exists e, In e (trace s) /\ ev_t e = 2%nat /\ ev_i e = 0%nat /\ ev_ret e = 3)            (* notify_one() returned W *)
    /\ (exists e, In e (trace s) /\ ev_t e = 3%nat /\ ev_i e = 1%nat /\ ev_ret e = -1 /\ ev_err e = 4). (* W's wait: -1/EINTR *)
Proof.
  exists race_final. split; [apply reach_after, reach_init|].
  assert (E : map (fun e => (ev_t e, ev_i e, ev_ret e, ev_err e)) (trace race_final) =
              [(0%nat, 0%nat, 0, 0); (3%nat, 0%nat, 0, 0); (2%nat, 0%nat, 3, 0); (1%nat, 0%nat, 0, 0); (3%nat, 1%nat, -1, 4); (3%nat, 2%nat, 0, 0)]).
  { vm_compute. reflexivity. }
  destruct (trace race_final) as [|e1 [|e2 [|e3 [|e4 [|e5 [|e6 [|]]]]]]]; try discriminate E.
  simpl in E. inversion E. split.
  - exists e3. repeat split; auto. simpl. auto.
  - exists e5. repeat split; auto. simpl. auto 6.
Qed.
