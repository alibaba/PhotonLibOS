(* C03_Notify.v — notify_one / notify_all against concurrent time-outs, interrupts and other notifiers:
   whoever is past ScopedLockHead holds the head's thread.lock (LK), and a notifier whose re-check
   succeeded (PNfGo c x) still sees x at the head of c's queue when it interrupts it (GO), in every
   interleaving.  Hence the model never reaches `bad` (prelocked_thread_interrupt of a non-SLEEPING
   thread), and the race "time-out expiry vs notify_one picking the same head" has exactly one winner. *)
From Coq Require Import ZArith List Bool Arith Lia.
From PV Require Import Base.U64 C04.C04_Heap C03.C03_Model C03.C03_Step C03.C03_WF C03.C03_Proofs C03.C03_Queue.
Import ListNotations.
Local Open Scope Z_scope.

Definition holds (p : pc) (x : tid) : Prop :=
  match p with
  | PNfLocked _ y _ _ | PNfBackoff _ y _ _ | PNfGo _ y _ _ | PNfUnlock _ y _ _ => y = x
  | PInLocked y _ | PInUnlock y _ _ => y = x
  | _ => False
  end.

(* the invariant, for all threads except the optional stepping thread o *)
Definition NGo (s : state) (o : option tid) : Prop :=
  (forall N x, Some N <> o -> holds (tpc (th s N)) x -> lk (th s x) = Some N) /\
  (forall N c x all n, Some N <> o -> tpc (th s N) = PNfGo c x all n -> hd_error (wqs s (WCv c)) = Some x).
Definition NG (s : state) : Prop := NGo s None.

Lemma NG_weaken s o : NG s -> NGo s o.
Proof. intros [A B]. split; intros; [eapply A|eapply B]; eauto; discriminate. Qed.

Definition ng_same (s s' : state) : Prop :=
  (forall y, tpc (th s' y) = tpc (th s y) /\ lk (th s' y) = lk (th s y)) /\
  (forall c x, hd_error (wqs s (WCv c)) = Some x -> hd_error (wqs s' (WCv c)) = Some x).
Lemma NGo_frame s s' o : ng_same s s' -> NGo s o -> NGo s' o.
Proof.
  intros (A1 & A2) [L G]. split.
  - intros N x Ho H. destruct (A1 N) as [E _]. rewrite E in H. destruct (A1 x) as [_ ->]. eauto.
  - intros N c x all n Ho H. destruct (A1 N) as [E _]. rewrite E in H. eauto.
Qed.
Lemma ns_refl s : ng_same s s. Proof. split; auto. Qed.
Lemma ns_trans a b c : ng_same a b -> ng_same b c -> ng_same a c.
Proof.
  intros (A1 & A2) (B1 & B2). split; auto.
  intros y. destruct (A1 y), (B1 y). split; congruence.
Qed.
Lemma so_pc_lk s s' : sched_only s s' -> forall y, tpc (th s' y) = tpc (th s y) /\ lk (th s' y) = lk (th s y).
Proof. intros (E & _) y. specialize (E y). unfold ctl in E. inversion E. auto. Qed.
Lemma ns_so s s' : sched_only s s' -> (forall q, wqs s' q = wqs s q) -> ng_same s s'.
Proof. intros So Hq. split; [apply so_pc_lk, So|]. intros c x. now rewrite Hq. Qed.
Lemma ns_quiet a b c : quiet b c -> ng_same a b -> ng_same a c.
Proof.
  intros Q H. apply (ns_trans a b c H), ns_so; [now apply so_quiet|]. intros q. now rewrite (q_wqs b c Q).
Qed.
Lemma ns_view a s s' : th s' = th s -> wqs s' = wqs s -> ng_same a s -> ng_same a s'.
Proof. intros E1 E2 H. apply (ns_trans a s _ H). unfold ng_same. rewrite E1, E2. auto. Qed.
Definition nkeeps (f : thr -> thr) : Prop := forall r, tpc (f r) = tpc r /\ lk (f r) = lk r.
Lemma ns_updT a s t f : nkeeps f -> ng_same a s -> ng_same a (updT s t f).
Proof.
  intros K H. apply (ns_trans a s _ H). split; auto. intros y. rewrite th_updT. destruct (Nat.eqb y t) eqn:E; auto.
  apply Nat.eqb_eq in E. subst. apply K.
Qed.
Lemma ns_take_err a s t x y s1 : take_err s t = (x, y, s1) -> ng_same a s -> ng_same a s1.
Proof.
  intros T. destruct (take_err_cases _ _ _ _ _ T) as [(_ & _ & -> & _)|(_ & _ & _ & ->)]; auto.
  apply ns_updT. intros r; auto.
Qed.
Lemma hd_app {A} (l : list A) e x : hd_error l = Some x -> hd_error (l ++ [e]) = Some x.
Proof. destruct l; simpl; auto. discriminate. Qed.
(* a new sleeper is appended: the head stays *)
Lemma ns_prepare a s v t q e : ng_same a s -> ng_same a (prepare_usleep s v t q e).
Proof.
  intros H. eapply ns_quiet; [apply quiet_prepare|]. apply (ns_trans a s _ H). split.
  - apply so_pc_lk, so_slept.
  - intros c x Hx. unfold slept. destruct q as [w0|]; simpl; auto. unfold updq.
    destruct (wq_eqb_spec (WCv c) w0); subst; auto. now apply hd_app.
Qed.

Ltac ns_peel :=
  repeat match goal with
  | |- ng_same ?a ?a => apply ns_refl
  | T : take_err _ _ = (_, _, ?s1) |- ng_same _ ?s1 => apply (ns_take_err _ _ _ _ _ _ T)
  | |- ng_same _ (prepare_usleep _ _ _ _ _) => apply ns_prepare
  | |- ng_same _ (fst (eject _ _ _ _)) => eapply ns_quiet; [apply quiet_eject, quiet_refl|]
  | |- ng_same _ (s_bad ?s) => apply (ns_view _ s); [reflexivity..|]
  | |- ng_same _ (s_lown ?s _) => apply (ns_view _ s); [reflexivity..|]
  | |- ng_same _ (tick ?s _) => apply (ns_view _ s); [reflexivity..|]
  | |- ng_same _ (updV ?s _ _) => apply (ns_view _ s); [reflexivity..|]
  | |- ng_same _ (set_held _ _ _ _) => apply ns_updT; [intros ?; split; reflexivity|]
  | |- ng_same _ _ => eapply ns_quiet; [shuffle|]
  | |- ng_same _ (updT _ _ _) => apply ns_updT; [intros ?; split; reflexivity|]
  end.
Ltac ng_frame G := eapply NGo_frame; [|exact G]; ns_peel.

(* the stepping thread t gets a new pc *)
Lemma NGo_set_pc s t p :
  NGo s (Some t) -> (forall x, holds p x -> lk (th s x) = Some t) ->
  (forall c x all n, p = PNfGo c x all n -> hd_error (wqs s (WCv c)) = Some x) ->
  NG (set_pc s t p).
Proof.
  intros [L G] Hh Hg. split.
  - intros N x _ H. unfold set_pc in *. rewrite th_updT in *.
    destruct (Nat.eqb_spec N t); subst; simpl in H.
    + destruct (Nat.eqb_spec x t); subst; simpl; auto.
    + assert (E : lk (th s x) = Some N) by (apply L; auto; congruence).
      destruct (Nat.eqb_spec x t); subst; simpl; auto.
  - intros N c x all n _ H. unfold set_pc in *. rewrite th_updT in H. rewrite wqs_updT.
    destruct (Nat.eqb_spec N t); subst; simpl in H; [eauto|]. eapply G; eauto. congruence.
Qed.
(* ... one that holds no thread.lock *)
Lemma NGo_set_pc_free s t p : (forall x, ~ holds p x) -> NGo s (Some t) -> NG (set_pc s t p).
Proof.
  intros Hp G. apply NGo_set_pc; auto; [intros x H; destruct (Hp x H)|].
  intros c x all n ->. destruct (Hp x eq_refl).
Qed.
Lemma NGo_finish s t a b : NGo s (Some t) -> NG (finish_op s t a b).
Proof.
  intros G. eapply NGo_frame; [|apply (NGo_set_pc_free s t PIdle); [intros x []|exact G]].
  split; auto. intros y. unfold finish_op, set_pc. rewrite !th_updT. destruct (Nat.eqb y t); auto.
Qed.
Lemma plain_free p x : plain p -> ~ holds p x.
Proof. destruct p; simpl; auto. Qed.
Lemma fits_free q p x : fits q p -> ~ holds p x.
Proof. destruct q as [[|]|]; simpl; [tauto|intros [k ->]; auto|apply plain_free]. Qed.

(* the stepping thread takes (o = Some t) or drops (o = None) the thread.lock of x *)
Lemma NGo_set_lk s t x o : NGo s (Some t) -> (lk (th s x) = None \/ lk (th s x) = Some t) ->
  NGo (updT s x (fun y => t_lk y o)) (Some t).
Proof.
  intros [L G] Hn. split.
  - intros N x' Ho H. rewrite th_updT in H. assert (E : tpc (th s N) = tpc (if Nat.eqb N x then t_lk (th s x) o else th s N)) by (destruct (Nat.eqb_spec N x); subst; auto).
    rewrite <- E in H. pose proof (L N x' Ho H) as E2. rewrite th_updT.
    destruct (Nat.eqb_spec x' x); subst; simpl; [|auto]. destruct Hn; congruence.
  - intros N c x' all n Ho H. rewrite th_updT in H. rewrite wqs_updT.
    assert (E : tpc (th s N) = PNfGo c x' all n) by (destruct (Nat.eqb_spec N x); subst; auto). eauto.
Qed.

(* y leaves its wait queue while its thread.lock is free or held by the stepping thread: no notifier
   at PNfGo has y as its head, since that notifier would hold y's lock *)
Lemma hd_remove (y x : tid) l : hd_error l = Some x -> x <> y -> hd_error (remove Nat.eq_dec y l) = Some x.
Proof.
  destruct l as [|a l]; simpl; [discriminate|]. intros H; inversion H; subst. intros Hn.
  destruct (Nat.eq_dec y x); [congruence|reflexivity].
Qed.
Lemma NGo_dequeue s o y ns :
  NGo s o -> (lk (th s y) = None \/ exists t, o = Some t /\ lk (th s y) = Some t) -> NGo (dequeue s y ns) o.
Proof.
  intros [L G] Hy.
  pose proof (so_pc_lk _ _ (so_dequeue s y ns)) as F.
  split.
  - intros N x Ho H. destruct (F N) as [E _]. rewrite E in H. destruct (F x) as [_ ->]. eauto.
  - intros N c x all n Ho H. destruct (F N) as [E _]. rewrite E in H.
    pose proof (G _ _ _ _ _ Ho H) as Hh.
    assert (Hl : lk (th s x) = Some N) by (apply L; auto; rewrite H; simpl; auto).
    assert (x <> y) by (intros ->; destruct Hy as [Hy|(t & -> & Hy)]; congruence).
    unfold dequeue. destruct (wqo (th s y)) as [w|]; simpl; auto.
    unfold updq. destruct (wq_eqb_spec (WCv c) w); subst; auto. now apply hd_remove.
Qed.
Lemma NGo_wake s o va y e w :
  NGo s o -> (lk (th s y) = None \/ exists t, o = Some t /\ lk (th s y) = Some t) ->
  NGo (wake_by (updT s y (fun r => t_wk (t_err r e) w)) va y) o.
Proof.
  intros G Hy. destruct (quiet_wake_by (updT s y (fun r => t_wk (t_err r e) w)) va y) as (ns & _ & Q).
  eapply NGo_frame; [eapply ns_quiet; [exact Q|apply ns_refl]|]. apply NGo_dequeue.
  - eapply NGo_frame; [|exact G]. ns_peel.
  - now rewrite th_updT_same.
Qed.
Lemma wb_lk s va y z : lk (th (wake_by s va y) z) = lk (th s z).
Proof. apply (so_pc_lk _ _ (so_wake_by s va y)). Qed.

Lemma NGo_do_unlock s o va l s' : NGo s o -> do_unlock s va l = Some s' -> NGo s' o.
Proof.
  intros G H. destruct (hand_off _ _ _ _ H) as [->|(h & _ & El & ->)]; [ng_frame G|].
  apply NGo_wake; [ng_frame G|now left].
Qed.

Lemma NG_tstep s v t s' : NG s -> tstep s v t s' -> NG s'.
Proof.
  intros G0 H. pose proof (NG_weaken s (Some t) G0) as G. destruct G0 as [L0 G0'].
  assert (Hl : forall x, holds (tpc (th s t)) x -> lk (th s x) = Some t) by (intros x; apply L0; discriminate).
  destruct H as [|p Hg| |p _ Hp|s1 q e p Hr _ Hf| | | |a b s1 p T Hp| | |l S _ _ U|c x all n P El|c x all n P|c x all n P Hs
                |c x all n P|c x n P|c x n P|k e P El|k e P Hs|k e P|k e stk P|];
    try (assert (Hx := Hl _ ltac:(rewrite P; reflexivity)));
    try solve [match goal with |- NG (finish_op _ _ _ _) => apply NGo_finish | |- NG (set_pc _ _ _) => apply NGo_set_pc_free; [intros ? []|] end; ng_frame G].
  (* left: t_goto, t_yield, t_sleep, t_die, t_woke_goto, t_unlock, then the nine constructors that take, hold or
     drop a thread.lock, in their order *)
  - destruct Hg as [| | |c x all n P Hh|c x all n P|k e stk P|]; try solve [apply NGo_set_pc_free; auto; intros ? []];
      (apply NGo_set_pc; auto; [intros y <-; apply Hl; now rewrite P|try discriminate]).
    intros c1 x1 all1 n1 E; inversion E; subst. exact Hh.
  - apply NGo_set_pc_free; [intros x; now apply plain_free|ng_frame G].
  - apply NGo_set_pc_free; [intros x; eapply fits_free; eauto|]. destruct Hr; ng_frame G.
  - eapply NGo_frame; [|split; [exact L0|exact G0']]. ns_peel.
  - apply NGo_set_pc_free; [intros x; now apply plain_free|ng_frame G].
  - apply NGo_finish. eapply NGo_frame; [apply ns_updT, ns_refl; intros ?; split; reflexivity|]. eapply NGo_do_unlock; eauto.
  - apply NGo_set_pc; [apply NGo_set_lk; auto| |discriminate]. intros y <-. now rewrite th_updT_same.
  - apply NGo_set_pc_free; [intros ? []|apply NGo_set_lk; auto].
  - apply NGo_set_pc; [apply NGo_wake; eauto| |discriminate]. intros y <-. now rewrite wb_lk, th_updT_same.
  - apply NGo_set_pc; [ng_frame G| |discriminate]. now intros y <-.
  - apply NGo_set_pc_free; [intros ? []|apply NGo_set_lk; auto].
  - apply NGo_finish. apply NGo_set_lk; auto.
  - apply NGo_set_pc; [apply NGo_set_lk; auto| |discriminate]. intros y <-. now rewrite th_updT_same.
  - apply NGo_set_pc; [apply NGo_wake; eauto| |discriminate]. intros y <-. now rewrite wb_lk, th_updT_same.
  - apply NGo_finish. apply NGo_set_lk; auto.
  - apply NGo_set_pc_free; [intros ? []|apply NGo_set_lk; auto].
Qed.

Lemma NG_sstep s s' : NG s -> sstep s s' -> NG s'.
Proof.
  intros G H. destruct H as [d|v w l S _ U|v t r s' _ _ H|v r s' _ _ H].
  - ng_frame G.
  - eapply NGo_frame; [|eapply NGo_do_unlock; eauto]. ns_peel.
  - eapply NG_tstep; eauto.
  - destruct H as [s1 cnt Ej| |x cnt _ _ El _| |]; try solve [ng_frame G].
    + change s1 with (fst (s1, cnt)). rewrite <- Ej. ng_frame G.
    + match goal with |- NG (updV (rq_append (timed_out ?S x) _ _) _ _) => apply (NGo_frame (dequeue S x READY)) end.
      * unfold timed_out. ns_peel.
      * apply NGo_dequeue; [ng_frame G|now left].
Qed.

Theorem NG_reachable nv kinds home progs s : Reach nv kinds home progs s -> NG s.
Proof.
  apply Reach_ind.
  - split.
    + intros N x _ H. simpl in H. destruct (Nat.ltb N nv); destruct H.
    + intros N c x all n _ H. simpl in H. destruct (Nat.ltb N nv); discriminate.
  - intros s0 s' _. apply NG_sstep.
Qed.

(* notify_one_exact, linearisation point: when the notifier executes prelocked_thread_interrupt(x) the
   thread x is (still) the head of the queue, SLEEPING, pointing at this queue, and locked by the notifier.
   In particular "time-out expiry vs notify_one picking the same head" has exactly one winner: had the
   timer dequeued x first, the re-check would have failed and the notifier would not be at PNfGo. *)
Theorem notify_go_head nv kinds home progs s N c x all n :
  Reach nv kinds home progs s -> tpc (th s N) = PNfGo c x all n ->
  hd_error (wqs s (WCv c)) = Some x /\ lk (th s x) = Some N /\ st (th s x) = SLEEPING /\
  wqo (th s x) = Some (WCv c).
Proof.
  intros R H. destruct (NG_reachable _ _ _ _ _ R) as [L G]. pose proof (WF_reachable _ _ _ _ _ R) as W.
  assert (Hh : hd_error (wqs s (WCv c)) = Some x) by (eapply G; eauto; discriminate).
  assert (Hi : In x (wqs s (WCv c))) by (destruct (wqs s (WCv c)); inversion Hh; now left).
  destruct (wf_wq s W _ _ Hi). repeat split; auto. apply L; [discriminate|]. rewrite H. simpl. auto.
Qed.

(* the Go step: exactly x leaves the queue, becomes READY (same vCPU) or STANDBY (other vCPU) with
   error_number = -1 and ghost reason "notified by N"; every other thread keeps its state, queue,
   error number; the model does not leave its domain (`bad` is not set by this step) *)
Theorem notify_go_effect nv kinds home progs s v N c x all n s' r :
  Reach nv kinds home progs s -> runq (vc s v) = Th N :: r -> pend (vc s v) = None ->
  tpc (th s N) = PNfGo c x all n -> vstep s v = Some s' ->
  bad s' = bad s /\
  ~ In x (wqs s' (WCv c)) /\ (forall q y, In y (wqs s' q) <-> In y (wqs s q) /\ y <> x) /\
  (st (th s' x) = READY \/ st (th s' x) = STANDBY) /\ err (th s' x) = -1 /\ wk (th s' x) = WNotified N /\
  (forall y, y <> x -> st (th s' y) = st (th s y) /\ err (th s' y) = err (th s y) /\ wk (th s' y) = wk (th s y) /\
                       wqo (th s' y) = wqo (th s y)) /\
  tpc (th s' N) = PNfUnlock c x all n.
Proof.
  intros R E Pn P H. destruct (notify_go_head _ _ _ _ _ _ _ _ _ _ R P) as (Hh & Hl & Hs & Hq).
  pose proof (WF_reachable _ _ _ _ _ R) as W.
  unfold vstep in H. rewrite Pn, E in H. unfold thread_step in H. rewrite P in H.
  rewrite Hs in H. simpl in H. inversion H; subst. clear H.
  set (s1 := updT s x (fun y => t_wk (t_err y (-1)) (WNotified N))).
  assert (W1 : WF s1) by (apply WF_updT; auto; apply keeps_wkerr).
  assert (Nx : N <> x).
  { intros ->. pose proof (wf_rq s W x v) as Hr. rewrite E in Hr. destruct (Hr (or_introl eq_refl)) as [[A|A] _]; congruence. }
  assert (Fx : forall (A : Type) (f : thr -> A), (forall r0, f (t_pc r0 (PNfUnlock c x all n)) = f r0) -> forall y,
             f (th (set_pc (wake_by s1 v x) N (PNfUnlock c x all n)) y) = f (th (wake_by s1 v x) y)).
  { intros A f Hf y. unfold set_pc. rewrite th_updT. destruct (Nat.eqb_spec y N); subst; auto. }
  assert (Dq : forall q y, In y (wqs (wake_by s1 v x) q) <-> In y (wqs s q) /\ y <> x).
  { intros q y. rewrite wb_wqs; auto. subst s1. rewrite wqs_updT. tauto. }
  assert (Ox : forall y, y <> x -> th (wake_by s1 v x) y = th s y).
  { intros y Hy. unfold wake_by. destruct (Nat.eqb _ v); proj; rewrite dequeue_th_other; auto;
      subst s1; rewrite th_updT_other; auto. }
  assert (Xf : (st (th (wake_by s1 v x) x) = READY \/ st (th (wake_by s1 v x) x) = STANDBY) /\
               err (th (wake_by s1 v x) x) = -1 /\ wk (th (wake_by s1 v x) x) = WNotified N).
  { unfold wake_by. destruct (Nat.eqb _ v); proj.
    - rewrite dequeue_self. subst s1. rewrite th_updT_same. simpl. auto.
    - rewrite dequeue_self. subst s1. rewrite th_updT_same. simpl. auto. }
  destruct Xf as (X1 & X2 & X3).
  split; [|split; [|split; [|split; [|split; [|split; [|split]]]]]].
  - unfold set_pc. simpl. destruct (so_wake_by s1 v x) as (_ & _ & _ & _ & _ & B & _). rewrite B. reflexivity.
  - unfold set_pc. rewrite wqs_updT. intros Hi. apply Dq in Hi. tauto.
  - intros q y. unfold set_pc. rewrite wqs_updT. apply Dq.
  - rewrite (Fx _ st) by reflexivity. exact X1.
  - rewrite (Fx _ err) by reflexivity. exact X2.
  - rewrite (Fx _ wk) by reflexivity. exact X3.
  - intros y Hy. rewrite (Fx _ st), (Fx _ err), (Fx _ wk), (Fx _ wqo) by reflexivity. rewrite Ox; auto.
  - unfold set_pc. rewrite th_updT_same. reflexivity.
Qed.

(* notify_one returns null / notify_all returns only when it READS an empty queue: the read step *)
Theorem notify_returns_on_empty_only s t c all n :
  wqs s (WCv c) <> [] -> tpc (th (notify_read s t c all n) t) <> PIdle.
Proof.
  intros Hne. unfold notify_read. destruct (wqs s (WCv c)) as [|x q]; [congruence|].
  unfold set_pc. rewrite th_updT_same. simpl. discriminate.
Qed.
