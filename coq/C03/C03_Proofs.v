(* C03_Proofs.v — the lock/queue invariants of the condition-variable protocol over every
   interleaving (inductive invariants of `step`), on top of the scheduler well-formedness WF. *)
From Coq Require Import ZArith List Bool Arith Lia.
From PV Require Import Base.U64 C04.C04_Heap C03.C03_Model C03.C03_Step C03.C03_WF.
Import ListNotations.
Local Open Scope Z_scope.

(* the scheduler blocks touch only st / ts / wk / wqo and the queues *)
Definition ctl (r : thr) := (vcp r, err r, lk r, tpc r, prog r, opi r, held r).
Definition sched_only (s s' : state) : Prop :=
  (forall y, ctl (th s' y) = ctl (th s y)) /\ lown s' = lown s /\
  (forall v, pend (vc s' v) = pend (vc s v)) /\ trace s' = trace s /\ now s' = now s /\ bad s' = bad s /\
  lkd s' = lkd s /\ nvc s' = nvc s.

Lemma so_refl s : sched_only s s.
Proof. repeat split; auto. Qed.
Lemma so_trans a b c : sched_only a b -> sched_only b c -> sched_only a c.
Proof.
  intros (A1 & A2 & A3 & A4 & A5 & A6 & A7 & A8) (B1 & B2 & B3 & B4 & B5 & B6 & B7 & B8).
  split; [intros y; now rewrite B1|]. split; [congruence|]. split; [intros v; now rewrite B3|].
  repeat split; congruence.
Qed.
Lemma so_quiet s s' : quiet s s' -> sched_only s s'.
Proof.
  intros Q. destruct Q. repeat split; auto. intros y. destruct (q_th y) as [E _]. now rewrite E.
Qed.
Definition ckeeps (f : thr -> thr) : Prop := forall r, ctl (f r) = ctl r.
Lemma so_updT s t f : ckeeps f -> sched_only s (updT s t f).
Proof.
  intros K. repeat split; auto. intros y. rewrite th_updT. destruct (Nat.eqb y t) eqn:E; auto.
  apply Nat.eqb_eq in E. subst. apply K.
Qed.
Lemma so_slept s t q e : sched_only s (slept s t q e).
Proof.
  unfold slept. destruct q; [eapply so_trans; [|apply so_updT; intros x; reflexivity]|];
    (eapply so_trans; [apply (so_updT s t (fun r => t_wk (t_ts (t_st r SLEEPING) e) WNone)); intros x; reflexivity|]);
    repeat split; auto.
Qed.
Lemma so_prepare_usleep s v t q e : sched_only s (prepare_usleep s v t q e).
Proof. eapply so_trans; [apply so_slept|apply so_quiet, quiet_prepare]. Qed.
Lemma so_dequeue s x ns : sched_only s (dequeue s x ns).
Proof.
  unfold dequeue. eapply so_trans; [|apply so_updT; intros r; reflexivity].
  destruct (wqo (th s x)); [|apply so_refl].
  eapply so_trans; [|apply so_updT; intros r; reflexivity]. repeat split; auto.
Qed.
Lemma so_timed_out s x : sched_only s (timed_out s x).
Proof. eapply so_trans; [apply so_dequeue|apply so_updT; intros r; reflexivity]. Qed.
Lemma so_wake_by s va x : sched_only s (wake_by s va x).
Proof. destruct (quiet_wake_by s va x) as (ns & _ & Q). eapply so_trans; [apply so_dequeue|apply so_quiet, Q]. Qed.
Lemma so_idle_decide s v cnt : forall y, ctl (th (idle_decide s v cnt) y) = ctl (th s y).
Proof. apply so_quiet, quiet_idle_decide, quiet_refl. Qed.

Record LI (s : state) : Prop := mkLI {
  li_ho : forall t l, held (th s t) l = true -> lown s l = Some t;
  li_pd : forall v w l, pend (vc s v) = Some (w, l) -> held (th s w) l = true /\ vcp (th s w) = v
}.

(* what LI reads; li_peel takes a state expression apart from the outside *)
Definition li_same (s s' : state) : Prop :=
  (forall y, held (th s' y) = held (th s y) /\ vcp (th s' y) = vcp (th s y)) /\ lown s' = lown s /\
  (forall v, pend (vc s' v) = pend (vc s v)).
Lemma LI_frame s s' : li_same s s' -> LI s -> LI s'.
Proof.
  intros (A1 & A2 & A3) L. constructor.
  - intros t l H. destruct (A1 t) as [E _]. rewrite E in H. rewrite A2. now apply (li_ho s L).
  - intros v w l H. rewrite A3 in H. destruct (A1 w) as [E1 E2]. rewrite E1, E2. now apply (li_pd s L).
Qed.
Lemma li_refl s : li_same s s. Proof. repeat split; auto. Qed.
Lemma li_trans a b c : li_same a b -> li_same b c -> li_same a c.
Proof.
  intros (A1 & A2 & A3) (B1 & B2 & B3). split; [|split].
  - intros y. destruct (A1 y), (B1 y). split; congruence.
  - congruence.
  - intros v. now rewrite B3.
Qed.
Lemma li_so a b c : sched_only b c -> li_same a b -> li_same a c.
Proof.
  intros (A1 & A2 & A3 & _) H. apply (li_trans a b c H). split; [|split]; auto.
  intros y. pose proof (A1 y) as E. unfold ctl in E. inversion E. auto.
Qed.
Definition hkeeps (f : thr -> thr) : Prop := forall r, held (f r) = held r /\ vcp (f r) = vcp r.
Lemma li_updT a s t f : hkeeps f -> li_same a s -> li_same a (updT s t f).
Proof.
  intros K H. apply (li_trans a s _ H). split; [|split]; auto. intros y. rewrite th_updT.
  destruct (Nat.eqb y t) eqn:E; auto. apply Nat.eqb_eq in E. subst. apply K.
Qed.
Lemma li_view a s s' : th s' = th s -> lown s' = lown s -> vc s' = vc s -> li_same a s -> li_same a s'.
Proof. intros E1 E2 E3 H. apply (li_trans a s _ H). unfold li_same. rewrite E1, E2, E3. auto. Qed.
Lemma li_finish a s t x y : li_same a s -> li_same a (finish_op s t x y).
Proof. intros H. unfold finish_op. apply li_updT; [intros r; auto|]. now apply (li_view a s). Qed.
Lemma li_take_err a s t x y s1 : take_err s t = (x, y, s1) -> li_same a s -> li_same a s1.
Proof.
  intros T. destruct (take_err_cases _ _ _ _ _ T) as [(_ & _ & -> & _)|(_ & _ & _ & ->)]; auto.
  apply li_updT. intros r; auto.
Qed.

Ltac li_peel :=
  repeat match goal with
  | |- li_same ?a ?a => apply li_refl
  | T : take_err _ _ = (_, _, ?s1) |- li_same _ ?s1 => apply (li_take_err _ _ _ _ _ _ T)
  | |- li_same _ (finish_op _ _ _ _) => apply li_finish
  | |- li_same _ (prepare_usleep _ _ _ _ _) => eapply li_so; [apply so_prepare_usleep|]
  | |- li_same _ (wake_by _ _ _) => eapply li_so; [apply so_wake_by|]
  | |- li_same _ (timed_out _ _) => eapply li_so; [apply so_timed_out|]
  | |- li_same _ (set_pc _ _ _) => apply li_updT; [intros ?; split; reflexivity|]
  | |- li_same _ (s_bad ?s) => apply (li_view _ s); [reflexivity..|]
  | |- li_same _ (tick ?s _) => apply (li_view _ s); [reflexivity..|]
  | |- li_same _ (fst (eject _ _ _ _)) => eapply li_so; [apply so_quiet, quiet_eject, quiet_refl|]
  | |- li_same _ _ => eapply li_so; [apply so_quiet; shuffle|]
  | |- li_same _ (updT _ _ _) => apply li_updT; [intros ?; split; reflexivity|]
  end.
Ltac li_frame L := eapply LI_frame; [|exact L]; li_peel.

(* t becomes the holder of l, which nobody holds: a free lock is taken (o = lown with l := t) or a
   hand-off completed (o = lown) *)
Lemma LI_take s t l o : LI s -> o l = Some t -> (forall l', l' <> l -> o l' = lown s l') ->
  (forall t', held (th s t') l = true -> t' = t) -> LI (set_held (s_lown s o) t l true).
Proof.
  intros L Ho Hl Hn. constructor.
  - intros t' l' H. unfold set_held in H. rewrite th_updT in H. simpl.
    destruct (Nat.eq_dec l' l) as [->|n]; [|rewrite (Hl l' n)].
    + destruct (Nat.eqb_spec t' t); subst; auto. rewrite (Hn t' H). exact Ho.
    + destruct (Nat.eqb_spec t' t); subst; [simpl in H; unfold updf in H; apply Nat.eqb_neq in n; rewrite n in H|];
        now apply (li_ho s L).
  - intros v w l' H. simpl in H. apply (li_pd s L) in H. destruct H as [H1 H2].
    unfold set_held. rewrite th_updT. destruct (Nat.eqb_spec w t); subst; simpl; auto.
    split; auto. unfold updf. destruct (Nat.eqb l' l); auto.
Qed.

(* releasing: s1 differs from s only in the owner of l (and scheduler state) *)
Definition rel_same (s s1 : state) (l : lid) : Prop :=
  (forall y, held (th s1 y) = held (th s y) /\ vcp (th s1 y) = vcp (th s y)) /\
  (forall l', l' <> l -> lown s1 l' = lown s l') /\ (forall v, pend (vc s1 v) = pend (vc s v)).

Lemma rel_do_unlock s va l s1 : do_unlock s va l = Some s1 -> rel_same s s1 l.
Proof.
  intros H. destruct (hand_off _ _ _ _ H) as [->|(h & _ & _ & ->)].
  - split; [|split]; auto. intros l' Hl. simpl. now rewrite updf_other.
  - match goal with |- rel_same s ?S' l => assert (X : li_same (s_lown s (updf (lown s) l (Some h))) S') by li_peel end.
    destruct X as (X1 & X2 & X3). split; [|split]; auto.
    intros l' Hl. rewrite X2. simpl. now rewrite updf_other.
Qed.

(* t gives up l: the state after do_unlock, with `held` cleared and no deferred unlock of l left *)
Lemma LI_release s s1 S' t l : LI s -> rel_same s s1 l -> held (th s t) l = true ->
  th S' = th (set_held s1 t l false) -> lown S' = lown s1 ->
  (forall v w l', pend (vc S' v) = Some (w, l') -> pend (vc s v) = Some (w, l') /\ l' <> l) ->
  LI S'.
Proof.
  intros L (R1 & R2 & R3) Hh Et Eo Hp.
  assert (F : forall t' l', held (th S' t') l' = true -> held (th s t') l' = true /\ l' <> l).
  { intros t' l' H. rewrite Et in H. unfold set_held in H. rewrite th_updT in H. destruct (R1 t') as [E _].
    destruct (Nat.eqb_spec t' t); subst; simpl in H.
    - unfold updf in H. destruct (Nat.eqb_spec l' l); subst; [discriminate|]. split; auto. congruence.
    - rewrite E in H. split; auto. intros ->.
      pose proof (li_ho s L _ _ H). pose proof (li_ho s L _ _ Hh). congruence. }
  constructor.
  - intros t' l' H. apply F in H. destruct H as [H Hl]. rewrite Eo, R2; auto. now apply (li_ho s L).
  - intros v w l' H. apply Hp in H. destruct H as [H Hl]. destruct (li_pd s L _ _ _ H) as [H1 H2].
    rewrite Et. unfold set_held. rewrite th_updT. destruct (R1 w) as [E1 E2].
    destruct (Nat.eqb_spec w t); subst; simpl; [|rewrite E1, E2; auto].
    split; [|congruence]. unfold updf. apply Nat.eqb_neq in Hl. now rewrite Hl, E1.
Qed.

Lemma LI_tstep s v t r s' : WF s -> LI s -> runq (vc s v) = Th t :: r -> pend (vc s v) = None ->
  tstep s v t s' -> LI s'.
Proof.
  intros W L E Pn H.
  assert (Hv : vcp (th s t) = v) by (apply (wf_rq s W t v); rewrite E; now left).
  destruct H as [| | | |s1 q e p Hr| c l d _ Hh| | | |l a b _ Ho|a b s1 l k a' b' _ T Ho|l S _ Hh U| | | | | | | | | | |];
    try solve [li_frame L].
  (* left: t_sleep, t_wait, t_acquire, t_handoff, t_unlock *)
  - destruct Hr; li_frame L.
  - (* wait: pend v := Some (t, l) *)
    eapply LI_frame; [apply li_updT; [intros ?; split; reflexivity|apply li_refl]|].
    match goal with |- LI (updV ?S _ _) => assert (X : li_same s S) by li_peel end.
    destruct X as (P1 & P2 & P3). constructor.
    + intros t' l' H'. rewrite th_updV in H'. destruct (P1 t') as [E1 _]. rewrite E1 in H'.
      simpl. rewrite P2. now apply (li_ho s L).
    + intros v' w l' H'. rewrite th_updV. destruct (P1 w) as [E1 E2]. rewrite E1, E2.
      rewrite vc_updV in H'. destruct (Nat.eqb_spec v' v); subst.
      * simpl in H'. inversion H'; subst. auto.
      * rewrite P3 in H'. now apply (li_pd s L).
  - eapply LI_frame; [apply li_finish, li_refl|]. apply LI_take; auto.
    + apply updf_same.
    + intros l' n. now apply updf_other.
    + intros t' H'. apply (li_ho s L) in H'. congruence.
  - eapply LI_frame; [apply li_finish, li_refl|].
    assert (L1 : LI s1) by li_frame L. apply (LI_take s1 t l (lown s1)); auto.
    intros t' H'. apply (li_ho s1 L1) in H'. congruence.
  - eapply LI_frame; [apply li_finish, li_refl|].
    eapply (LI_release s S); eauto using rel_do_unlock.
    intros v' w l' H'. destruct (rel_do_unlock _ _ _ _ U) as (_ & _ & R3). unfold set_held in H'. rewrite vc_updT, R3 in H'.
    split; auto. intros ->. destruct (li_pd s L _ _ _ H') as [H1 H2].
    pose proof (li_ho s L _ _ H1). pose proof (li_ho s L _ _ Hh). congruence.
Qed.

Lemma LI_sstep s s' : WF s -> LI s -> sstep s s' -> LI s'.
Proof.
  intros W L H. destruct H as [d|v w l S Hp U|v t r s' E Pn H|v r s' _ _ H].
  - li_frame L.
  - (* the deferred unlock *)
    destruct (li_pd s L _ _ _ Hp) as [Hh Hv].
    eapply (LI_release s S); eauto using rel_do_unlock.
    intros v' w' l' H'. rewrite vc_updV in H'. destruct (Nat.eqb_spec v' v); subst; [discriminate|].
    destruct (rel_do_unlock _ _ _ _ U) as (_ & _ & R3). unfold set_held in H'. rewrite vc_updT, R3 in H'.
    split; auto. intros ->. destruct (li_pd s L _ _ _ H') as [H1 H2].
    pose proof (li_ho s L _ _ H1). pose proof (li_ho s L _ _ Hh). congruence.
  - eapply LI_tstep; eauto.
  - destruct H as [s1 cnt Ej| | | |]; try solve [li_frame L].
    change s1 with (fst (s1, cnt)). rewrite <- Ej. li_frame L.
Qed.

Theorem LI_reachable nv kinds home progs s : Reach nv kinds home progs s -> LI s.
Proof.
  apply Reach_ind.
  - constructor; simpl; [intros t l; destruct (Nat.ltb t nv); simpl|]; discriminate.
  - intros s0 s' R. apply LI_sstep. eapply WF_reachable; eauto.
Qed.

(* thread t is inside a call wait(c, l) that has not yet put it on the queue *)
Definition wait_called (s : state) (t : tid) (c : cid) (l : lid) : Prop :=
  exists d os, prog (th s t) = OWait c l d :: os /\ tpc (th s t) = PIdle /\ held (th s t) l = true.
(* ... that has executed prepare_usleep (enqueue + sleep) and has not returned from the switch *)
Definition wait_enqueued (s : state) (t : tid) (c : cid) (l : lid) : Prop :=
  tpc (th s t) = PWaitSlept c l.

(* cv_atomic_release, first half: as long as the waiter has not been enqueued the lock is still its own;
   in particular nobody else can have acquired it (mutex and spinlock alike). *)
Theorem cv_lock_kept_until_enqueued nv kinds home progs s t c l :
  Reach nv kinds home progs s -> wait_called s t c l -> lown s l = Some t.
Proof.
  intros R (d & os & _ & _ & Hh). eapply li_ho; eauto. eapply LI_reachable; eauto.
Qed.

(* cv_no_lost_notify, lock part: if another thread N owns the lock, a thread W that has called
   wait(c, l) is no longer in the not-yet-enqueued phase *)
Theorem cv_notifier_excludes_unqueued_waiter nv kinds home progs s N W c l :
  Reach nv kinds home progs s -> lown s l = Some N -> N <> W -> ~ wait_called s W c l.
Proof.
  intros R Ho Hne Hc. pose proof (cv_lock_kept_until_enqueued _ _ _ _ _ _ _ _ R Hc). congruence.
Qed.

(* cv_wait_returns_locked: the step that completes a wait (the re-lock loop delivers result 0 to the
   continuation KWait) leaves the lock owned by the waiter *)
Definition in_relock (p : pc) (l : lid) : Prop :=
  exists c ret en, p = PLockTry l (KWait c ret en) \/ p = PLockSlept l (KWait c ret en).

Theorem cv_wait_returns_locked nv kinds home progs s a s' t l :
  Reach nv kinds home progs s -> step s a = Some s' ->
  in_relock (tpc (th s t)) l -> tpc (th s' t) = PIdle -> held (th s' t) l = true ->
  lown s' l = Some t.
Proof.
  intros R H _ _ Hh. assert (R' : Reach nv kinds home progs s') by (eapply reach_step; eauto).
  eapply li_ho; eauto. eapply LI_reachable; eauto.
Qed.

(* examples: the hypotheses are met by concrete reachable states *)
Definition ex_progs (t : tid) : list op :=
  match t with
  | O => [OCreate 1%nat; OLock 0%nat; OWait 1%nat 0%nat 100; OUnlock 0%nat]
  | S O => [OLock 0%nat; ONotifyOne 1%nat; OUnlock 0%nat]
  | _ => []
  end.
Definition ex_init := init 1 (fun _ => KMutex) (fun _ => O) ex_progs.

Definition after (s0 : state) (l : list label) : state := fst (run_sched s0 l).
Lemma reach_after l : forall s0 s, reachable s0 s -> reachable s0 (after s l).
Proof.
  induction l as [|a r IH]; intros s0 s R; unfold after; simpl; auto.
  destruct (step s a) eqn:E; simpl; auto. apply IH. eapply reach_step; eauto.
Qed.

(* after `create 1; lock 0` the main thread is about to wait: wait_called *)
Example ex_wait_called : exists s, Reach 1 (fun _ => KMutex) (fun _ => O) ex_progs s /\ wait_called s 0%nat 1%nat 0%nat.
Proof.
  exists (after ex_init [LV O; LV O]). split.
  - apply reach_after, reach_init.
  - exists 100, [OUnlock 0%nat]. repeat split; vm_compute; reflexivity.
Qed.
(* one more step: enqueued, with the deferred unlock pending on vCPU 0 and the lock still owned *)
Example ex_pending : exists s, Reach 1 (fun _ => KMutex) (fun _ => O) ex_progs s /\
  pend (vc s O) = Some (0%nat, 0%nat) /\ wait_enqueued s 0%nat 1%nat 0%nat /\ lown s 0%nat = Some 0%nat.
Proof.
  exists (after ex_init [LV O; LV O; LV O]). split.
  - apply reach_after, reach_init.
  - repeat split; vm_compute; reflexivity.
Qed.
