(* C03_NeverBad.v — the model never leaves the domain where the C++ is defined: `bad` (set only when
   prelocked_thread_interrupt would be applied to a thread that is not SLEEPING) stays false. *)
From Coq Require Import ZArith List Bool Arith Lia.
From PV Require Import Base.U64 C04.C04_Heap C03.C03_Model C03.C03_Step C03.C03_WF C03.C03_Proofs C03.C03_Queue C03.C03_Notify.
Import ListNotations.
Local Open Scope Z_scope.

Lemma bad_so a b c : sched_only b c -> bad b = bad a -> bad c = bad a.
Proof. intros (_ & _ & _ & _ & _ & B & _). congruence. Qed.
Lemma bad_take_err s t a b s1 : take_err s t = (a, b, s1) -> bad s1 = bad s.
Proof. intros T. destruct (take_err_cases _ _ _ _ _ T) as [(_ & _ & -> & _)|(_ & _ & _ & ->)]; reflexivity. Qed.
Lemma bad_do_unlock s va l s' : do_unlock s va l = Some s' -> bad s' = bad s.
Proof.
  intros H. destruct (hand_off _ _ _ _ H) as [->|(h & _ & _ & ->)]; [reflexivity|].
  eapply bad_so; [apply so_wake_by|reflexivity].
Qed.

(* `bad` is a field of its own: record updates of other fields are skipped by conversion *)
Ltac bs_peel :=
  repeat match goal with
  | |- bad ?a = bad ?a => reflexivity
  | T : take_err _ _ = (_, _, ?s1) |- bad ?s1 = _ => rewrite (bad_take_err _ _ _ _ _ T)
  | |- bad (prepare_usleep _ _ _ _ _) = _ => eapply bad_so; [apply so_prepare_usleep|]
  | |- bad (wake_by _ _ _) = _ => eapply bad_so; [apply so_wake_by|]
  | |- bad (timed_out _ _) = _ => eapply bad_so; [apply so_timed_out|]
  | |- bad (fst (eject _ _ _ _)) = _ => eapply bad_so; [apply so_quiet, quiet_eject, quiet_refl|]
  | |- bad (set_pc ?s _ _) = _ => change (bad (set_pc s _ _)) with (bad s)
  | |- bad (finish_op ?s _ _ _) = _ => change (bad (finish_op s _ _ _)) with (bad s)
  | |- bad (set_held ?s _ _ _) = _ => change (bad (set_held s _ _ _)) with (bad s)
  | |- bad (s_lown ?s _) = _ => change (bad (s_lown s _)) with (bad s)
  | |- bad (tick ?s _) = _ => change (bad (tick s _)) with (bad s)
  | |- bad _ = _ => eapply bad_so; [apply so_quiet; shuffle|]
  | |- bad (updT ?s _ _) = _ => change (bad (updT s _ _)) with (bad s)
  | |- bad (updV ?s _ _) = _ => change (bad (updV s _ _)) with (bad s)
  end.

Theorem never_bad nv kinds home progs s : Reach nv kinds home progs s -> bad s = false.
Proof.
  revert s. apply (Reach_ind nv kinds home progs (fun s => bad s = false)); [reflexivity|].
  intros s s' R IH H. rewrite <- IH.
  destruct H as [d|v w l S _ U|v t r s' _ _ H|v r s' _ _ H].
  - reflexivity.
  - bs_peel. eapply bad_do_unlock; eauto.
  - destruct H as [| | | |s1 q e p Hr| | | | | | |l S _ _ U| | | |c x all n P Hs| | | | | | |]; try solve [bs_peel].
    + destruct Hr; bs_peel.
    + bs_peel. eapply bad_do_unlock; eauto.
    + (* the head is SLEEPING (notify_go_head): this branch is not taken *)
      destruct (notify_go_head _ _ _ _ _ _ _ _ _ _ R P) as (_ & _ & Hx & _). contradiction.
  - destruct H as [s1 cnt Ej| | | |]; try solve [unfold idle_decide; try destruct (_ || _); bs_peel].
    change s1 with (fst (s1, cnt)). rewrite <- Ej. bs_peel.
Qed.
