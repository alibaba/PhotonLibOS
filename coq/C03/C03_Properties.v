(* C03 property theorems (fine-grained model C03_Model.v: every interleaving of any number of
   threads on any number of vCPUs). *)
From Coq Require Import ZArith List.
From PV Require Import Base.U64 C04.C04_Heap C03.C03_Model C03.C03_WF C03.C03_Proofs C03.C03_Queue C03.C03_Notify C03.C03_Result C03.C03_IntrRace C03.C03_Locked C03.C03_NeverBad C03.C03_NoIntr.
Import ListNotations.
Local Open Scope Z_scope.

(* scheduler well-formedness in every reachable state (wait queues = SLEEPING threads pointing back,
   run queues = READY/RUNNING threads of that vCPU without duplicates, ...) *)
Theorem c03_sched_wf : forall nv kinds home progs s, Reach nv kinds home progs s -> WF s.
Proof. exact WF_reachable. Qed.
Print Assumptions c03_sched_wf.

(* cv_atomic_release (lock side): a waiter that has called wait(c,l) and is not yet on the queue
   still owns l — for mutex and spinlock alike, in every interleaving *)
Theorem c03_cv_lock_kept_until_enqueued : forall nv kinds home progs s t c l,
  Reach nv kinds home progs s -> wait_called s t c l -> lown s l = Some t.
Proof. exact cv_lock_kept_until_enqueued. Qed.
Print Assumptions c03_cv_lock_kept_until_enqueued.

(* the deferred unlock pending on a vCPU belongs to a sleeper of that vCPU that still owns the lock:
   the lock is released only after the enqueue (prepare_usleep) has happened *)
Theorem c03_cv_deferred_unlock_owner : forall nv kinds home progs s v w l,
  Reach nv kinds home progs s -> pend (vc s v) = Some (w, l) -> lown s l = Some w /\ vcp (th s w) = v.
Proof.
  intros nv kinds home progs s v w l R H. pose proof (LI_reachable _ _ _ _ _ R) as L.
  destruct (li_pd s L _ _ _ H) as [H1 H2]. split; auto. eapply li_ho; eauto.
Qed.
Print Assumptions c03_cv_deferred_unlock_owner.

(* cv_no_lost_notify (lock side): when a notifier N owns l, no other thread is between its call of
   wait(c,l) and its enqueue *)
Theorem c03_cv_notifier_excludes_unqueued_waiter : forall nv kinds home progs s N W c l,
  Reach nv kinds home progs s -> lown s l = Some N -> N <> W -> ~ wait_called s W c l.
Proof. exact cv_notifier_excludes_unqueued_waiter. Qed.
Print Assumptions c03_cv_notifier_excludes_unqueued_waiter.

(* mutual exclusion of the user lock as seen through `held` (the harness' occupancy counter) *)
Theorem c03_held_exclusive : forall nv kinds home progs s t1 t2 l,
  Reach nv kinds home progs s -> held (th s t1) l = true -> held (th s t2) l = true -> t1 = t2.
Proof.
  intros nv kinds home progs s t1 t2 l R H1 H2. pose proof (LI_reachable _ _ _ _ _ R) as L.
  pose proof (li_ho s L _ _ H1). pose proof (li_ho s L _ _ H2). congruence.
Qed.
Print Assumptions c03_held_exclusive.

(* cv_wait_returns_locked: the step of the re-lock loop that completes wait() (pc back to PIdle) leaves the
   lock owned by the waiter — every interleaving, mutex and spinlock *)
Theorem c03_cv_wait_returns_locked : forall nv kinds home progs s v t r l c ret en s',
  Reach nv kinds home progs s -> runq (vc s v) = Th t :: r -> pend (vc s v) = None ->
  (tpc (th s t) = PLockTry l (KWait c ret en) \/ tpc (th s t) = PLockSlept l (KWait c ret en)) ->
  vstep s v = Some s' -> tpc (th s' t) = PIdle ->
  held (th s' t) l = true /\ lown s' l = Some t.
Proof. exact cv_wait_returns_locked_strong. Qed.
Print Assumptions c03_cv_wait_returns_locked.

(* queue side: a thread that has executed the enqueue block of wait(c,l) and that nobody has woken
   (ghost wk = WNone: no notify, time-out, interrupt picked it) is a member of c's queue *)
Theorem c03_cv_enqueued_stays_queued : forall nv kinds home progs s t c l,
  Reach nv kinds home progs s -> tpc (th s t) = PWaitSlept c l -> wk (th s t) = WNone -> In t (wqs s (WCv c)).
Proof. intros nv kinds home progs s t c l R. exact (WK_reachable nv kinds home progs s R t c l). Qed.
Print Assumptions c03_cv_enqueued_stays_queued.

(* cv_atomic_release: no reachable state in which a waiter has given up the lock and is neither on the
   queue nor already woken — every interleaving, any number of vCPUs, mutex and spinlock *)
Theorem c03_cv_atomic_release : forall nv kinds home progs s t c l,
  Reach nv kinds home progs s -> (wait_called s t c l \/ wait_enqueued s t c l) ->
  lown s l <> Some t -> wait_enqueued s t c l /\ (In t (wqs s (WCv c)) \/ wk (th s t) <> WNone).
Proof. exact cv_atomic_release. Qed.
Print Assumptions c03_cv_atomic_release.

(* cv_no_lost_notify: while N owns l, every other thread inside wait(c,l) has been enqueued, and is on the
   queue unless it has already been woken or timed out *)
Theorem c03_cv_no_lost_notify : forall nv kinds home progs s N W c l,
  Reach nv kinds home progs s -> lown s l = Some N -> N <> W ->
  (wait_called s W c l \/ wait_enqueued s W c l) -> wk (th s W) = WNone \/ wait_called s W c l ->
  wait_enqueued s W c l /\ (wk (th s W) = WNone -> In W (wqs s (WCv c))).
Proof. exact cv_no_lost_notify. Qed.
Print Assumptions c03_cv_no_lost_notify.

(* whoever is past ScopedLockHead (or inside thread_interrupt's locked section) holds that thread.lock:
   time-out expiry (needs the lock free), other notifiers and interrupters are excluded meanwhile *)
Theorem c03_head_lock_held : forall nv kinds home progs s N x,
  Reach nv kinds home progs s -> holds (tpc (th s N)) x -> lk (th s x) = Some N.
Proof.
  intros nv kinds home progs s N x R H. destruct (NG_reachable _ _ _ _ _ R) as [L _]. apply L; auto. discriminate.
Qed.
Print Assumptions c03_head_lock_held.

(* notify_one_exact, linearisation point (and the race time-out vs notify_one on the same head: one winner) *)
Theorem c03_notify_go_head : forall nv kinds home progs s N c x all n,
  Reach nv kinds home progs s -> tpc (th s N) = PNfGo c x all n ->
  hd_error (wqs s (WCv c)) = Some x /\ lk (th s x) = Some N /\ st (th s x) = SLEEPING /\
  wqo (th s x) = Some (WCv c).
Proof. exact notify_go_head. Qed.
Print Assumptions c03_notify_go_head.

(* notify_one_exact, effect: exactly the head leaves the queue and becomes READY/STANDBY with reason
   "notified" (error_number -1); nobody else is touched; `bad` is not set *)
Theorem c03_notify_go_effect : forall nv kinds home progs s v N c x all n s' r,
  Reach nv kinds home progs s -> runq (vc s v) = Th N :: r -> pend (vc s v) = None ->
  tpc (th s N) = PNfGo c x all n -> vstep s v = Some s' ->
  bad s' = bad s /\
  ~ In x (wqs s' (WCv c)) /\ (forall q y, In y (wqs s' q) <-> In y (wqs s q) /\ y <> x) /\
  (st (th s' x) = READY \/ st (th s' x) = STANDBY) /\ err (th s' x) = -1 /\ wk (th s' x) = WNotified N /\
  (forall y, y <> x -> st (th s' y) = st (th s y) /\ err (th s' y) = err (th s y) /\ wk (th s' y) = wk (th s y) /\
                       wqo (th s' y) = wqo (th s y)) /\
  tpc (th s' N) = PNfUnlock c x all n.
Proof. exact notify_go_effect. Qed.
Print Assumptions c03_notify_go_effect.

(* notify_one returns null / notify_all returns its count only at a read of an EMPTY queue *)
Theorem c03_notify_returns_on_empty_only : forall s t c all n,
  wqs s (WCv c) <> [] -> tpc (th (notify_read s t c all n) t) <> PIdle.
Proof. exact notify_returns_on_empty_only. Qed.
Print Assumptions c03_notify_returns_on_empty_only.

(* cv_wait_result.  The value wait() returns is `translate ret en` where (ret, en) is what
   set_error_number delivers when the waiter resumes (the step out of PWaitSlept; the re-lock loop only
   delays the return).  It is 0 only if a notify picked this very waiter; it is the "slept the whole
   timeout" ETIMEDOUT (ret = 0) only if the vCPU's timer woke it, and then deadline <= now.
   Holds in every interleaving, interrupts included (their error numbers are > 0; an interrupt that
   passes errno = ETIMEDOUT itself is of course indistinguishable: that is the `ret = 0` hypothesis). *)
Theorem c03_cv_wait_result : forall nv kinds home progs s v t r c l,
  Reach nv kinds home progs s -> runq (vc s v) = Th t :: r -> tpc (th s t) = PWaitSlept c l ->
  let '(ret, en, _) := take_err s t in
  (translate ret en = (0, 0) -> exists n, wk (th s t) = WNotified n) /\
  (translate ret en = (-1, ETIMEDOUT) -> ret = 0 -> wk (th s t) = WTimeout /\ ts (th s t) <= now s).
Proof. exact cv_wait_result. Qed.
Print Assumptions c03_cv_wait_result.

(* the invariant behind it: error_number = -1 only for a waiter picked by a notify (cv queue) or a
   hand-off (mutex queue); SLEEPING threads carry no wake reason; a timer wake-up has deadline <= now *)
Theorem c03_result_invariant : forall nv kinds home progs s, Reach nv kinds home progs s -> RS s.
Proof. exact RS_reachable. Qed.
Print Assumptions c03_result_invariant.

(* FINDING (model level, 3 vCPUs): with thread_interrupt in the picture "notified => wait returns 0" is refuted:
   the interrupter's unlocked test-then-write of error_number overwrites the -1 of a notification *)
Theorem c03_notified_returns_0_refuted_with_interrupts :
  exists s, Reach 3 (fun _ => KSpin) (fun _ => O) race_progs s /\
    (exists e, In e (trace s) /\ ev_t e = 2%nat /\ ev_i e = 0%nat /\ ev_ret e = 3)
    /\ (exists e, In e (trace s) /\ ev_t e = 3%nat /\ ev_i e = 1%nat /\ ev_ret e = -1 /\ ev_err e = 4).
Proof. exact notified_returns_0_refuted_with_interrupts. Qed.
Print Assumptions c03_notified_returns_0_refuted_with_interrupts.

(* the model never leaves the domain where the C++ is defined (prelocked_thread_interrupt is only ever
   applied to a SLEEPING thread: its compiled-out assert would hold) *)
Theorem c03_never_bad : forall nv kinds home progs s, Reach nv kinds home progs s -> bad s = false.
Proof. exact never_bad. Qed.
Print Assumptions c03_never_bad.

(* cv_wait_result, other direction, on the property's own quantifier domain (programs without
   thread_interrupt): a waiter picked by notify_one / notify_all resumes with errno -1: wait() returns 0.
   (With interrupts: refuted above.) *)
Theorem c03_cv_notified_returns_0 : forall nv kinds home progs s t c l n,
  interrupt_free progs -> Reach nv kinds home progs s ->
  tpc (th s t) = PWaitSlept c l -> wk (th s t) = WNotified n ->
  let '(ret, en, _) := take_err s t in translate ret en = (0, 0).
Proof.
  intros nv kinds home progs s t c l n Hf R P Hw.
  pose proof (ne_err s (NE_reachable _ _ _ _ _ Hf R) _ _ _ _ P Hw) as He.
  unfold take_err. rewrite He. simpl. reflexivity.
Qed.
Print Assumptions c03_cv_notified_returns_0.
