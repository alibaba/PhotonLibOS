From Coq Require Import ZArith List Lia.
From PV Require Import Base.U64 C04.C04_Heap C11.C11_Model C11.C11_ProofsResp C11.C11_ProofsSafety C11.C11_Proofs.
Import ListNotations.

(* the property, for the code with the fix: whatever the program, the peer's script and the schedule,
   every access to a context (or its buffers) by a thread other than its owner names a LIVE context *)
Theorem rpc_no_access_after_return :
  forall calls script es s,
    run_events (init true calls script) es = Some s ->
    forall a, In a (s_acc s) -> a_live a = true.
Proof. intros calls script es s H. exact (i_acc _ (proj1 (Good_reachable _ _ _ _ H))). Qed.
Print Assumptions rpc_no_access_after_return.

(* ... and every context still registered in the map, or being collected by the reader, is live *)
Theorem rpc_registered_contexts_live :
  forall calls script es s,
    run_events (init true calls script) es = Some s ->
    (forall g c, In (g, c) (s_map s) -> c_live (s_ctx s c) = true) /\
    (forall t g, adopted_by (pcof s t) = Some g -> c_live (s_ctx s g) = true).
Proof.
  intros calls script es s H. destruct (Good_reachable _ _ _ _ H) as [I _]. split.
  - intros g c K. rewrite (i_live _ I). apply (i_map _ I _ _ K).
  - intros t g K. rewrite (i_live _ I). apply (i_adopt _ I _ _ K).
Qed.
Print Assumptions rpc_registered_contexts_live.

(* own response: a call that returned r >= 0 holds in its buffer exactly the r bytes that followed, on the
   wire, a well-formed header carrying the tag the engine gave to this call and announcing r bytes *)
Theorem rpc_own_response :
  forall calls script es s,
    run_events (init true calls script) es = Some s ->
    forall t r p, In (t, r, p) (rets (s_trace s)) -> (0 <= r)%Z ->
      exists pre h post, flat script = pre ++ h ++ p ++ post /\
                         hdr_ok h (c_tag0 (s_ctx s t)) (length p) /\ r = Z.of_nat (length p).
Proof.
  intros calls script es s H t r p Hin Hr. destruct (Good_reachable _ _ _ _ H) as [_ Jc].
  destruct (j_ret _ _ Jc t r p Hin) as [_ B]. destruct (B Hr) as (b1 & b2 & b3).
  destruct (j_coll _ _ Jc t b1) as (pre & h & post & E & Hk & Hq); [congruence|].
  exists pre, h, (post ++ flat (s_script s)). subst p. split; [|split; [exact Hk|congruence]].
  rewrite (j_wire _ _ Jc), E, <- !app_assoc. reflexivity.
Qed.
Print Assumptions rpc_own_response.

(* the model's only `left the domain` branch (s_bad: `goto again` after a failed insert of an automatic tag,
   out-of-order-execution.cpp 82-90) is dead: in every reachable state the next automatic tag is not in the map *)
Theorem rpc_auto_tag_fresh :
  forall calls script es s,
    run_events (init true calls script) es = Some s -> map_find (s_mtag s + 1)%Z (s_map s) = None.
Proof.
  intros calls script es s H. destruct (Good_reachable _ _ _ _ H) as [I _].
  destruct (map_find (s_mtag s + 1)%Z (s_map s)) as [c|] eqn:F; [|reflexivity].
  exfalso. apply map_find_In in F. destruct (i_map _ I _ _ F) as (a & b & _).
  destruct (i_ctx _ I _ a) as (m & _). pose proof (i_tag0 _ I _ m). lia.
Qed.
Print Assumptions rpc_auto_tag_fresh.

(* the tag a call wrote into its request header is the tag its context carries (so `own response` is
   about the tag the peer saw) *)
Theorem rpc_request_tag :
  forall calls script es s,
    run_events (init true calls script) es = Some s ->
    forall t tag size ret now, In (TvWrite t tag size ret now) (s_trace s) -> tag = c_tag0 (s_ctx s t).
Proof.
  intros calls script es s H t tag size ret now Hin. destruct (Good_reachable _ _ _ _ H) as [I _].
  apply (proj2 (i_logs _ I) (t, tag)). unfold writes. apply in_flat_map.
  exists (TvWrite t tag size ret now). split; [exact Hin|left; reflexivity].
Qed.
Print Assumptions rpc_request_tag.

(* failure isolation: (i) a thread only ever erases its own tag — or, as the reader, the tag of the context it
   is about to deliver the response to; (ii) the bytes consumed after a header go to the owner of the header's tag;
   (iii) a call that has returned is no longer registered *)
Theorem rpc_failure_isolated :
  forall calls script es s,
    run_events (init true calls script) es = Some s ->
    (forall e, In e (s_erases s) ->
       match e_adopt e with
       | None => e_tag e = c_tag0 (s_ctx s (e_by e))
       | Some g => e_tag e = c_tag0 (s_ctx s g)
       end) /\
    (forall t g size need, reading_body (pcof s t) = Some (g, size, need) -> body_facts s g size need) /\
    (forall t r p k, In (t, r, p) (rets (s_trace s)) -> ~ In (k, t) (s_map s)).
Proof.
  intros calls script es s H. destruct (Good_reachable _ _ _ _ H) as [I Jc]. split; [|split].
  - intros e He. destruct (proj1 (i_logs _ I) e He) as [_ O]. destruct (e_adopt e); exact O.
  - exact (j_body _ _ Jc).
  - intros t r p k Hr Hm. destruct (j_ret _ _ Jc t r p Hr) as [D _].
    destruct (i_map _ I _ _ Hm) as (a & _). rewrite D in a. discriminate.
Qed.
Print Assumptions rpc_failure_isolated.

Theorem rpc_no_access_after_return_refuted :
  exists calls script es s,
    run_events (init false calls script) es = Some s /\
    exists a, In a (s_acc s) /\ a_live a = false.
Proof. exact no_access_after_return_refuted_pinned. Qed.
Print Assumptions rpc_no_access_after_return_refuted.

Theorem rpc_coop_run_is_a_schedule :
  forall fix_ calls script tfuel fuel,
    let d := run_case fix_ calls script tfuel fuel in
    run_events (init fix_ calls script) (rev (d_evs d)) = Some (d_st d).
Proof. exact drive_reachable. Qed.
Print Assumptions rpc_coop_run_is_a_schedule.
