(* C11_ProofsSafety.v — the inductive invariant of the FIXED protocol (s_fix = true), for every schedule of
   the transition system `step`: `Inv` (who owns which context; liveness; the ghost logs) and `J` (which bytes
   are where).  One walk through the micro steps proves both; `no access after return`, `own response` and
   `failure isolated` are read off them in C11_Properties.v. *)
From Coq Require Import ZArith List Bool Arith Lia.
From PV Require Import Base.U64 C04.C04_Heap C11.C11_Model C11.C11_ProofsResp.
Import ListNotations.
Local Open Scope Z_scope.

Definition pcof (s : state) (t : tid) : pc := t_pc (s_thr s t).

Definition is_follower (p : pc) : bool :=
  match p with PWaitLoop _ | PParked _ => true | _ => false end.
Definition reader_otag (p : pc) : option Z :=
  match p with
  | PReaderLoop o | PHdrRead o _ _ | PHdrSleep o _ _ | PBodyRead o _ _ _ _ | PBodySleep o _ _ _ _ => Some o
  | _ => None
  end.
Definition is_reader (p : pc) : bool := match reader_otag p with Some _ => true | None => false end.
Definition inside (p : pc) : bool := is_follower p || is_reader p.
Definition adopted_by (p : pc) : option tid :=
  match p with PBodyRead _ g _ _ _ | PBodySleep _ g _ _ _ => Some g | _ => None end.

Definition pre_call (p : pc) : bool :=
  match p with PInit | PStartSleep | PCall => true | _ => false end.

Lemma inside_follower_or_reader p : inside p = true -> is_reader p = false -> is_follower p = true.
Proof. unfold inside. destruct (is_follower p); cbn; congruence. Qed.
Lemma reader_inside p o : reader_otag p = Some o -> inside p = true.
Proof. intros H. unfold inside, is_reader. rewrite H. apply orb_true_r. Qed.
Lemma reader_not_follower p o : reader_otag p = Some o -> is_follower p = false.
Proof. destruct p; cbn; congruence. Qed.
Lemma adopted_is_reader p g : adopted_by p = Some g -> is_reader p = true.
Proof. destruct p; cbn; congruence. Qed.
Lemma reading_is_reader p : (reading_hdr p <> None \/ reading_body p <> None) -> is_reader p = true.
Proof. destruct p; cbn; intros [H|H]; congruence. Qed.
Lemma reading_body_adopted p g size need : reading_body p = Some (g, size, need) -> adopted_by p = Some g.
Proof. destruct p; cbn; intros H; inversion H; reflexivity. Qed.
Lemma phase_eqb_true a b : phase_eqb a b = true -> a = b.
Proof. destruct a, b; cbn; congruence. Qed.

Lemma updn_same {A} (f : nat -> A) k v : updn f k v k = v.
Proof. unfold updn. rewrite Nat.eqb_refl. reflexivity. Qed.
Lemma updn_other {A} (f : nat -> A) k v x : x <> k -> updn f k v x = f x.
Proof. unfold updn. intros H. destruct (Nat.eqb_spec x k); congruence. Qed.

Ltac eqb_case x t := destruct (Nat.eqb_spec x t); [subst x|].

Lemma pcof_set_pc s t p x : pcof (set_pc s t p) x = if Nat.eqb x t then p else pcof s x.
Proof. unfold pcof, set_pc. cbn. unfold updn. destruct (Nat.eqb x t); reflexivity. Qed.
Lemma pcof_sleep s t w p x : pcof (sleep s t w p) x = if Nat.eqb x t then p else pcof s x.
Proof. unfold pcof, sleep. cbn. unfold updn. destruct (Nat.eqb x t); reflexivity. Qed.
Lemma ctx_upd_ctx s g c x : s_ctx (upd_ctx s g c) x = if Nat.eqb x g then c else s_ctx s x.
Proof. reflexivity. Qed.

Lemma map_find_In g m c : map_find g m = Some c -> In (g, c) m.
Proof.
  induction m as [|[k v] r IH]; cbn; [discriminate|].
  destruct (Z.eqb_spec k g); intros H.
  - inversion H; subst. left; reflexivity.
  - right; auto.
Qed.
Lemma map_find_None g m : map_find g m = None -> forall c, ~ In (g, c) m.
Proof.
  induction m as [|[k v] r IH]; cbn; intros H c; [tauto|].
  destruct (Z.eqb_spec k g); [discriminate|].
  intros [E|E]. inversion E; congruence. eapply IH; eauto.
Qed.
Lemma map_erase_In g m k c : In (k, c) (map_erase g m) <-> In (k, c) m /\ k <> g.
Proof.
  unfold map_erase. rewrite filter_In. cbn. split; intros [H1 H2]; split; auto.
  - destruct (Z.eqb_spec k g); [discriminate|auto].
  - destruct (Z.eqb_spec k g); [contradiction|reflexivity].
Qed.
Lemma map_find_app g m c : map_find g (m ++ [(g, c)]) <> None.
Proof.
  induction m as [|[k v] r IH]; cbn.
  - rewrite Z.eqb_refl. discriminate.
  - destruct (k =? g); [discriminate|exact IH].
Qed.

(* what Inv reads, and what J reads; most of what a micro step does (errno, stream timeout, wait queue,
   thread status, the other trace events) is in neither *)
Record same_c (s s' : state) : Prop := {
  sc_pc : forall t, pcof s' t = pcof s t;
  sc_ctx : forall t, s_ctx s' t = s_ctx s t;
  sc_map : s_map s' = s_map s;
  sc_rlock : s_rlock s' = s_rlock s;
  sc_acc : s_acc s' = s_acc s;
  sc_mtag : s_mtag s' = s_mtag s;
  sc_fix : s_fix s' = s_fix s;
  sc_erases : s_erases s' = s_erases s;
  sc_writes : writes (s_trace s') = writes (s_trace s) }.
Record same_j (s s' : state) : Prop := {
  sj_pc : forall t, pcof s' t = pcof s t;
  sj_ctx : forall t, s_ctx s' t = s_ctx s t;
  sj_hdr : s_hdr s' = s_hdr s;
  sj_script : s_script s' = s_script s;
  sj_consumed : s_consumed s' = s_consumed s;
  sj_rets : rets (s_trace s') = rets (s_trace s) }.
Definition same_view (s s' : state) : Prop := same_c s s' /\ same_j s s'.

(* for two states whose components above are convertible *)
Ltac sv_refl := split; constructor; reflexivity.

Lemma same_view_refl s : same_view s s.
Proof. sv_refl. Qed.
Lemma same_view_trans s1 s2 s3 : same_view s1 s2 -> same_view s2 s3 -> same_view s1 s3.
Proof. intros [[] []] [[] []]; split; constructor; intros; congruence. Qed.

Lemma sv_errno s e : same_view s (set_errno s e).
Proof. sv_refl. Qed.
Lemma sv_stat s t st e : same_view s (set_thr s (updn (s_thr s) t (mkThr (pcof s t) st e))).
Proof.
  split; constructor; try reflexivity; intros x; unfold pcof; cbn; unfold updn;
    destruct (Nat.eqb_spec x t); subst; reflexivity.
Qed.
Lemma sv_sleep s t w p : same_view (set_pc s t p) (sleep s t w p).
Proof.
  split; constructor; try reflexivity; intros x; unfold pcof, sleep, set_pc; cbn; unfold updn;
    destruct (Nat.eqb x t); reflexivity.
Qed.
Lemma sv_set_pc a b t p : same_view a b -> same_view (set_pc a t p) (set_pc b t p).
Proof.
  intros [[] []]. split; constructor; try assumption; intros x; rewrite !pcof_set_pc; destruct (Nat.eqb x t); auto.
Qed.
Lemma sv_wake s h e : same_view s (wake s h e).
Proof. eapply same_view_trans; [apply (sv_stat s h TReady e)|sv_refl]. Qed.
Lemma sv_interrupt s h e : same_view s (interrupt s h e).
Proof.
  unfold interrupt. destruct (t_stat (s_thr s h)); [|apply sv_wake].
  destruct (t_err (s_thr s h) =? 0); [|apply same_view_refl]. apply (sv_stat s h (t_stat (s_thr s h)) e).
Qed.
Lemma sv_notify_one s : same_view s (notify_one s).
Proof. unfold notify_one. destruct (s_waitq s). apply same_view_refl. apply sv_wake. Qed.
Lemma sv_usleep_ret s t : same_view s (fst (usleep_ret s t)).
Proof.
  unfold usleep_ret. destruct (t_err (s_thr s t) =? 0); cbn [fst]; [apply same_view_refl|].
  eapply same_view_trans; [apply (sv_stat s t (t_stat (s_thr s t)) 0)|sv_refl].
Qed.
Lemma sv_cvwait_ret s t : same_view s (fst (cvwait_ret s t)).
Proof.
  unfold cvwait_ret. pose proof (sv_usleep_ret s t) as H.
  destruct (usleep_ret s t) as [s1 r]. cbn [fst] in H.
  destruct (r =? 0); cbn [fst].
  - eapply same_view_trans; [exact H|sv_refl].
  - destruct (s_errno s1 =? -1); exact H.
Qed.

Lemma do_send_view s t tag dl :
  exists tr, same_view (set_trace s tr) (fst (do_send s t tag dl)) /\ rets tr = rets (s_trace s) /\
             incl (writes tr) ((t, tag) :: writes (s_trace s)).
Proof.
  unfold do_send.
  destruct (dl <? s_now s);
    [exists (s_trace s); split; [sv_refl|split; [reflexivity|apply incl_tl, incl_refl]]|].
  destruct (4294967295 <? k_req (nth t (s_calls s) dummy_call));
    [exists (s_trace s); split; [sv_refl|split; [reflexivity|apply incl_tl, incl_refl]]|].
  exists (TvWrite t tag (k_req (nth t (s_calls s) dummy_call))
                  (if s_shut s then -1 else k_req (nth t (s_calls s) dummy_call) + 40) (s_now s) :: s_trace s).
  split; [|split; [reflexivity|apply incl_refl]].
  destruct (s_shut s); match goal with |- context [if ?c then (_, 0) else _] => destruct c end; sv_refl.
Qed.

(* the state in which ret_call's DEFERs have run *)
Definition ret_mid (s : state) (r : Z) (w rd : bool) : state :=
  let s1 := if rd then set_rlock s None else s in
  let s2 := if w then notify_one s1 else s1 in
  if r <? 0 then (if s_errno s2 =? ECONNRESET then s2 else set_errno s2 EFAULT) else s2.
Definition ret_tail (m : state) (t : tid) (c : ctx) (r e now : Z) : state :=
  let rr := if r <? 0 then -1 else r in
  park (add_trace (upd_ctx m t (cset_live c false))
                  (TvRet t rr (if rr <? 0 then e else 0) (if rr <? 0 then [] else c_buf c) now)) t.
(* what ret_call looks like: thread t is done, its context c is dead, a reader has released m_mutex_r *)
Definition ret_abs (s : state) (t : tid) (c : ctx) (r : Z) (rd : bool) : state :=
  ret_tail (set_rlock s (if rd then None else s_rlock s)) t c r 0 0.

Lemma pcof_ret_abs s t c r rd x : pcof (ret_abs s t c r rd) x = if Nat.eqb x t then PDone else pcof s x.
Proof. unfold ret_abs, ret_tail, park. rewrite pcof_sleep. reflexivity. Qed.
Lemma ctx_ret_abs s t c r rd x : s_ctx (ret_abs s t c r rd) x = if Nat.eqb x t then cset_live c false else s_ctx s x.
Proof. reflexivity. Qed.

Lemma sv_ret_mid s r w (rd : bool) : same_view (set_rlock s (if rd then None else s_rlock s)) (ret_mid s r w rd).
Proof.
  unfold ret_mid. set (s1 := if rd then set_rlock s None else s).
  assert (H1 : same_view (set_rlock s (if rd then None else s_rlock s)) s1) by (unfold s1; destruct rd; sv_refl).
  assert (H2 : same_view (set_rlock s (if rd then None else s_rlock s)) (if w then notify_one s1 else s1)).
  { destruct w; [|exact H1]. eapply same_view_trans; [exact H1|apply sv_notify_one]. }
  destruct (r <? 0); [|exact H2].
  destruct (s_errno _ =? ECONNRESET); [exact H2|].
  eapply same_view_trans; [exact H2|sv_refl].
Qed.

Lemma ret_tail_view a m t c r e e' n n' : same_view a m -> same_view (ret_tail a t c r e n) (ret_tail m t c r e' n').
Proof.
  intros [[c1 c2 c3 c4 c5 c6 c7 c8 c9] [_ _ j3 j4 j5 j6]]. unfold ret_tail, park.
  split; constructor; try assumption.
  - intros x. rewrite !pcof_sleep. destruct (Nat.eqb x t); [reflexivity|apply c1].
  - intros x. cbn. unfold updn. rewrite c2. reflexivity.
  - intros x. rewrite !pcof_sleep. destruct (Nat.eqb x t); [reflexivity|apply c1].
  - intros x. cbn. unfold updn. rewrite c2. reflexivity.
  - cbn. unfold rets in j6. rewrite j6. reflexivity.
Qed.

Lemma ret_call_view s t r w rd : same_view (ret_abs s t (s_ctx s t) r rd) (ret_call s t r w rd).
Proof.
  pose proof (sv_ret_mid s r w rd) as V.
  change (ret_call s t r w rd)
    with (ret_tail (ret_mid s r w rd) t (s_ctx (ret_mid s r w rd) t) r (s_errno (ret_mid s r w rd)) (s_now s)).
  rewrite (sc_ctx _ _ (proj1 V) t). apply ret_tail_view. exact V.
Qed.

Lemma ret_abs_upd s t c0 c r rd : same_view (ret_abs s t c r rd) (ret_abs (upd_ctx s t c0) t c r rd).
Proof.
  split; constructor; try reflexivity; intros x; cbn; unfold updn; destruct (Nat.eqb x t); reflexivity.
Qed.

Definition tag_of (s : state) (x : tid) (g : Z) : Prop := c_made (s_ctx s x) = true /\ g = c_tag0 (s_ctx s x).

(* every m_map.erase took out the tag of the eraser's own context, or — the reader adopting — the tag of the
   context adopted; every request header carried the tag of the writer's context *)
Definition logs_ok (s : state) : Prop :=
  (forall e, In e (s_erases s) -> tag_of s (match e_adopt e with None => e_by e | Some g => g end) (e_tag e)) /\
  (forall w, In w (writes (s_trace s)) -> tag_of s (fst w) (snd w)).

(* a context, once made, keeps its tag: so the logs only have to be looked at where they grow *)
Lemma logs_ok_stable s s' :
  (forall x g, tag_of s x g -> tag_of s' x g) ->
  s_erases s' = s_erases s -> writes (s_trace s') = writes (s_trace s) -> logs_ok s -> logs_ok s'.
Proof. intros St E W [A B]. split; [rewrite E|rewrite W]; auto. Qed.

(* reader t may deliver the response it has the header of into g's context *)
Definition delivering (s : state) (t g : tid) : Prop :=
  inside (pcof s g) = true /\ (forall k, ~ In (k, g) (s_map s)) /\
  c_tag (s_ctx s t) = c_tag0 (s_ctx s g) /\ c_phase (s_ctx s g) <> COLLECTED /\
  (g <> t -> is_follower (pcof s g) = true).

Record Inv (s : state) : Prop := {
  i_fix : s_fix s = true;
  i_live : forall t, c_live (s_ctx s t) = inside (pcof s t);
  i_ctx : forall t, inside (pcof s t) = true ->
          c_made (s_ctx s t) = true /\ c_th (s_ctx s t) = Some t /\ c_phase (s_ctx s t) <> BEFORE_ISSUE;
  i_tag0 : forall t, c_made (s_ctx s t) = true -> c_tag0 (s_ctx s t) <= s_mtag s;
  i_inj : forall t u, c_made (s_ctx s t) = true -> c_made (s_ctx s u) = true ->
          c_tag0 (s_ctx s t) = c_tag0 (s_ctx s u) -> t = u;
  i_map : forall g c, In (g, c) (s_map s) ->
          inside (pcof s c) = true /\ c_tag0 (s_ctx s c) = g /\ c_phase (s_ctx s c) <> COLLECTED;
  i_ftag : forall t, is_follower (pcof s t) = true -> c_tag (s_ctx s t) = c_tag0 (s_ctx s t);
  i_otag : forall t o, reader_otag (pcof s t) = Some o -> o = c_tag0 (s_ctx s t) /\ s_rlock s = Some t;
  i_adopt : forall t g, adopted_by (pcof s t) = Some g -> delivering s t g;
  i_acc : forall a, In a (s_acc s) -> a_live a = true;
  i_pre : forall t, c_made (s_ctx s t) = true -> pre_call (pcof s t) = false;
  i_logs : logs_ok s }.

Record J (w0 : list Z) (s : state) : Prop := {
  j_wire : w0 = s_consumed s ++ flat (s_script s);
  j_hlen : length (s_hdr s) = 40%nat;
  j_hdr : forall t got, reading_hdr (pcof s t) = Some got -> hdr_facts s got;
  j_body : forall t g size need, reading_body (pcof s t) = Some (g, size, need) -> body_facts s g size need;
  j_coll : forall t, c_phase (s_ctx s t) = COLLECTED -> 0 <= c_ret (s_ctx s t) ->
           good_resp (s_consumed s) (s_ctx s t);
  j_ret : forall t r p, In (t, r, p) (rets (s_trace s)) ->
          pcof s t = PDone /\
          (0 <= r -> c_phase (s_ctx s t) = COLLECTED /\ r = c_ret (s_ctx s t) /\ p = c_buf (s_ctx s t)) }.

Definition Good (w0 : list Z) (s : state) : Prop := Inv s /\ J w0 s.

Lemma Inv_view s s' : same_c s s' -> Inv s -> Inv s'.
Proof.
  intros [v1 v2 v3 v4 v5 v6 v7 v8 v9] [h1 h2 h3 h4 h5 h6 h7 h8 h9 h10 h11 h12].
  constructor.
  - congruence.
  - intros t. rewrite v1, v2. apply h2.
  - intros t. rewrite v1, v2. apply h3.
  - intros t. rewrite v2, v6. apply h4.
  - intros t u. rewrite !v2. apply h5.
  - intros g c. rewrite v3, v1, v2. apply h6.
  - intros t. rewrite v1, v2. apply h7.
  - intros t o. rewrite v1, v2, v4. apply h8.
  - intros t g. unfold delivering. rewrite !v1, !v2, v3. apply h9.
  - intros a. rewrite v5. apply h10.
  - intros t. rewrite v1, v2. apply h11.
  - eapply logs_ok_stable; [|exact v8|exact v9|exact h12]. intros x g. unfold tag_of. rewrite v2. auto.
Qed.

Lemma J_same w0 s s' : same_j s s' -> J w0 s -> J w0 s'.
Proof.
  intros [v1 v2 v3 v4 v5 v6] [h1 h2 h3 h4 h6 h7].
  constructor.
  - rewrite v5, v4. exact h1.
  - rewrite v3. exact h2.
  - intros t got. rewrite v1. unfold hdr_facts. rewrite v5, v3. apply h3.
  - intros t g size need. rewrite v1. unfold body_facts. rewrite v5, v3, v2. apply h4.
  - intros t. rewrite v2, v5. apply h6.
  - intros t r p. rewrite v6, v1, v2. apply h7.
Qed.

Lemma Good_view w0 s s' : same_view s s' -> Good w0 s -> Good w0 s'.
Proof. intros [C V] [I Jc]. split; [eapply Inv_view|eapply J_same]; eauto. Qed.

Lemma reader_unique s t u : Inv s -> is_reader (pcof s t) = true -> is_reader (pcof s u) = true -> t = u.
Proof.
  intros I Ht Hu. unfold is_reader in *.
  destruct (reader_otag (pcof s t)) eqn:Et; [|discriminate].
  destruct (reader_otag (pcof s u)) eqn:Eu; [|discriminate].
  destruct (i_otag _ I _ _ Et) as [_ A]. destruct (i_otag _ I _ _ Eu) as [_ B]. congruence.
Qed.

Lemma only_reader_reads s t o :
  Inv s -> reader_otag (pcof s t) = Some o ->
  forall x, x <> t -> reading_hdr (pcof s x) = None /\ reading_body (pcof s x) = None /\ adopted_by (pcof s x) = None.
Proof.
  intros I R x N.
  assert (NR : is_reader (pcof s x) = false).
  { destruct (is_reader (pcof s x)) eqn:E; auto. exfalso. apply N. apply (reader_unique s x t I E).
    unfold is_reader. rewrite R. reflexivity. }
  split; [|split].
  - destruct (reading_hdr (pcof s x)) eqn:E; auto. rewrite reading_is_reader in NR; [discriminate|left; congruence].
  - destruct (reading_body (pcof s x)) eqn:E; auto. rewrite reading_is_reader in NR; [discriminate|right; congruence].
  - destruct (adopted_by (pcof s x)) eqn:E; auto. apply adopted_is_reader in E. congruence.
Qed.

Lemma reader_made s t otag : Inv s -> reader_otag (pcof s t) = Some otag -> tag_of s t otag.
Proof.
  intros I R. split; [|apply (i_otag _ I _ _ R)]. apply (i_ctx _ I). eapply reader_inside; eauto.
Qed.

(* a context outside its call, or already collected, is neither registered nor adopted *)
Lemma unreferenced s t :
  Inv s -> inside (pcof s t) = false \/ c_phase (s_ctx s t) = COLLECTED ->
  (forall k, ~ In (k, t) (s_map s)) /\ (forall u, adopted_by (pcof s u) <> Some t).
Proof.
  intros I O. split.
  - intros k H. destruct (i_map _ I _ _ H) as (a & _ & c). destruct O; congruence.
  - intros u H. destruct (i_adopt _ I _ _ H) as (a & _ & _ & d & _). destruct O; congruence.
Qed.

(* erasing a context's tag unregisters it *)
Lemma erased_unregistered s t g :
  Inv s -> c_tag0 (s_ctx s t) = g -> forall k, ~ In (k, t) (map_erase g (s_map s)).
Proof.
  intros I E k H. apply map_erase_In in H. destruct H as [H N].
  destruct (i_map _ I _ _ H) as (_ & b & _). congruence.
Qed.

Lemma pc_class {A} (f : pc -> A) s t p : f p = f (pcof s t) -> forall x, f (pcof (set_pc s t p) x) = f (pcof s x).
Proof. intros E x. rewrite pcof_set_pc. eqb_case x t; auto. Qed.
Lemma ctx_class {A} (f : ctx -> A) s g c' :
  f c' = f (s_ctx s g) -> forall x, f (s_ctx (upd_ctx s g c') x) = f (s_ctx s x).
Proof. intros E x. rewrite ctx_upd_ctx. eqb_case x g; auto. Qed.

Lemma Inv_pc_adopt s t p :
  Inv s ->
  is_follower p = is_follower (pcof s t) -> reader_otag p = reader_otag (pcof s t) ->
  (forall g, adopted_by p = Some g -> adopted_by (pcof s t) = Some g \/ delivering s t g) ->
  pre_call p && negb (pre_call (pcof s t)) = false ->
  Inv (set_pc s t p).
Proof.
  intros [h1 h2 h3 h4 h5 h6 h7 h8 h9 h10 h11 h12] Hf Hr Ha Hp.
  assert (Hin : inside p = inside (pcof s t)) by (unfold inside, is_reader; rewrite Hf, Hr; reflexivity).
  constructor.
  - exact h1.
  - intros x. rewrite (pc_class inside _ _ _ Hin). apply h2.
  - intros x. rewrite (pc_class inside _ _ _ Hin). apply h3.
  - exact h4.
  - exact h5.
  - intros g c. rewrite (pc_class inside _ _ _ Hin). apply h6.
  - intros x. rewrite (pc_class is_follower _ _ _ Hf). apply h7.
  - intros x o. rewrite (pc_class reader_otag _ _ _ Hr). apply h8.
  - intros x g H. unfold delivering. rewrite (pc_class inside _ _ _ Hin), (pc_class is_follower _ _ _ Hf).
    rewrite pcof_set_pc in H. revert H. eqb_case x t; [|apply h9].
    intros H. destruct (Ha g H) as [H'|H']; [apply h9; exact H'|exact H'].
  - exact h10.
  - intros x M. rewrite pcof_set_pc. eqb_case x t; [|apply h11; exact M].
    rewrite (h11 t M) in Hp. destruct (pre_call p); [discriminate Hp|reflexivity].
  - exact h12.
Qed.

Lemma Inv_pc s t q p :
  Inv s -> pcof s t = q ->
  is_follower p = is_follower q -> reader_otag p = reader_otag q -> adopted_by p = adopted_by q ->
  pre_call p && negb (pre_call q) = false ->
  Inv (set_pc s t p).
Proof.
  intros I <- Hf Hr Ha Hp. apply Inv_pc_adopt; auto. intros g E. left. congruence.
Qed.

Lemma Inv_ctx_upd s g c' :
  Inv s ->
  c_made c' = c_made (s_ctx s g) -> c_tag0 c' = c_tag0 (s_ctx s g) -> c_live c' = c_live (s_ctx s g) ->
  c_th c' = c_th (s_ctx s g) ->
  (c_tag c' = c_tag (s_ctx s g) \/ (is_follower (pcof s g) = false /\ forall x, adopted_by (pcof s x) = None)) ->
  (c_phase c' = c_phase (s_ctx s g) \/ c_phase c' = WAITING \/
   (c_phase c' = COLLECTED /\ (forall k, ~ In (k, g) (s_map s)) /\ forall x, adopted_by (pcof s x) <> Some g)) ->
  Inv (upd_ctx s g c').
Proof.
  intros [h1 h2 h3 h4 h5 h6 h7 h8 h9 h10 h11 h12] Em E0 El Eh Et Ep.
  pose proof (ctx_class c_made _ _ _ Em) as Hm. pose proof (ctx_class c_tag0 _ _ _ E0) as Ht0.
  assert (Hp : forall x, c_phase (s_ctx (upd_ctx s g c') x) = c_phase (s_ctx s x) \/
                         c_phase (s_ctx (upd_ctx s g c') x) = WAITING \/
                         (c_phase (s_ctx (upd_ctx s g c') x) = COLLECTED /\ (forall k, ~ In (k, x) (s_map s)) /\
                          forall y, adopted_by (pcof s y) <> Some x)).
  { intros x. rewrite ctx_upd_ctx. eqb_case x g; auto. }
  constructor.
  - exact h1.
  - intros x. rewrite (ctx_class c_live _ _ _ El). apply h2.
  - intros x H. rewrite Hm, (ctx_class c_th _ _ _ Eh). destruct (h3 x H) as (a & b & c). split; [exact a|split; [exact b|]].
    destruct (Hp x) as [E|[E|[E _]]]; rewrite E; [exact c|discriminate..].
  - intros x. rewrite Hm, Ht0. apply h4.
  - intros x y. rewrite !Hm, !Ht0. apply h5.
  - intros k c H. destruct (h6 k c H) as (a & b & d). rewrite Ht0. split; [exact a|split; [exact b|]].
    destruct (Hp c) as [E|[E|(_ & E & _)]]; [rewrite E; exact d|rewrite E; discriminate|exfalso; eapply E; eauto].
  - intros x H. change (is_follower (pcof s x) = true) in H. rewrite Ht0, ctx_upd_ctx. eqb_case x g; [|apply h7; exact H].
    destruct Et as [Et|[Et _]]; [rewrite Et; apply h7; exact H|congruence].
  - intros x o. rewrite Ht0. apply h8.
  - intros x y H. change (adopted_by (pcof s x) = Some y) in H. destruct (h9 x y H) as (a & b & c & d & e). unfold delivering. rewrite Ht0.
    split; [exact a|split; [exact b|split; [|split; [|exact e]]]].
    + rewrite ctx_upd_ctx. eqb_case x g; [|exact c]. destruct Et as [Et|[_ Et]]; [congruence|]. rewrite Et in H. discriminate.
    + destruct (Hp y) as [E|[E|(_ & _ & E)]]; [rewrite E; exact d|rewrite E; discriminate|exfalso; eapply E; eauto].
  - exact h10.
  - intros x. rewrite Hm. apply h11.
  - apply (logs_ok_stable s); [|reflexivity|reflexivity|exact h12]. intros x k. unfold tag_of. rewrite Hm, Ht0. auto.
Qed.

Lemma Inv_erase s by_ g ad :
  Inv s -> tag_of s (match ad with None => by_ | Some x => x end) g -> Inv (erase_tag s by_ g ad).
Proof.
  intros [h1 h2 h3 h4 h5 h6 h7 h8 h9 h10 h11 h12] T. constructor; try assumption.
  - intros k c H. apply map_erase_In in H. destruct H as [H _]. exact (h6 _ _ H).
  - intros t g0 H. destruct (h9 t g0 H) as (a & b & c). split; [exact a|split; [|exact c]].
    intros k Hk. apply map_erase_In in Hk. destruct Hk. eapply b; eauto.
  - destruct h12 as [A B]. split; [|exact B]. intros e [<-|H]; [exact T|apply A; exact H].
Qed.

Lemma Inv_add_acc s by_ g k : Inv s -> c_live (s_ctx s g) = true -> Inv (add_acc s by_ g k).
Proof.
  intros [h1 h2 h3 h4 h5 h6 h7 h8 h9 h10 h11 h12] L. constructor; try assumption.
  intros a [<-|H]; [exact L|apply h10; exact H].
Qed.

(* c', the last value of the returning context, is a parameter so that the reader marking its OWN context
   COLLECTED and returning is one step: in between, i_adopt does not hold *)
Lemma Inv_ret s t c' r rd :
  Inv s -> (forall k, ~ In (k, t) (s_map s)) -> (forall u, u <> t -> adopted_by (pcof s u) <> Some t) ->
  rd = is_reader (pcof s t) -> c_made c' = c_made (s_ctx s t) -> c_tag0 c' = c_tag0 (s_ctx s t) ->
  Inv (ret_abs s t c' r rd).
Proof.
  intros I Hmap Had Hrd Em E0. pose proof I as [h1 h2 h3 h4 h5 h6 h7 h8 h9 h10 h11 h12].
  set (s' := ret_abs s t c' r rd).
  pose proof (pcof_ret_abs s t c' r rd) as u1. pose proof (ctx_ret_abs s t c' r rd) as u2. fold s' in u1, u2.
  assert (Hm : forall x, c_made (s_ctx s' x) = c_made (s_ctx s x)) by (intros x; rewrite u2; eqb_case x t; auto).
  assert (Ht0 : forall x, c_tag0 (s_ctx s' x) = c_tag0 (s_ctx s x)) by (intros x; rewrite u2; eqb_case x t; auto).
  constructor.
  - exact h1.
  - intros x. rewrite u1, u2. eqb_case x t; [reflexivity|apply h2].
  - intros x. rewrite u1, u2. eqb_case x t; [cbn; discriminate|apply h3].
  - intros x. rewrite Hm, Ht0. apply h4.
  - intros x y. rewrite !Hm, !Ht0. apply h5.
  - intros g c H. assert (c <> t) by (intros ->; eapply Hmap; eauto).
    rewrite u1, u2. destruct (Nat.eqb_spec c t); [contradiction|]. apply h6; exact H.
  - intros x. rewrite u1, u2. eqb_case x t; [cbn; discriminate|apply h7].
  - intros x o. rewrite u1, u2. eqb_case x t; [cbn; discriminate|].
    intros H. destruct (h8 x o H) as [A B]. split; [exact A|].
    change (s_rlock s') with (if rd then None else s_rlock s). destruct rd; [|exact B]. exfalso. apply n.
    apply (reader_unique s x t I); [unfold is_reader; rewrite H; reflexivity|congruence].
  - intros x g. rewrite u1. eqb_case x t; [cbn; discriminate|].
    intros H. assert (g <> t) by (intros ->; eapply Had; eauto).
    unfold delivering. rewrite u1, !u2. destruct (Nat.eqb_spec g t); [contradiction|]. destruct (Nat.eqb_spec x t); [contradiction|].
    apply h9. exact H.
  - exact h10.
  - intros x. rewrite u1, Hm. eqb_case x t; [reflexivity|apply h11].
  - apply (logs_ok_stable s); [|reflexivity|reflexivity|exact h12]. intros x k. unfold tag_of. rewrite Hm, Ht0. auto.
Qed.

Lemma Inv_become_reader s t o :
  Inv s -> is_follower (pcof s t) = true -> s_rlock s = None -> o = c_tag (s_ctx s t) ->
  Inv (set_pc (set_rlock s (Some t)) t (PReaderLoop o)).
Proof.
  intros I F R Eo. pose proof I as [h1 h2 h3 h4 h5 h6 h7 h8 h9 h10 h11 h12].
  assert (NR : forall x, reader_otag (pcof s x) = None).
  { intros x. destruct (reader_otag (pcof s x)) eqn:E; auto. destruct (h8 x z E). congruence. }
  assert (NA : forall x, adopted_by (pcof s x) = None).
  { intros x. destruct (adopted_by (pcof s x)) eqn:E; auto. apply adopted_is_reader in E.
    unfold is_reader in E. rewrite NR in E. discriminate. }
  assert (P : forall x, pcof (set_pc (set_rlock s (Some t)) t (PReaderLoop o)) x =
                        if Nat.eqb x t then PReaderLoop o else pcof s x) by (intros x; rewrite pcof_set_pc; reflexivity).
  assert (Hin : forall x, inside (pcof (set_pc (set_rlock s (Some t)) t (PReaderLoop o)) x) = inside (pcof s x)).
  { intros x. rewrite P. eqb_case x t; auto. unfold inside. rewrite F. reflexivity. }
  constructor.
  - exact h1.
  - intros x. rewrite Hin. apply h2.
  - intros x. rewrite Hin. apply h3.
  - exact h4.
  - exact h5.
  - intros g c H. rewrite Hin. apply h6. exact H.
  - intros x. rewrite P. eqb_case x t; [cbn; discriminate|apply h7].
  - intros x o'. rewrite P. eqb_case x t.
    + cbn. intros E. inversion E; subst o'. split; [|reflexivity]. rewrite Eo. apply h7. exact F.
    + rewrite NR. discriminate.
  - intros x g. rewrite P. eqb_case x t; [cbn; discriminate|]. rewrite NA. discriminate.
  - exact h10.
  - intros x. rewrite P. eqb_case x t; [reflexivity|apply h11].
  - exact h12.
Qed.

(* do_call has made the context cn of thread t, with the next tag: t is now waiting (registered in the map),
   or the request could not be issued and t is done *)
Lemma Inv_call s s' t p cn :
  Inv s -> pcof s t = PCall -> pre_call p = false -> reader_otag p = None ->
  (forall x, pcof s' x = if Nat.eqb x t then p else pcof s x) ->
  (forall x, s_ctx s' x = if Nat.eqb x t then cn else s_ctx s x) ->
  c_made cn = true -> c_tag0 cn = s_mtag s + 1 -> c_live cn = inside p ->
  (inside p = true -> c_tag cn = c_tag0 cn /\ c_th cn = Some t /\ c_phase cn = ISSUED) ->
  (forall k c, In (k, c) (s_map s') -> In (k, c) (s_map s) \/ (inside p = true /\ k = s_mtag s + 1 /\ c = t)) ->
  s_mtag s' = s_mtag s + 1 -> s_rlock s' = s_rlock s -> s_acc s' = s_acc s -> s_fix s' = s_fix s ->
  logs_ok s' ->
  Inv s'.
Proof.
  intros I P Pp Pr u1 u2 Cm C0 Cl Cin u3 u6 u4 u5 u7 L.
  pose proof I as [h1 h2 h3 h4 h5 h6 h7 h8 h9 h10 h11 h12].
  assert (Out : inside (pcof s t) = false) by (rewrite P; reflexivity).
  assert (NA : adopted_by p = None).
  { destruct (adopted_by p) eqn:E; auto. apply adopted_is_reader in E. unfold is_reader in E. rewrite Pr in E. discriminate. }
  assert (Other : forall g, inside (pcof s g) = true -> g <> t) by (intros g H ->; congruence).
  constructor.
  - congruence.
  - intros x. rewrite u1, u2. eqb_case x t; [exact Cl|apply h2].
  - intros x. rewrite u1, u2. eqb_case x t; [|apply h3].
    intros H. destruct (Cin H) as (_ & a & b). rewrite b. split; [exact Cm|split; [exact a|discriminate]].
  - intros x. rewrite u2, u6. eqb_case x t; [lia|]. intros H. specialize (h4 x H). lia.
  - intros x y. rewrite !u2. eqb_case x t; eqb_case y t; auto.
    + intros _ H E. specialize (h4 y H). lia.
    + intros H _ E. specialize (h4 x H). lia.
  - intros g c H. rewrite u1, u2. destruct (u3 g c H) as [H'|(a & -> & ->)].
    + destruct (h6 g c H') as (a & b & d). destruct (Nat.eqb_spec c t); [exfalso; eapply Other; eauto|auto].
    + rewrite Nat.eqb_refl. destruct (Cin a) as (_ & _ & b). rewrite b. split; [exact a|split; [exact C0|discriminate]].
  - intros x. rewrite u1, u2. eqb_case x t; [|apply h7]. intros H. apply Cin. unfold inside. rewrite H. reflexivity.
  - intros x o. rewrite u1, u2, u4. eqb_case x t; [rewrite Pr; discriminate|apply h8].
  - intros x g. rewrite u1. eqb_case x t; [rewrite NA; discriminate|].
    intros H. destruct (h9 x g H) as (a & b & c & d & e). unfold delivering.
    rewrite u1, !u2. destruct (Nat.eqb_spec g t); [exfalso; eapply Other; eauto|]. destruct (Nat.eqb_spec x t); [contradiction|].
    split; [exact a|split; [|split; [exact c|split; [exact d|exact e]]]].
    intros k K. destruct (u3 k g K) as [K'|(_ & _ & K')]; [eapply b; eauto|contradiction].
  - intros a. rewrite u5. apply h10.
  - intros x. rewrite u1, u2. eqb_case x t; [intros _; exact Pp|apply h11].
  - exact L.
Qed.

Lemma J_pc w0 s t p :
  J w0 s ->
  (forall got, reading_hdr p = Some got -> hdr_facts s got) ->
  (forall g size need, reading_body p = Some (g, size, need) -> body_facts s g size need) ->
  (pcof s t = PDone -> p = PDone) ->
  J w0 (set_pc s t p).
Proof.
  intros [h1 h2 h3 h4 h6 h7] Hh Hb Hd.
  constructor.
  - exact h1.
  - exact h2.
  - intros x got. rewrite pcof_set_pc. eqb_case x t; [apply Hh|apply h3].
  - intros x g size need. rewrite pcof_set_pc. eqb_case x t; [apply Hb|apply h4].
  - exact h6.
  - intros x r p0 H. destruct (h7 x r p0 H) as [A B]. split; [|exact B].
    rewrite pcof_set_pc. eqb_case x t; [auto|exact A].
Qed.

Lemma J_ctx w0 s g c' :
  J w0 s -> pcof s g <> PDone ->
  ((c_buf c' = c_buf (s_ctx s g) /\ c_tag0 c' = c_tag0 (s_ctx s g)) \/
   forall x g' size need, reading_body (pcof s x) = Some (g', size, need) -> g' <> g) ->
  (c_phase c' = COLLECTED -> 0 <= c_ret c' -> good_resp (s_consumed s) c') ->
  J w0 (upd_ctx s g c').
Proof.
  intros [h1 h2 h3 h4 h6 h7] Hd Eb Hg.
  constructor.
  - exact h1.
  - exact h2.
  - exact h3.
  - intros x g0 size need H. pose proof (h4 x g0 size need H) as B. unfold body_facts in *. rewrite ctx_upd_ctx.
    eqb_case g0 g; [|exact B]. destruct Eb as [[Eb E0]|Eb]; [rewrite Eb, E0; exact B|exfalso; eapply Eb; eauto].
  - intros x. rewrite ctx_upd_ctx. eqb_case x g; [exact Hg|apply h6].
  - intros x r p H. destruct (h7 x r p H) as [A B]. assert (x <> g) by (intros ->; contradiction).
    rewrite ctx_upd_ctx. destruct (Nat.eqb_spec x g); [contradiction|]. split; assumption.
Qed.

Lemma J_ret w0 s t c' r rd :
  J w0 s -> pcof s t <> PDone ->
  c_buf c' = c_buf (s_ctx s t) -> c_tag0 c' = c_tag0 (s_ctx s t) ->
  (c_phase c' = COLLECTED -> 0 <= c_ret c' -> good_resp (s_consumed s) c') ->
  (0 <= r -> c_phase c' = COLLECTED /\ r = c_ret c') ->
  J w0 (ret_abs s t c' r rd).
Proof.
  intros [h1 h2 h3 h4 h6 h7] Hd Eb E0 Hg Hr.
  set (s' := ret_abs s t c' r rd).
  pose proof (pcof_ret_abs s t c' r rd) as u1. pose proof (ctx_ret_abs s t c' r rd) as u2. fold s' in u1, u2.
  constructor.
  - exact h1.
  - exact h2.
  - intros x got. rewrite u1. eqb_case x t; [cbn; discriminate|apply h3].
  - intros x g size need. rewrite u1. eqb_case x t; [cbn; discriminate|]. intros H.
    pose proof (h4 x g size need H) as B. unfold body_facts in *. rewrite u2. eqb_case g t; [|exact B].
    cbn [c_buf c_tag0 cset_live]. rewrite Eb, E0. exact B.
  - intros x. rewrite u2. eqb_case x t; [exact Hg|apply h6].
  - intros x r0 p0 [H|H].
    + inversion H; subst x r0 p0. rewrite u1, u2, Nat.eqb_refl. split; [reflexivity|].
      destruct (Z.ltb_spec r 0) as [L|L]; [intros C; exfalso; lia|]. intros _.
      destruct (Hr L) as [A B]. destruct (Z.ltb_spec r 0); [lia|]. cbn. auto.
    + destruct (h7 x r0 p0 H) as [A B]. assert (x <> t) by (intros ->; contradiction).
      rewrite u1, u2. destruct (Nat.eqb_spec x t); [contradiction|]. split; assumption.
Qed.

Lemma J_set_hdr w0 s h' :
  J w0 s -> (forall x, reading_hdr (pcof s x) = None /\ reading_body (pcof s x) = None) ->
  length h' = 40%nat -> J w0 (set_hdr s h').
Proof.
  intros [h1 h2 h3 h4 h6 h7] Hn L. constructor; try assumption.
  - intros x got H. change (pcof (set_hdr s h') x) with (pcof s x) in H. destruct (Hn x) as [A _]. congruence.
  - intros x g size need H. change (pcof (set_hdr s h') x) with (pcof s x) in H. destruct (Hn x) as [_ A]. congruence.
Qed.

Lemma Good_erase w0 s by_ g ad :
  Good w0 s -> tag_of s (match ad with None => by_ | Some x => x end) g -> Good w0 (erase_tag s by_ g ad).
Proof.
  intros [I Jc] T. split; [apply Inv_erase; assumption|]. apply (J_same w0 s); [constructor; reflexivity|exact Jc].
Qed.

Lemma Good_add_acc w0 s by_ g k : Good w0 s -> c_live (s_ctx s g) = true -> Good w0 (add_acc s by_ g k).
Proof.
  intros [I Jc] L. split; [apply Inv_add_acc; assumption|]. apply (J_same w0 s); [constructor; reflexivity|exact Jc].
Qed.

Lemma Good_ret_abs w0 s t r rd :
  Good w0 s -> (forall k, ~ In (k, t) (s_map s)) -> (forall u, u <> t -> adopted_by (pcof s u) <> Some t) ->
  rd = is_reader (pcof s t) -> pcof s t <> PDone ->
  (0 <= r -> c_phase (s_ctx s t) = COLLECTED /\ r = c_ret (s_ctx s t)) ->
  Good w0 (ret_abs s t (s_ctx s t) r rd).
Proof.
  intros [I Jc] M A R D Hr. split.
  - apply Inv_ret; auto.
  - apply J_ret; auto. exact (j_coll _ _ Jc t).
Qed.

Lemma Good_ret w0 s t r w rd :
  Good w0 s -> (forall k, ~ In (k, t) (s_map s)) -> (forall u, u <> t -> adopted_by (pcof s u) <> Some t) ->
  rd = is_reader (pcof s t) -> pcof s t <> PDone ->
  (0 <= r -> c_phase (s_ctx s t) = COLLECTED /\ r = c_ret (s_ctx s t)) ->
  Good w0 (ret_call s t r w rd).
Proof. intros. eapply Good_view; [apply ret_call_view|]. apply Good_ret_abs; assumption. Qed.

Lemma Good_pc w0 s t q p :
  Good w0 s -> pcof s t = q ->
  is_follower p = is_follower q -> reader_otag p = reader_otag q -> adopted_by p = adopted_by q ->
  pre_call p && negb (pre_call q) = false -> reading_hdr p = reading_hdr q -> reading_body p = reading_body q ->
  (q = PDone -> p = PDone) ->
  Good w0 (set_pc s t p).
Proof.
  intros [I Jc] P Hf Hr Ha Hp Hh Hb Hd. split; [eapply Inv_pc; eauto|]. subst q. apply J_pc; auto.
  - intros got. rewrite Hh. apply (j_hdr _ _ Jc).
  - intros g size need. rewrite Hb. apply (j_body _ _ Jc).
Qed.

Lemma Good_reader_ret w0 s t otag r :
  Good w0 s -> reader_otag (pcof s t) = Some otag -> (forall k, ~ In (k, t) (s_map s)) ->
  (0 <= r -> c_phase (s_ctx s t) = COLLECTED /\ r = c_ret (s_ctx s t)) ->
  Good w0 (ret_call s t r true true).
Proof.
  intros G R M Hr. apply Good_ret; auto.
  - intros u N. destruct (only_reader_reads s t otag (proj1 G) R u N) as (_ & _ & A). congruence.
  - unfold is_reader. rewrite R. reflexivity.
  - intros E. rewrite E in R. discriminate.
Qed.

Lemma Good_hdr_fail w0 s t otag : Good w0 s -> reader_otag (pcof s t) = Some otag -> Good w0 (hdr_fail s t otag).
Proof.
  intros G R. pose proof G as [I _]. unfold hdr_fail. apply Good_reader_ret with (otag := otag).
  - apply Good_erase; [exact G|exact (reader_made s t otag I R)].
  - exact R.
  - exact (erased_unregistered s t otag I (eq_sym (proj1 (i_otag _ I _ _ R)))).
  - intros; lia.
Qed.

(* do_recv_header stores the tag of whatever header it has read into the reader's own context (rpc.cpp 104) *)
Lemma Good_set_own_tag w0 s t otag g :
  Good w0 s -> reader_otag (pcof s t) = Some otag -> adopted_by (pcof s t) = None ->
  Good w0 (upd_ctx s t (cset_tag (s_ctx s t) g)).
Proof.
  intros [I Jc] R A. split.
  - apply Inv_ctx_upd; auto. right. split; [exact (reader_not_follower _ _ R)|].
    intros x. destruct (Nat.eq_dec x t) as [->|N]; [exact A|]. apply (only_reader_reads s t otag I R x N).
  - apply J_ctx; auto.
    + intros E. rewrite E in R. discriminate.
    + exact (j_coll _ _ Jc t).
Qed.

Lemma Good_hdr_short w0 s t otag ret :
  Good w0 s -> reader_otag (pcof s t) = Some otag -> adopted_by (pcof s t) = None -> Good w0 (hdr_short s t otag ret).
Proof.
  intros G R A. unfold hdr_short.
  match goal with |- context [set_stmo (add_trace s ?e) MAX64] => set (s1 := set_stmo (add_trace s e) MAX64) end.
  assert (G1 : Good w0 s1) by (eapply Good_view; [|exact G]; sv_refl).
  apply Good_hdr_fail; [|exact R].
  eapply Good_view; [|apply (Good_set_own_tag w0 s1 t otag (hdr_tag (s_hdr s1)) G1 R A)]. sv_refl.
Qed.

(* the body read for targ's response has returned rd; `need` bytes were still missing *)
Lemma Good_body_end w0 s t otag targ size need rd :
  Good w0 s -> reader_otag (pcof s t) = Some otag -> delivering s t targ ->
  body_facts s targ size need -> (rd = Z.of_nat size -> need = 0%nat) ->
  Good w0 (body_end s t otag targ size rd).
Proof.
  intros [I Jc] R (Tin & Tmap & Ttag & Tph & _) BF Hrd. unfold body_end.
  match goal with |- context [set_stmo (add_trace s ?e) MAX64] => set (s1 := set_stmo (add_trace s e) MAX64) end.
  set (p := if rd =? Z.of_nat size then (s1, rd) else (set_errno (stream_shutdown s1 t) ECONNRESET, -1)).
  assert (V2 : same_view s (fst p) /\ (0 <= snd p -> snd p = Z.of_nat size /\ need = 0%nat)).
  { unfold p. destruct (Z.eqb_spec rd (Z.of_nat size)); cbn [fst snd]; (split; [sv_refl|]); [auto|intros; lia]. }
  destruct p as [s2 r]. cbn [fst snd] in V2. destruct V2 as [V2 Hr].
  destruct (Good_view w0 _ _ V2 (conj I Jc)) as [I2 J2]. destruct V2 as [[v1 v2 v3 _ _ _ _ _ _] [_ _ _ _ v5 _]].
  assert (L2 : c_live (s_ctx s2 targ) = true) by (rewrite (i_live _ I2), v1; exact Tin).
  assert (ND : pcof s targ <> PDone) by (intros E; rewrite E in Tin; discriminate).
  set (s3 := add_acc s2 t targ AkRet).
  set (s4 := upd_ctx s3 targ (cset_ret (s_ctx s3 targ) r)).
  assert (I4 : Inv s4) by (apply Inv_ctx_upd; auto; apply Inv_add_acc; auto).
  assert (J4 : J w0 s4).
  { apply J_ctx; [apply (J_same w0 s2); [constructor; reflexivity|exact J2]|change (pcof s3 targ) with (pcof s2 targ); rewrite v1; exact ND|auto|].
    change (c_phase (s_ctx s2 targ) = COLLECTED -> 0 <= r -> good_resp (s_consumed s2) (cset_ret (s_ctx s2 targ) r)).
    rewrite v2. intros E. contradiction. }
  assert (C4 : forall x, s_ctx s4 x = if Nat.eqb x targ then cset_ret (s_ctx s targ) r else s_ctx s x).
  { intros x. unfold s4. rewrite ctx_upd_ctx. change (s_ctx s3) with (s_ctx s2). rewrite !v2. reflexivity. }
  assert (Th : c_th (s_ctx s4 targ) = Some targ) by (rewrite C4, Nat.eqb_refl; apply (i_ctx _ I _ Tin)).
  rewrite Th.
  set (s5 := add_acc s4 t targ AkPhase).
  assert (G5 : Good w0 s5).
  { apply Good_add_acc; [exact (conj I4 J4)|]. rewrite C4, Nat.eqb_refl. cbn. rewrite <- v2. exact L2. }
  destruct G5 as [I5 J5].
  set (c6 := cset_phase (s_ctx s5 targ) COLLECTED).
  set (s6 := upd_ctx s5 targ c6).
  assert (P5 : forall x, pcof s5 x = pcof s x) by (intros x; rewrite <- v1; reflexivity).
  assert (M5 : forall k, ~ In (k, targ) (s_map s5)) by (intros k; change (s_map s5) with (s_map s2); rewrite v3; apply Tmap).
  assert (R5 : reader_otag (pcof s5 t) = Some otag) by (rewrite P5; exact R).
  assert (C6t : c_tag (s_ctx s6 t) = c_tag (s_ctx s t)).
  { unfold s6, c6. rewrite ctx_upd_ctx. change (s_ctx s5) with (s_ctx s4). rewrite !C4, Nat.eqb_refl.
    destruct (Nat.eqb t targ) eqn:Eb; [|reflexivity]. apply Nat.eqb_eq in Eb. subst. reflexivity. }
  assert (Rc : c_ret c6 = r) by (unfold c6; change (s_ctx s5) with (s_ctx s4); rewrite C4, Nat.eqb_refl; reflexivity).
  (* if the read was complete, the response is now in targ's buffer *)
  assert (GR : c_phase c6 = COLLECTED -> 0 <= c_ret c6 -> good_resp (s_consumed s5) c6).
  { intros _. rewrite Rc. intros H0. destruct (Hr H0) as [Er En]. subst need. destruct BF as (b1 & b2 & b3 & pre & b4).
    exists pre, (s_hdr s), []. rewrite Rc. unfold c6. change (s_ctx s5) with (s_ctx s4). rewrite C4, Nat.eqb_refl.
    cbn [c_buf cset_ret cset_phase c_tag0]. change (s_consumed s5) with (s_consumed s2). rewrite v5.
    assert (L : length (c_buf (s_ctx s targ)) = size) by lia.
    split; [rewrite app_nil_r; exact b4|]. rewrite L. split; [exact b3|exact Er]. }
  destruct (i_otag _ I _ _ R) as [Eo _].
  destruct (i_ctx _ I _ Tin) as (Tm & _ & _).
  destruct (i_ctx _ I _ (reader_inside _ _ R)) as (Rm & _ & _).
  rewrite C6t.
  destruct (Z.eqb_spec otag (c_tag (s_ctx s t))) as [E|E].
  - (* the reader's own response: COLLECTED and return, in one go *)
    assert (targ = t) by (apply (i_inj _ I); auto; congruence). subst targ. rewrite Nat.eqb_refl.
    assert (C6 : s_ctx s6 t = c6) by (unfold s6; rewrite ctx_upd_ctx, Nat.eqb_refl; reflexivity).
    rewrite C6. eapply Good_view; [eapply same_view_trans; [apply (ret_abs_upd s5 t c6)|apply ret_call_view]|].
    fold s6. rewrite C6. split.
    + apply Inv_ret; auto.
      * intros u N. rewrite P5. destruct (only_reader_reads s t otag I R u N) as (_ & _ & A). congruence.
      * unfold is_reader. rewrite R5. reflexivity.
    + apply J_ret; auto. intros E'. rewrite E' in R5. discriminate.
  - (* another caller's: wake it *)
    assert (N : targ <> t) by (intros ->; congruence).
    eapply Good_view; [apply sv_set_pc, sv_interrupt|]. split.
    + (* leave the body read, then mark targ COLLECTED *)
      change (Inv (upd_ctx (set_pc s5 t (PReaderLoop otag)) targ c6)).
      apply Inv_ctx_upd; auto.
      * apply Inv_pc_adopt; auto; [rewrite (reader_not_follower _ _ R5); reflexivity|intros g E'; discriminate E'].
      * right; right. split; [reflexivity|split; [exact M5|]]. intros x. rewrite pcof_set_pc. eqb_case x t; [discriminate|].
        rewrite P5. destruct (only_reader_reads s t otag I R x n) as (_ & _ & A). congruence.
    + apply J_pc; [apply J_ctx; auto; rewrite P5; exact ND|intros; discriminate..|].
      change (pcof s6 t) with (pcof s5 t). intros E'. rewrite E' in R5. discriminate.
Qed.

Lemma Good_hdr_complete w0 s t otag dl :
  Good w0 s -> pcof s t = PHdrRead otag 40 dl -> Good w0 (hdr_complete s t otag).
Proof.
  intros G P. pose proof G as [I Jc]. unfold hdr_complete.
  assert (R : reader_otag (pcof s t) = Some otag) by (rewrite P; reflexivity).
  assert (A : adopted_by (pcof s t) = None) by (rewrite P; reflexivity).
  destruct (j_hdr _ _ Jc t 40%nat) as (_ & pre & Hpre); [rewrite P; reflexivity|].
  rewrite <- (j_hlen _ _ Jc), firstn_all in Hpre.
  match goal with |- context [set_stmo (add_trace s ?e) MAX64] => set (s1 := set_stmo (add_trace s e) MAX64) end.
  set (g := hdr_tag (s_hdr s1)).
  set (s2 := upd_ctx s1 t (cset_tag (s_ctx s1 t) g)).
  assert (G2 : Good w0 s2).
  { apply (Good_set_own_tag w0 s1 t otag); [eapply Good_view; [|exact G]; sv_refl|exact R|exact A]. }
  pose proof G2 as [I2 J2].
  destruct (negb ((hdr_magic (s_hdr s1) =? MAGIC) && (hdr_version (s_hdr s1) =? VERSION))) eqn:Mg.
  { apply Good_hdr_fail; [|exact R]. eapply Good_view; [|exact G2]. sv_refl. }
  apply negb_false_iff, andb_true_iff in Mg. destruct Mg as [Mg1 Mg2].
  apply Z.eqb_eq in Mg1. apply Z.eqb_eq in Mg2.
  destruct (map_find g (s_map s2)) as [targ|] eqn:F.
  2:{ (* unknown tag *)
      apply Good_reader_ret with (otag := otag).
      - apply (Good_view w0 (erase_tag s2 t otag None)); [sv_refl|]. apply Good_erase; [exact G2|exact (reader_made s2 t otag I2 R)].
      - exact R.
      - exact (erased_unregistered s2 t otag I2 (eq_sym (proj1 (i_otag _ I2 _ _ R)))).
      - intros; lia. }
  apply map_find_In in F.
  destruct (i_map _ I2 _ _ F) as (Tin & Tt0 & Tph).
  destruct (i_ctx _ I2 _ Tin) as (Tm & _).
  set (s3 := erase_tag s2 t g (Some targ)).
  assert (G3 : Good w0 s3) by (apply Good_erase; [exact G2|split; [exact Tm|exact (eq_sym Tt0)]]).
  set (s4 := add_acc s3 t targ AkAdopt).
  assert (G4 : Good w0 s4).
  { apply Good_add_acc; [exact G3|]. change (s_ctx s3) with (s_ctx s2). rewrite (i_live _ I2). exact Tin. }
  set (s5 := upd_ctx s4 targ (cset_hoff (cset_buf (s_ctx s4 targ) []) (length (s_consumed s4)))).
  assert (G5 : Good w0 s5).
  { destruct G4 as [I4 J4]. split; [apply Inv_ctx_upd; auto|]. apply J_ctx; auto.
    - intros E. change (pcof s4 targ) with (pcof s2 targ) in E. rewrite E in Tin. discriminate.
    - right. intros x g' size need H. change (pcof s4 x) with (pcof s x) in H.
      destruct (Nat.eq_dec x t) as [->|N]; [rewrite P in H; discriminate|].
      destruct (only_reader_reads s t otag I R x N) as (_ & B & _). congruence.
    - intros E. destruct (Tph E). }
  match goal with |- context [set_stmo s5 ?v] => set (s6 := set_stmo s5 v) end.
  assert (G6 : Good w0 s6) by (eapply Good_view; [|exact G5]; sv_refl).
  assert (P6 : pcof s6 t = PHdrRead otag 40 dl) by exact P.
  assert (R6 : reader_otag (pcof s6 t) = Some otag) by exact R.
  assert (C6 : forall x, s_ctx s6 x = if Nat.eqb x targ then cset_hoff (cset_buf (s_ctx s2 targ) []) (length (s_consumed s4)) else s_ctx s2 x)
    by reflexivity.
  assert (D6 : delivering s6 t targ).
  { split; [exact Tin|split; [|split; [|split; [rewrite C6, Nat.eqb_refl; exact Tph|]]]].
    - exact (erased_unregistered s2 targ g I2 Tt0).
    - assert (X : c_tag (s_ctx s2 t) = g) by (unfold s2; rewrite ctx_upd_ctx, Nat.eqb_refl; reflexivity).
      rewrite !C6, Nat.eqb_refl.
      destruct (Nat.eqb t targ) eqn:Eb.
      + apply Nat.eqb_eq in Eb. subst targ. change (c_tag (s_ctx s2 t) = c_tag0 (s_ctx s2 t)). congruence.
      + change (c_tag (s_ctx s2 t) = c_tag0 (s_ctx s2 targ)). congruence.
    - intros N. apply inside_follower_or_reader; [exact Tin|].
      destruct (is_reader (pcof s6 targ)) eqn:E'; [|reflexivity]. exfalso. apply N.
      apply (reader_unique s6 targ t (proj1 G6) E'). unfold is_reader. rewrite R6. reflexivity. }
  assert (BF : forall size, Z.to_nat (hdr_size (s_hdr s1)) = size -> body_facts s6 targ size size).
  { intros size Sz. unfold body_facts. rewrite C6, Nat.eqb_refl. cbn [c_buf cset_hoff cset_buf c_tag0].
    change (s_hdr s6) with (s_hdr s). change (s_consumed s6) with (s_consumed s).
    split; [lia|]. split; [cbn; lia|]. split.
    - split; [apply (j_hlen _ _ Jc)|]. split; [exact Mg1|]. split; [exact Mg2|]. split; [exact (eq_sym Tt0)|exact Sz].
    - exists pre. rewrite app_nil_r. exact Hpre. }
  destruct (Z.to_nat (hdr_size (s_hdr s1))) as [|n] eqn:Sz.
  { eapply Good_body_end with (need := 0%nat); eauto. }
  destruct (s_shut s6).
  { eapply Good_body_end with (need := S n); eauto. intros H. lia. }
  destruct G6 as [I6 J6]. split.
  - apply Inv_pc_adopt; [exact I6|rewrite P6; reflexivity..| |rewrite P6; reflexivity].
    intros g0 E. right. inversion E; subst g0. exact D6.
  - apply J_pc; [exact J6|intros; discriminate| |rewrite P6; discriminate].
    intros g0 size need H. inversion H; subst. apply BF. reflexivity.
Qed.

Lemma Good_step_readerloop w0 s t otag :
  Good w0 s -> pcof s t = PReaderLoop otag -> Good w0 (step_readerloop s t otag).
Proof.
  intros [I Jc] P. unfold step_readerloop.
  assert (R : reader_otag (pcof s t) = Some otag) by (rewrite P; reflexivity).
  assert (A : adopted_by (pcof s t) = None) by (rewrite P; reflexivity).
  set (s1 := set_hdr s (repeat 0 8 ++ skipn 8 (s_hdr s))).
  assert (G1 : Good w0 s1).
  { split; [apply (Inv_view s); [constructor; reflexivity|exact I]|]. apply J_set_hdr; auto.
    - intros x. destruct (Nat.eq_dec x t) as [->|N]; [rewrite P; split; reflexivity|].
      destruct (only_reader_reads s t otag I R x N) as (a & b & _). split; assumption.
    - rewrite app_length, repeat_length, skipn_length, (j_hlen _ _ Jc). reflexivity. }
  destruct (c_dl (s_ctx s t) <? s_now s).
  { apply Good_hdr_fail; [|exact R]. eapply Good_view; [apply sv_errno|exact G1]. }
  match goal with |- context [set_stmo s1 ?v] => set (s2 := set_stmo s1 v) end.
  assert (G2 : Good w0 s2) by (eapply Good_view; [|exact G1]; sv_refl).
  destruct (s_shut s2).
  { apply Good_hdr_short; auto. }
  destruct G2 as [I2 J2]. split.
  - apply (Inv_pc s2 t _ _ I2 P); reflexivity.
  - apply J_pc; [exact J2| |intros; discriminate|change (pcof s2 t) with (pcof s t); rewrite P; discriminate].
    intros got H. inversion H; subst. split; [lia|]. exists (s_consumed s2). cbn [firstn]. rewrite app_nil_r. reflexivity.
Qed.

Lemma Good_step_hdrread w0 s t otag got dl :
  Good w0 s -> pcof s t = PHdrRead otag got dl -> Good w0 (step_hdrread s t otag got dl).
Proof.
  intros [I Jc] P. unfold step_hdrread.
  assert (R : reader_otag (pcof s t) = Some otag) by (rewrite P; reflexivity).
  destruct (j_hdr _ _ Jc t got) as (G40 & pre & Hpre); [rewrite P; reflexivity|].
  pose proof (only_reader_reads s t otag I R) as Others.
  destruct (stake (s_now s) (HDRLEN - got) (s_script s)) as [g sc'] eqn:St.
  destruct (stake_spec _ _ _ _ _ St) as [Fl Ln]. unfold HDRLEN in *.
  set (s0 := set_consumed (set_script (set_hdr s (overwrite (s_hdr s) got g)) sc') (s_consumed s ++ g)).
  set (s1 := set_pc s0 t (PHdrRead otag (got + length g) dl)).
  assert (HL : length (s_hdr s) = 40%nat) by apply (j_hlen _ _ Jc).
  assert (P1 : forall x, pcof s1 x = if Nat.eqb x t then PHdrRead otag (got + length g) dl else pcof s x)
    by (intros x; unfold s1; rewrite pcof_set_pc; reflexivity).
  assert (G1 : Good w0 s1).
  { split.
    - assert (I0 : Inv s0) by (apply (Inv_view s); [constructor; reflexivity|exact I]).
      apply (Inv_pc s0 t _ _ I0 P); reflexivity.
    - (* the chunk g goes from the script into the header buffer, at offset got *)
      destruct Jc as [h1 h2 h3 h4 h6 h7]. constructor.
      + change (w0 = (s_consumed s ++ g) ++ flat sc'). rewrite <- app_assoc, <- Fl. exact h1.
      + change (length (overwrite (s_hdr s) got g) = 40%nat). rewrite overwrite_length; [exact HL|lia].
      + intros x got0. rewrite P1. eqb_case x t.
        * cbn. intros H. inversion H; subst got0. split; [lia|].
          change (s_consumed s1) with (s_consumed s ++ g). change (s_hdr s1) with (overwrite (s_hdr s) got g).
          exists pre. rewrite overwrite_firstn by lia. rewrite Hpre, app_assoc. reflexivity.
        * intros H. destruct (Others x n) as (A & _). congruence.
      + intros x g0 size need. rewrite P1. eqb_case x t; [cbn; discriminate|].
        intros H. destruct (Others x n) as (_ & A & _). congruence.
      + intros x H1 H2. change (s_consumed s1) with (s_consumed s ++ g). apply good_resp_app. apply h6; auto.
      + intros x r p H. destruct (h7 x r p H) as [A B]. assert (x <> t) by (intros ->; congruence).
        rewrite P1. destruct (Nat.eqb_spec x t); [contradiction|]. auto. }
  assert (P1t : pcof s1 t = PHdrRead otag (got + length g) dl) by (rewrite P1, Nat.eqb_refl; reflexivity).
  assert (R1 : reader_otag (pcof s1 t) = Some otag) by (rewrite P1t; reflexivity).
  assert (A1 : adopted_by (pcof s1 t) = None) by (rewrite P1t; reflexivity).
  destruct (read_status (s_now s) dl (40 - (got + length g)) sc') eqn:RS.
  - apply read_status_full in RS. apply Good_hdr_complete with (dl := dl); auto. rewrite P1t. f_equal. lia.
  - apply Good_hdr_short; auto.
  - apply Good_hdr_short; auto. eapply Good_view; [apply sv_errno|exact G1].
  - eapply Good_view; [apply sv_sleep|]. apply (Good_pc w0 s1 t _ _ G1 P1t); try reflexivity. discriminate.
Qed.

Lemma Good_step_bodyread w0 s t otag targ size need dl :
  Good w0 s -> pcof s t = PBodyRead otag targ size need dl -> Good w0 (step_bodyread s t otag targ size need dl).
Proof.
  intros [I Jc] P. unfold step_bodyread.
  assert (R : reader_otag (pcof s t) = Some otag) by (rewrite P; reflexivity).
  assert (Ad : adopted_by (pcof s t) = Some targ) by (rewrite P; reflexivity).
  destruct (i_adopt _ I _ _ Ad) as (Tin & _ & _ & Tph & _).
  destruct (j_body _ _ Jc t targ size need) as (b1 & b2 & b3 & pre & b4); [rewrite P; reflexivity|].
  pose proof (only_reader_reads s t otag I R) as Others.
  destruct (stake (s_now s) need (s_script s)) as [g sc'] eqn:St.
  destruct (stake_spec _ _ _ _ _ St) as [Fl Ln].
  set (s1 := set_consumed (set_script s sc') (s_consumed s ++ g)).
  match goal with |- context [match g with [] => s1 | _ :: _ => ?e end] => set (s2 := match g with [] => s1 | _ :: _ => e end) end.
  set (s3 := set_pc s2 t (PBodyRead otag targ size (need - length g) dl)).
  assert (I3 : Inv s3).
  { assert (I1 : Inv s1) by (apply (Inv_view s); [constructor; reflexivity|exact I]).
    assert (I2 : Inv s2).
    { unfold s2. destruct g as [|b g']; [exact I1|].
      apply Inv_ctx_upd; auto. apply (Inv_view (add_acc s1 t targ AkBuf)); [constructor; reflexivity|]. apply Inv_add_acc; auto.
      change (s_ctx s1) with (s_ctx s). rewrite (i_live _ I). exact Tin. }
    apply (Inv_pc s2 t (pcof s t) _ I2); [unfold s2; destruct g; reflexivity|rewrite P; reflexivity..]. }
  (* the chunk g goes from the script to the end of targ's buffer *)
  assert (V : (forall x, pcof s3 x = if Nat.eqb x t then PBodyRead otag targ size (need - length g) dl else pcof s x) /\
              (forall x, x <> targ -> s_ctx s3 x = s_ctx s x) /\
              c_buf (s_ctx s3 targ) = c_buf (s_ctx s targ) ++ g /\ c_tag0 (s_ctx s3 targ) = c_tag0 (s_ctx s targ) /\
              c_phase (s_ctx s3 targ) = c_phase (s_ctx s targ) /\
              s_hdr s3 = s_hdr s /\ s_script s3 = sc' /\ s_consumed s3 = s_consumed s ++ g /\
              rets (s_trace s3) = rets (s_trace s)).
  { unfold s3, s2. destruct g as [|b g'].
    - split; [intros x; rewrite pcof_set_pc; reflexivity|]. split; [reflexivity|]. rewrite app_nil_r.
      repeat split; reflexivity.
    - split; [intros x; rewrite pcof_set_pc; reflexivity|]. split.
      + intros x N. change (s_ctx (set_pc ?a t ?b) x) with (s_ctx a x). rewrite ctx_upd_ctx.
        destruct (Nat.eqb_spec x targ); [contradiction|reflexivity].
      + change (s_ctx (set_pc ?a t ?b) targ) with (s_ctx a targ). rewrite ctx_upd_ctx, Nat.eqb_refl.
        repeat split; reflexivity. }
  destruct V as (P3 & C3 & B3 & T03 & Ph3 & H3 & Sc3 & Cn3 & Rs3).
  assert (J3 : J w0 s3).
  { destruct Jc as [h1 h2 h3 h4 h6 h7].
    constructor.
    - rewrite Cn3, Sc3, <- app_assoc, <- Fl. exact h1.
    - rewrite H3. exact h2.
    - intros x got0. rewrite P3. eqb_case x t; [cbn; discriminate|]. intros H. destruct (Others x n) as (A & _). congruence.
    - intros x g0 sz nd. rewrite P3. eqb_case x t.
      + cbn. intros H. inversion H; subst g0 sz nd. unfold body_facts. rewrite B3, T03, H3, Cn3.
        split; [lia|]. split; [rewrite app_length; lia|]. split; [exact b3|].
        exists pre. rewrite b4, <- !app_assoc. reflexivity.
      + intros H. destruct (Others x n) as (_ & A & _). congruence.
    - intros x. destruct (Nat.eq_dec x targ) as [->|N]; [rewrite Ph3; intros; contradiction|].
      rewrite (C3 x N), Cn3. intros H1 H2. apply good_resp_app. apply h6; auto.
    - intros x r p. rewrite Rs3. intros H. destruct (h7 x r p H) as [A B].
      assert (x <> t) by (intros ->; congruence). assert (x <> targ) by (intros ->; rewrite A in Tin; discriminate).
      rewrite P3, (C3 x H1). destruct (Nat.eqb_spec x t); [contradiction|]. auto. }
  assert (P3t : pcof s3 t = PBodyRead otag targ size (need - length g) dl) by (rewrite P3, Nat.eqb_refl; reflexivity).
  assert (R3 : reader_otag (pcof s3 t) = Some otag) by (rewrite P3t; reflexivity).
  assert (D3 : delivering s3 t targ) by (apply (i_adopt _ I3 t); rewrite P3t; reflexivity).
  assert (BF3 : body_facts s3 targ size (need - length g)) by (apply (j_body _ _ J3 t); rewrite P3t; reflexivity).
  destruct (read_status (s_now s) dl (need - length g) sc') eqn:RS.
  - eapply Good_body_end; eauto; [split; assumption|]. intros _. eapply read_status_full; eauto.
  - eapply Good_body_end; eauto; [split; assumption|]. intros H0. apply Nat2Z.inj in H0. apply read_status_eof in RS. lia.
  - eapply Good_body_end; eauto; [|intros H0; lia]. eapply Good_view; [apply sv_errno|exact (conj I3 J3)].
  - eapply Good_view; [apply sv_sleep|]. apply (Good_pc w0 s3 t _ _ (conj I3 J3) P3t); try reflexivity. discriminate.
Qed.

(* do_call 161-163 returns without having made a context: like ret_call on the (dead) context that is there *)
Lemma ret_nocall_view s t : c_live (s_ctx s t) = false -> same_view (ret_abs s t (s_ctx s t) (-1) false) (ret_nocall s t).
Proof.
  intros L. split; constructor; try reflexivity; intros x; cbn; unfold updn; destruct (Nat.eqb_spec x t); try reflexivity;
    subst x; destruct (s_ctx s t); cbn in L; subst; reflexivity.
Qed.

Lemma Good_step_call w0 s t : Good w0 s -> pcof s t = PCall -> Good w0 (step_call s t).
Proof.
  intros G P. pose proof G as [I Jc].
  assert (Out : inside (pcof s t) = false) by (rewrite P; reflexivity).
  destruct (unreferenced s t I (or_introl Out)) as [Fm Fa].
  assert (ND : pcof s t <> PDone) by (rewrite P; discriminate).
  assert (NM : c_made (s_ctx s t) = false).
  { destruct (c_made (s_ctx s t)) eqn:M; [|reflexivity]. pose proof (i_pre _ I _ M) as H. rewrite P in H. discriminate. }
  unfold step_call.
  set (k := nth t (s_calls s) dummy_call). set (now := s_now s).
  set (exp := if k_tmo k =? 0 then 0 else sat_add now (k_tmo k)).
  destruct (exp <? now).
  { eapply Good_view; [apply ret_nocall_view; change (c_live (s_ctx s t) = false); rewrite (i_live _ I); exact Out|].
    apply Good_ret_abs; [eapply Good_view; [apply sv_errno|exact G]|exact Fm|intros u _; exact (Fa u)| |exact ND|intros; lia].
    change (false = is_reader (pcof s t)). rewrite P. reflexivity. }
  set (rem := sat_sub exp now). set (dl := if rem =? 0 then 0 else sat_add now rem).
  set (tag := s_mtag s + 1).
  set (cn := mkCtx tag BEFORE_ISSUE 0 (Some t) dl true [] tag 0 true).
  set (s2 := upd_ctx (set_mtag s tag) t cn).
  destruct (map_find tag (s_map s2)) as [c|] eqn:F.
  { exfalso. change (s_map s2) with (s_map s) in F. apply map_find_In in F. destruct (i_map _ I _ _ F) as (a & b & _).
    destruct (i_ctx _ I _ a) as (m & _). pose proof (i_tag0 _ I _ m). unfold tag in b. lia. }
  set (s3 := set_map s2 (s_map s2 ++ [(tag, t)])).
  destruct (do_send_view s3 t tag dl) as (tr & V & Er & Ew).
  destruct (do_send s3 t tag dl) as [s4 r2]. cbn [fst] in V. destruct V as [[v1 v2 v3 v4 v5 v6 v7 v8 v9] Vj].
  assert (C4 : forall x, s_ctx s4 x = if Nat.eqb x t then cn else s_ctx s x) by (intros x; rewrite v2; reflexivity).
  assert (J4 : J w0 s4).
  { apply (J_same w0 (set_trace s3 tr)); [exact Vj|]. apply (J_same w0 s2); [constructor; try reflexivity; exact Er|].
    apply J_ctx; [apply (J_same w0 s); [constructor; reflexivity|exact Jc]|exact ND| |intros E; discriminate E].
    right. intros x g' size need H <-. apply reading_body_adopted in H. exact (Fa x H). }
  (* the logs of a state that has the contexts and the writes of s4 and in which t may have erased its tag *)
  assert (L : forall s', (forall x g, tag_of s4 x g -> tag_of s' x g) ->
                         incl (s_erases s') (mkErase t tag None :: s_erases s) ->
                         writes (s_trace s') = writes (s_trace s4) -> logs_ok s').
  { intros s' Cs Ie Ew'. destruct (i_logs _ I) as [LA LB].
    assert (St : forall x g, tag_of s x g -> tag_of s' x g).
    { intros x g [M T]. apply Cs. unfold tag_of. rewrite C4. destruct (Nat.eqb_spec x t); [subst; congruence|auto]. }
    assert (Tt : tag_of s' t tag) by (apply Cs; unfold tag_of; rewrite C4, Nat.eqb_refl; split; reflexivity).
    split.
    - intros e H. apply Ie in H. destruct H as [<-|H]; [exact Tt|apply St, LA, H].
    - intros w H. rewrite Ew', v9 in H. apply Ew in H. destruct H as [<-|H]; [exact Tt|apply St, LB, H]. }
  destruct (r2 <? 0).
  { (* do_issue failed: erase the tag again, return *)
    eapply Good_view; [apply ret_call_view|]. set (s4e := erase_tag s4 t tag None).
    assert (C4e : forall x, s_ctx (ret_abs s4e t (s_ctx s4e t) (-1) false) x = if Nat.eqb x t then cset_live cn false else s_ctx s x).
    { intros x. change (s_ctx (ret_abs s4e t (s_ctx s4e t) (-1) false) x)
        with (if Nat.eqb x t then cset_live (s_ctx s4 t) false else s_ctx s4 x).
      rewrite !C4, Nat.eqb_refl. destruct (Nat.eqb x t); reflexivity. }
    split.
    - apply (Inv_call s _ t PDone (cset_live cn false) I P); try reflexivity.
      + intros x. rewrite pcof_ret_abs. destruct (Nat.eqb x t); [reflexivity|exact (v1 x)].
      + exact C4e.
      + intros H. discriminate H.
      + intros k' c H. left. change (In (k', c) (map_erase tag (s_map s4))) in H. apply map_erase_In in H.
        destruct H as [H N]. rewrite v3 in H. apply in_app_iff in H. destruct H as [H|[H|[]]]; [exact H|inversion H; congruence].
      + exact v6.
      + exact v4.
      + exact v5.
      + exact v7.
      + apply L; [|change (incl (mkErase t tag None :: s_erases s4) (mkErase t tag None :: s_erases s)); rewrite v8; apply incl_refl|reflexivity].
        intros x g. unfold tag_of. rewrite C4e, C4. destruct (Nat.eqb x t); auto.
    - apply J_ret; [apply (J_same w0 s4); [constructor; reflexivity|exact J4]|change (pcof s4 t <> PDone); rewrite v1; exact ND|reflexivity..| |intros; lia].
      change (s_ctx s4e t) with (s_ctx s4 t). rewrite C4, Nat.eqb_refl. intros E; discriminate E. }
  set (s5 := upd_ctx s4 t (cset_phase (s_ctx s4 t) ISSUED)).
  assert (C5 : s_ctx s5 t = cset_phase cn ISSUED) by (unfold s5; rewrite ctx_upd_ctx, Nat.eqb_refl, C4, Nat.eqb_refl; reflexivity).
  rewrite C5. cbn [c_tag cset_phase c_phase cn].
  destruct (map_find tag (s_map s5)) eqn:F5.
  2:{ exfalso. change (s_map s5) with (s_map s4) in F5. rewrite v3 in F5. exact (map_find_app tag (s_map s) t F5). }
  split.
  - apply (Inv_call s _ t (PWaitLoop dl) (cset_phase cn ISSUED) I P); try reflexivity.
    + intros x. rewrite pcof_set_pc. destruct (Nat.eqb x t); [reflexivity|exact (v1 x)].
    + intros x. change (s_ctx (set_pc s5 t (PWaitLoop dl)) x) with (s_ctx s5 x). unfold s5.
      rewrite ctx_upd_ctx, !C4, Nat.eqb_refl. destruct (Nat.eqb x t); reflexivity.
    + intros _. repeat split; reflexivity.
    + intros k' c H. change (In (k', c) (s_map s4)) in H. rewrite v3 in H. apply in_app_iff in H.
      destruct H as [H|[H|[]]]; [left; exact H|right; inversion H; auto].
    + exact v6.
    + exact v4.
    + exact v5.
    + exact v7.
    + apply L; [|change (incl (s_erases s4) (mkErase t tag None :: s_erases s)); rewrite v8; apply incl_tl, incl_refl|reflexivity].
      intros x g. unfold tag_of. change (s_ctx (set_pc s5 t (PWaitLoop dl)) x) with (s_ctx s5 x). unfold s5. rewrite ctx_upd_ctx.
      destruct (Nat.eqb_spec x t); [subst x|auto]. rewrite C4, Nat.eqb_refl. auto.
  - apply J_pc; [|intros; discriminate..|change (pcof s5 t) with (pcof s4 t); rewrite v1; intros E; contradiction].
    apply J_ctx; [exact J4|rewrite v1; exact ND|auto|]. rewrite C4, Nat.eqb_refl. intros E; discriminate E.
Qed.

Lemma Good_step_waitloop w0 s t tmo : Good w0 s -> pcof s t = PWaitLoop tmo -> Good w0 (step_waitloop s t tmo).
Proof.
  intros G P. pose proof G as [I Jc]. unfold step_waitloop.
  assert (Tin : inside (pcof s t) = true) by (rewrite P; reflexivity).
  assert (Fo : is_follower (pcof s t) = true) by (rewrite P; reflexivity).
  assert (ND : pcof s t <> PDone) by (rewrite P; discriminate).
  destruct (i_ctx _ I _ Tin) as (Tm & Th & Tp).
  (* try_lock m_mutex_r, else park *)
  assert (Park : forall s1, Good w0 s1 -> (forall x, pcof s1 x = pcof s x) ->
                 Good w0 (match s_rlock s1 with
                          | None => set_pc (set_rlock s1 (Some t)) t (PReaderLoop (c_tag (s_ctx s1 t)))
                          | Some _ => sleep (set_waitq s1 (s_waitq s1 ++ [t])) t tmo (PParked tmo)
                          end)).
  { intros s1 G1 P1. assert (P1t : pcof s1 t = PWaitLoop tmo) by (rewrite P1; exact P). destruct (s_rlock s1) eqn:RL.
    - eapply Good_view; [apply sv_sleep|]. eapply Good_view; [apply sv_set_pc|apply (Good_pc w0 s1 t _ (PParked tmo) G1 P1t); try reflexivity; discriminate].
      sv_refl.
    - destruct G1 as [I1 J1]. split; [apply Inv_become_reader; auto; rewrite P1t; reflexivity|].
      apply J_pc; [apply (J_same w0 s1); [constructor; reflexivity|exact J1]|intros; discriminate..|].
      change (pcof (set_rlock s1 (Some t)) t) with (pcof s1 t). rewrite P1t. discriminate. }
  destruct (c_phase (s_ctx s t)) eqn:Ph.
  - contradiction.
  - apply Park; [|reflexivity]. split.
    + apply Inv_ctx_upd; auto.
    + apply J_ctx; auto. intros E; discriminate E.
  - apply Park; auto.
  - rewrite Th, Nat.eqb_refl.
    destruct (unreferenced s t I (or_intror Ph)) as [A B].
    apply Good_ret; auto. rewrite P. reflexivity.
Qed.

Lemma Good_step_parked w0 s t tmo : Good w0 s -> pcof s t = PParked tmo -> Good w0 (step_parked s t tmo).
Proof.
  intros G P. unfold step_parked. rewrite (i_fix _ (proj1 G)).
  pose proof (sv_cvwait_ret s t) as V. destruct (cvwait_ret s t) as [s1 r]. cbn [fst] in V.
  pose proof (Good_view w0 _ _ V G) as G1. pose proof G1 as [I1 J1].
  assert (P1 : pcof s1 t = PParked tmo) by (rewrite (sc_pc _ _ (proj1 V)); exact P).
  assert (Tin : inside (pcof s1 t) = true) by (rewrite P1; reflexivity).
  assert (Fo : is_follower (pcof s1 t) = true) by (rewrite P1; reflexivity).
  assert (ND : pcof s1 t <> PDone) by (rewrite P1; discriminate).
  destruct (i_ctx _ I1 _ Tin) as (Tm & Th & Tp).
  rewrite Th, Nat.eqb_refl, andb_true_r.
  destruct (phase_eqb (c_phase (s_ctx s1 t)) COLLECTED) eqn:Pe.
  { apply phase_eqb_true in Pe. destruct (unreferenced s1 t I1 (or_intror Pe)) as [A B].
    apply Good_ret; auto. rewrite P1. reflexivity. }
  destruct (r =? -1).
  2:{ apply (Good_pc w0 s1 t _ _ G1 P1); try reflexivity. discriminate. }
  cbn [andb].
  pose proof (i_ftag _ I1 _ Fo) as Ft.
  set (s2 := erase_tag s1 t (c_tag (s_ctx s1 t)) None).
  assert (G2 : Good w0 s2) by (apply Good_erase; [exact G1|split; [exact Tm|exact Ft]]).
  destruct (map_mem (c_tag (s_ctx s1 t)) (s_map s1)) eqn:Er; cbn [negb].
  - (* really timed out: the tag was still registered, so nobody has adopted the context *)
    unfold map_mem in Er. destruct (map_find (c_tag (s_ctx s1 t)) (s_map s1)) as [c'|] eqn:F; [|discriminate].
    apply map_find_In in F. destruct (i_map _ I1 _ _ F) as (Cin & Ct0 & _).
    destruct (i_ctx _ I1 _ Cin) as (Cm & _ & _).
    assert (c' = t) by (apply (i_inj _ I1); auto; congruence). subst c'.
    apply Good_ret; auto.
    + eapply Good_view; [apply sv_errno|exact G2].
    + exact (erased_unregistered s1 t _ I1 (eq_sym Ft)).
    + intros u _ H. change (pcof (set_errno s2 ETIMEDOUT) u) with (pcof s1 u) in H.
      destruct (i_adopt _ I1 _ _ H) as (_ & b & _). eapply b; eauto.
    + change (pcof (set_errno s2 ETIMEDOUT) t) with (pcof s1 t). rewrite P1. reflexivity.
    + intros; lia.
  - (* the fix: the reader has adopted the context — keep waiting *)
    apply (Good_pc w0 s2 t _ _ G2 P1); try reflexivity. discriminate.
Qed.

Lemma Good_micro w0 s t : Good w0 s -> Good w0 (micro s t).
Proof.
  intros G. unfold micro.
  pose proof (Good_view w0 _ _ (sv_usleep_ret s t) G) as Gu.
  assert (Pu : pcof (fst (usleep_ret s t)) t = pcof s t) by apply (sc_pc _ _ (proj1 (sv_usleep_ret s t))).
  destruct (t_pc (s_thr s t)) eqn:E; change (t_pc (s_thr s t)) with (pcof s t) in E.
  - destruct (0 <? k_start (nth t (s_calls s) dummy_call)); [eapply Good_view; [apply sv_sleep|]|];
      apply (Good_pc w0 s t _ _ G E); try reflexivity; discriminate.
  - rewrite E in Pu. apply (Good_pc w0 _ t _ _ Gu Pu); try reflexivity. discriminate.
  - apply Good_step_call; auto.
  - apply Good_step_waitloop; auto.
  - apply Good_step_parked; auto.
  - apply Good_step_readerloop; auto.
  - apply Good_step_hdrread; auto.
  - rewrite E in Pu. apply (Good_pc w0 _ t _ _ Gu Pu); try reflexivity. discriminate.
  - apply Good_step_bodyread; auto.
  - rewrite E in Pu. apply (Good_pc w0 _ t _ _ Gu Pu); try reflexivity. discriminate.
  - rewrite E in Pu. unfold park. eapply Good_view; [apply sv_sleep|]. apply (Good_pc w0 _ t _ _ Gu Pu); reflexivity.
Qed.

Lemma Good_step w0 s e s' : Good w0 s -> step s e = Some s' -> Good w0 s'.
Proof.
  intros G. destruct e as [t|t|d|]; unfold step.
  - destruct (Nat.ltb t (nthreads s)); [|intros H; discriminate H].
    destruct (t_stat (s_thr s t)); [|intros H; discriminate H].
    intros H; inversion H; subst. apply Good_micro; auto.
  - destruct (Nat.ltb t (nthreads s)); [|intros H; discriminate H].
    destruct (t_stat (s_thr s t)); [intros H; discriminate H|].
    destruct (dl <=? s_now s); [|intros H; discriminate H]. intros H; inversion H; subst.
    eapply Good_view; [|exact G]. eapply same_view_trans; [apply (sv_stat s t TReady (t_err (s_thr s t)))|sv_refl].
  - destruct (0 <=? d); [|intros H; discriminate H]. intros H; inversion H; subst.
    eapply Good_view; [|exact G]. sv_refl.
  - intros H; inversion H; subst. eapply Good_view; [|exact G]. sv_refl.
Qed.

Lemma Good_init calls script : Good (flat script) (init true calls script).
Proof.
  split; [|constructor; cbn; try reflexivity; try discriminate; try contradiction; auto].
  constructor; cbn; try reflexivity; try discriminate; try contradiction; auto.
  split; intros e [].
Qed.

Lemma Good_run w0 s es s' : Good w0 s -> run_events s es = Some s' -> Good w0 s'.
Proof.
  revert s. induction es as [|e r IH]; cbn; intros s G H.
  - inversion H; subst; auto.
  - destruct (step s e) eqn:E; [|discriminate]. eapply IH; [|exact H]. eapply Good_step; eauto.
Qed.

Lemma Good_reachable calls script es s :
  run_events (init true calls script) es = Some s -> Good (flat script) s.
Proof. apply Good_run, Good_init. Qed.

(* the cooperative run only takes steps of the transition system *)
Definition d_ok (s0 : state) (d : dstate) : Prop := run_events s0 (rev (d_evs d)) = Some (d_st d).

Lemma run_events_app s es1 es2 :
  run_events s (es1 ++ es2) = match run_events s es1 with Some s1 => run_events s1 es2 | None => None end.
Proof.
  revert s. induction es1 as [|e r IH]; cbn; intros s; [reflexivity|].
  destruct (step s e); [apply IH|reflexivity].
Qed.

Lemma d_ok_apply s0 d e : d_ok s0 d -> d_ok s0 (d_apply d e).
Proof.
  unfold d_ok, d_apply. intros H. destruct (step (d_st d) e) eqn:E; cbn; [|exact H].
  rewrite run_events_app, H. cbn. rewrite E. reflexivity.
Qed.

Lemma d_ok_wake_list s0 l : forall d, d_ok s0 d -> d_ok s0 (d_wake_list d l).
Proof. induction l as [|w r IH]; cbn [d_wake_list]; intros d H; [exact H|]. apply IH. exact H. Qed.

Lemma d_ok_run_thread s0 fuel t : forall d, d_ok s0 d -> d_ok s0 (d_run_thread fuel d t).
Proof.
  induction fuel as [|f IH]; cbn [d_run_thread]; intros d H; [exact H|].
  destruct (t_stat (s_thr (d_st d) t)).
  - apply IH. apply d_ok_apply. exact H.
  - exact (d_ok_wake_list s0 (s_woken (d_st d)) _ (d_ok_apply s0 d EvAck H)).
Qed.

Lemma d_ok_resume s0 fuel : forall d, d_ok s0 d -> d_ok s0 (d_resume fuel d).
Proof.
  induction fuel as [|f IH]; cbn [d_resume]; intros d H; [exact H|].
  destruct (front (d_heap d)) as [[|t]|]; try exact H.
  destruct (d_ts d (S t) <=? s_now (d_st d)); [|exact H].
  apply IH. apply d_ok_apply. exact H.
Qed.

Lemma d_ok_drive s0 tfuel fuel : forall d, d_ok s0 d -> d_ok s0 (drive tfuel fuel d).
Proof.
  induction fuel as [|f IH]; cbn [drive]; intros d H; [exact H|].
  destruct (d_ring d) as [|[|t] rest]; [exact H| |].
  - pose proof (d_ok_resume s0 (S (length (hq (d_heap d)))) d H) as K.
    set (d1 := d_resume (S (length (hq (d_heap d)))) d) in *.
    assert (Idle : d_ok s0 (match front (d_heap d1) with
                            | None => d1
                            | Some x => if d_ts d1 x =? MAX64 then d1
                                        else drive tfuel f (d_apply d1 (EvTick (Z.min IDLE_MAX (sat_sub (d_ts d1 x) (s_now (d_st d1))))))
                            end)).
    { destruct (front (d_heap d1)); [|exact K]. destruct (d_ts d1 t =? MAX64); [exact K|].
      apply IH. apply d_ok_apply. exact K. }
    destruct (d_ring d1) as [|[|t1] [|r2 rest2]]; try exact Idle.
    apply IH. exact K.
  - apply IH. apply d_ok_run_thread. exact H.
Qed.

Lemma drive_reachable fix_ calls script tfuel fuel :
  let d := run_case fix_ calls script tfuel fuel in
  run_events (init fix_ calls script) (rev (d_evs d)) = Some (d_st d).
Proof.
  cbv zeta. unfold run_case. apply d_ok_drive. unfold d_ok, d_init. cbn. reflexivity.
Qed.

(* hence the run that is compared with the real stub satisfies the property too *)
Lemma coop_no_access_after_return calls script tfuel fuel :
  forall a, In a (s_acc (d_st (run_case true calls script tfuel fuel))) -> a_live a = true.
Proof.
  exact (i_acc _ (proj1 (Good_reachable _ _ _ _ (drive_reachable true calls script tfuel fuel)))).
Qed.
