(* C11_ProofsResp.v — the vocabulary of `own response` and `failure isolated`: the bytes on the wire, what a
   well-formed response header is, what the reader has consumed so far while it is inside a header or body
   read.  Ghost state used: s_consumed (every byte taken off the stream, in order), c_tag0 (the tag the
   engine assigned to the context), the TvRet / TvWrite events of s_trace.  The invariant that ties these
   to the protocol is in C11_ProofsSafety.v. *)
From Coq Require Import ZArith List Bool Arith Lia.
From PV Require Import Base.U64 C04.C04_Heap C11.C11_Model.
Import ListNotations.
Local Open Scope Z_scope.

Definition flat (sc : list sev) : list Z :=
  flat_map (fun e => match e with SData _ bs => bs | SEof _ => [] end) sc.

Lemma stake_spec now : forall sc n g sc', stake now n sc = (g, sc') -> flat sc = g ++ flat sc' /\ (length g <= n)%nat.
Proof.
  induction sc as [|e r IH]; intros n g sc' H.
  - destruct n; cbn in H; inversion H; cbn; (split; [reflexivity|lia]).
  - destruct n as [|m]; [cbn in H; inversion H; cbn; split; [reflexivity|lia]|].
    cbn [stake] in H. destruct e as [t bs|t]; [destruct (t <=? now)|]; try (inversion H; cbn; (split; [reflexivity|lia])).
    change (flat (SData t bs :: r)) with (bs ++ flat r).
    destruct (Nat.leb (length bs) (S m)) eqn:L.
    + destruct (stake now (S m - length bs) r) as [g1 sc1] eqn:E. inversion H; subst.
      apply Nat.leb_le in L. destruct (IH _ _ _ E) as [F Ln]. rewrite F, app_assoc, app_length. split; [reflexivity|lia].
    + inversion H; subst.
      change (bs ++ flat r = firstn (S m) bs ++ skipn (S m) bs ++ flat r /\ (length (firstn (S m) bs) <= S m)%nat).
      rewrite app_assoc, firstn_skipn. split; [reflexivity|apply firstn_le_length].
Qed.

Lemma overwrite_length h off g : (off + length g <= length h)%nat -> length (overwrite h off g) = length h.
Proof.
  intros H. unfold overwrite. rewrite !app_length, firstn_length, skipn_length. lia.
Qed.

Lemma overwrite_firstn h off g : (off + length g <= length h)%nat ->
  firstn (off + length g) (overwrite h off g) = firstn off h ++ g.
Proof.
  intros H. unfold overwrite.
  assert (L : length (firstn off h ++ g) = (off + length g)%nat) by (rewrite app_length, firstn_length; lia).
  rewrite app_assoc, <- L, firstn_app, firstn_all, Nat.sub_diag. apply app_nil_r.
Qed.

Lemma slice_mid (pre h rest : list Z) : slice (pre ++ h ++ rest) (length pre) (length h) = h.
Proof.
  unfold slice. rewrite skipn_app, Nat.sub_diag, skipn_all. cbn [skipn app].
  rewrite firstn_app, Nat.sub_diag, firstn_all. cbn. apply app_nil_r.
Qed.

Lemma slice_app_stable (l ext : list Z) off n : (off + n <= length l)%nat -> slice (l ++ ext) off n = slice l off n.
Proof.
  intros H. unfold slice. rewrite skipn_app.
  rewrite firstn_app. rewrite skipn_length.
  replace (n - (length l - off))%nat with 0%nat by lia. cbn [firstn]. apply app_nil_r.
Qed.

Lemma read_status_full now dl n sc : read_status now dl n sc = RS_full -> n = 0%nat.
Proof.
  destruct n; [reflexivity|]. cbn.
  destruct sc as [|[td bs|te] r]; repeat (match goal with |- context [if ?c then _ else _] => destruct c end); discriminate.
Qed.
Lemma read_status_eof now dl n sc : read_status now dl n sc = RS_eof -> n <> 0%nat.
Proof. destruct n; [discriminate|intros _; discriminate]. Qed.

Definition rets (tr : list tev) : list (tid * Z * list Z) :=
  flat_map (fun e => match e with TvRet t r _ p _ => [(t, r, p)] | _ => [] end) tr.

(* the request headers written so far: (thread, tag in the header) *)
Definition writes (tr : list tev) : list (tid * Z) :=
  flat_map (fun e => match e with TvWrite t tag _ _ _ => [(t, tag)] | _ => [] end) tr.

Definition hdr_ok (h : list Z) (tag : Z) (size : nat) : Prop :=
  length h = 40%nat /\ hdr_magic h = MAGIC /\ hdr_version h = VERSION /\ hdr_tag h = tag /\
  Z.to_nat (hdr_size h) = size.

(* the buffer of context c holds exactly the bytes that followed, on the wire, a well-formed header
   carrying the tag the engine gave to c and announcing that many bytes; c_ret is their number *)
Definition good_resp (cons : list Z) (c : ctx) : Prop :=
  exists pre h post, cons = pre ++ h ++ c_buf c ++ post /\
                     hdr_ok h (c_tag0 c) (length (c_buf c)) /\ c_ret c = Z.of_nat (length (c_buf c)).

Lemma good_resp_app cons ext c : good_resp cons c -> good_resp (cons ++ ext) c.
Proof.
  intros (pre & h & post & E & H1 & H2). exists pre, h, (post ++ ext). split; [|split; auto].
  rewrite E. rewrite <- !app_assoc. reflexivity.
Qed.

Definition reading_hdr (p : pc) : option nat :=
  match p with PHdrRead _ got _ | PHdrSleep _ got _ => Some got | _ => None end.
Definition reading_body (p : pc) : option (tid * nat * nat) :=
  match p with PBodyRead _ g size need _ | PBodySleep _ g size need _ => Some (g, size, need) | _ => None end.

Definition hdr_facts (s : state) (got : nat) : Prop :=
  (got <= 40)%nat /\ exists pre, s_consumed s = pre ++ firstn got (s_hdr s).
Definition body_facts (s : state) (g : tid) (size need : nat) : Prop :=
  (need <= size)%nat /\ length (c_buf (s_ctx s g)) = (size - need)%nat /\
  hdr_ok (s_hdr s) (c_tag0 (s_ctx s g)) size /\
  exists pre, s_consumed s = pre ++ s_hdr s ++ c_buf (s_ctx s g).
