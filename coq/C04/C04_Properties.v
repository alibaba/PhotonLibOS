(* C04_Properties.v — the property theorems of C04, each an instance or a short reading of the general
   lemmas of the proof files, with its Print Assumptions.
   Part A: the sleep-queue heap (C04_Heap.v).  Part B: the wake-up contract of the scheduler model
   (Sched/Core.v + Sched/Prog.v), over every program of the core op language whose interrupts carry a
   non-zero errno, every run length, every event of the trace. *)
From Coq Require Import ZArith List Bool Lia Permutation.
From PV Require Import Base.U64 C04.C04_Heap C04.C04_HeapProofs Sched.Core Sched.Prog Sched.Lemmas
                       Sched.Invariant Sched.Effects C04.C04_Inv C04.C04_Step C04.C04_Step2 C04.C04_Proofs
                       C04.C04_Proofs2.
Import ListNotations.

Theorem heap_inv_init : forall ts, Inv ts heap_empty.
Proof. exact Inv_empty. Qed.
Print Assumptions heap_inv_init.

Theorem heap_inv_ts_ext : forall ts ts' h,
  Inv ts h -> (forall t, In t (hq h) -> ts' t = ts t) -> Inv ts' h.
Proof. exact Inv_ts_ext. Qed.
Print Assumptions heap_inv_ts_ext.

Theorem heap_front_is_min : forall ts h t,
  Inv ts h -> front h = Some t -> forall u, In u (hq h) -> (ts t <= ts u)%Z.
Proof. exact front_is_min. Qed.
Print Assumptions heap_front_is_min.

Theorem heap_inv_push : forall ts h t,
  Inv ts h -> hidx h t = (-1)%Z -> Inv ts (push ts h t).
Proof. exact push_Inv. Qed.
Print Assumptions heap_inv_push.

Theorem heap_push_perm : forall ts h t,
  Inv ts h -> hidx h t = (-1)%Z -> Permutation (hq (push ts h t)) (t :: hq h).
Proof. exact push_perm. Qed.
Print Assumptions heap_push_perm.

Theorem heap_inv_pop_front : forall ts h,
  Inv ts h -> hq h <> [] ->
  exists h' t, pop_front ts h = (h', Some t) /\ front h = Some t /\ Inv ts h' /\
               Permutation (hq h) (t :: hq h') /\ hidx h' t = (-1)%Z.
Proof.
  intros ts h HI Hne. destruct (pop_front_correct ts h HI Hne) as (h' & t & H1 & H2 & _ & H3 & H4 & H5).
  exists h', t. tauto.
Qed.
Print Assumptions heap_inv_pop_front.

Theorem heap_pop_front_min : forall ts h h' t,
  Inv ts h -> pop_front ts h = (h', Some t) ->
  In t (hq h) /\ forall u, In u (hq h) -> (ts t <= ts u)%Z.
Proof.
  intros ts h h' t HI Hpf.
  assert (Hne : hq h <> []) by (intros E; unfold pop_front in Hpf; rewrite E in Hpf; discriminate).
  destruct (pop_front_correct ts h HI Hne) as (h'' & t' & H1 & _ & H2 & _ & H3 & _).
  rewrite H1 in Hpf. injection Hpf as _ <-. split; [|exact H2].
  apply (Permutation_in _ (Permutation_sym H3)). left; reflexivity.
Qed.
Print Assumptions heap_pop_front_min.

Theorem heap_inv_pop : forall ts h t,
  Inv ts h -> In t (hq h) -> exists h', pop ts h t = (h', 0%Z) /\ Inv ts h'.
Proof.
  intros ts h t HI Hin. destruct (pop_correct ts h t HI Hin) as (h' & H1 & H2 & _). exists h'. tauto.
Qed.
Print Assumptions heap_inv_pop.

Theorem heap_pop_removes_exactly : forall ts h t,
  Inv ts h ->
  (In t (hq h) ->
   exists h', pop ts h t = (h', 0%Z) /\ Inv ts h' /\ Permutation (hq h) (t :: hq h') /\
              hidx h' t = (-1)%Z) /\
  (~ In t (hq h) -> pop ts h t = (h, (-1)%Z)).
Proof. intros ts h t HI. split; [apply pop_correct|apply pop_absent]; exact HI. Qed.
Print Assumptions heap_pop_removes_exactly.

(* every state reachable by ANY op list satisfies the invariant; in particular hbad is never set *)
Theorem heap_ops_inv : forall l s rs,
  hops_run hstate_init l [] = (s, rs) ->
  Inv (hs_ts s) (hs_heap s) /\ hbad (hs_heap s) = false.
Proof.
  intros l s rs Hrun. pose proof (hops_run_Inv l _ _ _ _ HSInv_init Hrun) as HI. split; [exact HI|apply HI].
Qed.
Print Assumptions heap_ops_inv.

(* every pop_front issued after ANY op list returns the front, which is a minimum of the queue
   at that moment, and removes exactly it (or is skipped on an empty queue) *)
Theorem heap_ops_pop_front_min : forall l s rs s' v,
  hops_run hstate_init l [] = (s, rs) -> hop_step s HPopFront = (s', v) ->
  (hq (hs_heap s) = [] /\ v = (-2)%Z /\ s' = s) \/
  (exists t, v = Z.of_nat t /\ front (hs_heap s) = Some t /\
             (forall u, In u (hq (hs_heap s)) -> (hs_ts s t <= hs_ts s u)%Z) /\
             Permutation (hq (hs_heap s)) (t :: hq (hs_heap s')) /\
             hidx (hs_heap s') t = (-1)%Z /\ hs_ts s' = hs_ts s /\ HSInv s').
Proof.
  intros l s rs s' v Hrun. apply hop_step_pop_front. exact (hops_run_Inv l _ _ _ _ HSInv_init Hrun).
Qed.
Print Assumptions heap_ops_pop_front_min.

Local Open Scope Z_scope.

(* the invariant from which everything follows holds in every reachable state of every program *)
Theorem sched_invariant : forall fuel ps, ps <> [] -> NZ_progs ps ->
  GI (core_progs ps) (run_state fuel ps) /\ TI (core_progs ps) (run_state fuel ps).
Proof. exact run_GI_TI. Qed.
Print Assumptions sched_invariant.

Theorem usleep_returns_0_or_minus1 : forall ps fuel ev d, ps <> [] -> NZ_progs ps ->
  In ev (s_trace (run_state fuel ps)) -> ev_cop ps ev = Some (OUsleep d) -> ev_ret ev = 0 \/ ev_ret ev = -1.
Proof.
  intros ps fuel ev d Hne Hnz Hin Hop.
  destruct (usleep_event_facts ps fuel ev d Hne Hnz Hin Hop) as (_ & K & C1 & C2 & C3).
  destruct K as [K|[K|K]].
  - destruct (C1 K) as (_ & _ & [(X & _)|(X & _)]); auto.
  - destruct (C2 K) as (_ & [(X & _)|(X & _)]); auto.
  - destruct (C3 K) as (_ & _ & X & _); auto.
Qed.
Print Assumptions usleep_returns_0_or_minus1.

(* thread_usleep(t) returns 0 only at (hence not before) its deadline (virtual time passes only
   while the vCPU is idle, and then exactly up to the next deadline) — or, for an already expired
   (zero) timeout, after a mere yield *)
Theorem sleep_zero_means_elapsed : forall ps fuel ev d, ps <> [] -> NZ_progs ps ->
  In ev (s_trace (run_state fuel ps)) -> ev_cop ps ev = Some (OUsleep d) -> ev_ret ev = 0 ->
  (expired (ev_issued ev) (timeout_of (ev_issued ev) d) = false /\ ev_time ev = timeout_of (ev_issued ev) d) \/
  (expired (ev_issued ev) (timeout_of (ev_issued ev) d) = true /\ ev_issued ev <= ev_time ev).
Proof.
  intros ps fuel ev d Hne Hnz Hin Hop Hr.
  destruct (usleep_event_facts ps fuel ev d Hne Hnz Hin Hop) as (A & K & C1 & C2 & C3).
  destruct K as [K|[K|K]].
  - destruct (C1 K) as (_ & E & [(_ & _ & X)|(X & _)]); [left; auto|lia].
  - destruct (C2 K) as (E & _). right. split; [exact E|lia].
  - destruct (C3 K) as (_ & _ & X & _). lia.
Qed.
Print Assumptions sleep_zero_means_elapsed.

(* in terms of elapsed time: at least (in virtual time: exactly) the requested duration *)
Theorem sleep_zero_elapsed_at_least : forall ps fuel ev d, ps <> [] -> NZ_progs ps ->
  In ev (s_trace (run_state fuel ps)) -> ev_cop ps ev = Some (OUsleep d) ->
  ev_ret ev = 0 -> 0 <= d -> ev_issued ev + d <= MAX64 -> ev_time ev - ev_issued ev >= d.
Proof.
  intros ps fuel ev d Hne Hnz Hin Hop Hr Hd Hsat.
  assert (Hexp : timeout_of (ev_issued ev) d = if d =? 0 then 0 else ev_issued ev + d).
  { unfold timeout_of. destruct (d =? 0); auto. unfold sat_add.
    destruct (MAX64 <? ev_issued ev + d) eqn:E; [apply Z.ltb_lt in E; lia|reflexivity]. }
  pose proof (proj1 (usleep_event_facts ps fuel ev d Hne Hnz Hin Hop)) as A.
  destruct (sleep_zero_means_elapsed ps fuel ev d Hne Hnz Hin Hop Hr) as [(E & X)|(E & X)].
  - rewrite Hexp in X. destruct (d =? 0) eqn:D; [apply Z.eqb_eq in D|]; lia.
  - destruct (d =? 0) eqn:D; [apply Z.eqb_eq in D; lia|apply Z.eqb_neq in D].
    unfold expired in E. rewrite Hexp in E. apply orb_true_iff in E.
    destruct E as [E|E]; [apply Z.eqb_eq in E|apply Z.leb_le in E]; lia.
Qed.
Print Assumptions sleep_zero_elapsed_at_least.

(* thread_usleep returns -1 only with the errno of a completed thread_interrupt(self, errno) /
   thread_shutdown(self) (event number ev_src of the trace), or as the 10 ms cap of a shut-down thread *)
Theorem sleep_minus1_means_interrupted : forall ps fuel ev d, ps <> [] -> NZ_progs ps ->
  In ev (s_trace (run_state fuel ps)) -> ev_cop ps ev = Some (OUsleep d) -> ev_ret ev = -1 ->
  (ev_err ev <> 0 /\
   exists ev', nth_error (run_trace fuel ps) (ev_src ev) = Some ev' /\ ev_ret ev' = 0 /\
               (ev_cop ps ev' = Some (OInterrupt (ev_tid ev) (ev_err ev)) \/
                (exists f, ev_cop ps ev' = Some (OShutdown (ev_tid ev) f) /\ ev_err ev = EPERM))) \/
  (ev_shut ev = true /\ ev_err ev = EPERM /\ ev_k ev = [3]).
Proof.
  intros ps fuel ev d Hne Hnz Hin Hop Hr.
  destruct (usleep_event_facts ps fuel ev d Hne Hnz Hin Hop) as (A & K & C1 & C2 & C3).
  assert (S : (ev_err ev <> 0 /\ src_ok (core_progs ps) (s_trace (run_state fuel ps)) (ev_tid ev) (ev_err ev) (ev_src ev)) \/
              (ev_shut ev = true /\ ev_err ev = EPERM /\ ev_k ev = [3])).
  { destruct K as [K|[K|K]].
    - destruct (C1 K) as (_ & _ & [(X & _)|(_ & E & _ & X)]); [lia|left; auto].
    - destruct (C2 K) as (_ & [(X & _)|(_ & E & X)]); [lia|left; auto].
    - destruct (C3 K) as (Sh & _ & _ & _ & [X|(E & X)]); [right; auto|left; auto]. }
  destruct S as [(He & ev' & Hn & Hr' & Hd)|X]; [left|right; exact X].
  split; [exact He|]. exists ev'. split; [exact Hn|]. split; [exact Hr'|].
  destruct Hd as [X|(f & X & Y)]; [left; apply ev_op_core_inv; exact X|right; exists f; split; [apply ev_op_core_inv; exact X|exact Y]].
Qed.
Print Assumptions sleep_minus1_means_interrupted.

(* thread_interrupt(th, e) on a SLEEPING thread makes it READY with error_number = e, in the run
   queue and out of the sleep queue; on a READY thread with a pending error_number it changes nothing
   (so the first interrupt is the one reported). *)
Theorem interrupt_wakes_sleeper : forall (st : cstate) t e,
  WF st -> th_state (getth st t) = SLEEPING ->
  let st' := thread_interrupt st t e in
  th_state (getth st' t) = READY /\ th_err (getth st' t) = e /\ th_waitq (getth st' t) = None /\
  In t (s_runq st') /\ ~ In t (hq (s_sleepq st')) /\ WF st'.
Proof.
  intros st t e W Hs st'. pose proof (WF_thread_interrupt _ st t e W) as W'. fold st' in W'.
  assert (G : getth st' t = interrupted (getth st t) e (length (s_trace st))).
  { unfold st'. rewrite getth_thread_interrupt, Nat.eqb_refl. reflexivity. }
  unfold interrupted in G. rewrite Hs in G.
  destruct (thread_interrupt_frame unit st t e) as (R & _). fold st' in R.
  destruct (tstate_eqb_spec (th_state (getth st t)) SLEEPING); [|contradiction].
  rewrite G. thsimpl.
  split; [reflexivity|]. split; [reflexivity|]. split; [reflexivity|].
  split; [rewrite R, in_app_iff; right; left; reflexivity|].
  split; [|exact W'].
  intros X. apply (wf_sleep _ _ W') in X. rewrite G in X. discriminate.
Qed.
Print Assumptions interrupt_wakes_sleeper.

Theorem pending_errno_not_overwritten : forall (st : cstate) t e,
  th_state (getth st t) = READY -> th_err (getth st t) <> 0 ->
  getth (thread_interrupt st t e) t = getth st t.
Proof.
  intros st t e Hs He. rewrite getth_thread_interrupt, Nat.eqb_refl. unfold interrupted. rewrite Hs.
  destruct (th_err (getth st t) =? 0) eqn:E; [apply Z.eqb_eq in E; contradiction|reflexivity].
Qed.
Print Assumptions pending_errno_not_overwritten.

(* resume_threads runs only in the idler; after every round of the idler (whatever it does next:
   yield to the woken threads, advance the clock, end the run) no thread whose deadline has been
   reached is still SLEEPING *)
Theorem deadline_met : forall progs (st : cstate) rest,
  GI progs st -> s_runq st = idler_tid st :: rest ->
  forall u, th_state (getth (idler_round st) u) = SLEEPING ->
            s_now (idler_round st) < th_ts (getth (idler_round st) u).
Proof.
  intros progs st rest G Hr.
  destruct (idler_round_spec progs st rest G Hr) as (st1 & G1 & _ & _ & Hd & [(to & r & Er & ->)|(_ & [->|(f & _ & ->)])]);
    [|exact Hd|exact Hd].
  (* the idler yields: the two threads it touches are awake, photon::now was fresh already *)
  destruct (ring_head unit st1 _ to r (gp_wf G1) Er) as (Hne & Hf & Hto & _).
  destruct (do_yield_frame unit st1 _ to r Er) as (_ & _ & _ & N & _).
  intros u. rewrite (getth_do_yield unit st1 _ to r u Er Hne Hf Hto), N.
  change (s_now (update_now st1)) with (s_clock st1). rewrite <- (gp_sync G1).
  destruct (Nat.eqb u to); [thsimpl; discriminate|].
  destruct (Nat.eqb u (idler_tid st1)); [thsimpl; discriminate|apply Hd].
Qed.
Print Assumptions deadline_met.

(* the part of shutdown_bound that holds: thread_usleep of a thread marked by thread_shutdown *)
Theorem shutdown_bound_usleep : forall ps fuel ev d, ps <> [] -> NZ_progs ps ->
  In ev (s_trace (run_state fuel ps)) -> ev_cop ps ev = Some (OUsleep d) ->
  ev_shut ev = true -> expired (ev_issued ev) (timeout_of (ev_issued ev) d) = false ->
  ev_ret ev = -1 /\ ev_time ev <= ev_issued ev + SHUTDOWN_CAP.
Proof.
  intros ps fuel ev d Hne Hnz Hin Hop Hs He.
  destruct (usleep_event_facts ps fuel ev d Hne Hnz Hin Hop) as (A & K & C1 & C2 & C3).
  destruct K as [K|[K|K]].
  - destruct (C1 K) as (X & _). congruence.
  - destruct (C2 K) as (X & _). congruence.
  - destruct (C3 K) as (_ & _ & X & Y & _). auto.
Qed.
Print Assumptions shutdown_bound_usleep.

(* the part of interrupt_at_most_once that holds: a thread_usleep that really slept consumes the
   interrupt it reports; no later event of that thread reports the same (or an older) delivery *)
Theorem sleep_consumes_interrupt : forall ps fuel i j e1 e2 d, ps <> [] -> NZ_progs ps ->
  nth_error (run_trace fuel ps) i = Some e1 -> nth_error (run_trace fuel ps) j = Some e2 -> (i < j)%nat ->
  ev_tid e1 = ev_tid e2 ->
  ev_cop ps e1 = Some (OUsleep d) -> ev_k e1 = [1] -> ev_ret e1 = -1 ->
  reports_interrupt ps e2 -> (ev_src e1 < ev_src e2)%nat.
Proof.
  intros ps fuel i j e1 e2 d Hne Hnz H1 H2 Hij Ht Hop Hk Hr Hrep.
  destruct (run_GI_TI fuel ps Hne Hnz) as (_ & (_ & P)).
  eapply (Pairs_rev (core_progs ps)); eauto.
  - split; [exists d; apply ev_op_core; exact Hop|auto].
  - destruct Hrep as [(d' & A & B & C)|[(A & B)|(j' & A & B & C)]].
    + left. split; [exists d'; apply ev_op_core; exact A|auto].
    + right; left. split; [apply ev_op_core; exact A|exact B].
    + right; right. split; [exists j'; apply ev_op_core; exact A|auto].
Qed.
Print Assumptions sleep_consumes_interrupt.

(* FINDINGS: the model, faithful to the code, refutes the two remaining clauses *)
Theorem interrupt_at_most_once_refuted : ~ interrupt_at_most_once.
Proof.
  intros H. destruct f6_witness_NZ as (Hne & Hnz).
  remember (nth 3 (run_trace 100 f6_witness) (mkEv 0%nat 0%nat 0 0 0 0 false [] 0%nat)) as e1 eqn:E1.
  remember (nth 4 (run_trace 100 f6_witness) (mkEv 0%nat 0%nat 0 0 0 0 false [] 0%nat)) as e2 eqn:E2.
  apply (H f6_witness 100%nat 3%nat 4%nat e1 e2 Hne Hnz).
  - subst e1. vm_compute. reflexivity.
  - subst e2. vm_compute. reflexivity.
  - discriminate.
  - right; left. subst e1. vm_compute. split; [reflexivity|discriminate].
  - left. exists 200. subst e2. vm_compute. split; [reflexivity|]. split; [reflexivity|discriminate].
  - subst e1 e2. vm_compute. reflexivity.
  - subst e1 e2. vm_compute. reflexivity.
Qed.
Print Assumptions interrupt_at_most_once_refuted.

Theorem shutdown_bound_refuted : ~ shutdown_bound.
Proof.
  intros H.
  assert (Hne : f8_witness <> []) by discriminate.
  assert (Hnz : NZ_progs f8_witness).
  { intros t pc k e. destruct t as [|[|[|[|t]]]]; destruct pc as [|[|[|[|pc]]]]; simpl; try discriminate; try (destruct pc; discriminate). }
  remember (nth 4 (run_trace 100 f8_witness) (mkEv 0%nat 0%nat 0 0 0 0 false [] 0%nat)) as e1 eqn:E1.
  assert (Hin : In e1 (run_trace 100 f8_witness)) by (subst e1; vm_compute; tauto).
  pose proof (H f8_witness 100%nat e1 Hne Hnz Hin) as X.
  assert (Hs : ev_shut e1 = true) by (subst e1; vm_compute; reflexivity).
  specialize (X Hs). subst e1. vm_compute in X. apply X. reflexivity.
Qed.
Print Assumptions shutdown_bound_refuted.
