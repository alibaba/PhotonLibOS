(* C04_Inv.v — the invariant of the C04 instance of the scheduler model (core ops only) from
   which the contract theorems follow: definitions and the basic lemmas. *)
From Coq Require Import ZArith List Bool Arith Lia.
From PV Require Import Base.U64 C04.C04_Heap C04.C04_HeapProofs Sched.Core Sched.Prog Sched.Lemmas
                       Sched.Invariant Sched.Effects.
Import ListNotations.
Local Open Scope Z_scope.

Notation cstate := (state unit).

(* A statement per phase k of an op, given as "the phase is i and A_i holds". *)
Lemma by_phase (k : kont) (A1 A2 A3 : Prop) :
  (k = [1] /\ A1) \/ (k = [2] /\ A2) \/ (k = [3] /\ A3) ->
  (k = [1] \/ k = [2] \/ k = [3]) /\ (k = [1] -> A1) /\ (k = [2] -> A2) /\ (k = [3] -> A3).
Proof.
  intros [(K & H)|[(K & H)|(K & H)]]; rewrite K; (split; [auto|]); (split; [|split]);
    intros X; try discriminate X; exact H.
Qed.

Lemma by_phase0 (k : kont) (A1 A2 A3 : Prop) :
  k = [] \/ (k = [1] /\ A1) \/ (k = [2] /\ A2) \/ (k = [3] /\ A3) ->
  (k = [] \/ k = [1] \/ k = [2] \/ k = [3]) /\ (k = [1] -> A1) /\ (k = [2] -> A2) /\ (k = [3] -> A3).
Proof.
  intros [K|H].
  - rewrite K. split; [auto|]. split; [|split]; intros X; discriminate X.
  - destruct (by_phase k A1 A2 A3 H) as (K & R). split; [right; exact K|exact R].
Qed.

Section C04INV.
  Variable progs : list (list (op no_op)).

  Definition cur_op (t : tid) (th : thread) : option (op no_op) := nth_error (prog_of progs t) (th_pc th).
  Definition ev_op (ev : event) : option (op no_op) := nth_error (prog_of progs (ev_tid ev)) (ev_pc ev).

  (* the event `ev` is a completed thread_interrupt(t, e), or a thread_shutdown(t, _) with e = EPERM *)
  Definition delivers (ev : event) (t : tid) (e : Z) : Prop :=
    ev_ret ev = 0 /\
    (ev_op ev = Some (OCore (OInterrupt t e)) \/ (exists f, ev_op ev = Some (OCore (OShutdown t f)) /\ e = EPERM)).

  (* `src` is the index (oldest first) of an event that delivers e to t *)
  Definition src_ok (tr : list event) (t : tid) (e : Z) (src : nat) : Prop :=
    exists ev, nth_error (rev tr) src = Some ev /\ delivers ev t e.

  Lemma src_ok_mono tr x t e src : src_ok tr t e src -> src_ok (x :: tr) t e src.
  Proof.
    intros (ev & Hn & Hd). exists ev. split; auto. simpl.
    rewrite nth_error_app1; auto. apply nth_error_Some. congruence.
  Qed.

  Lemma src_ok_new tr ev t e : delivers ev t e -> src_ok (ev :: tr) t e (length tr).
  Proof.
    intros Hd. exists ev. split; auto. simpl.
    rewrite nth_error_app2 by (rewrite rev_length; lia). rewrite rev_length, Nat.sub_diag. reflexivity.
  Qed.

  Lemma src_ok_lt tr t e src : src_ok tr t e src -> (src < length tr)%nat.
  Proof. intros (ev & Hn & _). rewrite <- rev_length. apply nth_error_Some. congruence. Qed.

  (* a phase-[1] thread_usleep that returned -1: it CONSUMED (cleared) the error_number it reports *)
  Definition clearing (ev : event) : Prop :=
    (exists d, ev_op ev = Some (OCore (OUsleep d))) /\ ev_k ev = [1] /\ ev_ret ev = -1.
  (* the event reports an interrupt to its thread: a usleep returning -1 other than by the 10 ms
     cap path, or a yield / yield_to returning a non-zero error_number *)
  Definition reports (ev : event) : Prop :=
    ((exists d, ev_op ev = Some (OCore (OUsleep d))) /\ ev_ret ev = -1 /\ ev_k ev <> [3]) \/
    (ev_op ev = Some (OCore OYield) /\ ev_ret ev <> 0) \/
    ((exists j, ev_op ev = Some (OCore (OYieldTo j))) /\ ev_k ev = [1] /\ ev_ret ev <> 0).

  (* every delivery still pending for t is newer than everything t's real sleeps have consumed *)
  Definition fresh (t : tid) (th : thread) (tr : list event) : Prop :=
    forall e1, In e1 tr -> ev_tid e1 = t -> clearing e1 ->
      (ev_src e1 < length tr)%nat /\ (th_err th <> 0 -> (ev_src e1 < th_esrc th)%nat).

  Definition usleep_exp (th : thread) (d : Z) : Z := timeout_of (th_issued th) d.
  Definition usleep_exp3 (th : thread) (d : Z) : Z := timeout_at_most (th_issued th) (usleep_exp th d) SHUTDOWN_CAP.

  (* per-thread invariant, as a function of the thread record, the two clocks and the trace *)
  Set Implicit Arguments.
  Record GoodT (t : tid) (th : thread) (now clock : Z) (tr : list event) : Prop := mkGoodT {
    g_issued : 0 <= th_issued th <= now;
    g_sleep_clock : th_state th = SLEEPING -> clock <= th_ts th <= MAX64;
    g_usleep : forall d, cur_op t th = Some (OCore (OUsleep d)) ->
      (th_k th = [] \/ th_k th = [1] \/ th_k th = [2] \/ th_k th = [3]) /\
      (th_k th = [1] ->
         th_shut_issue th = false /\ expired (th_issued th) (usleep_exp th d) = false /\
         th_ts th = usleep_exp th d /\ clock <= th_ts th /\
         (th_state th = SLEEPING \/ th_err th <> 0 \/ clock = th_ts th)) /\
      (th_k th = [2] -> expired (th_issued th) (usleep_exp th d) = true /\ th_state th <> SLEEPING) /\
      (th_k th = [3] ->
         th_shut_issue th = true /\ expired (th_issued th) (usleep_exp th d) = false /\
         th_ts th = usleep_exp3 th d /\ clock <= th_ts th /\
         (th_state th = SLEEPING \/ th_err th <> 0 \/ clock = th_ts th));
    g_src : th_err th <> 0 ->
            src_ok tr t (th_err th) (th_esrc th) \/
            (th_err th = -1 /\ (exists j, cur_op t th = Some (OCore (OJoin j))) /\ th_k th = [1]);
    g_wq : forall q, th_waitq th = Some q ->
           exists j, q = QJoin j /\ cur_op t th = Some (OCore (OJoin j)) /\ th_k th = [1];
    (* a thread is inside an op only while it exists and has not died *)
    g_kstate : th_k th <> [] -> th_state th = READY \/ th_state th = RUNNING \/ th_state th = SLEEPING;
    (* past the end of its program a thread (other than the parked main thread) is in no op *)
    g_end : t <> 0%nat -> cur_op t th = None -> th_k th = [];
    g_fresh : fresh t th tr
  }.
  Unset Implicit Arguments.

  Lemma fresh_mono t th tr x : fresh t th tr -> (ev_tid x = t -> ~ clearing x) -> fresh t th (x :: tr).
  Proof.
    intros F Hx e1 [<-|Hin] Ht Hc.
    - exfalso. apply (Hx Ht). exact Hc.
    - destruct (F e1 Hin Ht Hc) as (A & B). split; [simpl; lia|exact B].
  Qed.

  Lemma GoodT_mono t th now clock tr x :
    GoodT t th now clock tr -> (ev_tid x = t -> ~ clearing x) -> GoodT t th now clock (x :: tr).
  Proof.
    intros [A B C D E F G H] Hx. constructor; auto.
    - intros H0. destruct (D H0) as [S|S]; [left; apply src_ok_mono; auto|right; auto].
    - apply fresh_mono; auto.
  Qed.

  (* what the theorems say about one trace event *)
  Definition EvOK (tr : list event) (ev : event) : Prop :=
    0 <= ev_issued ev <= ev_time ev /\
    (forall d, ev_op ev = Some (OCore (OUsleep d)) ->
       let exp := timeout_of (ev_issued ev) d in
       (ev_k ev = [1] \/ ev_k ev = [2] \/ ev_k ev = [3]) /\
       (ev_k ev = [1] ->
          ev_shut ev = false /\ expired (ev_issued ev) exp = false /\
          ((ev_ret ev = 0 /\ ev_err ev = 0 /\ ev_time ev = exp) \/
           (ev_ret ev = -1 /\ ev_err ev <> 0 /\ ev_time ev <= exp /\
            src_ok tr (ev_tid ev) (ev_err ev) (ev_src ev)))) /\
       (ev_k ev = [2] ->
          expired (ev_issued ev) exp = true /\
          ((ev_ret ev = 0 /\ ev_err ev = 0) \/
           (ev_ret ev = -1 /\ ev_err ev <> 0 /\ src_ok tr (ev_tid ev) (ev_err ev) (ev_src ev)))) /\
       (ev_k ev = [3] ->
          ev_shut ev = true /\ expired (ev_issued ev) exp = false /\ ev_ret ev = -1 /\
          ev_time ev <= ev_issued ev + SHUTDOWN_CAP /\
          (ev_err ev = EPERM \/ (ev_err ev <> 0 /\ src_ok tr (ev_tid ev) (ev_err ev) (ev_src ev))))) /\
    (ev_op ev = Some (OCore OYield) \/ (exists j, ev_op ev = Some (OCore (OYieldTo j)) /\ ev_k ev = [1]) ->
       ev_ret ev = 0 \/ src_ok tr (ev_tid ev) (ev_ret ev) (ev_src ev)).

  Lemma EvOK_mono tr x ev : EvOK tr ev -> EvOK (x :: tr) ev.
  Proof.
    intros (A & B & C). split; auto. split.
    - intros d Hd. specialize (B d Hd). cbv zeta in *. destruct B as (B0 & B1 & B2 & B3).
      split; [exact B0|]. split; [|split].
      + intros Hk. destruct (B1 Hk) as (X1 & X2 & [X3|(X3 & X4 & X5 & X6)]); repeat split; auto.
        right. repeat split; auto. apply src_ok_mono; auto.
      + intros Hk. destruct (B2 Hk) as (X1 & [X3|(X3 & X4 & X6)]); repeat split; auto.
        right. repeat split; auto. apply src_ok_mono; auto.
      + intros Hk. destruct (B3 Hk) as (X1 & X2 & X3 & X4 & [X5|(X5 & X6)]); repeat split; auto.
        right. split; auto. apply src_ok_mono; auto.
    - intros H. destruct (C H) as [?|S]; auto. right. apply src_ok_mono; auto.
  Qed.

  (* what EvOK says about an event known to be a usleep d *)
  Definition usleep_ev (tr : list event) (ev : event) (d : Z) : Prop :=
    let exp := timeout_of (ev_issued ev) d in
    (ev_k ev = [1] \/ ev_k ev = [2] \/ ev_k ev = [3]) /\
    (ev_k ev = [1] ->
       ev_shut ev = false /\ expired (ev_issued ev) exp = false /\
       ((ev_ret ev = 0 /\ ev_err ev = 0 /\ ev_time ev = exp) \/
        (ev_ret ev = -1 /\ ev_err ev <> 0 /\ ev_time ev <= exp /\
         src_ok tr (ev_tid ev) (ev_err ev) (ev_src ev)))) /\
    (ev_k ev = [2] ->
       expired (ev_issued ev) exp = true /\
       ((ev_ret ev = 0 /\ ev_err ev = 0) \/
        (ev_ret ev = -1 /\ ev_err ev <> 0 /\ src_ok tr (ev_tid ev) (ev_err ev) (ev_src ev)))) /\
    (ev_k ev = [3] ->
       ev_shut ev = true /\ expired (ev_issued ev) exp = false /\ ev_ret ev = -1 /\
       ev_time ev <= ev_issued ev + SHUTDOWN_CAP /\
       (ev_err ev = EPERM \/ (ev_err ev <> 0 /\ src_ok tr (ev_tid ev) (ev_err ev) (ev_src ev)))).

  Lemma EvOK_usleep tr ev d : EvOK tr ev -> ev_op ev = Some (OCore (OUsleep d)) -> usleep_ev tr ev d.
  Proof. intros (_ & B & _) H. exact (B d H). Qed.

  Lemma EvOK_usleep_intro tr ev d :
    ev_op ev = Some (OCore (OUsleep d)) -> 0 <= ev_issued ev <= ev_time ev -> usleep_ev tr ev d -> EvOK tr ev.
  Proof.
    intros Hop Hi H. split; [exact Hi|]. split.
    - intros d' Hd'. rewrite Hop in Hd'. injection Hd' as <-. exact H.
    - intros [Y|(j & Y & _)]; rewrite Hop in Y; discriminate.
  Qed.

  (* `tr` is newest first: x :: tr means x happened after everything in tr *)
  Fixpoint Pairs (tr : list event) : Prop :=
    match tr with
    | [] => True
    | x :: r => Pairs r /\
                (reports x -> forall e1, In e1 r -> ev_tid e1 = ev_tid x -> clearing e1 -> (ev_src e1 < ev_src x)%nat)
    end.

  Definition TI (st : cstate) : Prop :=
    (forall ev, In ev (s_trace st) -> EvOK (s_trace st) ev) /\ Pairs (s_trace st).

  Lemma TI_same (st st' : cstate) : TI st -> s_trace st' = s_trace st -> TI st'.
  Proof. unfold TI. intros T ->. exact T. Qed.

  Set Implicit Arguments.
  Record GI (st : cstate) : Prop := mkGI {
    gi_wf : WF st;
    gi_n : nthreads st = S (length progs);
    gi_sync : s_now st = s_clock st \/ (s_runq st = [idler_tid st] /\ hq (s_sleepq st) <> []);
    gi_max : s_clock st <= MAX64;
    gi_pos : 0 <= s_now st;
    gi_ring : forall t, th_state (getth st t) = READY \/ th_state (getth st t) = RUNNING -> In t (s_runq st);
    gi_good : forall t, (t < length progs)%nat -> GoodT t (getth st t) (s_now st) (s_clock st) (s_trace st);
    gi_idler_k : th_state (getth st (idler_tid st)) <> SLEEPING
  }.
  Unset Implicit Arguments.

  Lemma gi_idler_tid st : GI st -> idler_tid st = length progs.
  Proof. intros G. unfold idler_tid. pose proof (gi_n G) as H. unfold nthreads in H. rewrite H. simpl. lia. Qed.

  (* a thread that is awake is in no wait queue *)
  Lemma awake_no_waitq (st : cstate) t : WF st -> th_state (getth st t) <> SLEEPING -> th_waitq (getth st t) = None.
  Proof.
    intros W H. destruct (th_waitq (getth st t)) as [q|] eqn:E; auto.
    apply (wf_wq_of _ _ W) in E. apply (wf_wq_in _ _ W) in E. tauto.
  Qed.

End C04INV.
