(* C04_Step2.v — the step of a user thread, op by op; the main preservation theorem *)
From Coq Require Import ZArith List Bool Arith Lia.
From PV Require Import Base.U64 C04.C04_Heap C04.C04_HeapProofs Sched.Core Sched.Prog Sched.Lemmas
                       Sched.Invariant Sched.Effects C04.C04_Inv C04.C04_Good C04.C04_Step.
Import ListNotations.
Local Open Scope Z_scope.

Section STEP2.
  Variable progs : list (list (op no_op)).
  Hypothesis NZ : forall t pc k e, nth_error (prog_of progs t) pc = Some (OCore (OInterrupt k e)) -> e <> 0.

  Notation GoodT := (GoodT progs).
  Notation GI := (GI progs).
  Notation TI := (TI progs).
  Notation EvOK := (EvOK progs).
  Notation cur_op := (cur_op progs).
  Notation GIp := (GIp progs).
  Notation GIa := (GIa progs).

  Lemma GI_TI_stuck st : GI st -> TI st -> GI (set_stuck st) /\ TI (set_stuck st).
  Proof.
    intros G T. split; [|exact T].
    apply (GI_same progs st); auto. apply same_sched_set_stuck.
  Qed.

  (* GI of a synchronised state survives a scheduler-neutral, GoodT-preserving rewrite of a thread record *)
  Lemma GI_modth (st : cstate) j f :
    GI st -> s_now st = s_clock st -> sched_neutral f ->
    (GoodT j (getth st j) (s_now st) (s_clock st) (s_trace st) -> GoodT j (f (getth st j)) (s_now st) (s_clock st) (s_trace st)) ->
    GI (modth st j f).
  Proof.
    intros G Hs Hf Hg. apply GIp_GI. change (GIa (modth st j f) (s_trace st)).
    apply GIp_modth; [apply GI_GIp; assumption|exact Hf|intros _; exact Hg].
  Qed.

  (* context of the step of user thread t executing core op c *)
  Record UCtx (st : cstate) (t to : tid) (rest : list tid) (c : core_op) : Prop := mkUCtx {
    uc_gi : GI st;
    uc_ti : TI st;
    uc_runq : s_runq st = t :: to :: rest;
    uc_nid : t <> idler_tid st;
    uc_op : cur_op t (getth st t) = Some (OCore c);
    uc_start : th_k (getth st t) = [] ->
               th_issued (getth st t) = s_now st /\ th_shut_issue (getth st t) = th_shutdown (getth st t)
  }.
  Arguments uc_gi {st t to rest c}. Arguments uc_ti {st t to rest c}. Arguments uc_runq {st t to rest c}.
  Arguments uc_nid {st t to rest c}. Arguments uc_op {st t to rest c}. Arguments uc_start {st t to rest c}.

  Section WITHCTX.
    Context {st : cstate} {t to : tid} {rest : list tid} {c : core_op}.
    Hypothesis UC : UCtx st t to rest c.

    Let th := getth st t.
    Let Huser := user_ctx progs st t _ (uc_gi UC) (uc_runq UC) (uc_nid UC).

    Lemma uc_lt : (t < length progs)%nat.
    Proof. apply Huser. Qed.
    Lemma uc_sync : s_now st = s_clock st.
    Proof. apply Huser. Qed.
    Lemma uc_awake : th_state th <> SLEEPING.
    Proof. apply Huser. Qed.
    Lemma uc_nowq : th_waitq th = None.
    Proof. apply Huser. Qed.
    Lemma uc_good : GoodT t th (s_now st) (s_clock st) (s_trace st).
    Proof. apply (gi_good (uc_gi UC)). exact uc_lt. Qed.
    Lemma uc_gp P : GIp P st (s_trace st).
    Proof. apply GI_GIp; [apply (uc_gi UC)|exact uc_sync]. Qed.
    Lemma uc_in : In t (s_runq st).
    Proof. rewrite (uc_runq UC). left; reflexivity. Qed.
    Lemma uc_range : (t < nthreads st)%nat.
    Proof. apply (ring_in_range unit); [apply (gi_wf (uc_gi UC))|exact uc_in]. Qed.

    (* the pending error_number of the current thread comes from a recorded delivery, unless the
       thread is a joiner that thread::die has just notified *)
    Lemma uc_src : ~ ((exists j, c = OJoin j) /\ th_k th = [1]) -> th_err th <> 0 ->
                   src_ok progs (s_trace st) t (th_err th) (th_esrc th).
    Proof.
      intros Hnj He. destruct (g_src uc_good He) as [X|(_ & (j & Hj) & Hk)]; auto.
      exfalso. apply Hnj. split; auto. exists j. pose proof (uc_op UC) as Hop. fold th in Hop. congruence.
    Qed.

    (* the event of an op that completes now *)
    Definition ev_now (th' : thread) (r e : Z) : event :=
      mkEv t (th_pc th') r e (s_now st) (th_issued th') (th_shut_issue th') (th_k th') (th_esrc th').

    Lemma ev_now_op r e : ev_op progs (ev_now th r e) = Some (OCore c).
    Proof. apply (uc_op UC). Qed.

    Lemma uc_fresh : fresh progs t th (s_trace st).
    Proof. apply (g_fresh uc_good). Qed.

    Lemma clearing_now r e : clearing progs (ev_now th r e) -> th_k th = [1] /\ r = -1.
    Proof. intros (_ & A & B). simpl in *. auto. Qed.
    Lemma reports_now r e : reports progs (ev_now th r e) ->
      (r = -1 /\ th_k th <> [3] /\ exists d, c = OUsleep d) \/ (c = OYield /\ r <> 0) \/
      ((exists j, c = OYieldTo j) /\ th_k th = [1] /\ r <> 0).
    Proof.
      intros [((d & Hd) & A & B)|[(Hd & A)|((j & Hd) & A & B)]]; rewrite ev_now_op in Hd; injection Hd as ->.
      - left. eauto.
      - right; left. auto.
      - right; right. eauto.
    Qed.

    Lemma aret_ctx r e :
      (th_err th <> 0 -> ~ ((exists j, c = OJoin j) /\ th_k th = [1])) ->
      ~ clearing progs (ev_now th r e) ->
      (reports progs (ev_now th r e) -> th_err th <> 0) ->
      EvOK (ev_now th r e :: s_trace st) (ev_now th r e) ->
      GI (apply_action st t (ARet r e) true) /\ TI (apply_action st t (ARet r e) true).
    Proof.
      intros Hnj Hnc Hrep Hev. apply aret_inv.
      - apply GIp_mono; [apply uc_gp|intros u _ _; exact Hnc].
      - exact uc_in.
      - apply (uc_ti UC).
      - exact Hev.
      - intros X. apply src_ok_mono. apply uc_src; auto.
      - apply fresh_mono; [exact uc_fresh|intros _; exact Hnc].
      - intros Hr e1 Hin Ht Hc. destruct (uc_fresh e1 Hin Ht Hc) as (_ & X). apply X. apply Hrep. exact Hr.
    Qed.

    (* the same after set_error_number has cleared a non-zero error_number *)
    Lemma aret_ctx_clear r e :
      let st1 := modth st t (fun x => set_terr x 0) in
      th_err th <> 0 -> ~ ((exists j, c = OJoin j) /\ th_k th = [1]) ->
      EvOK (ev_now th r e :: s_trace st) (ev_now th r e) ->
      GI (apply_action st1 t (ARet r e) true) /\ TI (apply_action st1 t (ARet r e) true).
    Proof.
      intros st1 Herr Hnj Hev.
      assert (E1 : getth st1 t = set_terr th 0) by (apply getth_modth_same; exact uc_range).
      pose proof (src_ok_lt progs _ _ _ _ (uc_src Hnj Herr)) as Hlt.
      pose proof (aret_inv progs st1 t r e) as A. cbv zeta in A. rewrite E1 in A. thsimpl.
      apply A.
      - apply GIp_mono; [|intros u Hu Ht; contradiction (Hu (eq_sym Ht))].
        apply GIp_modth; [apply uc_gp|intros x; repeat split; reflexivity|intros X; contradiction (X eq_refl)].
      - exact uc_in.
      - apply (uc_ti UC).
      - exact Hev.
      - intros X. exfalso. apply X. reflexivity.
      - intros e1 [<-|Hin] Ht Hc.
        + split; [simpl; lia|]. thsimpl. intros X. exfalso. apply X; reflexivity.
        + destruct (uc_fresh e1 Hin Ht Hc) as (X & _). split; [simpl; lia|]. thsimpl. intros Y. exfalso. apply Y; reflexivity.
      - intros _ e1 Hin Ht Hc. destruct (uc_fresh e1 Hin Ht Hc) as (_ & X). apply X. exact Herr.
    Qed.

    Lemma plain_not_clearing_now r e : (forall d, c <> OUsleep d) -> ~ clearing progs (ev_now th r e).
    Proof. intros H. eapply not_clearing_op; [apply ev_now_op|exact H]. Qed.

    (* an op other than usleep / yield / yield_to completes without touching the scheduler *)
    Lemma aret_plain r e :
      plain_op c -> (th_err th <> 0 -> ~ ((exists j, c = OJoin j) /\ th_k th = [1])) ->
      GI (apply_action st t (ARet r e) true) /\ TI (apply_action st t (ARet r e) true).
    Proof.
      intros Hp Hnj.
      apply aret_plain_inv with (c := c); [|exact uc_in|exact uc_lt|apply (uc_ti UC)|apply (uc_op UC)|exact Hp|exact Hnj].
      apply GIp_mono; [apply uc_gp|]. intros u _ _. apply plain_not_clearing_now. apply plain_not_usleep; exact Hp.
    Qed.

    (* the op returns the pending error_number without clearing it *)
    Lemma aret_errno :
      (forall d, c <> OUsleep d) -> (forall j, c <> OJoin j) ->
      (c = OYield \/ (exists j, c = OYieldTo j) /\ th_k th = [1]) ->
      GI (apply_action st t (ARet (th_err th) 0) true) /\ TI (apply_action st t (ARet (th_err th) 0) true).
    Proof.
      intros Hnu Hnj Hy. apply aret_ctx.
      - intros _ ((j & X) & _). exact (Hnj j X).
      - apply plain_not_clearing_now. exact Hnu.
      - intros Y. apply reports_now in Y. destruct Y as [(_ & _ & (d & Y))|[(_ & Y)|(_ & _ & Y)]]; [|exact Y|exact Y].
        exfalso. exact (Hnu d Y).
      - split; [simpl; apply (g_issued uc_good)|]. split.
        + intros d. rewrite ev_now_op. intros X. injection X as X. exfalso. exact (Hnu d X).
        + intros _. simpl. destruct (Z.eq_dec (th_err th) 0) as [X|X]; [left; exact X|right].
          apply src_ok_mono. apply uc_src; auto. intros ((j & Y) & _). exact (Hnj j Y).
    Qed.

  End WITHCTX.
  Arguments ev_now : clear implicits.

  Lemma plain_aret st t to rest c r e :
    UCtx st t to rest c -> plain_op c -> th_k (getth st t) <> [1] ->
    GI (apply_action st t (ARet r e) true) /\ TI (apply_action st t (ARet r e) true).
  Proof. intros UC Hp Hk. apply (aret_plain UC); [exact Hp|intros _ (_ & X); auto]. Qed.

  Lemma not_expired now exp : expired now exp = false -> now < exp.
  Proof. unfold expired. intros H. apply orb_false_iff in H. destruct H as (_ & H). apply Z.leb_gt in H. exact H. Qed.

  Lemma exp_bounds now d : expired now (timeout_of now d) = false -> now < timeout_of now d <= MAX64.
  Proof.
    intros H. split; [apply not_expired; exact H|].
    unfold timeout_of in *. destruct (d =? 0) eqn:E; [unfold expired in H; simpl in H; discriminate|].
    apply sat_add_le_max.
  Qed.
  Lemma exp3_bounds now exp : now <= MAX64 -> now < exp <= MAX64 ->
    now <= timeout_at_most now exp SHUTDOWN_CAP <= MAX64 /\ timeout_at_most now exp SHUTDOWN_CAP <= now + SHUTDOWN_CAP.
  Proof.
    intros Hn He. unfold timeout_at_most.
    assert (Hc : 0 <= SHUTDOWN_CAP) by (unfold SHUTDOWN_CAP; lia).
    pose proof (sat_add_ge now SHUTDOWN_CAP Hc Hn). pose proof (sat_add_le_sum now SHUTDOWN_CAP).
    pose proof (sat_add_le_max now SHUTDOWN_CAP).
    destruct (sat_add now SHUTDOWN_CAP <? exp) eqn:E; [apply Z.ltb_lt in E|apply Z.ltb_ge in E]; lia.
  Qed.

  Lemma step_usleep st t to rest d :
    UCtx st t to rest (OUsleep d) ->
    let '(st1, a) := exec_core st t (OUsleep d) (th_k (getth st t)) in
    GI (apply_action st1 t a true) /\ TI (apply_action st1 t a true).
  Proof.
    intros UC.
    pose proof (uc_good UC) as GT. pose proof (uc_op UC) as Hop. pose proof (uc_sync UC) as Hsy.
    pose proof (uc_gp UC (fun u => u <> t)) as GW. pose proof (g_issued GT) as Hi.
    pose proof (uc_awake UC) as Haw. pose proof (uc_nowq UC) as Hnq.
    pose proof (gi_max (uc_gi UC)) as Hmax.
    set (th := getth st t) in *.
    destruct (g_usleep GT Hop) as (Hk & C1 & C2 & C3).
    assert (Hnj : ~ ((exists j, OUsleep d = OJoin j) /\ th_k th = [1])) by (intros ((j & X) & _); discriminate).
    assert (Hend : t <> 0%nat -> cur_op t th <> None) by (intros _; rewrite Hop; discriminate).
    (* a record with the pc of th satisfies the usleep clauses if it does for this d *)
    assert (CL : forall th', th_pc th' = th_pc th -> usleep_clause th' (s_clock st) d -> usleep_clauses progs t th' (s_clock st)).
    { intros th' Hpc H d' Hd'. unfold cur_op in Hd', Hop. rewrite Hpc, Hop in Hd'. injection Hd' as <-. exact H. }
    (* the event of the completing usleep is fine if its usleep clause holds *)
    assert (EV : forall r e, usleep_ev progs (ev_now st t th r e :: s_trace st) (ev_now st t th r e) d ->
                             EvOK (ev_now st t th r e :: s_trace st) (ev_now st t th r e)).
    { intros r e. apply EvOK_usleep_intro; [apply (ev_now_op UC)|exact Hi]. }
    assert (Hsrc : th_err th <> 0 -> forall x, src_ok progs (x :: s_trace st) t (th_err th) (th_esrc th)).
    { intros He x. apply src_ok_mono. apply (uc_src UC); auto. }
    assert (Hnrep : forall r e, r <> -1 -> reports progs (ev_now st t th r e) -> th_err th <> 0).
    { intros r e Hr Y. apply (reports_now UC) in Y. destruct Y as [(Y & _)|[(Y & _)|((j & Y) & _)]]; [contradiction|discriminate|discriminate]. }
    destruct Hk as [Hk|[Hk|[Hk|Hk]]]; rewrite Hk; cbn [exec_core].
    - (* the op starts *)
      destruct (uc_start UC Hk) as (Hiss & Hsh). subst th.
      destruct (expired (s_now st) (timeout_of (s_now st) d)) eqn:Eexp.
      + (* yield_as_sleep *)
        eapply case_yield; [exact GW|apply (uc_ti UC)|apply (uc_runq UC)|].
        apply GoodT_yield_record; auto. apply CL; [reflexivity|]. apply by_phase0. right; right; left.
        unfold yield_record, usleep_exp. thsimpl. rewrite Hiss. repeat split; [exact Eexp|discriminate].
      + destruct (exp_bounds _ _ Eexp) as (He1 & He2).
        destruct (th_shutdown (getth st t)) eqn:Eshut.
        * (* do_shutdown_usleep: capped *)
          destruct (exp3_bounds (s_now st) (timeout_of (s_now st) d) ltac:(lia) (conj He1 He2)) as (B1 & B2).
          eapply case_sleep; [exact GW|apply (uc_ti UC)|apply (uc_runq UC)|apply (uc_nid UC)|exact Hnq|].
          apply (GoodT_sleep_record progs t (getth st t) _ _ _ [3] None); auto; try discriminate; try lia; [|apply (uc_src UC); auto].
          apply CL; [reflexivity|]. apply by_phase0. right; right; right.
          unfold sleep_record, usleep_exp3, usleep_exp. thsimpl. rewrite Hiss, Hsh. repeat split; auto; lia.
        * (* do_thread_usleep *)
          eapply case_sleep; [exact GW|apply (uc_ti UC)|apply (uc_runq UC)|apply (uc_nid UC)|exact Hnq|].
          apply (GoodT_sleep_record progs t (getth st t) _ _ _ [1] None); auto; try discriminate; try lia; [|apply (uc_src UC); auto].
          apply CL; [reflexivity|]. apply by_phase0. right; left.
          unfold sleep_record, usleep_exp. thsimpl. rewrite Hiss, Hsh. repeat split; auto; lia.
    - (* woken from do_thread_usleep: r.from->set_error_number() *)
      destruct (C1 Hk) as (S1 & S2 & S3 & S4 & S5). unfold usleep_exp in S3.
      unfold set_error_number. fold th.
      destruct (th_err th =? 0) eqn:Ee; [apply Z.eqb_eq in Ee|apply Z.eqb_neq in Ee].
      + assert (S5' : s_clock st = th_ts th) by (destruct S5 as [X|[X|X]]; [contradiction|contradiction|exact X]).
        apply (aret_ctx UC); [intros _; exact Hnj
          |intros Y; apply clearing_now in Y; destruct Y as (_ & Y); discriminate
          |apply Hnrep; discriminate|].
        apply EV. apply by_phase. left. simpl. fold th. repeat split; auto. left. repeat split; auto. lia.
      + apply (aret_ctx_clear UC); [exact Ee|exact Hnj|].
        apply EV. apply by_phase. left. simpl. fold th. repeat split; auto. right. repeat split; auto. lia.
    - (* back from yield_as_sleep: error_number is read, not cleared *)
      destruct (C2 Hk) as (S1 & S2).
      unfold ret_after_yield. fold th.
      destruct (th_err th =? 0) eqn:Ee; [apply Z.eqb_eq in Ee|apply Z.eqb_neq in Ee].
      + apply (aret_ctx UC); [intros _; exact Hnj
          |intros Y; apply clearing_now in Y; destruct Y as (_ & Y); discriminate
          |apply Hnrep; discriminate|].
        apply EV. apply by_phase. right; left. simpl. fold th. repeat split; auto.
      + apply (aret_ctx UC); [intros _; exact Hnj
          |intros Y; apply clearing_now in Y; destruct Y as (Y & _); fold th in Y; rewrite Hk in Y; discriminate
          |intros _; exact Ee|].
        apply EV. apply by_phase. right; left. simpl. fold th. repeat split; auto.
    - (* woken from do_shutdown_usleep *)
      destruct (C3 Hk) as (S1 & S2 & S3 & S4 & S5).
      assert (Hcap : s_now st <= th_issued th + SHUTDOWN_CAP).
      { pose proof (gi_pos (uc_gi UC)).
        destruct (exp_bounds _ _ S2) as (E1 & E2). unfold usleep_exp3, usleep_exp in S3.
        destruct (exp3_bounds (th_issued th) _ ltac:(lia) (conj E1 E2)) as (_ & B2). lia. }
      unfold set_error_number. fold th.
      destruct (th_err th =? 0) eqn:Ee; [apply Z.eqb_eq in Ee|apply Z.eqb_neq in Ee]; simpl.
      + apply (aret_ctx UC); [intros _; exact Hnj
          |intros Y; apply clearing_now in Y; destruct Y as (Y & _); fold th in Y; rewrite Hk in Y; discriminate
          |intros Y; apply (reports_now UC) in Y; destruct Y as [(_ & Y & _)|[(Y & _)|((j & Y) & _)]];
             [fold th in Y; rewrite Hk in Y; exfalso; apply Y; reflexivity|discriminate|discriminate]|].
        apply EV. apply by_phase. right; right. simpl. fold th. repeat split; auto.
      + apply (aret_ctx_clear UC); [exact Ee|exact Hnj|].
        apply EV. apply by_phase. right; right. simpl. fold th. repeat split; auto.
  Qed.

  Lemma kmatch2 {A} (k : kont) (a b c : A) :
    (match k with [] => a | [1] => b | _ => c end) =
    if list_eq_dec Z.eq_dec k [] then a else if list_eq_dec Z.eq_dec k [1] then b else c.
  Proof.
    destruct k as [|z l]; [reflexivity|].
    destruct (list_eq_dec Z.eq_dec (z :: l) []) as [X|_]; [discriminate|].
    destruct (list_eq_dec Z.eq_dec (z :: l) [1]) as [X|X].
    - injection X as -> ->. reflexivity.
    - destruct z as [|p|p]; try reflexivity. destruct p; try reflexivity. destruct l; [congruence|reflexivity].
  Qed.

  Lemma update_now_sync (st : cstate) : s_now st = s_clock st -> update_now st = st.
  Proof. intros H. destruct st; unfold update_now, set_now; simpl in *; subst; reflexivity. Qed.

  Lemma UCtx_modth st t to rest c j f :
    UCtx st t to rest c -> sched_neutral f ->
    (GoodT j (getth st j) (s_now st) (s_clock st) (s_trace st) -> GoodT j (f (getth st j)) (s_now st) (s_clock st) (s_trace st)) ->
    (forall th, th_pc (f th) = th_pc th /\ th_k (f th) = th_k th /\ th_issued (f th) = th_issued th /\
                th_shut_issue (f th) = th_shut_issue th /\ th_shutdown (f th) = th_shutdown th) ->
    UCtx (modth st j f) t to rest c.
  Proof.
    intros UC Hf Hg Hp.
    assert (P : forall (X : Type) (p : thread -> X), (forall th, p (f th) = p th) ->
                p (getth (modth st j f) t) = p (getth st t)).
    { intros X p Hpp. apply (getth_modth_proj unit p). exact Hpp. }
    constructor.
    - apply GI_modth; auto; [apply (uc_gi UC)|apply (uc_sync UC)].
    - apply (uc_ti UC).
    - apply (uc_runq UC).
    - rewrite (idler_tid_nthreads _ _ _ (nthreads_modth _ _ _ _)). apply (uc_nid UC).
    - unfold cur_op. rewrite (P _ th_pc) by (intros; apply Hp). apply (uc_op UC).
    - rewrite (P _ th_k), (P _ th_issued), (P _ th_shut_issue), (P _ th_shutdown) by (intros; apply Hp).
      apply (uc_start UC).
  Qed.

  Lemma GoodT_clear_err t th now clock tr :
    GoodT t th now clock tr -> (forall d, cur_op t th <> Some (OCore (OUsleep d))) -> GoodT t (set_terr th 0) now clock tr.
  Proof.
    intros [A B C D E F G H0] H. constructor; thsimpl; [exact A|exact B| | |exact E|exact F|exact G| ].
    - intros d Hd. exfalso. apply (H d). exact Hd.
    - intros X. exfalso. apply X. reflexivity.
    - eapply fresh_zero; [exact H0|reflexivity].
  Qed.

  (* the record of a thread whose op is not a usleep, after it yielded *)
  Lemma GoodT_yield_other st t to rest c (UC : UCtx st t to rest c) :
    (forall d, c <> OUsleep d) ->
    GoodT t (yield_record (getth st t) [1]) (s_now st) (s_clock st) (s_trace st).
  Proof.
    intros Hnu. pose proof (uc_op UC) as Hop.
    apply GoodT_yield_record; [apply (uc_good UC)|apply (uc_nowq UC)| |].
    - apply usleep_clauses_other. intros d. unfold yield_record, cur_op in *. thsimpl.
      rewrite Hop. intros X. injection X as X. exact (Hnu d X).
    - intros _. rewrite Hop. discriminate.
  Qed.

  Lemma step_yield st t to rest :
    UCtx st t to rest OYield ->
    let '(st1, a) := exec_core st t OYield (th_k (getth st t)) in
    GI (apply_action st1 t a true) /\ TI (apply_action st1 t a true).
  Proof.
    intros UC. cbn [exec_core].
    rewrite (kmatch2 (th_k (getth st t))).
    destruct (list_eq_dec Z.eq_dec (th_k (getth st t)) []) as [Hk|Hk0].
    - eapply case_yield; [apply (uc_gp UC)|apply (uc_ti UC)|apply (uc_runq UC)|].
      apply (GoodT_yield_other _ _ _ _ _ UC). intros d; discriminate.
    - destruct (list_eq_dec Z.eq_dec (th_k (getth st t)) [1]) as [Hk|Hk1].
      + apply (aret_errno UC); [intros d; discriminate|intros j; discriminate|left; reflexivity].
      + apply GI_TI_stuck; [apply (uc_gi UC)|apply (uc_ti UC)].
  Qed.

  Lemma step_yield_to st t to rest j :
    UCtx st t to rest (OYieldTo j) ->
    let '(st1, a) := exec_core st t (OYieldTo j) (th_k (getth st t)) in
    GI (apply_action st1 t a true) /\ TI (apply_action st1 t a true).
  Proof.
    intros UC. cbn [exec_core].
    rewrite (kmatch2 (th_k (getth st t))).
    destruct (list_eq_dec Z.eq_dec (th_k (getth st t)) []) as [Hk|Hk0].
    - (* a yield_to that returns at once reports nothing *)
      assert (ARET : forall r e, GI (apply_action st t (ARet r e) true) /\ TI (apply_action st t (ARet r e) true)).
      { intros r e. apply (aret_ctx UC).
        - intros _ ((j0 & X) & _); discriminate.
        - apply (plain_not_clearing_now UC). intros d; discriminate.
        - intros Y. apply (reports_now UC) in Y.
          destruct Y as [(_ & _ & (d & Y))|[(Y & _)|(_ & Y & _)]]; try discriminate. rewrite Hk in Y. discriminate.
        - split; [simpl; apply (g_issued (uc_good UC))|]. split.
          + intros d. rewrite (ev_now_op UC). discriminate.
          + intros [X|(j' & _ & X)]; [rewrite (ev_now_op UC) in X; discriminate|]. simpl in X. rewrite Hk in X. discriminate. }
      destruct (alive st j) eqn:Eal; cbn [negb]; [|apply ARET].
      destruct (Nat.eqb_spec j t) as [->|Hjt]; [rewrite (update_now_sync st (uc_sync UC)); apply ARET|].
      destruct (th_state (getth st j)) eqn:Es; try (apply ARET; fail).
      + (* READY *)
        rewrite (uc_runq UC).
        assert (HG : GoodT t (yield_record (getth st t) [1]) (s_now st) (s_clock st) (s_trace st))
          by (apply (GoodT_yield_other _ _ _ _ _ UC); intros d; discriminate).
        destruct (Nat.eqb to j).
        * eapply case_yield; [apply (uc_gp UC)|apply (uc_ti UC)|apply (uc_runq UC)|exact HG].
        * eapply case_yield_to; [apply (uc_gp UC)|apply (uc_ti UC)|apply (uc_runq UC)|exact Hjt|exact Es|exact HG].
      + (* STANDBY: cross-vCPU only *)
        apply GI_TI_stuck; [apply (uc_gi UC)|apply (uc_ti UC)].
    - destruct (list_eq_dec Z.eq_dec (th_k (getth st t)) [1]) as [Hk|Hk1].
      + apply (aret_errno UC); [intros d; discriminate|intros j0; discriminate|right; split; [exists j; reflexivity|exact Hk]].
      + apply GI_TI_stuck; [apply (uc_gi UC)|apply (uc_ti UC)].
  Qed.

  Lemma join_check_inv st t to rest j :
    UCtx st t to rest (OJoin j) -> (th_err (getth st t) = 0 \/ th_k (getth st t) <> [1]) ->
    let '(st1, a) := join_check st j in
    GI (apply_action st1 t a true) /\ TI (apply_action st1 t a true).
  Proof.
    intros UC Hek. unfold join_check.
    destruct (tstate_eqb (th_state (getth st j)) DONE) eqn:Ed.
    - assert (UC1 : UCtx (modth st j (fun x => set_tjoined x true)) t to rest (OJoin j)).
      { apply UCtx_modth; [exact UC|intros th; repeat split; reflexivity| |intros th; repeat split; reflexivity].
        intros X. apply GoodT_set_joined. exact X. }
      apply (aret_plain UC1); [exact I|].
      rewrite (getth_modth_proj unit th_err), (getth_modth_proj unit th_k) by reflexivity.
      intros He (_ & Hk). destruct Hek as [X|X]; auto.
    - eapply case_sleep; [apply (uc_gp UC)|apply (uc_ti UC)|apply (uc_runq UC)|apply (uc_nid UC)|apply (uc_nowq UC)|].
      apply (GoodT_sleep_record progs t (getth st t) _ _ _ [1] (Some (QJoin j)) MAX64).
      + apply (uc_good UC).
      + apply (uc_nowq UC).
      + pose proof (gi_max (uc_gi UC)). lia.
      + apply usleep_clauses_other. intros d. unfold sleep_record, cur_op. thsimpl.
        pose proof (uc_op UC) as X. unfold cur_op in X. rewrite X. discriminate.
      + intros He. apply (uc_src UC); auto. intros (_ & Hk). destruct Hek as [X|X]; auto.
      + intros q Hq. injection Hq as <-. exists j. split; [reflexivity|]. split; [apply (uc_op UC)|reflexivity].
      + intros _. rewrite (uc_op UC). discriminate.
  Qed.

  Lemma step_join st t to rest j :
    UCtx st t to rest (OJoin j) ->
    let '(st1, a) := exec_core st t (OJoin j) (th_k (getth st t)) in
    GI (apply_action st1 t a true) /\ TI (apply_action st1 t a true).
  Proof.
    intros UC. cbn [exec_core].
    rewrite (kmatch2 (th_k (getth st t))).
    destruct (list_eq_dec Z.eq_dec (th_k (getth st t)) []) as [Hk|Hk0].
    - destruct (alive st j && negb (Nat.eqb j t) && th_joinable (getth st j) && negb (th_join_claimed (getth st j))) eqn:Eg.
      + assert (UC1 : UCtx (modth st j (fun x => set_tjoin_claimed x true)) t to rest (OJoin j)).
        { apply UCtx_modth; [exact UC|intros th; repeat split; reflexivity| |intros th; repeat split; reflexivity].
          intros X. apply GoodT_set_join_claimed. exact X. }
        apply (join_check_inv _ _ _ _ _ UC1).
        right. rewrite (getth_modth_proj unit th_k) by reflexivity. rewrite Hk. discriminate.
      + apply (aret_plain UC); [exact I|]. intros _ (_ & X). rewrite Hk in X. discriminate.
    - destruct (list_eq_dec Z.eq_dec (th_k (getth st t)) [1]) as [Hk|Hk1].
      + (* woken inside thread_join: the error_number is consumed, the target's state re-checked *)
        unfold set_error_number.
        destruct (th_err (getth st t) =? 0) eqn:Ee.
        * apply Z.eqb_eq in Ee. apply (join_check_inv _ _ _ _ _ UC). left; exact Ee.
        * assert (UC1 : UCtx (modth st t (fun x => set_terr x 0)) t to rest (OJoin j)).
          { apply UCtx_modth; [exact UC|intros th; repeat split; reflexivity| |intros th; repeat split; reflexivity].
            intros X. apply GoodT_clear_err; auto.
            intros d. rewrite (uc_op UC). discriminate. }
          apply (join_check_inv _ _ _ _ _ UC1). left.
          rewrite getth_modth_same by (apply (uc_range UC)). reflexivity.
      + apply GI_TI_stuck; [apply (uc_gi UC)|apply (uc_ti UC)].
  Qed.

  Lemma exec_core_inv st t to rest c :
    UCtx st t to rest c ->
    let '(st1, a) := exec_core st t c (th_k (getth st t)) in
    GI (apply_action st1 t a true) /\ TI (apply_action st1 t a true).
  Proof.
    intros UC.
    assert (PL : plain_op c -> (forall j, c <> OJoin j) -> forall r e,
                 GI (apply_action st t (ARet r e) true) /\ TI (apply_action st t (ARet r e) true)).
    { intros Hp Hj r e. apply (aret_plain UC); [exact Hp|intros _ ((j & X) & _); exact (Hj j X)]. }
    destruct c as [d| |j|j e|j f|j jn|j|j|].
    - exact (step_usleep _ _ _ _ _ UC).
    - exact (step_yield _ _ _ _ UC).
    - exact (step_yield_to _ _ _ _ _ UC).
    - cbn [exec_core]. destruct (alive st j); [|apply PL; [exact I|discriminate]].
      apply case_interrupt; [exact NZ|apply (uc_gp UC)|apply (uc_in UC)|apply (uc_lt UC)|apply (uc_ti UC)|apply (uc_op UC)].
    - cbn [exec_core]. destruct (alive st j); [|apply PL; [exact I|discriminate]].
      apply case_shutdown; [apply (uc_gp UC)|apply (uc_in UC)|apply (uc_lt UC)|apply (uc_ti UC)|apply (uc_op UC)].
    - cbn [exec_core].
      destruct (Nat.ltb 0 j && Nat.ltb j (idler_tid st) && tstate_eqb (th_state (getth st j)) NOTCREATED) eqn:Ec;
        [|apply PL; [exact I|discriminate]].
      apply andb_true_iff in Ec. destruct Ec as (Ec & E3). apply andb_true_iff in Ec. destruct Ec as (_ & E2).
      apply Nat.ltb_lt in E2. rewrite (gi_idler_tid _ _ (uc_gi UC)) in E2.
      apply case_create; [apply (uc_gp UC)|apply (uc_in UC)|apply (uc_lt UC)|apply (uc_ti UC)|apply (uc_op UC)|exact E2|].
      destruct (tstate_eqb_spec (th_state (getth st j)) NOTCREATED); [auto|discriminate].
    - exact (step_join _ _ _ _ _ UC).
    - cbn [exec_core]. destruct (alive st j); apply PL; try exact I; discriminate.
    - cbn [exec_core]. apply PL; [exact I|discriminate].
  Qed.

  (* the main thread parks after its program: while (true) thread_usleep(-1) *)
  Lemma kmatch4 {A} (k : kont) (a b c d e : A) :
    (match k with [] => a | [1] => b | [2] => c | [3] => d | _ => e end) =
    if list_eq_dec Z.eq_dec k [] then a else if list_eq_dec Z.eq_dec k [1] then b
    else if list_eq_dec Z.eq_dec k [2] then c else if list_eq_dec Z.eq_dec k [3] then d else e.
  Proof.
    destruct k as [|z l]; [reflexivity|].
    destruct (list_eq_dec Z.eq_dec (z :: l) []) as [X|_]; [discriminate|].
    destruct (list_eq_dec Z.eq_dec (z :: l) [1]) as [X|X1]; [injection X as -> ->; reflexivity|].
    destruct (list_eq_dec Z.eq_dec (z :: l) [2]) as [X|X2]; [injection X as -> ->; reflexivity|].
    destruct (list_eq_dec Z.eq_dec (z :: l) [3]) as [X|X3]; [injection X as -> ->; reflexivity|].
    destruct z as [|p|p]; try reflexivity.
    destruct p as [p|p|]; try reflexivity.
    - destruct p; try reflexivity. destruct l; [congruence|reflexivity].
    - destruct p; try reflexivity. destruct l; [congruence|reflexivity].
    - destruct l; [congruence|reflexivity].
  Qed.

  Lemma GoodT_set_k_nil t th now clock tr :
    GoodT t th now clock tr -> th_waitq th = None ->
    (th_err th <> 0 -> src_ok progs tr t (th_err th) (th_esrc th)) -> GoodT t (set_tk th []) now clock tr.
  Proof.
    intros [A B C D E F G H] Hw Hs. constructor; thsimpl; [exact A|exact B| | | | | |exact H].
    - intros d _. split; [left; reflexivity|]. split; [intros X; discriminate|split; intros X; discriminate].
    - intros X. left. apply Hs. exact X.
    - intros q Hq. congruence.
    - intros X. congruence.
    - intros _ _. reflexivity.
  Qed.

  (* the context of a parked main thread: like UCtx but the thread is past the end of its program *)
  Lemma park_inv st to rest :
    GI st -> TI st -> s_runq st = 0%nat :: to :: rest -> 0%nat <> idler_tid st ->
    cur_op 0%nat (getth st 0%nat) = None ->
    let '(st1, a) := exec_core st 0%nat (OUsleep MAX64) (th_k (getth st 0%nat)) in
    GI (apply_action st1 0%nat a false) /\ TI (apply_action st1 0%nat a false).
  Proof.
    intros G T Hr Hid Hop.
    destruct (user_ctx progs st 0%nat _ G Hr Hid) as (Hlt & Hsy & Haw & Hnq & _).
    pose proof (gi_good G Hlt) as GT.
    pose proof (GI_GIp progs st (fun u => u <> 0%nat) G Hsy) as GW.
    pose proof (gi_max G) as Hmax.
    set (th := getth st 0%nat) in *.
    assert (Hsrc : th_err th <> 0 -> src_ok progs (s_trace st) 0%nat (th_err th) (th_esrc th)).
    { intros He. destruct (g_src GT He) as [X|(_ & (j & Hj) & _)]; auto. congruence. }
    assert (Hcl : forall th', th_pc th' = th_pc th -> usleep_clauses progs 0%nat th' (s_clock st)).
    { intros th' Hpc. apply usleep_clauses_other. intros d. unfold cur_op in *. rewrite Hpc, Hop. discriminate. }
    assert (Hend : 0%nat <> 0%nat -> cur_op 0%nat th <> None) by (intros X; congruence).
    (* completion of a park round: k := [] without trace event *)
    assert (Hret : forall st1, (st1 = st \/ st1 = modth st 0%nat (fun x => set_terr x 0)) -> forall r e,
               GI (apply_action st1 0%nat (ARet r e) false) /\ TI (apply_action st1 0%nat (ARet r e) false)).
    { intros st1 Hst1 r e. unfold apply_action.
      assert (G1 : GI st1 /\ s_now st1 = s_clock st1 /\ th_waitq (getth st1 0%nat) = None /\ s_trace st1 = s_trace st /\
                   (th_err (getth st1 0%nat) <> 0 -> src_ok progs (s_trace st1) 0%nat (th_err (getth st1 0%nat)) (th_esrc (getth st1 0%nat)))).
      { destruct Hst1 as [->| ->]; [auto|].
        split; [|split; [exact Hsy|split; [|split]]].
        - apply GI_modth; auto; [intros x; repeat split; reflexivity|].
          intros X. apply GoodT_clear_err; auto. intros d. fold th. rewrite Hop. discriminate.
        - rewrite (getth_modth_proj unit th_waitq) by reflexivity. exact Hnq.
        - reflexivity.
        - rewrite getth_modth_same by (apply (ring_in_range unit); [apply (gi_wf G)|rewrite Hr; left; reflexivity]).
          thsimpl. intros X. exfalso. apply X; reflexivity. }
      destruct G1 as (G1 & Sy1 & W1 & Tr1 & S1).
      split.
      - apply GI_modth; auto; [intros x; repeat split; reflexivity|].
        intros X. apply GoodT_set_k_nil; auto.
      - apply (TI_same _ st); [exact T|exact Tr1]. }
    cbn [exec_core]. rewrite (kmatch4 (th_k th)).
    destruct (list_eq_dec Z.eq_dec (th_k th) []) as [Hk|Hk0].
    - destruct (expired (s_now st) (timeout_of (s_now st) MAX64)) eqn:Eexp.
      + eapply case_yield; [exact GW|exact T|exact Hr|].
        apply GoodT_yield_record; auto; try (apply Hcl; reflexivity).
      + destruct (exp_bounds _ _ Eexp) as (He1 & He2).
        destruct (th_shutdown (getth st 0%nat)) eqn:Eshut.
        * destruct (exp3_bounds (s_now st) (timeout_of (s_now st) MAX64) ltac:(lia) (conj He1 He2)) as (B1 & B2).
          eapply case_sleep; [exact GW|exact T|exact Hr|exact Hid|exact Hnq|].
          apply (GoodT_sleep_record progs 0%nat th _ _ _ [3] None); auto; try discriminate; try lia;
            try (apply Hcl; unfold sleep_record; reflexivity).
        * eapply case_sleep; [exact GW|exact T|exact Hr|exact Hid|exact Hnq|].
          apply (GoodT_sleep_record progs 0%nat th _ _ _ [1] None); auto; try discriminate; try lia;
            try (apply Hcl; unfold sleep_record; reflexivity).
    - destruct (list_eq_dec Z.eq_dec (th_k th) [1]) as [Hk|Hk1].
      + unfold set_error_number. fold th. destruct (th_err th =? 0); cbv beta iota zeta; apply Hret; auto.
      + destruct (list_eq_dec Z.eq_dec (th_k th) [2]) as [Hk|Hk2].
        * unfold ret_after_yield. fold th. destruct (th_err th =? 0); cbv beta iota zeta; apply Hret; auto.
        * destruct (list_eq_dec Z.eq_dec (th_k th) [3]) as [Hk|Hk3].
          -- unfold set_error_number. fold th. destruct (th_err th =? 0); cbv beta iota zeta; destruct (0 <=? _); apply Hret; auto.
          -- apply GI_TI_stuck; auto.
  Qed.

  Theorem step_inv st : GI st -> TI st -> GI (step no_prim progs st) /\ TI (step no_prim progs st).
  Proof.
    intros G T. unfold step.
    destruct (s_end st || s_stuck st); [auto|].
    destruct (s_runq st) as [|t rest] eqn:Hr; [apply GI_TI_stuck; auto|].
    destruct (Nat.eqb_spec t (idler_tid st)) as [->|Hid].
    - eapply idler_inv; eauto.
    - destruct (user_ctx progs st t rest G Hr Hid) as (Hlt & Hsy & Haw & Hnq & to & rest' & ->).
      pose proof (gi_good G Hlt) as GT.
      destruct (nth_error (prog_of progs t) (th_pc (getth st t))) as [o|] eqn:Hop.
      + destruct o as [c|u]; [|destruct u].
        (* the op starts: the ghost fields th_issued, th_shut_issue are set *)
        set (f := fun x : thread => set_tshut_issue (set_tissued x (s_now st)) (th_shutdown x)).
        set (st0 := match th_k (getth st t) with [] => modth st t f | _ :: _ => st end).
        assert (Hr0 : (t < nthreads st)%nat) by (rewrite (gi_n G); lia).
        assert (UC : UCtx st0 t to rest' c /\ th_k (getth st0 t) = th_k (getth st t)).
        { unfold st0. destruct (th_k (getth st t)) as [|z l] eqn:Hk.
          - assert (Et : getth (modth st t f) t = f (getth st t)) by (apply getth_modth_same; exact Hr0).
            split; [|rewrite Et; exact Hk]. constructor; auto.
            + apply GI_modth; auto; [intros x; repeat split; reflexivity|]. intros X. apply GoodT_start; auto.
            + rewrite (idler_tid_nthreads _ _ _ (nthreads_modth _ _ _ _)). exact Hid.
            + unfold cur_op. rewrite Et. exact Hop.
            + intros _. rewrite Et. split; reflexivity.
          - split; [|exact Hk]. constructor; auto. intros X. rewrite Hk in X. discriminate. }
        destruct UC as (UC & Hk0). clearbody st0.
        unfold exec. rewrite <- Hk0.
        pose proof (exec_core_inv _ _ _ _ _ UC) as X. destruct (exec_core _ _ _ _) as (st1, a). exact X.
      + destruct (Nat.eqb_spec t 0) as [->|Ht0].
        * pose proof (park_inv st to rest' G T Hr Hid Hop) as X. destruct (exec_core _ _ _ _) as (st1, a). exact X.
        * apply (case_die progs st t to rest'); auto.
          -- apply GI_GIp; auto.
          -- apply (g_end GT); auto.
  Qed.

  Theorem run_inv fuel st : GI st -> TI st -> GI (coop_run no_prim progs fuel st) /\ TI (coop_run no_prim progs fuel st).
  Proof.
    revert st. induction fuel as [|f IH]; intros st G T; simpl; auto.
    destruct (s_end st || s_stuck st); auto.
    destruct (step_inv st G T) as (G' & T'). apply IH; auto.
  Qed.

End STEP2.
