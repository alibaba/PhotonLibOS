(* C04_Good.v — how the per-thread invariant GoodT reacts to each kind of change of a thread record *)
From Coq Require Import ZArith List Bool Arith Lia.
From PV Require Import Base.U64 C04.C04_Heap C04.C04_HeapProofs Sched.Core Sched.Prog Sched.Lemmas
                       Sched.Invariant Sched.Effects C04.C04_Inv.
Import ListNotations.
Local Open Scope Z_scope.

Section GOOD.
  Variable progs : list (list (op no_op)).
  Notation GoodT := (GoodT progs).
  Notation cur_op := (cur_op progs).

  (* the usleep clause of GoodT for a thread known to be in a usleep d *)
  Definition usleep_clause (th : thread) (clock d : Z) : Prop :=
    (th_k th = [] \/ th_k th = [1] \/ th_k th = [2] \/ th_k th = [3]) /\
    (th_k th = [1] ->
       th_shut_issue th = false /\ expired (th_issued th) (usleep_exp th d) = false /\
       th_ts th = usleep_exp th d /\ clock <= th_ts th /\
       (th_state th = SLEEPING \/ th_err th <> 0 \/ clock = th_ts th)) /\
    (th_k th = [2] -> expired (th_issued th) (usleep_exp th d) = true /\ th_state th <> SLEEPING) /\
    (th_k th = [3] ->
       th_shut_issue th = true /\ expired (th_issued th) (usleep_exp th d) = false /\
       th_ts th = usleep_exp3 th d /\ clock <= th_ts th /\
       (th_state th = SLEEPING \/ th_err th <> 0 \/ clock = th_ts th)).

  Definition usleep_clauses (t : tid) (th : thread) (clock : Z) : Prop :=
    forall d, cur_op t th = Some (OCore (OUsleep d)) -> usleep_clause th clock d.

  Lemma usleep_clauses_k_nil t th clock : th_k th = [] -> usleep_clauses t th clock.
  Proof. intros Hk d _. apply by_phase0. left; exact Hk. Qed.

  Lemma usleep_clauses_other t th clock :
    (forall d, cur_op t th <> Some (OCore (OUsleep d))) -> usleep_clauses t th clock.
  Proof. intros H d Hd. exfalso. apply (H d). exact Hd. Qed.

  Notation fresh := (fresh progs).
  Lemma fresh_zero t th th' tr : fresh t th tr -> th_err th' = 0 -> fresh t th' tr.
  Proof. intros F E e1 Hin Ht Hc. destruct (F e1 Hin Ht Hc) as (A & _). split; [exact A|]. intros X. congruence. Qed.
  Lemma fresh_deliver t th th' tr : fresh t th tr -> th_esrc th' = length tr -> fresh t th' tr.
  Proof. intros F E e1 Hin Ht Hc. destruct (F e1 Hin Ht Hc) as (A & _). split; [exact A|]. intros _. rewrite E. exact A. Qed.

  (* READY <-> RUNNING <-> DONE ...: a change of th_state between two non-sleeping values *)
  Lemma GoodT_restate t th now clock tr ns :
    GoodT t th now clock tr -> th_state th <> SLEEPING -> ns <> SLEEPING ->
    (th_k th <> [] -> ns = READY \/ ns = RUNNING) ->
    GoodT t (set_tstate th ns) now clock tr.
  Proof.
    intros [A B C D E F G H] Hs Hns Hk. constructor; thsimpl; [exact A| | |exact D|exact E| |exact G|exact H].
    - intros X; congruence.
    - intros d Hd. destruct (C d Hd) as (C0 & C1 & C2 & C3). split; [exact C0|]. split; [|split].
      + intros Hk1. destruct (C1 Hk1) as (X1&X2&X3&X4&[X5|X5]); repeat split; auto; try tauto.
      + intros Hk1. destruct (C2 Hk1). split; auto.
      + intros Hk1. destruct (C3 Hk1) as (X1&X2&X3&X4&[X5|X5]); repeat split; auto; try tauto.
    - intros X. destruct (Hk X); auto.
  Qed.

  (* a delivery by thread_interrupt / thread_shutdown whose event `ev` is pushed in the same step *)
  Lemma delivers_not_clearing ev t e : delivers progs ev t e -> ~ clearing progs ev.
  Proof.
    intros (_ & [H|(f & H & _)]) ((d & Hd) & _); congruence.
  Qed.

  Lemma GoodT_interrupted t th now clock tr e ev :
    GoodT t th now clock tr -> e <> 0 -> delivers progs ev t e ->
    GoodT t (interrupted th e (length tr)) now clock (ev :: tr).
  Proof.
    intros G0 He Hd.
    assert (Hnc : ev_tid ev = t -> ~ clearing progs ev) by (intros _; eapply delivers_not_clearing; eauto).
    pose proof (GoodT_mono progs _ _ _ _ _ ev G0 Hnc) as G'.
    pose proof (g_fresh G0) as F0.
    unfold interrupted.
    destruct (tstate_eqb_spec (th_state th) READY) as [Es|Hnr].
    - rewrite Es. destruct (th_err th =? 0) eqn:Ee; [|exact G'].
      apply Z.eqb_eq in Ee. destruct G' as [A B C D E F G H].
      constructor; thsimpl; [exact A|exact B| | |exact E|exact F|exact G| ].
      + intros d Hd'. destruct (C d Hd') as (C0 & C1 & C2 & C3). split; [exact C0|]. split; [|split].
        * intros Hk. destruct (C1 Hk) as (X1&X2&X3&X4&[X5|[X5|X5]]); repeat split; auto; congruence.
        * intros Hk. destruct (C2 Hk). split; auto.
        * intros Hk. destruct (C3 Hk) as (X1&X2&X3&X4&[X5|[X5|X5]]); repeat split; auto; congruence.
      + intros _. left. apply src_ok_new; auto.
      + apply fresh_mono; [|exact Hnc]. eapply fresh_deliver; [exact F0|reflexivity].
    - destruct (tstate_eqb_spec (th_state th) SLEEPING) as [Es|Hns].
      + rewrite Es. destruct G' as [A B C D E F G H].
        constructor; thsimpl; [exact A| | | | | |exact G| ].
        * discriminate.
        * intros d Hd'. destruct (C d Hd') as (C0 & C1 & C2 & C3). split; [exact C0|]. split; [|split].
          -- intros Hk. destruct (C1 Hk) as (X1&X2&X3&X4&X5). repeat split; auto.
          -- intros Hk. destruct (C2 Hk). split; auto; try discriminate.
          -- intros Hk. destruct (C3 Hk) as (X1&X2&X3&X4&X5). repeat split; auto.
        * intros _. left. apply src_ok_new; auto.
        * intros q Hq. discriminate.
        * intros _. left; auto.
        * apply fresh_mono; [|exact Hnc]. eapply fresh_deliver; [exact F0|reflexivity].
      + destruct (th_state th); try congruence; exact G'.
  Qed.

  Lemma GoodT_set_shutdown t th now clock tr b : GoodT t th now clock tr -> GoodT t (set_tshutdown th b) now clock tr.
  Proof. intros [A B C D E F G H]. constructor; auto. Qed.
  Lemma GoodT_set_joined t th now clock tr b : GoodT t th now clock tr -> GoodT t (set_tjoined th b) now clock tr.
  Proof. intros [A B C D E F G H]. constructor; auto. Qed.
  Lemma GoodT_set_join_claimed t th now clock tr b : GoodT t th now clock tr -> GoodT t (set_tjoin_claimed th b) now clock tr.
  Proof. intros [A B C D E F G H]. constructor; auto. Qed.
  Lemma GoodT_set_retval t th now clock tr b : GoodT t th now clock tr -> GoodT t (set_tretval th b) now clock tr.
  Proof. intros [A B C D E F G H]. constructor; auto. Qed.

  (* the op starts: ghost fields *)
  Lemma GoodT_start t th now clock tr :
    GoodT t th now clock tr -> th_k th = [] ->
    GoodT t (set_tshut_issue (set_tissued th now) (th_shutdown th)) now clock tr.
  Proof.
    intros [A B C D E F G H] Hk. constructor; thsimpl; [lia|exact B| |exact D|exact E|exact F|exact G|exact H].
    intros d _. split; [left; exact Hk|]. split; [intros X; congruence|split; intros X; congruence].
  Qed.

  Lemma GoodT_fresh t th0 now clock tr j :
    0 <= now -> fresh t th0 tr ->
    GoodT t (mkThread READY 0 None 0 j false 0 0 [] 0 false 0 false false) now clock tr.
  Proof.
    intros Hn F0. constructor; simpl; [lia|discriminate| |congruence|discriminate|congruence|reflexivity| ].
    - apply usleep_clauses_k_nil. reflexivity.
    - eapply fresh_zero; [exact F0|reflexivity].
  Qed.

  (* woken by the timer: state SLEEPING -> READY, waitq := None, at a moment when ts <= now' = clock *)
  Lemma GoodT_timer_wake t th now clock tr :
    GoodT t th now clock tr -> th_state th = SLEEPING -> th_ts th <= clock -> now <= clock ->
    GoodT t (set_tstate (set_twaitq th None) READY) clock clock tr.
  Proof.
    intros [A B C D E F G H] Hs Hts Hnn. specialize (B Hs). constructor; thsimpl; [lia| | |exact D| | |exact G|exact H].
    - discriminate.
    - intros d Hd. destruct (C d Hd) as (C0 & C1 & C2 & C3). split; [exact C0|]. split; [|split].
      + intros Hk. destruct (C1 Hk) as (X1&X2&X3&X4&X5). repeat split; auto. right; right. lia.
      + intros Hk. destruct (C2 Hk) as (_ & X). contradiction.
      + intros Hk. destruct (C3 Hk) as (X1&X2&X3&X4&X5). repeat split; auto. right; right. lia.
    - discriminate.
    - intros _. left; auto.
  Qed.

  (* photon::now is refreshed (it only grows) *)
  Lemma GoodT_now_ge t th now now' clock tr : GoodT t th now clock tr -> now <= now' -> GoodT t th now' clock tr.
  Proof. intros [A B C D E F G H0] H. constructor; auto. lia. Qed.

  (* idle: the clock advances to clock' while the thread sleeps until ts >= clock' *)
  Lemma GoodT_idle_sleeping t th now clock tr clock' :
    GoodT t th now clock tr -> th_state th = SLEEPING -> clock' <= th_ts th ->
    GoodT t th now clock' tr.
  Proof.
    intros [A B C D E F G H] Hs H2. specialize (B Hs). constructor; [exact A|intros _; lia| |exact D|exact E|exact F|exact G|exact H].
    intros d Hd. destruct (C d Hd) as (C0 & C1 & C2 & C3). split; [exact C0|]. split; [|split]; auto.
    - intros Hk. destruct (C1 Hk) as (X1&X2&X3&X4&X5); repeat split; auto.
    - intros Hk. destruct (C3 Hk) as (X1&X2&X3&X4&X5); repeat split; auto.
  Qed.
  (* ... and threads that do not exist (any more) are in no op *)
  Lemma GoodT_idle_dead t th now clock tr clock' :
    GoodT t th now clock tr -> th_state th <> SLEEPING -> th_state th <> READY -> th_state th <> RUNNING ->
    GoodT t th now clock' tr.
  Proof.
    intros [A B C D E F G H] H1 H2 H3.
    assert (Hk : th_k th = []).
    { destruct (th_k th) eqn:Ek; auto. exfalso. destruct F as [X|[X|X]]; [congruence|auto|auto|auto]. }
    constructor; [exact A|intros X; congruence| |exact D|exact E|intros X; congruence|exact G|exact H].
    apply usleep_clauses_k_nil; auto.
  Qed.

  (* the record of a thread that has just gone to sleep in phase k' of its op *)
  Definition sleep_record (th : thread) (k' : kont) (wq : option qid) (exp : Z) : thread :=
    set_tts (match wq with
             | Some q => set_twaitq (set_tstate (set_tk th k') SLEEPING) (Some q)
             | None => set_tstate (set_tk th k') SLEEPING end) exp.

  Lemma GoodT_sleep_record t th now clock tr k' wq exp :
    GoodT t th now clock tr -> th_waitq th = None -> clock <= exp <= MAX64 ->
    usleep_clauses t (sleep_record th k' wq exp) clock ->
    (th_err th <> 0 -> src_ok progs tr t (th_err th) (th_esrc th)) ->
    (forall q, wq = Some q -> exists j, q = QJoin j /\ cur_op t th = Some (OCore (OJoin j)) /\ k' = [1]) ->
    (t <> 0%nat -> cur_op t th <> None) ->
    GoodT t (sleep_record th k' wq exp) now clock tr.
  Proof.
    (* every field of the new record is, by computation, a field of th or one of k', wq, exp *)
    intros [A B C D E F G H] Hw Hexp Hcl Hsrc Hwq Hend.
    destruct wq as [q|];
      (constructor; [exact A|intros _; exact Hexp|exact Hcl|intros X; left; exact (Hsrc X)|
                     |intros _; right; right; reflexivity|intros H0 Hn; destruct (Hend H0 Hn)|exact H]).
    - exact Hwq.
    - intros q0 Hq. change (th_waitq th = Some q0) in Hq. congruence.
  Qed.

  (* the record of a thread that has just yielded in phase k' of its op *)
  Definition yield_record (th : thread) (k' : kont) : thread := set_tstate (set_terr (set_tk th k') 0) READY.

  Lemma GoodT_yield_record t th now clock tr k' :
    GoodT t th now clock tr -> th_waitq th = None ->
    usleep_clauses t (yield_record th k') clock -> (t <> 0%nat -> cur_op t th <> None) ->
    GoodT t (yield_record th k') now clock tr.
  Proof.
    intros [A B C D E F G H] Hw Hcl Hend. unfold yield_record in *.
    constructor; thsimpl.
    - exact A.
    - discriminate.
    - exact Hcl.
    - intros X. exfalso. apply X. reflexivity.
    - intros q Hq. congruence.
    - intros _. left. reflexivity.
    - intros H0 Hn. exfalso. apply (Hend H0). exact Hn.
    - eapply fresh_zero; [exact H|reflexivity].
  Qed.

End GOOD.
