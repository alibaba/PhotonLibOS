(* C04_Step.v — GI and TI are re-established by every kind of scheduler transition: completion of an
   op, delivery of an interrupt, thread creation, the context switches, the idler's round *)
From Coq Require Import ZArith List Bool Arith Lia.
From PV Require Import Base.U64 C04.C04_Heap C04.C04_HeapProofs Sched.Core Sched.Prog Sched.Lemmas
                       Sched.Invariant Sched.Effects C04.C04_Inv C04.C04_Good.
Import ListNotations.
Local Open Scope Z_scope.

Section STEP.
  Variable progs : list (list (op no_op)).
  (* thread_interrupt(th, 0) is thread_resume: it legitimately ends a sleep early with result 0;
     the contract theorems are about interrupts with a non-zero errno *)
  Hypothesis NZ : forall t pc k e, nth_error (prog_of progs t) pc = Some (OCore (OInterrupt k e)) -> e <> 0.

  Notation GoodT := (GoodT progs).
  Notation GI := (GI progs).
  Notation TI := (TI progs).
  Notation EvOK := (EvOK progs).
  Notation cur_op := (cur_op progs).

  Lemma user_ctx (st : cstate) t rest :
    GI st -> s_runq st = t :: rest -> t <> idler_tid st ->
    (t < length progs)%nat /\ s_now st = s_clock st /\ th_state (getth st t) <> SLEEPING /\
    th_waitq (getth st t) = None /\ exists to rest', rest = to :: rest'.
  Proof.
    intros G Hr Hid. pose proof (gi_wf G) as W.
    assert (Hin : In t (s_runq st)) by (rewrite Hr; left; auto).
    assert (Hs : th_state (getth st t) <> SLEEPING) by (apply (wf_runq _ _ W); auto).
    split.
    - pose proof (ring_in_range _ _ _ W Hin) as Hl. rewrite (gi_n G) in Hl.
      rewrite (gi_idler_tid _ _ G) in Hid. lia.
    - split.
      + destruct (gi_sync G) as [?|(X & _)]; auto. rewrite Hr in X. congruence.
      + split; auto. split; [apply awake_no_waitq; auto|].
        pose proof (In_idler_tail _ _ _ _ W Hr Hid) as Hi. destruct rest as [|to r]; [destruct Hi|eauto].
  Qed.

  (* GI for the threads in P only, over a trace that the state need not carry yet, at a moment
     when photon::now is fresh.  P = everything but the current thread while its record is being
     rewritten; tr = the trace with the event of the op that completes in this step. *)
  Set Implicit Arguments.
  Record GIp (P : tid -> Prop) (st : cstate) (tr : list event) : Prop := mkGIp {
    gp_wf : WF st;
    gp_n : nthreads st = S (length progs);
    gp_sync : s_now st = s_clock st;
    gp_max : s_clock st <= MAX64;
    gp_pos : 0 <= s_now st;
    gp_ring : forall u, th_state (getth st u) = READY \/ th_state (getth st u) = RUNNING -> In u (s_runq st);
    gp_good : forall u, (u < length progs)%nat -> P u -> GoodT u (getth st u) (s_now st) (s_clock st) tr
  }.
  Unset Implicit Arguments.
  Definition GIw (st : cstate) (t : tid) := GIp (fun u => u <> t) st.
  Definition GIa := GIp (fun _ => True).

  Lemma GI_GIp st P : GI st -> s_now st = s_clock st -> GIp P st (s_trace st).
  Proof. intros [A B _ D E F G _] Hs. constructor; auto. Qed.

  Lemma GIp_GI st : GIa st (s_trace st) -> GI st.
  Proof.
    intros [A B C D E F G]. constructor; auto. apply (wf_runq _ _ A), (wf_idler _ _ A).
  Qed.

  Lemma GIp_weaken (P Q : tid -> Prop) st tr : GIp P st tr -> (forall u, Q u -> P u) -> GIp Q st tr.
  Proof. intros [A B C D E F G] H. constructor; auto. Qed.

  Lemma GIw_GI st t :
    GIw st t (s_trace st) ->
    ((t < length progs)%nat -> GoodT t (getth st t) (s_now st) (s_clock st) (s_trace st)) -> GI st.
  Proof.
    intros [A B C D E F G] Ht. apply GIp_GI. constructor; auto.
    intros u Hu _. destruct (Nat.eq_dec u t) as [->|Hne]; auto.
  Qed.

  Lemma GIp_mono P st tr x :
    GIp P st tr -> (forall u, P u -> ev_tid x = u -> ~ clearing progs x) -> GIp P st (x :: tr).
  Proof. intros [A B C D E F G] Hx. constructor; auto. intros u Hu Pu. apply GoodT_mono; [apply G; auto|apply Hx; exact Pu]. Qed.

  (* rewriting fields of thread j that the scheduler ignores *)
  Lemma GIp_modth P st tr j f :
    GIp P st tr -> sched_neutral f ->
    (P j -> GoodT j (getth st j) (s_now st) (s_clock st) tr -> GoodT j (f (getth st j)) (s_now st) (s_clock st) tr) ->
    GIp P (modth st j f) tr.
  Proof.
    intros [A B C D E F G] Hf Hg. constructor.
    - apply WF_modth_neutral; auto.
    - rewrite nthreads_modth. exact B.
    - exact C.
    - exact D.
    - exact E.
    - intros u. rewrite (getth_modth_proj unit th_state) by (intros; apply Hf). apply F.
    - intros u Hu Pu. rewrite getth_modth. destruct (Nat.eqb u j && Nat.ltb j (nthreads st)) eqn:Ej; [|apply G; auto].
      apply andb_true_iff in Ej. destruct Ej as (Ej & _). apply Nat.eqb_eq in Ej. subst u. apply Hg; auto.
  Qed.

  Lemma aret_inv st t r e :
    let th := getth st t in
    let ev := mkEv t (th_pc th) r e (s_now st) (th_issued th) (th_shut_issue th) (th_k th) (th_esrc th) in
    GIw st t (ev :: s_trace st) -> In t (s_runq st) -> TI st ->
    EvOK (ev :: s_trace st) ev ->
    (th_err th <> 0 -> src_ok progs (ev :: s_trace st) t (th_err th) (th_esrc th)) ->
    fresh progs t th (ev :: s_trace st) ->
    (reports progs ev -> forall e1, In e1 (s_trace st) -> ev_tid e1 = t -> clearing progs e1 -> (ev_src e1 < ev_src ev)%nat) ->
    GI (apply_action st t (ARet r e) true) /\ TI (apply_action st t (ARet r e) true).
  Proof.
    intros th ev G Hin T Hev Hsrc HF HP.
    pose proof (gp_wf G) as W.
    assert (Hr : (t < nthreads st)%nat) by (apply (ring_in_range unit); auto).
    assert (Haw : th_state th <> SLEEPING) by (apply (wf_runq _ _ W); exact Hin).
    unfold apply_action. fold th. fold ev.
    set (st1 := set_trace st (ev :: s_trace st)).
    set (f := fun x : thread => set_tk (set_tpc x (S (th_pc x))) []).
    split.
    - apply (GIw_GI _ t).
      + apply GIp_modth; [|intros x; repeat split; reflexivity|intros X; contradiction (X eq_refl)].
        destruct G as [A B C D E F H]. constructor; auto.
        apply (WF_same _ st); [apply same_sched_set_trace|exact A].
      + intros _. rewrite getth_modth_same by exact Hr. change (getth st1 t) with th. unfold f.
        constructor; thsimpl.
        * apply Hev.
        * intros X. contradiction.
        * refine (usleep_clauses_k_nil progs t _ _ _). reflexivity.
        * intros X. left. apply Hsrc. exact X.
        * intros q Hq. pose proof (awake_no_waitq st t W Haw) as X. fold th in X. congruence.
        * intros X. congruence.
        * intros _ _. reflexivity.
        * exact HF.
    - split.
      + intros x [<-|Hx]; [exact Hev|]. apply EvOK_mono. apply (proj1 T). exact Hx.
      + change (s_trace (modth st1 t f)) with (ev :: s_trace st). split; [exact (proj2 T)|exact HP].
  Qed.

  Definition plain_op (c : core_op) : Prop :=
    match c with OUsleep _ | OYield | OYieldTo _ => False | _ => True end.

  Lemma EvOK_plain tr ev c : ev_op progs ev = Some (OCore c) -> plain_op c -> 0 <= ev_issued ev <= ev_time ev -> EvOK tr ev.
  Proof.
    intros Hop Hp Hi. split; [exact Hi|]. split.
    - intros d Hd. rewrite Hop in Hd. injection Hd as ->. destruct Hp.
    - intros [H|(j & H & _)]; rewrite Hop in H; injection H as ->; destruct Hp.
  Qed.

  Lemma not_clearing_op ev c : ev_op progs ev = Some (OCore c) -> (forall d, c <> OUsleep d) -> ~ clearing progs ev.
  Proof. intros H Hc ((d & Hd) & _). rewrite H in Hd. injection Hd as ->. apply (Hc d). reflexivity. Qed.
  Lemma not_reports_op ev c : ev_op progs ev = Some (OCore c) -> plain_op c -> ~ reports progs ev.
  Proof.
    intros H Hp [((d & Hd) & _)|[(Hd & _)|((j & Hd) & _)]]; rewrite H in Hd; injection Hd as ->; destruct Hp.
  Qed.
  Lemma plain_not_usleep c : plain_op c -> forall d, c <> OUsleep d.
  Proof. intros Hp d ->. destruct Hp. Qed.

  (* An op other than usleep / yield / yield_to completes in a state for which the whole invariant is
     known over the extended trace: what aret_inv asks about the current thread is read off its GoodT. *)
  Lemma aret_plain_inv st t c r e :
    let th := getth st t in
    let ev := mkEv t (th_pc th) r e (s_now st) (th_issued th) (th_shut_issue th) (th_k th) (th_esrc th) in
    GIa st (ev :: s_trace st) -> In t (s_runq st) -> (t < length progs)%nat -> TI st ->
    cur_op t th = Some (OCore c) -> plain_op c ->
    (th_err th <> 0 -> ~ ((exists j, c = OJoin j) /\ th_k th = [1])) ->
    GI (apply_action st t (ARet r e) true) /\ TI (apply_action st t (ARet r e) true).
  Proof.
    intros th ev G Hin Hlt T Hop Hp Hnj.
    pose proof (gp_good G Hlt I) as GT. fold th in GT.
    apply aret_inv; auto.
    - apply (GIp_weaken _ _ _ _ G). auto.
    - apply (EvOK_plain _ _ c); [exact Hop|exact Hp|apply (g_issued GT)].
    - intros He. destruct (g_src GT He) as [X|(_ & (j & Hj) & Hk)]; [exact X|].
      exfalso. apply (Hnj He). split; [exists j; congruence|exact Hk].
    - apply (g_fresh GT).
    - intros X. exfalso. exact (not_reports_op ev c Hop Hp X).
  Qed.

  Lemma GIp_interrupt P st j e ev :
    GIp P st (s_trace st) -> e <> 0 -> delivers progs ev j e ->
    GIp P (thread_interrupt st j e) (ev :: s_trace st).
  Proof.
    intros [A B C D E F G] He Hd.
    pose proof (fun u => getth_thread_interrupt unit st j e u) as Gt.
    destruct (thread_interrupt_frame unit st j e) as (R & N & F1 & F2 & _).
    pose proof (interrupted_state_cases (getth st j) e (length (s_trace st))) as Hc.
    constructor.
    - apply WF_thread_interrupt. exact A.
    - rewrite N. exact B.
    - rewrite F1, F2. exact C.
    - rewrite F2. exact D.
    - rewrite F1. exact E.
    - intros u. rewrite Gt, R. destruct (Nat.eqb_spec u j) as [->|Hne].
      + destruct Hc as [(Hs & ->)|(Hs & ->)].
        * intros _. rewrite Hs. simpl. rewrite in_app_iff. right; left; auto.
        * intros Hu. destruct (tstate_eqb_spec (th_state (getth st j)) SLEEPING); [congruence|]. auto.
      + intros Hu. destruct (tstate_eqb (th_state (getth st j)) SLEEPING); [rewrite in_app_iff; left|]; auto.
    - intros u Hu Pu. rewrite Gt, F1, F2. destruct (Nat.eqb_spec u j) as [->|Hne'].
      + apply GoodT_interrupted; auto.
      + apply GoodT_mono; auto. intros _. eapply delivers_not_clearing; eauto.
  Qed.

  (* the current thread keeps its pc when it interrupts somebody (possibly itself) *)
  Lemma interrupt_self_pc (st : cstate) t j e :
    th_state (getth st t) <> SLEEPING -> th_pc (getth (thread_interrupt st j e) t) = th_pc (getth st t).
  Proof.
    intros Hs. rewrite getth_thread_interrupt. destruct (Nat.eqb_spec t j) as [<-|]; [|auto].
    unfold interrupted. destruct (th_state (getth st t)); auto. destruct (th_err (getth st t) =? 0); auto.
  Qed.

  (* the current op delivers e to j: thread_interrupt, or thread_shutdown of a sleeping thread *)
  Lemma deliver_inv st t c j e :
    GIa st (s_trace st) -> In t (s_runq st) -> (t < length progs)%nat -> TI st ->
    cur_op t (getth st t) = Some (OCore c) ->
    (c = OInterrupt j e \/ exists f, c = OShutdown j f /\ e = EPERM) -> e <> 0 ->
    GI (apply_action (thread_interrupt st j e) t (ARet 0 0) true) /\
    TI (apply_action (thread_interrupt st j e) t (ARet 0 0) true).
  Proof.
    intros G Hin Hlt T Hop Hc He.
    assert (Haw : th_state (getth st t) <> SLEEPING) by (apply (wf_runq _ _ (gp_wf G)); exact Hin).
    pose proof (interrupt_self_pc st t j e Haw) as F1.
    destruct (thread_interrupt_frame unit st j e) as (R & _ & _ & _ & N3 & _).
    set (st1 := thread_interrupt st j e) in *.
    assert (Hop1 : cur_op t (getth st1 t) = Some (OCore c)) by (unfold cur_op; rewrite F1; exact Hop).
    apply aret_plain_inv with (c := c); auto.
    - rewrite N3. apply GIp_interrupt; auto. split; [reflexivity|].
      unfold ev_op. cbn [ev_tid ev_pc]. fold (cur_op t (getth st1 t)). rewrite Hop1.
      destruct Hc as [->|(f & -> & ->)]; [left; reflexivity|right; exists f; split; reflexivity].
    - rewrite R. destruct (tstate_eqb (th_state (getth st j)) SLEEPING); [apply in_or_app; left|]; exact Hin.
    - apply (TI_same _ st); [exact T|exact N3].
    - destruct Hc as [->|(f & -> & _)]; exact I.
    - intros _ ((j' & X) & _). destruct Hc as [->|(f & -> & _)]; discriminate.
  Qed.

  Lemma case_interrupt st t j e :
    GIa st (s_trace st) -> In t (s_runq st) -> (t < length progs)%nat -> TI st ->
    cur_op t (getth st t) = Some (OCore (OInterrupt j e)) ->
    GI (apply_action (thread_interrupt st j e) t (ARet 0 0) true) /\
    TI (apply_action (thread_interrupt st j e) t (ARet 0 0) true).
  Proof.
    intros G Hin Hlt T Hop. apply deliver_inv with (c := OInterrupt j e); auto.
    eapply NZ; exact Hop.
  Qed.

  Lemma case_shutdown st t j flag :
    GIa st (s_trace st) -> In t (s_runq st) -> (t < length progs)%nat -> TI st ->
    cur_op t (getth st t) = Some (OCore (OShutdown j flag)) ->
    GI (apply_action (thread_shutdown st j flag) t (ARet 0 0) true) /\
    TI (apply_action (thread_shutdown st j flag) t (ARet 0 0) true).
  Proof.
    intros G Hin Hlt T Hop. unfold thread_shutdown.
    set (st0 := modth st j (fun th => set_tshutdown th flag)).
    assert (G0 : GIa st0 (s_trace st0)).
    { apply GIp_modth; [exact G|intros th; repeat split; reflexivity|intros _; apply GoodT_set_shutdown]. }
    assert (Hop0 : cur_op t (getth st0 t) = Some (OCore (OShutdown j flag))).
    { unfold cur_op, st0. rewrite (getth_modth_proj unit th_pc) by reflexivity. exact Hop. }
    destruct (tstate_eqb (th_state (getth st0 j)) SLEEPING).
    - (* the target sleeps: it is interrupted with EPERM *)
      apply deliver_inv with (c := OShutdown j flag);
        [exact G0|exact Hin|exact Hlt|exact T|exact Hop0|right; exists flag; split; reflexivity|discriminate].
    - apply aret_plain_inv with (c := OShutdown j flag);
        [|exact Hin|exact Hlt|exact T|exact Hop0|exact I|intros _ ((j' & X) & _); discriminate].
      apply GIp_mono; [exact G0|]. intros u _ _. eapply not_clearing_op; [exact Hop0|intros d; discriminate].
  Qed.

  Lemma GIp_create P st k jn ev :
    GIp P st (s_trace st) -> (k < length progs)%nat -> th_state (getth st k) = NOTCREATED -> ~ clearing progs ev ->
    GIp P (do_create st k jn) (ev :: s_trace st).
  Proof.
    intros [A B C D E F G] Hk Hs Hnc.
    assert (Hkr : (k < nthreads st)%nat) by (rewrite B; lia).
    pose proof (fun u => getth_do_create unit st k jn u Hkr) as Gt.
    constructor.
    - apply WF_do_create; auto.
    - unfold do_create. change (nthreads (set_runq ?a ?b)) with (nthreads a). rewrite nthreads_setth. exact B.
    - exact C.
    - exact D.
    - exact E.
    - intros u. rewrite Gt. change (s_runq (do_create st k jn)) with (s_runq st ++ [k]). rewrite in_app_iff.
      destruct (Nat.eqb_spec u k) as [->|]; [right; left; auto|]. intros Hu. left. auto.
    - intros u Hu Pu. rewrite Gt. destruct (Nat.eqb_spec u k) as [->|].
      + apply (GoodT_fresh progs k (getth st k)); [exact E|].
        apply fresh_mono; [apply (g_fresh (G k Hu Pu))|intros _; exact Hnc].
      + apply GoodT_mono; auto.
  Qed.

  Lemma case_create st t k jn :
    GIa st (s_trace st) -> In t (s_runq st) -> (t < length progs)%nat -> TI st ->
    cur_op t (getth st t) = Some (OCore (OCreate k jn)) ->
    (k < length progs)%nat -> th_state (getth st k) = NOTCREATED ->
    GI (apply_action (do_create st k jn) t (ARet 0 0) true) /\
    TI (apply_action (do_create st k jn) t (ARet 0 0) true).
  Proof.
    intros G Hin Hlt T Hop Hk Hs.
    assert (Hkt : k <> t).
    { intros ->. apply (wf_runq _ _ (gp_wf G)) in Hin. destruct Hin as (_ & X). contradiction. }
    assert (Ht1 : getth (do_create st k jn) t = getth st t).
    { rewrite getth_do_create by (rewrite (gp_n G); lia). destruct (Nat.eqb_spec t k); [congruence|reflexivity]. }
    assert (Hop1 : cur_op t (getth (do_create st k jn) t) = Some (OCore (OCreate k jn))) by (rewrite Ht1; exact Hop).
    apply aret_plain_inv with (c := OCreate k jn);
      [|apply in_or_app; left; exact Hin|exact Hlt|exact T|exact Hop1|exact I|intros _ ((j' & X) & _); discriminate].
    change (s_trace (do_create st k jn)) with (s_trace st). apply GIp_create; auto. eapply not_clearing_op; [exact Hop1|intros d; discriminate].
  Qed.

  (* Context switches.  A switch leaves every thread u with a record g u, except that the new head nxt of the ring is
     set RUNNING. *)
  Lemma GI_switch P st st' g nxt :
    GIp P st (s_trace st) -> TI st -> WF st' -> nthreads st' = nthreads st -> s_now st' = s_clock st ->
    s_clock st' = s_clock st -> s_trace st' = s_trace st ->
    (forall u, getth st' u = if Nat.eqb u nxt then set_tstate (g u) RUNNING else g u) ->
    In nxt (s_runq st') -> th_state (g nxt) <> SLEEPING ->
    (forall u, u <> nxt -> th_state (g u) = READY \/ th_state (g u) = RUNNING -> In u (s_runq st')) ->
    (forall u, (u < length progs)%nat -> GoodT u (g u) (s_now st) (s_clock st) (s_trace st)) ->
    GI st' /\ TI st'.
  Proof.
    intros G T W' L N C Tr Hg Hin Hns Hring HG.
    split; [|apply (TI_same _ st); assumption].
    constructor.
    - exact W'.
    - rewrite L. apply (gp_n G).
    - left. congruence.
    - rewrite C. apply (gp_max G).
    - rewrite N, <- (gp_sync G). apply (gp_pos G).
    - intros u. rewrite Hg. destruct (Nat.eqb_spec u nxt) as [->|Hu]; [intros _; exact Hin|apply Hring; exact Hu].
    - intros u Hu. rewrite Hg, N, C, Tr. pose proof (HG u Hu) as X. rewrite (gp_sync G) in X.
      destruct (Nat.eqb_spec u nxt) as [->|]; [|exact X].
      apply GoodT_restate; [exact X|exact Hns|discriminate|intros _; right; reflexivity].
    - apply (wf_runq _ _ W'), (wf_idler _ _ W').
  Qed.

  (* only the record of the current thread t changes (to r) *)
  Lemma GI_switch_cur st st' t r nxt :
    GIw st t (s_trace st) -> TI st -> WF st' -> nthreads st' = nthreads st -> s_now st' = s_clock st ->
    s_clock st' = s_clock st -> s_trace st' = s_trace st ->
    t <> nxt -> In nxt (s_runq st) ->
    (forall u, getth st' u = if Nat.eqb u nxt then set_tstate (getth st nxt) RUNNING
                             else if Nat.eqb u t then r else getth st u) ->
    In nxt (s_runq st') ->
    (forall u, u <> t -> u <> nxt -> In u (s_runq st) -> In u (s_runq st')) ->
    (th_state r = READY \/ th_state r = RUNNING -> In t (s_runq st')) ->
    ((t < length progs)%nat -> GoodT t r (s_now st) (s_clock st) (s_trace st)) ->
    GI st' /\ TI st'.
  Proof.
    intros G T W' L N C Tr Hne Hin Hg Hin' Hring Ht HG.
    apply (GI_switch _ st st' (fun u => if Nat.eqb u t then r else getth st u) nxt G T); auto.
    - intros u. rewrite Hg. destruct (Nat.eqb_spec u nxt) as [->|]; [|reflexivity].
      destruct (Nat.eqb_spec nxt t); [congruence|reflexivity].
    - destruct (Nat.eqb_spec nxt t); [congruence|]. apply (wf_runq _ _ (gp_wf G)). exact Hin.
    - intros u Hu. destruct (Nat.eqb_spec u t) as [->|Hut]; [exact Ht|].
      intros X. apply Hring; auto. apply (gp_ring G); exact X.
    - intros u Hu. destruct (Nat.eqb_spec u t) as [->|Hut]; [auto|apply (gp_good G); auto].
  Qed.

  (* thread_yield by the head t of the ring (a user thread or the idler) *)
  Lemma yield_switch st t to rest :
    GIw st t (s_trace st) -> TI st -> s_runq st = t :: to :: rest ->
    ((t < length progs)%nat ->
     GoodT t (set_tstate (set_terr (getth st t) 0) READY) (s_now st) (s_clock st) (s_trace st)) ->
    GI (do_yield st) /\ TI (do_yield st).
  Proof.
    intros G T Hr HG. pose proof (gp_wf G) as W.
    destruct (ring_head unit st t to rest W Hr) as (Hne & Ht & Hto & _).
    destruct (do_yield_frame unit st t to rest Hr) as (R & _ & L & N & C & Tr & _).
    apply (GI_switch_cur st (do_yield st) t (set_tstate (set_terr (getth st t) 0) READY) to); auto.
    - eapply WF_do_yield; eauto.
    - rewrite Hr. right; left; reflexivity.
    - exact (fun u => getth_do_yield unit st t to rest u Hr Hne Ht Hto).
    - rewrite R. left; reflexivity.
    - intros u H1 H2 Hu. rewrite Hr in Hu. rewrite R. destruct Hu as [?|[?|Hu]]; try congruence.
      right. apply in_or_app. left; exact Hu.
    - intros _. rewrite R. right. apply in_or_app. right; left; reflexivity.
  Qed.

  (* the three switches of apply_action: the phase k' of the op is recorded first *)
  Lemma GIw_set_k st t k' : GIw st t (s_trace st) -> GIw (modth st t (fun x => set_tk x k')) t (s_trace st).
  Proof. intros G. apply GIp_modth; [exact G|intros th; repeat split; reflexivity|intros X; contradiction (X eq_refl)]. Qed.

  Lemma case_yield st t to rest k' :
    GIw st t (s_trace st) -> TI st -> s_runq st = t :: to :: rest ->
    GoodT t (yield_record (getth st t) k') (s_now st) (s_clock st) (s_trace st) ->
    GI (apply_action st t (AYield k') true) /\ TI (apply_action st t (AYield k') true).
  Proof.
    intros G T Hr HG. unfold apply_action.
    destruct (ring_head unit st t to rest (gp_wf G) Hr) as (_ & Ht & _).
    apply (yield_switch _ t to rest); [exact (GIw_set_k st t k' G)|exact T|exact Hr|].
    intros _. rewrite getth_modth_same by exact Ht. exact HG.
  Qed.

  Lemma case_yield_to st t rest j k' :
    GIw st t (s_trace st) -> TI st -> s_runq st = t :: rest -> j <> t -> th_state (getth st j) = READY ->
    GoodT t (yield_record (getth st t) k') (s_now st) (s_clock st) (s_trace st) ->
    GI (apply_action st t (AYieldTo j k') true) /\ TI (apply_action st t (AYieldTo j k') true).
  Proof.
    intros G T Hr Hjt Hjs HG. unfold apply_action.
    set (st0 := modth st t (fun x => set_tk x k')).
    pose proof (GIw_set_k st t k' G) as G0. fold st0 in G0.
    pose proof (gp_wf G0) as W0.
    assert (Hr0 : s_runq st0 = t :: rest) by exact Hr.
    assert (Ht : (t < nthreads st0)%nat) by (apply (ring_in_range unit); [exact W0|rewrite Hr0; left; reflexivity]).
    assert (E0 : getth st0 t = set_tk (getth st t) k').
    { apply getth_modth_same. unfold st0 in Ht. rewrite nthreads_modth in Ht. exact Ht. }
    assert (Hjs0 : th_state (getth st0 j) = READY) by (unfold st0; rewrite getth_modth_other; auto).
    assert (Hj0 : In j (s_runq st0)) by (apply (gp_ring G0); left; exact Hjs0).
    pose proof (fun u => getth_do_yield_to unit st0 t rest j u Hr0 (not_eq_sym Hjt) Ht (ring_in_range unit _ _ W0 Hj0)) as Gt.
    rewrite E0 in Gt.
    destruct (do_yield_to_frame unit st0 t rest j Hr0) as (R & _ & L & N & C & Tr & _).
    apply (GI_switch_cur st0 (do_yield_to st0 j) t (yield_record (getth st t) k') j); auto.
    - eapply WF_do_yield_to; eauto.
    - rewrite R. left; reflexivity.
    - intros u H1 H2 Hu. rewrite Hr0 in Hu. rewrite R. destruct Hu as [?|Hu]; [congruence|].
      right; right. apply In_remove_tid; auto.
      pose proof (wf_nodup _ _ W0) as Hnd. rewrite Hr0 in Hnd. inversion Hnd; auto.
    - intros _. rewrite R. right; left; reflexivity.
  Qed.

  Lemma case_sleep st t to rest exp wq k' b :
    GIw st t (s_trace st) -> TI st -> s_runq st = t :: to :: rest -> t <> idler_tid st ->
    th_waitq (getth st t) = None ->
    GoodT t (sleep_record (getth st t) k' wq exp) (s_now st) (s_clock st) (s_trace st) ->
    GI (apply_action st t (ASleep exp wq None k') b) /\ TI (apply_action st t (ASleep exp wq None k') b).
  Proof.
    intros G T Hr Hid Hnq HG. unfold apply_action.
    set (st0 := modth st t (fun x => set_tk x k')).
    pose proof (GIw_set_k st t k' G) as G0. fold st0 in G0.
    pose proof (gp_wf G0) as W0.
    assert (Hr0 : s_runq st0 = t :: to :: rest) by exact Hr.
    destruct (ring_head unit st0 t to rest W0 Hr0) as (Hne & Ht & _).
    assert (E0 : getth st0 t = set_tk (getth st t) k').
    { apply getth_modth_same. unfold st0 in Ht. rewrite nthreads_modth in Ht. exact Ht. }
    pose proof (fun u => getth_do_sleep unit st0 t to rest exp wq u W0 Hr0) as Gt. rewrite E0 in Gt.
    destruct (do_sleep_spec unit st0 t to rest exp wq W0 Hr0) as (_&_&_&_&_&R&_&_&N&C&L&Tr&_).
    apply (GI_switch_cur st0 (do_sleep st0 exp wq) t (sleep_record (getth st t) k' wq exp) to); auto.
    - eapply WF_do_sleep; eauto.
      + unfold st0. rewrite (idler_tid_nthreads _ _ _ (nthreads_modth _ _ _ _)). exact Hid.
      + rewrite E0. exact Hnq.
    - rewrite Hr0. right; left; reflexivity.
    - intros u. rewrite Gt. destruct (Nat.eqb_spec u t) as [->|]; [|reflexivity].
      destruct (Nat.eqb_spec t to); [contradiction|reflexivity].
    - rewrite R. left; reflexivity.
    - intros u H1 H2 Hu. rewrite Hr0 in Hu. rewrite R. destruct Hu as [?|[?|Hu]]; try congruence. right; exact Hu.
    - unfold sleep_record. destruct wq; thsimpl; intros [X|X]; discriminate.
  Qed.

  (* the entry function of the current thread returns: thread::die *)
  Lemma GoodT_join_notify x th now clock tr j :
    GoodT x th now clock tr -> th_waitq th = Some (QJoin j) ->
    GoodT x (set_tstate (set_twaitq (set_tesrc (set_terr th (-1)) (length tr)) None) READY) now clock tr.
  Proof.
    intros [A B C D E F G H] Hw.
    destruct (E _ Hw) as (j' & Hj & Hop & Hk).
    constructor; thsimpl; [exact A| | | | | |exact G|eapply fresh_deliver; [exact H|reflexivity]].
    - discriminate.
    - intros d Hd. unfold cur_op in *. thsimpl. rewrite Hop in Hd. discriminate.
    - intros _. right. split; [reflexivity|]. split; [exists j'; exact Hop|exact Hk].
    - discriminate.
    - intros _. left; reflexivity.
  Qed.

  Lemma case_die st t to rest :
    GIw st t (s_trace st) -> TI st -> s_runq st = t :: to :: rest -> t <> idler_tid st ->
    GoodT t (getth st t) (s_now st) (s_clock st) (s_trace st) -> th_k (getth st t) = [] ->
    GI (do_die st t (retval_of t)) /\ TI (do_die st t (retval_of t)).
  Proof.
    intros G T Hr Hid HG Hk.
    pose proof (gp_wf G) as W.
    destruct (do_die_spec unit st t (retval_of t) to rest W Hr) as (Gt & R & N & F1 & F2 & F3 & _ & _ & _ & Hx).
    destruct (ring_head unit st t to rest W Hr) as (Hne & _ & _ & _ & (Htos & _)).
    pose proof (fun u X => wf_runq _ _ W u X) as Hrq. rewrite Hr in Hrq.
    set (h := match wq_get st (QJoin t) with [] => None | x :: _ => Some x end) in *.
    set (g := fun u => if Nat.eqb u t then set_tretval (set_tstate (getth st t) DONE) (retval_of t)
                       else match h with
                            | Some x => if Nat.eqb u x
                                        then set_tstate (set_twaitq (set_tesrc (set_terr (getth st x) (-1)) (length (s_trace st))) None) READY
                                        else getth st u
                            | None => getth st u end).
    assert (Hgo : forall u, u <> t -> (forall x, h = Some x -> u <> x) -> g u = getth st u).
    { intros u H1 H2. unfold g. destruct (Nat.eqb_spec u t); [contradiction|].
      destruct h as [x|]; [|reflexivity]. destruct (Nat.eqb_spec u x) as [->|]; [|reflexivity].
      exfalso. exact (H2 x eq_refl eq_refl). }
    apply (GI_switch _ st _ g to G T); auto.
    - eapply WF_do_die; eauto.
    - rewrite F1. apply (gp_sync G).
    - intros u. rewrite Gt. unfold g. destruct (Nat.eqb_spec u t) as [->|]; [|reflexivity].
      destruct (Nat.eqb_spec t to); [contradiction|reflexivity].
    - rewrite R. left; reflexivity.
    - rewrite Hgo; [exact Htos|auto|]. intros x Hh. destruct (Hx x Hh) as (_ & _ & _ & X). auto.
    - intros u Hu. unfold g. destruct (Nat.eqb_spec u t) as [->|Hut]; [thsimpl; intros [X|X]; discriminate|].
      rewrite R. assert (Hold : th_state (getth st u) = READY \/ th_state (getth st u) = RUNNING -> In u ((to :: rest) ++ match h with Some x => [x] | None => [] end)).
      { intros X. pose proof (gp_ring G u X) as Hin. rewrite Hr in Hin.
        destruct Hin as [?|Hin]; [congruence|]. apply in_or_app. left; exact Hin. }
      destruct h as [x|]; [|exact Hold]. destruct (Nat.eqb_spec u x) as [->|]; [|exact Hold].
      intros _. apply in_or_app. right; left; reflexivity.
    - intros u Hu. unfold g. destruct (Nat.eqb_spec u t) as [->|Hut].
      + apply GoodT_set_retval. apply GoodT_restate; auto; try discriminate.
        * apply (Hrq t). left; reflexivity.
        * intros X. congruence.
      + destruct h as [x|] eqn:Eh; [|apply (gp_good G); auto].
        destruct (Nat.eqb_spec u x) as [->|]; [|apply (gp_good G); auto].
        destruct (Hx x eq_refl) as (X1 & X2 & _).
        eapply GoodT_join_notify; eauto. apply (gp_good G); auto.
  Qed.

  Lemma GI_same (st st' : cstate) :
    GI st -> same_sched st st' -> s_trace st' = s_trace st -> (forall u, getth st' u = getth st u) -> GI st'.
  Proof.
    intros G (S1&S2&S3&S4&S5&S6&S7&S8) Str Sg. constructor.
    - apply (WF_same _ st); [repeat split; auto; apply S8|apply (gi_wf G)].
    - rewrite S7. apply (gi_n G).
    - destruct (gi_sync G) as [X|(X & Y)]; [left; congruence|right].
      rewrite S1, S2, (idler_tid_nthreads _ _ _ S7). auto.
    - rewrite S6. apply (gi_max G).
    - rewrite S5. apply (gi_pos G).
    - intros u. rewrite Sg, S1. apply (gi_ring G).
    - intros u Hu. rewrite Sg, S5, S6, Str. apply (gi_good G); auto.
    - rewrite (idler_tid_nthreads _ _ _ S7), Sg. apply (gi_idler_k G).
  Qed.

  (* The idler's round.  resume_threads refreshes photon::now and wakes what is due.  In the state st1 after it the whole
     invariant holds in the synchronised form and no thread whose deadline has been reached sleeps.
     Then the idler yields, or (alone in the ring) ends the run or lets the virtual clock advance to
     the next deadline (at most IDLE_CAP). *)
  Lemma idler_round_spec st rest :
    GI st -> s_runq st = idler_tid st :: rest ->
    exists st1,
      GIa st1 (s_trace st1) /\ s_trace st1 = s_trace st /\ idler_tid st1 = idler_tid st /\
      (forall u, th_state (getth st1 u) = SLEEPING -> s_now st1 < th_ts (getth st1 u)) /\
      ((exists to r, s_runq st1 = idler_tid st1 :: to :: r /\ idler_round st = do_yield st1) \/
       (s_runq st1 = [idler_tid st1] /\
        (idler_round st = set_end st1 \/
         exists f, front (s_sleepq st1) = Some f /\
                   idler_round st = set_clock st1 (s_clock st1 + Z.min IDLE_CAP (sat_sub (th_ts (getth st1 f)) (s_now st1)))))).
  Proof.
    intros G Hr. pose proof (gi_wf G) as W.
    unfold idler_round.
    destruct (resume_threads_spec unit st W) as (wk & Hcount & W1 & Hnd & R1 & N1 & C1 & Tr1 & L1 & _ & _ & _ & Hw & Ho & Hd).
    destruct (resume_threads st) as (st1, count). cbn [fst snd] in *.
    set (now1 := if hempty (s_sleepq st) then s_now st else s_clock st) in *.
    pose proof (wf_clock _ _ W) as Hclk.
    assert (I1 : idler_tid st1 = idler_tid st) by (apply idler_tid_nthreads; exact L1).
    assert (Hsync1 : now1 = s_clock st).
    { unfold now1. destruct (hempty (s_sleepq st)) eqn:He; auto.
      destruct (gi_sync G) as [?|(_ & X)]; auto. unfold hempty in He. destruct (hq (s_sleepq st)); [congruence|discriminate]. }
    rewrite Hsync1 in *. clear now1 Hsync1.
    exists st1. split; [|split; [exact Tr1|split; [exact I1|split; [rewrite N1; exact Hd|]]]].
    { constructor.
      - exact W1.
      - rewrite L1. apply (gi_n G).
      - congruence.
      - rewrite C1. apply (gi_max G).
      - rewrite N1. pose proof (gi_pos G). lia.
      - intros u Hu. rewrite R1, in_app_iff. destruct (in_dec Nat.eq_dec u wk) as [Hin|Hnin]; [right; auto|].
        left. rewrite (Ho u Hnin) in Hu. apply (gi_ring G); auto.
      - intros u Hu _. rewrite N1, C1, Tr1. destruct (in_dec Nat.eq_dec u wk) as [Hin|Hnin].
        + destruct (Hw u Hin) as (X1 & X2 & X3). rewrite X3.
          apply (GoodT_timer_wake progs _ _ (s_now st)); auto. apply (gi_good G); auto.
        + rewrite (Ho u Hnin). eapply GoodT_now_ge; [apply (gi_good G); auto|exact Hclk]. }
    rewrite I1.
    destruct (negb (Nat.eqb count 0) || negb (match s_runq st1 with [_] => true | _ => false end)) eqn:E.
    - left. destruct (s_runq st1) as [|a [|to r]] eqn:Er.
      + exfalso. pose proof (wf_idler _ _ W1) as X. rewrite Er in X. destruct X.
      + exfalso. rewrite orb_false_r in E. apply negb_true_iff, Nat.eqb_neq in E.
        rewrite Hr in R1. destruct wk as [|y wk']; [simpl in Hcount; congruence|].
        destruct rest; simpl in R1; discriminate.
      + exists to, r. split; [|reflexivity]. rewrite Hr in R1. simpl in R1. congruence.
    - right. apply orb_false_iff in E. destruct E as (E0 & Es). apply negb_false_iff in E0, Es. apply Nat.eqb_eq in E0.
      assert (Hwk : wk = []) by (destruct wk; [auto|simpl in Hcount; congruence]). subst wk. rewrite app_nil_r in R1.
      split; [rewrite R1, Hr in *; destruct rest; [reflexivity|discriminate]|].
      destruct (front (s_sleepq st1)) as [f|]; [|left; reflexivity].
      destruct (th_ts (getth st1 f) =? MAX64); [left; reflexivity|right; exists f; split; reflexivity].
  Qed.

  Lemma idler_inv st rest :
    GI st -> TI st -> s_runq st = idler_tid st :: rest -> GI (idler_round st) /\ TI (idler_round st).
  Proof.
    intros G T Hr.
    destruct (idler_round_spec st rest G Hr) as (st1 & G1 & Tr1 & I1 & Hd & Hcases).
    pose proof (gp_wf G1) as W1. pose proof (gi_idler_tid _ _ G) as Hidl. rewrite <- I1 in Hidl.
    assert (T1 : TI st1) by (apply (TI_same _ st); auto).
    destruct Hcases as [(to & r & Er & ->)|(Hsingle & [->|(f & Hfr & ->)])].
    - (* the idler yields *)
      apply (yield_switch st1 (idler_tid st1) to r); auto.
      + apply (GIp_weaken _ _ _ _ G1). auto.
      + intros X. rewrite Hidl in X. lia.
    - split; [|exact T1]. apply (GI_same st1); [apply GIp_GI; exact G1|apply same_sched_set_end|reflexivity|reflexivity].
    - (* nothing to run: the virtual clock advances *)
      assert (Hfin : In f (hq (s_sleepq st1))) by (unfold front in Hfr; destruct (hq (s_sleepq st1)); [discriminate|injection Hfr as ->; left; auto]).
      assert (Hfs : th_state (getth st1 f) = SLEEPING) by (apply (wf_sleep _ _ W1); auto).
      assert (Hflt : (f < length progs)%nat).
      { pose proof (sleeping_in_range _ _ _ Hfs) as X. rewrite (gp_n G1) in X.
        assert (f <> idler_tid st1) by (intros ->; apply (sleeping_not_in_ring _ _ _ W1 Hfs), (wf_idler _ _ W1)). rewrite Hidl in H. lia. }
      pose proof (Hd f Hfs) as Hdf.
      pose proof (gp_sync G1) as Hsy1.
      pose proof (g_sleep_clock (gp_good G1 Hflt I) Hfs) as Hfts.
      set (adv := Z.min IDLE_CAP (sat_sub (th_ts (getth st1 f)) (s_now st1))).
      assert (Hadv : 0 <= adv /\ s_clock st1 + adv <= th_ts (getth st1 f)).
      { unfold adv, sat_sub, IDLE_CAP. rewrite <- Hsy1. destruct (_ <? _) eqn:X; [apply Z.ltb_lt in X; lia|]. lia. }
      set (st2 := set_clock st1 (s_clock st1 + adv)).
      assert (W2 : WF st2) by (apply WF_set_clock; auto; lia).
      assert (Hmin : forall u, th_state (getth st1 u) = SLEEPING -> th_ts (getth st1 f) <= th_ts (getth st1 u)).
      { intros u Hu. apply (wf_sleep _ _ W1) in Hu.
        exact (front_is_min _ _ _ (wf_heap _ _ W1) Hfr u Hu). }
      split; [|exact T1].
      constructor.
      + exact W2.
      + apply (gp_n G1).
      + right. split; [exact Hsingle|].
        change (s_sleepq st2) with (s_sleepq st1). intros X. rewrite X in Hfin. destruct Hfin.
      + change (s_clock st2) with (s_clock st1 + adv). lia.
      + apply (gp_pos G1).
      + apply (gp_ring G1).
      + intros u Hu. pose proof (gp_good G1 Hu I) as GT.
        change (GoodT u (getth st1 u) (s_now st1) (s_clock st1 + adv) (s_trace st1)).
        destruct (tstate_eqb_spec (th_state (getth st1 u)) SLEEPING) as [Hs|Hns].
        * eapply GoodT_idle_sleeping; [exact GT|exact Hs|]. specialize (Hmin u Hs). lia.
        * eapply GoodT_idle_dead; [exact GT|exact Hns| |]; intros X;
            [pose proof (gp_ring G1 u (or_introl X)) as Y|pose proof (gp_ring G1 u (or_intror X)) as Y];
            rewrite Hsingle, Hidl in Y; destruct Y as [Y|[]]; lia.
      + apply (wf_runq _ _ W2), (wf_idler _ _ W2).
  Qed.

End STEP.
