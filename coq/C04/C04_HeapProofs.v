(* C04_HeapProofs.v — correctness of the sleep-queue heap model (C04_Heap.v, which mirrors
   `class SleepQueue`, thread/thread.cpp 374-483).

   Main results (all for an ARBITRARY deadline assignment ts : tid -> Z — equal deadlines,
   2^64-1, anything — and queues of any size):
     Inv_empty, Inv_ts_ext, front_is_min, push_spec, pop_front_correct, pop_correct, pop_absent,
     and for op sequences hops_run_Inv, hop_step_pop_front.

   Proof idea for the two sift loops.  While a loop runs, position `i` of the array holds a
   stale value and the element being moved is kept aside in `tmp`; the *virtual* array
   `vg q i tmp` (q with position i read as tmp) is what the invariants talk about:
     LWf   : the virtual array is duplicate-free, has the same members as a fixed reference
             list L0, thread::idx is right at every position but i, idx of non-members untouched;
     E1    : every parent/child edge not touching i is ordered;
     E3    : the parent of i is <= the children of i          (grandparent <= grandchildren);
     UpOK  : tmp <= the children of i;     DownOK : parent of i <= tmp.
   When a loop stops, E1 + UpOK + DownOK make `setq q i tmp` a heap. *)
From Coq Require Import ZArith List Bool Arith Lia Permutation.
From PV Require Import C04.C04_Heap.
Import ListNotations.
Local Open Scope nat_scope.

Definition par (j : nat) : nat := Nat.div2 (j - 1).

Lemma par_cases j : 0 < j -> j = 2 * par j + 1 \/ j = 2 * par j + 2.
Proof.
  intros Hj. unfold par. pose proof (Nat.div2_odd (j - 1)) as H.
  destruct (Nat.odd (j - 1)); simpl Nat.b2n in H; lia.
Qed.

Lemma par_lt j : 0 < j -> par j < j.
Proof. intros Hj. pose proof (par_cases j Hj). lia. Qed.

Lemma par_left i : par (2 * i + 1) = i.
Proof. unfold par. replace (2 * i + 1 - 1) with (2 * i) by lia. apply Nat.div2_double. Qed.

Lemma par_right i : par (2 * i + 1 + 1) = i.
Proof. unfold par. replace (2 * i + 1 + 1 - 1) with (S (2 * i)) by lia. apply Nat.div2_succ_double. Qed.

Lemma par_child j i : 0 < j -> par j = i -> j = 2 * i + 1 \/ j = 2 * i + 1 + 1.
Proof. intros Hj <-. pose proof (par_cases j Hj). lia. Qed.

Lemma setq_length q i v : length (setq q i v) = length q.
Proof. revert i; induction q as [|x q IH]; intros [|i]; simpl; auto. Qed.

Lemma getq_setq q i v k :
  i < length q -> getq (setq q i v) k = if k =? i then v else getq q k.
Proof.
  unfold getq. revert i k; induction q as [|x q IH]; intros i k Hi; simpl in Hi; [lia|].
  destruct i as [|i], k as [|k]; simpl; auto.
  apply IH; lia.
Qed.

Lemma getq_app_l q r k : k < length q -> getq (q ++ r) k = getq q k.
Proof. intros; unfold getq; apply app_nth1; auto. Qed.

Lemma getq_app_last q t : getq (q ++ [t]) (length q) = t.
Proof. unfold getq. rewrite app_nth2 by lia. rewrite Nat.sub_diag. reflexivity. Qed.

Lemma removelast_len (q : list tid) : length (removelast q) = length q - 1.
Proof.
  destruct q as [|x q]; [reflexivity|].
  pose proof (app_removelast_last 0 (l := x :: q) ltac:(discriminate)) as H.
  apply (f_equal (@length tid)) in H. rewrite app_length in H. simpl in H. simpl length. lia.
Qed.

Lemma getq_removelast q k : k < length q - 1 -> getq (removelast q) k = getq q k.
Proof.
  intros Hk. destruct q as [|x q]; [simpl in Hk; lia|].
  pose proof (app_removelast_last 0 (l := x :: q) ltac:(discriminate)) as H.
  rewrite H at 2. rewrite getq_app_l; auto. rewrite removelast_len. exact Hk.
Qed.

Lemma getq_last q : q <> [] -> getq q (length q - 1) = last q 0.
Proof.
  intros Hq. pose proof (app_removelast_last 0 Hq) as H.
  rewrite H at 1 2. rewrite app_length. simpl length. rewrite Nat.add_sub.
  apply getq_app_last.
Qed.

Lemma In_getq q t : In t q <-> exists k, k < length q /\ getq q k = t.
Proof.
  split.
  - intros H. apply (In_nth q t 0) in H. exact H.
  - intros (k & Hk & <-). apply nth_In; auto.
Qed.

Lemma NoDup_getq q :
  NoDup q <-> (forall a b, a < length q -> b < length q -> getq q a = getq q b -> a = b).
Proof. apply NoDup_nth. Qed.

Definition heap_order (ts : tid -> Z) (q : list tid) : Prop :=
  forall j, 0 < j < length q -> (ts (getq q (par j)) <= ts (getq q j))%Z.

(* the user-facing form: ts (q[(i-1)/2]) <= ts (q[i]) *)
Lemma heap_order_div ts q :
  heap_order ts q <->
  (forall i, 0 < i < length q -> (ts (nth ((i - 1) / 2)%nat q 0%nat) <= ts (nth i q 0%nat))%Z).
Proof.
  unfold heap_order, par, getq.
  split; intros H j Hj; specialize (H j Hj); rewrite Nat.div2_div in *; exact H.
Qed.

Definition Inv (ts : tid -> Z) (h : heap) : Prop :=
  hbad h = false /\
  heap_order ts (hq h) /\
  (forall i, i < length (hq h) -> hidx h (nth i (hq h) 0) = Z.of_nat i) /\
  (forall t, ~ In t (hq h) -> hidx h t = (-1)%Z) /\
  NoDup (hq h).

(* Inv without the order and without the "non-members have idx -1" part *)
Definition Wf0 (h : heap) : Prop :=
  hbad h = false /\
  NoDup (hq h) /\
  (forall k, k < length (hq h) -> hidx h (getq (hq h) k) = Z.of_nat k).

Lemma Inv_Wf0 ts h : Inv ts h -> Wf0 h.
Proof. intros (Hb & _ & Hi & _ & Hn). repeat split; auto. Qed.

Lemma Inv_intro ts h :
  Wf0 h -> heap_order ts (hq h) -> (forall t, ~ In t (hq h) -> hidx h t = (-1)%Z) -> Inv ts h.
Proof. intros (Hb & Hn & Hi) Ho Hout. repeat split; auto. Qed.

Theorem Inv_empty ts : Inv ts heap_empty.
Proof.
  repeat split; simpl; try (intros; lia); auto.
  - intros j Hj. simpl in Hj. lia.
  - constructor.
Qed.

(** A concrete non-trivial heap used by the [Example]s below: 4 queued threads, two equal
    deadlines (threads 0 and 1: 5) and one 2^64-1 (thread 2).  q = [3;0;2;1]. *)
Definition ex_ts : tid -> Z := fun t =>
  match t with 0 => 5%Z | 1 => 5%Z | 2 => 18446744073709551615%Z | 3 => 3%Z | _ => 0%Z end.
Definition ex_h : heap :=
  mkHeap [3; 0; 2; 1]
         (fun t => match t with 0 => 1%Z | 1 => 3%Z | 2 => 2%Z | 3 => 0%Z | _ => (-1)%Z end) false.

Example ex_Inv : Inv ex_ts ex_h.
Proof.
  unfold Inv. split; [reflexivity|]. split; [|split; [|split]].
  - intros j Hj. cbn [ex_h hq length] in Hj.
    assert (Hc : j = 1 \/ j = 2 \/ j = 3) by lia.
    destruct Hc as [-> | [-> | ->]]; vm_compute; discriminate.
  - intros i Hi. cbn [ex_h hq length] in Hi.
    assert (Hc : i = 0 \/ i = 1 \/ i = 2 \/ i = 3) by lia.
    destruct Hc as [-> | [-> | [-> | ->]]]; reflexivity.
  - intros t Hnin. destruct t as [|[|[|[|t]]]]; try (exfalso; apply Hnin; simpl; tauto).
    reflexivity.
  - cbn [ex_h hq]. repeat constructor; simpl; lia.
Qed.

Theorem Inv_ts_ext ts ts' h :
  Inv ts h -> (forall t, In t (hq h) -> ts' t = ts t) -> Inv ts' h.
Proof.
  intros (Hb & Ho & Hi & Hout & Hn) Hext. repeat split; auto.
  intros j Hj. pose proof (par_lt j ltac:(lia)) as Hp.
  rewrite !Hext by (apply nth_In; lia). apply Ho; auto.
Qed.

Example Inv_ts_ext_ex :
  Inv ex_ts ex_h /\ (forall t, In t (hq ex_h) -> updf ex_ts 7 42%Z t = ex_ts t).
Proof.
  split; [exact ex_Inv|]. intros t Ht. simpl in Ht.
  destruct Ht as [<- | [<- | [<- | [<- | []]]]]; reflexivity.
Qed.

Lemma Inv_idx_of_member ts h t :
  Inv ts h -> In t (hq h) -> exists k, k < length (hq h) /\ getq (hq h) k = t /\ hidx h t = Z.of_nat k.
Proof.
  intros (_ & _ & Hi & _ & _) Hin. apply In_getq in Hin. destruct Hin as (k & Hk & <-).
  exists k. repeat split; auto. apply Hi; auto.
Qed.

Lemma Inv_idx_m1_not_in ts h t : Inv ts h -> hidx h t = (-1)%Z -> ~ In t (hq h).
Proof.
  intros HI Hm Hin. destruct (Inv_idx_of_member ts h t HI Hin) as (k & _ & _ & Hk). lia.
Qed.

Lemma heap_order_root ts q :
  heap_order ts q -> forall k, k < length q -> (ts (getq q 0) <= ts (getq q k))%Z.
Proof.
  intros Ho k. induction k as [k IH] using lt_wf_ind. intros Hk.
  destruct (Nat.eq_dec k 0) as [->|Hne]; [lia|].
  pose proof (par_lt k ltac:(lia)) as Hp.
  specialize (IH (par k) Hp ltac:(lia)). specialize (Ho k ltac:(lia)). lia.
Qed.

Theorem front_is_min ts h t :
  Inv ts h -> front h = Some t -> forall u, In u (hq h) -> (ts t <= ts u)%Z.
Proof.
  intros (_ & Ho & _) Hf u Hu. unfold front in Hf.
  destruct (hq h) as [|x q] eqn:Eq; [discriminate|]. injection Hf as ->.
  apply In_getq in Hu. destruct Hu as (k & Hk & <-).
  change t with (getq (t :: q) 0). apply heap_order_root; auto.
Qed.

Example front_is_min_ex : Inv ex_ts ex_h /\ front ex_h = Some 3.
Proof. split; [exact ex_Inv | reflexivity]. Qed.

Definition vg (q : list tid) (i : nat) (tmp : tid) (k : nat) : tid :=
  if k =? i then tmp else getq q k.

Lemma vg_self q i k : vg q i (getq q i) k = getq q k.
Proof. unfold vg. destruct (k =? i) eqn:E; auto. apply Nat.eqb_eq in E; subst; auto. Qed.

Lemma vg_setq q i tmp k : i < length q -> getq (setq q i tmp) k = vg q i tmp k.
Proof. intros Hi. unfold vg. apply getq_setq; auto. Qed.

Definition sw (i c a : nat) : nat := if a =? c then i else if a =? i then c else a.

Lemma sw_invol i c a : sw i c (sw i c a) = a.
Proof.
  unfold sw.
  destruct (a =? c) eqn:E1; [apply Nat.eqb_eq in E1|apply Nat.eqb_neq in E1].
  - subst. destruct (i =? c) eqn:E2; [apply Nat.eqb_eq in E2; auto|]. rewrite Nat.eqb_refl. auto.
  - destruct (a =? i) eqn:E2; [apply Nat.eqb_eq in E2|apply Nat.eqb_neq in E2].
    + subst. rewrite Nat.eqb_refl. auto.
    + apply Nat.eqb_neq in E1, E2. rewrite E1, E2. auto.
Qed.

Lemma sw_lt i c a n : i < n -> c < n -> a < n -> sw i c a < n.
Proof. unfold sw; intros. destruct (a =? c); auto. destruct (a =? i); auto. Qed.

Lemma vg_step q i c tmp a :
  i < length q -> c <> i ->
  vg (setq q i (getq q c)) c tmp a = vg q i tmp (sw i c a).
Proof.
  intros Hi Hc. unfold vg, sw. rewrite getq_setq by auto.
  destruct (a =? c) eqn:E1.
  - rewrite Nat.eqb_refl. auto.
  - destruct (a =? i) eqn:E2.
    + apply Nat.eqb_neq in Hc. rewrite Hc. auto.
    + rewrite E2. auto.
Qed.

(** Well-formedness part of the loop invariant, relative to a reference list [L0] (the
    members) and a reference heap [h0] (idx of non-members). *)
Definition LWf (L0 : list tid) (h0 h : heap) (tmp : tid) (i : nat) : Prop :=
  hbad h = false /\
  length (hq h) = length L0 /\
  i < length (hq h) /\
  (forall a b, a < length (hq h) -> b < length (hq h) ->
               vg (hq h) i tmp a = vg (hq h) i tmp b -> a = b) /\
  (forall k, k < length (hq h) -> k <> i -> hidx h (getq (hq h) k) = Z.of_nat k) /\
  (forall t, In t L0 <-> exists k, k < length (hq h) /\ vg (hq h) i tmp k = t) /\
  (forall t, ~ In t L0 -> hidx h t = hidx h0 t).

Lemma LWf_init h i : Wf0 h -> i < length (hq h) -> LWf (hq h) h h (getq (hq h) i) i.
Proof.
  intros (Hb & Hn & Hi) Hlt. unfold LWf. repeat split; auto.
  - intros a b Ha Hb'. rewrite !vg_self. apply NoDup_getq; auto.
  - intros Hin. apply In_getq in Hin. destruct Hin as (k & Hk & <-). exists k. rewrite vg_self. auto.
  - intros (k & Hk & <-). rewrite vg_self. apply In_getq. eauto.
Qed.

Lemma update_node_in h i t :
  i < length (hq h) ->
  update_node h i t = mkHeap (setq (hq h) i t) (updf (hidx h) t (Z.of_nat i)) (hbad h).
Proof. intros Hi. unfold update_node. apply Nat.ltb_lt in Hi. rewrite Hi. reflexivity. Qed.

Lemma updf_same {A} (f : tid -> A) k v : updf f k v k = v.
Proof. unfold updf. rewrite Nat.eqb_refl. auto. Qed.

Lemma updf_other {A} (f : tid -> A) k v x : x <> k -> updf f k v x = f x.
Proof. unfold updf. intros H. apply Nat.eqb_neq in H. rewrite H. auto. Qed.

(* one loop step: the element at c moves into the hole i, the hole moves to c *)
Lemma LWf_step L0 h0 h tmp i c :
  LWf L0 h0 h tmp i -> c < length (hq h) -> c <> i ->
  LWf L0 h0 (update_node h i (getq (hq h) c)) tmp c.
Proof.
  intros (Hb & Hlen & Hi & Hinj & Hidx & Hmem & Hfr) Hc Hci.
  rewrite update_node_in by auto. unfold LWf. cbn [hq hidx hbad]. rewrite setq_length.
  split; [auto|]. split; [auto|]. split; [auto|].
  assert (Hqc : forall k, k < length (hq h) -> k <> c -> k <> i -> getq (hq h) k <> getq (hq h) c).
  { intros k Hk Hkc Hki Heq. apply Hkc. apply Hinj; auto. unfold vg.
    apply Nat.eqb_neq in Hki, Hci. rewrite Hki, Hci. exact Heq. }
  split; [|split; [|split]].
  - intros a b Ha Hb'. rewrite !vg_step by auto. intros Heq.
    apply Hinj in Heq; try (apply sw_lt; auto).
    rewrite <- (sw_invol i c a), <- (sw_invol i c b). congruence.
  - intros k Hk Hkc. rewrite getq_setq by auto.
    destruct (k =? i) eqn:E; [apply Nat.eqb_eq in E|apply Nat.eqb_neq in E].
    + subst k. apply updf_same.
    + rewrite updf_other by (apply Hqc; auto). apply Hidx; auto.
  - intros t. rewrite Hmem. split; intros (k & Hk & Hv).
    + exists (sw i c k). split; [apply sw_lt; auto|]. rewrite vg_step by auto. rewrite sw_invol. auto.
    + exists (sw i c k). split; [apply sw_lt; auto|]. rewrite <- vg_step by auto. auto.
  - intros t Ht. rewrite updf_other; auto.
    intros ->. apply Ht. apply Hmem. exists c. split; auto.
    unfold vg. apply Nat.eqb_neq in Hci. rewrite Hci. auto.
Qed.

(* closing the hole: write tmp at the final position *)
Lemma LWf_finish L0 h0 h tmp j :
  LWf L0 h0 h tmp j ->
  let h' := update_node h j tmp in
  Wf0 h' /\ hq h' = setq (hq h) j tmp /\ length (hq h') = length L0 /\
  (forall t, In t (hq h') <-> In t L0) /\
  (forall t, ~ In t L0 -> hidx h' t = hidx h0 t).
Proof.
  intros (Hb & Hlen & Hj & Hinj & Hidx & Hmem & Hfr). intros h'. subst h'.
  rewrite update_node_in by auto. cbn [hq hidx hbad].
  split; [|split; [reflexivity|split; [rewrite setq_length; auto|split]]].
  - unfold Wf0. cbn [hq hidx hbad]. rewrite setq_length. split; [auto|split].
    + apply NoDup_getq. rewrite setq_length. intros a b Ha Hb'. rewrite !vg_setq by auto. auto.
    + intros k Hk. rewrite getq_setq by auto.
      destruct (k =? j) eqn:E; [apply Nat.eqb_eq in E|apply Nat.eqb_neq in E].
      * subst. apply updf_same.
      * rewrite updf_other; [apply Hidx; auto|].
        intros Heq. apply E. apply Hinj; auto. unfold vg. rewrite Nat.eqb_refl.
        apply Nat.eqb_neq in E. rewrite E. auto.
  - intros t. rewrite Hmem. rewrite In_getq. rewrite setq_length.
    split; intros (k & Hk & Hv); exists k; (split; [auto|]).
    + rewrite <- vg_setq; auto.
    + rewrite vg_setq; auto.
  - intros t Ht. rewrite updf_other; auto. intros ->. apply Ht. apply Hmem.
    exists j. split; auto. unfold vg. rewrite Nat.eqb_refl. auto.
Qed.

Definition E1 (ts : tid -> Z) (q : list tid) (i : nat) : Prop :=
  forall j, 0 < j < length q -> j <> i -> par j <> i -> (ts (getq q (par j)) <= ts (getq q j))%Z.

Definition E3 (ts : tid -> Z) (q : list tid) (i : nat) : Prop :=
  0 < i -> forall j, 0 < j < length q -> par j = i -> (ts (getq q (par i)) <= ts (getq q j))%Z.

Definition UpOK (ts : tid -> Z) (q : list tid) (i : nat) (tmp : tid) : Prop :=
  forall j, 0 < j < length q -> par j = i -> (ts tmp <= ts (getq q j))%Z.

Definition DownOK (ts : tid -> Z) (q : list tid) (i : nat) (tmp : tid) : Prop :=
  0 < i -> (ts (getq q (par i)) <= ts tmp)%Z.

Lemma order_finish ts q i tmp :
  i < length q -> E1 ts q i -> UpOK ts q i tmp -> DownOK ts q i tmp ->
  heap_order ts (setq q i tmp).
Proof.
  intros Hi H1 HU HD j Hj. rewrite setq_length in Hj. rewrite !getq_setq by auto.
  pose proof (par_lt j ltac:(lia)) as Hp.
  destruct (j =? i) eqn:Eji; [apply Nat.eqb_eq in Eji|apply Nat.eqb_neq in Eji].
  - subst j. destruct (par i =? i) eqn:E; [apply Nat.eqb_eq in E; lia|].
    apply HD. lia.
  - destruct (par j =? i) eqn:E; [apply Nat.eqb_eq in E|apply Nat.eqb_neq in E].
    + apply HU; auto.
    + apply H1; auto.
Qed.

Lemma heap_order_E1 ts q i : heap_order ts q -> E1 ts q i.
Proof. intros H j Hj _ _. apply H; auto. Qed.

Lemma heap_order_E3 ts q i : heap_order ts q -> E3 ts q i.
Proof.
  intros H Hi j Hj Hp. pose proof (par_lt j ltac:(lia)).
  pose proof (H i ltac:(lia)). pose proof (H j Hj) as Hx. rewrite Hp in Hx. lia.
Qed.

Lemma hq_update_node h i t : i < length (hq h) -> hq (update_node h i t) = setq (hq h) i t.
Proof. intros Hi. rewrite update_node_in by auto. reflexivity. Qed.

(* A loop step writes into the hole i a neighbour q[c] (the parent in up, the smaller child in
   down) that is in order with the other neighbours of i: by order_finish the array itself, q[c]
   now twice in it, is then a heap, which gives E1 and E3 at the new hole c. *)
Lemma hole_step ts h i c :
  i < length (hq h) -> c <> i -> E1 ts (hq h) i ->
  UpOK ts (hq h) i (getq (hq h) c) -> DownOK ts (hq h) i (getq (hq h) c) ->
  let q2 := hq (update_node h i (getq (hq h) c)) in
  heap_order ts q2 /\ length q2 = length (hq h) /\
  getq q2 c = getq (hq h) c /\ getq q2 i = getq (hq h) c.
Proof.
  intros Hi Hci H1 HU HD q2. unfold q2. rewrite hq_update_node by exact Hi.
  split; [apply order_finish; assumption|]. split; [apply setq_length|].
  rewrite !getq_setq by exact Hi. rewrite Nat.eqb_refl. apply Nat.eqb_neq in Hci. rewrite Hci. auto.
Qed.

Ltac splits := repeat match goal with |- _ /\ _ => split end.

Lemma up_loop_correct ts L0 h0 : forall fuel h tmp i moved h' j m,
  i < fuel -> LWf L0 h0 h tmp i -> E1 ts (hq h) i -> E3 ts (hq h) i ->
  (moved = true -> UpOK ts (hq h) i tmp) ->
  up_loop fuel ts h tmp i moved = (h', j, m) ->
  LWf L0 h0 h' tmp j /\ E1 ts (hq h') j /\ DownOK ts (hq h') j tmp /\
  (m = true -> UpOK ts (hq h') j tmp) /\ (m = false -> h' = h /\ j = i) /\
  (moved = true -> m = true).
Proof.
  induction fuel as [|f IH]; intros h tmp i moved h' j m Hfuel HW H1 H3 HU Hrun; [lia|].
  cbn [up_loop] in Hrun.
  destruct (i =? 0) eqn:Ei0; [apply Nat.eqb_eq in Ei0|apply Nat.eqb_neq in Ei0].
  - inversion Hrun; subst. splits; auto. intros Hlt; lia.
  - change (Nat.div2 (i - 1)) with (par i) in Hrun.
    assert (Hi : i < length (hq h)) by (destruct HW as (_ & _ & Hi & _); exact Hi).
    pose proof (par_lt i ltac:(lia)) as Hc.
    destruct (ts tmp <? ts (getq (hq h) (par i)))%Z eqn:Et;
      [apply Z.ltb_lt in Et|apply Z.ltb_ge in Et].
    + destruct (hole_step ts h i (par i) Hi ltac:(lia) H1 (H3 ltac:(lia)) (fun _ => Z.le_refl _))
        as (HO & _ & Hg & _).
      apply IH in Hrun; try lia.
      * destruct Hrun as (HW' & H1'' & HD'' & HU'' & _ & Hm).
        specialize (Hm eq_refl). splits; auto;
          try (intros Hf; rewrite Hm in Hf; discriminate).
      * apply LWf_step; auto; lia.
      * apply heap_order_E1; exact HO.
      * apply heap_order_E3; exact HO.
      * intros _ k Hk Hp. specialize (HO k Hk). rewrite Hp, Hg in HO. lia.
    + inversion Hrun; subst. splits; auto. intros _. lia.
Qed.

Lemma min_child_spec ts q i :
  2 * i + 1 < length q ->
  let c := 2 * i + 1 in
  let c' := if (c + 1 <? length q) && (ts (getq q (c + 1)) <? ts (getq q c))%Z then c + 1 else c in
  0 < c' < length q /\ par c' = i /\
  (forall j, 0 < j < length q -> par j = i -> (ts (getq q c') <= ts (getq q j))%Z).
Proof.
  intros Hc c c'. subst c c'.
  destruct (2 * i + 1 + 1 <? length q) eqn:E2; [apply Nat.ltb_lt in E2|apply Nat.ltb_ge in E2];
    cbn [andb].
  - destruct (ts (getq q (2 * i + 1 + 1)) <? ts (getq q (2 * i + 1)))%Z eqn:Et;
      [apply Z.ltb_lt in Et|apply Z.ltb_ge in Et].
    + split; [lia|]. split; [apply par_right|].
      intros j Hj Hp. destruct (par_child j i ltac:(lia) Hp) as [-> | ->]; lia.
    + split; [lia|]. split; [apply par_left|].
      intros j Hj Hp. destruct (par_child j i ltac:(lia) Hp) as [-> | ->]; lia.
  - split; [lia|]. split; [apply par_left|].
    intros j Hj Hp. destruct (par_child j i ltac:(lia) Hp) as [-> | ->]; lia.
Qed.

Lemma down_loop_correct ts L0 h0 : forall fuel h tmp i moved h' j m,
  length (hq h) < fuel + i -> LWf L0 h0 h tmp i -> E1 ts (hq h) i -> E3 ts (hq h) i ->
  DownOK ts (hq h) i tmp ->
  down_loop fuel ts h tmp i moved = (h', j, m) ->
  LWf L0 h0 h' tmp j /\ E1 ts (hq h') j /\ UpOK ts (hq h') j tmp /\ DownOK ts (hq h') j tmp /\
  (m = false -> h' = h /\ j = i) /\ (moved = true -> m = true).
Proof.
  induction fuel as [|f IH]; intros h tmp i moved h' j m Hfuel HW H1 H3 HD Hrun.
  { destruct HW as (_ & _ & Hi & _). lia. }
  cbn [down_loop] in Hrun. cbv zeta in Hrun.
  assert (Hi : i < length (hq h)) by (destruct HW as (_ & _ & Hi & _); exact Hi).
  destruct (2 * i + 1 <? length (hq h)) eqn:Ec; [apply Nat.ltb_lt in Ec|apply Nat.ltb_ge in Ec].
  - pose proof (min_child_spec ts (hq h) i Ec) as Hmc. cbv zeta in Hmc.
    remember (if (2 * i + 1 + 1 <? length (hq h)) &&
                 (ts (getq (hq h) (2 * i + 1 + 1)) <? ts (getq (hq h) (2 * i + 1)))%Z
              then 2 * i + 1 + 1 else 2 * i + 1) as c' eqn:Ec'.
    destruct Hmc as (Hc'r & Hpc & Hmin).
    pose proof (par_lt c' ltac:(lia)) as Hlt.
    destruct (ts (getq (hq h) c') <? ts tmp)%Z eqn:Et; [apply Z.ltb_lt in Et|apply Z.ltb_ge in Et].
    + destruct (hole_step ts h i c' Hi ltac:(lia) H1 Hmin (fun H0 => H3 H0 c' Hc'r Hpc))
        as (HO & Hl & _ & Hg).
      apply IH in Hrun.
      * destruct Hrun as (HW' & H1'' & HU'' & HD'' & _ & Hm).
        specialize (Hm eq_refl). splits; auto;
          try (intros Hf; rewrite Hm in Hf; discriminate).
      * rewrite Hl. lia.
      * apply LWf_step; auto; lia.
      * apply heap_order_E1; exact HO.
      * apply heap_order_E3; exact HO.
      * intros _. rewrite Hpc, Hg. lia.
    + inversion Hrun; subst h' j m. splits; auto.
      intros j Hj Hp. specialize (Hmin j Hj Hp). lia.
  - inversion Hrun; subst h' j m. splits; auto.
    intros j Hj Hp. destruct (par_child j i ltac:(lia) Hp); lia.
Qed.

Lemma up_correct ts h i h' m :
  Wf0 h -> i < length (hq h) -> E1 ts (hq h) i -> E3 ts (hq h) i ->
  up ts h i = (h', m) ->
  Wf0 h' /\ length (hq h') = length (hq h) /\
  (forall t, In t (hq h') <-> In t (hq h)) /\
  (forall t, ~ In t (hq h) -> hidx h' t = hidx h t) /\
  (m = true -> heap_order ts (hq h')) /\
  (m = false -> h' = h /\ DownOK ts (hq h) i (getq (hq h) i)).
Proof.
  intros HW Hi H1 H3 Hup. unfold up in Hup.
  destruct (up_loop (S (length (hq h))) ts h (getq (hq h) i) i false) as [[h1 j] m1] eqn:EL.
  apply (up_loop_correct ts (hq h) h) in EL; auto; try lia; try discriminate;
    [|apply LWf_init; auto].
  destruct EL as (HW1 & H1' & HD' & HU' & Hnm & _).
  destruct m1.
  - inversion Hup; subst h' m. clear Hup.
    pose proof (LWf_finish _ _ _ _ _ HW1) as HF. cbv zeta in HF.
    destruct HF as (HWf & Hq & Hlen & Hin & Hfr).
    splits; auto; try discriminate.
    intros _. rewrite Hq. apply order_finish; auto.
    destruct HW1 as (_ & _ & Hj & _). exact Hj.
  - inversion Hup; subst h' m. clear Hup.
    destruct (Hnm eq_refl) as (-> & ->).
    splits; auto; try discriminate; try tauto.
Qed.

Lemma down_correct ts h i h' m :
  Wf0 h -> i < length (hq h) -> E1 ts (hq h) i -> E3 ts (hq h) i ->
  DownOK ts (hq h) i (getq (hq h) i) ->
  down ts h i = (h', m) ->
  Wf0 h' /\ length (hq h') = length (hq h) /\
  (forall t, In t (hq h') <-> In t (hq h)) /\
  (forall t, ~ In t (hq h) -> hidx h' t = hidx h t) /\
  heap_order ts (hq h').
Proof.
  intros HW Hi H1 H3 HD Hdn. unfold down in Hdn.
  destruct (down_loop (S (length (hq h))) ts h (getq (hq h) i) i false) as [[h1 j] m1] eqn:EL.
  apply (down_loop_correct ts (hq h) h) in EL; auto; try lia; [|apply LWf_init; auto].
  destruct EL as (HW1 & H1' & HU' & HD' & Hnm & _).
  assert (Hj : j < length (hq h1)) by (destruct HW1 as (_ & _ & Hj & _); exact Hj).
  destruct m1.
  - inversion Hdn; subst h' m. clear Hdn.
    pose proof (LWf_finish _ _ _ _ _ HW1) as HF. cbv zeta in HF.
    destruct HF as (HWf & Hq & Hlen & Hin & Hfr).
    splits; auto.
    rewrite Hq. apply order_finish; auto.
  - inversion Hdn; subst h' m. clear Hdn.
    destruct (Hnm eq_refl) as (-> & ->).
    splits; auto; try tauto.
    (* nothing moved: q = setq q i q[i] *)
    intros k Hk. pose proof (order_finish ts (hq h) i (getq (hq h) i) Hi H1' HU' HD' k) as Ho.
    rewrite setq_length in Ho. specialize (Ho Hk).
    rewrite !vg_setq, !vg_self in Ho by auto. exact Ho.
Qed.

Lemma up_zero ts h : up ts h 0 = (h, false).
Proof. unfold up. cbn [up_loop Nat.eqb]. reflexivity. Qed.

Theorem push_spec ts h t :
  Inv ts h -> hidx h t = (-1)%Z ->
  Inv ts (push ts h t) /\ Permutation (hq (push ts h t)) (t :: hq h).
Proof.
  intros HI Hm1.
  pose proof (Inv_idx_m1_not_in ts h t HI Hm1) as Hnin.
  destruct HI as (Hb & Ho & Hi & Hout & Hn).
  unfold push.
  set (h1 := mkHeap (hq h ++ [t]) (updf (hidx h) t (Z.of_nat (length (hq h)))) (hbad h)).
  assert (Hperm1 : Permutation (hq h ++ [t]) (t :: hq h))
    by (apply Permutation_sym, Permutation_cons_append).
  assert (Hlen1 : length (hq h1) = length (hq h) + 1) by (subst h1; cbn [hq]; rewrite app_length; reflexivity).
  assert (HW1 : Wf0 h1).
  { unfold Wf0. splits; auto.
    - subst h1; cbn [hq]. apply (Permutation_NoDup (Permutation_sym Hperm1)).
      constructor; auto.
    - intros k Hk. rewrite Hlen1 in Hk. subst h1; cbn [hq hidx].
      destruct (Nat.eq_dec k (length (hq h))) as [->|Hne].
      + rewrite getq_app_last. apply updf_same.
      + rewrite getq_app_l by lia. rewrite updf_other.
        * apply Hi. lia.
        * intros Heq. apply Hnin. rewrite <- Heq. apply nth_In. lia. }
  assert (HE1 : E1 ts (hq h1) (length (hq h))).
  { intros j Hj Hji Hpj. rewrite Hlen1 in Hj. pose proof (par_lt j ltac:(lia)).
    subst h1; cbn [hq]. rewrite !getq_app_l by lia. apply Ho. lia. }
  assert (HE3 : E3 ts (hq h1) (length (hq h))).
  { intros H0 j Hj Hpj. rewrite Hlen1 in Hj. destruct (par_child j _ ltac:(lia) Hpj); lia. }
  destruct (up ts h1 (length (hq h))) as [h' m] eqn:Eup. cbn [fst].
  apply up_correct in Eup; auto; [|lia].
  destruct Eup as (HW' & Hlen' & Hin' & Hfr' & Hmt & Hmf).
  assert (Hord : heap_order ts (hq h')).
  { destruct m; [apply Hmt; auto|]. destruct (Hmf eq_refl) as (-> & HD).
    intros j Hj. rewrite Hlen1 in Hj.
    destruct (Nat.eq_dec j (length (hq h))) as [->|Hne].
    - apply HD. lia.
    - apply HE1; auto; try lia. pose proof (par_lt j ltac:(lia)). lia. }
  split.
  - apply Inv_intro; auto.
    intros x Hx. rewrite Hin' in Hx. rewrite Hfr' by auto.
    subst h1; cbn [hq hidx] in *. rewrite in_app_iff in Hx. simpl In in Hx.
    rewrite updf_other by (intros ->; tauto). apply Hout. tauto.
  - apply Permutation_trans with (hq h1); auto.
    destruct HW' as (_ & Hn' & _). destruct HW1 as (_ & Hn1 & _).
    apply NoDup_Permutation; auto.
Qed.

Theorem push_Inv ts h t : Inv ts h -> hidx h t = (-1)%Z -> Inv ts (push ts h t).
Proof. intros H1 H2. apply push_spec; auto. Qed.

Theorem push_perm ts h t :
  Inv ts h -> hidx h t = (-1)%Z -> Permutation (hq (push ts h t)) (t :: hq h).
Proof. intros H1 H2. apply push_spec; auto. Qed.

(* thread 4 is not queued; pushing it with deadline 3 (a tie with the current minimum) or 4 *)
Example push_Inv_ex :
  Inv (updf ex_ts 4 3%Z) ex_h /\ hidx ex_h 4 = (-1)%Z /\
  hq (push (updf ex_ts 4 3%Z) ex_h 4) = [3; 4; 2; 1; 0] /\
  hq (push (updf ex_ts 4 4%Z) ex_h 4) = [3; 4; 2; 1; 0] /\
  hq (push (updf ex_ts 4 2%Z) ex_h 4) = [4; 3; 2; 1; 0].
Proof.
  split; [|vm_compute; auto].
  apply Inv_ts_ext with (ts := ex_ts); [exact ex_Inv|].
  intros t Ht. simpl in Ht. destruct Ht as [<- | [<- | [<- | [<- | []]]]]; reflexivity.
Qed.

(* what is left of h when t is removed, with idx t := -1 *)
Lemma Inv_remove ts h h' t :
  Inv ts h -> Wf0 h' -> heap_order ts (hq h') -> Permutation (hq h) (t :: hq h') ->
  (forall x, ~ In x (hq h) -> hidx h' x = hidx h x) ->
  Inv ts (set_idx h' t (-1)).
Proof.
  intros (_ & _ & _ & Hout & Hn) (Hb' & Hn' & Hi') Ho' Hperm Hfr.
  pose proof (Permutation_NoDup Hperm Hn) as Hn2. inversion Hn2 as [|? ? Hnin _]; subst.
  apply Inv_intro.
  - unfold Wf0, set_idx. cbn [hq hidx hbad]. splits; auto.
    intros k Hk. rewrite updf_other; auto. intros Heq. apply Hnin. rewrite <- Heq. apply nth_In; auto.
  - exact Ho'.
  - unfold set_idx. cbn [hq hidx]. intros x Hx.
    destruct (Nat.eq_dec x t) as [->|Hxt]; [apply updf_same|]. rewrite updf_other by auto.
    assert (Hx' : ~ In x (hq h)).
    { intros Hin. apply (Permutation_in _ Hperm) in Hin. destruct Hin; [congruence|tauto]. }
    rewrite Hfr by exact Hx'. apply Hout; exact Hx'.
Qed.

Lemma remove_last_correct ts h :
  Inv ts h -> hq h <> [] ->
  let t := last (hq h) 0 in
  Inv ts (set_idx (pop_back h) t (-1)) /\ Permutation (hq h) (t :: removelast (hq h)).
Proof.
  intros HI Hne t. pose proof HI as (Hb & Ho & Hi & _ & Hn).
  assert (Hperm : Permutation (hq h) (t :: removelast (hq h))).
  { rewrite (app_removelast_last 0 Hne) at 1. fold t.
    apply Permutation_sym, Permutation_cons_append. }
  pose proof (Permutation_NoDup Hperm Hn) as Hn2. inversion Hn2 as [|? ? _ Hn3]; subst.
  split; [|exact Hperm].
  apply (Inv_remove ts h); auto.
  - unfold Wf0, pop_back. cbn [hq hidx hbad]. splits; auto.
    intros k Hk. rewrite removelast_len in Hk. rewrite getq_removelast by auto. apply Hi. lia.
  - unfold pop_back. cbn [hq]. intros j Hj. rewrite removelast_len in Hj.
    pose proof (par_lt j ltac:(lia)). rewrite !getq_removelast by lia. apply Ho. lia.
Qed.

Lemma setq_app_l (q r : list tid) i v : i < length q -> setq (q ++ r) i v = setq q i v ++ r.
Proof. revert i; induction q as [|x q IH]; intros [|i] Hi; simpl in *; try lia; auto. rewrite IH by lia. reflexivity. Qed.

Lemma setq_perm q i v : i < length q -> Permutation (v :: q) (getq q i :: setq q i v).
Proof.
  unfold getq. revert i; induction q as [|x q IH]; intros [|i] Hi; simpl in *; try lia.
  - apply perm_swap.
  - eapply perm_trans; [apply perm_swap|]. eapply perm_trans; [apply perm_skip, (IH i); lia|]. apply perm_swap.
Qed.

Lemma replace_last_correct ts h i :
  Inv ts h -> i < length (hq h) - 1 ->
  let b := last (hq h) 0 in
  let h2 := pop_back (update_node h i b) in
  Wf0 h2 /\ E1 ts (hq h2) i /\ E3 ts (hq h2) i /\ length (hq h2) = length (hq h) - 1 /\
  Permutation (hq h) (getq (hq h) i :: hq h2) /\
  (forall x, x <> b -> hidx h2 x = hidx h x) /\ In b (hq h2).
Proof.
  intros (Hb & Ho & Hi & Hout & Hn) Hlt b h2.
  assert (Hne : hq h <> []) by (intros E; rewrite E in Hlt; simpl in Hlt; lia).
  (* the array is q' ++ [b]; afterwards it is q' with b at position i *)
  set (q' := removelast (hq h)).
  assert (Eq : hq h = q' ++ [b]) by (apply app_removelast_last; exact Hne).
  assert (Hl : length q' = length (hq h) - 1) by apply removelast_len.
  assert (Hq2 : hq h2 = setq q' i b).
  { subst h2. unfold pop_back. rewrite update_node_in by lia.
    change (removelast (setq (hq h) i b) = setq q' i b).
    rewrite Eq at 1. rewrite setq_app_l by lia. apply removelast_last. }
  assert (Hidx2 : hidx h2 = updf (hidx h) b (Z.of_nat i)).
  { subst h2. unfold pop_back. rewrite update_node_in by lia. reflexivity. }
  assert (Hbad2 : hbad h2 = false).
  { subst h2. unfold pop_back. rewrite update_node_in by lia. exact Hb. }
  clearbody h2.
  assert (Hlen2 : length (hq h2) = length (hq h) - 1) by (rewrite Hq2, setq_length; exact Hl).
  assert (Hgo : forall k, k < length (hq h) - 1 -> k <> i -> getq (hq h2) k = getq (hq h) k).
  { intros k Hk Hki. rewrite Hq2, getq_setq by lia. apply Nat.eqb_neq in Hki. rewrite Hki.
    apply getq_removelast; exact Hk. }
  assert (Hgi : getq (hq h2) i = b) by (rewrite Hq2, getq_setq, Nat.eqb_refl by lia; reflexivity).
  assert (Hperm : Permutation (hq h) (getq (hq h) i :: hq h2)).
  { rewrite Hq2, <- (getq_removelast (hq h) i Hlt). fold q'. rewrite Eq at 1.
    eapply perm_trans; [apply Permutation_sym, Permutation_cons_append|]. apply setq_perm. lia. }
  pose proof (Permutation_NoDup Hperm Hn) as Hn2. inversion Hn2 as [|? ? Hnin Hn2']; subst.
  splits; auto.
  - unfold Wf0. splits; auto. rewrite Hlen2, Hidx2. intros k Hk.
    destruct (Nat.eq_dec k i) as [->|Hki].
    + rewrite Hgi. apply updf_same.
    + rewrite Hgo by auto. rewrite updf_other; [apply Hi; lia|].
      unfold b. rewrite <- getq_last by auto. intros Heq. apply (proj1 (NoDup_getq (hq h)) Hn) in Heq; lia.
  - intros j Hj Hji Hpj. rewrite Hlen2 in Hj. pose proof (par_lt j ltac:(lia)).
    rewrite !Hgo by lia. apply Ho. lia.
  - intros H0 j Hj Hpj. rewrite Hlen2 in Hj. pose proof (par_lt j ltac:(lia)).
    pose proof (par_lt i H0). rewrite !Hgo by lia.
    pose proof (Ho i ltac:(lia)). pose proof (Ho j ltac:(lia)) as Hoj. rewrite Hpj in Hoj. lia.
  - intros x Hx. rewrite Hidx2. apply updf_other; auto.
  - apply In_getq. exists i. rewrite Hlen2. split; auto.
Qed.

Lemma remove_mid_correct ts h i :
  Inv ts h -> i < length (hq h) - 1 ->
  let t := getq (hq h) i in
  let b := last (hq h) 0 in
  let h2 := pop_back (update_node h i b) in
  forall h3 m, up ts h2 i = (h3, m) ->
  let h4 := if m then h3 else fst (down ts h3 i) in
  Inv ts (set_idx h4 t (-1)) /\ Permutation (hq h) (t :: hq h4).
Proof.
  intros HI Hlt t b h2 h3 m Hup h4.
  pose proof (replace_last_correct ts h i HI Hlt) as R. cbv zeta in R.
  fold b in R. fold h2 in R. fold t in R.
  destruct R as (HW2 & HE1 & HE3 & Hlen2 & Hperm & Hfr2 & Hbin).
  clearbody h2.
  assert (Hi2 : i < length (hq h2)) by lia.
  apply up_correct in Hup; auto.
  destruct Hup as (HW3 & Hlen3 & Hin3 & Hfr3 & Hmt & Hmf).
  assert (H4 : Wf0 h4 /\ (forall x, In x (hq h4) <-> In x (hq h2)) /\
               (forall x, ~ In x (hq h2) -> hidx h4 x = hidx h2 x) /\ heap_order ts (hq h4)).
  { subst h4. destruct m.
    - splits; auto.
    - destruct (Hmf eq_refl) as (-> & HD).
      destruct (down ts h2 i) as [h5 m5] eqn:Edn. cbn [fst].
      apply down_correct in Edn; auto.
      destruct Edn as (HW5 & _ & Hin5 & Hfr5 & Ho5). splits; auto. }
  clearbody h4. destruct H4 as (HW4 & Hin4 & Hfr4 & Ho4).
  pose proof HI as (_ & _ & _ & _ & Hn).
  pose proof (Permutation_NoDup Hperm Hn) as Hn2. inversion Hn2 as [|? ? _ Hn2']; subst.
  assert (Hperm4 : Permutation (hq h) (t :: hq h4)).
  { apply Permutation_trans with (t :: hq h2); auto. apply perm_skip.
    destruct HW4 as (_ & Hn4 & _). apply NoDup_Permutation; auto. intros x. symmetry. apply Hin4. }
  split; [|exact Hperm4].
  apply (Inv_remove ts h); auto.
  intros x Hx.
  assert (Hx2 : ~ In x (hq h2)).
  { intros X. apply Hx, (Permutation_in _ (Permutation_sym Hperm)). right; exact X. }
  rewrite Hfr4 by exact Hx2. apply Hfr2. intros ->. exact (Hx2 Hbin).
Qed.

Example pop_front_ex :
  Inv ex_ts ex_h /\ hq ex_h <> [] /\
  (let (h', r) := pop_front ex_ts ex_h in (hq h', r)) = ([1; 0; 2], Some 3).
Proof. split; [exact ex_Inv|]. split; [discriminate | vm_compute; reflexivity]. Qed.

Theorem pop_correct ts h t :
  Inv ts h -> In t (hq h) ->
  exists h', pop ts h t = (h', 0%Z) /\ Inv ts h' /\ Permutation (hq h) (t :: hq h') /\
             hidx h' t = (-1)%Z.
Proof.
  intros HI Hin.
  destruct (Inv_idx_of_member ts h t HI Hin) as (k & Hk & Hgk & Hik).
  assert (Hne : hq h <> []) by (intros E; rewrite E in Hk; simpl in Hk; lia).
  unfold pop. rewrite Hik.
  destruct (Z.of_nat k =? -1)%Z eqn:E0; [apply Z.eqb_eq in E0; lia|].
  destruct ((Z.of_nat k <? 0)%Z || (Z.of_nat (length (hq h)) <=? Z.of_nat k)%Z) eqn:E1.
  { apply orb_true_iff in E1. destruct E1 as [E1|E1];
      [apply Z.ltb_lt in E1|apply Z.leb_le in E1]; lia. }
  rewrite Nat2Z.id.
  destruct (k =? length (hq h) - 1) eqn:E2; [apply Nat.eqb_eq in E2|apply Nat.eqb_neq in E2].
  - pose proof (remove_last_correct ts h HI Hne) as R. cbv zeta in R.
    assert (Hl : last (hq h) 0 = t) by (rewrite <- getq_last by auto; rewrite <- E2; auto).
    rewrite Hl in R. destruct R as (R1 & R2).
    eexists; splits; eauto. apply updf_same.
  - destruct (length (hq h) =? 1) eqn:E3; [apply Nat.eqb_eq in E3; lia|].
    assert (Hlt : k < length (hq h) - 1) by lia.
    pose proof (remove_mid_correct ts h k HI Hlt) as R. cbv zeta in R.
    destruct (up ts (pop_back (update_node h k (last (hq h) 0))) k) as [h3 m] eqn:Eup.
    specialize (R _ _ eq_refl). rewrite Hgk in R. destruct R as (R1 & R2).
    eexists; splits; eauto. apply updf_same.
Qed.

(* pop_front is pop of the front: at index 0 `up` does nothing *)
Lemma pop_front_pop ts h t :
  Inv ts h -> front h = Some t -> pop_front ts h = (fst (pop ts h t), Some t).
Proof.
  intros (_ & _ & Hi & _) Hf. unfold front in Hf. unfold pop_front, pop.
  destruct (hq h) as [|x r] eqn:Eq; [discriminate|]. injection Hf as ->.
  pose proof (Hi 0 ltac:(simpl; lia)) as H0. cbn [nth Z.of_nat] in H0. rewrite H0.
  cbn [length Z.of_nat Z.eqb Z.ltb Z.leb Z.compare orb Z.to_nat].
  destruct r as [|y r]; [reflexivity|]. cbn [length Nat.sub Nat.eqb]. rewrite up_zero. reflexivity.
Qed.

Theorem pop_front_correct ts h :
  Inv ts h -> hq h <> [] ->
  exists h' t,
    pop_front ts h = (h', Some t) /\ front h = Some t /\
    (forall u, In u (hq h) -> (ts t <= ts u)%Z) /\
    Inv ts h' /\ Permutation (hq h) (t :: hq h') /\ hidx h' t = (-1)%Z.
Proof.
  intros HI Hne. destruct (front h) as [t|] eqn:Hf; [|unfold front in Hf; destruct (hq h); congruence].
  assert (Hin : In t (hq h)) by (unfold front in Hf; destruct (hq h); [discriminate|injection Hf as ->; left; reflexivity]).
  destruct (pop_correct ts h t HI Hin) as (h' & Hp & HI' & Hperm & Hm).
  exists h', t. rewrite (pop_front_pop ts h t HI Hf), Hp. splits; auto.
  exact (front_is_min ts h t HI Hf).
Qed.

Theorem pop_absent ts h t : Inv ts h -> ~ In t (hq h) -> pop ts h t = (h, (-1)%Z).
Proof.
  intros (_ & _ & _ & Hout & _) Hnin. unfold pop. rewrite (Hout t Hnin). reflexivity.
Qed.

(* removing thread 0 (position 1, middle of the array, deadline tied with thread 1); thread 9
   is not queued *)
Example pop_ex :
  Inv ex_ts ex_h /\ In 0 (hq ex_h) /\ ~ In 9 (hq ex_h) /\
  (let (h', r) := pop ex_ts ex_h 0 in (hq h', r)) = ([3; 1; 2], 0%Z) /\
  snd (pop ex_ts ex_h 9) = (-1)%Z.
Proof.
  split; [exact ex_Inv|]. split; [simpl; tauto|]. split; [simpl; lia|].
  split; vm_compute; reflexivity.
Qed.

Definition HSInv (s : hstate) : Prop := Inv (hs_ts s) (hs_heap s).

Lemma hempty_false h : hempty h = false -> hq h <> [].
Proof. unfold hempty. destruct (hq h); [discriminate|]. intros _; discriminate. Qed.

Lemma hempty_true h : hempty h = true -> hq h = [].
Proof. unfold hempty. destruct (hq h); [auto|discriminate]. Qed.

Lemma hop_step_pop_front s s' v :
  HSInv s -> hop_step s HPopFront = (s', v) ->
  (hq (hs_heap s) = [] /\ v = (-2)%Z /\ s' = s) \/
  (exists t, v = Z.of_nat t /\ front (hs_heap s) = Some t /\
             (forall u, In u (hq (hs_heap s)) -> (hs_ts s t <= hs_ts s u)%Z) /\
             Permutation (hq (hs_heap s)) (t :: hq (hs_heap s')) /\
             hidx (hs_heap s') t = (-1)%Z /\ hs_ts s' = hs_ts s /\ HSInv s').
Proof.
  intros HI Hst. cbn [hop_step] in Hst.
  destruct (hempty (hs_heap s)) eqn:Ee.
  - left. inversion Hst; subst. splits; auto. apply hempty_true; auto.
  - right. apply hempty_false in Ee.
    destruct (pop_front_correct _ _ HI Ee) as (h' & t & Hpf & Hfr & Hmin & HI' & Hperm & Hm1).
    rewrite Hpf in Hst. inversion Hst; subst. exists t. splits; auto.
Qed.

Lemma hop_step_Inv s o s' v : HSInv s -> hop_step s o = (s', v) -> HSInv s'.
Proof.
  intros HI Hst. destruct o as [t d| |t].
  - cbn [hop_step] in Hst.
    destruct (hidx (hs_heap s) t =? -1)%Z eqn:E; [apply Z.eqb_eq in E|inversion Hst; subst; auto].
    inversion Hst; subst. unfold HSInv. cbn [hs_ts hs_heap].
    apply push_Inv; auto.
    apply Inv_ts_ext with (ts := hs_ts s); auto.
    intros x Hx. apply updf_other. intros ->.
    exact (Inv_idx_m1_not_in _ _ _ HI E Hx).
  - destruct (hop_step_pop_front s s' v HI Hst) as [(_ & _ & ->) | (t & _ & _ & _ & _ & _ & _ & H)]; auto.
  - cbn [hop_step] in Hst.
    destruct (in_dec Nat.eq_dec t (hq (hs_heap s))) as [Hin|Hnin].
    + destruct (pop_correct _ _ _ HI Hin) as (h' & Hp & HI' & _).
      rewrite Hp in Hst. inversion Hst; subst. exact HI'.
    + rewrite (pop_absent _ _ _ HI Hnin) in Hst. inversion Hst; subst. destruct s; exact HI.
Qed.

Lemma hops_run_Inv : forall l s acc s' rs,
  HSInv s -> hops_run s l acc = (s', rs) -> HSInv s'.
Proof.
  induction l as [|o l IH]; intros s acc s' rs HI Hrun; cbn [hops_run] in Hrun.
  - inversion Hrun; subst; auto.
  - destruct (hop_step s o) as [s1 v] eqn:Est. eapply IH; [|exact Hrun].
    eapply hop_step_Inv; eauto.
Qed.

Lemma HSInv_init : HSInv hstate_init.
Proof. apply Inv_empty. Qed.

(* the ops of a run are hop_steps on the reached states: running l ++ [o] = running l, then o *)
Lemma hops_run_snoc : forall l o s acc,
  hops_run s (l ++ [o]) acc =
  let (s1, r1) := hops_run s l acc in
  (fst (hop_step s1 o), r1 ++ [snd (hop_step s1 o)]).
Proof.
  induction l as [|x l IH]; intros o s acc; cbn [app hops_run].
  - destruct (hop_step s o) as [s1 v]. cbn [fst snd rev]. reflexivity.
  - destruct (hop_step s x) as [s1 v]. apply IH.
Qed.

(* a concrete run: 5 pushes (ties and 2^64-1), a pop from the middle, two pop_fronts *)
Definition ex_ops : list hop :=
  [HPush 0 5%Z; HPush 1 5%Z; HPush 2 18446744073709551615%Z; HPush 3 3%Z; HPush 4 5%Z;
   HPop 0; HPopFront; HPush 3 7%Z; HPopFront].

Example hops_Inv_ex :
  exists s rs, hops_run hstate_init ex_ops [] = (s, rs) /\
               hq (hs_heap s) = [4; 3; 2] /\ rs = [0; 0; 0; 0; 0; 0; 3; 0; 1]%Z /\
               hop_step s HPopFront = (fst (hop_step s HPopFront), 4%Z).
Proof.
  exists (fst (hops_run hstate_init ex_ops [])), (snd (hops_run hstate_init ex_ops [])).
  split; [apply surjective_pairing|]. split; [vm_compute; reflexivity|].
  split; [vm_compute; reflexivity|].
  rewrite (surjective_pairing (hop_step _ _)) at 1. f_equal.
Qed.
