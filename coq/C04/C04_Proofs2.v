(* C04_Proofs2.v — the statements interrupt_at_most_once (F6/F7) and shutdown_bound (F8) that the model
   refutes, with the concrete witnesses, and what holds instead of the former. *)
From Coq Require Import ZArith List Bool Arith Lia.
From PV Require Import Base.U64 C04.C04_Heap C04.C04_HeapProofs Sched.Core Sched.Prog Sched.Lemmas
                       Sched.Invariant Sched.Effects C04.C04_Inv C04.C04_Good C04.C04_Step C04.C04_Step2
                       C04.C04_Proofs.
Import ListNotations.
Local Open Scope Z_scope.

(* interrupt_at_most_once: REFUTED (F6, F7).
   An event REPORTS an interrupt if it is a usleep that returned -1 other than by the 10 ms cap of a
   shut-down thread, or a yield that returned a non-zero error_number.  `ev_src` identifies the
   delivery (the index of the interrupting op's event).  The property says that two different
   events of a thread never report the same delivery. *)
Definition reports_interrupt (ps : list (list core_op)) (ev : event) : Prop :=
  (exists d, ev_cop ps ev = Some (OUsleep d) /\ ev_ret ev = -1 /\ ev_k ev <> [3]) \/
  (ev_cop ps ev = Some OYield /\ ev_ret ev <> 0) \/
  (exists j, ev_cop ps ev = Some (OYieldTo j) /\ ev_k ev = [1] /\ ev_ret ev <> 0).

Definition interrupt_at_most_once : Prop :=
  forall ps fuel i j e1 e2, ps <> [] -> NZ_progs ps ->
    nth_error (run_trace fuel ps) i = Some e1 -> nth_error (run_trace fuel ps) j = Some e2 -> i <> j ->
    reports_interrupt ps e1 -> reports_interrupt ps e2 -> ev_tid e1 = ev_tid e2 ->
    ev_src e1 <> ev_src e2.

(* the witness: T0 creates T1, yields to it, interrupts it (it is READY inside thread_yield), then
   sleeps; T1 yields, then sleeps 200 us.  T1's yield returns 4, and its usleep(200) sleeps the full
   200 us and returns -1 / errno 4 for the SAME interrupt (event 2). *)
Definition f6_witness : list (list core_op) :=
  [[OCreate 1%nat false; OYield; OInterrupt 1%nat 4; OUsleep 500]; [OYield; OUsleep 200]].

Lemma f6_witness_trace :
  map (fun e => (ev_tid e, ev_pc e, ev_ret e, ev_err e, ev_time e, ev_src e)) (run_trace 100 f6_witness) =
  [(0%nat, 0%nat, 0, 0, 1000, 0%nat); (0%nat, 1%nat, 0, 0, 1000, 0%nat); (0%nat, 2%nat, 0, 0, 1000, 0%nat);
   (1%nat, 0%nat, 4, 0, 1000, 2%nat); (1%nat, 1%nat, -1, 4, 1200, 2%nat); (0%nat, 3%nat, 0, 0, 1500, 0%nat)].
Proof. vm_compute. reflexivity. Qed.

Example f6_witness_NZ : f6_witness <> [] /\ NZ_progs f6_witness.
Proof.
  split; [discriminate|].
  intros t pc k e. destruct t as [|[|[|t]]]; destruct pc as [|[|[|[|pc]]]]; simpl; try discriminate; try (destruct pc; discriminate).
  intros [= _ <-]. discriminate.
Qed.

(* shutdown_bound: REFUTED for wait-queue blocking (F8).
   The full property: no completed op of a thread that was marked by thread_shutdown when it issued
   the op takes more than 10 ms. *)
Definition shutdown_bound : Prop :=
  forall ps fuel ev, ps <> [] -> NZ_progs ps -> In ev (run_trace fuel ps) ->
    ev_shut ev = true -> ev_time ev <= ev_issued ev + SHUTDOWN_CAP.

(* the witness: T2 is marked by thread_shutdown before it first runs; its thread_join(T1) waits on
   T1's condition variable (cvar_do_wait -> thread_usleep_defer(timeout, waitq, ...): no cap) until
   T1 finishes its 30 ms sleep. *)
Definition f8_witness : list (list core_op) :=
  [[OCreate 1%nat true; OCreate 2%nat false; OShutdown 2%nat true; OUsleep 50000]; [OUsleep 30000]; [OJoin 1%nat]].

Lemma f8_witness_trace :
  map (fun e => (ev_tid e, ev_pc e, ev_ret e, ev_time e, ev_issued e, ev_shut e)) (run_trace 100 f8_witness) =
  [(0%nat, 0%nat, 0, 1000, 1000, false); (0%nat, 1%nat, 0, 1000, 1000, false); (0%nat, 2%nat, 0, 1000, 1000, false);
   (1%nat, 0%nat, 0, 31000, 1000, false); (2%nat, 0%nat, 1001, 31000, 1000, true); (0%nat, 3%nat, 0, 51000, 1000, false)].
Proof. vm_compute. reflexivity. Qed.

(* What does hold: a real sleep CONSUMES the interrupt it reports.
   If a thread_usleep that actually slept (phase [1]) returns -1 for delivery number s, no later
   event of that thread reports a delivery <= s: duplicates arise only from yields (thread_yield,
   thread_yield_to, usleep(0)), which report without consuming. *)
Lemma Pairs_rev progs tr : Pairs progs tr ->
  forall i j e1 e2, nth_error (rev tr) i = Some e1 -> nth_error (rev tr) j = Some e2 -> (i < j)%nat ->
    ev_tid e1 = ev_tid e2 -> clearing progs e1 -> reports progs e2 -> (ev_src e1 < ev_src e2)%nat.
Proof.
  induction tr as [|x r IH]; intros P i j e1 e2 H1 H2 Hij Ht Hc Hr.
  - destruct i; discriminate.
  - simpl in P. destruct P as (P & Hx). simpl in H1, H2.
    assert (Hj : (j < length (rev r ++ [x]))%nat) by (apply nth_error_Some; congruence).
    rewrite app_length, rev_length in Hj. simpl in Hj.
    destruct (Nat.eq_dec j (length r)) as [->|Hne].
    + rewrite nth_error_app2 in H2 by (rewrite rev_length; lia). rewrite rev_length, Nat.sub_diag in H2.
      injection H2 as <-. rewrite nth_error_app1 in H1 by (rewrite rev_length; lia).
      apply Hx; auto. apply in_rev. eapply nth_error_In; eauto.
    + rewrite nth_error_app1 in H1 by (rewrite rev_length; lia).
      rewrite nth_error_app1 in H2 by (rewrite rev_length; lia).
      eapply IH; eauto.
Qed.

(* Examples: concrete instances of the hypotheses of the theorems *)
(* hypotheses of sleep_zero_means_elapsed / sleep_zero_elapsed_at_least: T0's usleep(500) returns 0 *)
Example ex_sleep_zero :
  exists ev d, In ev (s_trace (run_state 100 f6_witness)) /\ ev_cop f6_witness ev = Some (OUsleep d) /\
               ev_ret ev = 0 /\ 0 <= d /\ ev_issued ev + d <= MAX64 /\ ev_time ev - ev_issued ev = 500.
Proof.
  exists (nth 5 (run_trace 100 f6_witness) (mkEv 0%nat 0%nat 0 0 0 0 false [] 0%nat)), 500.
  vm_compute. repeat split; try discriminate; tauto.
Qed.

(* hypotheses of sleep_minus1_means_interrupted: T1's usleep(200) returns -1 / errno 4 *)
Example ex_sleep_minus1 :
  exists ev d, In ev (s_trace (run_state 100 f6_witness)) /\ ev_cop f6_witness ev = Some (OUsleep d) /\
               ev_ret ev = -1 /\ ev_err ev = 4.
Proof.
  exists (nth 4 (run_trace 100 f6_witness) (mkEv 0%nat 0%nat 0 0 0 0 false [] 0%nat)), 200.
  vm_compute. repeat split; tauto.
Qed.

(* hypotheses of shutdown_bound_usleep: T1 is marked before it first runs; its usleep(30000) returns
   -1 / EPERM after exactly 10000 us *)
Definition shut_witness : list (list core_op) :=
  [[OCreate 1%nat false; OShutdown 1%nat true; OUsleep 50000]; [OUsleep 30000]].
Example ex_shutdown_usleep :
  exists ev d, In ev (s_trace (run_state 100 shut_witness)) /\ ev_cop shut_witness ev = Some (OUsleep d) /\
               ev_shut ev = true /\ expired (ev_issued ev) (timeout_of (ev_issued ev) d) = false /\
               ev_ret ev = -1 /\ ev_err ev = EPERM /\ ev_time ev = ev_issued ev + 10000.
Proof.
  exists (nth 2 (run_trace 100 shut_witness) (mkEv 0%nat 0%nat 0 0 0 0 false [] 0%nat)), 30000.
  vm_compute. repeat split; tauto.
Qed.

(* hypotheses of deadline_met and of interrupt_wakes_sleeper: after 10 steps of the F6 witness both
   program threads sleep (deadlines 1200 and 1500) and the idler (thread 2) is the current thread *)
Example ex_idler_round :
  let st := run_state 10 f6_witness in
  GI (core_progs f6_witness) st /\ s_runq st = [idler_tid st] /\
  th_state (getth st 0%nat) = SLEEPING /\ th_state (getth st 1%nat) = SLEEPING /\
  th_ts (getth st 1%nat) = 1200 /\ WF st.
Proof.
  destruct f6_witness_NZ as (A & B). destruct (run_GI_TI 10 f6_witness A B) as (G & _).
  cbv zeta. split; [exact G|]. split; [vm_compute; reflexivity|]. split; [vm_compute; reflexivity|].
  split; [vm_compute; reflexivity|]. split; [vm_compute; reflexivity|]. apply (gi_wf G).
Qed.

(* hypotheses of sleep_consumes_interrupt: T1's first sleep consumes delivery 2, its second sleep
   reports delivery 5 *)
Definition consume_witness : list (list core_op) :=
  [[OCreate 1%nat false; OUsleep 10; OInterrupt 1%nat 4; OUsleep 100; OInterrupt 1%nat 11; OUsleep 100];
   [OUsleep 1000; OUsleep 1000]].
Example ex_consumes :
  exists e1 e2, nth_error (run_trace 200 consume_witness) 3 = Some e1 /\ nth_error (run_trace 200 consume_witness) 6 = Some e2 /\
    ev_tid e1 = ev_tid e2 /\ ev_cop consume_witness e1 = Some (OUsleep 1000) /\ ev_k e1 = [1] /\ ev_ret e1 = -1 /\
    reports_interrupt consume_witness e2 /\ ev_src e1 = 2%nat /\ ev_src e2 = 5%nat.
Proof.
  exists (nth 3 (run_trace 200 consume_witness) (mkEv 0%nat 0%nat 0 0 0 0 false [] 0%nat)),
         (nth 6 (run_trace 200 consume_witness) (mkEv 0%nat 0%nat 0 0 0 0 false [] 0%nat)).
  split; [vm_compute; reflexivity|]. split; [vm_compute; reflexivity|].
  split; [vm_compute; reflexivity|]. split; [vm_compute; reflexivity|].
  split; [vm_compute; reflexivity|]. split; [vm_compute; reflexivity|].
  split; [|split; vm_compute; reflexivity].
  left. exists 1000. vm_compute. split; [reflexivity|]. split; [reflexivity|discriminate].
Qed.
